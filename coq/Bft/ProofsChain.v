(* Bft/ProofsChain.v — chains of a well-formed repository; the quality "from the definitions" (state_pure: no persisted
   records, no caches) and its agreement with computeState when the persisted quality records are right;
   quality is monotone along a chain and grows by at most one per block.  In between: the arithmetic of checkpoints and
   store points (Section Epoch) that the later files use. *)
From Coq Require Import List NArith ZArith Bool Lia.
From Coq Require Import ZifyN ZifyNat ZifyBool.
From Verif Require Import Common.Util Bft.Tree Bft.Model Bft.Quorum Bft.ProofsTally.
Import ListNotations.
Open Scope N_scope.

Lemma find_blk_id r id x : find_blk r id = Some x -> b_id x = id /\ In x r.
Proof.
  unfold find_blk. intros H. pose proof (find_some _ _ H) as [Hin E]. apply N.eqb_eq in E. tauto.
Qed.

Lemma known_find r id : known r id = true <-> exists x, find_blk r id = Some x.
Proof. unfold known. destruct (find_blk r id); split; try discriminate; eauto. intros [x H]; discriminate. Qed.

Lemma known_in r x : In x r -> known r (b_id x) = true.
Proof.
  unfold known, find_blk. intros Hin. destruct (find _ r) eqn:E; [reflexivity|].
  pose proof (find_none _ _ E x Hin) as H. cbn in H. rewrite N.eqb_refl in H. discriminate.
Qed.

Lemma fresh_not_in r id x : known r id = false -> In x r -> id <> b_id x.
Proof. intros Hf Hin E. rewrite E, (known_in r x Hin) in Hf. discriminate. Qed.

Lemma find_blk_head b r : find_blk (b :: r) (b_id b) = Some b.
Proof. unfold find_blk. cbn [find]. rewrite N.eqb_refl. reflexivity. Qed.

Lemma find_blk_other b r id x : known r (b_id b) = false -> find_blk r id = Some x -> find_blk (b :: r) id = Some x.
Proof.
  intros Hfresh Hf. unfold find_blk. cbn [find]. destruct (b_id b =? id) eqn:E; [|exact Hf].
  apply N.eqb_eq in E. unfold known in Hfresh. rewrite E, Hf in Hfresh. discriminate.
Qed.

Lemma chain_of_fresh b r id : b_id b <> id -> chain_of (b :: r) id = chain_of r id.
Proof. intros H. cbn. apply N.eqb_neq in H. rewrite H. reflexivity. Qed.

Lemma chain_of_head b r : chain_of (b :: r) (b_id b) = b :: chain_of r (b_parent b).
Proof. cbn. rewrite N.eqb_refl. reflexivity. Qed.

Lemma chain_of_unknown r id : known r id = false -> chain_of r id = [].
Proof.
  unfold known, find_blk. induction r as [|b r IH]; cbn; [reflexivity|].
  destruct (b_id b =? id); [discriminate | exact IH].
Qed.

Lemma chain_incl r : forall id x, In x (chain_of r id) -> In x r.
Proof.
  induction r as [|b r IH]; cbn; [tauto|]. intros id x. destruct (b_id b =? id).
  - intros [H|H]; [left; exact H | right; exact (IH _ _ H)].
  - intros H. right. exact (IH _ _ H).
Qed.

(* a chain that reaches genesis: contiguous and its last element has number 0 *)
Fixpoint grounded (c : list blk) : Prop :=
  match c with
  | [] => False
  | b :: t => match t with
              | [] => b_num b = 0
              | p :: _ => b_parent b = b_id p /\ b_num b = b_num p + 1 /\ grounded t
              end
  end.

Lemma chain_of_known r : wf_repo r -> forall id x, find_blk r id = Some x ->
  exists t, chain_of r id = x :: t /\ grounded (x :: t).
Proof.
  induction r as [|b r IH]; intros Hwf id x Hf; [discriminate|].
  cbn in Hwf. destruct Hwf as [Hwf [Hfresh Hpar]].
  unfold find_blk in Hf. cbn in Hf. cbn [chain_of]. destruct (b_id b =? id) eqn:E.
  - inversion Hf; subst x. destruct r as [|p0 r0].
    + exists []. split; [reflexivity | exact Hpar].
    + destruct Hpar as [p [Hp Hn]]. destruct (IH Hwf _ _ Hp) as [t [Ht Hg]].
      exists (p :: t). rewrite Ht. split; [reflexivity|]. cbn [grounded].
      destruct (find_blk_id _ _ _ Hp) as [Hid _]. repeat split; [symmetry; exact Hid | exact Hn | exact Hg].
  - exact (IH Hwf _ _ Hf).
Qed.

(* the chain of an element of a chain is the corresponding suffix *)
Lemma chain_suffix r : wf_repo r -> forall id l1 x l2, chain_of r id = l1 ++ x :: l2 -> chain_of r (b_id x) = x :: l2.
Proof.
  induction r as [|b r IH]; intros Hwf id l1 x l2 H; [destruct l1; discriminate|].
  cbn in Hwf. destruct Hwf as [Hwf [Hfresh _]].
  cbn [chain_of] in H. destruct (b_id b =? id) eqn:E.
  - destruct l1 as [|y l1]; cbn in H; injection H as Hb Ht.
    + subst x. rewrite <- Ht. apply chain_of_head.
    + assert (Hx : In x r). { apply (chain_incl r (b_parent b)). rewrite Ht. rewrite in_app_iff. right. left. reflexivity. }
      rewrite chain_of_fresh; [exact (IH Hwf _ _ _ _ Ht)|].
      intros Heq. apply known_in in Hx. rewrite <- Heq in Hx. rewrite Hx in Hfresh. discriminate.
  - assert (Hx : In x r). { apply (chain_incl r id). rewrite H. rewrite in_app_iff. right. left. reflexivity. }
    rewrite chain_of_fresh; [exact (IH Hwf _ _ _ _ H)|].
    intros Heq. apply known_in in Hx. rewrite <- Heq in Hx. rewrite Hx in Hfresh. discriminate.
Qed.

Lemma grounded_tail b p t : grounded (b :: p :: t) -> grounded (p :: t).
Proof. cbn. tauto. Qed.

Lemma grounded_nums b t : grounded (b :: t) -> forall x, In x t -> b_num x < b_num b.
Proof.
  revert b. induction t as [|p t IH]; intros b Hg x Hin; [destruct Hin|].
  cbn in Hg. destruct Hg as [_ [Hn Hg]]. destruct Hin as [<-|Hin]; [lia|].
  specialize (IH p Hg x Hin). lia.
Qed.

Section Epoch.
Variable L : N.
Hypothesis HL : 0 < L.

Lemma checkpoint_le n : checkpoint L n <= n.
Proof. unfold checkpoint. pose proof (N.mul_div_le n L). lia. Qed.

Lemma checkpoint_succ_same n : is_checkpoint L (n + 1) = false -> checkpoint L (n + 1) = checkpoint L n.
Proof.
  unfold is_checkpoint, checkpoint. intros H. apply N.eqb_neq in H.
  pose proof (N.div_mod (n + 1) L ltac:(lia)) as D. pose proof (N.mod_lt (n + 1) L ltac:(lia)) as M.
  assert (Hr : (n + 1) mod L <> 0) by (intros R; apply H; rewrite R in D; lia).
  assert (E : n / L = (n + 1) / L).
  { symmetry. apply (N.div_unique n L ((n + 1) / L) ((n + 1) mod L - 1)); lia. }
  rewrite E. reflexivity.
Qed.

Lemma checkpoint_idem n : checkpoint L (checkpoint L n) = checkpoint L n.
Proof. unfold checkpoint. rewrite N.div_mul by lia. reflexivity. Qed.

Lemma is_checkpoint_true n : is_checkpoint L n = true -> checkpoint L n = n.
Proof. unfold is_checkpoint. apply N.eqb_eq. Qed.

Lemma checkpoint_pos_ge n : is_checkpoint L n = true -> 0 < n -> L <= n.
Proof.
  unfold is_checkpoint, checkpoint. intros H Hn. apply N.eqb_eq in H.
  destruct (N.eq_dec (n / L) 0) as [E|E]; [rewrite E in H; lia|]. nia.
Qed.

Lemma div_zero_lt n : n / L = 0 <-> n < L.
Proof. split; [intros H; apply N.div_small_iff in H; lia | intros H; apply N.div_small; exact H]. Qed.

Lemma div_bounds n : n / L * L <= n < n / L * L + L.
Proof. pose proof (N.div_mod n L ltac:(lia)). pose proof (N.mod_lt n L ltac:(lia)). lia. Qed.

Lemma checkpoint_mul k : checkpoint L (k * L) = k * L.
Proof. unfold checkpoint. rewrite N.div_mul by lia. reflexivity. Qed.
Lemma storepoint_mul k : storepoint L (k * L) = k * L + L - 1.
Proof. unfold storepoint. rewrite checkpoint_mul. reflexivity. Qed.
Lemma div_store k : (k * L + L - 1) / L = k.
Proof. symmetry. apply (N.div_unique (k * L + L - 1) L k (L - 1)); lia. Qed.
Lemma checkpoint_store k : checkpoint L (k * L + L - 1) = k * L.
Proof. unfold checkpoint. rewrite div_store. reflexivity. Qed.
Lemma storepoint_store k : storepoint L (k * L + L - 1) = k * L + L - 1.
Proof. unfold storepoint. rewrite checkpoint_store. reflexivity. Qed.
Lemma div_span a k : a <= k -> (k * L + L - 1 - a * L) / L = k - a.
Proof. intros H. symmetry. apply (N.div_unique _ L (k - a) (L - 1)); nia. Qed.
Lemma is_checkpoint_mul n : is_checkpoint L n = true -> n = n / L * L.
Proof. unfold is_checkpoint, checkpoint. intros H. apply N.eqb_eq in H. lia. Qed.
Lemma storepoint_form n : storepoint L n = n -> n = n / L * L + L - 1.
Proof. unfold storepoint, checkpoint. lia. Qed.
Lemma storepoint_prev_epoch n : L <= n -> storepoint L (n - L) = (n / L - 1) * L + L - 1.
Proof.
  intros H. unfold storepoint, checkpoint. replace (n / L) with ((n - L) / L + 1); [rewrite N.add_sub; reflexivity|].
  rewrite <- (N.div_add (n - L) 1 L) by lia. f_equal. lia.
Qed.
(* the block before the checkpoint of epoch k is the store point of epoch k-1 *)
Lemma store_before k : 1 <= k -> k * L - 1 = (k - 1) * L + L - 1.
Proof. intros H. replace k with (k - 1 + 1) at 1 by lia. lia. Qed.
End Epoch.

(* parent quality and vote segment of the head of a grounded chain, by structural recursion (no records, no caches) *)
Fixpoint epoch_info (c : cfg) (ch : list blk) : N * list blk :=
  match ch with
  | [] => (0, [])
  | b :: t =>
      if b_num b =? 0 then (0, [])
      else if is_checkpoint (c_L c) (b_num b)
           then (s_q (summarize (tally c (fst (epoch_info c t)) (snd (epoch_info c t)))), [b])
           else (fst (epoch_info c t), b :: snd (epoch_info c t))
  end.

Definition state_pure (c : cfg) (ch : list blk) : bstate :=
  summarize (tally c (fst (epoch_info c ch)) (snd (epoch_info c ch))).
Definition quality_pure (c : cfg) (ch : list blk) : N := s_q (state_pure c ch).

Lemma summarize_empty c pq : summarize (tally c pq []) = mkS pq false false.
Proof.
  unfold tally, summarize. cbn. destruct (thr_weight c =? 0) eqn:E; cbn.
  - destruct (thr_votes c); reflexivity.
  - destruct (thr_weight c); reflexivity.
Qed.

Lemma state_pure_genesis c b t : b_num b = 0 -> state_pure c (b :: t) = mkS 0 false false.
Proof. intros H. unfold state_pure. cbn. rewrite H. cbn. apply summarize_empty. Qed.

(* the persisted records agree with the definitions on every store-point block of the chain *)
Definition qs_ok_chain (c : cfg) (qs : list (N * N)) (ch : list blk) : Prop :=
  forall l1 x l2, ch = l1 ++ x :: l2 -> storepoint (c_L c) (b_num x) = b_num x ->
                  get_q qs (b_id x) = quality_pure c (x :: l2).

Lemma qs_ok_chain_tail c qs b t : qs_ok_chain c qs (b :: t) -> qs_ok_chain c qs t.
Proof. intros H l1 x l2 E. apply (H (b :: l1) x l2). rewrite E. reflexivity. Qed.

Lemma storepoint_pred L n : 0 < L -> is_checkpoint L (n + 1) = true -> storepoint L n = n.
Proof.
  intros HL H. unfold is_checkpoint, checkpoint in H. apply N.eqb_eq in H. unfold storepoint, checkpoint.
  pose proof (N.div_mod (n + 1) L ltac:(lia)) as D. pose proof (N.mod_lt (n + 1) L ltac:(lia)) as M.
  assert (Hq : 0 < (n + 1) / L) by (destruct (N.eq_dec ((n + 1) / L) 0) as [E|E]; [rewrite E in H; lia | lia]).
  assert (E : n / L = (n + 1) / L - 1).
  { symmetry. apply (N.div_unique n L ((n + 1) / L - 1) (L - 1)); nia. }
  rewrite E. nia.
Qed.

Section Pure.
Variable c : cfg.
Hypothesis HL : 0 < c_L c.

(* segment and parent quality of the code's from-the-checkpoint walk coincide with the structural definition *)
Lemma segment_parent_pure qs ch : grounded ch -> qs_ok_chain c qs (tl ch) ->
  match ch with
  | [] => True
  | b :: _ => 0 < b_num b -> segment c ch = snd (epoch_info c ch) /\ parent_quality c qs ch = fst (epoch_info c ch)
  end.
Proof.
  induction ch as [|b t IH]; [tauto|]. intros Hg Hq Hpos.
  cbn [epoch_info]. replace (b_num b =? 0) with false by lia.
  destruct t as [|p t']; [cbn in Hg; lia|].
  pose proof Hg as Hg0. cbn in Hg. destruct Hg as [Hpar [Hn Hgt]].
  cbn [tl] in Hq. specialize (IH Hgt (qs_ok_chain_tail _ _ _ _ Hq)). cbn beta iota in IH.
  pose proof (checkpoint_le _ HL (b_num b)) as Hcle.
  unfold segment, parent_quality, at_num. cbn [take_while find]. unfold in_epoch at 1.
  replace (checkpoint (c_L c) (b_num b) <=? b_num b) with true by lia. replace (0 <? b_num b) with true by lia. cbn [andb].
  destruct (is_checkpoint (c_L c) (b_num b)) eqn:Ecp; cbn [snd fst].
  - (* first block of an epoch: the segment is [b], the parent quality is the record at p *)
    pose proof (is_checkpoint_true _ _ Ecp) as Hc. pose proof (checkpoint_pos_ge _ HL _ Ecp Hpos) as Hge. rewrite Hc.
    unfold in_epoch. replace (b_num b <=? b_num p) with false by lia.
    replace (b_num b / c_L c =? 0) with false by (symmetry; apply N.eqb_neq; intros Hd; apply (div_zero_lt _ HL) in Hd; lia).
    replace (b_num b =? b_num b - 1) with false by lia. replace (b_num p =? b_num b - 1) with true by lia.
    split; [reflexivity|]. apply (Hq [] p t' eq_refl). apply storepoint_pred; [exact HL|]. rewrite <- Hn. exact Ecp.
  - (* inside an epoch: same checkpoint as the parent *)
    rewrite Hn in Ecp. pose proof (checkpoint_succ_same _ HL _ Ecp) as Hsame. rewrite <- Hn in Hsame, Ecp. rewrite Hsame.
    pose proof (checkpoint_le _ HL (b_num p)) as Hple.
    replace (b_num b =? checkpoint (c_L c) (b_num p) - 1) with false by lia.
    assert (Ediv : b_num b / c_L c = b_num p / c_L c).
    { unfold checkpoint in Hsame. destruct (N.eq_dec (b_num b / c_L c) (b_num p / c_L c)) as [E|E]; [exact E|]. nia. }
    rewrite Ediv. destruct (N.eq_dec (b_num p) 0) as [Hp0|Hp0].
    + (* the parent is genesis *)
      cbn [epoch_info]. rewrite Hp0. cbn [N.eqb fst snd]. unfold in_epoch. rewrite Hp0, andb_false_r.
      replace (0 / c_L c) with 0 by (symmetry; apply N.div_0_l; lia). split; reflexivity.
    + destruct (IH ltac:(lia)) as [IHs IHp]. split; [f_equal; exact IHs | exact IHp].
Qed.

(* computeState rebuilt from the checkpoint with correct quality records = the state from the definitions *)
Theorem state_of_chain_pure qs ch : grounded ch -> qs_ok_chain c qs (tl ch) -> state_of_chain c qs ch = state_pure c ch.
Proof.
  intros Hg Hq. destruct ch as [|b t]; [destruct Hg|].
  unfold state_of_chain. destruct (b_num b =? 0) eqn:E0.
  - apply N.eqb_eq in E0. symmetry. apply state_pure_genesis. exact E0.
  - apply N.eqb_neq in E0. destruct (segment_parent_pure qs (b :: t) Hg Hq ltac:(lia)) as [Hs Hp].
    unfold state_pure. rewrite Hs, Hp. reflexivity.
Qed.

(* quality never decreases along a chain and grows by at most one per block *)
Theorem quality_step b t : grounded (b :: t) ->
  quality_pure c t <= quality_pure c (b :: t) <= quality_pure c t + 1.
Proof.
  intros Hg. unfold quality_pure, state_pure. cbn [epoch_info].
  destruct (b_num b =? 0) eqn:E0.
  - apply N.eqb_eq in E0. destruct t as [|p t']; cbn in Hg; [|lia].
    cbn [epoch_info fst snd]. lia.
  - destruct (is_checkpoint (c_L c) (b_num b)) eqn:Ecp; cbn [fst snd].
    + set (q0 := s_q (summarize (tally c (fst (epoch_info c t)) (snd (epoch_info c t))))).
      rewrite summarize_quality, tally_pq. destruct (s_just _); lia.
    + set (pq := fst (epoch_info c t)). set (seg := snd (epoch_info c t)).
      rewrite !summarize_quality, !tally_pq.
      destruct (s_just (summarize (tally c pq seg))) eqn:J1.
      * assert (J2 : s_just (summarize (tally c pq (b :: seg))) = true).
        { apply (justified_monotone_lemma c pq seg (b :: seg)); [|exact J1]. intros e He. right. exact He. }
        rewrite J2. lia.
      * destruct (s_just (summarize (tally c pq (b :: seg)))); lia.
Qed.

Lemma quality_suffix l1 : forall ch, grounded (l1 ++ ch) -> ch <> [] ->
  quality_pure c ch <= quality_pure c (l1 ++ ch).
Proof.
  induction l1 as [|b l1 IH]; intros ch Hg Hne; [cbn; lia|].
  cbn [app] in *. assert (Hg' : grounded (l1 ++ ch)).
  { destruct (l1 ++ ch) as [|p t] eqn:E; [destruct l1; [contradiction | discriminate]|]. exact (grounded_tail _ _ _ Hg). }
  pose proof (quality_step b (l1 ++ ch) Hg). specialize (IH ch Hg' Hne). lia.
Qed.
End Pure.
