(* TxExec/ProofsAdopt.v — the full Adopt (pre-checks + execution + flow bookkeeping) refines the gas/exec core `adopt`;
   block gas and totals for the full flow. *)
From Coq Require Import ZArith List Bool Lia.
From Verif Require Import Ledger.Model Ledger.Proofs TxExec.Model TxExec.Proofs TxExec.ProofsEffects TxExec.ProofsBlock.
Import ListNotations.
Open Scope Z_scope.

Section AdoptFull.
  Variables W O : Type.
  Variable clause_result : env -> txn -> nat -> Z -> state W -> cres W O.
  Variable write_credit : Z -> Z -> Z -> W -> W.
  Let adoptF := adopt_full W O clause_result write_credit.

  Lemma adopt_pre_none_room e fe fs t ai :
    adopt_pre e fe fs t ai = None -> (e_gas_limit e <? (fs_used fs + t_gas t) mod two64) = false.
  Proof.
    unfold adopt_pre.
    repeat match goal with |- context [if ?c then Some _ else _] => destruct c eqn:?; [discriminate|] end.
    destruct (e_gas_limit e <? (fs_used fs + t_gas t) mod two64); [|reflexivity].
    destruct (_ <=? e_gas_limit e); discriminate.
  Qed.

  Lemma adopt_full_rejected e fe fs t ai ci st0 c st :
    adoptF e fe fs t ai ci st0 = FRejected W O c st -> st = st0.
  Proof.
    unfold adoptF, adopt_full. destruct (adopt_pre e fe fs t ai); [intros H; inversion H; reflexivity|].
    destruct (exec_tx _ _ _ _ _ _ _ _); intros H; inversion H; reflexivity.
  Qed.

  Lemma adopt_full_adopted e fe fs t ai ci st0 st rc fs' :
    adoptF e fe fs t ai ci st0 = FAdopted W O st rc fs' ->
    adopt W O clause_result write_credit e (fs_used fs) t ci st0 = Adopted W O st rc /\
    fs' = mkFS (fs_used fs + r_gas_used O rc) ((ai_id ai, r_reverted O rc) :: fs_processed fs) /\
    adopt_pre e fe fs t ai = None.
  Proof.
    unfold adoptF, adopt_full, adopt. destruct (adopt_pre e fe fs t ai) eqn:EP; [discriminate|].
    rewrite (adopt_pre_none_room _ _ _ _ _ EP).
    destruct (exec_tx _ _ _ _ _ _ _ _); intros H; inversion H; subst. repeat split; reflexivity.
  Qed.

  (* an adopted tx is not known, not expired, not from the future, has room, and its dependency (if any) succeeded *)
  Lemma adopt_pre_none_facts e fe fs t ai : adopt_pre e fe fs t ai = None ->
    lookup_processed (ai_id ai) (fs_processed fs) = None /\ ai_chain_has_tx ai = false /\
    t_ref_num t <= e_number e <= t_ref_num t + ai_expiration ai /\
    (forall dep, ai_depends_on ai = Some dep ->
       lookup_processed dep (fs_processed fs) = Some false \/
       (lookup_processed dep (fs_processed fs) = None /\ ai_chain_dep ai = Some false)).
  Proof.
    unfold adopt_pre.
    repeat match goal with |- context [if ?c then Some _ else _] => destruct c eqn:?; [discriminate|] end.
    destruct (e_gas_limit e <? _); [destruct (_ <=? e_gas_limit e); discriminate|].
    destruct (fee_check e fe t); [discriminate|].
    destruct (lookup_processed (ai_id ai) (fs_processed fs)) eqn:L; [discriminate|].
    destruct (ai_chain_has_tx ai) eqn:C; [discriminate|].
    intros H. split; [reflexivity|]. split; [reflexivity|]. split.
    - repeat match goal with H : (_ <? _) = false |- _ => apply Z.ltb_ge in H end. lia.
    - intros dep Hd. rewrite Hd in H. destruct (lookup_processed dep (fs_processed fs)) as [[|]|] eqn:LD; try discriminate.
      + left; reflexivity.
      + destruct (ai_chain_dep ai) as [[|]|]; try discriminate. right; split; reflexivity.
  Qed.

  Fixpoint flow_full_burned (e : env) (fe : flow_env) (fs : flow_state) (txs : list (txn * adopt_in * credit_info)) (st : state W) : Z * Z :=
    match txs with
    | [] => (0, 0)
    | (t, ai, ci) :: rest =>
      match adopt_full W O clause_result write_credit e fe fs t ai ci st with
      | FRejected _ _ _ st' => flow_full_burned e fe fs rest st'
      | FAdopted _ _ st' rc fs' =>
        let b := tx_burned W O clause_result e t ci st in
        let r := flow_full_burned e fe fs' rest st' in (fst b + fst r, snd b + snd r)
      end
    end.

  Fixpoint flow_full_forall (P : txn -> credit_info -> state W -> Prop) (e : env) (fe : flow_env) (fs : flow_state)
           (txs : list (txn * adopt_in * credit_info)) (st : state W) : Prop :=
    match txs with
    | [] => True
    | (t, ai, ci) :: rest =>
      match adopt_full W O clause_result write_credit e fe fs t ai ci st with
      | FRejected _ _ _ st' => flow_full_forall P e fe fs rest st'
      | FAdopted _ _ st' rc fs' => P t ci st /\ flow_full_forall P e fe fs' rest st'
      end
    end.
  Definition flow_full_ops_ok (dom : list Z) (e : env) := flow_full_forall (fun t ci st => tx_ops_ok W O clause_result dom e t ci st) e.
  Definition flow_full_no_self (e : env) := flow_full_forall (fun t ci st => tx_no_self W O clause_result e t ci st) e.

  Fixpoint kept (e : env) (fe : flow_env) (fs : flow_state) (txs : list (txn * adopt_in * credit_info)) (st : state W)
    : list (txn * credit_info) :=
    match txs with
    | [] => []
    | (t, ai, ci) :: rest =>
      match adopt_full W O clause_result write_credit e fe fs t ai ci st with
      | FRejected _ _ _ st' => kept e fe fs rest st'
      | FAdopted _ _ st' rc fs' => (t, ci) :: kept e fe fs' rest st'
      end
    end.

  (* a rejected transaction leaves the state alone and an adopted one is adopted by the core with the same receipt, so the
     results, what is burned, and any property of the adopted transactions are those of the core flow *)
  Lemma full_is_core e fe txs : forall fs st,
    (forall rcs fs' st' rcs', adopt_all_full W O clause_result write_credit e fe fs txs st rcs = (fs', st', rcs') ->
       adopt_all W O clause_result write_credit e (fs_used fs) (kept e fe fs txs st) st rcs = (fs_used fs', st', rcs')) /\
    flow_full_burned e fe fs txs st = flow_burned W O clause_result write_credit e (fs_used fs) (kept e fe fs txs st) st /\
    (forall P, flow_full_forall P e fe fs txs st <->
               flow_forall W O clause_result write_credit P e (fs_used fs) (kept e fe fs txs st) st).
  Proof.
    induction txs as [|[[t ai] ci] rest IH]; intros fs st.
    - split; [intros rcs fs' st' rcs' H; inversion H; reflexivity|]. split; [reflexivity|]. intros P. reflexivity.
    - cbn [adopt_all_full flow_full_burned flow_full_forall kept].
      destruct (adopt_full _ _ _ _ _ _ _ _ _ _ _) as [c s1|s1 rc fs1] eqn:EA.
      + apply adopt_full_rejected in EA. subst s1. apply IH.
      + apply adopt_full_adopted in EA. destruct EA as [EA [-> _]].
        cbn [adopt_all flow_burned flow_forall]. rewrite EA.
        destruct (IH (mkFS (fs_used fs + r_gas_used O rc) ((ai_id ai, r_reverted O rc) :: fs_processed fs)) s1) as [A [B C]].
        cbn [fs_used] in *. split; [intros rcs; apply A|]. rewrite B. split; [reflexivity|]. intros P. rewrite C. reflexivity.
  Qed.

  Lemma kept_forall (Q : txn -> Prop) e fe txs : Forall (fun p => Q (fst (fst p))) txs ->
    forall fs st, Forall (fun p => Q (fst p)) (kept e fe fs txs st).
  Proof.
    induction 1 as [|[[t ai] ci] rest Hq _ IH]; intros fs st; cbn [kept]; [constructor|].
    destruct (adopt_full _ _ _ _ _ _ _ _ _ _ _); [apply IH|constructor; [exact Hq|apply IH]].
  Qed.

  Lemma block_gas_full_lemma (OK : oracle_ok W O clause_result) e fe txs :
    2 * e_gas_limit e < two64 ->
    Forall (fun p => 0 <= t_gas (fst (fst p)) < two64 /\
                     Forall (fun c => 0 <= c_zeros c /\ 0 <= c_nonzeros c) (t_clauses (fst (fst p)))) txs ->
    forall fs st rcs fs' st' rcs',
    0 <= fs_used fs <= e_gas_limit e -> fs_used fs = sum_used O rcs ->
    adopt_all_full W O clause_result write_credit e fe fs txs st rcs = (fs', st', rcs') ->
    fs_used fs' = sum_used O rcs' /\ 0 <= fs_used fs' <= e_gas_limit e.
  Proof.
    intros HL HF fs st rcs fs' st' rcs' Hu Hs H. apply (proj1 (full_is_core e fe txs fs st)) in H.
    refine (block_gas_lemma W O clause_result write_credit OK e (kept e fe fs txs st) HL _ _ _ _ _ _ _ Hu Hs H).
    apply (kept_forall (fun t => 0 <= t_gas t < two64 /\ Forall (fun c => 0 <= c_zeros c /\ 0 <= c_nonzeros c) (t_clauses t))), HF.
  Qed.

  Lemma adopt_all_full_totals e fe dom :
    let T := e_time e in let S := e_stop e in
    NoDup dom -> In (e_benef e) dom ->
    forall txs fs st rcs fs' st' rcs',
    flow_full_ops_ok dom e fe fs txs st ->
    adopt_all_full W O clause_result write_credit e fe fs txs st rcs = (fs', st', rcs') ->
    Forall (fun rc => In (r_payer O rc) dom) rcs' ->
    exists new, rcs' = rcs ++ new /\
      sum_eng T S dom (l_acc (fst st')) =
        sum_eng T S dom (l_acc (fst st)) + sum_reward O new - sum_paid O new - snd (flow_full_burned e fe fs txs st) /\
      sum_bal dom (l_acc (fst st')) = sum_bal dom (l_acc (fst st)) - fst (flow_full_burned e fe fs txs st).
  Proof.
    intros T S ND HB txs fs st rcs fs' st' rcs' N H HP.
    destruct (full_is_core e fe txs fs st) as [A [B C]]. rewrite B.
    eapply (adopt_all_totals W O clause_result write_credit e dom ND HB); eauto. apply C, N.
  Qed.

  Lemma flow_full_burned_none e fe txs : forall fs st, flow_full_no_self e fe fs txs st -> flow_full_burned e fe fs txs st = (0, 0).
  Proof.
    intros fs st NS. destruct (full_is_core e fe txs fs st) as [_ [B C]]. rewrite B.
    apply flow_burned_none, C, NS.
  Qed.
End AdoptFull.
