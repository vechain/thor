(* Crash/ProofsResumeAll.v — the resume clause of C13 for ALL histories (with the F6 repair in NewEngine):
   after any cut, restart and resumption of the same stream from the interrupted block, the store is equivalent to the
   uninterrupted run's (same stored set, best pointer, quality records, finalized record): the quality record and the
   finalized record are one batch, so there is no cut between them.  Also the writes of a history block by block
   (block_writes, offset_blocks / run_blocks / crash_blocks, the checker wf_hist_on of wf_hist over them): what the
   example files evaluate once per history. *)
From Coq Require Import List NArith Bool Lia.
From Verif Require Import Crash.Model Crash.ProofsStore Crash.ProofsInv Crash.ProofsImport Crash.ProofsCrash
  Crash.ProofsEqv Crash.ProofsShape.
Import ListNotations.
Open Scope N_scope.

(* ---- writing a prefix of a write list and then the whole list is the same as writing the list *)

(* writes whose every operation occurs again in the list written after them leave no trace *)
Lemma overwritten s pre ws : (forall o, In o (concat pre) -> In o (concat ws)) ->
  eqv (apply_writes (apply_writes s pre) ws) (apply_writes s ws).
Proof.
  intros H k. rewrite !apply_writes_concat, !get_apply_batch.
  destruct (last_op k (concat ws)) as [o|] eqn:E; auto.
  rewrite last_op_none; auto.
  intros o Ho. eapply last_op_none_inv; eauto.
Qed.

Lemma head_keys_put s id v : In id (head_keys (Put (KHead id) v :: s)).
Proof.
  simpl. destruct (existsb (N.eqb id) (head_keys s)) eqn:Ex; [|left; auto].
  apply existsb_exists in Ex. destruct Ex as (x & Hx & Ex). apply N.eqb_eq in Ex. subst. auto.
Qed.

Lemma head_keys_mono s o id : In id (head_keys s) -> In id (head_keys (o :: s)).
Proof.
  intro H. destruct o as [k v|k]; simpl; auto. destruct k; auto.
  destruct (existsb (N.eqb id0) (head_keys s)); auto. right; auto.
Qed.

Lemma has_head_in_keys s id : has s (KHead id) = true -> In id (head_keys s).
Proof.
  unfold has. induction s as [|o r IH]; [simpl; discriminate|].
  cbn [get]. destruct o as [k v|k].
  - destruct (key_eq_dec (KHead id) k) as [<-|Hne].
    + intros _. apply head_keys_put.
    + intro H. apply head_keys_mono. auto.
  - destruct (key_eq_dec (KHead id) k) as [<-|Hne]; [discriminate|].
    intro H. apply head_keys_mono. auto.
Qed.

Lemma scan_heads_in s from id : In id (scan_heads s from) <-> In id (head_keys s) /\ has s (KHead id) = true /\ from <= num_of id.
Proof.
  unfold scan_heads. rewrite filter_In, andb_true_iff, N.leb_le. tauto.
Qed.

Lemma repair_one_nil c s h : (is_storepoint (c_L c) (num_of h) = true -> has s (KQuality h) = true) -> repair_one c s h = [].
Proof.
  intro H. unfold repair_one. destruct (is_storepoint (c_L c) (num_of h)); auto. rewrite H; auto.
Qed.

Lemma fold_repair_noop c heads s :
  (forall h, In h heads -> repair_one c s h = []) ->
  fold_left (fun st id => apply_writes st (repair_one c st id)) heads s = s.
Proof.
  induction heads as [|h r IH]; intro H; simpl; auto.
  rewrite (H h) by (left; auto). simpl. apply IH. intros; apply H; right; auto.
Qed.

Lemma restart_store_noop c s : Qinv c s -> Hinv s -> restart_store c true s = s.
Proof.
  intros Q H. unfold restart_store. apply fold_repair_noop.
  intros h Hh. apply scan_heads_in in Hh. destruct Hh as (_ & Hhas & _).
  apply repair_one_nil. intro Hsp. apply Q; auto.
Qed.

Lemma restart_shape c s : wf_cfg c -> Inv c s ->
  exists best, get_id s KBest = Some best /\ restart c true s = Some (restart_store c true s, best, finalized c (restart_store c true s)).
Proof.
  intros Hc I. destruct (restart_eq c true s Hc I) as (best & Hb & _ & E). eauto.
Qed.

Lemma resume_eq c s rest : wf_cfg c -> Inv c s -> resume c true s rest = Some (run c (restart_store c true s) rest).
Proof. intros Hc I. unfold resume. destruct (restart_shape c s Hc I) as (best & _ & ->). reflexivity. Qed.

(* a block that is stored is skipped when it is delivered again *)
Lemma known_is_noop c s b : stored s (b_id b) = true -> import_batches c s b = [].
Proof.
  intro Hs. pose proof (scan_conflicts_pos s (b_id b) Hs) as P. apply N.ltb_lt in P.
  rewrite import_batches_eq. unfold import_ok. rewrite P, Hs, andb_false_r. reflexivity.
Qed.

Lemma known_run1 c s b : stored s (b_id b) = true -> run1 c s b = s.
Proof. intro H. unfold run1. rewrite known_is_noop; auto. Qed.

(* ---- case A: the cut lies before the block bulk (only trie nodes / code of the block have been written) *)

Theorem resume_before_bulk c s b rest j ws :
  wf_cfg c -> Inv2 c s -> (forall w, In w ws -> aux_batch w) ->
  (exists tl, import_batches c s b = ws ++ tl) ->
  let s' := apply_writes s (firstn j ws) in
  Inv c s' ->
  exists r, resume c true s' (b :: rest) = Some r /\ eqvi r (run c s (b :: rest)).
Proof.
  intros Hc [I Q H] Haux (tl & EW) s' I'.
  assert (Hauxj : forall w, In w (firstn j ws) -> aux_batch w) by (intros w Hw; apply Haux; eapply in_firstn; eauto).
  assert (Ena : eqv_na s s') by (apply aux_writes_eqv_na, Hauxj).
  rewrite resume_eq; auto. eexists; split; [reflexivity|].
  rewrite restart_store_noop; [|eapply Qinv_na; eauto|eapply Hinv_na; eauto].
  cbn [run fold_left]. apply eqvi_run.
  unfold run1. rewrite <- (na_import_batches s s' c b Ena). split.
  - apply overwritten. intros o Ho. apply in_concat in Ho as (w & Hw & Ho).
    rewrite EW, concat_app. apply in_or_app. left. apply in_concat. exists w. eauto using in_firstn.
  - (* the writes before the cut put no summary *)
    apply summary_ids_apply_writes, summary_ids_aux, Hauxj.
Qed.

(* ---- case B: the cut lies right after the block bulk; the commit of the bft engine (quality, finalized) is pending *)

(* x is the only head with a non-empty repair, before and after it *)
Lemma fold_repair_one c x s3 s4 : forall heads,
  (forall h, In h heads -> h <> x -> repair_one c s3 h = [] /\ repair_one c s4 h = []) ->
  apply_writes s3 (repair_one c s3 x) = s4 -> repair_one c s4 x = [] -> In x heads ->
  fold_left (fun st id => apply_writes st (repair_one c st id)) heads s3 = s4.
Proof.
  induction heads as [|h r IH]; intros Ho E3 E4 Hin; [destruct Hin|].
  cbn [fold_left]. destruct (N.eq_dec h x) as [->|Hne].
  - rewrite E3. apply fold_repair_noop. intros h' Hh'. destruct (N.eq_dec h' x) as [->|Hn']; auto.
    apply Ho; auto. right; auto.
  - destruct (Ho h (or_introl eq_refl) Hne) as [-> _]. cbn [apply_writes fold_left].
    apply IH; auto.
    + intros h' Hh' Hn'. apply Ho; auto. right; auto.
    + destruct Hin as [->|Hin]; [congruence|auto].
Qed.

Section PendingCommit.
  Variables (c : cfg) (s : store) (b : blk) (ab : bool).
  Hypothesis Hc : wf_cfg2 c.
  Hypothesis I2 : Inv2 c s.
  Hypothesis M : main_case c s b ab.
  Hypothesis I3 : Inv c (apply_writes s (pre_writes s b ab)).
  Let x := b_id b.
  Let s3 := apply_writes s (pre_writes s b ab).
  Let cw := commit_writes c s b ab.

  Lemma pc_parent_ne : b_parent b <> b_id b.
  Proof. destruct M as (_ & _ & _ & Mn & _). intro X. rewrite X in Mn. lia. Qed.

  Lemma pc_no_quality : has s3 (KQuality x) = false.
  Proof.
    unfold has. unfold s3. rewrite s3_quality by (left; eauto).
    destruct (get s (KQuality x)) eqn:E; auto.
    assert (Hh : has s (KQuality x) = true) by (unfold has; rewrite E; auto).
    pose proof (inv_quality c s (i2_inv c s I2) x Hh) as Hs. unfold x in Hs. rewrite (main_not_stored c s b ab M) in Hs. discriminate.
  Qed.

  Lemma pc_repair_x : is_storepoint (c_L c) (num_of x) = true -> repair_one c s3 x = cw.
  Proof.
    intro Hsp. unfold repair_one. rewrite Hsp, pc_no_quality. cbn [negb andb].
    unfold s3. rewrite s3_summary. destruct (N.eq_dec x (b_id b)) as [_|Hn]; [|exfalso; apply Hn; reflexivity]. reflexivity.
  Qed.

  Lemma pc_x_in_heads : In x (scan_heads s3 (num_of (finalized c s3))).
  Proof.
    assert (Hh : has s3 (KHead x) = true) by (apply s3_head_b, pc_parent_ne).
    apply scan_heads_in. split; [apply has_head_in_keys; auto|]. split; auto.
    unfold s3. rewrite s3_finalized. destruct M as (_ & _ & _ & Mn & Ma & _). unfold accepts in Ma.
    destruct (num_of (finalized c s) =? 0) eqn:E0; [apply N.eqb_eq in E0; lia|].
    destruct (anc s (b_parent b) (num_of (finalized c s))) as [a|] eqn:Ea; [|discriminate].
    apply ancestor_le in Ea. unfold x. lia.
  Qed.

  Lemma pc_others st h : (forall k, is_head k = false -> has s3 k = true -> has st k = true) ->
    has s3 (KHead h) = true -> h <> x -> repair_one c st h = [].
  Proof.
    intros Mono Hh Hne. apply repair_one_nil. intro Hsp. apply Mono; auto.
    destruct (s3_head s b ab h Hh) as [->|Hold]; [exfalso; apply Hne; reflexivity|].
    apply s3_mono; auto. apply (i2_q c s I2); auto. apply (i2_h c s I2); auto.
  Qed.

  Lemma pc_stored_x st : (forall k, (forall i, k <> KQuality i) -> k <> KFinalized -> get st k = get s3 k) -> stored st x = true.
  Proof. intro F. unfold stored, get_summary. rewrite F by discriminate. apply (s3_stored_b s b ab). Qed.

  (* restart re-runs the pending commit: the store becomes the one of the completed import *)
  Lemma pc_restart : cw <> [] -> restart_store c true s3 = apply_writes s3 cw.
  Proof.
    intro Hne.
    assert (Hsp : is_storepoint (c_L c) (num_of x) = true).
    { destruct (commit_shape c s3 x (b_parent b) (b_just b) (b_comm b)) as [E|[(q & _ & E)|(q & f & _ & E)]]; auto; exfalso; apply Hne; exact E. }
    unfold restart_store. apply fold_repair_one with (x := x).
    - intros h Hh Hn. apply scan_heads_in in Hh. destruct Hh as (_ & Hhas & _). split.
      + apply pc_others; auto.
      + apply pc_others; auto. intros k Hk Hs. apply has_mono_writes; auto. intros w Hw. eapply commit_nd; eauto.
    - rewrite pc_repair_x; auto.
    - apply repair_one_nil. intros _.
      destruct Hc as [Hc1 _]. destruct M as (_ & _ & Mp & Mn & _).
      unfold cw, commit_writes. fold s3. apply commit_has_quality; auto. apply s3_stored_mono; auto.
    - apply pc_x_in_heads.
  Qed.
End PendingCommit.

Theorem resume_within_import c s b rest j :
  wf_cfg2 c -> Inv2 c s -> wf_blk s b -> (j < length (import_batches c s b))%nat ->
  let s' := apply_writes s (firstn j (import_batches c s b)) in
  exists r, resume c true s' (b :: rest) = Some r /\ eqvi r (run c s (b :: rest)).
Proof.
  intros Hc2 I2 Hwf Hj s'. destruct Hc2 as [Hc HL]. pose proof (i2_inv c s I2) as I.
  pose proof (import_all_prefixes c s b Hc I Hwf) as AP.
  assert (I' : Inv c s') by (apply all_prefixes_firstn; auto).
  destruct (import_cases c s b) as [E|[[_ E]|(ab & M & E)]].
  - rewrite E in Hj. simpl in Hj. lia.
  - (* bft select failed after the state commit: only state batches *)
    unfold s' in *. rewrite E in *.
    apply (resume_before_bulk c s b rest j _ Hc I2); auto; [apply state_batches_aux|exists []; rewrite app_nil_r; auto].
  - set (sb := state_batches b (conf_of s b)) in *.
    set (ws := sb ++ [index_batch b (conf_of s b)]).
    set (bulk := block_bulk b (conf_of s b) ab).
    set (cw := commit_writes c s b ab) in *.
    assert (Epre : pre_writes s b ab = ws ++ [bulk]) by (unfold pre_writes, ws; rewrite <- app_assoc; reflexivity).
    assert (EW : import_batches c s b = ws ++ bulk :: cw) by (rewrite E, Epre, <- app_assoc; reflexivity).
    assert (Hws : forall w, In w ws -> aux_batch w) by (apply s2_aux).
    destruct (PeanoNat.Nat.le_gt_cases j (length ws)) as [Hle|Hgt].
    + (* before the block bulk *)
      unfold s' in *. rewrite EW, firstn_app_le in * by lia.
      apply (resume_before_bulk c s b rest j ws Hc I2 Hws); eauto.
    + (* the commit is at most one batch: the only cut left is right after the block bulk *)
      assert (Lcw : (length cw <= 1)%nat).
      { unfold cw, commit_writes.
        destruct (commit_shape c (apply_writes s (pre_writes s b ab)) (b_id b) (b_parent b) (b_just b) (b_comm b))
          as [Ec|[(q & Ec & _)|(q & f & Ec & _)]]; rewrite Ec; simpl; lia. }
      rewrite EW, app_length in Hj. cbn [length] in Hj.
      assert (Ej : j = length (pre_writes s b ab)) by (rewrite Epre, app_length; simpl; lia).
      assert (Hcw : cw <> []) by (intro X; rewrite X in Hj; simpl in Hj; lia).
      unfold s'. rewrite E, Ej, firstn_length_app. rewrite resume_eq by eauto using main_case_inv3.
      eexists; split; [reflexivity|].
      rewrite (pc_restart c s b ab (conj Hc HL) I2 M (main_case_inv3 c s b ab Hc I Hwf M) Hcw).
      cbn [run fold_left]. fold cw.
      assert (Er1 : run1 c s b = apply_writes (apply_writes s (pre_writes s b ab)) cw)
        by (unfold run1; rewrite E; apply apply_writes_app).
      rewrite <- Er1, (known_run1 c (run1 c s b) b); [apply eqvi_refl|].
      rewrite Er1. unfold cw, commit_writes. rewrite commit_stored. apply s3_stored_b.
Qed.

Lemma writes_of_app c l1 : forall s l2, writes_of c s (l1 ++ l2) = writes_of c s l1 ++ writes_of c (run c s l1) l2.
Proof.
  induction l1 as [|b r IH]; intros s l2; simpl; auto.
  rewrite IH, <- app_assoc. reflexivity.
Qed.

Lemma run_writes c l : forall s, apply_writes s (writes_of c s l) = run c s l.
Proof.
  induction l as [|b r IH]; intro s; simpl; auto.
  rewrite apply_writes_app. apply IH.
Qed.

Lemma run_app c l1 l2 s : run c s (l1 ++ l2) = run c (run c s l1) l2.
Proof. unfold run. apply fold_left_app. Qed.

Lemma wf_hist_app c l1 : forall s l2, wf_hist c s (l1 ++ l2) -> wf_hist c s l1 /\ wf_hist c (run c s l1) l2.
Proof.
  induction l1 as [|b r IH]; intros s l2 H; simpl in *; auto.
  destruct H as [Hb Hr]. destruct (IH _ _ Hr). auto.
Qed.

Lemma firstn_S_skipn {A} (l : list A) : forall i x rest, skipn i l = x :: rest -> firstn (S i) l = firstn i l ++ [x].
Proof.
  induction l as [|a l IH]; intros i x rest H; destruct i; simpl in *; try discriminate.
  - inversion H. reflexivity.
  - f_equal. eapply IH; eauto.
Qed.

Definition offset (c : cfg) (s : store) (l : list blk) (i : nat) : nat := length (writes_of c s (firstn i l)).

(* cut k falls into import i; i = length l: the cut is the final store, nothing is left to deliver *)
Definition cut_in_import (c : cfg) (s : store) (l : list blk) (k i : nat) : Prop :=
  (offset c s l i <= k)%nat /\ ((k < offset c s l (S i))%nat \/ i = length l).

(* the writes of a history block by block: for a concrete history one evaluation of this list gives its writes, every
   offset, every crash image and the final store *)
Fixpoint block_writes (c : cfg) (s : store) (l : list blk) : list (list batch) :=
  match l with
  | [] => []
  | b :: r => let w := import_batches c s b in w :: block_writes c (apply_writes s w) r
  end.

Fixpoint block_steps (c : cfg) (s : store) (l : list blk) : list (list step) :=
  match l with
  | [] => []
  | b :: r => let w := import_steps c s b in w :: block_steps c (apply_writes s (writes_of_steps w)) r
  end.

Lemma steps_of_blocks c l : forall s, steps_of c s l = concat (block_steps c s l).
Proof. induction l as [|b r IH]; intros s; cbn; [|rewrite IH]; reflexivity. Qed.

Lemma block_writes_steps c l : forall s, block_writes c s l = map writes_of_steps (block_steps c s l).
Proof. induction l as [|b r IH]; intros s; cbn; [|rewrite IH]; reflexivity. Qed.

Lemma writes_of_blocks c l : forall s, writes_of c s l = concat (block_writes c s l).
Proof. induction l as [|b r IH]; intros s; cbn; [|rewrite IH]; reflexivity. Qed.

Lemma block_writes_firstn c i : forall l s, block_writes c s (firstn i l) = firstn i (block_writes c s l).
Proof. induction i as [|i IH]; intros [|b r] s; cbn; [..|rewrite IH]; reflexivity. Qed.

Lemma offset_blocks c s l i : offset c s l i = length (concat (firstn i (block_writes c s l))).
Proof. unfold offset. rewrite writes_of_blocks, block_writes_firstn. reflexivity. Qed.

Lemma run_blocks c s l : run c s l = apply_writes s (concat (block_writes c s l)).
Proof. rewrite <- writes_of_blocks. symmetry. apply run_writes. Qed.

Lemma crash_blocks c s l k : crash c s l k = apply_writes s (firstn k (concat (block_writes c s l))).
Proof. unfold crash. rewrite writes_of_blocks. reflexivity. Qed.

(* wf_hist checked against the per-block writes, so that a history already evaluated is not run a second time *)
Fixpoint wf_hist_on (s : store) (l : list blk) (B : list (list batch)) : bool :=
  match l, B with
  | [], _ => true
  | b :: r, w :: B' => wf_blkb s b && wf_hist_on (apply_writes s w) r B'
  | _ :: _, [] => false
  end.

Lemma wf_hist_on_sound c l : forall s, wf_hist_on s l (block_writes c s l) = true -> wf_hist c s l.
Proof.
  induction l as [|b r IH]; intros s H; [exact I|]. cbn [block_writes wf_hist_on] in H.
  apply andb_prop in H as [Hb Hr]. split; [apply wf_blkb_sound, Hb | apply IH, Hr].
Qed.

Theorem resume_converges_ids c s0 hist k i :
  wf_cfg2 c -> Inv2 c s0 -> wf_hist c s0 hist -> cut_in_import c s0 hist k i ->
  exists r, resume c true (crash c s0 hist k) (skipn i hist) = Some r /\ eqvi r (run c s0 hist).
Proof.
  intros Hc I0 Hw [Hlo Hhi].
  set (si := run c s0 (firstn i hist)).
  assert (Ehist : hist = firstn i hist ++ skipn i hist) by (symmetry; apply firstn_skipn).
  assert (Hwi : wf_hist c s0 (firstn i hist) /\ wf_hist c si (skipn i hist)) by (apply wf_hist_app; rewrite <- Ehist; auto).
  destruct Hwi as [Hw1 Hw2].
  assert (Ii : Inv2 c si) by (apply run_inv2; auto).
  assert (Ecrash : crash c s0 hist k = apply_writes si (firstn (k - offset c s0 hist i) (writes_of c si (skipn i hist)))).
  { unfold crash. rewrite Ehist at 1. rewrite writes_of_app, firstn_app. fold si.
    rewrite firstn_all2 by (unfold offset in Hlo; lia). rewrite apply_writes_app, run_writes. reflexivity. }
  destruct (skipn i hist) as [|b rest] eqn:Esk.
  - (* nothing left to import: the cut is the final store *)
    assert (Efin : si = run c s0 hist) by (unfold si; rewrite app_nil_r in Ehist; rewrite <- Ehist; reflexivity).
    rewrite Ecrash. simpl writes_of. rewrite firstn_nil. cbn [apply_writes fold_left].
    destruct Hc as [Hc HL]. rewrite resume_eq; auto using (i2_inv c si Ii).
    eexists; split; [reflexivity|]. rewrite restart_store_noop by (apply Ii). cbn [run fold_left].
    rewrite Efin. apply eqvi_refl.
  - destruct Hhi as [Hhi|Hlen].
    2:{ exfalso. assert (length (skipn i hist) = 0%nat) by (rewrite skipn_length; lia). rewrite Esk in H. discriminate. }
    assert (ES : firstn (S i) hist = firstn i hist ++ [b]) by (eapply firstn_S_skipn; eauto).
    assert (Eoff : offset c s0 hist (S i) = (offset c s0 hist i + length (import_batches c si b))%nat).
    { unfold offset. rewrite ES, writes_of_app, app_length. fold si. simpl. rewrite app_nil_r. reflexivity. }
    set (j := (k - offset c s0 hist i)%nat) in *.
    assert (Hj : (j < length (import_batches c si b))%nat) by lia.
    assert (Ecr : crash c s0 hist k = apply_writes si (firstn j (import_batches c si b))).
    { rewrite Ecrash. simpl writes_of. rewrite firstn_app_le by lia. reflexivity. }
    destruct Hw2 as [Hwb _].
    destruct (resume_within_import c si b rest j Hc Ii Hwb Hj) as (r & Hr & He).
    exists r. rewrite Ecr. split; auto.
    assert (Erun : run c si (b :: rest) = run c s0 hist).
    { unfold si. rewrite <- run_app, <- Ehist. reflexivity. }
    rewrite <- Erun. auto.
Qed.

Theorem resume_converges c s0 hist k i :
  wf_cfg2 c -> Inv2 c s0 -> wf_hist c s0 hist -> cut_in_import c s0 hist k i ->
  exists r, resume c true (crash c s0 hist k) (skipn i hist) = Some r /\ eqv r (run c s0 hist).
Proof.
  intros Hc I0 Hw Hcut. destruct (resume_converges_ids c s0 hist k i Hc I0 Hw Hcut) as (r & Hr & He & _). eauto.
Qed.

(* what equivalence means for the observations the property names: same stored set, best block, quality records
   (vote tallies) and finalized block *)
Corollary resume_converges_observations c s0 hist k i :
  wf_cfg2 c -> Inv2 c s0 -> wf_hist c s0 hist -> cut_in_import c s0 hist k i ->
  exists r, resume c true (crash c s0 hist k) (skipn i hist) = Some r /\
    get_id r KBest = get_id (run c s0 hist) KBest /\ finalized c r = finalized c (run c s0 hist) /\
    (forall id, stored r id = stored (run c s0 hist) id) /\ (forall id, get_quality r id = get_quality (run c s0 hist) id).
Proof.
  intros Hc I0 Hw Hcut. destruct (resume_converges c s0 hist k i Hc I0 Hw Hcut) as (r & Hr & He).
  exists r. split; auto. apply eqv_observations. auto.
Qed.
