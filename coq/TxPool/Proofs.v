(* TxPool/Proofs.v — bookkeeping_inv: after EVERY sequence of atomic steps the quota and cost maps are exactly what
   the pool content implies (entries absent exactly when the count is zero); steps_from, the closure of pool_step under
   which the phases of wash are stated; the published list is sorted and publish drops only unpayable candidates
   (publish_spec); finding F12 (promote before its repair breaks the invariant). *)
From Coq Require Import List NArith Bool Lia Sorted Permutation.
From Verif Require Import Common.Util TxPool.Model.
Import ListNotations.
Open Scope N_scope.

Definition Q (c : N) : option N := if c =? 0 then None else Some c.

Definition inv (p : pool) : Prop :=
  NoDup (map hash (objs p)) /\
  (forall a, quota p a = Q (quota_of (objs p) a)) /\
  (forall a, aget (cost p) a = cost_of (objs p) a).

Lemma aget_Q q c a : q a = Q (c a) -> aget q a = c a.
Proof. unfold aget, Q. intros ->. destruct (c a =? 0) eqn:E; auto. apply N.eqb_eq in E. auto. Qed.

Lemma qinc_Q q (c : N -> N) k :
  (forall a, q a = Q (c a)) -> forall a, qinc q k a = Q (c a + (if a =? k then 1 else 0)).
Proof.
  intros H a. unfold qinc, aset. rewrite (aget_Q q c k (H k)).
  destruct (a =? k) eqn:E.
  - apply N.eqb_eq in E. subst. unfold Q. destruct (c k + 1 =? 0) eqn:Z; auto. apply N.eqb_eq in Z. lia.
  - rewrite N.add_0_r. auto.
Qed.

Lemma qdec_Q q (c : N -> N) k :
  (forall a, q a = Q (c a)) -> 1 <= c k -> forall a, qdec q k a = Q (c a - (if a =? k then 1 else 0)).
Proof.
  intros H Hk a. unfold qdec. rewrite (aget_Q q c k (H k)).
  destruct (1 <? c k) eqn:L.
  - apply N.ltb_lt in L. unfold aset. destruct (a =? k) eqn:E.
    + apply N.eqb_eq in E. subst. unfold Q. destruct (c k - 1 =? 0) eqn:Z; auto. apply N.eqb_eq in Z. lia.
    + rewrite N.sub_0_r. auto.
  - apply N.ltb_ge in L. unfold adel. destruct (a =? k) eqn:E.
    + apply N.eqb_eq in E. subst. unfold Q. replace (c k - 1) with 0 by lia. auto.
    + rewrite N.sub_0_r. auto.
Qed.

Lemma aget_aset m k v a : aget (aset m k v) a = if a =? k then v else aget m a.
Proof. unfold aget, aset. destruct (a =? k); reflexivity. Qed.

Lemma aget_adel m k a : aget (adel m k) a = if a =? k then 0 else aget m a.
Proof. unfold aget, adel. destruct (a =? k); reflexivity. Qed.

Lemma find_obj_some h l o : find_obj h l = Some o -> In o l /\ hash o = h.
Proof. unfold find_obj. intro H. apply find_some in H. destruct H as [H1 H2]. apply N.eqb_eq in H2. auto. Qed.

Lemma find_obj_none h l : find_obj h l = None -> ~ In h (map hash l).
Proof.
  unfold find_obj. intros H Hin. apply in_map_iff in Hin. destruct Hin as [o [E Ho]].
  assert (X := find_none _ _ H o Ho). cbn in X. rewrite E, N.eqb_refl in X. discriminate.
Qed.

Lemma remove_obj_absent h l : ~ In h (map hash l) -> remove_obj h l = l.
Proof.
  induction l as [|x t IH]; cbn; [reflexivity|]. intros Hn. destruct (N.eqb_spec (hash x) h) as [E|E]; [tauto|].
  cbn. f_equal. apply IH. tauto.
Qed.

Lemma replace_obj_absent o' l : ~ In (hash o') (map hash l) -> replace_obj o' l = l.
Proof.
  induction l as [|x t IH]; cbn; [reflexivity|]. intros Hn. destruct (N.eqb_spec (hash x) (hash o')) as [E|E]; [tauto|].
  f_equal. apply IH. tauto.
Qed.

Section Sums.
  Variable f : txobj -> N.

  Lemma sum_remove : forall l h o, NoDup (map hash l) -> find_obj h l = Some o ->
      sumN (map f l) = f o + sumN (map f (remove_obj h l)).
  Proof.
    induction l as [|x t IH]; intros h o Hnd Hf; [discriminate|].
    cbn in Hnd. inversion Hnd as [|? ? Hnot Hnd']; subst.
    unfold find_obj in Hf. cbn [find] in Hf. cbn [remove_obj filter map sumN].
    destruct (N.eqb_spec (hash x) h) as [E|E]; cbn [negb].
    - inversion Hf; subst. fold (remove_obj (hash o) t). rewrite remove_obj_absent by exact Hnot. reflexivity.
    - cbn [map sumN]. rewrite (IH h o Hnd' Hf). unfold remove_obj. lia.
  Qed.

  Lemma sum_replace : forall l o o', NoDup (map hash l) -> find_obj (hash o') l = Some o ->
      sumN (map f (replace_obj o' l)) + f o = sumN (map f l) + f o'.
  Proof.
    induction l as [|x t IH]; intros o o' Hnd Hf; [discriminate|].
    cbn in Hnd. inversion Hnd as [|? ? Hnot Hnd']; subst.
    unfold find_obj in Hf. cbn [find] in Hf. cbn [replace_obj map sumN].
    destruct (N.eqb_spec (hash x) (hash o')) as [E|E].
    - inversion Hf; subst. fold (replace_obj o' t). rewrite replace_obj_absent by (rewrite <- E; exact Hnot). lia.
    - assert (X := IH o o' Hnd' Hf). unfold replace_obj in X. lia.
  Qed.
End Sums.

Lemma nodup_remove h l : NoDup (map hash l) -> NoDup (map hash (remove_obj h l)).
Proof.
  induction l as [|x t IH]; intro H; cbn; [constructor|].
  cbn in H. inversion H as [|? ? Hnot Hnd]; subst.
  destruct (hash x =? h); cbn [negb]; auto.
  cbn. constructor; auto. intro X. apply Hnot.
  apply in_map_iff in X. destruct X as [y [E Hy]]. apply filter_In in Hy. apply in_map_iff. exists y. tauto.
Qed.

Lemma hashes_replace o' l : map hash (replace_obj o' l) = map hash l.
Proof.
  unfold replace_obj. induction l as [|x t IH]; auto. cbn [map]. rewrite IH.
  destruct (hash x =? hash o') eqn:E; auto. apply N.eqb_eq in E. congruence.
Qed.

Lemma refs_set_exec a o e : refs a (set_exec o e) = refs a o. Proof. reflexivity. Qed.
Lemma refs_set_price a o p : refs a (set_price o p) = refs a o. Proof. reflexivity. Qed.

Lemma inv_empty : inv empty_pool.
Proof. unfold inv. cbn. repeat split; auto. constructor. Qed.

Lemma quota_insert q l o :
  (forall a, q a = Q (quota_of l a)) ->
  forall a, (match delegator o with Some d => qinc (qinc q (origin o)) d | None => qinc q (origin o) end) a
            = Q (quota_of l a + refs a o).
Proof.
  intros H a. unfold refs. destruct (delegator o) as [d|].
  - rewrite (qinc_Q _ (fun a => quota_of l a + (if a =? origin o then 1 else 0)) d).
    + f_equal. lia.
    + intro b. apply qinc_Q. auto.
  - rewrite (qinc_Q _ (quota_of l) (origin o) H). f_equal. lia.
Qed.

Lemma inv_insert p o o2 c2 : inv p -> find_obj (hash o) (objs p) = None ->
  hash o2 = hash o -> (forall a, refs a o2 = refs a o) -> (forall a, aget c2 a = aget (cost p) a + charge_of a o2) ->
  inv (mkPool (o2 :: objs p)
              (match delegator o with Some d => qinc (qinc (quota p) (origin o)) d | None => qinc (quota p) (origin o) end) c2).
Proof.
  intros [Hnd [Hq Hc]] Ef Hh Href Hcost. split; [|split]; cbn [objs quota cost].
  - cbn [map]. rewrite Hh. constructor; auto. apply find_obj_none; auto.
  - intro a. unfold quota_of. cbn [map sumN]. rewrite Href. fold (quota_of (objs p) a).
    rewrite (quota_insert (quota p) (objs p) o Hq a). f_equal. lia.
  - intro a. unfold cost_of. cbn [map sumN]. fold (cost_of (objs p) a). rewrite Hcost, Hc. lia.
Qed.

Lemma inv_add p o exe pr limit balance : inv p -> inv (fst (add p o exe pr limit balance)).
Proof.
  intros H. unfold add.
  destruct (find_obj (hash o) (objs p)) eqn:Ef; [exact H|].
  destruct (limit <=? aget (quota p) (origin o)); [exact H|].
  destruct (match delegator o with Some d => limit <=? aget (quota p) d | None => false end); [exact H|].
  set (o2 := set_exec (match pr with Some _ => set_price o pr | None => o end) exe).
  assert (Href : forall a, refs a o2 = refs a o) by (intro a; unfold o2; destruct pr; reflexivity).
  assert (Hh : hash o2 = hash o) by (unfold o2; destruct pr; reflexivity).
  destruct (if exe then price o2 else None) as [pc|] eqn:Ech; cbn zeta.
  - destruct (balance (payer pc) <? aget (cost p) (payer pc) + pcost pc); [exact H|].
    apply (inv_insert p o o2); auto. intro a. rewrite aget_aset. destruct exe; [|discriminate].
    unfold charge_of. replace (executable o2) with true by reflexivity. rewrite Ech.
    destruct (N.eqb_spec a (payer pc)) as [->|]; lia.
  - apply (inv_insert p o o2); auto. intro a. unfold charge_of. destruct exe.
    + replace (executable o2) with true by reflexivity. rewrite Ech. lia.
    + replace (executable o2) with false by reflexivity. lia.
Qed.

Lemma inv_fill l : forall p, inv p -> inv (fill p l).
Proof.
  induction l as [|o t IH]; intros p Hp; cbn [fill]; auto.
  destruct (find_obj (hash o) (objs p)) eqn:Ef; auto.
  apply IH. apply (inv_insert p o (set_exec o false)); auto. intro a. unfold charge_of. cbn. lia.
Qed.

Lemma inv_remove p h : inv p -> inv (fst (remove_by_hash p h)).
Proof.
  intros [Hnd [Hq Hc]]. unfold remove_by_hash.
  destruct (find_obj h (objs p)) as [o|] eqn:Ef; [|cbn; unfold inv; auto].
  cbn [fst]. split; [|split]; cbn [objs quota cost].
  - apply nodup_remove; auto.
  - intro a.
    assert (Hsum : forall b, quota_of (objs p) b = refs b o + quota_of (remove_obj h (objs p)) b).
    { intro b. unfold quota_of. apply sum_remove; auto. }
    set (c1 := fun b => quota_of (objs p) b - (if b =? origin o then 1 else 0)).
    assert (H1 : forall b, qdec (quota p) (origin o) b = Q (c1 b)).
    { intro b. apply qdec_Q; auto. rewrite Hsum. unfold refs. rewrite N.eqb_refl. lia. }
    destruct (delegator o) as [d|] eqn:Ed.
    + rewrite (qdec_Q _ c1 d H1).
      * f_equal. unfold c1. rewrite Hsum. unfold refs. rewrite Ed. lia.
      * unfold c1. rewrite Hsum. unfold refs. rewrite Ed, N.eqb_refl. lia.
    + rewrite H1. f_equal. unfold c1. rewrite Hsum. unfold refs. rewrite Ed. lia.
  - intro a.
    assert (Hsum : forall b, cost_of (objs p) b = charge_of b o + cost_of (remove_obj h (objs p)) b).
    { intro b. unfold cost_of. apply sum_remove; auto. }
    unfold charge_of in Hsum.
    destruct (executable o); [destruct (price o) as [pc|]|]; try (rewrite Hc, Hsum; lia).
    pose proof (Hsum (payer pc)) as Hs. rewrite N.eqb_refl, <- Hc in Hs. specialize (Hsum a). rewrite <- Hc in Hsum.
    assert (Hp : aget (cost p) (payer pc) = match cost p (payer pc) with Some v => v | None => 0 end) by reflexivity.
    destruct (cost p (payer pc)) as [pending|].
    + destruct (N.leb_spec pending (pcost pc)); [rewrite aget_adel | rewrite aget_aset];
        destruct (N.eqb_spec a (payer pc)) as [->|]; lia.
    + destruct (N.eqb_spec a (payer pc)) as [->|]; lia.
Qed.

Lemma quota_replace l o o' a : NoDup (map hash l) -> find_obj (hash o') l = Some o -> refs a o' = refs a o ->
  quota_of (replace_obj o' l) a = quota_of l a.
Proof. intros Hnd Ef Href. unfold quota_of. pose proof (sum_replace (refs a) l o o' Hnd Ef) as X. rewrite Href in X. lia. Qed.

Lemma inv_replace p o o' c2 : inv p -> find_obj (hash o') (objs p) = Some o -> (forall a, refs a o' = refs a o) ->
  (forall a, aget c2 a + charge_of a o = aget (cost p) a + charge_of a o') ->
  inv (mkPool (replace_obj o' (objs p)) (quota p) c2).
Proof.
  intros [Hnd [Hq Hc]] Ef Href Hcost. split; [|split]; cbn [objs quota cost].
  - rewrite hashes_replace. auto.
  - intro a. rewrite (quota_replace _ o o' a Hnd Ef (Href a)). apply Hq.
  - intro a. unfold cost_of. pose proof (sum_replace (charge_of a) (objs p) o o' Hnd Ef) as X.
    specialize (Hcost a). rewrite Hc in Hcost. unfold cost_of in Hcost. lia.
Qed.

Lemma inv_promote p h id : inv p -> inv (fst (promote p h id)).
Proof.
  intros H. unfold promote.
  destruct (find_obj h (objs p)) as [o|] eqn:Ef; [|exact H].
  destruct (negb (oid o =? id)); [exact H|].
  destruct (executable o) eqn:Ee; [exact H|].
  destruct (find_obj_some _ _ _ Ef) as [_ <-].
  apply (inv_replace p o (set_exec o true)); auto. intro a. unfold charge_of. rewrite Ee. cbn [executable set_exec price].
  destruct (price o) as [pc|]; [rewrite aget_aset; destruct (N.eqb_spec a (payer pc)) as [->|]|]; lia.
Qed.

Lemma inv_set_pricing p h id pr : inv p -> inv (set_pricing p h id pr).
Proof.
  intros H. unfold set_pricing.
  destruct (find_obj h (objs p)) as [o|] eqn:Ef; [|exact H].
  destruct (find_obj_some _ _ _ Ef) as [_ <-].
  destruct ((oid o =? id) && (negb (executable o) || _)) eqn:Eal; [|exact H].
  apply andb_true_iff in Eal. destruct Eal as [_ Eal].
  apply (inv_replace p o (set_price o (Some pr))); auto. intro a. f_equal. symmetry.
  unfold charge_of. cbn [executable set_price price].
  destruct (executable o) eqn:Ee; auto. cbn [negb orb] in Eal.
  destruct (price o) as [old|]; [|discriminate].
  apply andb_true_iff in Eal. destruct Eal as [E1 E2]. apply N.eqb_eq in E1, E2. rewrite E1, E2. auto.
Qed.

Lemma inv_step p s : inv p -> inv (pool_step p s).
Proof.
  destruct s; cbn [pool_step]; intro H.
  - apply inv_add; auto.
  - apply inv_remove; auto.
  - apply inv_promote; auto.
  - apply inv_fill; auto.
  - apply inv_set_pricing; auto.
Qed.

Theorem inv_run : forall steps p, inv p -> inv (fold_left pool_step steps p).
Proof. induction steps as [|s t IH]; intros p H; cbn; auto. apply IH. apply inv_step. auto. Qed.

Theorem bookkeeping_inv_thm : forall steps, inv (run steps).
Proof. intro steps. apply inv_run. apply inv_empty. Qed.

(* reachability by atomic steps of a given kind: how the phases of wash act on the pool *)
Inductive steps_from (ok : step -> bool) (p : pool) : pool -> Prop :=
| steps_refl : steps_from ok p p
| steps_step q s : steps_from ok p q -> ok s = true -> steps_from ok p (pool_step q s).

Lemma steps_trans ok p q r : steps_from ok p q -> steps_from ok q r -> steps_from ok p r.
Proof. intros H1 H2. induction H2; [exact H1 | apply steps_step; assumption]. Qed.

Lemma steps_inv ok p p' : steps_from ok p p' -> inv p -> inv p'.
Proof. intros H Hp. induction H; [exact Hp | apply inv_step; assumption]. Qed.

Definition quiet (s : step) : bool := match s with SPromote _ _ | SSetPricing _ _ _ => true | _ => false end.

Lemma steps_hashes p p' : steps_from quiet p p' -> map hash (objs p') = map hash (objs p).
Proof.
  intros H. induction H as [|q s _ IH Hs]; [reflexivity|]. rewrite <- IH. clear IH.
  destruct s as [| |h id| |h id pr]; try discriminate; cbn [pool_step].
  - unfold promote. destruct (find_obj h (objs q)) as [o|]; auto. destruct (negb (oid o =? id)); auto.
    destruct (executable o); auto. apply hashes_replace.
  - unfold set_pricing. destruct (find_obj h (objs q)) as [o|]; auto. destruct (_ && _); auto. apply hashes_replace.
Qed.

Lemma inv_holds_at p a : inv p -> holds_at p a = true.
Proof.
  intros [_ [Hq Hc]]. unfold holds_at. rewrite Hq, Hc, N.eqb_refl. unfold Q.
  destruct (quota_of (objs p) a =? 0) eqn:E; cbn; auto. rewrite N.eqb_refl, E. auto.
Qed.

(* consequences named in the property: no lock-out, no over-admission after removals *)
Corollary no_lockout steps a :
  quota_of (objs (run steps)) a = 0 -> quota (run steps) a = None.
Proof. intro H. destruct (bookkeeping_inv_thm steps) as [_ [Hq _]]. rewrite Hq, H. reflexivity. Qed.

Corollary empty_pool_clean steps :
  objs (run steps) = [] -> forall a, quota (run steps) a = None /\ aget (cost (run steps)) a = 0.
Proof.
  intros H a. destruct (bookkeeping_inv_thm steps) as [_ [Hq Hc]]. rewrite Hq, Hc, H. auto.
Qed.

Definition ge_price (a b : txobj) : Prop := pgp_of b <= pgp_of a.

Lemma insert_desc_perm x l : Permutation (insert_desc x l) (x :: l).
Proof. induction l as [|y t IH]; cbn; [reflexivity|]. destruct (before x y); [reflexivity|]. rewrite IH. apply perm_swap. Qed.

Lemma sort_desc_perm l : Permutation (sort_desc l) l.
Proof. induction l as [|x t IH]; cbn; [reflexivity|]. rewrite insert_desc_perm. now constructor. Qed.

Lemma insert_desc_sorted x l : StronglySorted ge_price l -> StronglySorted ge_price (insert_desc x l).
Proof.
  induction l as [|y t IH]; intro H; cbn.
  - constructor; constructor.
  - inversion H as [|? ? Hs Hf]; subst.
    assert (Hxy : if before x y then ge_price x y else ge_price y x).
    { unfold before, ge_price. destruct (N.eqb_spec (pgp_of x) (pgp_of y)) as [Ee|Ee]; [rewrite Ee; destruct (negb _); lia|].
      destruct (N.ltb_spec (pgp_of y) (pgp_of x)); lia. }
    destruct (before x y); constructor; auto.
    + constructor; auto. eapply Forall_impl; [|exact Hf]. intros z Hz. unfold ge_price in *. lia.
    + apply (Permutation_Forall (Permutation_sym (insert_desc_perm x t))). constructor; auto.
Qed.

Lemma sort_desc_sorted l : StronglySorted ge_price (sort_desc l).
Proof. induction l; cbn; [constructor|]. apply insert_desc_sorted; auto. Qed.

(* publish keeps a subsequence of the candidates, in order *)
Inductive subseq : list txobj -> list txobj -> Prop :=
| sub_nil : subseq [] []
| sub_skip x l l' : subseq l l' -> subseq l (x :: l')
| sub_keep x l l' : subseq l l' -> subseq (x :: l) (x :: l').

(* a candidate dropped by the final loop started on pool p was not executable, and had no published pricing or its
   payer's energy is below the pending cost in the pool q the loop had reached when the object's turn came, plus the
   object's cost *)
Definition dropped (energy : N -> N) (p : pool) (cands : list txobj) (h : N) : Prop :=
  exists o q, steps_from quiet p q /\ In o cands /\ hash o = h /\ executable o = false /\
    (price o = None \/
     exists pc, price o = Some pc /\ energy (payer pc) < aget (cost q) (payer pc) + pcost pc).

Lemma dropped_later energy p p1 x t h : steps_from quiet p p1 -> dropped energy p1 t h -> dropped energy p (x :: t) h.
Proof.
  intros S (o & q & Sq & Hin & H). exists o, q. split; [exact (steps_trans _ _ _ _ S Sq)|]. split; [right; exact Hin | exact H].
Qed.

Lemma publish_spec energy : forall cands p p' pub bad, publish p energy cands = (p', pub, bad) ->
  steps_from quiet p p' /\ subseq pub cands /\ forall h, In h bad -> dropped energy p cands h.
Proof.
  induction cands as [|o t IH]; intros p p' pub bad; cbn [publish].
  - intros E. inversion E. repeat split; [constructor | constructor | intros h []].
  - assert (Skip : dropped energy p (o :: t) (hash o) ->
              (let '(p', pub, bad) := publish p energy t in (p', pub, hash o :: bad)) = (p', pub, bad) ->
              steps_from quiet p p' /\ subseq pub (o :: t) /\ forall h, In h bad -> dropped energy p (o :: t) h).
    { intros Hd. destruct (publish p energy t) as [[q pub'] bad'] eqn:E. intros X. inversion X; subst.
      destruct (IH _ _ _ _ E) as (S & B & D). split; [exact S|]. split; [apply sub_skip; exact B|].
      intros h [<-|Hh]; [exact Hd | exact (dropped_later _ _ _ _ _ _ (steps_refl _ _) (D h Hh))]. }
    assert (Keep : forall p1, steps_from quiet p p1 ->
              (let '(p', pub, bad) := publish p1 energy t in (p', o :: pub, bad)) = (p', pub, bad) ->
              steps_from quiet p p' /\ subseq pub (o :: t) /\ forall h, In h bad -> dropped energy p (o :: t) h).
    { intros p1 S1. destruct (publish p1 energy t) as [[q pub'] bad'] eqn:E. intros X. inversion X; subst.
      destruct (IH _ _ _ _ E) as (S & B & D). split; [exact (steps_trans _ _ _ _ S1 S)|]. split; [apply sub_keep; exact B|].
      intros h Hh. exact (dropped_later _ _ _ _ _ _ S1 (D h Hh)). }
    destruct (executable o) eqn:Ee; [apply Keep; constructor|].
    destruct (price o) as [pc|] eqn:Ep.
    2:{ apply Skip. exists o, p. split; [constructor|]. repeat split; auto. left; reflexivity. }
    destruct (N.ltb_spec (energy (payer pc)) (aget (cost p) (payer pc) + pcost pc)) as [El|El].
    { apply Skip. exists o, p. split; [constructor|]. repeat split; auto. left; reflexivity. right. exists pc. auto. }
    assert (S1 : steps_from quiet p (fst (promote p (hash o) (oid o))))
      by exact (steps_step quiet p p (SPromote (hash o) (oid o)) (steps_refl _ _) eq_refl).
    destruct (promote p (hash o) (oid o)) as [p1 ok]. destruct ok; [exact (Keep p1 S1)|].
    intros E. destruct (IH _ _ _ _ E) as (S & B & D). split; [exact (steps_trans _ _ _ _ S1 S)|].
    split; [apply sub_skip; exact B|]. intros h Hh. exact (dropped_later _ _ _ _ _ _ S1 (D h Hh)).
Qed.

Lemma subseq_sorted l l' : subseq l l' -> StronglySorted ge_price l' -> StronglySorted ge_price l.
Proof.
  induction 1; intro Hs; auto.
  - inversion Hs; subst. auto.
  - inversion Hs as [|? ? Hs' Hf]; subst. constructor; auto.
    clear - H Hf. induction H; auto.
    + inversion Hf; subst. auto.
    + inversion Hf; subst. constructor; auto.
Qed.

Theorem executables_sorted_thm p energy l :
  StronglySorted ge_price (snd (fst (publish p energy (sort_desc l)))).
Proof.
  destruct (publish p energy (sort_desc l)) as [[p' pub] bad] eqn:E.
  exact (subseq_sorted _ _ (proj1 (proj2 (publish_spec _ _ _ _ _ _ E))) (sort_desc_sorted l)).
Qed.

(* publish touches the maps only through promote: it keeps the invariant *)
Lemma publish_inv energy : forall cands p, inv p -> inv (fst (fst (publish p energy cands))).
Proof.
  intros cands p. destruct (publish p energy cands) as [[p' pub] bad] eqn:E.
  exact (steps_inv _ _ _ (proj1 (publish_spec _ _ _ _ _ _ E))).
Qed.

Theorem publish_drop_energy energy cands p h : In h (snd (publish p energy cands)) -> dropped energy p cands h.
Proof. destruct (publish p energy cands) as [[p' pub] bad] eqn:E. exact (proj2 (proj2 (publish_spec _ _ _ _ _ _ E)) h). Qed.

(* finding F12: promote before the repair (presence tested by hash only) *)
Lemma promote_unguarded_same p a :
  (forall o, find_obj (hash a) (objs p) = Some o -> oid o = oid a) ->
  promote_unguarded p a = promote p (hash a) (oid a).
Proof.
  intro H. unfold promote_unguarded. destruct (find_obj (hash a) (objs p)) as [o|] eqn:E.
  - rewrite (H o eq_refl), N.eqb_refl. auto.
  - unfold promote. rewrite E. auto.
Qed.

(* the schedule: A enters through Fill (not executable), wash captures A and publishes its pricing on it, the tx is
   removed and submitted again (object B, executable, cost 100 counted by Add), wash promotes the captured A *)
Definition f12_A : txobj := mkObj 7 10 None false (Some (mkPricing 10 100 5)) 1 false 1.
Definition f12_B : txobj := mkObj 7 10 None false None 2 false 2.
Definition f12_pool : pool :=
  run [SFill [mkObj 7 10 None false None 1 false 1]; SRemove 7; SAdd f12_B true (Some (mkPricing 10 100 5)) 16 (fun _ => 1000)].

Lemma f12_refutes_unguarded :
  inv f12_pool /\ ~ inv (fst (promote_unguarded f12_pool f12_A)) /\
  aget (cost (fst (promote_unguarded f12_pool f12_A))) 10 = 200 /\ cost_of (objs f12_pool) 10 = 100 /\
  (* and the residue stays after the only pooled tx has left *)
  aget (cost (fst (remove_by_hash (fst (promote_unguarded f12_pool f12_A)) 7))) 10 = 100.
Proof.
  split; [apply bookkeeping_inv_thm|]. split; [|vm_compute; auto].
  intro H. pose proof (inv_holds_at _ 10 H) as X. vm_compute in X. discriminate.
Qed.

(* with the repair the same schedule leaves the accounting alone *)
Lemma f12_guarded_noop : promote f12_pool (hash f12_A) (oid f12_A) = (f12_pool, false).
Proof. vm_compute. reflexivity. Qed.
