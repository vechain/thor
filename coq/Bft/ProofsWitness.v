(* Bft/ProofsWitness.v — concrete runs evaluated in the model by vm_compute:
   F1: before the repair CommitBlock fails on an accepted block (a fork inside the finalized epoch); with the guard the
       same tree imports without error.
   F4: with n = 4 and one Byzantine validator the vote rule as coded (the `quality >= headQuality-1` window over the
       validator's own casts) admits a run, valid in the model (every honest block is proposed on its proposer's own
       best block with the engine's COM bit; score increments within 1..n are data of the run), in which two honest
       nodes finalize conflicting checkpoints. *)
From Coq Require Import List NArith Bool Lia.
From Verif Require Import Common.Util Bft.Tree Bft.Model Bft.Quorum Bft.Safety.
Import ListNotations.
Open Scope N_scope.

Definition cfg4 : cfg := mkCfg 4 4 false 0 [].
Definition gen : blk := mkB (mkid 0 1) 0 0 false 0.

(* main chain a1..a11, every block COM, signers rotating; fork f5 f6 f7 branching at a4 *)
Definition a (k : N) : blk := mkB (mkid k 1) (mkid (k - 1) 1) (k mod 4 + 1) true k.
Definition f (k : N) : blk := mkB (mkid k 2) (if k =? 5 then mkid 4 1 else mkid (k - 1) 2) (k mod 4 + 1) true k.
Definition f1_blocks : list blk := map a [1;2;3;4;5;6;7;8;9;10;11] ++ map f [5;6;7].

Lemma numbered_b g bs : b_num g = 0 ->
  forallb (fun b => forallb (fun p => negb (b_id p =? b_parent b) || (b_num b =? b_num p + 1)) (g :: bs)) bs = true ->
  numbered g bs.
Proof.
  intros Hg H. split; [exact Hg|]. intros b p Hb Hp E. rewrite forallb_forall in H. specialize (H b Hb).
  rewrite forallb_forall in H. specialize (H p Hp). rewrite E, N.eqb_refl in H. apply N.eqb_eq. exact H.
Qed.

Lemma f1_numbered : numbered gen f1_blocks.
Proof. apply numbered_b; vm_compute; reflexivity. Qed.

Lemma f1_unguarded_fails : import_codes false cfg4 (init_node gen 1) f1_blocks = [0;0;0;0;0;0;0;0;0;0;0;0;0;103].
Proof. vm_compute. reflexivity. Qed.

Lemma f1_guarded_ok : import_codes true cfg4 (init_node gen 1) f1_blocks = [0;0;0;0;0;0;0;0;0;0;0;0;0;0].
Proof. vm_compute. reflexivity. Qed.

Theorem commit_block_error_refuted_lemma : ~ commit_block_total_statement false.
Proof.
  intros H. specialize (H cfg4 gen 1 f1_blocks ltac:(reflexivity) f1_numbered 103).
  rewrite f1_unguarded_fails in H. assert (103 < 100) by (apply H; repeat (try (left; reflexivity); right)). discriminate.
Qed.

(* validators 1,2,3 honest (nodes 0,1,2), validator 4 Byzantine; ids: tail 1 common prefix, 2 branch Y, 3 branch X *)
Definition bk (num tail ptail signer : N) (com : bool) (score : N) : blk :=
  mkB (mkid num tail) (mkid (num - 1) ptail) signer com score.

Definition c1 := bk 1 1 1 1 false 4.   Definition c2 := bk 2 1 1 2 false 8.   Definition c3 := bk 3 1 1 3 false 12.
Definition y4 := bk 4 2 1 1 true 13.   Definition y5 := bk 5 2 2 2 true 17.
Definition y6 := bk 6 2 2 4 false 21.  Definition y7 := bk 7 2 2 4 false 25.
Definition x4 := bk 4 3 1 3 true 16.   Definition x5 := bk 5 3 3 1 true 17.   Definition x6 := bk 6 3 3 4 false 18.
Definition x7 := bk 7 3 3 3 true 19.   Definition x8 := bk 8 3 3 3 true 20.   Definition x9 := bk 9 3 3 1 false 21.
Definition x10 := bk 10 3 3 4 true 22. Definition x11 := bk 11 3 3 2 true 23.
Definition y8 := bk 8 2 2 1 false 29.  Definition y9 := bk 9 2 2 3 false 33.
Definition y10 := bk 10 2 2 4 false 37. Definition y11 := bk 11 2 2 4 false 41.
Definition y12 := bk 12 2 2 1 false 45. Definition y13 := bk 13 2 2 3 false 49.
Definition y14 := bk 14 2 2 4 false 53. Definition y15 := bk 15 2 2 4 false 57.
Definition y16 := bk 16 2 2 1 true 61.  Definition y17 := bk 17 2 2 3 true 65.
Definition y18 := bk 18 2 2 4 true 69.  Definition y19 := bk 19 2 2 4 true 73.

Definition P := EPropose. Definition I := EImport.
Definition f4_run : list event :=
  [ P 0%nat c1; I 1%nat c1; I 2%nat c1; P 1%nat c2; I 0%nat c2; I 2%nat c2; P 2%nat c3; I 0%nat c3; I 1%nat c3;
    P 0%nat y4; I 1%nat y4; P 1%nat y5;
    P 2%nat x4; I 0%nat x4; P 0%nat x5; I 2%nat x5; I 2%nat x6; P 2%nat x7; P 2%nat x8;
    I 0%nat x6; I 0%nat x7; I 0%nat x8; P 0%nat x9;
    I 1%nat x4; I 1%nat x5; I 1%nat x6; I 1%nat x7; I 1%nat x8; I 1%nat x9; I 1%nat x10; P 1%nat x11;
    I 0%nat y5; I 0%nat y6; I 0%nat y7; P 0%nat y8;
    I 2%nat y4; I 2%nat y5; I 2%nat y6; I 2%nat y7; I 2%nat y8; I 2%nat x9; P 2%nat y9;
    I 0%nat y9; I 0%nat y10; I 0%nat y11; P 0%nat y12;
    I 2%nat y10; I 2%nat y11; I 2%nat y12; P 2%nat y13;
    I 0%nat y13; I 0%nat y14; I 0%nat y15; P 0%nat y16;
    I 2%nat y14; I 2%nat y15; I 2%nat y16; P 2%nat y17;
    I 0%nat y17; I 0%nat y18; I 0%nat y19; I 2%nat y18; I 2%nat y19 ].

Definition f4_world : list node := map (init_node gen) [1;2;3].

Lemma f4_valid (guard : bool) : valid_run_b guard cfg4 [4] f4_world [gen] f4_run = true.
Proof. destruct guard; vm_compute; reflexivity. Qed.

(* both memberships from one evaluation of l *)
Lemma mem_both l a b : forallb (mem l) [a; b] = true -> In a l /\ In b l.
Proof. cbn. rewrite andb_true_r, andb_true_iff, !mem_In. tauto. Qed.

Lemma f4_fins (guard : bool) :
  In (b_id x4) (all_fins guard cfg4 f4_world f4_run) /\ In (b_id y12) (all_fins guard cfg4 f4_world f4_run).
Proof. destruct guard; apply mem_both; vm_compute; reflexivity. Qed.

Lemma f4_conflict : conflict (seen_after [gen] f4_run) (b_id x4) (b_id y12) = true.
Proof. vm_compute. reflexivity. Qed.

Lemma cfg4_side : NoDup [1;2;3] /\ NoDup [4] /\ (forall m, In m [1;2;3] -> ~ In m [4]) /\
  3 * N.of_nat (length [4]) < c_mbp cfg4 /\ N.of_nat (length [1;2;3] + length [4]) <= c_mbp cfg4.
Proof.
  split; [repeat constructor; cbn; intuition discriminate|]. split; [repeat constructor; cbn; tauto|].
  split; [intros m Hm Hb4; cbn in Hm, Hb4; destruct Hb4 as [<-|[]]; intuition discriminate|].
  split; [vm_compute; reflexivity | vm_compute; discriminate].
Qed.

Theorem bft_safety_refuted_lemma (guard : bool) : ~ bft_safety_statement guard.
Proof.
  intros H. destruct cfg4_side as [Hnd [Hnb [Hdis [T S]]]]. destruct (f4_fins guard) as [Ha Hb].
  pose proof (H cfg4 gen [1;2;3] [4] f4_run ltac:(reflexivity) eq_refl eq_refl Hnd Hnb Hdis T S (f4_valid guard) _ _ Ha Hb) as Hc.
  rewrite f4_conflict in Hc. discriminate.
Qed.

(* the F4 run needs the tie switches: it does not satisfy the fork-choice premise *)
Lemma f4_breaks_premise (guard : bool) : no_tie_switch_b guard cfg4 f4_world f4_run = false.
Proof. destruct guard; vm_compute; reflexivity. Qed.
