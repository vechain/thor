(* Staker/Witness.v — witnesses on large histories (a hundred validators); Properties/C16.v and C17.v cite them. *)
From Coq Require Import List NArith Bool Lia.
From Verif Require Import Common.Util Staker.Model Staker.Base Staker.ProofsHist Staker.Held Staker.ProofsCustody.
Import ListNotations.
Open Scope N_scope.

Lemma run_app c s l1 l2 : run c s (l1 ++ l2) = run c (run c s l1) l2.
Proof. apply fold_left_app. Qed.

(* ---- 102 active validators, all offline: the eviction loop's exit-slot search fails at block 16 ---- *)
Definition big_cfg : cfg := mkC 4 8 12 16 4 8 8 0 0.
Definition big_ops : list op :=
  map (fun i => OAddValidation (4096 + N.of_nat i) (61440 + N.of_nat i) 8 25000000) (seq 0 102) ++
  repeat OBlock 5 ++ map (fun i => OSetOnline (4096 + N.of_nat i) false) (seq 0 102) ++ repeat OBlock 10.

(* the final state; the facts are read off it, because every evaluation of the run is slow to re-check *)
Definition big_end : st := Eval vm_compute in run big_cfg (init 0 102) big_ops.
Lemma big_end_eq : run big_cfg (init 0 102) big_ops = big_end.
Proof. vm_compute. reflexivity. Qed.

Lemma big_sync_errs :
  sync_pos big_cfg (blk (run big_cfg (init 0 102) big_ops) + 1)
    (w_blk (blk (run big_cfg (init 0 102) big_ops) + 1) (run big_cfg (init 0 102) big_ops)) = Err.
Proof. rewrite big_end_eq. vm_compute. reflexivity. Qed.

Lemma big_block_is_skipped :
  let s := run big_cfg (init 0 102) big_ops in
  (blk s, l_size (act s), answer big_cfg s OBlock, blk (step big_cfg s OBlock), l_size (act (step big_cfg s OBlock))) = (15, 102, (0, 6), 16, 102).
Proof. cbv zeta. rewrite big_end_eq. vm_compute. reflexivity. Qed.

(* ---- 103 proposers, X's exit scheduled for block 16, 102 others offline: the housekeeping of block 16 fails, X is stranded ---- *)
Definition lost_cfg : cfg := mkC 4 8 12 16 4 8 8 0 0.
Definition lost_ops : list op :=
  [OAddValidation 8191 65535 12 25000000] ++
  map (fun i => OAddValidation (4096 + N.of_nat i) (61440 + N.of_nat i) 8 25000000) (seq 0 102) ++
  repeat OBlock 5 ++ [OSignalExit 8191 65535] ++ map (fun i => OSetOnline (4096 + N.of_nat i) false) (seq 0 102) ++
  repeat OBlock 11 ++ map (fun i => OSetOnline (4096 + N.of_nat i) true) (seq 0 10) ++ repeat OBlock 40.

(* the state before the failing housekeeping, and the final state as reached from it *)
Definition lost_mid : st := Eval vm_compute in run lost_cfg (init 0 103) (firstn 221 lost_ops).
Lemma lost_mid_eq : run lost_cfg (init 0 103) (firstn 221 lost_ops) = lost_mid.
Proof. vm_compute. reflexivity. Qed.
Definition lost_end : st := Eval vm_compute in run lost_cfg lost_mid (skipn 221 lost_ops).
Lemma lost_end_eq : run lost_cfg (init 0 103) lost_ops = lost_end.
Proof.
  change lost_ops with (firstn 221 lost_ops ++ skipn 221 lost_ops) at 1.
  rewrite run_app, lost_mid_eq. vm_compute. reflexivity.
Qed.

Lemma lost_fact :
  (match getv (run lost_cfg (init 0 103) lost_ops) 8191 with Some v => (v_status v, v_exit v) | None => (0, None) end,
   blk (run lost_cfg (init 0 103) lost_ops)) = ((StatusActive, Some 16), 56).
Proof. rewrite lost_end_eq. vm_compute. reflexivity. Qed.

Lemma lost_stuck :
  let s := run lost_cfg (init 0 103) lost_ops in
  (blk s, held_by s 8191, answer lost_cfg s (OSignalExit 8191 65535), answer lost_cfg s (OWithdraw 8191 65535),
   answer lost_cfg (run lost_cfg (init 0 103) (firstn 221 lost_ops)) OBlock) = (56, 25000000, (1, 0), (0, 0), (0, 6)).
Proof. cbv zeta. rewrite lost_end_eq, lost_mid_eq. vm_compute. reflexivity. Qed.
