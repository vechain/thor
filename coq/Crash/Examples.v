(* Crash/Examples.v — a concrete genesis and history (epoch length 2: blocks 1, 3, 5 close an epoch), used for the
   non-vacuity Examples and as the witness of the F6 refutation. *)
From Coq Require Import List NArith Bool Lia.
From Verif Require Import Crash.Model Crash.ProofsStore Crash.ProofsInv Crash.ProofsImport Crash.ProofsCrash
  Crash.ProofsResumeAll.
Import ListNotations.
Open Scope N_scope.

Definition P224 : N := 26959946667150639794667015087019630673637144422540572481103610249216.
Definition bid (n k : N) : N := n * P224 + k.

Definition ex_gen : blk :=
  mkBlk (bid 0 7) (bid 4294967295 0) [] [(11, 12)] [[(21, 22)]] [(31, 32); (33, 34)] [(41, 42)] [] [] 0 false false.

Definition ex_cfg : cfg := mkCfg 2 (bid 0 7).
Definition ex_s0 : store := genesis_store ex_gen.

(* block n on the main chain: one new account node, one new index node, keeps the genesis account node (nid 33) and
   the genesis index node; every block justified and committed; block 2 carries a transaction *)
Definition ex_blk (n : N) (txs : list txd) : blk :=
  mkBlk (bid n n) (if n =? 1 then bid 0 7 else bid (n - 1) (n - 1)) txs [] [] [(31, 100 + n)] [(41, 200 + n)]
        [KNode 0 33 0 0] [] n true true.

Definition ex_hist : list blk :=
  [ex_blk 1 []; ex_blk 2 [mkTx (bid 99 5) 1 2 3]; ex_blk 3 []; ex_blk 4 []; ex_blk 5 []; ex_blk 6 []; ex_blk 7 []].

Lemma ex_wf_cfg : wf_cfg ex_cfg.
Proof. split; reflexivity. Qed.

Lemma ex_inv0 : Inv ex_cfg ex_s0.
Proof. apply (genesis_inv 2 ex_gen); reflexivity. Qed.

(* the history evaluated once: the Examples about its run, writes and crash images read them off this list *)
Definition ex_bsteps : list (list step) := Eval vm_compute in block_steps ex_cfg ex_s0 ex_hist.
Lemma ex_bsteps_eq : block_steps ex_cfg ex_s0 ex_hist = ex_bsteps.
Proof. vm_compute. reflexivity. Qed.

Definition ex_blocks : list (list batch) := Eval vm_compute in block_writes ex_cfg ex_s0 ex_hist.
Lemma ex_blocks_eq : block_writes ex_cfg ex_s0 ex_hist = ex_blocks.
Proof. rewrite block_writes_steps, ex_bsteps_eq. vm_compute. reflexivity. Qed.

Lemma ex_wf_hist : wf_hist ex_cfg ex_s0 ex_hist.
Proof. apply wf_hist_on_sound. rewrite ex_blocks_eq. vm_compute. reflexivity. Qed.

(* the history is not trivial: seven blocks are stored, the best block is block 7, block 4 is finalized, store-point
   qualities 1 2 3 4 (blocks 1, 3, 5, 7; listed newest first) *)
Lemma ex_run_facts :
  get_id (run ex_cfg ex_s0 ex_hist) KBest = Some (bid 7 7) /\
  finalized ex_cfg (run ex_cfg ex_s0 ex_hist) = bid 4 4 /\
  map snd (tallies ex_cfg (run ex_cfg ex_s0 ex_hist)) = [4; 3; 2; 1].
Proof. rewrite run_blocks, ex_blocks_eq. vm_compute. auto. Qed.
