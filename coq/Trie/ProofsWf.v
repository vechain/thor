(* Trie/ProofsWf.v — the shape invariant of trie.go's tries; what one level of insert and delete returns (split, merge,
   collapse) and that these keep the invariant.  The inductions over the whole trie are in Trie/ProofsMap.v. *)
From Coq Require Import List Arith Bool Lia.
From Verif Require Import Trie.Model Trie.Keys.
Import ListNotations.

Section WF.
  Variable V : Type.
  Variable veqb : V -> V -> bool.

  Notation node := (node V).
  Notation insert := (insert V veqb).
  Notation delete := (delete V).
  Notation get := (get V).
  Notation child := (child V).
  Notation upd := (upd V).
  Notation empty_children := (empty_children V).
  Notation single_pos := (single_pos V).
  Notation is_nil := (is_nil V).

  (* The shape invariant: no Short under Short, no empty Short key, a value only directly under a terminated
     key (a Short whose key ends in 16, or slot 16 of a Full), every Full has 17 slots, at least two of them used. *)
  Inductive wf : node -> Prop :=
  | wf_leaf k v : vkey k -> wf (Short k (Value v))
  | wf_ext k cs : k <> [] -> nibs k -> wf (Full cs) -> wf (Short k (Full cs))
  | wf_full cs :
      length cs = 17 ->
      (forall i, i < 16 -> child cs i <> Nil -> wf (child cs i)) ->
      (child cs 16 = Nil \/ exists v, child cs 16 = Value v) ->
      (exists a b, a <> b /\ child cs a <> Nil /\ child cs b <> Nil) ->
      wf (Full cs).

  (* a root, or a slot below 16 of a full node *)
  Definition wfc (n : node) : Prop := n = Nil \/ wf n.

  (* what may sit in slot i of a full node *)
  Definition slot_ok (i : nat) (x : node) : Prop :=
    (i < 16 /\ wf x) \/ (i = 16 /\ exists v, x = Value v).

  Lemma wf_not_nil n : wf n -> n <> Nil.
  Proof. intros H; inversion H; discriminate. Qed.

  Lemma slot_ok_not_nil i x : slot_ok i x -> x <> Nil.
  Proof. intros [[_ H]|[_ [v ->]]]; [apply wf_not_nil; auto|discriminate]. Qed.

  Lemma length_upd cs : forall i x, length (upd cs i x) = length cs.
  Proof. induction cs; destruct i; cbn; auto. Qed.

  Lemma child_upd_same cs : forall i x, i < length cs -> child (upd cs i x) i = x.
  Proof. induction cs; destruct i; cbn; intros; try lia; auto. apply IHcs; lia. Qed.

  Lemma child_upd_other cs : forall i j x, i <> j -> child (upd cs i x) j = child cs j.
  Proof.
    induction cs; destruct i; destruct j; cbn; intros; auto; try lia.
    apply IHcs; lia.
  Qed.

  Lemma child_empty i : child empty_children i = Nil.
  Proof. apply nth_repeat. Qed.

  Lemma child_beyond cs i : length cs <= i -> child cs i = Nil.
  Proof. intros; apply nth_overflow; auto. Qed.

  Lemma upd_same cs : forall i, upd cs i (child cs i) = cs.
  Proof. induction cs; destruct i; cbn; auto. f_equal. apply IHcs. Qed.

  Lemma children_ext (a b : list node) :
    length a = length b -> (forall i, child a i = child b i) -> a = b.
  Proof.
    revert b; induction a; destruct b; cbn; intros; auto; try discriminate.
    f_equal. apply (H0 0). apply IHa; auto. intros i; apply (H0 (S i)).
  Qed.

  Lemma is_nil_true n : is_nil n = true <-> n = Nil.
  Proof. destruct n; cbn; split; intros; auto; discriminate. Qed.

  Lemma forallb_nil_all cs : forallb is_nil cs = true <-> forall j, child cs j = Nil.
  Proof.
    induction cs; cbn.
    - split; auto. intros _ j; destruct j; auto.
    - rewrite andb_true_iff, is_nil_true, IHcs. split.
      + intros [-> H] j. destruct j; auto. apply H.
      + intros H. split; [apply (H 0)|intros j; apply (H (S j))].
  Qed.

  Lemma single_pos_from_some cs : forall i0 p, single_pos_from V cs i0 = Some p ->
    exists q, p = i0 + q /\ q < length cs /\ child cs q <> Nil /\ forall j, j <> q -> child cs j = Nil.
  Proof.
    induction cs; cbn; intros; try discriminate.
    destruct (is_nil a) eqn:E.
    - apply is_nil_true in E; subst. destruct (IHcs _ _ H) as [q [-> [L [N O]]]].
      exists (S q); repeat split; auto; try lia. intros j Hj. destruct j; auto. apply O; lia.
    - destruct (forallb is_nil cs) eqn:F; try discriminate. injection H as <-.
      exists 0; repeat split; auto; try lia.
      + cbn. intros ->; discriminate.
      + intros j Hj. destruct j; try lia. cbn. apply forallb_nil_all; auto.
  Qed.

  Lemma single_pos_from_none cs : forall i0, single_pos_from V cs i0 = None ->
    (forall j, child cs j = Nil) \/ (exists a b, a <> b /\ child cs a <> Nil /\ child cs b <> Nil).
  Proof.
    induction cs; cbn; intros.
    - left; intros j; destruct j; auto.
    - destruct (is_nil a) eqn:E.
      + apply is_nil_true in E; subst. destruct (IHcs _ H) as [A|[x [y [N [X Y]]]]].
        * left; intros j; destruct j; [auto|apply A].
        * right; exists (S x), (S y); repeat split; auto.
      + destruct (forallb is_nil cs) eqn:F; try discriminate.
        right. assert (exists j, child cs j <> Nil) as [j Hj].
        { clear -F. induction cs; cbn in *; try discriminate.
          destruct (Model.is_nil V a) eqn:E; cbn in F.
          - destruct (IHcs F) as [j Hj]. exists (S j); auto.
          - exists 0; cbn. intros ->; discriminate. }
        exists 0, (S j); repeat split; auto. cbn; intros ->; discriminate.
  Qed.

  (* ---- a clean (dirty = false) result leaves the node as it was ---- *)
  Lemma delete_clean : forall f n key nn, delete f n key = (false, nn) -> nn = n.
  Proof.
    induction f; intros n key nn H; cbn [Model.delete] in H; [injection H; auto|].
    destruct n; try (injection H; intros; subst; auto; discriminate).
    - destruct (_ <? length k); [injection H; auto|].
      destruct (_ =? length key); try discriminate.
      destruct (delete f n _) as [d c'] eqn:E. destruct d; [|injection H; auto].
      destruct c'; discriminate.
    - destruct key as [|i r]; [injection H; auto|].
      destruct (delete f (child cs i) r) as [d c'] eqn:E. destruct d; [|injection H; auto].
      destruct (single_pos _); try discriminate.
      destruct (negb _); try discriminate. destruct (child _ n); discriminate.
  Qed.

  Definition mk_leaf (k : list nat) (x : node) : node := match k with [] => x | _ => Short k x end.

  Lemma insert_nil f k x : insert (S f) Nil k x = (true, mk_leaf k x).
  Proof. destruct k; cbn; auto. Qed.

  (* ---- fuel: any amount above the key length gives the same answer on well-formed tries ---- *)
  Definition wfv (n : node) : Prop := n = Nil \/ wf n \/ exists v, n = Value v.

  Lemma wf_full_child cs i : wf (Full cs) -> i < 16 -> wfc (child cs i).
  Proof.
    intros H Hi; inversion H as [| |? _ C _ _]; subst.
    destruct (child cs i) eqn:E; [left; auto|right; rewrite <- E; apply C; auto; rewrite E; discriminate..].
  Qed.

  Lemma wf_child_wfv cs i : wf (Full cs) -> wfv (child cs i).
  Proof.
    intros H. destruct (Nat.lt_ge_cases i 16) as [Hi|Hi].
    - destruct (wf_full_child _ _ H Hi); [left|right; left]; auto.
    - inversion H as [| |? L _ S _]; subst. destruct (Nat.eq_dec i 16) as [->|].
      + destruct S as [->|[v ->]]; [left; auto|right; right; eauto].
      + left. apply child_beyond; lia.
  Qed.

  Lemma wf_short_inv k c : wf (Short k c) -> k <> [] /\ wfv c.
  Proof.
    intros H; inversion H; subst; split; auto.
    - apply vkey_nonempty; auto.
    - right; right; eauto.
    - right; left; auto.
  Qed.

  (* following a non-empty short key consumes some of the key *)
  Lemma skipn_short_lt (k key : list nat) : k <> [] -> prefix_len k key = length k ->
    length (skipn (length k) key) < length key.
  Proof.
    intros N E. rewrite skipn_length. pose proof (prefix_len_le_r k key).
    destruct k; [congruence|cbn in *; lia].
  Qed.

  Lemma get_fuel : forall g g' n key, wfv n -> length key < g -> length key < g' -> get g n key = get g' n key.
  Proof.
    induction g; intros g' n key Hn Hg Hg'; [lia|].
    destruct g'; [lia|]. cbn.
    destruct Hn as [->|[Hn|[v ->]]]; auto.
    destruct n as [| |k c|cs]; try solve [inversion Hn].
    - destruct (wf_short_inv _ _ Hn) as [Ne Wc].
      destruct (_ =? length k) eqn:E; auto. apply Nat.eqb_eq in E.
      pose proof (skipn_short_lt k key Ne E). apply IHg; auto; lia.
    - destruct key as [|i r]; auto. cbn in *. apply IHg; try lia. apply wf_child_wfv; auto.
  Qed.

  Lemma branch_wf a b x y : a <> b -> slot_ok a x -> slot_ok b y ->
    wf (Full (upd (upd empty_children a x) b y)).
  Proof.
    intros N Hx Hy.
    assert (La : a < 17) by (destruct Hx as [[? _]|[? _]]; lia).
    assert (Lb : b < 17) by (destruct Hy as [[? _]|[? _]]; lia).
    assert (Le : length empty_children = 17) by reflexivity.
    assert (Ca : child (upd (upd empty_children a x) b y) a = x).
    { rewrite child_upd_other by auto. apply child_upd_same. rewrite Le; auto. }
    assert (Cb : child (upd (upd empty_children a x) b y) b = y).
    { apply child_upd_same. rewrite length_upd, Le; auto. }
    assert (Co : forall j, j <> a -> j <> b -> child (upd (upd empty_children a x) b y) j = Nil).
    { intros. rewrite !child_upd_other by auto. apply child_empty. }
    constructor.
    - rewrite !length_upd; auto.
    - intros i Hi Hn.
      destruct (Nat.eq_dec i a) as [->|Na]; [rewrite Ca in *|].
      { destruct Hx as [[_ ?]|[? _]]; auto; lia. }
      destruct (Nat.eq_dec i b) as [->|Nb]; [rewrite Cb in *|].
      { destruct Hy as [[_ ?]|[? _]]; auto; lia. }
      rewrite Co in Hn; auto. congruence.
    - destruct (Nat.eq_dec 16 a) as [<-|Na]; [rewrite Ca|].
      { destruct Hx as [[? _]|[_ ?]]; auto; lia. }
      destruct (Nat.eq_dec 16 b) as [<-|Nb]; [rewrite Cb|].
      { destruct Hy as [[? _]|[_ ?]]; auto; lia. }
      left; apply Co; auto.
    - exists a, b; repeat split; auto; [rewrite Ca|rewrite Cb]; eapply slot_ok_not_nil; eauto.
  Qed.

  Lemma leaf_slot key m v : vkey key -> m < length key ->
    slot_ok (nth m key 0) (mk_leaf (skipn (S m) key) (Value v)).
  Proof.
    intros Hk Hm. destruct (vkey_at key m Hk Hm) as [_ [[E S]|[L K]]].
    - rewrite S; cbn. right; split; eauto.
    - left; split; auto. destruct (skipn (S m) key) eqn:E; [inversion K|]. cbn. constructor; auto.
  Qed.

  Lemma ext_slot k m cs : nibs k -> m < length k -> wf (Full cs) ->
    slot_ok (nth m k 0) (mk_leaf (skipn (S m) k) (Full cs)).
  Proof.
    intros Hk Hm Hc. destruct (nibs_at k m Hk Hm) as [_ [L R]].
    left; split; auto. destruct (skipn (S m) k) eqn:E; cbn; auto.
    constructor; auto. discriminate.
  Qed.

  Lemma wf_short_prefix p c : p <> [] -> nibs p -> wf (Full c) -> wf (Short p (Full c)).
  Proof. intros; constructor; auto. Qed.

  (* the fields of wf (Full cs) other than "two slots used" *)
  Definition full_ok (cs : list node) : Prop :=
    length cs = 17 /\
    (forall i, i < 16 -> child cs i <> Nil -> wf (child cs i)) /\
    (child cs 16 = Nil \/ exists v, child cs 16 = Value v).

  Lemma wf_full_ok cs : wf (Full cs) -> full_ok cs.
  Proof. intros H; inversion H; subst; repeat split; auto. Qed.

  Lemma full_ok_upd cs i x : full_ok cs -> x = Nil \/ slot_ok i x -> full_ok (upd cs i x).
  Proof.
    intros (L & C & S) Hx. repeat split.
    - rewrite length_upd; auto.
    - intros j Hj Hn. destruct (Nat.eq_dec i j) as [->|N].
      + rewrite child_upd_same in * by lia. destruct Hx as [->|[[_ ?]|[? _]]]; auto; [congruence|lia].
      + rewrite child_upd_other in * by auto. auto.
    - destruct (Nat.eq_dec i 16) as [->|N].
      + rewrite child_upd_same by lia. destruct Hx as [->|[[? _]|[_ ?]]]; auto; lia.
      + rewrite child_upd_other by auto. auto.
  Qed.

  Lemma full_upd_wf cs i x : wf (Full cs) -> slot_ok i x -> wf (Full (upd cs i x)).
  Proof.
    intros H Hx. destruct (full_ok_upd cs i x (wf_full_ok _ H) (or_intror Hx)) as (L & C & S).
    inversion H as [| |cs' L' _ _ (a & b & N & A & B)]; subst.
    assert (Li : i < 17) by (destruct Hx as [[? _]|[? _]]; lia).
    pose proof (slot_ok_not_nil _ _ Hx) as Nx.
    constructor; auto.
    destruct (Nat.eq_dec a i) as [->|Na].
    - exists i, b; repeat split; auto. rewrite child_upd_same by lia; auto. rewrite child_upd_other by auto; auto.
    - destruct (Nat.eq_dec b i) as [->|Nb].
      + exists a, i; repeat split; auto. rewrite child_upd_other by auto; auto. rewrite child_upd_same by lia; auto.
      + exists a, b; repeat split; auto; rewrite child_upd_other by auto; auto.
  Qed.

  Lemma wf_full_single_none cs : wf (Full cs) -> single_pos cs = None.
  Proof.
    intros H; inversion H as [| |? _ _ _ (a & b & N & A & B)]; subst.
    destruct (single_pos cs) eqn:SP; auto.
    destruct (single_pos_from_some _ _ _ SP) as (q & _ & _ & _ & O).
    destruct (Nat.eq_dec a q) as [->|]; [destruct B|destruct A]; apply O; auto.
  Qed.

  (* ---- the node a splitting insert builds: old node Short k c, new key and k part at position m ---- *)
  Definition split (m : nat) (k : list nat) (c : node) (key : list nat) (x : node) : node :=
    let branch := Full (upd (upd empty_children (nth m k 0) (mk_leaf (skipn (S m) k) c))
                            (nth m key 0) (mk_leaf (skipn (S m) key) x)) in
    if m =? 0 then branch else Short (firstn m key) branch.

  Lemma split_wf k c key v : let m := prefix_len key k in
    vkey key -> m < length k -> m < length key ->
    slot_ok (nth m k 0) (mk_leaf (skipn (S m) k) c) -> wf (split m k c key (Value v)).
  Proof.
    intros m Hk M2 M1 Hc.
    assert (B : wf (Full (upd (upd empty_children (nth m k 0) (mk_leaf (skipn (S m) k) c))
                              (nth m key 0) (mk_leaf (skipn (S m) key) (Value v))))).
    { apply branch_wf; auto.
      - intros Q. apply (prefix_len_nth_neq key k); auto.
      - apply leaf_slot; auto. }
    unfold split. destruct (m =? 0) eqn:Z; auto. apply Nat.eqb_neq in Z.
    constructor; auto.
    - intros Q. apply (f_equal (@length nat)) in Q. rewrite firstn_length in Q. cbn [length] in Q. lia.
    - apply (vkey_at key m Hk M1).
  Qed.

  (* ---- what delete leaves above a changed child ---- *)
  Definition merge (k : list nat) (ch : node) : node :=
    match ch with Short k2 c2 => Short (k ++ k2) c2 | _ => Short k ch end.

  Lemma merge_wf k ch : k <> [] -> nibs k -> wf ch -> wf (merge k ch).
  Proof.
    intros Ne Nk W. inversion W; subst; cbn.
    - constructor. apply vkey_app; auto.
    - constructor; auto. { destruct k; [congruence|discriminate]. } apply nibs_app; auto.
    - constructor; auto.
  Qed.

  Definition collapse (cs : list node) : node :=
    match single_pos cs with
    | Some pos => if negb (pos =? 16) then merge [pos] (child cs pos) else Short [pos] (child cs pos)
    | None => Full cs
    end.

  Lemma collapse_wf cs : full_ok cs -> (exists j, child cs j <> Nil) -> wf (collapse cs).
  Proof.
    intros (L & C & S) [j Hj]. unfold collapse.
    destruct (single_pos cs) as [pos|] eqn:SP.
    - destruct (single_pos_from_some _ _ _ SP) as (q & Eq & Lq & Nq & _). cbn in Eq; subst q.
      destruct (Nat.eqb_spec pos 16) as [->|P]; cbn [negb].
      + destruct S as [Q|[v Q]]; [congruence|]. rewrite Q. constructor. constructor.
      + apply merge_wf; [discriminate|constructor; [lia|constructor]|apply C; auto; lia].
    - destruct (single_pos_from_none _ _ SP) as [A|T]; [destruct (Hj (A j))|constructor; auto].
  Qed.

  (* ---- insert, one level.  ins is the node the caller goes on with: the new one if dirty, the old one otherwise ---- *)
  Definition ins (f : nat) (n : node) (key : list nat) (x : node) : node :=
    let '(d, nn) := insert f n key x in if d then nn else n.

  Lemma insert_ins f n key x : key <> [] -> snd (insert f n key x) = ins f n key x.
  Proof.
    unfold ins. destruct f, key as [|i r]; try congruence; [reflexivity|]. intros _. cbn [Model.insert].
    destruct n; try reflexivity.
    - destruct (_ =? length k); [destruct (insert f n _ x) as [[] c']|destruct (_ =? 0)]; reflexivity.
    - destruct (insert f _ r x) as [[] c']; reflexivity.
  Qed.

  Lemma ins_nil f k x : ins (S f) Nil k x = mk_leaf k x.
  Proof. unfold ins. rewrite insert_nil. reflexivity. Qed.

  (* at the end of the key: slot 16 of a full node, or the value of a leaf.  A value there is kept when veqb calls it
     equal to the new one, so it is the new one only if veqb is sound *)
  Lemma ins_at_end f n v : n = Nil \/ (exists a, n = Value a) ->
    exists v', ins (S f) n [] (Value v) = Value v' /\ ((forall a b, veqb a b = true -> a = b) -> v' = v).
  Proof.
    intros [->|[a ->]]; [exists v; auto|]. unfold ins; cbn.
    destruct (veqb a v) eqn:E; [exists a|exists v]; auto.
  Qed.

  Lemma ins_short_desc f k c key x : key <> [] -> prefix_len key k = length k ->
    ins (S f) (Short k c) key x = Short k (ins f c (skipn (length k) key) x).
  Proof.
    intros Ne E. destruct key as [|i r]; [congruence|]. unfold ins. cbn [Model.insert].
    rewrite E, Nat.eqb_refl. destruct (insert f c _ x) as [[] c']; reflexivity.
  Qed.

  Lemma ins_short_split f k c key x : key <> [] -> prefix_len key k <> length k ->
    ins (S (S f)) (Short k c) key x = split (prefix_len key k) k c key x.
  Proof.
    intros Ne E. destruct key as [|i r]; [congruence|]. apply Nat.eqb_neq in E.
    unfold ins. remember (S f) as g. cbn [Model.insert]. rewrite E. subst g. rewrite !insert_nil.
    unfold split. destruct (_ =? 0); reflexivity.
  Qed.

  Lemma ins_full_desc f cs i r x : ins (S f) (Full cs) (i :: r) x = Full (upd cs i (ins f (child cs i) r x)).
  Proof.
    unfold ins. cbn [Model.insert]. destruct (insert f _ r x) as [[] c']; auto. rewrite upd_same; auto.
  Qed.

  Lemma ins_full_is_full f cs key x : key <> [] -> exists cs', ins f (Full cs) key x = Full cs'.
  Proof.
    destruct f, key as [|i r]; try congruence; intros _; [cbn; eauto|].
    rewrite ins_full_desc; eauto.
  Qed.

  (* ---- delete, one level: the node that comes back, whatever the dirty flag ---- *)
  Lemma delete_leaf f k v key : vkey k -> vkey key ->
    snd (delete (S f) (Short k (Value v)) key) = if vkey_eq_dec k key then Nil else Short k (Value v).
  Proof.
    intros Hk Hkey. cbn [Model.delete]. destruct (vkey_eq_dec k key) as [->|N].
    - rewrite prefix_len_refl, Nat.ltb_irrefl, Nat.eqb_refl. reflexivity.
    - destruct (vkey_neq_split key k) as [_ M]; auto. apply Nat.ltb_lt in M. rewrite M. reflexivity.
  Qed.

  Lemma delete_short_miss f k c key : prefix_len key k < length k -> snd (delete (S f) (Short k c) key) = Short k c.
  Proof. intros M. apply Nat.ltb_lt in M. cbn [Model.delete]. rewrite M. reflexivity. Qed.

  Lemma delete_short_desc f k c key : merge k c = Short k c ->
    prefix_len key k = length k -> prefix_len key k <> length key ->
    snd (delete (S f) (Short k c) key) = merge k (snd (delete f c (skipn (length k) key))).
  Proof.
    intros Mc E N. apply Nat.eqb_neq in N. cbn [Model.delete].
    rewrite E, Nat.ltb_irrefl in *. rewrite N.
    destruct (delete f c _) as [[] c'] eqn:D; cbn [snd].
    - destruct c'; reflexivity.
    - apply delete_clean in D. subst; auto.
  Qed.

  Lemma delete_full_desc f cs i r : single_pos cs = None ->
    snd (delete (S f) (Full cs) (i :: r)) = collapse (upd cs i (snd (delete f (child cs i) r))).
  Proof.
    intros SP. cbn [Model.delete]. destruct (delete f _ r) as [[] c'] eqn:D; cbn [snd].
    - unfold collapse. destruct (single_pos (upd cs i c')) as [pos|]; auto.
      destruct (negb _); auto. destruct (child _ pos); reflexivity.
    - apply delete_clean in D. subst. rewrite upd_same. unfold collapse. rewrite SP. reflexivity.
  Qed.

  Lemma wf_match_wfc (n nn : node) : match n with Full _ => wf nn | _ => wfc nn end -> wfc nn.
  Proof. destruct n; auto; right; auto. Qed.

  (* descending below an extension key that the (terminated) key extends *)
  Lemma ext_descend k key : k <> [] -> nibs k -> vkey key -> prefix_len key k = length k ->
    let r := skipn (length k) key in key = k ++ r /\ vkey r /\ length r < length key.
  Proof.
    intros Ne Nk Hk E. rewrite prefix_len_comm in E. repeat split.
    - apply prefix_len_full; auto.
    - apply vkey_skip_nibs; auto. rewrite prefix_len_comm; auto.
    - apply skipn_short_lt; auto.
  Qed.
End WF.
