(* Compose/SyncStep.v — composition C19 <-> C04: the STEP simulation between Sync/Model.v's abstract node
   (C19: `import`, `import_all`, the node of sync_converges) and Bft/Model.v's real node step (C04: `import guard c nd b`).

   In Compose/SyncOrder.v Sync's `better` IS bft.Select and `best_max` follows from C04's invariant; Sync's
   `valid : Blk -> bool` is an arbitrary function there.  Here `valid` becomes bft.Accepts and Sync's run becomes the run
   of the Bft node:

     1. valid_bft U fin i := Accepts evaluated in the universe tree U against the finalized id fin
        (idnum fin = 0, or fin is on the chain of i's parent).  valid_bft_is_accepts: for every node with `inv c nd`,
        repository inside the well-formed U, parent stored, e_fin = fin, it is `accepts (n_repo nd) (n_eng nd) (b_parent b)`.
     2. STEP (step_sim; step_accepted / step_rejected / step_commit_error): for nd with `inv c nd`, b in U,
        e_fin (n_eng nd) = fin:  Sync.import (valid_bft U fin) (sbetter c U) (sync_node nd) (b_id b) is
          Some (sync_node nd')  when Bft's import answers (nd', 0) or (nd', 1),
          None                  when it answers code 2 (parent missing) or 3 (refused by Accepts), and then nd' = nd.
        No numbering premise: `valid_child` is read off the well-formed universe (valid_child_U).
        Code 100+err (CommitBlock failed): Bft's model has stored the block and updated best, as the Go code has
        (cmd/thor/node/block_exec.go commitBlock: repo.AddBlock precedes bft.CommitBlock) — Sync's answer `Some
        (sync_node nd')` agrees with the STATE — but commitBlock returns the error, processBlock logs and returns it and
        handleBlockStream (node.go) ends the stream: for the STREAM the Go node behaves like Sync's `None`.  Sync/Model.v has
        no outcome "stored and aborted" (its `valid` abstracts consensus.Process + bft.Accepts, both of which run BEFORE
        anything is stored), so the stream theorems carry the side condition no_commit_error ("CommitBlock does not fail
        during the stream").  It is DISCHARGED for the repaired code: no_commit_error_guarded (guard = true, finalized at a
        checkpoint number — C04 commit_block_total).
     3. STREAM (stream_sim): Sync.import_all over the ids = (sync_node nd_stop, verdict) where (nd_stop, verdict) is Bft's
        handleBlockStream (import_stream: code 1 swallowed, any other non-zero code ends the stream), under
        fin_fixed ("finalized does not move during the stream": every block of the stream is presented to a node whose
        finalized id is fin; the node after the last import is free) and no_commit_error.  stream_sim_ok: all codes 0/1
        gives (sync_node (ProofsNode.import_all c guard nd l), true); stream_sim_codes: conversely a successful Sync
        run means Bft refused nothing.
     4. CONCLUSION (sync_converges_bft_node): SyncOrder.sync_converges_bft_order at valid := valid_bft U fin; the premise
        "every block of the peer's chain is valid" is replaced by its meaning, and only for blocks the node does not
        store: fin has number 0 or is on the U-chain of the block's parent.  The conclusion is about the REAL node: the
        final Sync state is sync_node nd' for nd' := the Bft node after importing the downloaded blocks, every result
        code is 0 or 1, inv c nd' holds and n_best nd' = the peer's head.
     5. What fin_fixed excludes, and why it cannot simply be dropped.  When CommitBlock finalizes a new checkpoint in the
        middle of a stream, Accepts becomes stricter for the blocks that follow: the verdict on a block is a function of
        the block AND the node's state at arrival, while Sync/Model.v's `valid : Blk -> bool` has no state argument.
        Concretely (Example fin_moves_valid_is_not_a_function): finalized = m2, the fork block f4 hangs off m3; the
        stream [f4; m6; m7] imports f4 with code 0, the stream [m6; m7; f4] refuses it with code 3 because m7 has moved
        finalized to m4 — no single function `valid` reproduces both runs (at fin = m2 Sync accepts f4 in both orders).
        What IS true without fin_fixed — the monotone variant, proved here: CommitBlock moves finalized only to a block
        of the imported block's own chain (ProofsFinal.commit_block_finalized, ProofsMonotone.add_and_commit_monotone), so
        for a stream that is ONE CHAIN hanging off a stored block (what an honest peer's download is) the stricter
        Accepts keeps answering true: stream_sim_chain, sync_converges_bft_node_chain (premise fin_ok nd instead of
        fin_fixed) and sync_converges_bft_node_guarded (guard = true: NO side condition about the run is left; the
        remaining premises are about the node before the download — inv, fin_ok, fin_cp, all three kept by every import
        history from genesis — the two chains and the universe).  Left open: streams that are not one chain AND move
        finalized (the Sync model would need a state-dependent `valid`).
     6. non-vacuity: SyncOrder's instance (finalized = genesis), a second instance whose finalized block is NOT genesis
        (m2, then m4, m6), the F1 tree of C04 for the CommitBlock-error step. *)
From Coq Require Import List NArith ZArith Bool Lia.
From Coq Require Import ZifyN ZifyNat ZifyBool.
From Verif Require Import Common.Util Bft.Tree Bft.Model Bft.Quorum Bft.ProofsTally Bft.ProofsChain Bft.ProofsNode
  Bft.ProofsFinal Bft.ProofsMonotone Bft.ProofsCommit Bft.Safety.
From Verif Require Bft.ProofsOrder Bft.ProofsRun Bft.ProofsTree2.
From Verif Require Sync.Model Sync.Proofs Sync.ProofsDownload Sync.ProofsConverge.
From Verif Require Import Compose.BftFacts Compose.SyncOrder.
Import ListNotations.
Open Scope N_scope.

Lemma wf_last_zero r : wf_repo r -> r <> [] -> forall d, b_num (last r d) = 0.
Proof.
  induction r as [|x rest IH]; intros W Hne d; [contradiction Hne; reflexivity|].
  cbn [wf_repo] in W. destruct W as [W [_ Hpar]]. destruct rest as [|y r']; [exact Hpar|].
  change (last (x :: y :: r') d) with (last (y :: r') d). apply IH; [exact W | discriminate].
Qed.

(* the root of the universe is stored by every non-empty well-formed sub-repository *)
Lemma root_known U r b : wf_repo U -> wf_repo r -> r <> [] -> (forall x, In x r -> In x U) ->
  In b U -> b_num b = 0 -> known r (b_id b) = true.
Proof.
  intros WU Wr Hne Hsub Hb H0.
  assert (Hl : In (last r b) r) by (apply last_in; exact Hne).
  pose proof (Bft.ProofsOrder.zero_is_root U WU (last r b) b (Hsub _ Hl) (wf_last_zero r Wr Hne b)) as E1.
  pose proof (Bft.ProofsOrder.zero_is_root U WU b b Hb H0) as E2.
  rewrite <- E2 in E1. rewrite E1 in Hl. apply known_in. exact Hl.
Qed.

(* a block of the universe that the sub-repository does not store carries its stored parent's number plus one *)
Lemma valid_child_U U r b : wf_repo U -> wf_repo r -> r <> [] -> (forall x, In x r -> In x U) ->
  In b U -> known r (b_id b) = false -> valid_child r b.
Proof.
  intros WU Wr Hne Hsub Hb Hfresh p Hp. destruct (find_blk_id _ _ _ Hp) as [Hid Hpin].
  apply (Bft.ProofsRun.wf_child_num U b p WU Hb (Hsub _ Hpin) Hid).
  intros H0. rewrite (root_known U r b WU Wr Hne Hsub Hb H0) in Hfresh. discriminate.
Qed.

Lemma inv_nonempty c nd : inv c nd -> n_repo nd <> [].
Proof. intros I E. destruct (inv_best c nd I) as [bb Hbb]. rewrite E in Hbb. discriminate. Qed.

Definition valid_bft (U : repo) (fin i : N) : bool :=
  if negb (idnum fin =? 0) then has_block U (sparent U i) fin else true.

Lemma valid_bft_is_accepts_U U fin i : valid_bft U fin i = accepts U (mkE 0 fin [] None None) (sparent U i).
Proof. reflexivity. Qed.

Lemma valid_bft_spec U fin i : valid_bft U fin i = true <-> (idnum fin = 0 \/ has_block U (sparent U i) fin = true).
Proof.
  unfold valid_bft. destruct (idnum fin =? 0) eqn:E; cbn [negb].
  - apply N.eqb_eq in E. split; [intros _; left; exact E | reflexivity].
  - apply N.eqb_neq in E. split; [intros H; right; exact H | intros [H|H]; [contradiction | exact H]].
Qed.

Lemma sparent_stored U b : wf_repo U -> In b U -> sparent U (b_id b) = b_parent b.
Proof. intros W Hin. unfold sparent. rewrite (blk_of_stored U b W Hin). reflexivity. Qed.

Theorem valid_bft_is_accepts c U nd b fin : inv c nd -> wf_repo U -> (forall x, In x (n_repo nd) -> In x U) -> In b U ->
  known (n_repo nd) (b_parent b) = true -> e_fin (n_eng nd) = fin ->
  accepts (n_repo nd) (n_eng nd) (b_parent b) = valid_bft U fin (b_id b).
Proof.
  intros I WU Hsub Hb Hpk <-. apply known_find in Hpk. destruct Hpk as [p Hp].
  unfold valid_bft, accepts. rewrite (sparent_stored U b WU Hb).
  destruct (negb (idnum (e_fin (n_eng nd)) =? 0)); [|reflexivity].
  destruct (find_blk_id _ _ _ Hp) as [Hid Hpin]. unfold has_block. rewrite <- Hid.
  rewrite (chain_of_sub_stored (n_repo nd) U p (inv_wf c nd I) WU Hsub Hpin). reflexivity.
Qed.

Lemma sync_known_node nd i : Sync.Model.known N sbid (sync_node nd) i = known (n_repo nd) i.
Proof.
  unfold Sync.Model.known, known, find_blk, sbid, sync_node. cbn [Sync.Model.store].
  induction (n_repo nd) as [|x r IH]; [reflexivity|]. cbn [map existsb find].
  destruct (b_id x =? i); [reflexivity | exact IH].
Qed.

Definition rejected (code : N) : bool := (code =? 2) || (code =? 3).

(* the step for ANY validity function that answers bft.Accepts on the block at hand *)
Lemma step_sim_gen c guard U nd b (v : N -> bool) : 0 < c_L c -> inv c nd -> wf_repo U ->
  (forall x, In x (n_repo nd) -> In x U) -> In b U ->
  (known (n_repo nd) (b_id b) = false -> known (n_repo nd) (b_parent b) = true ->
   v (b_id b) = accepts (n_repo nd) (n_eng nd) (b_parent b)) ->
  Sync.Model.import N sbid (sparent U) v (sbetter c U) (sync_node nd) (b_id b) =
  if rejected (snd (import guard c nd b)) then None else Some (sync_node (fst (import guard c nd b))).
Proof.
  intros HL I WU Hsub Hb Hv. pose proof (inv_wf c nd I) as Wr. pose proof (inv_nonempty c nd I) as Hne.
  unfold Sync.Model.import, import. rewrite !sync_known_node. unfold sbid at 1.
  destruct (known (n_repo nd) (b_id b)) eqn:Ek; [reflexivity|].
  rewrite (sparent_stored U b WU Hb).
  destruct (known (n_repo nd) (b_parent b)) eqn:Ep; cbn [negb andb]; [|reflexivity].
  rewrite (Hv eq_refl eq_refl).
  destruct (accepts (n_repo nd) (n_eng nd) (b_parent b)) eqn:Ea; cbn [negb]; [|reflexivity].
  pose proof Ep as Ep'. apply known_find in Ep'. destruct Ep' as [p Hp].
  pose proof (valid_child_U U (n_repo nd) b WU Wr Hne Hsub Hb Ek p Hp) as Hn.
  assert (Hsub' : forall x, In x (b :: n_repo nd) -> In x U) by (intros x [<-|Hx]; [exact Hb | exact (Hsub x Hx)]).
  pose proof (select_is_sbetter c U nd b p HL I WU Hsub' Ek Hp Hn) as Hsel.
  unfold add_and_commit. destruct (commit_block guard c (b :: n_repo nd) (n_eng nd) b false) as [e' err].
  cbn [fst snd]. rewrite Hsel. unfold sync_node. cbn [n_repo n_best map Sync.Model.store Sync.Model.best].
  assert (Hc : rejected (if err =? 0 then 0 else 100 + err) = false).
  { unfold rejected. destruct (err =? 0); [reflexivity|]. lia. }
  rewrite Hc. destruct (sbetter c U (b_id b) (n_best nd)); reflexivity.
Qed.

(* STEP: Sync's import at valid := bft.Accepts w.r.t. the node's finalized id, against Bft's import *)
Theorem step_sim c guard U nd b fin : 0 < c_L c -> inv c nd -> wf_repo U -> (forall x, In x (n_repo nd) -> In x U) ->
  In b U -> e_fin (n_eng nd) = fin ->
  Sync.Model.import N sbid (sparent U) (valid_bft U fin) (sbetter c U) (sync_node nd) (b_id b) =
  if rejected (snd (import guard c nd b)) then None else Some (sync_node (fst (import guard c nd b))).
Proof.
  intros HL I WU Hsub Hb Hfin. apply (step_sim_gen c guard U nd b (valid_bft U fin) HL I WU Hsub Hb).
  intros _ Ep. symmetry. exact (valid_bft_is_accepts c U nd b fin I WU Hsub Hb Ep Hfin).
Qed.

(* the result codes of Bft's import: 0, 1, 2, 3 or 100 + a non-zero CommitBlock error *)
Lemma import_code_cases guard c nd b :
  snd (import guard c nd b) = 0 \/ snd (import guard c nd b) = 1 \/ snd (import guard c nd b) = 2 \/
  snd (import guard c nd b) = 3 \/ 100 < snd (import guard c nd b).
Proof.
  rewrite import_eq. destruct (_ && _ && _).
  - destruct (add_and_commit_code guard c nd b false) as [E|E]; auto.
  - cbn [snd]. destruct (refusal_cases nd b) as [E|[E|E]]; auto.
Qed.

(* a refused block (parent missing / Accepts false) leaves the node as it was *)
Lemma import_rejected_same guard c nd b : rejected (snd (import guard c nd b)) = true -> fst (import guard c nd b) = nd.
Proof.
  rewrite import_eq. destruct (_ && _ && _); [|reflexivity]. unfold rejected.
  destruct (add_and_commit_code guard c nd b false) as [E|E]; [rewrite E; discriminate | lia].
Qed.

Lemma import_stores guard c nd b : snd (import guard c nd b) = 0 \/ 100 <= snd (import guard c nd b) ->
  n_repo (fst (import guard c nd b)) = b :: n_repo nd.
Proof.
  rewrite import_eq. destruct (_ && _ && _); [rewrite add_and_commit_eq; reflexivity|].
  cbn [snd]. destruct (refusal_cases nd b) as [E|[E|E]]; lia.
Qed.

Lemma forall_in_cons {A} (P : A -> Prop) a l : (forall x, In x (a :: l) -> P x) <-> P a /\ (forall x, In x l -> P x).
Proof.
  split; [intros H; split; [apply H; left; reflexivity | intros x Hx; apply H; right; exact Hx]|].
  intros [H1 H2] x [<-|Hx]; [exact H1 | exact (H2 x Hx)].
Qed.

Section Step.
Variable c : cfg.
Hypothesis HL : 0 < c_L c.
Variable guard : bool.
Variable U : repo.
Hypothesis WU : wf_repo U.

(* code 0 (imported) or 1 (known, ignored): Sync's import answers the Sync view of Bft's next node *)
Theorem step_accepted nd b fin nd' code : inv c nd -> (forall x, In x (n_repo nd) -> In x U) -> In b U ->
  e_fin (n_eng nd) = fin -> import guard c nd b = (nd', code) -> code = 0 \/ code = 1 ->
  Sync.Model.import N sbid (sparent U) (valid_bft U fin) (sbetter c U) (sync_node nd) (b_id b) = Some (sync_node nd').
Proof.
  intros I Hsub Hb Hfin Ei Hc. rewrite (step_sim c guard U nd b fin HL I WU Hsub Hb Hfin), Ei. cbn [fst snd].
  destruct Hc as [-> | ->]; reflexivity.
Qed.

(* code 2 (parent missing) or 3 (rejected by bft.Accepts): Sync's import fails, Bft's node is unchanged *)
Theorem step_rejected nd b fin nd' code : inv c nd -> (forall x, In x (n_repo nd) -> In x U) -> In b U ->
  e_fin (n_eng nd) = fin -> import guard c nd b = (nd', code) -> code = 2 \/ code = 3 ->
  Sync.Model.import N sbid (sparent U) (valid_bft U fin) (sbetter c U) (sync_node nd) (b_id b) = None /\ nd' = nd.
Proof.
  intros I Hsub Hb Hfin Ei Hc. rewrite (step_sim c guard U nd b fin HL I WU Hsub Hb Hfin).
  pose proof (import_rejected_same guard c nd b) as Hs. rewrite Ei in *. cbn [fst snd] in *.
  destruct Hc as [-> | ->]; (split; [reflexivity | apply Hs; reflexivity]).
Qed.

(* code 100+err (CommitBlock failed after AddBlock): the block IS stored and best updated — Sync's `Some` as far as
   the state goes — but processBlock returns the error and handleBlockStream aborts — Sync's `None` as far as the
   stream goes.  Sync/Model.v has no outcome "stored and aborted": this case is excluded by no_commit_error below. *)
Theorem step_commit_error nd b fin nd' code : inv c nd -> (forall x, In x (n_repo nd) -> In x U) -> In b U ->
  e_fin (n_eng nd) = fin -> import guard c nd b = (nd', code) -> 100 <= code ->
  Sync.Model.import N sbid (sparent U) (valid_bft U fin) (sbetter c U) (sync_node nd) (b_id b) = Some (sync_node nd') /\
  n_repo nd' = b :: n_repo nd.
Proof.
  intros I Hsub Hb Hfin Ei Hc. rewrite (step_sim c guard U nd b fin HL I WU Hsub Hb Hfin).
  pose proof (import_stores guard c nd b) as Hs. rewrite Ei in *. cbn [fst snd] in *.
  split; [|apply Hs; right; exact Hc]. unfold rejected.
  destruct ((code =? 2) || (code =? 3)) eqn:E; [lia | reflexivity].
Qed.

(* handleBlockStream over Bft's node: errKnownBlock is swallowed, any other error ends the stream *)
Definition accepted (code : N) : bool := (code =? 0) || (code =? 1).

Fixpoint import_stream (nd : node) (l : list blk) : node * bool :=
  match l with
  | [] => (nd, true)
  | b :: t => if accepted (snd (import guard c nd b)) then import_stream (fst (import guard c nd b)) t
              else (fst (import guard c nd b), false)
  end.

(* "finalized does not move during the stream": every block of the stream is presented to a node whose finalized id
   is fin (the node AFTER the last import is not constrained) *)
Fixpoint fin_fixed (nd : node) (l : list blk) (fin : N) : Prop :=
  match l with
  | [] => True
  | b :: t => e_fin (n_eng nd) = fin /\ fin_fixed (fst (import guard c nd b)) t fin
  end.

Definition codes_ok (nd : node) (l : list blk) : Prop :=
  forall code, In code (import_codes guard c nd l) -> code = 0 \/ code = 1.
(* "no CommitBlock error during the stream" *)
Definition no_commit_error (nd : node) (l : list blk) : Prop :=
  forall code, In code (import_codes guard c nd l) -> code < 100.

Lemma import_codes_cons nd b t :
  import_codes guard c nd (b :: t) = snd (import guard c nd b) :: import_codes guard c (fst (import guard c nd b)) t.
Proof. cbn [import_codes]. destruct (import guard c nd b) as [nd' code]. reflexivity. Qed.

Lemma codes_ok_cons nd b t : codes_ok nd (b :: t) <->
  (snd (import guard c nd b) = 0 \/ snd (import guard c nd b) = 1) /\ codes_ok (fst (import guard c nd b)) t.
Proof. unfold codes_ok. rewrite import_codes_cons. exact (forall_in_cons (fun code => code = 0 \/ code = 1) _ _). Qed.

Lemma no_commit_error_cons nd b t : no_commit_error nd (b :: t) <->
  snd (import guard c nd b) < 100 /\ no_commit_error (fst (import guard c nd b)) t.
Proof. unfold no_commit_error. rewrite import_codes_cons. exact (forall_in_cons (fun code => code < 100) _ _). Qed.

Lemma codes_ok_no_commit_error nd l : codes_ok nd l -> no_commit_error nd l.
Proof. intros H code Hc. destruct (H code Hc) as [-> | ->]; lia. Qed.

(* one import keeps the invariant and stays inside the universe (no numbering premise: it is read off U) *)
Lemma import_inv_U nd b : inv c nd -> (forall x, In x (n_repo nd) -> In x U) -> In b U ->
  inv c (fst (import guard c nd b)) /\ (forall x, In x (n_repo (fst (import guard c nd b))) -> In x U).
Proof.
  intros I Hsub Hb. split.
  - destruct (known (n_repo nd) (b_id b)) eqn:Ek.
    + unfold import. rewrite Ek. exact I.
    + apply (import_inv c HL guard nd b I).
      exact (valid_child_U U (n_repo nd) b WU (inv_wf c nd I) (inv_nonempty c nd I) Hsub Hb Ek).
  - intros x Hx. destruct (import_repo_incl guard c nd b x Hx) as [-> | Hx']; [exact Hb | exact (Hsub x Hx')].
Qed.

Lemma import_all_inv_U : forall l nd, inv c nd -> (forall x, In x (n_repo nd) -> In x U) -> (forall b, In b l -> In b U) ->
  inv c (ProofsNode.import_all c guard nd l) /\ (forall x, In x (n_repo (ProofsNode.import_all c guard nd l)) -> In x U).
Proof.
  induction l as [|b t IH]; intros nd I Hsub Hl; [split; assumption|]. cbn [ProofsNode.import_all].
  destruct (import_inv_U nd b I Hsub (Hl b (or_introl eq_refl))) as [I' Hsub'].
  apply IH; [exact I' | exact Hsub' | intros b' Hb'; apply Hl; right; exact Hb'].
Qed.

(* STREAM, both directions: Sync's import_all over the ids IS Bft's handleBlockStream seen through sync_node — same
   stopping point, same verdict — while finalized does not move and CommitBlock does not fail *)
Theorem stream_sim fin : forall l nd, inv c nd -> (forall x, In x (n_repo nd) -> In x U) -> (forall b, In b l -> In b U) ->
  fin_fixed nd l fin -> no_commit_error nd l ->
  Sync.Model.import_all N sbid (sparent U) (valid_bft U fin) (sbetter c U) (sync_node nd) (map b_id l) =
  (sync_node (fst (import_stream nd l)), snd (import_stream nd l)).
Proof.
  induction l as [|b t IH]; intros nd I Hsub Hl Hf Hn; [reflexivity|].
  cbn [map Sync.Model.import_all import_stream]. cbn [fin_fixed] in Hf. destruct Hf as [Hfin Hf].
  apply no_commit_error_cons in Hn. destruct Hn as [Hlt Hn].
  assert (Hb : In b U) by (apply Hl; left; reflexivity).
  rewrite (step_sim c guard U nd b fin HL I WU Hsub Hb Hfin).
  destruct (import_inv_U nd b I Hsub Hb) as [I' Hsub'].
  pose proof (import_rejected_same guard c nd b) as Hsame.
  destruct (import_code_cases guard c nd b) as [E|[E|[E|[E|E]]]]; try lia; rewrite E in *;
    cbn [rejected accepted N.eqb orb Pos.eqb fst snd].
  - apply IH; [exact I' | exact Hsub' | intros b' Hb'; apply Hl; right; exact Hb' | exact Hf | exact Hn].
  - apply IH; [exact I' | exact Hsub' | intros b' Hb'; apply Hl; right; exact Hb' | exact Hf | exact Hn].
  - rewrite (Hsame eq_refl). reflexivity.
  - rewrite (Hsame eq_refl). reflexivity.
Qed.

Lemma import_stream_ok : forall l nd, codes_ok nd l -> import_stream nd l = (ProofsNode.import_all c guard nd l, true).
Proof.
  induction l as [|b t IH]; intros nd H; [reflexivity|]. apply codes_ok_cons in H. destruct H as [H1 H2].
  cbn [import_stream ProofsNode.import_all]. unfold accepted.
  destruct H1 as [E|E]; rewrite E; cbn [N.eqb orb Pos.eqb]; exact (IH _ H2).
Qed.

Lemma import_stream_true : forall l nd, snd (import_stream nd l) = true -> codes_ok nd l.
Proof.
  induction l as [|b t IH]; intros nd H; [intros code []|]. apply codes_ok_cons. cbn [import_stream] in H.
  destruct (accepted (snd (import guard c nd b))) eqn:E; [|discriminate H].
  split; [unfold accepted in E; lia | exact (IH _ H)].
Qed.

(* STREAM as a run of the whole list: every code 0/1, finalized fixed *)
Theorem stream_sim_ok fin l nd : inv c nd -> (forall x, In x (n_repo nd) -> In x U) -> (forall b, In b l -> In b U) ->
  fin_fixed nd l fin -> codes_ok nd l ->
  Sync.Model.import_all N sbid (sparent U) (valid_bft U fin) (sbetter c U) (sync_node nd) (map b_id l) =
  (sync_node (ProofsNode.import_all c guard nd l), true).
Proof.
  intros I Hsub Hl Hf Hc.
  rewrite (stream_sim fin l nd I Hsub Hl Hf (codes_ok_no_commit_error nd l Hc)), (import_stream_ok l nd Hc). reflexivity.
Qed.

(* ... and conversely: when Sync's run succeeds, Bft refused nothing *)
Theorem stream_sim_codes fin l nd st' : inv c nd -> (forall x, In x (n_repo nd) -> In x U) -> (forall b, In b l -> In b U) ->
  fin_fixed nd l fin -> no_commit_error nd l ->
  Sync.Model.import_all N sbid (sparent U) (valid_bft U fin) (sbetter c U) (sync_node nd) (map b_id l) = (st', true) ->
  codes_ok nd l /\ st' = sync_node (ProofsNode.import_all c guard nd l).
Proof.
  intros I Hsub Hl Hf Hn H. rewrite (stream_sim fin l nd I Hsub Hl Hf Hn) in H. inversion H as [[H1 H2]].
  pose proof (import_stream_true l nd H2) as Hc. split; [exact Hc|].
  rewrite (import_stream_ok l nd Hc). reflexivity.
Qed.
End Step.

(* with the F1 repair (guard = true) and finalized at a checkpoint number — true of every node grown from genesis, C04
   commit_block_total — CommitBlock does not fail: the side condition no_commit_error is DISCHARGED *)
Theorem no_commit_error_guarded c U : 0 < c_L c -> wf_repo U -> forall l nd, inv c nd -> fin_cp c nd ->
  (forall x, In x (n_repo nd) -> In x U) -> (forall b, In b l -> In b U) -> no_commit_error c true nd l.
Proof.
  intros HL WU. induction l as [|b t IH]; intros nd I Hfc Hsub Hl; [intros code []|].
  apply no_commit_error_cons. assert (Hb : In b U) by (apply Hl; left; reflexivity).
  destruct (import_inv_U c HL true U WU nd b I Hsub Hb) as [I' Hsub'].
  assert (H : snd (import true c nd b) < 100 /\ fin_cp c (fst (import true c nd b))).
  { destruct (known (n_repo nd) (b_id b)) eqn:Ek.
    - unfold import. rewrite Ek. cbn [fst snd]. split; [lia | exact Hfc].
    - pose proof (valid_child_U U (n_repo nd) b WU (inv_wf c nd I) (inv_nonempty c nd I) Hsub Hb Ek) as Hvc.
      destruct (import_ok c HL nd b I Hfc Hvc) as [H1 [_ H3]]. split; assumption. }
  destruct H as [H1 H2]. split; [exact H1|].
  apply IH; [exact I' | exact H2 | exact Hsub' | intros b' Hb'; apply Hl; right; exact Hb'].
Qed.

(* Sync's import consults `valid` only for blocks that are not stored: two validity functions that agree off the store
   give the same run *)
Lemma sync_import_all_valid_ext (par : N -> N) (v1 v2 : N -> bool) (bet : N -> N -> bool) : forall l st,
  (forall i, Sync.Model.known N sbid st i = false -> v1 i = v2 i) ->
  Sync.Model.import_all N sbid par v1 bet st l = Sync.Model.import_all N sbid par v2 bet st l.
Proof.
  induction l as [|b t IH]; intros st H; [reflexivity|]. cbn [Sync.Model.import_all]. unfold Sync.Model.import.
  destruct (Sync.Model.known N sbid st (sbid b)) eqn:Ek; [exact (IH st H)|].
  unfold sbid in Ek at 2. rewrite (H b Ek).
  destruct (Sync.Model.known N sbid st (par b) && v2 b); [|reflexivity].
  apply IH. intros i Hi. apply H. unfold Sync.Model.known in *. cbn [Sync.Model.store existsb] in Hi.
  apply orb_false_elim in Hi. exact (proj2 Hi).
Qed.

Lemma blk_of_known U i : known U i = true -> In (blk_of U i) U /\ b_id (blk_of U i) = i.
Proof.
  intros H. apply known_find in H. destruct H as [x Hx]. unfold blk_of. rewrite Hx.
  destruct (find_blk_id _ _ _ Hx) as [Hid Hin]. split; assumption.
Qed.

Lemma map_blk_of_ids U : forall l, (forall i, In i l -> known U i = true) -> map b_id (map (blk_of U) l) = l.
Proof.
  induction l as [|i t IH]; intros H; [reflexivity|]. cbn [map].
  rewrite (proj2 (blk_of_known U i (H i (or_introl eq_refl)))). f_equal. apply IH. intros j Hj. apply H. right. exact Hj.
Qed.

Lemma in_skipn {A} (x : A) n : forall l, In x (skipn n l) -> In x l.
Proof. intros l H. rewrite <- (firstn_skipn n l). apply in_or_app. right. exact H. Qed.

(* what the sync_converges_bft_node* theorems ask of the two chains, the peer's head and the fuels *)
Record peer_premises (c : cfg) (U : repo) (nd : Bft.Model.node) (fin : N) (num : N -> N) (lc rc : list N) (h : N) (fuel fuel2 : nat) : Prop := {
  pp_in_U : forall i, In i rc -> known U i = true;
  pp_linked_l : Sync.ProofsConverge.chain_linked N sbid (sparent U) lc;
  pp_linked_r : Sync.ProofsConverge.chain_linked N sbid (sparent U) rc;
  pp_local : forall b, In b lc -> In b (Sync.Model.store N (sync_node nd));
  pp_genesis : Sync.ProofsConverge.same_at N sbid lc rc 0 = true;
  pp_head : N.of_nat (length lc - 1) < 2147483648;
  pp_numbered : forall n b, nth_error rc n = Some b -> num b = N.of_nat n;
  pp_short : N.of_nat (length rc) < 4294967296;
  pp_valid : forall i, In i rc -> known (n_repo nd) i = false -> idnum fin = 0 \/ has_block U (sparent U i) fin = true;
  pp_last : nth_error rc (length rc - 1) = Some h;
  pp_better : sbetter c U h (Sync.Model.best N (sync_node nd)) = true;
  pp_top : forall b, In b rc -> b <> h -> sbetter c U h b = true;
  pp_fuel : (Sync.Model.ancestor_fuel (N.of_nat (length lc - 1)) <= fuel)%nat;
  pp_fuel2 : (length rc < fuel2)%nat }.

(* sync_converges_bft_order at `valid` := bft.Accepts against fin: the search, the download — the peer's chain above the
   common ancestor, inside U — and Sync's run over it *)
Lemma sync_converges_bft_run (c : cfg) (U : repo) (nd : Bft.Model.node) (fin : N) (num : N -> N)
        (lc rc : list N) (cut : N -> nat) (h : N) (fuel fuel2 : nat) :
  inv c nd -> wf_repo U -> (forall x, In x (n_repo nd) -> In x U) -> (forall n, (1 <= cut n <= Sync.Model.max_batch)%nat) ->
  peer_premises c U nd fin num lc rc h fuel fuel2 ->
  exists a l st',
    Sync.Model.find_common_ancestor (fun n => Some (Sync.ProofsConverge.same_at N sbid lc rc n))
      (N.of_nat (length lc - 1)) fuel = Sync.Model.Anc a /\
    Sync.Proofs.is_last (Sync.ProofsConverge.same_at N sbid lc rc) (N.of_nat (length lc - 1)) a /\
    Sync.Model.download_stream N N (fun b => Some (num b)) (fun b => Some b)
      (Sync.ProofsDownload.honest_peer N rc cut) (a + 1) fuel2 = (l, Sync.Model.DlDone) /\
    l = skipn (N.to_nat (a + 1)) rc /\
    (forall i, In i l -> known U i = true) /\ (forall b, In b (map (blk_of U) l) -> In b U) /\
    Sync.Model.import_all N sbid (sparent U) (valid_bft U fin) (sbetter c U) (sync_node nd) l = (st', true) /\
    Sync.Model.best N st' = h.
Proof.
  intros I WU Hsub Hcut [HrcU Hlc Hrc Hknown Hgen Hhead Hnum Hshort Hvalid Hlast Hpref Htop Hf Hf2].
  (* sync_converges asks `valid` of every block of rc, the stored ones included, on which Accepts may answer false and which
     import never consults: they pass as known *)
  set (valid' := fun i => valid_bft U fin i || known (n_repo nd) i).
  assert (Hvalid' : forall b, In b rc -> valid' b = true).
  { intros i Hi. unfold valid'. destruct (known (n_repo nd) i) eqn:Ek; [apply orb_true_r|].
    rewrite orb_false_r. apply valid_bft_spec. exact (Hvalid i Hi Ek). }
  destruct (sync_converges_bft_order c U nd num valid' lc rc cut h fuel fuel2 I WU Hsub Hlc Hrc Hknown Hgen Hhead Hnum
              Hshort Hvalid' Hcut Hlast Hpref Htop Hf Hf2) as [a [l [st' [H1 [H2 [H3 [H4 H5]]]]]]].
  assert (Ha : a + 1 < 4294967296) by (destruct H2 as [Hle _]; lia).
  assert (Hl : l = skipn (N.to_nat (a + 1)) rc).
  { pose proof H3 as E. rewrite (Sync.ProofsDownload.download_honest N num rc Hnum Hshort cut Hcut fuel2 (a + 1)) in E; [|lia|exact Ha].
    inversion E. reflexivity. }
  assert (HlU : forall i, In i l -> known U i = true).
  { intros i Hi. apply HrcU. rewrite Hl in Hi. exact (in_skipn i _ rc Hi). }
  exists a, l, st'. split; [exact H1 | split; [exact H2 | split; [exact H3 | split; [exact Hl | split; [exact HlU|]]]]].
  split; [|split; [|exact H5]].
  - intros b Hb. apply in_map_iff in Hb. destruct Hb as [i [<- Hi]]. exact (proj1 (blk_of_known U i (HlU i Hi))).
  - rewrite <- H4. symmetry. apply sync_import_all_valid_ext.
    intros i Hi. rewrite sync_known_node in Hi. unfold valid'. rewrite Hi. apply orb_false_r.
Qed.

(* sync_converges_bft_order with `valid` := bft.Accepts at the fixed finalized id, and its conclusion on the REAL node:
   the Sync run over the downloaded ids IS (through sync_node) the Bft node's import of the downloaded blocks, every
   result code is 0 or 1, the invariant holds after, and the node's best block is the peer's head.
   Premises beside those of sync_converges_bft_order: 0 < epoch length; U holds the peer's chain; the `valid` premise is
   replaced by its meaning, asked only of blocks the node does not store.  Side conditions, on the downloaded stream: finalized does not move (fin_fixed),
   CommitBlock does not fail (no_commit_error; discharged for guard = true by no_commit_error_guarded). *)
Theorem sync_converges_bft_node (c : cfg) (guard : bool) (U : repo) (nd : Bft.Model.node) (fin : N) (num : N -> N)
        (lc rc : list N) (cut : N -> nat) (h : N) (fuel fuel2 : nat) :
  0 < c_L c ->
  inv c nd -> wf_repo U -> (forall x, In x (n_repo nd) -> In x U) ->
  (forall i, In i rc -> known U i = true) ->
  Sync.ProofsConverge.chain_linked N sbid (sparent U) lc -> Sync.ProofsConverge.chain_linked N sbid (sparent U) rc ->
  (forall b, In b lc -> In b (Sync.Model.store N (sync_node nd))) ->
  Sync.ProofsConverge.same_at N sbid lc rc 0 = true ->
  N.of_nat (length lc - 1) < 2147483648 ->
  (forall n b, nth_error rc n = Some b -> num b = N.of_nat n) ->
  N.of_nat (length rc) < 4294967296 ->
  (forall i, In i rc -> known (n_repo nd) i = false -> idnum fin = 0 \/ has_block U (sparent U i) fin = true) ->
  (forall n, (1 <= cut n <= Sync.Model.max_batch)%nat) ->
  nth_error rc (length rc - 1) = Some h ->
  sbetter c U h (Sync.Model.best N (sync_node nd)) = true ->
  (forall b, In b rc -> b <> h -> sbetter c U h b = true) ->
  (Sync.Model.ancestor_fuel (N.of_nat (length lc - 1)) <= fuel)%nat -> (length rc < fuel2)%nat ->
  exists a l,
    Sync.Model.find_common_ancestor (fun n => Some (Sync.ProofsConverge.same_at N sbid lc rc n))
      (N.of_nat (length lc - 1)) fuel = Sync.Model.Anc a /\
    Sync.Proofs.is_last (Sync.ProofsConverge.same_at N sbid lc rc) (N.of_nat (length lc - 1)) a /\
    Sync.Model.download_stream N N (fun b => Some (num b)) (fun b => Some b)
      (Sync.ProofsDownload.honest_peer N rc cut) (a + 1) fuel2 = (l, Sync.Model.DlDone) /\
    l = skipn (N.to_nat (a + 1)) rc /\
    (fin_fixed c guard nd (map (blk_of U) l) fin -> no_commit_error c guard nd (map (blk_of U) l) ->
     let nd' := ProofsNode.import_all c guard nd (map (blk_of U) l) in
     Sync.Model.import_all N sbid (sparent U) (valid_bft U fin) (sbetter c U) (sync_node nd) l = (sync_node nd', true) /\
     codes_ok c guard nd (map (blk_of U) l) /\ inv c nd' /\ n_best nd' = h).
Proof.
  intros HL I WU Hsub HrcU Hlc Hrc Hknown Hgen Hhead Hnum Hshort Hvalid Hcut Hlast Hpref Htop Hf Hf2.
  destruct (sync_converges_bft_run c U nd fin num lc rc cut h fuel fuel2 I WU Hsub Hcut
              (Build_peer_premises _ _ _ _ _ _ _ _ _ _ HrcU Hlc Hrc Hknown Hgen Hhead Hnum Hshort Hvalid Hlast Hpref Htop Hf Hf2))
    as (a & l & st' & H1 & H2 & H3 & Hl & HlU & HlU' & H4 & H5).
  exists a, l. split; [exact H1 | split; [exact H2 | split; [exact H3 | split; [exact Hl|]]]].
  intros Hfix Hnce nd'.
  rewrite <- (map_blk_of_ids U l HlU) in H4 at 1.
  destruct (stream_sim_codes c HL guard U WU fin (map (blk_of U) l) nd st' I Hsub HlU' Hfix Hnce H4) as [Hc Hst].
  fold nd' in Hst. subst st'. rewrite (map_blk_of_ids U l HlU) in H4.
  split; [exact H4 | split; [exact Hc | split]].
  - exact (proj1 (import_all_inv_U c HL guard U WU (map (blk_of U) l) nd I Hsub HlU')).
  - exact H5.
Qed.

Lemma chain_has_in ch x : grounded ch -> In x ch -> chain_has ch (b_id x) = true.
Proof.
  intros Hg Hin. destruct (in_split _ _ Hin) as [l1 [l2 E]]. subst ch. unfold chain_has.
  change (idnum (b_id x)) with (b_num x). rewrite (at_num_skip l1 x l2 (b_num x) Hg (N.le_refl _)).
  unfold at_num. cbn [find]. rewrite N.eqb_refl. apply N.eqb_refl.
Qed.

(* the numbers on the chain of the parent of a stored non-root block lie below the block's *)
Lemma parent_chain_below r b : wf_repo r -> In b r -> b_num b <> 0 ->
  forall y, In y (chain_of r (b_parent b)) -> b_num y < b_num b.
Proof.
  intros W Hin Hn0. pose proof (chain_of_stored r b W Hin) as Hf.
  destruct (chain_of_known r W _ _ Hf) as [t [Ht Hg]]. rewrite (chain_of_cons r _ b W Hf Hn0) in Ht. injection Ht as <-.
  exact (grounded_nums b _ Hg).
Qed.

Lemma has_block_child r b f : wf_repo r -> In b r -> b_num b <> 0 ->
  has_block r (b_parent b) f = true -> has_block r (b_id b) f = true.
Proof.
  intros W Hin Hn0 H. pose proof (chain_of_cons r _ b W (chain_of_stored r b W Hin) Hn0) as Hc.
  pose proof (parent_chain_below r b W Hin Hn0) as Hlt.
  unfold has_block, chain_has, at_num in *. rewrite Hc. cbn [find].
  destruct (find (fun x => b_num x =? idnum f) (chain_of r (b_parent b))) as [y|] eqn:Ey; [|discriminate].
  destruct (find_some _ _ Ey) as [Hyin Hynum]. apply N.eqb_eq in Hynum. specialize (Hlt y Hyin).
  assert (E : (b_num b =? idnum f) = false) by (apply N.eqb_neq; lia). rewrite E. exact H.
Qed.

Lemma accepts_child r e b : wf_repo r -> In b r -> b_num b <> 0 ->
  accepts r e (b_parent b) = true -> accepts r e (b_id b) = true.
Proof.
  unfold accepts. intros W Hin Hn0. destruct (negb (idnum (e_fin e) =? 0)); [|reflexivity].
  apply has_block_child; assumption.
Qed.

Section Chain.
Variable c : cfg.
Hypothesis HL : 0 < c_L c.
Variable guard : bool.
Variable U : repo.
Hypothesis WU : wf_repo U.

(* after an accepted import the new block itself descends from the (possibly moved) finalized checkpoint: CommitBlock
   moves finalized only to a block of the imported block's own chain (ProofsFinal.commit_block_finalized) *)
Lemma accepts_after_add nd b : inv c nd -> fin_ok nd -> known (n_repo nd) (b_id b) = false ->
  known (n_repo nd) (b_parent b) = true -> valid_child (n_repo nd) b -> accepts (n_repo nd) (n_eng nd) (b_parent b) = true ->
  accepts (n_repo (fst (add_and_commit guard c nd b false))) (n_eng (fst (add_and_commit guard c nd b false))) (b_id b) = true /\
  fin_ok (fst (add_and_commit guard c nd b false)).
Proof.
  intros I Hfo Ek Ep Hvc Ea.
  destruct (add_and_commit_monotone c HL guard nd b I Hfo Ek Ep Hvc Ea) as [M1 [_ M3]]. split; [|exact M3].
  pose proof (add_and_commit_inv c HL guard nd b false I Ek Ep Hvc) as I'. pose proof (inv_wf c _ I') as W'.
  rewrite add_and_commit_eq in *. cbn [fst n_repo n_eng] in *.
  unfold accepts. destruct (negb (idnum (e_fin (fst (commit_block guard c (b :: n_repo nd) (n_eng nd) b false))) =? 0)); [|reflexivity].
  destruct (commit_block_finalized guard c (b :: n_repo nd) (n_eng nd) b false) as [Hsame | [x [Hx [Hid _]]]].
  - rewrite Hsame. exact M1.
  - rewrite Hid. unfold has_block.
    assert (Hfb : find_blk (b :: n_repo nd) (b_id b) = Some b) by (unfold find_blk; cbn [find]; rewrite N.eqb_refl; reflexivity).
    destruct (chain_of_known _ W' _ _ Hfb) as [t [Ht Hg]]. rewrite Ht in *. exact (chain_has_in (b :: t) x Hg Hx).
Qed.

(* the stream is one chain hanging off the block `prev`: each block names the previous one as its parent *)
Fixpoint linked_from (prev : N) (l : list blk) : Prop :=
  match l with [] => True | b :: t => b_parent b = prev /\ linked_from (b_id b) t end.

(* STREAM, one chain: finalized MAY move.  Sync's `valid` is bft.Accepts at the finalized id fin0 of the moment the
   first not-yet-stored block arrives; later checkpoints lie on the chain being imported, so the real (stricter)
   Accepts keeps answering true and the two runs agree. *)
Theorem stream_sim_chain fin0 : forall l nd prev, inv c nd -> fin_ok nd -> (forall x, In x (n_repo nd) -> In x U) ->
  (forall b, In b l -> In b U) -> (forall b, In b l -> b_num b <> 0) ->
  linked_from prev l -> known (n_repo nd) prev = true ->
  (e_fin (n_eng nd) = fin0 \/ accepts (n_repo nd) (n_eng nd) prev = true) ->
  (forall b, In b l -> known (n_repo nd) (b_id b) = false -> valid_bft U fin0 (b_id b) = true) ->
  no_commit_error c guard nd l ->
  Sync.Model.import_all N sbid (sparent U) (valid_bft U fin0) (sbetter c U) (sync_node nd) (map b_id l) =
  (sync_node (ProofsNode.import_all c guard nd l), true) /\ codes_ok c guard nd l.
Proof.
  induction l as [|b t IH]; intros nd prev I Hfo Hsub Hl Hnz Hlk Hpk HJ Hv Hn; [split; [reflexivity | intros code []]|].
  cbn [map Sync.Model.import_all ProofsNode.import_all]. cbn [linked_from] in Hlk. destruct Hlk as [Hpar Hlk].
  apply no_commit_error_cons in Hn. destruct Hn as [Hlt Hn].
  assert (Hb : In b U) by (apply Hl; left; reflexivity).
  pose proof (inv_wf c nd I) as Wr. pose proof (inv_nonempty c nd I) as Hne.
  destruct (import_inv_U c HL guard U WU nd b I Hsub Hb) as [I' Hsub'].
  assert (Hl' : forall b', In b' t -> In b' U) by (intros b' Hb'; apply Hl; right; exact Hb').
  assert (Hnz' : forall b', In b' t -> b_num b' <> 0) by (intros b' Hb'; apply Hnz; right; exact Hb').
  destruct (known (n_repo nd) (b_id b)) eqn:Ek.
  - (* already stored: ignored by both *)
    assert (Ei : import guard c nd b = (nd, 1)) by (unfold import; rewrite Ek; reflexivity).
    rewrite (step_sim_gen c guard U nd b (valid_bft U fin0) HL I WU Hsub Hb) by (intros E; rewrite Ek in E; discriminate).
    rewrite Ei in *. cbn [fst snd rejected N.eqb orb Pos.eqb].
    assert (Hbin : In b (n_repo nd)).
    { pose proof Ek as Ek'. apply known_find in Ek'. destruct Ek' as [b' Hb']. destruct (find_blk_id _ _ _ Hb') as [Hid Hin].
      rewrite (Bft.ProofsTree2.stored_unique U b b' WU Hb (Hsub _ Hin) (eq_sym Hid)). exact Hin. }
    destruct (IH nd (b_id b) I Hfo Hsub Hl' Hnz' Hlk Ek) as [S1 S2].
    + destruct HJ as [HJ|HJ]; [left; exact HJ | right].
      apply (accepts_child (n_repo nd) (n_eng nd) b Wr Hbin (Hnz b (or_introl eq_refl))). rewrite Hpar. exact HJ.
    + intros b' Hb'. apply Hv. right. exact Hb'.
    + exact Hn.
    + split; [exact S1|]. apply codes_ok_cons. rewrite Ei. cbn [fst snd]. split; [right; reflexivity | exact S2].
  - (* new block: its parent is stored, Accepts answers true *)
    assert (Ep : known (n_repo nd) (b_parent b) = true) by (rewrite Hpar; exact Hpk).
    pose proof (Hv b (or_introl eq_refl) Ek) as Hvb.
    assert (Ea : accepts (n_repo nd) (n_eng nd) (b_parent b) = true).
    { destruct HJ as [HJ|HJ]; [|rewrite Hpar; exact HJ].
      rewrite (valid_bft_is_accepts c U nd b fin0 I WU Hsub Hb Ep HJ). exact Hvb. }
    pose proof (valid_child_U U (n_repo nd) b WU Wr Hne Hsub Hb Ek) as Hvc.
    assert (Ei : import guard c nd b = add_and_commit guard c nd b false) by (rewrite import_eq, Ek, Ep, Ea; reflexivity).
    rewrite (step_sim_gen c guard U nd b (valid_bft U fin0) HL I WU Hsub Hb) by (intros _ _; rewrite Ea; exact Hvb).
    assert (Hcode : snd (import guard c nd b) = 0).
    { rewrite Ei in *. destruct (add_and_commit_code guard c nd b false) as [E|E]; [exact E | lia]. }
    rewrite Hcode. cbn [rejected N.eqb orb].
    destruct (accepts_after_add nd b I Hfo Ek Ep Hvc Ea) as [Ea' Hfo']. rewrite <- Ei in Ea', Hfo'.
    destruct (IH (fst (import guard c nd b)) (b_id b) I' Hfo' Hsub' Hl' Hnz' Hlk) as [S1 S2].
    + rewrite Ei, add_and_commit_eq. cbn [fst n_repo]. rewrite known_cons, N.eqb_refl. reflexivity.
    + right. exact Ea'.
    + intros b' Hb' Hk'. apply Hv; [right; exact Hb'|].
      destruct (known (n_repo nd) (b_id b')) eqn:E; [|reflexivity].
      rewrite (Bft.ProofsRun.known_incl _ _ _ (Bft.ProofsRun.import_repo_mono guard c nd b) E) in Hk'. discriminate.
    + exact Hn.
    + split; [exact S1|]. apply codes_ok_cons. split; [left; exact Hcode | exact S2].
Qed.
End Chain.

Lemma skipn_cons_nth {A} : forall n (l : list A) y, nth_error l n = Some y -> skipn n l = y :: skipn (S n) l.
Proof.
  induction n as [|n IH]; intros [|x t] y H; cbn in H; try discriminate.
  - inversion H. reflexivity.
  - exact (IH t y H).
Qed.

Lemma linked_from_chain U : forall l prev, (forall i, In i l -> known U i = true) ->
  (forall n x y, nth_error (prev :: l) n = Some y -> nth_error (prev :: l) (S n) = Some x -> sparent U x = y) ->
  linked_from prev (map (blk_of U) l).
Proof.
  induction l as [|i t IH]; intros prev HU H; [exact Logic.I|]. cbn [map linked_from]. split.
  - exact (H 0%nat i prev eq_refl eq_refl).
  - rewrite (proj2 (blk_of_known U i (HU i (or_introl eq_refl)))). apply IH.
    + intros j Hj. apply HU. right. exact Hj.
    + intros n x y H1 H2. exact (H (S n) x y H1 H2).
Qed.

(* the _chain variant of sync_converges_bft_node: fin is the node's own finalized id when the download starts, it MAY
   move while the stream is imported (no side condition fin_fixed); further premises: fin_ok nd (finalized is
   stored, and is the root when its number is 0 — true along every import history, ProofsMonotone) and the header
   number the download checks is the number embedded in the id. *)
Theorem sync_converges_bft_node_chain (c : cfg) (guard : bool) (U : repo) (nd : Bft.Model.node) (num : N -> N)
        (lc rc : list N) (cut : N -> nat) (h : N) (fuel fuel2 : nat) :
  0 < c_L c ->
  inv c nd -> fin_ok nd -> wf_repo U -> (forall x, In x (n_repo nd) -> In x U) ->
  (forall i, In i rc -> known U i = true) ->
  Sync.ProofsConverge.chain_linked N sbid (sparent U) lc -> Sync.ProofsConverge.chain_linked N sbid (sparent U) rc ->
  (forall b, In b lc -> In b (Sync.Model.store N (sync_node nd))) ->
  Sync.ProofsConverge.same_at N sbid lc rc 0 = true ->
  N.of_nat (length lc - 1) < 2147483648 ->
  (forall n b, nth_error rc n = Some b -> num b = N.of_nat n) -> (forall i, In i rc -> num i = idnum i) ->
  N.of_nat (length rc) < 4294967296 ->
  (forall i, In i rc -> known (n_repo nd) i = false ->
     idnum (e_fin (n_eng nd)) = 0 \/ has_block U (sparent U i) (e_fin (n_eng nd)) = true) ->
  (forall n, (1 <= cut n <= Sync.Model.max_batch)%nat) ->
  nth_error rc (length rc - 1) = Some h ->
  sbetter c U h (Sync.Model.best N (sync_node nd)) = true ->
  (forall b, In b rc -> b <> h -> sbetter c U h b = true) ->
  (Sync.Model.ancestor_fuel (N.of_nat (length lc - 1)) <= fuel)%nat -> (length rc < fuel2)%nat ->
  exists a l,
    Sync.Model.find_common_ancestor (fun n => Some (Sync.ProofsConverge.same_at N sbid lc rc n))
      (N.of_nat (length lc - 1)) fuel = Sync.Model.Anc a /\
    Sync.Proofs.is_last (Sync.ProofsConverge.same_at N sbid lc rc) (N.of_nat (length lc - 1)) a /\
    Sync.Model.download_stream N N (fun b => Some (num b)) (fun b => Some b)
      (Sync.ProofsDownload.honest_peer N rc cut) (a + 1) fuel2 = (l, Sync.Model.DlDone) /\
    l = skipn (N.to_nat (a + 1)) rc /\
    (no_commit_error c guard nd (map (blk_of U) l) ->
     let nd' := ProofsNode.import_all c guard nd (map (blk_of U) l) in
     Sync.Model.import_all N sbid (sparent U) (valid_bft U (e_fin (n_eng nd))) (sbetter c U) (sync_node nd) l =
       (sync_node nd', true) /\
     codes_ok c guard nd (map (blk_of U) l) /\ inv c nd' /\ n_best nd' = h).
Proof.
  intros HL I Hfo WU Hsub HrcU Hlc Hrc Hknown Hgen Hhead Hnum Hidnum Hshort Hvalid Hcut Hlast Hpref Htop Hf Hf2.
  set (fin := e_fin (n_eng nd)) in *.
  destruct (sync_converges_bft_run c U nd fin num lc rc cut h fuel fuel2 I WU Hsub Hcut
              (Build_peer_premises _ _ _ _ _ _ _ _ _ _ HrcU Hlc Hrc Hknown Hgen Hhead Hnum Hshort Hvalid Hlast Hpref Htop Hf Hf2))
    as (a & l & st' & H1 & H2 & H3 & Hl & HlU & HlU' & H4 & H5).
  exists a, l. split; [exact H1 | split; [exact H2 | split; [exact H3 | split; [exact Hl|]]]].
  intros Hnce nd'.
  replace (N.to_nat (a + 1)) with (S (N.to_nat a)) in Hl by lia.
  (* the common ancestor block is stored *)
  destruct H2 as [_ [Hsame _]]. unfold Sync.ProofsConverge.same_at in Hsame.
  destruct (nth_error lc (N.to_nat a)) as [x|] eqn:Ex; [|discriminate].
  destruct (nth_error rc (N.to_nat a)) as [y|] eqn:Ey; [|discriminate].
  apply N.eqb_eq in Hsame. unfold sbid in Hsame. subst x.
  assert (Hyk : known (n_repo nd) y = true).
  { pose proof (Hknown y (nth_error_In _ _ Ex)) as Hy. cbn [sync_node Sync.Model.store] in Hy.
    apply in_map_iff in Hy. destruct Hy as [yb [<- Hyb]]. apply known_in. exact Hyb. }
  assert (Hlrc : forall i, In i l -> exists m, nth_error rc (S (N.to_nat a) + m) = Some i).
  { intros i Hi. rewrite Hl in Hi. apply In_nth_error in Hi. destruct Hi as [m Hm].
    rewrite Sync.ProofsDownload.nth_error_skipn' in Hm. exists m. exact Hm. }
  assert (Hnz : forall b, In b (map (blk_of U) l) -> b_num b <> 0).
  { intros b Hb. apply in_map_iff in Hb. destruct Hb as [i [<- Hi]]. unfold b_num.
    rewrite (proj2 (blk_of_known U i (HlU i Hi))). destruct (Hlrc i Hi) as [m Hm].
    rewrite <- (Hidnum i (nth_error_In _ _ Hm)), (Hnum _ _ Hm). lia. }
  assert (Hlk : linked_from y (map (blk_of U) l)).
  { apply linked_from_chain; [exact HlU|]. intros n x0 y0 E1 E2.
    rewrite Hl, <- (skipn_cons_nth (N.to_nat a) rc y Ey), Sync.ProofsDownload.nth_error_skipn' in E1, E2.
    replace (N.to_nat a + S n)%nat with (S (N.to_nat a + n)) in E2 by lia.
    exact (Hrc _ _ _ E1 E2). }
  assert (Hv : forall b, In b (map (blk_of U) l) -> known (n_repo nd) (b_id b) = false -> valid_bft U fin (b_id b) = true).
  { intros b Hb Hk. apply in_map_iff in Hb. destruct Hb as [i [<- Hi]].
    rewrite (proj2 (blk_of_known U i (HlU i Hi))) in *. destruct (Hlrc i Hi) as [m Hm].
    apply valid_bft_spec. exact (Hvalid i (nth_error_In _ _ Hm) Hk). }
  destruct (stream_sim_chain c HL guard U WU fin (map (blk_of U) l) nd y I Hfo Hsub HlU' Hnz Hlk Hyk
              (or_introl eq_refl) Hv Hnce) as [S1 S2].
  fold nd' in S1. rewrite (map_blk_of_ids U l HlU) in S1.
  rewrite S1 in H4. inversion H4 as [Hst]. rewrite <- Hst in H5.
  split; [exact S1 | split; [exact S2 | split]].
  - exact (proj1 (import_all_inv_U c HL guard U WU (map (blk_of U) l) nd I Hsub HlU')).
  - exact H5.
Qed.

(* with the F1 repair and finalized at a checkpoint number NO side condition about the run is left *)
Theorem sync_converges_bft_node_guarded (c : cfg) (U : repo) (nd : Bft.Model.node) (num : N -> N)
        (lc rc : list N) (cut : N -> nat) (h : N) (fuel fuel2 : nat) :
  0 < c_L c ->
  inv c nd -> fin_ok nd -> fin_cp c nd -> wf_repo U -> (forall x, In x (n_repo nd) -> In x U) ->
  (forall i, In i rc -> known U i = true) ->
  Sync.ProofsConverge.chain_linked N sbid (sparent U) lc -> Sync.ProofsConverge.chain_linked N sbid (sparent U) rc ->
  (forall b, In b lc -> In b (Sync.Model.store N (sync_node nd))) ->
  Sync.ProofsConverge.same_at N sbid lc rc 0 = true ->
  N.of_nat (length lc - 1) < 2147483648 ->
  (forall n b, nth_error rc n = Some b -> num b = N.of_nat n) -> (forall i, In i rc -> num i = idnum i) ->
  N.of_nat (length rc) < 4294967296 ->
  (forall i, In i rc -> known (n_repo nd) i = false ->
     idnum (e_fin (n_eng nd)) = 0 \/ has_block U (sparent U i) (e_fin (n_eng nd)) = true) ->
  (forall n, (1 <= cut n <= Sync.Model.max_batch)%nat) ->
  nth_error rc (length rc - 1) = Some h ->
  sbetter c U h (Sync.Model.best N (sync_node nd)) = true ->
  (forall b, In b rc -> b <> h -> sbetter c U h b = true) ->
  (Sync.Model.ancestor_fuel (N.of_nat (length lc - 1)) <= fuel)%nat -> (length rc < fuel2)%nat ->
  exists a l,
    Sync.Model.find_common_ancestor (fun n => Some (Sync.ProofsConverge.same_at N sbid lc rc n))
      (N.of_nat (length lc - 1)) fuel = Sync.Model.Anc a /\
    Sync.Proofs.is_last (Sync.ProofsConverge.same_at N sbid lc rc) (N.of_nat (length lc - 1)) a /\
    Sync.Model.download_stream N N (fun b => Some (num b)) (fun b => Some b)
      (Sync.ProofsDownload.honest_peer N rc cut) (a + 1) fuel2 = (l, Sync.Model.DlDone) /\
    l = skipn (N.to_nat (a + 1)) rc /\
    let nd' := ProofsNode.import_all c true nd (map (blk_of U) l) in
    Sync.Model.import_all N sbid (sparent U) (valid_bft U (e_fin (n_eng nd))) (sbetter c U) (sync_node nd) l =
      (sync_node nd', true) /\
    codes_ok c true nd (map (blk_of U) l) /\ inv c nd' /\ n_best nd' = h.
Proof.
  intros HL I Hfo Hfc WU Hsub HrcU Hlc Hrc Hknown Hgen Hhead Hnum Hidnum Hshort Hvalid Hcut Hlast Hpref Htop Hf Hf2.
  destruct (sync_converges_bft_node_chain c true U nd num lc rc cut h fuel fuel2 HL I Hfo WU Hsub HrcU Hlc Hrc Hknown Hgen
              Hhead Hnum Hidnum Hshort Hvalid Hcut Hlast Hpref Htop Hf Hf2) as [a [l [H1 [H2 [H3 [Hl H]]]]]].
  exists a, l. split; [exact H1 | split; [exact H2 | split; [exact H3 | split; [exact Hl|]]]].
  apply H. apply (no_commit_error_guarded c U HL WU (map (blk_of U) l) nd I Hfc Hsub).
  intros b Hb. apply in_map_iff in Hb. destruct Hb as [i [<- Hi]]. apply blk_of_known. apply HrcU.
  rewrite Hl in Hi. exact (in_skipn i _ rc Hi).
Qed.

(* checkers used to discharge the list-shaped premises on concrete instances *)
Fixpoint linkedb (U : repo) (l : list N) : bool :=
  match l with
  | [] => true
  | y :: t => match t with [] => true | x :: _ => (sparent U x =? y) && linkedb U t end
  end.

Lemma linkedb_sound U : forall l, linkedb U l = true -> Sync.ProofsConverge.chain_linked N sbid (sparent U) l.
Proof.
  induction l as [|y t IH]; intros H n x0 y0 Hy Hx; [destruct n; discriminate|].
  cbn [linkedb] in H. destruct t as [|x t']; [destruct n; cbn in Hx; [discriminate | destruct n; discriminate]|].
  apply andb_prop in H. destruct H as [H1 H2]. destruct n as [|n].
  - cbn in Hy, Hx. inversion Hy; inversion Hx; subst. apply N.eqb_eq in H1. exact H1.
  - exact (IH H2 n x0 y0 Hy Hx).
Qed.

Fixpoint numberedb (k : N) (l : list N) : bool :=
  match l with [] => true | x :: t => (idnum x =? k) && numberedb (k + 1) t end.

Lemma numberedb_sound : forall l k, numberedb k l = true -> forall n b, nth_error l n = Some b -> idnum b = k + N.of_nat n.
Proof.
  induction l as [|x t IH]; intros k H n b Hn; [destruct n; discriminate|].
  cbn [numberedb] in H. apply andb_prop in H. destruct H as [H1 H2]. destruct n as [|n].
  - cbn in Hn. inversion Hn; subst. apply N.eqb_eq in H1. lia.
  - cbn in Hn. rewrite (IH _ H2 n b Hn). lia.
Qed.

Lemma inclb_sound (l s : list N) : forallb (fun b => existsb (N.eqb b) s) l = true -> forall b, In b l -> In b s.
Proof.
  intros H b Hb. pose proof (proj1 (forallb_forall _ l) H b Hb) as E. cbn beta in E.
  apply existsb_exists in E. destruct E as [x [Hx E]]. apply N.eqb_eq in E. subst x. exact Hx.
Qed.

Lemma pair_eta_eq {A B} (x : A * B) (b : B) : snd x = b -> x = (fst x, b).
Proof. destruct x as [a0 b0]. cbn. intros ->. reflexivity. Qed.

(* peer_premises at num := idnum (the header number is the number embedded in the id) as one boolean *)
Definition peer_premisesb (c : cfg) (U : repo) (nd : Bft.Model.node) (fin : N) (lc rc : list N) (h : N) (fuel fuel2 : nat) : bool :=
  let r := n_repo nd in
  forallb (known U) rc && linkedb U lc && linkedb U rc &&
  forallb (fun b => existsb (N.eqb b) (map b_id r)) lc &&
  Sync.ProofsConverge.same_at N sbid lc rc 0 && (N.of_nat (length lc - 1) <? 2147483648) &&
  numberedb 0 rc && (N.of_nat (length rc) <? 4294967296) &&
  forallb (fun i => known r i || (idnum fin =? 0) || has_block U (sparent U i) fin) rc &&
  match nth_error rc (length rc - 1) with Some x => x =? h | None => false end &&
  sbetter c U h (n_best nd) && forallb (fun b => (b =? h) || sbetter c U h b) rc &&
  (Sync.Model.ancestor_fuel (N.of_nat (length lc - 1)) <=? fuel)%nat && (length rc <? fuel2)%nat.

Lemma peer_premisesb_sound c U nd fin lc rc h fuel fuel2 :
  peer_premisesb c U nd fin lc rc h fuel fuel2 = true -> peer_premises c U nd fin idnum lc rc h fuel fuel2.
Proof.
  unfold peer_premisesb. cbv zeta. rewrite !andb_true_iff.
  intros [[[[[[[[[[[[[H1 H2] H3] H4] H5] H6] H7] H8] H9] H10] H11] H12] H13] H14]. constructor.
  - exact (proj1 (forallb_forall _ _) H1).
  - exact (linkedb_sound U lc H2).
  - exact (linkedb_sound U rc H3).
  - exact (inclb_sound lc _ H4).
  - exact H5.
  - apply N.ltb_lt. exact H6.
  - intros n b Hb. rewrite (numberedb_sound rc 0 H7 n b Hb). lia.
  - apply N.ltb_lt. exact H8.
  - intros i Hi Hk. pose proof (proj1 (forallb_forall _ _) H9 i Hi) as E. cbn beta in E. rewrite Hk, orb_false_l in E.
    apply orb_prop in E. destruct E as [E|E]; [left; apply N.eqb_eq; exact E | right; exact E].
  - destruct (nth_error rc (length rc - 1)) as [x|]; [apply N.eqb_eq in H10; subst x; reflexivity | discriminate].
  - exact H11.
  - intros b Hb Hne. pose proof (proj1 (forallb_forall _ _) H12 b Hb) as E. cbn beta in E.
    apply orb_prop in E. destruct E as [E|E]; [apply N.eqb_eq in E; contradiction | exact E].
  - apply PeanoNat.Nat.leb_le. exact H13.
  - apply PeanoNat.Nat.ltb_lt. exact H14.
Qed.

(* the two conditions on the result codes of a concrete stream, by evaluation *)
Lemma no_commit_error_b c guard nd l :
  forallb (fun code => code <? 100) (import_codes guard c nd l) = true -> no_commit_error c guard nd l.
Proof. intros H code Hc. apply N.ltb_lt. exact (proj1 (forallb_forall _ _) H code Hc). Qed.

Lemma codes_ok_b c guard nd l :
  forallb (fun code => (code =? 0) || (code =? 1)) (import_codes guard c nd l) = true -> codes_ok c guard nd l.
Proof. intros H code Hc. pose proof (proj1 (forallb_forall _ _) H code Hc) as E. cbn beta in E. lia. Qed.

Lemma ex_epoch_pos : 0 < c_L ex_cfg.
Proof. reflexivity. Qed.

(* ---- instance A: SyncOrder's fork (finalized = genesis: Accepts is trivially true) *)

Example sync_converges_bft_node_example_genesis :
  exists a l,
    Sync.Model.find_common_ancestor (fun n => Some (Sync.ProofsConverge.same_at N sbid ex_lc ex_rc n)) 5 20 = Sync.Model.Anc a /\
    a = 3 /\ l = map b_id [ex_m 4; ex_m 5; ex_m 6; ex_m 7] /\
    let nd' := ProofsNode.import_all ex_cfg true ex_nd (map (blk_of ex_U) l) in
    Sync.Model.import_all N sbid (sparent ex_U) (valid_bft ex_U (b_id ex_g)) (sbetter ex_cfg ex_U) (sync_node ex_nd) l =
      (sync_node nd', true) /\
    codes_ok ex_cfg true ex_nd (map (blk_of ex_U) l) /\ inv ex_cfg nd' /\ n_best nd' = b_id (ex_m 7).
Proof.
  destruct (peer_premisesb_sound ex_cfg ex_U ex_nd (b_id ex_g) ex_lc ex_rc (b_id (ex_m 7)) 20 20 ltac:(vm_compute; reflexivity))
    as [P1 P2 P3 P4 P5 P6 P7 P8 P9 P10 P11 P12 P13 P14].
  destruct (sync_converges_bft_node ex_cfg true ex_U ex_nd (b_id ex_g) idnum ex_lc ex_rc (fun _ => 1%nat)
              (b_id (ex_m 7)) 20 20 ex_epoch_pos ex_inv ex_wf ex_incl P1 P2 P3 P4 P5 P6 P7 P8 P9) as [a [l [H1 [H2 [H3 [Hl H]]]]]];
    [intros n; unfold Sync.Model.max_batch; lia | exact P10 | exact P11 | exact P12 | exact P13 | exact P14 |].
  - assert (Ea : a = 3) by (vm_compute in H1; inversion H1; reflexivity). subst a.
    assert (El : l = map b_id [ex_m 4; ex_m 5; ex_m 6; ex_m 7]) by (rewrite Hl; vm_compute; reflexivity).
    exists 3, l. split; [exact H1 | split; [reflexivity | split; [exact El|]]].
    apply H.
    + rewrite El. vm_compute. tauto.
    + rewrite El. apply no_commit_error_b. vm_compute. reflexivity.
Qed.

(* ---- instance B: finalized is NOT genesis.  PoA, epoch length 2, 2 proposers: an epoch is justified by more than
   2*2/3 = 1 distinct signers, i.e. by both blocks of the epoch.
   common prefix  g - m1 - ... - m5      (all COM, signers alternating: q(m3)=1, q(m5)=2; m5 finalizes m2)
   local branch   m5 - l6 - l7           (one signer, not COM: quality 2, total scores 100, 200)
   peer's branch  m5 - m6 - ... - m9     (all COM: q(m7)=3, m7 finalizes m4; q(m9)=4, m9 finalizes m6)
   fork blocks    r2 (child of m1: below the finalized m2 — refused by Accepts),
                  f4 (child of m3: accepted while finalized = m2, refused once finalized = m4) *)
Definition ex2_cfg : cfg := mkCfg 2 2 false 0 [].
Definition ex2_m (k : N) : blk := mkB (mkid k 1) (mkid (k - 1) 1) (k mod 2 + 1) true k.
Definition ex2_l6 : blk := mkB (mkid 6 2) (mkid 5 1) 1 false 100.
Definition ex2_l7 : blk := mkB (mkid 7 2) (mkid 6 2) 1 false 200.
Definition ex2_r2 : blk := mkB (mkid 2 3) (mkid 1 1) 2 false 50.
Definition ex2_f4 : blk := mkB (mkid 4 2) (mkid 3 1) 1 false 300.
Definition ex2_U : repo :=
  [ex2_f4; ex2_r2] ++ map ex2_m [9; 8; 7; 6] ++ [ex2_l7; ex2_l6] ++ map ex2_m [5; 4; 3; 2; 1] ++ [ex_g].
Definition ex2_hist : list blk := map ex2_m [1; 2; 3; 4; 5] ++ [ex2_l6; ex2_l7].
Definition ex2_nd : Bft.Model.node := ProofsNode.import_all ex2_cfg true (init_node ex_g 1) ex2_hist.
Definition ex2_fin : N := b_id (ex2_m 2).
Definition ex2_lc : list N := map b_id ([ex_g] ++ map ex2_m [1; 2; 3; 4; 5] ++ [ex2_l6; ex2_l7]).
Definition ex2_rc7 : list N := map b_id (ex_g :: map ex2_m [1; 2; 3; 4; 5; 6; 7]).
Definition ex2_rc9 : list N := map b_id (ex_g :: map ex2_m [1; 2; 3; 4; 5; 6; 7; 8; 9]).

Lemma ex2_epoch_pos : 0 < c_L ex2_cfg.
Proof. reflexivity. Qed.

Example ex2_inv : inv ex2_cfg ex2_nd.
Proof. apply import_all_inv_by_id; vm_compute; reflexivity. Qed.

Example ex2_wf : wf_repo ex2_U.
Proof. apply wf_repob_sound. vm_compute. reflexivity. Qed.

Example ex2_incl : forall x, In x (n_repo ex2_nd) -> In x ex2_U.
Proof.
  assert (E : n_repo ex2_nd = [ex2_l7; ex2_l6] ++ map ex2_m [5; 4; 3; 2; 1] ++ [ex_g]) by (vm_compute; reflexivity).
  rewrite E. unfold ex2_U. intros x Hx. apply in_or_app. right. apply in_or_app. right. exact Hx.
Qed.

(* the node: finalized m2, best = the local head l7 (quality 2, total score 200); the peer's m7 has quality 3, total
   score 7: it is preferred by QUALITY *)
Example ex2_state :
  e_fin (n_eng ex2_nd) = ex2_fin /\ idnum ex2_fin = 2 /\ n_best ex2_nd = b_id ex2_l7 /\
  fin_cp ex2_cfg ex2_nd /\ fin_ok ex2_nd.
Proof.
  split; [vm_compute; reflexivity | split; [vm_compute; reflexivity | split; [vm_compute; reflexivity | split]]].
  - vm_compute. reflexivity.
  - split; [eexists; vm_compute; reflexivity | intros H; vm_compute in H; discriminate].
Qed.

Example ex2_wins_by_quality :
  qual ex2_cfg ex2_U ex2_l7 = 2 /\ qual ex2_cfg ex2_U (ex2_m 7) = 3 /\ b_score (ex2_m 7) < b_score ex2_l7 /\
  sbetter ex2_cfg ex2_U (b_id (ex2_m 7)) (n_best ex2_nd) = true.
Proof. vm_compute. repeat split; reflexivity. Qed.

Lemma ex2_in (b : blk) : existsb (blk_eqb b) ex2_U = true -> In b ex2_U.
Proof.
  intros H. apply existsb_exists in H. destruct H as [x [Hx E]]. rewrite (Bft.ProofsTree2.blk_eqb_eq b x E). exact Hx.
Qed.

(* valid_bft is Accepts, and it discriminates: m6 (parent m5, above m2) is accepted, r2 (parent m1) is not *)
Example valid_bft_is_accepts_example :
  accepts (n_repo ex2_nd) (n_eng ex2_nd) (b_parent (ex2_m 6)) = valid_bft ex2_U ex2_fin (b_id (ex2_m 6)) /\
  valid_bft ex2_U ex2_fin (b_id (ex2_m 6)) = true /\
  accepts (n_repo ex2_nd) (n_eng ex2_nd) (b_parent ex2_r2) = valid_bft ex2_U ex2_fin (b_id ex2_r2) /\
  valid_bft ex2_U ex2_fin (b_id ex2_r2) = false.
Proof.
  split; [|split; [vm_compute; reflexivity | split; [|vm_compute; reflexivity]]].
  - apply (valid_bft_is_accepts ex2_cfg ex2_U ex2_nd (ex2_m 6) ex2_fin ex2_inv ex2_wf ex2_incl);
      [apply ex2_in | |]; vm_compute; reflexivity.
  - apply (valid_bft_is_accepts ex2_cfg ex2_U ex2_nd ex2_r2 ex2_fin ex2_inv ex2_wf ex2_incl);
      [apply ex2_in | |]; vm_compute; reflexivity.
Qed.

(* the step: m6 is imported (code 0), m5 is known (code 1) *)
Example step_accepted_example :
  snd (import true ex2_cfg ex2_nd (ex2_m 6)) = 0 /\
  Sync.Model.import N sbid (sparent ex2_U) (valid_bft ex2_U ex2_fin) (sbetter ex2_cfg ex2_U) (sync_node ex2_nd) (b_id (ex2_m 6)) =
    Some (sync_node (fst (import true ex2_cfg ex2_nd (ex2_m 6)))) /\
  snd (import true ex2_cfg ex2_nd (ex2_m 5)) = 1 /\
  Sync.Model.import N sbid (sparent ex2_U) (valid_bft ex2_U ex2_fin) (sbetter ex2_cfg ex2_U) (sync_node ex2_nd) (b_id (ex2_m 5)) =
    Some (sync_node (fst (import true ex2_cfg ex2_nd (ex2_m 5)))).
Proof.
  split; [vm_compute; reflexivity | split; [|split; [vm_compute; reflexivity|]]].
  - apply (step_accepted ex2_cfg ex2_epoch_pos true ex2_U ex2_wf ex2_nd (ex2_m 6) ex2_fin _ 0 ex2_inv ex2_incl);
      [apply ex2_in; vm_compute; reflexivity | vm_compute; reflexivity | | left; reflexivity].
    apply pair_eta_eq. vm_compute. reflexivity.
  - apply (step_accepted ex2_cfg ex2_epoch_pos true ex2_U ex2_wf ex2_nd (ex2_m 5) ex2_fin _ 1 ex2_inv ex2_incl);
      [apply ex2_in; vm_compute; reflexivity | vm_compute; reflexivity | | right; reflexivity].
    apply pair_eta_eq. vm_compute. reflexivity.
Qed.

(* m7 arrives before its parent m6 (code 2); r2 hangs below the finalized m2 (code 3): Sync's import fails *)
Example step_rejected_example :
  snd (import true ex2_cfg ex2_nd (ex2_m 7)) = 2 /\
  Sync.Model.import N sbid (sparent ex2_U) (valid_bft ex2_U ex2_fin) (sbetter ex2_cfg ex2_U) (sync_node ex2_nd) (b_id (ex2_m 7)) = None /\
  snd (import true ex2_cfg ex2_nd ex2_r2) = 3 /\
  Sync.Model.import N sbid (sparent ex2_U) (valid_bft ex2_U ex2_fin) (sbetter ex2_cfg ex2_U) (sync_node ex2_nd) (b_id ex2_r2) = None.
Proof.
  split; [vm_compute; reflexivity | split; [|split; [vm_compute; reflexivity|]]].
  - apply (step_rejected ex2_cfg ex2_epoch_pos true ex2_U ex2_wf ex2_nd (ex2_m 7) ex2_fin (fst (import true ex2_cfg ex2_nd (ex2_m 7))) 2 ex2_inv ex2_incl);
      [apply ex2_in; vm_compute; reflexivity | vm_compute; reflexivity | | left; reflexivity].
    apply pair_eta_eq. vm_compute. reflexivity.
  - apply (step_rejected ex2_cfg ex2_epoch_pos true ex2_U ex2_wf ex2_nd ex2_r2 ex2_fin (fst (import true ex2_cfg ex2_nd ex2_r2)) 3 ex2_inv ex2_incl);
      [apply ex2_in; vm_compute; reflexivity | vm_compute; reflexivity | | right; reflexivity].
    apply pair_eta_eq. vm_compute. reflexivity.
Qed.

(* ---- the F1 tree (C04: Bft/ProofsWitness.v), code before the repair (guard = false): f7 is accepted, stored, and
   CommitBlock fails on it (code 103).  Sync's import answers Some — the state agrees — but the Go node aborts the
   stream there: the case excluded by no_commit_error *)
Definition ex3_f (k : N) : blk := mkB (mkid k 2) (if k =? 5 then mkid 4 1 else mkid (k - 1) 2) (k mod 4 + 1) true k.
Definition ex3_hist : list blk := map ex_m [1; 2; 3; 4; 5; 6; 7; 8; 9; 10; 11] ++ map ex3_f [5; 6].
Definition ex3_nd : Bft.Model.node := ProofsNode.import_all ex_cfg false (init_node ex_g 1) ex3_hist.
Definition ex3_U : repo := map ex3_f [7; 6; 5] ++ map ex_m [11; 10; 9; 8; 7; 6; 5; 4; 3; 2; 1] ++ [ex_g].

Example ex3_inv : inv ex_cfg ex3_nd.
Proof. apply import_all_inv_by_id; vm_compute; reflexivity. Qed.

Example ex3_wf : wf_repo ex3_U.
Proof. apply wf_repob_sound. vm_compute. reflexivity. Qed.

Example ex3_incl : forall x, In x (n_repo ex3_nd) -> In x ex3_U.
Proof.
  assert (E : n_repo ex3_nd = map ex3_f [6; 5] ++ map ex_m [11; 10; 9; 8; 7; 6; 5; 4; 3; 2; 1] ++ [ex_g]) by (vm_compute; reflexivity).
  rewrite E. unfold ex3_U. intros x Hx. right. exact Hx.
Qed.

Example step_commit_error_example :
  snd (import false ex_cfg ex3_nd (ex3_f 7)) = 103 /\
  Sync.Model.import N sbid (sparent ex3_U) (valid_bft ex3_U (b_id (ex_m 4))) (sbetter ex_cfg ex3_U) (sync_node ex3_nd) (b_id (ex3_f 7)) =
    Some (sync_node (fst (import false ex_cfg ex3_nd (ex3_f 7)))) /\
  n_repo (fst (import false ex_cfg ex3_nd (ex3_f 7))) = ex3_f 7 :: n_repo ex3_nd.
Proof.
  split; [vm_compute; reflexivity|].
  apply (step_commit_error ex_cfg ex_epoch_pos false ex3_U ex3_wf ex3_nd (ex3_f 7) (b_id (ex_m 4)) _ 103 ex3_inv ex3_incl).
  - left. reflexivity.
  - vm_compute. reflexivity.
  - apply pair_eta_eq. vm_compute. reflexivity.
  - lia.
Qed.

(* ---- streams on instance B *)

Lemma ex2_stream_in (l : list blk) : forallb (fun b => existsb (blk_eqb b) ex2_U) l = true -> forall b, In b l -> In b ex2_U.
Proof. intros H b Hb. apply ex2_in. exact (proj1 (forallb_forall _ l) H b Hb). Qed.

(* m6, m7: finalized is m2 whenever a block arrives (it moves to m4 only when m7, the last one, is committed) *)
Example stream_sim_ok_example :
  fin_fixed ex2_cfg true ex2_nd (map ex2_m [6; 7]) ex2_fin /\
  e_fin (n_eng (ProofsNode.import_all ex2_cfg true ex2_nd (map ex2_m [6; 7]))) = b_id (ex2_m 4) /\
  Sync.Model.import_all N sbid (sparent ex2_U) (valid_bft ex2_U ex2_fin) (sbetter ex2_cfg ex2_U) (sync_node ex2_nd)
    (map b_id (map ex2_m [6; 7])) =
  (sync_node (ProofsNode.import_all ex2_cfg true ex2_nd (map ex2_m [6; 7])), true).
Proof.
  assert (Hf : fin_fixed ex2_cfg true ex2_nd (map ex2_m [6; 7]) ex2_fin) by (vm_compute; tauto).
  split; [exact Hf | split; [vm_compute; reflexivity|]].
  apply (stream_sim_ok ex2_cfg ex2_epoch_pos true ex2_U ex2_wf ex2_fin _ ex2_nd ex2_inv ex2_incl).
  - apply ex2_stream_in. vm_compute. reflexivity.
  - exact Hf.
  - apply codes_ok_b. vm_compute. reflexivity.
Qed.

(* m6, then r2 (refused by Accepts), then m7: both runs stop at r2, in the same state, with verdict false *)
Example stream_sim_example :
  import_stream ex2_cfg true ex2_nd [ex2_m 6; ex2_r2; ex2_m 7] = (fst (import true ex2_cfg ex2_nd (ex2_m 6)), false) /\
  Sync.Model.import_all N sbid (sparent ex2_U) (valid_bft ex2_U ex2_fin) (sbetter ex2_cfg ex2_U) (sync_node ex2_nd)
    (map b_id [ex2_m 6; ex2_r2; ex2_m 7]) = (sync_node (fst (import true ex2_cfg ex2_nd (ex2_m 6))), false).
Proof.
  assert (E : import_stream ex2_cfg true ex2_nd [ex2_m 6; ex2_r2; ex2_m 7] = (fst (import true ex2_cfg ex2_nd (ex2_m 6)), false))
    by (vm_compute; reflexivity).
  split; [exact E|].
  rewrite (stream_sim ex2_cfg ex2_epoch_pos true ex2_U ex2_wf ex2_fin [ex2_m 6; ex2_r2; ex2_m 7] ex2_nd ex2_inv ex2_incl).
  - rewrite E. reflexivity.
  - apply ex2_stream_in. vm_compute. reflexivity.
  - vm_compute. tauto.
  - apply no_commit_error_b. vm_compute. reflexivity.
Qed.

Example stream_sim_codes_example :
  codes_ok ex2_cfg true ex2_nd (map ex2_m [6; 7]).
Proof.
  destruct stream_sim_ok_example as [Hf [_ Hs]].
  refine (proj1 (stream_sim_codes ex2_cfg ex2_epoch_pos true ex2_U ex2_wf ex2_fin _ ex2_nd _ ex2_inv ex2_incl _ Hf _ Hs)).
  - apply ex2_stream_in. vm_compute. reflexivity.
  - apply no_commit_error_b. vm_compute. reflexivity.
Qed.

(* no_commit_error_guarded on a stream with a fork block: nothing to check about the run *)
Example no_commit_error_guarded_example :
  no_commit_error ex2_cfg true ex2_nd ([ex2_f4] ++ map ex2_m [6; 7; 8; 9]).
Proof.
  apply (no_commit_error_guarded ex2_cfg ex2_U ex2_epoch_pos ex2_wf _ ex2_nd ex2_inv (proj1 (proj2 (proj2 (proj2 ex2_state)))) ex2_incl).
  apply ex2_stream_in. vm_compute. reflexivity.
Qed.

(* WHY fin_fixed cannot simply be dropped: f4 (child of m3) is accepted when it arrives before m7 and refused (code 3)
   when it arrives after m7 has moved finalized from m2 to m4 — the verdict on f4 depends on the node's state, while
   Sync/Model.v's `valid : Blk -> bool` sees the block alone.  At fin = m2 Sync's run accepts f4 in both orders. *)
Example fin_moves_valid_is_not_a_function :
  import_codes true ex2_cfg ex2_nd ([ex2_f4] ++ map ex2_m [6; 7]) = [0; 0; 0] /\
  import_codes true ex2_cfg ex2_nd (map ex2_m [6; 7] ++ [ex2_f4]) = [0; 0; 3] /\
  valid_bft ex2_U ex2_fin (b_id ex2_f4) = true /\ valid_bft ex2_U (b_id (ex2_m 4)) (b_id ex2_f4) = false /\
  snd (Sync.Model.import_all N sbid (sparent ex2_U) (valid_bft ex2_U ex2_fin) (sbetter ex2_cfg ex2_U) (sync_node ex2_nd)
         (map b_id (map ex2_m [6; 7] ++ [ex2_f4]))) = true /\
  ~ fin_fixed ex2_cfg true ex2_nd (map ex2_m [6; 7] ++ [ex2_f4]) ex2_fin.
Proof.
  repeat (split; [vm_compute; reflexivity|]). intros H. vm_compute in H.
  destruct H as [_ [_ [H _]]]. discriminate H.
Qed.

(* the one-chain variant: m6..m9, finalized moves from m2 to m4 (at m7) and to m6 (at m9) — fin_fixed is false — and
   nothing is refused *)
Example stream_sim_chain_example :
  ~ fin_fixed ex2_cfg true ex2_nd (map ex2_m [6; 7; 8; 9]) ex2_fin /\
  Sync.Model.import_all N sbid (sparent ex2_U) (valid_bft ex2_U ex2_fin) (sbetter ex2_cfg ex2_U) (sync_node ex2_nd)
    (map b_id (map ex2_m [6; 7; 8; 9])) =
  (sync_node (ProofsNode.import_all ex2_cfg true ex2_nd (map ex2_m [6; 7; 8; 9])), true) /\
  codes_ok ex2_cfg true ex2_nd (map ex2_m [6; 7; 8; 9]).
Proof.
  split.
  - intros H. vm_compute in H. destruct H as [_ [_ [H _]]]. discriminate H.
  - destruct ex2_state as [Hfin [_ [_ [Hfc Hfo]]]].
    apply (stream_sim_chain ex2_cfg ex2_epoch_pos true ex2_U ex2_wf ex2_fin _ ex2_nd (b_id (ex2_m 5)) ex2_inv Hfo ex2_incl).
    + apply ex2_stream_in. vm_compute. reflexivity.
    + assert (E : forall b, In b (map ex2_m [6; 7; 8; 9]) -> negb (b_num b =? 0) = true)
        by (apply forallb_forall; vm_compute; reflexivity).
      intros b Hb. specialize (E b Hb). lia.
    + vm_compute. tauto.
    + vm_compute. reflexivity.
    + left. exact Hfin.
    + assert (E : forall b, In b (map ex2_m [6; 7; 8; 9]) -> valid_bft ex2_U ex2_fin (b_id b) = true)
        by (apply forallb_forall; vm_compute; reflexivity).
      intros b Hb _. exact (E b Hb).
    + apply (no_commit_error_guarded ex2_cfg ex2_U ex2_epoch_pos ex2_wf _ ex2_nd ex2_inv Hfc ex2_incl).
      apply ex2_stream_in. vm_compute. reflexivity.
Qed.

(* ---- the conclusion on instance B *)

(* sync_converges_bft_node with a NON-genesis finalized block (m2): local head l7 (quality 2, total score 200), peer's
   chain g..m7; the search finds height 5, the download delivers m6, m7, finalized is m2 at both arrivals, the Bft node
   imports both with code 0 and ends with the peer's head m7 as best *)
Example sync_converges_bft_node_example :
  idnum ex2_fin <> 0 /\
  exists a l,
    Sync.Model.find_common_ancestor (fun n => Some (Sync.ProofsConverge.same_at N sbid ex2_lc ex2_rc7 n)) 7 20 = Sync.Model.Anc a /\
    a = 5 /\ l = map b_id (map ex2_m [6; 7]) /\
    let nd' := ProofsNode.import_all ex2_cfg true ex2_nd (map (blk_of ex2_U) l) in
    Sync.Model.import_all N sbid (sparent ex2_U) (valid_bft ex2_U ex2_fin) (sbetter ex2_cfg ex2_U) (sync_node ex2_nd) l =
      (sync_node nd', true) /\
    codes_ok ex2_cfg true ex2_nd (map (blk_of ex2_U) l) /\ inv ex2_cfg nd' /\ n_best nd' = b_id (ex2_m 7).
Proof.
  split; [vm_compute; discriminate|].
  destruct (peer_premisesb_sound ex2_cfg ex2_U ex2_nd ex2_fin ex2_lc ex2_rc7 (b_id (ex2_m 7)) 20 20 ltac:(vm_compute; reflexivity))
    as [P1 P2 P3 P4 P5 P6 P7 P8 P9 P10 P11 P12 P13 P14].
  destruct (sync_converges_bft_node ex2_cfg true ex2_U ex2_nd ex2_fin idnum ex2_lc ex2_rc7 (fun _ => 2%nat)
              (b_id (ex2_m 7)) 20 20 ex2_epoch_pos ex2_inv ex2_wf ex2_incl P1 P2 P3 P4 P5 P6 P7 P8 P9) as [a [l [H1 [H2 [H3 [Hl H]]]]]];
    [intros n; unfold Sync.Model.max_batch; lia | exact P10 | exact P11 | exact P12 | exact P13 | exact P14 |].
  - assert (Ea : a = 5) by (vm_compute in H1; inversion H1; reflexivity). subst a.
    assert (El : l = map b_id (map ex2_m [6; 7])) by (rewrite Hl; vm_compute; reflexivity).
    exists 5, l. split; [exact H1 | split; [reflexivity | split; [exact El|]]].
    apply H.
    + rewrite El. vm_compute. tauto.
    + rewrite El. apply no_commit_error_b. vm_compute. reflexivity.
Qed.

(* the _guarded variant: peer's chain g..m9, finalized moves from m2 to m4 to m6 while m6..m9 are imported; no premise
   about the run *)
Example sync_converges_bft_node_guarded_example :
  exists a l,
    Sync.Model.find_common_ancestor (fun n => Some (Sync.ProofsConverge.same_at N sbid ex2_lc ex2_rc9 n)) 7 20 = Sync.Model.Anc a /\
    a = 5 /\ l = map b_id (map ex2_m [6; 7; 8; 9]) /\
    let nd' := ProofsNode.import_all ex2_cfg true ex2_nd (map (blk_of ex2_U) l) in
    Sync.Model.import_all N sbid (sparent ex2_U) (valid_bft ex2_U ex2_fin) (sbetter ex2_cfg ex2_U) (sync_node ex2_nd) l =
      (sync_node nd', true) /\
    codes_ok ex2_cfg true ex2_nd (map (blk_of ex2_U) l) /\ inv ex2_cfg nd' /\ n_best nd' = b_id (ex2_m 9) /\
    e_fin (n_eng nd') = b_id (ex2_m 6).
Proof.
  destruct ex2_state as [Hfin [_ [_ [Hfc Hfo]]]].
  destruct (peer_premisesb_sound ex2_cfg ex2_U ex2_nd (e_fin (n_eng ex2_nd)) ex2_lc ex2_rc9 (b_id (ex2_m 9)) 20 20
              ltac:(vm_compute; reflexivity)) as [P1 P2 P3 P4 P5 P6 P7 P8 P9 P10 P11 P12 P13 P14].
  destruct (sync_converges_bft_node_guarded ex2_cfg ex2_U ex2_nd idnum ex2_lc ex2_rc9 (fun _ => 3%nat)
              (b_id (ex2_m 9)) 20 20 ex2_epoch_pos ex2_inv Hfo Hfc ex2_wf ex2_incl P1 P2 P3 P4 P5 P6 P7 (fun i _ => eq_refl) P8 P9)
    as [a [l [H1 [H2 [H3 [Hl H]]]]]];
    [intros n; unfold Sync.Model.max_batch; lia | exact P10 | exact P11 | exact P12 | exact P13 | exact P14 |].
  - assert (Ea : a = 5) by (vm_compute in H1; inversion H1; reflexivity). subst a.
    assert (El : l = map b_id (map ex2_m [6; 7; 8; 9])) by (rewrite Hl; vm_compute; reflexivity).
    exists 5, l. split; [exact H1 | split; [reflexivity | split; [exact El|]]].
    rewrite Hfin in H. cbv zeta in H |- *. destruct H as [S1 [S2 [S3 S4]]].
    split; [exact S1 | split; [exact S2 | split; [exact S3 | split; [exact S4|]]]].
    rewrite El. vm_compute. reflexivity.
Qed.

(* the same instance through the _chain statement, for the code before the F1 repair (guard = false): the side condition
   no_commit_error is checked on the run *)
Example sync_converges_bft_node_chain_example :
  exists a l,
    l = map b_id (map ex2_m [6; 7; 8; 9]) /\
    Sync.Model.find_common_ancestor (fun n => Some (Sync.ProofsConverge.same_at N sbid ex2_lc ex2_rc9 n)) 7 20 = Sync.Model.Anc a /\
    let nd' := ProofsNode.import_all ex2_cfg false ex2_nd (map (blk_of ex2_U) l) in
    Sync.Model.import_all N sbid (sparent ex2_U) (valid_bft ex2_U ex2_fin) (sbetter ex2_cfg ex2_U) (sync_node ex2_nd) l =
      (sync_node nd', true) /\ n_best nd' = b_id (ex2_m 9).
Proof.
  destruct ex2_state as [Hfin [_ [_ [Hfc Hfo]]]].
  destruct (peer_premisesb_sound ex2_cfg ex2_U ex2_nd (e_fin (n_eng ex2_nd)) ex2_lc ex2_rc9 (b_id (ex2_m 9)) 20 20
              ltac:(vm_compute; reflexivity)) as [P1 P2 P3 P4 P5 P6 P7 P8 P9 P10 P11 P12 P13 P14].
  destruct (sync_converges_bft_node_chain ex2_cfg false ex2_U ex2_nd idnum ex2_lc ex2_rc9 (fun _ => 1024%nat)
              (b_id (ex2_m 9)) 20 20 ex2_epoch_pos ex2_inv Hfo ex2_wf ex2_incl P1 P2 P3 P4 P5 P6 P7 (fun i _ => eq_refl) P8 P9)
    as [a [l [H1 [H2 [H3 [Hl H]]]]]];
    [intros n; unfold Sync.Model.max_batch; lia | exact P10 | exact P11 | exact P12 | exact P13 | exact P14 |].
  - assert (El : l = map b_id (map ex2_m [6; 7; 8; 9])).
    { assert (Ea : a = 5) by (vm_compute in H1; inversion H1; reflexivity). subst a. rewrite Hl. vm_compute. reflexivity. }
    exists a, l. split; [exact El | split; [exact H1|]].
    rewrite Hfin in H. cbv zeta in H |- *. destruct H as [S1 [_ [_ S4]]]; [|split; [exact S1 | exact S4]].
    rewrite El. apply no_commit_error_b. vm_compute. reflexivity.
Qed.
