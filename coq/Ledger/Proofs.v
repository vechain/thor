(* Ledger/Proofs.v — conservation of VET, exact VTHO delta, the self-destruct-to-self deficit. *)
From Coq Require Import ZArith List Bool Lia.
From Verif Require Import Ledger.Model.
Import ListNotations.
Open Scope Z_scope.

Definition member (a : Z) (dom : list Z) : bool := existsb (Z.eqb a) dom.
Lemma member_in a dom : member a dom = true <-> In a dom.
Proof.
  unfold member. rewrite existsb_exists. split.
  - intros [x [Hx E]]. apply Z.eqb_eq in E. subst. exact Hx.
  - intros H. exists a. split; [exact H|apply Z.eqb_refl].
Qed.

Section Sums.
  Variable f : account -> Z.

  (* a total over a set changes by the change at the updated address, if the set holds it *)
  Lemma sumf_upd dom s a v : NoDup dom ->
    sumf f dom (upd s a v) = sumf f dom s + (if member a dom then f v - f (s a) else 0).
  Proof.
    induction 1 as [|x t Hx ND IH]; [reflexivity|]. cbn [sumf member existsb]. fold (member a t). rewrite IH.
    unfold upd at 1. rewrite (Z.eqb_sym a x). destruct (x =? a) eqn:E; cbn [orb]; [|destruct (member a t); lia].
    apply Z.eqb_eq in E; subst x. destruct (member a t) eqn:M; [apply member_in in M; contradiction|lia].
  Qed.

  Lemma sumf_upd_in dom s a v : NoDup dom -> In a dom -> sumf f dom (upd s a v) = sumf f dom s - f (s a) + f v.
  Proof. intros ND HI. apply member_in in HI. rewrite sumf_upd, HI by exact ND. lia. Qed.

  Lemma sumf_ext_f dom (s1 s2 : accts) : (forall a, In a dom -> f (s1 a) = f (s2 a)) -> sumf f dom s1 = sumf f dom s2.
  Proof.
    induction dom as [|x t IH]; intros H; [reflexivity|]. cbn. rewrite (H x (or_introl eq_refl)).
    rewrite IH by (intros; apply H; right; assumption). reflexivity.
  Qed.

  Lemma sumf_ext dom (s1 s2 : accts) : (forall a, In a dom -> s1 a = s2 a) -> sumf f dom s1 = sumf f dom s2.
  Proof. intros H. apply sumf_ext_f. intros a Ha. rewrite H; auto. Qed.
End Sums.


Lemma energy_at_settled T S b e : energy_at T S (mkAcc b e T) = e.
Proof.
  unfold energy_at; cbn. destruct (T =? 0); [reflexivity|]. destruct (b =? 0); [reflexivity|].
  rewrite Z.leb_refl. reflexivity.
Qed.
Lemma energy_at_empty T S : energy_at T S empty_acc = 0.
Proof. reflexivity. Qed.

(* a total over dom after updates at addresses of dom: each update changes it by (new - old) at that address (sumf_upd_in);
   then the records at the updated addresses are read off, so that what is left is arithmetic on their fields *)
Ltac upd_simpl :=
  repeat (rewrite sumf_upd_in by assumption);
  unfold upd, empty_acc; cbn [a_bal a_eng a_bt l_acc];
  repeat rewrite Z.eqb_refl;
  repeat match goal with H : (_ =? _) = _ |- _ => rewrite H end;
  cbn [a_bal a_eng a_bt l_acc]; rewrite ?energy_at_settled.

(* ------------------------------------------------------------------ the two energy primitives, totals over ANY address set
   (dom need not contain the touched account): used for per-account statements (dom = [a]) *)

Lemma energy_add_eng_any T S l a amt dom : NoDup dom ->
  sum_eng T S dom (l_acc (energy_add T S l a amt)) = sum_eng T S dom (l_acc l) + (if member a dom then amt else 0).
Proof.
  intros ND. unfold sum_eng, energy_add. destruct (amt =? 0) eqn:A; [apply Z.eqb_eq in A; destruct (member a dom); lia|].
  unfold set_energy, set_acc, get_energy; cbn [l_acc]. rewrite sumf_upd by exact ND. rewrite energy_at_settled.
  destruct (member a dom); lia.
Qed.
Lemma energy_add_bal_any T S l a amt dom : NoDup dom ->
  sum_bal dom (l_acc (energy_add T S l a amt)) = sum_bal dom (l_acc l).
Proof.
  intros ND. unfold sum_bal, energy_add. destruct (amt =? 0); [reflexivity|].
  unfold set_energy, set_acc; cbn [l_acc]. rewrite sumf_upd by exact ND. cbn [a_bal]. destruct (member a dom); lia.
Qed.
Lemma energy_sub_eng_any T S l a amt dom : NoDup dom ->
  sum_eng T S dom (l_acc (fst (energy_sub T S l a amt))) =
  sum_eng T S dom (l_acc l) - (if snd (energy_sub T S l a amt) && member a dom then amt else 0).
Proof.
  intros ND. unfold sum_eng, energy_sub. destruct (amt =? 0) eqn:A; [apply Z.eqb_eq in A; cbn; destruct (member a dom); lia|].
  destruct (_ <? amt); [cbn; lia|]. unfold set_energy, set_acc, get_energy; cbn [fst snd l_acc andb].
  rewrite sumf_upd by exact ND. rewrite energy_at_settled. destruct (member a dom); lia.
Qed.
Lemma energy_sub_bal_any T S l a amt dom : NoDup dom ->
  sum_bal dom (l_acc (fst (energy_sub T S l a amt))) = sum_bal dom (l_acc l).
Proof.
  intros ND. unfold sum_bal, energy_sub. destruct (amt =? 0); [reflexivity|].
  destruct (_ <? amt); [reflexivity|]. unfold set_energy, set_acc; cbn [fst l_acc].
  rewrite sumf_upd by exact ND. cbn [a_bal]. destruct (member a dom); lia.
Qed.


Lemma distribute_bal T S l b d rw p h dom : NoDup dom -> In b dom -> In d dom ->
  sum_bal dom (l_acc (distribute T S l b d rw p h)) = sum_bal dom (l_acc l).
Proof.
  intros ND Hb Hd. unfold sum_bal. unfold distribute, set_energy, set_acc, get_energy. cbn [l_acc].
  destruct (h && _); cbn [l_acc].
  - destruct (b =? d) eqn:E.
    + apply Z.eqb_eq in E; subst d. upd_simpl. lia.
    + assert (E' : (d =? b) = false) by (rewrite Z.eqb_sym; exact E). upd_simpl. lia.
  - upd_simpl. lia.
Qed.


Lemma energy_add_eng T S l a amt dom : NoDup dom -> In a dom ->
  sum_eng T S dom (l_acc (energy_add T S l a amt)) = sum_eng T S dom (l_acc l) + amt.
Proof. intros ND HI. apply member_in in HI. rewrite energy_add_eng_any, HI by exact ND. reflexivity. Qed.

Lemma energy_sub_eng T S l a amt dom : NoDup dom -> In a dom ->
  sum_eng T S dom (l_acc (fst (energy_sub T S l a amt))) =
  sum_eng T S dom (l_acc l) - (if snd (energy_sub T S l a amt) then amt else 0).
Proof. intros ND HI. apply member_in in HI. rewrite energy_sub_eng_any, HI, andb_true_r by exact ND. reflexivity. Qed.

Lemma distribute_eng T S l b d rw p h dom : NoDup dom -> In b dom -> In d dom ->
  sum_eng T S dom (l_acc (distribute T S l b d rw p h)) = sum_eng T S dom (l_acc l) + rw.
Proof.
  intros ND Hb Hd. unfold sum_eng. unfold distribute, proposer_share, set_energy, set_acc, get_energy. cbn [l_acc].
  destruct (h && _); cbn [l_acc].
  - destruct (b =? d) eqn:E.
    + apply Z.eqb_eq in E; subst d. upd_simpl. lia.
    + assert (E' : (d =? b) = false) by (rewrite Z.eqb_sym; exact E). upd_simpl. lia.
  - upd_simpl. lia.
Qed.

(* ------------------------------------------------------------------ the primitives that move value between two accounts:
   both totals at once (the two goals go the same way) *)

Lemma transfer_totals T S l s r amt dom : NoDup dom -> In s dom -> In r dom ->
  sum_bal dom (l_acc (transfer T S l s r amt)) = sum_bal dom (l_acc l) /\
  sum_eng T S dom (l_acc (transfer T S l s r amt)) = sum_eng T S dom (l_acc l).
Proof.
  intros ND Hs Hr. unfold sum_bal, sum_eng, transfer. destruct (amt =? 0); [split; reflexivity|].
  unfold add_balance, set_energy, set_acc, get_energy; cbn [l_acc].
  destruct (r =? s) eqn:E.
  - apply Z.eqb_eq in E; subst r. split; upd_simpl; lia.
  - assert (E' : (s =? r) = false) by (rewrite Z.eqb_sym; exact E). split; upd_simpl; lia.
Qed.

Lemma energy_move_totals T S l s r amt dom : NoDup dom -> In s dom -> In r dom ->
  sum_bal dom (l_acc (energy_move T S l s r amt)) = sum_bal dom (l_acc l) /\
  sum_eng T S dom (l_acc (energy_move T S l s r amt)) = sum_eng T S dom (l_acc l).
Proof.
  intros ND Hs Hr. unfold energy_move.
  pose proof (energy_sub_bal_any T S l s amt dom ND) as Hb. pose proof (energy_sub_eng T S l s amt dom ND Hs) as He.
  destruct (energy_sub T S l s amt) as [l1 ok]. cbn [fst snd] in Hb, He.
  destruct ok; [|split; reflexivity]. rewrite energy_add_bal_any, energy_add_eng by assumption. split; lia.
Qed.

(* the contract's balance and energy go to the beneficiary and its record is zeroed (skipped when zero): the totals keep
   them unless beneficiary = contract, where zeroing comes last and they are lost; by cases on that and on the two skips *)
Lemma suicide_totals T S l c r dom : NoDup dom -> In c dom -> In r dom ->
  sum_bal dom (l_acc (suicide T S l c r)) =
    sum_bal dom (l_acc l) - (if c =? r then a_bal (l_acc l c) else 0) /\
  sum_eng T S dom (l_acc (suicide T S l c r)) =
    sum_eng T S dom (l_acc l) - (if c =? r then energy_at T S (l_acc l c) else 0).
Proof.
  intros ND Hc Hr. unfold sum_bal, sum_eng, suicide, add_balance, set_energy, set_acc, get_energy.
  destruct (c =? r) eqn:E; [apply Z.eqb_eq in E; subst r|assert (E' : (r =? c) = false) by (rewrite Z.eqb_sym; exact E)].
  all: destruct (a_bal (l_acc l c) =? 0) eqn:B; destruct (energy_at T S (l_acc l c) =? 0) eqn:EE; cbn [negb orb l_acc];
    split; upd_simpl; change (energy_at T S (mkAcc 0 0 0)) with 0; try (apply Z.eqb_eq in B); try (apply Z.eqb_eq in EE); lia.
Qed.


Definition covers (dom : list Z) (o : op) : Prop := forall a, In a (touches o) -> In a dom.

(* apart from self-destructs to self: VET is conserved and VTHO changes by the delta of the primitive *)
Lemma op_totals T S l o dom : NoDup dom -> covers dom o -> self_destruct_to_self o = false ->
  sum_bal dom (l_acc (apply_op T S l o)) = sum_bal dom (l_acc l) /\
  sum_eng T S dom (l_acc (apply_op T S l o)) = sum_eng T S dom (l_acc l) + energy_delta T S l o.
Proof.
  intros ND C NS. destruct o; cbn [apply_op energy_delta]; unfold covers in C; cbn in C.
  - rewrite Z.add_0_r. apply transfer_totals; auto.
  - split; [apply energy_add_bal_any|apply energy_add_eng]; auto.
  - rewrite energy_sub_eng by auto. split; [apply energy_sub_bal_any; auto|destruct (snd _); lia].
  - rewrite Z.add_0_r. apply energy_move_totals; auto.
  - cbn in NS. destruct (suicide_totals T S l c r dom) as [A B]; auto. rewrite A, B, NS. split; lia.
  - split; [apply distribute_bal|apply distribute_eng]; auto.
Qed.

Lemma suicide_self_burns_lemma T S l c dom : NoDup dom -> In c dom ->
  sum_bal dom (l_acc (apply_op T S l (OSuicide c c))) = sum_bal dom (l_acc l) - a_bal (l_acc l c) /\
  sum_eng T S dom (l_acc (apply_op T S l (OSuicide c c))) = sum_eng T S dom (l_acc l) - energy_at T S (l_acc l c).
Proof.
  intros ND HI. cbn [apply_op]. destruct (suicide_totals T S l c c dom ND HI HI) as [A B]. rewrite A, B, Z.eqb_refl. split; reflexivity.
Qed.

(* accounts outside the touched set are not modified at all *)
Lemma upd_other s x v a : a <> x -> upd s x v a = s a.
Proof. intros H. unfold upd. destruct (a =? x) eqn:E; [apply Z.eqb_eq in E; contradiction|reflexivity]. Qed.

(* every primitive writes only at addresses it touches: whatever branch it takes, each upd is at another address *)
Lemma untouched_op T S l o a : ~ In a (touches o) -> l_acc (apply_op T S l o) a = l_acc l a.
Proof.
  intros H. destruct o; cbn [apply_op]; cbn in H;
    unfold transfer, energy_move, energy_add, energy_sub, suicide, distribute, add_balance, set_energy, set_acc;
    repeat match goal with |- context [if ?c then _ else _] => destruct c eqn:? end;
    cbn [l_acc fst snd]; rewrite ?upd_other by (intro; subst; tauto); reflexivity.
Qed.

(* ------------------------------------------------------------------ exact totals along ANY op list, self-destructs to self included *)
Lemma op_totals_exact T S l o dom : NoDup dom -> covers dom o ->
  sum_bal dom (l_acc (apply_op T S l o)) = sum_bal dom (l_acc l) - fst (burned T S l [o]) /\
  sum_eng T S dom (l_acc (apply_op T S l o)) = sum_eng T S dom (l_acc l) + energy_delta T S l o - snd (burned T S l [o]).
Proof.
  intros ND C. destruct (self_destruct_to_self o) eqn:SS.
  - destruct o; try discriminate. cbn in SS. apply Z.eqb_eq in SS. subst r.
    assert (In c dom) by (apply C; left; reflexivity).
    destruct (suicide_self_burns_lemma T S l c dom ND H) as [A B]. rewrite A, B.
    cbn [burned energy_delta]. rewrite Z.eqb_refl. cbn [fst snd]. split; lia.
  - destruct (op_totals T S l o dom ND C SS) as [A B]. rewrite A, B.
    destruct o; cbn [burned fst snd]; try (split; lia). cbn in SS. rewrite SS. cbn [fst snd]. split; lia.
Qed.

Lemma burned_cons T S l o t :
  burned T S l (o :: t) = (fst (burned T S l [o]) + fst (burned T S (apply_op T S l o) t),
                           snd (burned T S l [o]) + snd (burned T S (apply_op T S l o) t)).
Proof.
  cbn [burned]. destruct (burned T S (apply_op T S l o) t) as [b e]. cbn [fst snd].
  destruct o; try (cbn; f_equal; lia). destruct (c =? r); cbn [fst snd]; f_equal; lia.
Qed.

Lemma ops_totals_exact T S os : forall l dom, NoDup dom -> (forall o, In o os -> covers dom o) ->
  sum_bal dom (l_acc (apply_ops T S l os)) = sum_bal dom (l_acc l) - fst (burned T S l os) /\
  sum_eng T S dom (l_acc (apply_ops T S l os)) = sum_eng T S dom (l_acc l) + energy_delta_ops T S l os - snd (burned T S l os).
Proof.
  induction os as [|o t IH]; intros l dom ND H; [cbn; split; lia|].
  unfold apply_ops in *. cbn [fold_left energy_delta_ops]. rewrite burned_cons. cbn [fst snd].
  destruct (IH (apply_op T S l o) dom ND ltac:(intros; apply H; right; assumption)) as [A B].
  destruct (op_totals_exact T S l o dom ND (H o (or_introl eq_refl))) as [C D]. rewrite A, B, C, D. split; lia.
Qed.

Lemma clause_ops_no_delta T S os : forall l, (forall o, In o os -> clause_kind o = true) -> energy_delta_ops T S l os = 0.
Proof.
  induction os as [|o t IH]; intros l H; [reflexivity|]. cbn [energy_delta_ops].
  rewrite IH by (intros; apply H; right; assumption).
  pose proof (H o (or_introl eq_refl)) as K. destruct o; cbn in K; try discriminate; reflexivity.
Qed.

Lemma burned_none T S os : forall l, (forall o, In o os -> self_destruct_to_self o = false) -> burned T S l os = (0, 0).
Proof.
  induction os as [|o t IH]; intros l H; [reflexivity|]. cbn [burned].
  rewrite IH by (intros; apply H; right; assumption).
  pose proof (H o (or_introl eq_refl)) as K. destruct o; try reflexivity. cbn in K. rewrite K. reflexivity.
Qed.

(* without self-destructs to self: VET is conserved and VTHO changes by the deltas of the primitives *)
Lemma vet_conserved_ops T S os : forall l dom, NoDup dom ->
  (forall o, In o os -> covers dom o /\ self_destruct_to_self o = false) ->
  sum_bal dom (l_acc (apply_ops T S l os)) = sum_bal dom (l_acc l).
Proof.
  intros l dom ND H. destruct (ops_totals_exact T S os l dom ND (fun o Ho => proj1 (H o Ho))) as [A _].
  rewrite A, burned_none by (intros; apply H; assumption). cbn. lia.
Qed.

Lemma vtho_delta_ops T S os : forall l dom, NoDup dom ->
  (forall o, In o os -> covers dom o /\ self_destruct_to_self o = false) ->
  sum_eng T S dom (l_acc (apply_ops T S l os)) = sum_eng T S dom (l_acc l) + energy_delta_ops T S l os.
Proof.
  intros l dom ND H. destruct (ops_totals_exact T S os l dom ND (fun o Ho => proj1 (H o Ho))) as [_ B].
  rewrite B, burned_none by (intros; apply H; assumption). cbn. lia.
Qed.

Lemma untouched_ops T S os a : forall l, (forall o, In o os -> ~ In a (touches o)) -> l_acc (apply_ops T S l os) a = l_acc l a.
Proof.
  induction os as [|o t IH]; intros l H; [reflexivity|]. unfold apply_ops in *. cbn [fold_left].
  rewrite IH by (intros; apply H; right; assumption). apply untouched_op. apply H. left. reflexivity.
Qed.

(* a VET transfer leaves every account's energy at block time unchanged (both sides are settled at T first) *)
Lemma transfer_energy_at T S l s r amt a :
  energy_at T S (l_acc (transfer T S l s r amt) a) = energy_at T S (l_acc l a).
Proof.
  unfold transfer. destruct (amt =? 0); [reflexivity|].
  unfold add_balance, set_energy, set_acc, get_energy; cbn [l_acc].
  destruct (Z.eq_dec a r) as [Er|Nr]; destruct (Z.eq_dec a s) as [Es|Ns]; subst.
  1: { unfold upd. rewrite !Z.eqb_refl. cbn [a_bal a_eng a_bt]. rewrite energy_at_settled. reflexivity. }
  3: { rewrite !upd_other by assumption. reflexivity. }
  (* the recipient alone, the sender alone: settled at T *)
  all: assert (E : (s =? r) = false) by (apply Z.eqb_neq; auto); assert (E' : (r =? s) = false) by (apply Z.eqb_neq; auto);
    unfold upd; rewrite !Z.eqb_refl, ?E, ?E'; cbn [a_bal a_eng a_bt]; rewrite ?Z.eqb_refl, ?E, ?E'; cbn [a_bal a_eng a_bt];
    rewrite energy_at_settled; reflexivity.
Qed.

(* ops that, as far as the addresses of dom are concerned, are only VET transfers: the energy total over dom is unchanged *)
Definition energy_quiet (dom : list Z) (o : op) : Prop :=
  (exists s r amt, o = OTransfer s r amt) \/ (forall a, In a (touches o) -> ~ In a dom).

Lemma energy_quiet_ops T S dom os : forall l, (forall o, In o os -> energy_quiet dom o) ->
  sum_eng T S dom (l_acc (apply_ops T S l os)) = sum_eng T S dom (l_acc l).
Proof.
  induction os as [|o t IH]; intros l H; [reflexivity|]. unfold apply_ops in *. cbn [fold_left].
  rewrite IH by (intros; apply H; right; assumption).
  destruct (H o (or_introl eq_refl)) as [[s [r [amt ->]]]|AV]; unfold sum_eng.
  - apply sumf_ext_f. intros a _. cbn [apply_op]. apply transfer_energy_at.
  - apply sumf_ext. intros a Ha. apply untouched_op. intros C. exact (AV a C Ha).
Qed.
