(* Store/ProofsTie.v — the executable checks the correspondence harness runs on the recorded writes of the real code mean
   what they are used for: link_check = 0 on the entries of a commit is the link condition of Store/ProofsPrune.v
   (the premise under which a canonical commit preserves the chain invariant), and prune_round is the round of the
   History theorems. *)
From Coq Require Import List NArith Bool Arith Lia.
From Verif Require Import Trie.Model Store.Model Store.Proofs Store.ProofsCommit Store.ProofsReach Store.ProofsPrune.
Import ListNotations.

Section PT.
  Variable V : Type.
  Variable veqb : V -> V -> bool.
  Hypothesis veqb_eq : forall a b, veqb a b = true -> a = b.
  Notation snode := (snode V).
  Notation store := (store V).

  Lemma snode_eqb_eq : forall a b : snode, snode_eqb V veqb a b = true -> a = b.
  Proof.
    fix IH 1. intros a b. destruct a as [|x|k c|cs|v], b as [|y|k' c'|cs'|v']; cbn; try discriminate; intros H.
    - reflexivity.
    - f_equal. apply veqb_eq; auto.
    - apply andb_true_iff in H. destruct H as [Hk Hc]. apply path_eqb_eq in Hk. f_equal; auto.
    - f_equal. revert cs' H. induction cs as [|c cs IHcs]; intros [|c' cs'] H; try discriminate; auto.
      apply andb_true_iff in H. destruct H as [Hc Ht]. f_equal; auto.
    - f_equal. apply ver_eqb_eq; auto.
  Qed.

  Lemma wfk_b_wfk : wfk_b V = wfk V.
  Proof. reflexivity. Qed.

  Lemma blob_ok_b_ok b : blob_ok_b V b = true -> blob_ok V b.
  Proof.
    unfold blob_ok_b, blob_ok. rewrite wfk_b_wfk. destruct b; try discriminate; intros H; (split; [exact I|exact H]).
  Qed.

  Lemma elookup_lookup q (es : list (list nat * snode)) : elookup V q es = lookup V q es.
  Proof. reflexivity. Qed.

  Lemma node_mem_In x l : node_mem V veqb x l = true -> In x l.
  Proof.
    unfold node_mem. rewrite existsb_exists. intros [y [I H]].
    apply andb_true_iff in H. destruct H as [H Hb]. apply andb_true_iff in H. destruct H as [Hp Hv].
    apply path_eqb_eq in Hp. apply ver_eqb_eq in Hv. apply snode_eqb_eq in Hb.
    destruct x as [[q w] b], y as [[q' w'] b']. cbn in *. subst. exact I.
  Qed.

  (* with no filter the iterator's report is what the resolution follows *)
  Lemma Reach_ReachMin_zero g p n q w b : Reach V g p n q w b -> ReachMin V g (0, 0)%N p n q w b.
  Proof. intros R. apply Reach_ReachMin_when; auto; intros; apply ver_ltb_base, N.le_0_l. Qed.

  Lemma reach_list_spec f (s : store) name v l : reach_list V f s name v = Some l ->
    forall q w b, In (q, w, b) l <-> RR V (sget V s name) v q w b.
  Proof.
    intros H q w b. unfold reach_list in H. rewrite (iter_nodes_spec V _ _ _ _ _ _ H). unfold RR. split.
    - intros R. apply ReachMin_Reach in R. tauto.
    - apply Reach_ReachMin_zero.
  Qed.

  (* link_check = 0 on the recorded entries of a commit: the link condition towards the given parent root *)
  Theorem link_check_sound f (s : store) name newv es parent :
    link_check V veqb f s name newv es parent = 0%N ->
    (forall q w b, RR V (sget V (commit V s name newv es) name) newv q w b ->
       (w = newv /\ lookup V q es = Some b /\ blob_ok V b) \/
       (w <> newv /\ match parent with Some vp => RR V (sget V s name) vp q w b | None => False end)) /\
    (forall q b, In (q, b) es -> RR V (sget V (commit V s name newv es) name) newv q newv b).
  Proof.
    unfold link_check.
    destruct (reach_list V f (commit V s name newv es) name newv) as [new|] eqn:En; [|discriminate].
    destruct (match parent with Some vp => reach_list V f s name vp | None => Some [] end) as [old|] eqn:Eo; [|discriminate].
    destruct (forallb _ new) eqn:F1; cbn [negb]; [|discriminate].
    destruct (forallb _ es) eqn:F2; cbn [negb]; [|discriminate].
    destruct (forallb (fun e => blob_ok_b V (snd e)) es) eqn:F3; cbn [negb]; [|discriminate].
    intros _. rewrite forallb_forall in F1, F2, F3. split.
    - intros q w b R. apply (reach_list_spec _ _ _ _ _ En) in R. specialize (F1 _ R). cbn [fst snd] in F1.
      destruct (ver_eqb w newv) eqn:Ev.
      + apply ver_eqb_eq in Ev. left. split; auto.
        destruct (elookup V q es) as [b'|] eqn:El; [|discriminate]. apply snode_eqb_eq in F1. subst b'.
        rewrite elookup_lookup in El. split; auto.
        apply blob_ok_b_ok. apply (F3 (q, b)).
        clear - El. induction es as [|[p x] es IH]; cbn in El; [discriminate|].
        destruct (path_eqb q p) eqn:E; [|right; auto]. inversion El; subst. apply path_eqb_eq in E. subst. left; auto.
      + right. split; [intros ->; rewrite ver_eqb_refl in Ev; discriminate|].
        apply node_mem_In in F1. destruct parent as [vp|].
        * apply (reach_list_spec _ _ _ _ _ Eo). exact F1.
        * inversion Eo; subst. destruct F1.
    - intros q b I. specialize (F2 _ I). cbn [fst snd] in F2. apply node_mem_In in F2.
      apply (reach_list_spec _ _ _ _ _ En). exact F2.
  Qed.

  (* hence a checked commit on top of a state satisfying the invariant keeps it (Inv_canonical_commit), once the new root
     resolves — which open_root on the model store decides *)
  Corollary checked_commit_keeps_invariant f (s : store) name chain P newv es t :
    Inv V s name chain P -> hist_fresh V s name newv -> (P <= fst newv)%N ->
    match chain with [] => True | vt :: _ => (fst (fst vt) < fst newv)%N end ->
    link_check V veqb f s name newv es (match chain with [] => None | vt :: _ => Some (fst vt) end) = 0%N ->
    Res V (sget V (commit V s name newv es) name) [] (SRef newv) t ->
    Inv V (commit V s name newv es) name ((newv, t) :: chain) P.
  Proof.
    intros HI Hfr HP Hlt Hlc HR. apply Inv_canonical_commit; auto.
    destruct (link_check_sound f s name newv es _ Hlc) as [H _].
    intros q w b R. destruct (H q w b R) as [X|[Hn X]]; [left; exact X|right].
    split; auto. destruct chain; auto.
  Qed.

  (* the round the harness asks the model for is the round of the History theorems *)
  Lemma prune_round_is_prune f (s : store) tries base target s' cps :
    prune_round V f s tries base target = Some (s', cps) ->
    s' = prune V s cps base target /\
    (forall name nodes, In (name, nodes) cps -> exists v, In (name, v) tries /\ checkpoint_nodes V f s name v base = Some nodes).
  Proof.
    unfold prune_round. destruct (checkpoint_all V f s tries base) as [cps0|] eqn:E; [|discriminate].
    intros H. inversion H as [[Hs Hc]]. subst cps0 s'. split; [reflexivity|]. clear H.
    revert cps E. induction tries as [|[nm v] tries IH]; intros cps E; cbn in E.
    - inversion E; subst. intros name nodes [].
    - destruct (checkpoint_nodes V f s nm v base) as [nd|] eqn:En; [|discriminate].
      destruct (checkpoint_all V f s tries base) as [r|] eqn:Er; [|discriminate].
      inversion E; subst. intros name nodes [I|I].
      + inversion I; subst. exists v. split; [left; auto|auto].
      + destruct (IH r eq_refl name nodes I) as [v' [I' Hc]]. exists v'. split; [right; auto|auto].
  Qed.
End PT.
