(* Codec/ProofsRLP.v — big-endian integers and the Stream.Kind header parser: exact characterisation
   (shead b = Some (k,c,r)  <->  b = enc_head k c ++ c ++ r  and the header is admissible). *)
From Coq Require Import List NArith ZArith Bool Lia.
From Coq Require Import ZifyN ZifyNat ZifyBool.
From Verif Require Import Codec.Model.
Import ListNotations.
Open Scope N_scope.
(* lia sees N.div / N.modulo through their equations; the hook is global, every file that imports this one has it *)
Ltac Zify.zify_post_hook ::= Z.div_mod_to_equations.

Lemma lenN_app {A} (a b : list A) : lenN (a ++ b) = lenN a + lenN b.
Proof. unfold lenN. rewrite app_length. lia. Qed.
Lemma lenN_cons {A} (x : A) l : lenN (x :: l) = 1 + lenN l.
Proof. unfold lenN. cbn [length]. lia. Qed.
Lemma lenN_nil {A} : lenN (@nil A) = 0.
Proof. reflexivity. Qed.
Lemma lenN_zero {A} (l : list A) : lenN l = 0 -> l = [].
Proof. destruct l; [reflexivity|]. rewrite lenN_cons. lia. Qed.

Lemma firstn_lenN_app {A} (a b : list A) : firstn (N.to_nat (lenN a)) (a ++ b) = a.
Proof. unfold lenN. rewrite Nat2N.id. rewrite firstn_app, Nat.sub_diag, firstn_all. cbn. apply app_nil_r. Qed.
Lemma skipn_lenN_app {A} (a b : list A) : skipn (N.to_nat (lenN a)) (a ++ b) = b.
Proof. unfold lenN. rewrite Nat2N.id. rewrite skipn_app, Nat.sub_diag, skipn_all. reflexivity. Qed.
Lemma firstn_lenN {A} (n : N) (t : list A) : n <= lenN t -> lenN (firstn (N.to_nat n) t) = n.
Proof. unfold lenN. intros H. rewrite firstn_length. lia. Qed.

Fixpoint last0 (l : bytes) : bool := match l with [] => false | x :: t => match t with [] => x =? 0 | _ => last0 t end end.

Lemma last0_cons x l : l <> [] -> last0 (x :: l) = last0 l.
Proof. destruct l; [congruence|reflexivity]. Qed.
Lemma last0_app_single l x : last0 (l ++ [x]) = (x =? 0).
Proof.
  induction l as [|y l IH]; [reflexivity|]. cbn [app]. rewrite last0_cons; [exact IH|]. destruct l; discriminate.
Qed.
Lemma head0_rev l : head0 (rev l) = last0 l.
Proof.
  destruct l as [|x l] using rev_ind; [reflexivity|]. rewrite rev_app_distr, last0_app_single. reflexivity.
Qed.

Lemma le_fuel_val f : forall n, n < 2 ^ N.of_nat f -> le_val (le_fuel f n) = n.
Proof.
  induction f as [|f IH]; intros n H.
  - cbn in H. cbn. lia.
  - cbn [le_fuel]. destruct (n =? 0) eqn:E.
    + cbn. lia.
    + cbn [le_val]. rewrite IH.
      * lia.
      * rewrite Nat2N.inj_succ, N.pow_succ_r' in H.
        assert (n / 256 <= n / 2) by (apply N.div_le_compat_l; lia).
        assert (n / 2 < 2 ^ N.of_nat f) by (apply N.div_lt_upper_bound; lia).
        lia.
Qed.

Lemma le_val_le_bytes n : le_val (le_bytes n) = n.
Proof. unfold le_bytes. apply le_fuel_val. rewrite N2Nat.id. apply N.size_gt. Qed.

Lemma le_fuel_ok f : forall n, bytes_okb (le_fuel f n) = true.
Proof.
  induction f as [|f IH]; intros n; cbn [le_fuel]; [reflexivity|].
  destruct (n =? 0); [reflexivity|]. cbn [bytes_okb forallb]. fold (bytes_okb (le_fuel f (n / 256))). rewrite IH.
  assert (n mod 256 < 256) by (apply N.mod_lt; lia). destruct (n mod 256 <? 256) eqn:E; [reflexivity|lia].
Qed.

Lemma le_fuel_zero f : le_fuel f 0 = [].
Proof. destruct f; reflexivity. Qed.

Lemma le_fuel_last0 f : forall n, n < 2 ^ N.of_nat f -> last0 (le_fuel f n) = false.
Proof.
  induction f as [|f IH]; intros n H; cbn [le_fuel]; [reflexivity|].
  destruct (n =? 0) eqn:E; [reflexivity|].
  assert (Hd : n / 256 < 2 ^ N.of_nat f).
  { rewrite Nat2N.inj_succ, N.pow_succ_r' in H.
    assert (n / 256 <= n / 2) by (apply N.div_le_compat_l; lia).
    assert (n / 2 < 2 ^ N.of_nat f) by (apply N.div_lt_upper_bound; lia). lia. }
  destruct (n / 256 =? 0) eqn:E2.
  - replace (n / 256) with 0 by lia. rewrite le_fuel_zero. cbn. lia.
  - rewrite last0_cons; [apply IH; exact Hd|].
    destruct f; [cbn in Hd; lia|]. cbn [le_fuel]. rewrite E2. discriminate.
Qed.

Lemma all_zero_last0 l : l <> [] -> bytes_okb l = true -> le_val l = 0 -> last0 l = true.
Proof.
  induction l as [|x l IH]; intros Hne Hok Hv; [congruence|].
  cbn [le_val] in Hv. cbn [bytes_okb forallb] in Hok. apply andb_prop in Hok. destruct Hok as [_ Hok].
  destruct l as [|y l'].
  - cbn in *. lia.
  - rewrite last0_cons by discriminate. apply IH; [discriminate|exact Hok|lia].
Qed.

(* uniqueness: a valid little-endian digit string whose last digit is non-zero is what le_fuel produces *)
Lemma le_fuel_unique f : forall l, bytes_okb l = true -> last0 l = false -> le_val l < 2 ^ N.of_nat f ->
  le_fuel f (le_val l) = l.
Proof.
  induction f as [|f IH]; intros l Hok Hl Hlt.
  - cbn in Hlt. destruct l as [|x l]; [reflexivity|]. exfalso.
    rewrite all_zero_last0 in Hl; [discriminate|discriminate|exact Hok|lia].
  - destruct l as [|x l]; [reflexivity|].
    pose proof Hok as Hok0.
    cbn [bytes_okb forallb] in Hok. apply andb_prop in Hok. destruct Hok as [Hx Hok]. fold (bytes_okb l) in Hok.
    assert (Hx' : x < 256) by lia.
    cbn [le_val]. cbn [le_fuel].
    assert (Hnz : x + 256 * le_val l <> 0).
    { intro Hz. rewrite all_zero_last0 in Hl; [discriminate|discriminate|exact Hok0|exact Hz]. }
    destruct (x + 256 * le_val l =? 0) eqn:E; [lia|].
    replace ((x + 256 * le_val l) mod 256) with x by lia.
    replace ((x + 256 * le_val l) / 256) with (le_val l) by lia.
    f_equal. destruct l as [|y l'].
    + cbn. apply le_fuel_zero.
    + apply IH; [exact Hok| |].
      * rewrite last0_cons in Hl by discriminate. exact Hl.
      * cbn [le_val] in Hlt. rewrite Nat2N.inj_succ, N.pow_succ_r' in Hlt. cbn [le_val]. lia.
Qed.

Lemma bytes_okb_app a b : bytes_okb (a ++ b) = bytes_okb a && bytes_okb b.
Proof. apply forallb_app. Qed.
Lemma bytes_okb_rev l : bytes_okb (rev l) = bytes_okb l.
Proof.
  induction l as [|x l IH]; [reflexivity|]. cbn [rev]. rewrite bytes_okb_app, IH. cbn. rewrite andb_true_r. apply andb_comm.
Qed.

Lemma be_val_be_bytes n : be_val (be_bytes n) = n.
Proof. unfold be_val, be_bytes. rewrite rev_involutive. apply le_val_le_bytes. Qed.

Lemma be_bytes_canon n : canon_int (be_bytes n) = true.
Proof.
  unfold canon_int, be_bytes, le_bytes. rewrite bytes_okb_rev, le_fuel_ok, head0_rev, le_fuel_last0; [reflexivity|].
  rewrite N2Nat.id. apply N.size_gt.
Qed.

Lemma canon_int_rev l : canon_int l = true -> bytes_okb (rev l) = true /\ last0 (rev l) = false.
Proof.
  unfold canon_int. intros H. apply andb_prop in H. destruct H as [H1 H2].
  rewrite bytes_okb_rev. split; [exact H1|]. rewrite <- head0_rev, rev_involutive. destruct (head0 l); [discriminate|reflexivity].
Qed.

Lemma be_bytes_be_val l : canon_int l = true -> be_bytes (be_val l) = l.
Proof.
  intros H. apply canon_int_rev in H. destruct H as [H1 H2].
  unfold be_bytes, be_val, le_bytes. rewrite le_fuel_unique; [apply rev_involutive|exact H1|exact H2|].
  rewrite N2Nat.id. apply N.size_gt.
Qed.

(* lengths: at most k bytes <-> below 256^k *)
Lemma le_val_bound l : bytes_okb l = true -> le_val l < 256 ^ lenN l.
Proof.
  induction l as [|x l IH]; intros Hok; [cbn; lia|].
  cbn [bytes_okb forallb] in Hok. apply andb_prop in Hok. destruct Hok as [Hx Hok].
  rewrite lenN_cons. replace (1 + lenN l) with (N.succ (lenN l)) by lia. rewrite N.pow_succ_r'. cbn [le_val].
  specialize (IH Hok). lia.
Qed.
Lemma rev_lenN {A} (l : list A) : lenN (rev l) = lenN l.
Proof. unfold lenN. rewrite rev_length. reflexivity. Qed.
Lemma be_val_bound l : bytes_okb l = true -> be_val l < 256 ^ lenN l.
Proof. intros H. unfold be_val. rewrite <- (rev_lenN l). apply le_val_bound. rewrite bytes_okb_rev. exact H. Qed.

Lemma le_val_lower l : l <> [] -> bytes_okb l = true -> last0 l = false -> 256 ^ (lenN l - 1) <= le_val l.
Proof.
  induction l as [|x l IH]; intros Hne Hok Hl; [congruence|].
  cbn [bytes_okb forallb] in Hok. apply andb_prop in Hok. destruct Hok as [Hx Hok].
  destruct l as [|y l'].
  - cbn in *. lia.
  - rewrite last0_cons in Hl by discriminate. specialize (IH ltac:(discriminate) Hok Hl).
    rewrite lenN_cons. replace (1 + lenN (y :: l') - 1) with (N.succ (lenN (y :: l') - 1)) by (rewrite lenN_cons; lia).
    rewrite N.pow_succ_r'. cbn [le_val] in *. lia.
Qed.
Lemma be_bytes_len n k : n < 256 ^ k -> lenN (be_bytes n) <= k.
Proof.
  intros H. pose proof (be_bytes_canon n) as Hc. apply canon_int_rev in Hc. destruct Hc as [H1 H2].
  destruct (be_bytes n) as [|x t] eqn:E; [rewrite lenN_nil; lia|].
  assert (Hne : rev (x :: t) <> []) by (intro Hr; apply (f_equal (@rev N)) in Hr; rewrite rev_involutive in Hr; discriminate).
  pose proof (le_val_lower _ Hne H1 H2) as Hlow.
  assert (Hv : le_val (rev (x :: t)) = n) by (rewrite <- E; apply be_val_be_bytes).
  rewrite Hv, rev_lenN in Hlow.
  destruct (N.le_gt_cases (lenN (x :: t)) k) as [|Hgt]; [assumption|exfalso].
  assert (256 ^ k <= 256 ^ (lenN (x :: t) - 1)) by (apply N.pow_le_mono_r; lia). lia.
Qed.
Lemma be_bytes_nonempty n : 0 < n -> be_bytes n <> [].
Proof. intros H E. pose proof (be_val_be_bytes n) as Hv. rewrite E in Hv. cbn in Hv. lia. Qed.

Definition two64 : N := 18446744073709551616.
Definition hok (k : kind) (c : bytes) : Prop :=
  match k with KByte => exists x, c = [x] /\ x < 128 | _ => lenN c < two64 end.

Lemma carve_some k n t k' c r : carve k n t = Some (k', c, r) -> k' = k /\ t = c ++ r /\ lenN c = n.
Proof.
  unfold carve. destruct (n <=? lenN t) eqn:E; [|discriminate]. intros H. inversion H; subst. clear H.
  split; [reflexivity|]. split; [symmetry; apply firstn_skipn|]. apply firstn_lenN. lia.
Qed.
Lemma carve_app k (c r : bytes) : carve k (lenN c) (c ++ r) = Some (k, c, r).
Proof.
  unfold carve. rewrite lenN_app. destruct (lenN c <=? lenN c + lenN r) eqn:E; [|lia].
  rewrite firstn_lenN_app, skipn_lenN_app. reflexivity.
Qed.

Lemma long_size_some ll t n t' : long_size ll t = Some (n, t') ->
  exists lb, t = lb ++ t' /\ lenN lb = ll /\ canon_int lb = true /\ 56 <= n /\ n = be_val lb.
Proof.
  unfold long_size. destruct (ll <=? lenN t) eqn:E; [|discriminate].
  destruct (canon_int (firstn (N.to_nat ll) t) && (56 <=? be_val (firstn (N.to_nat ll) t))) eqn:E2; [|discriminate].
  intros H. inversion H; subst. clear H. apply andb_prop in E2. destruct E2 as [Hc H56].
  exists (firstn (N.to_nat ll) t). repeat split; try assumption; try lia.
  - symmetry. apply firstn_skipn.
  - apply firstn_lenN. lia.
Qed.
Lemma long_size_app lb t' : canon_int lb = true -> 56 <= be_val lb ->
  long_size (lenN lb) (lb ++ t') = Some (be_val lb, t').
Proof.
  intros Hc H56. unfold long_size. rewrite lenN_app. destruct (lenN lb <=? lenN lb + lenN t') eqn:E; [|lia].
  rewrite firstn_lenN_app, skipn_lenN_app, Hc. destruct (56 <=? be_val lb) eqn:E2; [reflexivity|lia].
Qed.

Lemma pow256_8 : 256 ^ 8 = two64. Proof. reflexivity. Qed.

Lemma enc_len_long base lb : canon_int lb = true -> 56 <= be_val lb -> enc_len base (be_val lb) = (base + 55 + lenN lb) :: lb.
Proof.
  intros Hc H. unfold enc_len. destruct (be_val lb <? 56) eqn:E; [lia|]. cbv zeta. rewrite be_bytes_be_val by exact Hc. reflexivity.
Qed.

Lemma canon_bound lb : canon_int lb = true -> lenN lb <= 8 -> be_val lb < two64.
Proof.
  intros Hc Hl. unfold canon_int in Hc. apply andb_prop in Hc. destruct Hc as [Hok _].
  pose proof (be_val_bound lb Hok). rewrite <- pow256_8.
  assert (256 ^ lenN lb <= 256 ^ 8) by (apply N.pow_le_mono_r; lia). lia.
Qed.

Theorem shead_sound b k c r : shead b = Some (k, c, r) -> b = enc_head k c ++ c ++ r /\ hok k c.
Proof.
  destruct b as [|x t]; [discriminate|]. cbn [shead].
  destruct (x <? 128) eqn:E1.
  { intros H. inversion H; subst. split; [reflexivity|]. exists x. split; [reflexivity|lia]. }
  (* strings and lists alike: a short header carries the length, a long one the length of the length *)
  destruct (x <? 184) eqn:E2; [|destruct (x <? 192) eqn:E3; [|destruct (x <? 248) eqn:E4; [|destruct (x <? 256) eqn:E5; [|discriminate]]]].
  1,3: intros H; apply carve_some in H; destruct H as [-> [-> Hl]]; cbn [enc_head hok]; unfold enc_len;
    (destruct (lenN c <? 56) eqn:E; [|lia]); (split; [|unfold two64; lia]); cbn [app]; f_equal; lia.
  all: destruct (long_size _ t) as [[n t']|] eqn:L; [|discriminate]; intros H; apply carve_some in H; destruct H as [-> [-> Hl]];
    apply long_size_some in L; destruct L as [lb [-> [Hll [Hc [H56 Hn]]]]]; cbn [enc_head hok];
    rewrite Hl, Hn, enc_len_long by (try assumption; lia);
    (split; [cbn [app]; f_equal; lia|apply canon_bound; [exact Hc|lia]]).
Qed.

(* decide every test of the goal, dropping the impossible outcomes *)
Ltac brk := repeat (match goal with |- context [if ?c then _ else _] => let E := fresh "E" in destruct c eqn:E; try lia end).

Lemma len_bytes_facts n : 56 <= n < two64 ->
  canon_int (be_bytes n) = true /\ be_val (be_bytes n) = n /\ 1 <= lenN (be_bytes n) <= 8.
Proof.
  intros H. split; [apply be_bytes_canon|]. split; [apply be_val_be_bytes|]. split; [|apply be_bytes_len; rewrite pow256_8; lia].
  destruct (be_bytes n) eqn:El; [|rewrite lenN_cons; lia]. exfalso. apply (be_bytes_nonempty n); [lia|exact El].
Qed.

Lemma shead_enc_len (k : kind) base (c r : bytes) :
  (k = KStr /\ base = 128 \/ k = KList /\ base = 192) -> lenN c < two64 ->
  shead (enc_len base (lenN c) ++ c ++ r) = Some (k, c, r).
Proof.
  intros Hk Hlt. unfold enc_len. destruct (lenN c <? 56) eqn:E.
  - cbn [app shead]. destruct Hk as [[-> ->]|[-> ->]]; brk; rewrite (N.add_comm _ (lenN c)), N.add_sub; apply carve_app.
  - cbv zeta. destruct (len_bytes_facts (lenN c)) as (Hc & Hv & Hl1 & Hl8); [lia|]. set (lb := be_bytes (lenN c)) in *.
    cbn [app shead]. destruct Hk as [[-> ->]|[-> ->]]; brk;
      match goal with |- context [long_size ?n] => replace n with (lenN lb) by lia end;
      rewrite long_size_app by (try assumption; lia); rewrite Hv; apply carve_app.
Qed.

Theorem shead_complete k c r : hok k c -> shead (enc_head k c ++ c ++ r) = Some (k, c, r).
Proof.
  destruct k; cbn [hok enc_head].
  - intros [x [-> Hx]]. cbn [app shead]. destruct (x <? 128) eqn:E; [reflexivity|lia].
  - intros H. apply shead_enc_len; [left; tauto|exact H].
  - intros H. apply shead_enc_len; [right; tauto|exact H].
Qed.

(* extending the input after a parsed value does not change the parse *)
Lemma shead_app b k c r r' : shead b = Some (k, c, r) -> shead (b ++ r') = Some (k, c, r ++ r').
Proof.
  intros H. apply shead_sound in H. destruct H as [-> Hk]. rewrite <- !app_assoc. apply shead_complete. exact Hk.
Qed.

Lemma enc_len_first base n : exists h t, enc_len base n = h :: t /\ base <= h.
Proof. unfold enc_len. destruct (n <? 56); eexists _, _; (split; [reflexivity|lia]). Qed.
Lemma enc_head_nonempty k c : k <> KByte -> enc_head k c <> [].
Proof. destruct k; [congruence| |]; intros _; cbn [enc_head]; unfold enc_len; destruct (lenN c <? 56); discriminate. Qed.
Lemma shead_consumes b k c r : shead b = Some (k, c, r) -> (length r < length b)%nat.
Proof.
  intros H. apply shead_sound in H. destruct H as [-> Hk]. rewrite !app_length.
  destruct k.
  - destruct Hk as [x [-> _]]. cbn. lia.
  - pose proof (enc_head_nonempty KStr c ltac:(discriminate)). destruct (enc_head KStr c); [congruence|]. cbn. lia.
  - pose proof (enc_head_nonempty KList c ltac:(discriminate)). destruct (enc_head KList c); [congruence|]. cbn. lia.
Qed.
