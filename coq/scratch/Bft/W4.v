From Coq Require Import List NArith Bool Lia.
From Verif Require Import Common.Util Bft.Tree Bft.Model Bft.Quorum Bft.Safety Bft.ProofsWitness Bft.ProofsChain Bft.ProofsLive Bft.ProofsSuffix Bft.ProofsRun Bft.ProofsSync.
Import ListNotations.
Open Scope N_scope.
Definition lb (k : N) : blk := mkB (mkid k 1) (mkid (k - 1) 1) (k mod 4 + 1) (3 <? k) k.
Definition live_ps : list (nat * blk) := map (fun k => (N.to_nat (k mod 4), lb k)) [1;2;3;4;5;6;7;8;9;10;11].
Definition live_evs := sync_run 4 live_ps.
Definition live_w := map (init_node gen) [1;2;3;4].
Time Eval vm_compute in valid_run_b true cfg4 [] live_w [gen] live_evs.
Time Eval vm_compute in (map (fun nd => (n_best nd, e_fin (n_eng nd))) (world_after cfg4 live_w live_evs), b_id (lb 4)).
Definition ltree := seen_after [gen] live_evs.
Time Eval vm_compute in (known ltree (b_parent gen), thr_votes cfg4 <? N.of_nat (length (signers (snd (epoch_info cfg4 ltree)))),
  thr_votes cfg4 <? N.of_nat (length (signers (snd (epoch_info cfg4 (suffix_at 7 ltree))))), quality_pure cfg4 (suffix_at 3 ltree)).
