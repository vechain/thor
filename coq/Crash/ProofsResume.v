(* Crash/ProofsResume.v — the resume clause of C13: the statement, its refutation for the code before the F6 repair
   (restart without re-committing the interrupted store-point head), the checked sweeps over the example history with and
   without the repair (import_of_cut_spec, same_outcome_eqvi, nothing_pending are their general part), and further facts of
   the example that C13.v cites (ex_finalized_moves, ex_inv3, ex_orphan, ex_inv4). *)
From Coq Require Import List NArith Bool Lia.
From Verif Require Import Crash.Model Crash.ProofsStore Crash.ProofsInv Crash.ProofsImport Crash.ProofsCrash Crash.Examples
  Crash.ProofsEqv Crash.ProofsShape Crash.ProofsResumeAll Crash.ProofsOrphans.
Import ListNotations.
Open Scope N_scope.

(* "resuming the same block stream leads to the same best block and vote tallies as if no crash had happened" *)
Definition resume_converges_statement (rep : bool) : Prop :=
  forall c s0 hist k i, wf_cfg c -> Inv c s0 -> wf_hist c s0 hist -> cut_in_import c s0 hist k i ->
  exists s', resume c rep (crash c s0 hist k) (skipn i hist) = Some s' /\
             get_id s' KBest = get_id (run c s0 hist) KBest /\
             tallies c s' = tallies c (run c s0 hist).

(* the witness: the example history cut after the block bulk of block 3 (which closes the second epoch) and before its
   quality record: 4 writes for block 1, 3 for block 2, account + index + bulk of block 3 *)
Definition f6_cut : nat := 10.

Lemma f6_cut_position :
  cut_in_import ex_cfg ex_s0 ex_hist f6_cut 2 /\
  stored (crash ex_cfg ex_s0 ex_hist f6_cut) (bid 3 3) = true /\
  has (crash ex_cfg ex_s0 ex_hist f6_cut) (KQuality (bid 3 3)) = false /\
  has (crash ex_cfg ex_s0 ex_hist (S f6_cut)) (KQuality (bid 3 3)) = true.
Proof. unfold cut_in_import. rewrite !offset_blocks, !crash_blocks, ex_blocks_eq. vm_compute. repeat split; auto; lia. Qed.

Lemma f6_resumed_tallies :
  option_map (fun s => map snd (tallies ex_cfg s)) (resume ex_cfg false (crash ex_cfg ex_s0 ex_hist f6_cut) (skipn 2 ex_hist))
    = Some [2; 1; 0; 1] /\
  map snd (tallies ex_cfg (run ex_cfg ex_s0 ex_hist)) = [4; 3; 2; 1].
Proof. rewrite crash_blocks, run_blocks, ex_blocks_eq. vm_compute. auto. Qed.

(* before the repair the statement is false: store-point qualities 1 0 1 2 instead of 1 2 3 4 *)
Theorem resume_quality_refuted : ~ resume_converges_statement false.
Proof.
  intro H.
  destruct (H ex_cfg ex_s0 ex_hist f6_cut 2%nat ex_wf_cfg ex_inv0 ex_wf_hist (proj1 f6_cut_position)) as (s' & Hr & _ & Ht).
  destruct f6_resumed_tallies as [A B]. rewrite Hr in A. simpl in A. inversion A as [A'].
  rewrite Ht, B in A'. discriminate.
Qed.

(* with the repair: at EVERY cut position of the example history (all 26 prefixes of its 25 writes) the resumed node ends
   with the same best block, the same tallies and the same finalized block *)
Definition same_outcome (c : cfg) (with_fin : bool) (a b : store) : bool :=
  match get_id a KBest, get_id b KBest with
  | Some x, Some y => (x =? y) && (negb with_fin || (finalized c a =? finalized c b))
                      && forallb (fun p => (fst (fst p) =? fst (snd p)) && (snd (fst p) =? snd (snd p))) (combine (tallies c a) (tallies c b))
                      && Nat.eqb (length (tallies c a)) (length (tallies c b))
  | _, _ => false
  end.

Definition import_of_cut (c : cfg) (s : store) (l : list blk) (k : nat) : nat :=
  length (filter (fun i => Nat.leb (offset c s l (S i)) k) (seq 0 (length l))).

(* import_of_cut names the import a cut falls in: the offsets do not decrease, so the imports that end at or before
   the cut are an initial segment and their number is the first one that does not *)
Lemma filter_seq_prefix (p : nat -> bool) n : (forall i, p (S i) = true -> p i = true) ->
  let m := length (filter p (seq 0 n)) in
  (m <= n)%nat /\ (forall i, (i < m)%nat -> p i = true) /\ ((m < n)%nat -> p m = false).
Proof.
  intros Hp. cbv zeta. induction n as [|n (IH0 & IH1 & IH2)]; [cbn; repeat split; intros; lia|].
  rewrite seq_S, filter_app, app_length. cbn [plus filter]. destruct (p n) eqn:En; cbn [length].
  - (* p holds at n, hence everywhere below, and nothing was filtered out *)
    assert (Hall : forall i, (i <= n)%nat -> p i = true).
    { clear IH0 IH1 IH2. induction n as [|n IH]; intros i Hi; [replace i with 0%nat by lia; exact En|].
      destruct (PeanoNat.Nat.eq_dec i (S n)) as [->|]; [exact En | apply IH; [apply Hp, En | lia]]. }
    assert (length (filter p (seq 0 n)) = n).
    { destruct (PeanoNat.Nat.eq_dec (length (filter p (seq 0 n))) n) as [E|E]; [exact E|].
      assert (F : p (length (filter p (seq 0 n))) = false) by (apply IH2; lia).
      rewrite Hall in F by lia. discriminate F. }
    repeat split; intros; [|apply Hall|]; lia.
  - rewrite PeanoNat.Nat.add_0_r. split; [lia|]. split; [exact IH1|]. intros Hm.
    destruct (PeanoNat.Nat.eq_dec (length (filter p (seq 0 n))) n) as [->|Hne]; [exact En | apply IH2; lia].
Qed.

Lemma offset_S_le c s l i : (offset c s l i <= offset c s l (S i))%nat.
Proof.
  rewrite !offset_blocks. generalize (block_writes c s l). clear. intros B. revert i.
  induction B as [|w B IH]; intros [|i]; cbn [firstn concat]; rewrite ?app_length; try lia.
  specialize (IH i). cbn [firstn concat] in IH. lia.
Qed.

Lemma import_of_cut_spec c s l k : cut_in_import c s l k (import_of_cut c s l k).
Proof.
  unfold import_of_cut, cut_in_import.
  destruct (filter_seq_prefix (fun i => Nat.leb (offset c s l (S i)) k) (length l)) as (Hm & H1 & H2).
  { intros i Hi. apply PeanoNat.Nat.leb_le. apply PeanoNat.Nat.leb_le in Hi. pose proof (offset_S_le c s l (S i)). lia. }
  set (m := length _) in *. split.
  - destruct m as [|m]; [unfold offset; cbn; lia | apply PeanoNat.Nat.leb_le, H1; lia].
  - destruct (PeanoNat.Nat.eq_dec m (length l)) as [E|E]; [right; exact E | left; apply PeanoNat.Nat.leb_gt, H2; lia].
Qed.

(* stores related by eqvi have the same outcome *)
Lemma tallies_eqvi c a b : eqvi a b -> tallies c a = tallies c b.
Proof.
  intros [E Ei]. pose proof (eqv_eqv_na _ _ E) as En. unfold tallies. rewrite Ei.
  erewrite filter_ext by (intros id; rewrite (na_stored a b En); reflexivity).
  apply map_ext. intros id. rewrite (na_get_quality a b En). reflexivity.
Qed.

Lemma same_outcome_eqvi c wf a b : eqvi a b -> (exists x, get_id b KBest = Some x) -> same_outcome c wf a b = true.
Proof.
  intros E [x Hx]. unfold same_outcome. rewrite (tallies_eqvi c a b E).
  destruct (eqv_observations a b c (proj1 E)) as (-> & -> & _). rewrite Hx, !N.eqb_refl, orb_true_r, PeanoNat.Nat.eqb_refl, andb_true_r.
  induction (tallies c b) as [|t l IH]; [reflexivity|]. cbn. rewrite !N.eqb_refl. exact IH.
Qed.

(* the resumed store of cut k, read off the per-block writes B of the history *)
Definition resume_cut (c : cfg) (rep : bool) (s : store) (l : list blk) (B : list (list batch)) (k : nat) : option store :=
  resume c rep (apply_writes s (firstn k (concat B)))
    (skipn (length (filter (fun i => Nat.leb (length (concat (firstn (S i) B))) k) (seq 0 (length l)))) l).

Lemma resume_cut_eq c rep s l k :
  resume c rep (crash c s l k) (skipn (import_of_cut c s l k) l) = resume_cut c rep s l (block_writes c s l) k.
Proof.
  unfold resume_cut, import_of_cut. rewrite crash_blocks. do 3 f_equal. apply filter_ext. intros i.
  rewrite offset_blocks. reflexivity.
Qed.

Lemma ex_wf_cfg2 : wf_cfg2 ex_cfg.
Proof. split; [exact ex_wf_cfg|reflexivity]. Qed.
Lemma ex_inv2 : Inv2 ex_cfg ex_s0.
Proof. apply (genesis_inv2 2 ex_gen); reflexivity. Qed.

Lemma resume_converges_on_example :
  forallb (fun k =>
    match resume ex_cfg true (crash ex_cfg ex_s0 ex_hist k) (skipn (import_of_cut ex_cfg ex_s0 ex_hist k) ex_hist) with
    | Some s' => same_outcome ex_cfg true s' (run ex_cfg ex_s0 ex_hist)
    | None => false
    end) (seq 0 (S (length (writes_of ex_cfg ex_s0 ex_hist)))) = true /\
  length (writes_of ex_cfg ex_s0 ex_hist) = 25%nat.
Proof.
  split; [|rewrite writes_of_blocks, ex_blocks_eq; reflexivity].
  apply forallb_forall. intros k _.
  destruct (resume_converges_ids ex_cfg ex_s0 ex_hist k _ ex_wf_cfg2 ex_inv2 ex_wf_hist (import_of_cut_spec _ _ _ k))
    as (r & -> & He).
  apply same_outcome_eqvi; [exact He|].
  destruct (inv_best _ _ (i2_inv _ _ (run_inv2 _ ex_hist _ ex_wf_cfg2 ex_inv2 ex_wf_hist))) as (x & Hx & _). eauto.
Qed.

(* restart without the repair differs from restart with it only where a repair is pending: a store-point head at or after
   finalized without its quality record *)
Definition nothing_pending (c : cfg) (s : store) : bool :=
  forallb (fun h => negb (is_storepoint (c_L c) (num_of h)) || has s (KQuality h)) (scan_heads s (num_of (finalized c s))).

Lemma nothing_pending_noop c s : nothing_pending c s = true -> restart_store c true s = s.
Proof.
  intros H. unfold restart_store. apply fold_repair_noop. intros h Hh. apply repair_one_nil. intros Hsp.
  unfold nothing_pending in H. rewrite forallb_forall in H. specialize (H h Hh). rewrite Hsp in H. exact H.
Qed.

Lemma resume_norepair c s l : restart_store c true s = s -> resume c false s l = resume c true s l.
Proof. intros E. unfold resume, restart. rewrite E. reflexivity. Qed.

Lemma quiet_cut_converges c s0 hist k :
  wf_cfg2 c -> Inv2 c s0 -> wf_hist c s0 hist -> nothing_pending c (crash c s0 hist k) = true ->
  match resume c false (crash c s0 hist k) (skipn (import_of_cut c s0 hist k) hist) with
  | Some s' => same_outcome c false s' (run c s0 hist)
  | None => false
  end = true.
Proof.
  intros Hc I0 Hw Hq. rewrite resume_norepair by (apply nothing_pending_noop, Hq).
  destruct (resume_converges_ids c s0 hist k _ Hc I0 Hw (import_of_cut_spec _ _ _ k)) as (r & -> & He).
  apply same_outcome_eqvi; [exact He|].
  destruct (inv_best _ _ (i2_inv _ _ (run_inv2 _ hist _ Hc I0 Hw))) as (x & Hx & _). eauto.
Qed.

(* the same sweep without the repair fails exactly at the cuts right after the block bulk of a store-point block (blocks 1, 3, 5, 7) *)
Lemma resume_diverges_exactly_at_f6_cuts :
  filter (fun k =>
    negb match resume ex_cfg false (crash ex_cfg ex_s0 ex_hist k) (skipn (import_of_cut ex_cfg ex_s0 ex_hist k) ex_hist) with
         | Some s' => same_outcome ex_cfg false s' (run ex_cfg ex_s0 ex_hist)
         | None => false
         end) (seq 0 (S (length (writes_of ex_cfg ex_s0 ex_hist)))) = [3; 10; 17; 24]%nat.
Proof.
  set (F := [3; 10; 17; 24]%nat). set (inF := fun k => existsb (Nat.eqb k) F).
  (* at the four cuts the resumed stores are evaluated; at every other cut nothing is pending *)
  assert (HF : forallb (fun k => negb match resume_cut ex_cfg false ex_s0 ex_hist ex_blocks k with
                                       | Some s' => same_outcome ex_cfg false s' (apply_writes ex_s0 (concat ex_blocks))
                                       | None => false
                                       end) F = true) by (vm_compute; reflexivity).
  assert (HQ : forallb (fun k => nothing_pending ex_cfg (apply_writes ex_s0 (firstn k (concat ex_blocks))))
                 (filter (fun k => negb (inF k)) (seq 0 26)) = true) by (vm_compute; reflexivity).
  rewrite forallb_forall in HF, HQ.
  rewrite writes_of_blocks, ex_blocks_eq. change (S (length (concat ex_blocks))) with 26%nat.
  rewrite (filter_ext_in _ inF); [vm_compute; reflexivity|]. intros k Hk. destruct (inF k) eqn:Ek.
  - rewrite resume_cut_eq, run_blocks, ex_blocks_eq. apply HF. unfold inF in Ek. apply existsb_exists in Ek.
    destruct Ek as (x & Hx & E). apply PeanoNat.Nat.eqb_eq in E. subst x. exact Hx.
  - rewrite quiet_cut_converges; auto using ex_wf_cfg2, ex_inv2, ex_wf_hist.
    rewrite crash_blocks, ex_blocks_eq. apply HQ, filter_In. rewrite Ek. auto.
Qed.

Lemma ex_finalized_moves :
  finalized ex_cfg ex_s0 = bid 0 7 /\ finalized ex_cfg (run ex_cfg ex_s0 (firstn 5 ex_hist)) = bid 2 2 /\
  finalized ex_cfg (run ex_cfg ex_s0 ex_hist) = bid 4 4.
Proof. rewrite !run_blocks, block_writes_firstn, ex_blocks_eq. vm_compute. auto. Qed.

Lemma ex_inv3 : Inv3 ex_s0.
Proof. apply genesis_inv3; reflexivity. Qed.

(* an orphan exists in the example: at cut 9 (account and index nodes of block 3 written, its block bulk not) the node
   written under version (3, 0) is in the store, block 3 is not *)
Lemma ex_orphan :
  has (crash ex_cfg ex_s0 ex_hist 9) (KNode 0 31 3 0) = true /\ stored (crash ex_cfg ex_s0 ex_hist 9) (bid 3 3) = false /\
  stored (crash ex_cfg ex_s0 ex_hist 9) (bid 2 2) = true.
Proof. rewrite crash_blocks, ex_blocks_eq. vm_compute. auto. Qed.

Lemma ex_inv4 : Inv4 ex_s0.
Proof. apply genesis_inv4; reflexivity. Qed.
