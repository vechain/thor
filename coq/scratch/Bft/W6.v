From Coq Require Import List NArith Bool Lia.
From Verif Require Import Common.Util Bft.Tree Bft.Model Bft.Quorum Bft.Safety Bft.ProofsWitness Bft.ProofsRun.
Import ListNotations.
Open Scope N_scope.
Definition y19o (com : bool) := bk 19 4 2 1 com 70.
Definition pre : list event :=
  [ P 0%nat c1; I 1%nat c1; I 2%nat c1; P 1%nat c2; I 0%nat c2; I 2%nat c2; P 2%nat c3; I 0%nat c3; I 1%nat c3;
    P 0%nat y4; I 1%nat y4; P 1%nat y5;
    P 2%nat x4; I 0%nat x4; P 0%nat x5; I 2%nat x5; I 2%nat x6; P 2%nat x7; P 2%nat x8;
    I 0%nat x6; I 0%nat x7; I 0%nat x8; P 0%nat x9;
    I 1%nat x4; I 1%nat x5; I 1%nat x6; I 1%nat x7; I 1%nat x8; I 1%nat x9; I 1%nat x10; P 1%nat x11;
    I 0%nat y5; I 0%nat y6; I 0%nat y7; P 0%nat y8;
    I 2%nat y4; I 2%nat y5; I 2%nat y6; I 2%nat y7; I 2%nat y8; I 2%nat x9; P 2%nat y9;
    I 0%nat y9; I 0%nat y10; I 0%nat y11; P 0%nat y12;
    I 2%nat y10; I 2%nat y11; I 2%nat y12; P 2%nat y13;
    I 0%nat y13; I 0%nat y14; I 0%nat y15; P 0%nat y16;
    I 2%nat y14; I 2%nat y15; I 2%nat y16; P 2%nat y17;
    I 0%nat y17; I 0%nat y18; I 0%nat x10; I 0%nat x11 ].
Eval vm_compute in (valid_run_b true cfg4 [4] f4_world [gen] (pre ++ [P 0%nat (y19o true)]), valid_run_b true cfg4 [4] f4_world [gen] (pre ++ [P 0%nat (y19o false)])).
Eval vm_compute in (map (fun nd => (n_best nd, e_fin (n_eng nd))) (world_after cfg4 f4_world pre), map (fun nd => e_fin (n_eng nd)) (world_after cfg4 f4_world (pre ++ [P 0%nat (y19o true)])), b_id x4, b_id y12, b_id y18).
