(* Codec/ProofsItem.v — the generic strict RLP decoder/encoder over items (decodeInterface / encoding of
   nested []interface{}): decode (encode i ++ r) = Some (i, r) and decode b = Some (i, r) -> b = encode i ++ r. *)
From Coq Require Import List NArith ZArith Bool Lia.
From Coq Require Import ZifyN ZifyNat ZifyBool.
From Verif Require Import Codec.Model Codec.ProofsRLP Codec.ProofsComb.
Import ListNotations.
Open Scope N_scope.

Fixpoint wf_item (i : item) : Prop :=
  match i with
  | Str s => lenN s < two64
  | Lst l => (fix all (l : list item) : Prop := match l with [] => True | x :: t => wf_item x /\ all t end) l
             /\ lenN (concat (map encode l)) < two64
  end.
Fixpoint depth (i : item) : nat :=
  match i with
  | Str _ => O
  | Lst l => S ((fix mx (l : list item) : nat := match l with [] => O | x :: t => Nat.max (depth x) (mx t) end) l)
  end.
Definition all_wf (l : list item) : Prop := (fix all (l : list item) : Prop := match l with [] => True | x :: t => wf_item x /\ all t end) l.
Definition max_depth (l : list item) : nat := (fix mx (l : list item) : nat := match l with [] => O | x :: t => Nat.max (depth x) (mx t) end) l.

Lemma all_wf_Forall l : all_wf l <-> Forall wf_item l.
Proof.
  induction l as [|x l IH]; cbn.
  - split; [constructor|trivial].
  - split.
    + intros [H1 H2]. constructor; [exact H1|apply IH; exact H2].
    + intros H. inversion H; subst. split; [assumption|apply IH; assumption].
Qed.

Section ItemInd.
  Variable P : item -> Prop.
  Hypothesis Hs : forall s, P (Str s).
  Hypothesis Hl : forall l, Forall P l -> P (Lst l).
  Fixpoint item_ind2 (i : item) : P i :=
    match i with
    | Str s => Hs s
    | Lst l => Hl l ((fix go (l : list item) : Forall P l :=
                        match l with [] => Forall_nil P | x :: t => Forall_cons x (item_ind2 x) (go t) end) l)
    end.
End ItemInd.

(* decode_f with fuel f as a codec whose well-formed values are the members of l that fit the fuel: membership is what lets
   decode_f_complete hand its induction hypothesis (Forall over l) to dec_elems_complete as this codec's completeness *)
Definition item_codec (f : nat) (l : list item) : codec item :=
  mkCodec encode (decode_f f) (fun i => In i l /\ wf_item i /\ (depth i < f)%nat).

Lemma decode_f_sound : forall f b i r, decode_f f b = Some (i, r) -> b = encode i ++ r.
Proof.
  induction f as [|f IH]; intros b i r H; [discriminate|]. cbn [decode_f] in H.
  destruct (shead b) as [[[k c] r1]|] eqn:E; [|discriminate]. apply shead_sound in E. destruct E as [-> Hk].
  destruct k.
  - inversion H; subst. destruct Hk as [x [-> Hx]]. cbn [encode enc_head app]. rewrite enc_str_low by exact Hx. reflexivity.
  - destruct (single_low c) eqn:Es; [discriminate|]. inversion H; subst. cbn [encode].
    rewrite enc_str_high by exact Es. rewrite <- app_assoc. reflexivity.
  - destruct (dec_elems (decode_f f) (length c) c) as [l|] eqn:E2; [|discriminate]. inversion H; subst.
    assert (S : sound (mkCodec encode (decode_f f) (fun _ : item => True))).
    { intros b x r0 Hd. cbn [dec enc wfp] in *. split; [apply IH; exact Hd|exact I]. }
    apply (dec_elems_sound _ S) in E2. destruct E2 as [E2 _]. cbn [enc] in E2. subst c.
    cbn [encode]. rewrite enc_list_head, <- app_assoc. reflexivity.
Qed.

Lemma encode_nonempty i : encode i <> [].
Proof. destruct i as [s|l]; cbn [encode]; [apply enc_str_nonempty|apply enc_list_nonempty]. Qed.

Lemma max_depth_in l x : In x l -> (depth x <= max_depth l)%nat.
Proof.
  induction l as [|y l IH]; [contradiction|]. intros [->|H]; cbn [max_depth].
  - fold (max_depth l). lia.
  - fold (max_depth l). specialize (IH H). lia.
Qed.

Lemma decode_f_complete : forall i, wf_item i -> forall f r, (depth i < f)%nat -> decode_f f (encode i ++ r) = Some (i, r).
Proof.
  induction i as [s|l IH] using item_ind2; intros W f r Hf.
  - destruct f as [|f]; [lia|]. cbn [decode_f encode]. cbn [wf_item] in W.
    rewrite shead_str by exact W. destruct (single_low s); reflexivity.
  - destruct f as [|f]; [lia|]. cbn [decode_f encode]. destruct W as [Wl Hlen]. fold (all_wf l) in Wl.
    rewrite shead_list by exact Hlen.
    assert (C : complete (item_codec f l)).
    { intros x r0 [Hin [Wx Hd]]. cbn [dec enc item_codec]. rewrite Forall_forall in IH. apply IH; assumption. }
    assert (NE : nonempty (item_codec f l)) by (intros x _; apply encode_nonempty).
    assert (Wall : Forall (wfp (item_codec f l)) l).
    { apply all_wf_Forall in Wl. rewrite Forall_forall in *. intros x Hin. cbn [wfp item_codec].
      split; [exact Hin|]. split; [apply Wl; exact Hin|]. pose proof (max_depth_in l x Hin) as Hm.
      cbn [depth] in Hf. fold (max_depth l) in Hf. lia. }
    pose proof (dec_elems_complete (item_codec f l) C NE l Wall (length (concat (map encode l))) (le_n _)) as Hd.
    cbn [enc dec item_codec] in Hd. rewrite Hd. reflexivity.
Qed.

Lemma depth_le_length i : (depth i <= length (encode i))%nat.
Proof.
  induction i as [s|l IH] using item_ind2; [cbn; lia|].
  cbn [depth encode]. fold (max_depth l). unfold enc_list. rewrite app_length.
  assert (H1 : (1 <= length (enc_len 192 (lenN (concat (map encode l)))))%nat).
  { unfold enc_len. destruct (_ <? 56); cbn; lia. }
  assert (H2 : (max_depth l <= length (concat (map encode l)))%nat).
  { clear H1. induction l as [|x l IHl]; [cbn; lia|]. inversion IH; subst. cbn [max_depth map concat]. fold (max_depth l).
    rewrite app_length. specialize (IHl H2). lia. }
  lia.
Qed.

Theorem rlp_decode_encode_l i r : wf_item i -> decode (encode i ++ r) = Some (i, r).
Proof.
  intros W. unfold decode. apply decode_f_complete; [exact W|]. pose proof (depth_le_length i). rewrite app_length. lia.
Qed.
Theorem rlp_canonical_l b i r : decode b = Some (i, r) -> b = encode i ++ r.
Proof. apply decode_f_sound. Qed.
