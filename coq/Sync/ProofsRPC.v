(* Sync/ProofsRPC.v — nothing of a peer message reaches the node unless it passed the size limit of its class and
   decoded as the type of its message code; only three message codes have an effect beyond a read-only answer; a
   block fetched after an announcement is fed only if it is the single, well-formed block with the announced id;
   and whatever stream of blocks reaches import, only valid blocks with a stored parent enter the store. *)
From Coq Require Import List NArith Bool Lia.
From Verif Require Import Common.Util Sync.Model Sync.ModelRPC.
Import ListNotations.
Open Scope N_scope.

Definition touches_node (r : routcome) : bool :=
  match r with RFeedBlock | RAnnounce | RPoolAdd => true | _ => false end.

Theorem oversize_dropped pending m : max_msg_size < m_size m -> serve pending mcode_eqb m = RDrop.
Proof. intro H. unfold serve. apply N.ltb_lt in H. rewrite H. reflexivity. Qed.

Theorem undecodable_dropped pending m :
  m_env m = None \/ (exists id, m_env m = Some (id, false) /\ m_arg_ok m = false) -> serve pending mcode_eqb m = RDrop.
Proof.
  unfold serve. intros [H|[id [H1 H2]]]; destruct (max_msg_size <? m_size m); auto; rewrite ?H, ?H1, ?H2; auto.
  destruct (m_code m); auto. destruct (max_tx_msg_size <? m_size m); auto.
Qed.

Theorem unknown_code_dropped pending m id :
  m_env m = Some (id, false) -> m_code m = CUnknown -> serve pending mcode_eqb m = RDrop.
Proof. intros H1 H2. unfold serve. destruct (max_msg_size <? m_size m); auto. rewrite H1, H2. auto. Qed.

(* the guard in front of every effect on the node *)
Theorem effect_guarded pending m :
  touches_node (serve pending mcode_eqb m) = true ->
  m_size m <= max_msg_size /\ m_arg_ok m = true /\ (exists id, m_env m = Some (id, false)) /\
  match serve pending mcode_eqb m with
  | RFeedBlock => m_code m = CNewBlock
  | RAnnounce => m_code m = CNewBlockID
  | RPoolAdd => m_code m = CNewTx /\ m_size m <= max_tx_msg_size
  | _ => False
  end.
Proof.
  unfold serve. destruct (max_msg_size <? m_size m) eqn:E; [intro T; cbn in T; discriminate T|]. apply N.ltb_ge in E.
  destruct (m_env m) as [[id [|]]|]; try (intro T; cbn in T; discriminate T).
  - destruct (pending id) as [c|]; [|intro T; cbn in T; discriminate T].
    destruct (mcode_eqb c (m_code m)); [destruct (m_arg_ok m)|]; intro T; cbn in T; discriminate T.
  - destruct (m_code m) eqn:C.
    all: try solve [destruct (m_arg_ok m) eqn:A; intro T; cbn in T; try discriminate T; cbn; repeat split; eauto].
    + destruct (max_tx_msg_size <? m_size m) eqn:X; [intro T; cbn in T; discriminate T|]. apply N.ltb_ge in X.
      destruct (m_arg_ok m) eqn:A; intro T; cbn in T; try discriminate T. cbn. repeat split; eauto.
Qed.

(* every other accepted request is answered without any effect on the node *)
Theorem other_codes_read_only pending m :
  match m_code m with CNewBlock | CNewBlockID | CNewTx => False | _ => True end ->
  touches_node (serve pending mcode_eqb m) = false.
Proof.
  intro H. unfold serve. destruct (max_msg_size <? m_size m); auto.
  destruct (m_env m) as [[id [|]]|]; auto.
  - destruct (pending id) as [c|]; auto. destruct (mcode_eqb c (m_code m)); [destruct (m_arg_ok m)|]; auto.
  - destruct (m_code m); try contradiction; auto; destruct (m_arg_ok m); auto.
Qed.

(* a result is delivered only to a call that is waiting for exactly this code, and only if it decodes *)
Theorem result_guarded pending m :
  serve pending mcode_eqb m = RDeliver ->
  exists id, m_env m = Some (id, true) /\ pending id = Some (m_code m) /\ m_arg_ok m = true.
Proof.
  unfold serve. destruct (max_msg_size <? m_size m); [discriminate|].
  destruct (m_env m) as [[id [|]]|]; try discriminate.
  - destruct (pending id) as [c|] eqn:P; [|discriminate].
    destruct (mcode_eqb c (m_code m)) eqn:E; [|discriminate]. destruct (m_arg_ok m) eqn:A; [|discriminate].
    intros _. exists id. repeat split; auto. rewrite P. f_equal. destruct c, (m_code m); cbn in E; try discriminate; reflexivity.
  - destruct (m_code m); try discriminate; try (destruct (m_arg_ok m); discriminate).
    destruct (max_tx_msg_size <? m_size m); [discriminate|destruct (m_arg_ok m); discriminate].
Qed.

(* announcement fetch: inconsistent answers never reach the block feed *)
Theorem fetch_guarded announced answer id :
  fetch_accept announced answer = FFeed id -> id = announced /\ answer = [(Some announced, true)].
Proof.
  unfold fetch_accept. destruct answer as [|[[i|] b] [|x t]]; try discriminate.
  destruct (i =? announced) eqn:E; [|discriminate]. destruct b; [|discriminate].
  apply N.eqb_eq in E. intro H. inversion H. subst. auto.
Qed.

Section ImportSound.
  Variable Blk : Type.
  Variable bid parent : Blk -> N.
  Variable valid : Blk -> bool.
  Variable better : Blk -> Blk -> bool.

  Lemma import_sound st b st' :
    import Blk bid parent valid better st b = Some st' ->
    (forall x, In x (store Blk st') -> In x (store Blk st) \/ (x = b /\ valid b = true /\ known Blk bid st (parent b) = true)) /\
    (best Blk st' = best Blk st \/ (best Blk st' = b /\ valid b = true)).
  Proof.
    unfold import. destruct (known Blk bid st (bid b)); [intro H; inversion H; subst; auto|].
    destruct (known Blk bid st (parent b)) eqn:K; [|discriminate]. destruct (valid b) eqn:V; [|discriminate].
    cbn [andb]. intro H. inversion H; subst; clear H. cbn [store best]. split.
    - intros x [<-|Hx]; auto.
    - destruct (better b (best Blk st)); auto.
  Qed.

  Lemma import_known_mono st b st' i :
    import Blk bid parent valid better st b = Some st' -> known Blk bid st i = true -> known Blk bid st' i = true.
  Proof.
    unfold import. destruct (known Blk bid st (bid b)); [intro H; inversion H; subst; auto|].
    destruct (known Blk bid st (parent b) && valid b); [|discriminate].
    intro H. inversion H; subst. unfold known. cbn [store existsb]. intro K. rewrite K. apply orb_true_r.
  Qed.

  Lemma import_all_known_mono : forall l st st' ok i,
      import_all Blk bid parent valid better st l = (st', ok) -> known Blk bid st i = true -> known Blk bid st' i = true.
  Proof.
    induction l as [|b t IH]; intros st st' ok i H K; cbn [import_all] in H.
    - inversion H; subst. auto.
    - destruct (import Blk bid parent valid better st b) as [st1|] eqn:E.
      + eapply IH; eauto. eapply import_known_mono; eauto.
      + inversion H; subst. auto.
  Qed.

  (* every block that enters the store passed validation AND its parent is stored (in the final store) *)
  Theorem import_all_sound : forall l st st' ok,
      import_all Blk bid parent valid better st l = (st', ok) ->
      (forall x, In x (store Blk st') -> In x (store Blk st) \/
                 (In x l /\ valid x = true /\ known Blk bid st' (parent x) = true)) /\
      (best Blk st' = best Blk st \/ (In (best Blk st') l /\ valid (best Blk st') = true)).
  Proof.
    induction l as [|b t IH]; intros st st' ok H; cbn [import_all] in H.
    - inversion H; subst. auto.
    - destruct (import Blk bid parent valid better st b) as [st1|] eqn:E.
      + destruct (import_sound _ _ _ E) as [S1 S2]. destruct (IH _ _ _ H) as [I1 I2]. split.
        * intros x Hx. destruct (I1 x Hx) as [A|[A [B C]]].
          -- destruct (S1 x A) as [C|[-> [C D]]]; auto. right. split; [left; auto|]. split; auto.
             eapply import_all_known_mono; eauto. eapply import_known_mono; eauto.
          -- right. split; [right; auto|auto].
        * destruct I2 as [I2|[A B]].
          -- rewrite I2. destruct S2 as [S2|[-> V]]; auto. right. split; auto. left; auto.
          -- right. split; auto. right; auto.
      + inversion H; subst. auto.
  Qed.
End ImportSound.
