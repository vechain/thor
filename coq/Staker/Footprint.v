(* Staker/Footprint.v — what no step touches: a block leaves the delegation map alone, and every write to the validation
   map goes through upd.  One traversal of the epoch transition establishes both. *)
From Coq Require Import List NArith Bool Lia.
From Verif Require Import Common.Util Staker.Model Staker.Base Staker.Lists Staker.Inv Staker.ProofsUser Staker.ProofsUser2
  Staker.ProofsEpoch.
Import ListNotations.
Open Scope N_scope.

Opaque e18 two64.

Inductive vupd : st -> st -> Prop :=
| vu_same s s' : vals s' = vals s -> vupd s s'
| vu_step s s1 s' k v : vupd s s1 -> vals s' = upd (vals s1) k v -> vupd s s'.

Lemma vupd_vals_eq s1 s2 s3 : vupd s1 s2 -> vals s3 = vals s2 -> vupd s1 s3.
Proof.
  intros H. revert s3. induction H as [s s' Hs|s sa s' k v Hsa IH Hs]; intros s3 E.
  - apply vu_same. rewrite E. exact Hs.
  - apply (vu_step s sa s3 k v Hsa). rewrite E. exact Hs.
Qed.

Lemma vupd_trans s1 s2 s3 : vupd s1 s2 -> vupd s2 s3 -> vupd s1 s3.
Proof.
  intros H12 H23. induction H23 as [s s' Hs|s sa s' k v Hsa IH Hs].
  - eapply vupd_vals_eq; eauto.
  - apply (vu_step s1 sa s' k v); auto.
Qed.
Lemma vupd_setv a v s : vupd s (setv a v s).
Proof. eapply vu_step; [apply vu_same; reflexivity|reflexivity]. Qed.

Definition quiet (s s' : st) : Prop := dels s' = dels s /\ vupd s s'.

Lemma quiet_same s s' : vals s' = vals s -> dels s' = dels s -> quiet s s'.
Proof. intros Ev Ed. split; [exact Ed|apply vu_same, Ev]. Qed.
Lemma quiet_trans s1 s2 s3 : quiet s1 s2 -> quiet s2 s3 -> quiet s1 s3.
Proof. intros [D1 V1] [D2 V2]. split; [congruence|eapply vupd_trans; eauto]. Qed.
Lemma quiet_setv a v s : quiet s (setv a v s).
Proof. split; [reflexivity|apply vupd_setv]. Qed.
Lemma quiet_put_ls w l s : quiet s (put_ls w l s).
Proof. apply quiet_same; destruct w; reflexivity. Qed.
Lemma quiet_ren s s' : ren_only s s' -> quiet s s'.
Proof. intros E. apply quiet_same; rewrite E; reflexivity. Qed.
Lemma quiet_money s s' : money_only s s' -> quiet s s'.
Proof. intros [q [wd [cd [e [b ->]]]]]. apply quiet_same; reflexivity. Qed.
Lemma quiet_cond (b : bool) (f : st -> res st) s s' :
  (forall t t', f t = Ok t' -> quiet t t') -> (if b then f s else Ok s) = Ok s' -> quiet s s'.
Proof. intros Hf H. destruct b; [eauto|inversion H; apply quiet_same; reflexivity]. Qed.

Lemma ll_remove_quiet w a e s s1 e1 : ll_remove w a e s = Ok (s1, e1) -> quiet s s1.
Proof.
  unfold ll_remove. intros H.
  destruct (negb (is_linked e) && (negb (oeqb (l_head (get_ls w s)) (Some a)) || negb (oeqb (l_tail (get_ls w s)) (Some a))));
    [inversion H; apply quiet_same; reflexivity|].
  bstep H sa Ha. bstep H sb Hb. bstep H u Hu. inversion H; subst s1 e1; clear H.
  assert (A : quiet s sa).
  { destruct (v_prev e); [bstep Ha pe Hpe; inversion Ha; subst; apply quiet_setv|inversion Ha; subst; apply quiet_put_ls]. }
  assert (B : quiet sa sb).
  { destruct (v_next e); [bstep Hb ne Hne; inversion Hb; subst; apply quiet_setv|inversion Hb; subst; apply quiet_put_ls]. }
  eapply quiet_trans; [exact A|]. eapply quiet_trans; [exact B|]. eapply quiet_trans; [apply quiet_put_ls|apply quiet_setv].
Qed.

Lemma ll_add_quiet w a e s s1 : ll_add w a e s = Ok s1 -> quiet s s1.
Proof.
  unfold ll_add. intros H. bstep H sb Hb. inversion H; subst s1; clear H.
  eapply quiet_trans; [|eapply quiet_trans; [apply quiet_put_ls|apply quiet_setv]].
  eapply quiet_trans; [apply quiet_put_ls|]. destruct (l_tail (get_ls w s)).
  - bstep Hb te Hte. inversion Hb; subst. apply quiet_setv.
  - inversion Hb; subst. apply quiet_put_ls.
Qed.

Lemma remove_locked_quiet x s s' : remove_locked x s = Ok s' -> quiet s s'.
Proof. unfold remove_locked. intros H. bstep H r Hr. destruct r. inversion H; subst. apply quiet_same; reflexivity. Qed.

Lemma apply_renewal_quiet r s s' : apply_renewal r s = Ok s' -> quiet s s'.
Proof.
  unfold apply_renewal. intros H. bstep H l1 Hl1. bstep H l2 Hl2. destruct l2. bstep H s1 Hs1.
  eapply quiet_trans; [|apply quiet_money, (mo_add_withdrawable _ _ _ H)].
  eapply quiet_trans; [|apply quiet_money, (mo_remove_queued _ _ _ Hs1)]. apply quiet_same; reflexivity.
Qed.

Lemma apply_exit_quiet ve ae s s' : apply_exit ve ae s = Ok s' -> quiet s s'.
Proof.
  unfold apply_exit. intros H. bstep H tot Htot. bstep H sa Ha. bstep H sb Hb. bstep H sc Hc.
  eapply quiet_trans; [apply (quiet_cond _ _ _ _ (remove_locked_quiet _) Ha)|].
  eapply quiet_trans; [apply (quiet_cond _ _ _ _ (fun t t' E => quiet_money _ _ (mo_remove_queued _ t t' E)) Hb)|].
  eapply quiet_trans; [apply (quiet_cond _ _ _ _ (fun t t' E => quiet_money _ _ (mo_add_cooldown _ t t' E)) Hc)|].
  apply (quiet_cond _ _ _ _ (fun t t' E => quiet_money _ _ (mo_add_withdrawable _ t t' E)) H).
Qed.

Lemma apply_renewals_quiet l : forall acc s s' acc', apply_renewals l acc s = Ok (s', acc') -> quiet s s'.
Proof.
  induction l as [|a t IH]; intros acc s s' acc' H.
  - cbn in H. inversion H; apply quiet_same; reflexivity.
  - cbn [apply_renewals] in H. bstep H r1 Hr1. destruct r1 as [[s1 ar] dw]. bstep H acc1 Ha1. bstep H r2 Hr2. destruct r2 as [s2 vr]. bstep H acc2 Ha2.
    eapply quiet_trans; [|apply (IH _ _ _ _ H)]. eapply quiet_trans; [|apply quiet_ren, rl_remove_only].
    unfold svc_renew in Hr2. bstep Hr2 v Hv. bstep Hr2 r Hr. destruct r. inversion Hr2; subst.
    unfold aggs_renew in Hr1. bstep Hr1 r Hr'. destruct r. inversion Hr1; subst.
    eapply quiet_trans; [|apply quiet_setv]. apply quiet_same; reflexivity.
Qed.

Lemma apply_evictions_quiet c b l : forall s s', apply_evictions c b l s = Ok s' -> quiet s s'.
Proof.
  induction l as [|a t IH]; intros s s' H.
  - cbn in H. inversion H; apply quiet_same; reflexivity.
  - cbn [apply_evictions] in H. bstep H s1 Hs1. eapply quiet_trans; [|apply (IH _ _ H)].
    apply svc_signal_exit_shape in Hs1; [|discriminate]. destruct Hs1 as [v [eb [cur [Hv [_ ->]]]]].
    eapply quiet_trans; [|apply quiet_setv]. apply quiet_same; reflexivity.
Qed.

Lemma activate_n_quiet n b mx : forall s s', activate_n n b mx s = Ok s' -> quiet s s'.
Proof.
  induction n as [|k IH]; intros s s' H.
  - cbn in H. inversion H; apply quiet_same; reflexivity.
  - cbn [activate_n] in H. bstep H s1 Hs1. eapply quiet_trans; [|apply (IH _ _ H)]. clear H IH.
    unfold activate_next in Hs1. bstep Hs1 r Hr. destruct r as [[sa h] e1]. unfold next_to_activate in Hr.
    bstep Hr u1 G1. bstep Hr u2 G2. bstep Hr h0 Hh. bstep Hr e He. bstep Hr r1 Hrm. destruct r1 as [sa' e1']. inversion Hr; subst sa' h0 e1'; clear Hr.
    bstep Hs1 r2 Hag. destruct r2 as [[sb ar] dw]. bstep Hs1 r3 Hact. destruct r3 as [sc vr]. bstep Hs1 g Hg.
    eapply quiet_trans; [|apply (apply_renewal_quiet _ _ _ Hs1)].
    unfold svc_activate in Hact. bstep Hact u3 G3. bstep Hact w Hw. bstep Hact sd Hadd. inversion Hact; subst sd vr; clear Hact.
    eapply quiet_trans; [|apply (ll_add_quiet _ _ _ _ _ Hadd)].
    unfold aggs_renew in Hag. bstep Hag r Hr'. destruct r. inversion Hag; subst.
    eapply quiet_trans; [apply (ll_remove_quiet _ _ _ _ _ _ Hrm)|apply quiet_same; reflexivity].
Qed.

Lemma apply_epoch_transition_quiet c b t s s' : apply_epoch_transition c b t s = Ok s' -> quiet s s'.
Proof.
  unfold apply_epoch_transition. intros H. bstep H r1 Hr1. destruct r1 as [s1 acc]. bstep H s2 Hs2. bstep H s3 Hs3. bstep H s4 Hs4.
  eapply quiet_trans; [apply (apply_renewals_quiet _ _ _ _ _ Hr1)|]. eapply quiet_trans; [apply (apply_renewal_quiet _ _ _ Hs2)|].
  eapply quiet_trans; [|eapply quiet_trans; [apply (apply_evictions_quiet _ _ _ _ _ Hs4)|apply (activate_n_quiet _ _ _ _ _ H)]].
  destruct (tr_exit t =? 0); [inversion Hs3; apply quiet_same; reflexivity|].
  bstep Hs3 r Hr. destruct r as [s2a ve]. destruct (aggs_exit (tr_exit t) s2a) as [s2b ae] eqn:Hae.
  eapply quiet_trans; [|apply (apply_exit_quiet _ _ _ _ Hs3)]. unfold aggs_exit in Hae. inversion Hae; subst s2b ae; clear Hae.
  unfold svc_exit_validator in Hr. bstep Hr v Hv. destruct (v_exit_now v) as [v1 ex]. bstep Hr r1' Hrm. destruct r1' as [sx ex1].
  inversion Hr; subst.
  eapply quiet_trans; [apply (ll_remove_quiet _ _ _ _ _ _ Hrm)|]. eapply quiet_trans; [apply quiet_ren, rl_remove_only|apply quiet_same; reflexivity].
Qed.

Lemma block_quiet c s : quiet s (step c s OBlock).
Proof.
  unfold step. cbn [run_op]. destruct (sync_pos c (blk s + 1) (w_blk (blk s + 1) s)) as [[[s1 ac] up]| |] eqn:Hr;
    try (apply quiet_same; reflexivity).
  destruct (sync_pos_cases _ _ _ _ _ _ Hr) as [->|[t [Hc Ha]]]; [apply quiet_same; reflexivity|].
  eapply quiet_trans; [|apply (apply_epoch_transition_quiet _ _ _ _ _ Ha)]. apply quiet_same; reflexivity.
Qed.

(* every operation that is neither a block nor about a delegation *)
Lemma user_op_quiet c o s s' x :
  run_op c o s = Ok (s', x) ->
  match o with OBlock | OAddDeleg _ _ _ | OSignalDelegExit _ | OWithdrawDeleg _ => False | _ => True end -> quiet s s'.
Proof.
  intros E Ho. destruct o; try contradiction; cbn [run_op] in E.
  - bstep E u G. unfold add_validation in E. bstep E u1 G1. bstep E u2 G2. bstep E u3 G3. bstep E u4 G4. bstep E u5 G5. bstep E s1 Hadd. bstep E u6 G6.
    inversion E; subst. eapply quiet_trans; [apply (quiet_same s (pay_in (vet * e18) s)); reflexivity|].
    eapply quiet_trans; [apply (ll_add_quiet _ _ _ _ _ Hadd)|apply quiet_same; reflexivity].
  - bstep E u G. unfold increase_stake in E. bstep E v Hv. bstep E u1 G1. bstep E u2 G2. bstep E u3 G3. bstep E u4 G4. bstep E u5 G5. bstep E u6 G6.
    inversion E; subst. eapply quiet_trans; [apply (quiet_same s (pay_in (vet * e18) s)); reflexivity|]. eapply quiet_trans; [apply quiet_setv|].
    eapply quiet_trans; [apply quiet_ren, rl_add_only|apply quiet_same; reflexivity].
  - bstep E u G. unfold decrease_stake in E. bstep E u0 G0. bstep E v Hv. bstep E u1 G1. bstep E u2 G2. bstep E u3 G3. bstep E u4 G4. bstep E u5 G5. bstep E u6 G6. bstep E u7 G7.
    inversion E; subst. eapply quiet_trans; [apply quiet_setv|apply quiet_ren, rl_add_only].
  - unfold signal_exit in E. bstep E v Hv. bstep E u1 G1. bstep E u2 G2. bstep E u3 G3. bstep E cur Hc. bstep E s1 Hs. inversion E; subst.
    apply svc_signal_exit_shape in Hs; [|discriminate]. destruct Hs as [v2 [eb [cur2 [Hv2 [_ ->]]]]].
    eapply quiet_trans; [|apply quiet_setv]. apply quiet_same; reflexivity.
  - bstep E r Hr. destruct r as [s1 y]. bstep E s2 Hp. inversion E; subst s2 y.
    destruct (withdraw_stake_shape _ _ _ _ _ _ _ Hr Hp) as [v [sb [Hv [M Hsh]]]]. eapply quiet_trans; [|apply quiet_money, M].
    destruct (v_status v =? StatusQueued); [|subst sb; apply quiet_setv].
    destruct Hsh as [s1' [e1 [Hrm ->]]]. eapply quiet_trans; [apply (ll_remove_quiet _ _ _ _ _ _ Hrm)|apply quiet_same; reflexivity].
  - unfold set_online in E. bstep E v Hv. inversion E; subst. apply quiet_setv.
  - unfold set_beneficiary in E. bstep E v Hv. bstep E u1 G1. bstep E u2 G2. inversion E; subst. apply quiet_setv.
  - unfold increase_reward in E. bstep E v Hv. bstep E cur Hc. inversion E; subst. apply quiet_same; reflexivity.
  - inversion E; subst. apply quiet_same; reflexivity.
  - inversion E; subst. apply quiet_same; reflexivity.
Qed.
