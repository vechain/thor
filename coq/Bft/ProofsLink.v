(* Bft/ProofsLink.v — the run-level link behind Lemma B: when an honest validator proposes a COM block, every earlier own
   block that is at or above its finalized number and whose quality is inside the `headQuality-1` window has its
   checkpoint on one chain with the head's most recent justified checkpoint — across Mark overwrites, restarts (votes
   record rebuilt by newCasts) and moves of finalized.  First for one node, then inside any valid multi-node run. *)
From Coq Require Import List NArith ZArith Bool Lia.
From Coq Require Import ZifyN ZifyNat ZifyBool.
From Verif Require Import Common.Util Bft.Tree Bft.Model Bft.Quorum Bft.ProofsTally Bft.ProofsChain Bft.ProofsSuffix
  Bft.ProofsNode Bft.ProofsFinal Bft.ProofsMonotone Bft.ProofsCommit Bft.ProofsOrder Bft.ProofsOrder2 Bft.ProofsVote
  Bft.Safety Bft.ProofsSafety Bft.ProofsTree2 Bft.ProofsCasts Bft.ProofsRun.
Import ListNotations.
Open Scope N_scope.

Section Link.
Variable c : cfg.
Hypothesis HL : 0 < c_L c.
Notation L := (c_L c).

(* what the most recent justified checkpoint of a head p is, as far as the safety arguments need it: a block of p's
   chain, at the checkpoint number of some block z of p's chain whose quality is the head's *)
Definition recent_spec (t : repo) (p rb : blk) : Prop :=
  In rb (chain_of t (b_id p)) /\
  exists z, In z (chain_of t (b_id p)) /\ checkpoint L (b_num z) = b_num rb /\ qual c t z = qual c t p.

Lemma chain_in_trans r a b1 b2 : wf_repo r -> In a (chain_of r (b_id b1)) -> In b2 (chain_of r (b_id a)) -> In b2 (chain_of r (b_id b1)).
Proof.
  intros Hwf H1 H2. destruct (in_split _ _ H1) as [l1 [l2 E]]. rewrite (chain_suffix r Hwf _ l1 a l2 E) in H2.
  rewrite E, in_app_iff. right. exact H2.
Qed.

Theorem com_vote_link_node nd b : node_good c nd -> honest_ok c nd b = true -> b_com b = true ->
  let r := n_repo nd in let p := best_blk nd in
  exists rb, recent_spec r p rb /\
    forall x, In x r -> b_signer x = e_master (n_eng nd) -> idnum (e_fin (n_eng nd)) <= b_num x ->
      qual c r p - 1 <= qual c r x ->
      exists cpx, cp_of c r x = Some cpx /\
        (has_block r (b_id cpx) (b_id rb) = true \/ has_block r (b_id rb) (b_id cpx) = true).
Proof.
  intros Hgood Hok Hcom. cbv zeta.
  destruct (honest_ok_facts c nd b Hok) as [Hs [Hpar [Hnum [v [Hv Hvc]]]]]. rewrite Hcom in Hvc. subst v.
  pose proof Hgood as [Hi Hfc Hfs Hrt Hca]. pose proof (inv_wf c _ Hi) as Hwf. pose proof (inv_qs c _ Hi) as Hqs.
  destruct (best_in c nd Hi) as [Hbin Hbid].
  set (r := n_repo nd) in *. set (e := n_eng nd) in *. set (p := best_blk nd) in *.
  pose proof (should_vote_casts_ok c HL nd (b_parent b) Hi Hrt Hca) as [Hc1 _]. cbv zeta in Hc1. fold r e in Hc1.
  destruct (should_vote c r e (b_parent b)) as [e' v] eqn:Esv. cbn [fst snd] in *. subst v.
  destruct (should_vote_com_inv2 c r e (b_parent b) e' Esv) as [p0 [recent [ca [Hp0 [Hcasts [Hq0 [_ [Hrec Hwin]]]]]]]].
  assert (p0 = p). { rewrite Hpar, <- Hbid in Hp0. rewrite (find_blk_in r p Hwf Hbin) in Hp0. inversion Hp0. reflexivity. } subst p0.
  pose proof (should_vote_keeps c r e (b_parent b)) as Hk. cbv zeta in Hk. rewrite Esv in Hk. cbn [fst] in Hk. destruct Hk as [_ [Hf' Hm']].
  unfold casts_ok in Hc1. cbn [n_eng n_repo] in Hc1. rewrite Hcasts, Hf', Hm' in Hc1.
  change (best_blk (mkN r (n_best nd) e')) with p in Hc1.
  rewrite (compute_state_stored_full c HL r (e_qs e) p Hwf Hqs Hbin) in *.
  change (s_q (state_pure c (chain_of r (b_id p)))) with (qual c r p) in *.
  rewrite Hpar, <- Hbid in Hrec.
  (* finalized sits at a checkpoint number *)
  pose proof (is_checkpoint_mul L HL _ Hfc) as Hfa. fold e in Hfa. set (a := idnum (e_fin e) / L) in *.
  (* the recent justified checkpoint as a block *)
  assert (Hrb : exists rb, recent = b_id rb /\ recent_spec r p rb).
  { destruct (s_just (state_pure c (chain_of r (b_id p)))).
    - destruct (block_at r (b_id p) (checkpoint L (b_num p))) as [x|] eqn:Ex; [|discriminate]. inversion Hrec; subst recent.
      destruct (block_at_num _ _ _ _ Ex) as [Hxn Hxin]. exists x. split; [reflexivity|]. split; [exact Hxin|].
      exists p. split; [|split; [symmetry; exact Hxn | reflexivity]].
      apply chain_self; assumption.
    - destruct (block_at r (b_id p) (storepoint L (b_num p - L))) as [prev|] eqn:Eprev; [|discriminate].
      destruct (block_at_num _ _ _ _ Eprev) as [_ Hprev].
      destruct (find_cp_ok2 _ _ _ _ _ _ _ Hrec) as [m [x [sp [Hx [Hid [Hsp Hq]]]]]]. subst recent.
      destruct (block_at_num _ _ _ _ Hx) as [Hxn Hxin]. destruct (block_at_num _ _ _ _ Hsp) as [Hspn Hspin].
      exists x. split; [reflexivity|]. split; [exact (chain_in_trans r prev p x Hwf Hprev Hxin)|].
      exists sp. split; [exact (chain_in_trans r prev p sp Hwf Hprev Hspin)|].
      assert (Enum : idnum (e_fin e) + m * L = (a + m) * L) by lia.
      rewrite Enum in *. rewrite (storepoint_mul L HL) in Hspn. split.
      + rewrite Hspn, Hxn. apply checkpoint_store. exact HL.
      + rewrite <- Hq. symmetry. apply Hqs; [exact (chain_incl _ _ _ Hspin)|]. rewrite Hspn. apply storepoint_store. exact HL. }
  destruct Hrb as [rb [-> Hspec]]. exists rb. split; [exact Hspec|].
  assert (Hrbin : In rb r) by exact (chain_incl _ _ _ (proj1 Hspec)).
  intros x Hx Hsx Hfx Hqx.
  destruct (ci_cover c _ _ _ _ _ Hc1 x Hx Hsx Hfx) as [y [q [cpx [Hin [Hy [Hq [Hcp Hyc]]]]]]].
  exists cpx. split; [exact Hcp|].
  unfold cp_of in Hcp. destruct (block_at_num _ _ _ _ Hcp) as [Hcn Hcin]. pose proof (chain_incl _ _ _ Hcin) as Hcr.
  assert (Hny : idnum (e_fin e) <= idnum (b_id y)).
  { change (idnum (b_id y)) with (b_num y). pose proof (has_block_num r y cpx Hwf Hy Hcr Hyc) as Hle.
    pose proof (checkpoint_mono c HL _ _ Hfx) as Hm. rewrite Hfa in Hm at 1. rewrite (checkpoint_mul L HL) in Hm. lia. }
  destruct (Hwin (b_id y) q Hin Hny ltac:(lia)) as [H|H].
  - destruct (on_one_chain r y cpx rb Hwf Hy Hcr Hrbin Hyc H) as [H1|H1]; [left | right]; exact H1.
  - right. exact (has_block_trans r rb y cpx Hwf Hrbin Hy Hcr H Hyc).
Qed.

Definition comparable (t : repo) (a b : blk) : Prop :=
  has_block t (b_id a) (b_id b) = true \/ has_block t (b_id b) (b_id a) = true.

(* transport from a node's repository to any well-formed super-tree *)
Lemma sub_qual r s x : wf_repo r -> wf_repo s -> incl r s -> In x r -> qual c r x = qual c s x.
Proof. intros Wr Ws Hs Hx. unfold qual. rewrite (sub_chain r s x Wr Ws Hs Hx). reflexivity. Qed.

Lemma sub_recent_spec r s p rb : wf_repo r -> wf_repo s -> incl r s -> In p r -> recent_spec r p rb -> recent_spec s p rb.
Proof.
  intros Wr Ws Hs Hp [H1 [z [Hz [Hn Hq]]]]. unfold recent_spec. rewrite <- (sub_chain r s p Wr Ws Hs Hp).
  split; [exact H1|]. exists z. split; [exact Hz|]. split; [exact Hn|].
  rewrite <- (sub_qual r s z Wr Ws Hs (chain_incl _ _ _ Hz)), <- (sub_qual r s p Wr Ws Hs Hp). exact Hq.
Qed.

(* the finalized filter hides nothing that the quality window would show: at an honest proposal, every own block whose
   quality is inside the `headQuality-1` window is at or above the proposer's finalized number *)
Definition votes_visible_at (nd : node) : bool :=
  let r := n_repo nd in let e := n_eng nd in
  forallb (fun x => negb (b_signer x =? e_master e) || negb (qual c r (best_blk nd) - 1 <=? qual c r x) ||
                    (idnum (e_fin e) <=? b_num x)) r.

Fixpoint votes_visible_b (w : list node) (evs : list event) : bool :=
  match evs with
  | [] => true
  | ev :: t =>
      match ev with
      | EPropose i b => match nth_error w i with Some nd => votes_visible_at nd | None => true end
      | _ => true
      end && votes_visible_b (step_plain true c w ev) t
  end.

Lemma votes_visible_app pre : forall w ev post, votes_visible_b w (pre ++ ev :: post) = true ->
  match ev with
  | EPropose i b => match nth_error (world_after c w pre) i with Some nd => votes_visible_at nd = true | None => True end
  | _ => True
  end.
Proof.
  induction pre as [|e0 t IH]; intros w ev post H.
  - cbn [app votes_visible_b world_after fold_left] in *. apply andb_prop in H. destruct H as [H _].
    destruct ev as [i b|i b|i]; try exact I. destruct (nth_error w i); [exact H | exact I].
  - cbn [app votes_visible_b] in H. apply andb_prop in H. destruct H as [_ H]. cbn [world_after fold_left]. exact (IH _ ev post H).
Qed.

Section LinkRun.
Variable g : blk.
Hypothesis Hg : b_num g = 0.
Variables byz masters : list N.
Hypothesis Hdisj : forall m, In m masters -> ~ In m byz.
Hypothesis Hnd : NoDup masters.
Notation W0 := (map (init_node g) masters).

Theorem com_vote_link_run pre i b post nd :
  let evs := pre ++ EPropose i b :: post in
  let tree := seen_after [g] evs in
  valid_run_b true c byz W0 [g] evs = true -> known tree (b_parent g) = false ->
  b_com b = true -> nth_error (world_after c W0 pre) i = Some nd ->
  wf_repo tree /\ b_signer b = e_master (n_eng nd) /\
  exists p rb, In p tree /\ b_id p = b_parent b /\ In b tree /\ recent_spec tree p rb /\
    forall x, In x (seen_after [g] pre) -> b_signer x = b_signer b -> idnum (e_fin (n_eng nd)) <= b_num x ->
      qual c tree p - 1 <= qual c tree x ->
      exists cpx, cp_of c tree x = Some cpx /\ comparable tree cpx rb.
Proof.
  cbv zeta. intros Hv Hroot Hcom Hn.
  destruct (world_prefix c HL g Hg byz masters Hdisj Hnd pre (EPropose i b :: post) Hv Hroot) as [Hw [Hv2 Hincl]].
  destruct (world_prefix c HL g Hg byz masters Hdisj Hnd (pre ++ EPropose i b :: post) [] ltac:(rewrite app_nil_r; exact Hv)
              ltac:(rewrite app_nil_r; exact Hroot)) as [Hwall _].
  pose proof (wg_wf c g byz masters _ _ Hwall) as Hwft.
  set (tree := seen_after [g] (pre ++ EPropose i b :: post)) in *.
  rewrite valid_run_cons in Hv2. apply andb_prop in Hv2. destruct Hv2 as [Hok _]. cbn [ev_check fst] in Hok. rewrite Hn in Hok.
  apply andb_prop in Hok. destruct Hok as [_ Hhon].
  destruct (wg_nodes c g byz masters _ _ Hw i nd Hn) as [Hgood [Hsub [_ Hown]]].
  pose proof (ng_inv c nd Hgood) as Hi. pose proof (inv_wf c _ Hi) as Hwfr.
  assert (Hsubt : incl (n_repo nd) tree) by (intros x Hx; apply Hincl; exact (Hsub x Hx)).
  destruct (honest_ok_facts c nd b Hhon) as [Hs [Hpar _]]. destruct (best_in c nd Hi) as [Hbin Hbid].
  destruct (com_vote_link_node nd b Hgood Hhon Hcom) as [rb [Hspec Hall]].
  split; [exact Hwft|]. split; [exact Hs|].
  exists (best_blk nd), rb. split; [exact (Hsubt _ Hbin)|]. split; [rewrite Hbid; symmetry; exact Hpar|]. split.
  { unfold tree. assert (E : forall p s, seen_after s (p ++ EPropose i b :: post) = seen_after (b :: seen_after s p) post).
    { induction p as [|ev t IH]; intros s; [reflexivity|]. destruct ev; cbn [app seen_after]; apply IH. }
    rewrite E. apply seen_after_incl. left. reflexivity. }
  split; [exact (sub_recent_spec _ tree _ _ Hwfr Hwft Hsubt Hbin Hspec)|].
  intros x Hx Hsx Hfx Hqx.
  assert (Hxr : In x (n_repo nd)) by (apply Hown; [exact Hx | rewrite Hsx; exact Hs]).
  destruct (Hall x Hxr ltac:(rewrite Hsx; exact Hs) Hfx) as [cpx [Hcp Hcmp]].
  { rewrite (sub_qual _ tree _ Hwfr Hwft Hsubt Hbin), (sub_qual _ tree _ Hwfr Hwft Hsubt Hxr). exact Hqx. }
  exists cpx. unfold cp_of in *. rewrite <- (sub_block_at _ tree x _ Hwfr Hwft Hsubt Hxr). split; [exact Hcp|].
  destruct (block_at_num _ _ _ _ Hcp) as [_ Hcin]. pose proof (chain_incl _ _ _ Hcin) as Hcr.
  pose proof (chain_incl _ _ _ (proj1 Hspec)) as Hrbr.
  unfold comparable. rewrite <- (sub_has_block _ tree cpx _ Hwfr Hwft Hsubt Hcr), <- (sub_has_block _ tree rb _ Hwfr Hwft Hsubt Hrbr).
  exact Hcmp.
Qed.
(* the same with the finalized filter discharged by the visibility premise *)
Theorem com_vote_link_run_visible pre i b post nd :
  let evs := pre ++ EPropose i b :: post in
  let tree := seen_after [g] evs in
  valid_run_b true c byz W0 [g] evs = true -> known tree (b_parent g) = false ->
  b_com b = true -> nth_error (world_after c W0 pre) i = Some nd -> votes_visible_at nd = true ->
  wf_repo tree /\
  exists p rb, In p tree /\ b_id p = b_parent b /\ In b tree /\ recent_spec tree p rb /\
    forall x, In x (seen_after [g] pre) -> b_signer x = b_signer b -> qual c tree p - 1 <= qual c tree x ->
      exists cpx, cp_of c tree x = Some cpx /\ comparable tree cpx rb.
Proof.
  cbv zeta. intros Hv Hroot Hcom Hn Hvis.
  destruct (com_vote_link_run pre i b post nd Hv Hroot Hcom Hn) as [Hwft [Hs [p [rb [Hp [Hpid [Hb [Hspec Hall]]]]]]]].
  split; [exact Hwft|]. exists p, rb. repeat (split; [assumption|]).
  intros x Hx Hsx Hqx. apply (Hall x Hx Hsx); [|exact Hqx].
  (* x is stored at the proposer's node and the premise applies there *)
  destruct (world_prefix c HL g Hg byz masters Hdisj Hnd pre (EPropose i b :: post) Hv Hroot) as [Hw [Hv2 Hincl]].
  destruct (wg_nodes c g byz masters _ _ Hw i nd Hn) as [Hgood [Hsub [_ Hown]]].
  pose proof (ng_inv c nd Hgood) as Hi. pose proof (inv_wf c _ Hi) as Hwfr.
  assert (Hsubt : incl (n_repo nd) (seen_after [g] (pre ++ EPropose i b :: post))) by (intros y Hy; apply Hincl; exact (Hsub y Hy)).
  destruct (best_in c nd Hi) as [Hbin Hbid].
  assert (Hxr : In x (n_repo nd)) by (apply Hown; [exact Hx | rewrite Hsx; exact Hs]).
  unfold votes_visible_at in Hvis. cbv zeta in Hvis. rewrite forallb_forall in Hvis. specialize (Hvis x Hxr).
  assert (p = best_blk nd).
  { apply (stored_unique _ p (best_blk nd) Hwft Hp (Hsubt _ Hbin)). rewrite Hpid, Hbid.
    rewrite valid_run_cons in Hv2. apply andb_prop in Hv2. destruct Hv2 as [Hok _]. cbn [ev_check fst] in Hok. rewrite Hn in Hok.
    apply andb_prop in Hok. destruct Hok as [_ Hhon]. destruct (honest_ok_facts c nd b Hhon) as [_ [Hpar _]]. exact Hpar. }
  subst p.
  rewrite <- (sub_qual _ _ _ Hwfr Hwft Hsubt Hbin), <- (sub_qual _ _ _ Hwfr Hwft Hsubt Hxr) in Hqx.
  assert (A : (b_signer x =? e_master (n_eng nd)) = true) by (apply N.eqb_eq; rewrite Hsx; exact Hs).
  assert (B : (qual c (n_repo nd) (best_blk nd) - 1 <=? qual c (n_repo nd) x) = true) by (apply N.leb_le; exact Hqx).
  rewrite A, B in Hvis. cbn in Hvis. apply N.leb_le. exact Hvis.
Qed.
End LinkRun.
End Link.
