(* Sched/ProofsUpdates.v — Updates (V2, PoS, V1), scores, and PoA v1 scheduling. *)
From Coq Require Import List NArith ZArith Bool Lia ZifyN ZifyNat ZifyBool.
From Verif Require Import Common.Util Sched.Model Sched.Arith Sched.Proofs.
Import ListNotations.
Open Scope N_scope.

Definition notme (me : N) (p : proposer) : bool := negb (p_addr p =? me).

Lemma missed_spec pt T k me seq i : 0 < T -> 1 <= k ->
  missed pt T (pt + k * T) me seq i = filter (notme me) (firstn (N.to_nat (k - 1 - i)) seq).
Proof.
  intros HT Hk. revert i. induction seq as [|p rest IH]; intros i; cbn [missed].
  - now rewrite firstn_nil.
  - destruct (N.leb_spec (pt + k * T) (pt + T + i * T)) as [Hle|Hgt].
    + replace (k - 1 - i) with 0 by nia. reflexivity.
    + assert (Hki : 1 <= k - 1 - i) by nia.
      replace (N.to_nat (k - 1 - i)) with (S (N.to_nat (k - 1 - (i + 1)))) by lia.
      cbn [firstn filter]. unfold notme at 1. rewrite IH.
      destruct (p_addr p =? me); reflexivity.
Qed.

(* the j-th element of the sequence owns the slot pt + (j+1)T *)
Lemma position_owns_slot pt T seq j a : 0 < T ->
  nth_error seq j = Some a ->
  is_scheduled pt T seq (pt + (N.of_nat j + 1) * T) a = true.
Proof.
  intros HT Hj.
  assert (Hlen : (j < length seq)%nat) by (apply nth_error_Some; congruence).
  apply is_scheduled_iff. repeat split; [nia|apply aligned_mod; auto|].
  rewrite slot_index_form by lia.
  replace (N.of_nat j + 1 - 1) with (N.of_nat j) by lia.
  rewrite N.mod_small by lia. now rewrite Nnat.Nat2N.id.
Qed.

Lemma in_firstn_nth {A} (l : list A) m x : In x (firstn m l) -> exists j, (j < m)%nat /\ nth_error l j = Some x.
Proof.
  revert l. induction m as [|m IH]; intros l; cbn; [tauto|].
  destruct l as [|y t]; cbn; [tauto|]. intros [->|H].
  - exists 0%nat. split; [lia|reflexivity].
  - destruct (IH t H) as [j [Hj Hn]]. exists (S j). split; [lia|exact Hn].
Qed.

(* V2/PoS Updates: every deactivated proposer is the owner of an aligned slot strictly between the
   parent and the new block, is not me, and conversely every such owner within the first round is listed *)
Theorem updates_missed_sound pt T k me seq p : 0 < T -> 1 <= k ->
  In p (missed pt T (pt + k * T) me seq 0) ->
  p_addr p <> me /\ exists j, 1 <= j /\ j < k /\ is_scheduled pt T (addrs seq) (pt + j * T) (p_addr p) = true.
Proof.
  intros HT Hk Hin. rewrite missed_spec in Hin by auto. apply filter_In in Hin. destruct Hin as [Hin Hnm].
  split. { unfold notme in Hnm. now destruct (N.eqb_spec (p_addr p) me). }
  apply in_firstn_nth in Hin. destruct Hin as [j [Hj Hn]].
  exists (N.of_nat j + 1). split; [lia|]. split; [lia|].
  apply position_owns_slot; auto. unfold addrs. now rewrite nth_error_map, Hn.
Qed.

Theorem updates_missed_complete pt T k me seq j p : 0 < T -> 1 <= k ->
  nth_error seq j = Some p -> N.of_nat j + 1 < k -> p_addr p <> me ->
  In p (missed pt T (pt + k * T) me seq 0).
Proof.
  intros HT Hk Hn Hj Hnm. rewrite missed_spec by auto. apply filter_In. split.
  - assert (Hlen : (j < length seq)%nat) by (apply nth_error_Some; congruence).
    rewrite <- (firstn_skipn (N.to_nat (k - 1 - 0)) seq) in Hn.
    rewrite nth_error_app1 in Hn by (rewrite firstn_length; lia).
    eapply nth_error_In; eauto.
  - unfold notme. now destruct (N.eqb_spec (p_addr p) me).
Qed.

Lemma filter_length_le {A} (f : A -> bool) l : (length (filter f l) <= length l)%nat.
Proof. induction l as [|x t IH]; cbn; [lia|]. destruct (f x); cbn; lia. Qed.

Lemma filter_firstn_length {A} (f : A -> bool) m l : (length (filter f (firstn m l)) <= length (filter f l))%nat.
Proof.
  revert l; induction m as [|m IH]; intros l; cbn; [lia|]. destruct l as [|x t]; cbn; [lia|].
  destruct (f x); cbn; specialize (IH t); lia.
Qed.

Lemma filter_length_lt {A} (f : A -> bool) l x : In x l -> f x = false -> (length (filter f l) < length l)%nat.
Proof.
  induction l as [|y t IH]; cbn; [tauto|]. intros [->|Hin] Hf.
  - rewrite Hf. pose proof (filter_length_le f t). lia.
  - specialize (IH Hin Hf). destruct (f y); cbn; lia.
Qed.

Theorem score_v2_bounds pt T k seq mep : 0 < T -> 1 <= k -> In (p_addr mep) (addrs seq) ->
  let score := snd (updates_v2 pt T seq mep (pt + k * T)) in
  1 <= score /\ score <= N.of_nat (length seq).
Proof.
  intros HT Hk Hin. cbn [updates_v2 snd]. rewrite missed_spec by auto.
  pose proof (filter_firstn_length (notme (p_addr mep)) (N.to_nat (k - 1 - 0)) seq).
  apply in_map_iff in Hin. destruct Hin as (x & Ex & Hx).
  assert (Hnm : notme (p_addr mep) x = false) by (unfold notme; rewrite Ex, N.eqb_refl; reflexivity).
  pose proof (filter_length_lt _ _ x Hx Hnm). lia.
Qed.

Definition weights (l : list proposer) : list N := map p_weight l.

Lemma fold_add_nowrap l acc : acc + sumN (weights l) < 18446744073709551616 ->
  fold_left (fun a p => wrap64 (a + p_weight p)) l acc = acc + sumN (weights l).
Proof.
  revert acc. induction l as [|p t IH]; intros acc H; cbn [fold_left weights map sumN] in *; [lia|].
  unfold wrap64 at 2. rewrite N.mod_small by (fold (weights t) in H; lia).
  fold (weights t) in *. rewrite IH; lia.
Qed.

Lemma fold_sub_nowrap l acc : sumN (weights l) <= acc -> acc < 18446744073709551616 ->
  fold_left (fun a p => sub64 a (p_weight p)) l acc = acc - sumN (weights l).
Proof.
  revert acc. induction l as [|p t IH]; intros acc H Hb; cbn [fold_left weights map sumN] in *; [lia|].
  fold (weights t) in *.
  assert (E : sub64 acc (p_weight p) = acc - p_weight p).
  { unfold sub64. replace (acc + 18446744073709551616 - p_weight p) with ((acc - p_weight p) + 1 * 18446744073709551616) by lia.
    rewrite N.mod_add by lia. apply N.mod_small. lia. }
  rewrite E. rewrite IH; lia.
Qed.

Lemma sum_filter_le f (l : list proposer) : sumN (weights (filter f l)) <= sumN (weights l).
Proof. induction l as [|x t IH]; cbn; [lia|]. destruct (f x); cbn; unfold weights in *; lia. Qed.

Lemma sum_filter_firstn_filter f m (l : list proposer) :
  sumN (weights (filter f (firstn m l))) <= sumN (weights (filter f l)).
Proof.
  revert l. induction m as [|m IH]; intros l; cbn; [lia|]. destruct l as [|x t]; cbn; [lia|].
  specialize (IH t). destruct (f x); cbn; unfold weights in *; lia.
Qed.

Theorem score_pos_bounds pt T k seq mep total : 0 < T -> 1 <= k ->
  sumN (weights seq) * max_pos_score < 18446744073709551616 ->
  sumN (weights seq) <= total -> 0 < total ->
  let ms := missed pt T (pt + k * T) (p_addr mep) seq 0 in
  snd (updates_pos pt T seq mep total (pt + k * T)) =
    (sumN (weights seq) - sumN (weights ms)) * max_pos_score / total /\
  snd (updates_pos pt T seq mep total (pt + k * T)) <= max_pos_score.
Proof.
  intros HT Hk Hnw Htot Hpos ms. unfold max_pos_score in *. cbn [updates_pos snd]. fold ms.
  assert (Hms : sumN (weights ms) <= sumN (weights seq)).
  { subst ms. rewrite missed_spec by auto. eapply N.le_trans; [apply sum_filter_firstn_filter | apply sum_filter_le]. }
  rewrite fold_add_nowrap by lia. cbn [N.add].
  rewrite fold_sub_nowrap by lia.
  destruct (N.ltb_spec 0 total) as [_|]; [|lia].
  unfold wrap64, max_pos_score. rewrite N.mod_small by nia. split; [reflexivity|].
  apply N.div_le_upper_bound; nia.
Qed.

Lemma is_the_time_v1_iff h pt T acts me t : 
  is_the_time_v1 h pt T acts me t = true <->
  pt < t /\ (t - pt) mod T = 0 /\ exists p, whose_turn h acts t = Some p /\ p_addr p = me.
Proof.
  unfold is_the_time_v1. rewrite time_guard_iff.
  destruct (whose_turn h acts t) as [p|]; [rewrite N.eqb_eq|]; split; intros (H1 & H2 & H3); repeat split; auto.
  - exists p. auto.
  - destruct H3 as (q & Eq & Ea). congruence.
  - discriminate.
  - destruct H3 as (q & Eq & _). discriminate.
Qed.

Lemma whose_turn_some h acts t : acts <> [] -> exists p, whose_turn h acts t = Some p /\ In p acts.
Proof.
  intros Hne. unfold whose_turn.
  assert (Hn : 0 < N.of_nat (length acts)) by (destruct acts; [congruence|cbn; lia]).
  assert (Hi : h t mod N.of_nat (length acts) < N.of_nat (length acts)) by (apply N.mod_lt; lia).
  destruct (nth_error acts (N.to_nat (h t mod N.of_nat (length acts)))) as [p|] eqn:E.
  - exists p. split; [reflexivity|]. eapply nth_error_In; eauto.
  - apply nth_error_None in E. lia.
Qed.

Lemma schedule_v1_from_some h T acts me fuel t0 t :
  schedule_v1_from h T acts me fuel t0 = Some t ->
  exists i, i < N.of_nat fuel /\ t = t0 + i * T /\
    (exists p, whose_turn h acts t = Some p /\ p_addr p = me) /\
    forall i', i' < i -> forall p, whose_turn h acts (t0 + i' * T) = Some p -> p_addr p <> me.
Proof.
  revert t0. induction fuel as [|f IH]; intros t0; cbn [schedule_v1_from]; [discriminate|].
  destruct (whose_turn h acts t0) as [p|] eqn:E; [|discriminate].
  destruct (N.eqb_spec (p_addr p) me) as [Ea|Ea].
  - intros H; inversion H; subst t. exists 0. repeat split; try lia; eauto.
  - intros H. apply IH in H. destruct H as [i [Hi [Et [Hown Hearly]]]].
    exists (i + 1). repeat split; try lia; auto.
    intros i' Hi' q Hq. destruct (N.eq_dec i' 0) as [->|Hne].
    + replace (t0 + 0 * T) with t0 in Hq by lia. congruence.
    + apply (Hearly (i' - 1)); [lia|]. replace (t0 + T + (i' - 1) * T) with (t0 + i' * T) by nia. exact Hq.
Qed.

Theorem schedule_v1_spec h pt T acts me now fuel t : 0 < T ->
  schedule_v1 h pt T acts me now fuel = Some t ->
  is_the_time_v1 h pt T acts me t = true /\ now <= t /\ pt < t /\
  forall t', now <= t' -> pt < t' -> t' < t -> is_the_time_v1 h pt T acts me t' = false.
Proof.
  intros HT H. unfold schedule_v1 in H.
  destruct (first_slot_spec pt T now HT) as [k0 [Hk0 [Ef [Hnow Hmin]]]]. rewrite Ef in H.
  apply schedule_v1_from_some in H. destruct H as [i [Hi [Et [Hown Hearly]]]].
  assert (Et' : t = pt + (k0 + i) * T) by lia.
  repeat split.
  - apply is_the_time_v1_iff. repeat split; [nia|rewrite Et'; apply aligned_mod; auto|exact Hown].
  - nia.
  - nia.
  - intros t' H1 H2 H3. destruct (is_the_time_v1 h pt T acts me t') eqn:Es; [|reflexivity]. exfalso.
    apply is_the_time_v1_iff in Es. destruct Es as [_ [Hal [p [Hp Ea]]]].
    destruct (aligned_form pt T t' HT H2 Hal) as [k [Hk Etk]].
    specialize (Hmin k Hk ltac:(lia)).
    apply (Hearly (k - k0) ltac:(nia) p); [|exact Ea].
    replace (pt + k0 * T + (k - k0) * T) with t' by nia. exact Hp.
Qed.

Lemma schedule_v1_from_none h T acts me fuel t0 : acts <> [] ->
  schedule_v1_from h T acts me fuel t0 = None ->
  forall i, i < N.of_nat fuel -> forall p, whose_turn h acts (t0 + i * T) = Some p -> p_addr p <> me.
Proof.
  intros Hne. revert t0. induction fuel as [|f IH]; intros t0; cbn [schedule_v1_from]; [intros; lia|].
  destruct (whose_turn_some h acts t0 Hne) as [p [Ep _]]. rewrite Ep.
  destruct (N.eqb_spec (p_addr p) me) as [Ea|Ea]; [discriminate|].
  intros H i Hi q Hq. destruct (N.eq_dec i 0) as [->|Hn0].
  - replace (t0 + 0 * T) with t0 in Hq by lia. congruence.
  - apply (IH (t0 + T) H (i - 1)); [lia|]. replace (t0 + T + (i - 1) * T) with (t0 + i * T) by nia. exact Hq.
Qed.

(* the out-of-fuel value is reported only when no slot within the fuel is owned by me *)
Theorem schedule_v1_none_spec h pt T acts me now fuel : acts <> [] ->
  schedule_v1 h pt T acts me now fuel = None ->
  forall i, i < N.of_nat fuel -> forall p,
    whose_turn h acts (first_slot pt T now + i * T) = Some p -> p_addr p <> me.
Proof. intros Hne H. apply (schedule_v1_from_none h T acts me fuel _ Hne H). Qed.

Lemma missed_v1_sound h pt T acts me fuel t a :
  In a (missed_v1 h pt T acts me fuel t) ->
  a <> me /\ exists i, i * T <= t /\ pt < t - i * T /\
     exists p, whose_turn h acts (t - i * T) = Some p /\ p_addr p = a.
Proof.
  revert t. induction fuel as [|f IH]; intros t; cbn [missed_v1]; [intros []|].
  destruct (N.leb_spec t pt) as [Hle|Hgt]; [intros []|].
  destruct (whose_turn h acts t) as [p|] eqn:E; [|intros []].
  intros Hin. apply in_app_or in Hin. destruct Hin as [Hin|Hin].
  - destruct (N.eqb_spec (p_addr p) me) as [Ea|Ea]; [destruct Hin|].
    destruct Hin as [<-|[]]. split; [exact Ea|]. exists 0. repeat split; try lia.
    exists p. split; [|reflexivity]. replace (t - 0 * T) with t by lia. exact E.
  - apply IH in Hin. destruct Hin as [Hnm [i [Hi1 [Hi2 [q [Hq Ea]]]]]]. split; [exact Hnm|].
    exists (i + 1). repeat split; try lia.
    exists q. split; [|exact Ea]. replace (t - (i + 1) * T) with (t - T - i * T) by lia. exact Hq.
Qed.

Lemma dedupN_in l a : In a (dedupN l) <-> In a l.
Proof.
  induction l as [|x t IH]; cbn; [tauto|].
  destruct (existsb (N.eqb x) t) eqn:E.
  - rewrite IH. split; [tauto|]. intros [->|H]; [|exact H].
    apply existsb_exists in E. destruct E as [y [Hy Exy]]. apply N.eqb_eq in Exy. now subst.
  - cbn. rewrite IH. tauto.
Qed.

Lemma dedupN_nodup l : NoDup (dedupN l).
Proof.
  induction l as [|x t IH]; cbn; [constructor|].
  destruct (existsb (N.eqb x) t) eqn:E; [exact IH|]. constructor; [|exact IH].
  rewrite dedupN_in. intros Hin.
  assert (existsb (N.eqb x) t = true) by (apply existsb_exists; exists x; split; [exact Hin|apply N.eqb_refl]).
  congruence.
Qed.

Theorem score_v1_bounds h pt T acts mep nbt :
  NoDup (addrs acts) -> In (p_addr mep) (addrs acts) ->
  let score := snd (updates_v1 h pt T acts mep nbt) in
  1 <= score /\ score <= N.of_nat (length acts).
Proof.
  intros Hnd Hme. cbn [updates_v1 snd].
  set (ms := dedupN _).
  set (nm := fun a : N => negb (a =? p_addr mep)).
  assert (Hincl : incl ms (filter nm (addrs acts))).
  { intros a Ha. subst ms. apply (proj1 (dedupN_in _ _)) in Ha. apply missed_v1_sound in Ha.
    destruct Ha as [Hnm [i [_ [_ [p [Hp Ea]]]]]]. apply filter_In. split.
    - unfold addrs. apply in_map_iff. exists p. split; [exact Ea|].
      unfold whose_turn in Hp. eapply nth_error_In; eauto.
    - unfold nm. now destruct (N.eqb_spec a (p_addr mep)). }
  assert (Hlen : (length ms <= length (filter nm (addrs acts)))%nat).
  { apply NoDup_incl_length; [apply dedupN_nodup|exact Hincl]. }
  assert (Hlt : (length (filter nm (addrs acts)) < length (addrs acts))%nat).
  { apply (filter_length_lt nm _ _ Hme). unfold nm. rewrite N.eqb_refl. reflexivity. }
  unfold addrs in Hlt at 2. rewrite map_length in Hlt. lia.
Qed.

Theorem updates_v1_sound h pt T acts mep nbt a : 0 < T ->
  In (a, false) (fst (updates_v1 h pt T acts mep nbt)) ->
  a <> p_addr mep /\ exists t, pt < t /\ t < nbt /\ exists p, whose_turn h acts t = Some p /\ p_addr p = a.
Proof.
  intros HT Hin. cbn [updates_v1 fst] in Hin. apply in_app_or in Hin. destruct Hin as [Hin|Hin].
  - apply in_map_iff in Hin. destruct Hin as [b [Eb Hb]]. inversion Eb; subst b.
    apply (proj1 (dedupN_in _ _)) in Hb. apply missed_v1_sound in Hb.
    destruct Hb as [Hnm [i [Hi1 [Hi2 [p [Hp Ea]]]]]]. split; [exact Hnm|].
    exists (nbt - T - i * T). repeat split; [lia|lia|]. exists p. tauto.
  - unfold reactivation in Hin. destruct (p_active mep); cbn in Hin; [tauto|]. destruct Hin as [E|[]]. discriminate.
Qed.
