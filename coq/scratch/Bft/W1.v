From Coq Require Import List NArith Bool Lia.
From Verif Require Import Common.Util Bft.Tree Bft.Model Bft.Quorum Bft.Safety Bft.ProofsWitness Bft.ProofsChain Bft.ProofsSafety.
Import ListNotations.
Open Scope N_scope.

Definition sx4 := bk 4 3 1 1 true 13.  Definition sx5 := bk 5 3 3 2 true 14.
Definition sx6 := bk 6 3 3 4 true 15.  Definition sx7 := bk 7 3 3 4 true 16.
Definition sy4 := bk 4 2 1 4 true 16.  Definition sy5 := bk 5 2 2 1 true 17.
Definition sy6 := bk 6 2 2 2 true 18.  Definition sy7 := bk 7 2 2 4 true 19.
Definition sib_run : list event :=
  [ P 0%nat c1; I 1%nat c1; I 2%nat c1; P 1%nat c2; I 0%nat c2; I 2%nat c2; P 2%nat c3; I 0%nat c3; I 1%nat c3;
    P 0%nat sx4; I 1%nat sx4; P 1%nat sx5; I 0%nat sy4; P 0%nat sy5; I 1%nat sy4; I 1%nat sy5; P 1%nat sy6;
    I 2%nat sx4; I 2%nat sx5; I 2%nat sx6; I 2%nat sx7; I 2%nat sy4; I 2%nat sy5; I 2%nat sy6; I 2%nat sy7 ].
Eval vm_compute in valid_run_b true cfg4 [4] f4_world [gen] sib_run.
Definition tree := seen_after [gen] sib_run.
Eval vm_compute in (state_pure cfg4 (chain_of tree (b_id sx7)), state_pure cfg4 (chain_of tree (b_id sy7)),
  conflict tree (b_id sx4) (b_id sy4), no_tie_switch_b true cfg4 f4_world sib_run, all_fins true cfg4 f4_world sib_run).
