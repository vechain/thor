(* GenProofs/EpochProofs.v — lemmas over the GENERATED translation of bft's epoch arithmetic (coq/Gen/Epoch.v). *)
From Coq Require Import ZArith Bool Lia.
From Verif Require Import Common.GoInt Gen.Epoch.
Open Scope Z_scope.

Section E.
Variable L : Z.                       (* thor.EpochLength() *)
Hypothesis HL : 0 < L < 4294967296.

Lemma floor_mul n : n / L * L = n - n mod L.
Proof. pose proof (Z.div_mod n L ltac:(lia)) as H. rewrite (Z.mul_comm (n / L) L). lia. Qed.

Theorem checkpoint_spec n : 0 <= n < 4294967296 ->
  getCheckPoint L n = n - n mod L /\ getCheckPoint L n <= n < getCheckPoint L n + L /\ (getCheckPoint L n) mod L = 0.
Proof.
  intros Hn. unfold getCheckPoint.
  pose proof (Z.mod_pos_bound n L ltac:(lia)) as Hm.
  pose proof (Z.mod_le n L ltac:(lia) ltac:(lia)) as Hle.
  rewrite floor_mul, wrapU32_id by lia. repeat split; try lia.
  rewrite <- floor_mul. apply Z.mod_mul. lia.
Qed.

Lemma checkpoint_nonneg n : 0 <= n < 4294967296 -> 0 <= getCheckPoint L n.
Proof.
  intros Hn. destruct (checkpoint_spec n Hn) as [-> _]. pose proof (Z.mod_le n L ltac:(lia) ltac:(lia)). lia.
Qed.

Theorem is_checkpoint_iff n : 0 <= n < 4294967296 -> (isCheckPoint L n = true <-> n mod L = 0).
Proof.
  intros Hn. unfold isCheckPoint. destruct (checkpoint_spec n Hn) as [E _]. rewrite E, Z.eqb_eq. lia.
Qed.

(* the store point is the last block of the epoch, as long as the epoch does not straddle 2^32 *)
Theorem storepoint_spec n : 0 <= n < 4294967296 -> getCheckPoint L n + L <= 4294967296 ->
  getStorePoint L n = getCheckPoint L n + L - 1 /\ n <= getStorePoint L n /\
  getCheckPoint L (getStorePoint L n) = getCheckPoint L n.
Proof.
  intros Hn Hb.
  destruct (checkpoint_spec n Hn) as [_ [Hr Hm]]. pose proof (checkpoint_nonneg n Hn) as Hc.
  unfold getStorePoint. set (c := getCheckPoint L n) in *.
  assert (Esp : wrapU 32 (wrapU 32 (c + L) - 1) = c + L - 1).
  { destruct (Z.eq_dec (c + L) 4294967296) as [Eq|Ne].
    - rewrite Eq. reflexivity.
    - drop_wraps. reflexivity. }
  rewrite Esp.
  repeat split; try lia.
  destruct (checkpoint_spec (c + L - 1) ltac:(lia)) as [-> _].
  (* c is a multiple of L, so c + L - 1 is L - 1 past one *)
  replace (c + L - 1) with ((L - 1) + (c / L) * L) at 2 by (rewrite floor_mul; lia).
  rewrite Z.mod_add, Z.mod_small by lia. lia.
Qed.

(* consecutive epochs: the block after a store point is the next checkpoint *)
Theorem next_checkpoint n : 0 <= n < 4294967296 -> getCheckPoint L n + L < 4294967296 ->
  isCheckPoint L (getStorePoint L n + 1) = true.
Proof.
  intros Hn Hb. destruct (storepoint_spec n Hn ltac:(lia)) as [-> _].
  destruct (checkpoint_spec n Hn) as [_ [_ Hm]]. pose proof (checkpoint_nonneg n Hn).
  apply is_checkpoint_iff; [lia|].
  replace (getCheckPoint L n + L - 1 + 1) with (getCheckPoint L n + 1 * L) by lia.
  rewrite Z.mod_add by lia. exact Hm.
Qed.

End E.
