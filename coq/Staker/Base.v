(* Staker/Base.v — lemmas about the association-list maps, the result monad and small arithmetic helpers. *)
From Coq Require Import List NArith Bool Lia.
From Coq Require Import ZifyBool.
From Verif Require Import Common.Util Staker.Model.
Import ListNotations.
Open Scope N_scope.

Lemma bind_ok {A B} (r : res A) (k : A -> res B) (b : B) :
  bind r k = Ok b -> exists a, r = Ok a /\ k a = Ok b.
Proof. destruct r; cbn; intros; try discriminate. eauto. Qed.

Lemma guard_ok b : guard b = Ok tt -> b = true.
Proof. destruct b; cbn; congruence. Qed.
Lemma must_ok b : must b = Ok tt -> b = true.
Proof. destruct b; cbn; congruence. Qed.
Lemma guard_ok' b u : guard b = Ok u -> b = true.
Proof. destruct b; cbn; congruence. Qed.
Lemma must_ok' b u : must b = Ok u -> b = true.
Proof. destruct b; cbn; congruence. Qed.
Lemma of_opt_ok {A} (o : option A) a : of_opt o = Ok a -> o = Some a.
Proof. destruct o; cbn; congruence. Qed.

Lemma safe_add_some a b c : safe_add a b = Some c -> c = a + b /\ a + b < two64.
Proof. unfold safe_add. destruct (a + b <? two64) eqn:E; intros H; inversion H. split; auto. apply N.ltb_lt; auto. Qed.
Lemma safe_sub_some a b c : safe_sub a b = Some c -> c = a - b /\ b <= a.
Proof. unfold safe_sub. destruct (b <=? a) eqn:E; intros H; inversion H. split; auto. apply N.leb_le; auto. Qed.

Lemma ws_add_ok a b c : ws_add a b = Ok c -> fst c = fst a + fst b /\ snd c = snd a + snd b.
Proof.
  unfold ws_add. intros H.
  apply bind_ok in H as [v [H1 H]]. apply bind_ok in H as [w [H2 H]]. inversion H; subst; cbn.
  apply of_opt_ok, safe_add_some in H1. apply of_opt_ok, safe_add_some in H2. intuition.
Qed.
Lemma ws_sub_ok a b c : ws_sub a b = Ok c ->
  fst c = fst a - fst b /\ snd c = snd a - snd b /\ fst b <= fst a /\ snd b <= snd a.
Proof.
  unfold ws_sub. intros H.
  apply bind_ok in H as [v [H1 H]]. apply bind_ok in H as [w [H2 H]]. inversion H; subst; cbn.
  apply of_opt_ok, safe_sub_some in H1. apply of_opt_ok, safe_sub_some in H2. intuition.
Qed.

Section MapLemmas.
  Context {V : Type}.
  Implicit Types (m : list (N * V)) (k : N) (v : V).

  Lemma get_upd_same m k v : get (upd m k v) k = Some v.
  Proof.
    induction m as [|[k' v'] t IH]; cbn.
    - rewrite N.eqb_refl; auto.
    - destruct (k' =? k) eqn:E; cbn.
      + rewrite N.eqb_refl; auto.
      + rewrite E; auto.
  Qed.

  Lemma get_upd_other m k k' v : k <> k' -> get (upd m k v) k' = get m k'.
  Proof.
    intros Hne. induction m as [|[k0 v0] t IH]; cbn.
    - destruct (k =? k') eqn:E; auto. apply N.eqb_eq in E; contradiction.
    - destruct (k0 =? k) eqn:E; cbn.
      + apply N.eqb_eq in E; subst. destruct (k =? k') eqn:E2; auto. apply N.eqb_eq in E2; contradiction.
      + destruct (k0 =? k'); auto.
  Qed.

  Lemma get_upd m k k' v : get (upd m k v) k' = if k =? k' then Some v else get m k'.
  Proof.
    destruct (k =? k') eqn:E.
    - apply N.eqb_eq in E; subst. apply get_upd_same.
    - apply N.eqb_neq in E. apply get_upd_other; auto.
  Qed.

  (* sums: replacing the value under k changes the sum by the difference *)
  Lemma sumf_upd_some (f : V -> N) m k v old :
    get m k = Some old -> sumf f (upd m k v) + f old = sumf f m + f v.
  Proof.
    revert old. induction m as [|[k' v'] t IH]; cbn; intros old H; [discriminate|].
    destruct (k' =? k) eqn:E; cbn.
    - inversion H; subst. lia.
    - specialize (IH old H). lia.
  Qed.

  Lemma sumf_upd_none (f : V -> N) m k v :
    get m k = None -> sumf f (upd m k v) = sumf f m + f v.
  Proof.
    induction m as [|[k' v'] t IH]; cbn; intros H; [lia|].
    destruct (k' =? k) eqn:E; cbn; [discriminate|]. rewrite IH; auto. lia.
  Qed.

  Lemma sumf_get_le (f : V -> N) m k v : get m k = Some v -> f v <= sumf f m.
  Proof.
    induction m as [|[k' v'] t IH]; cbn; intros H; [discriminate|].
    destruct (k' =? k); [inversion H; subst; lia|]. specialize (IH H). lia.
  Qed.

  Lemma get_some_in_keys m k v : get m k = Some v -> In k (map fst m).
  Proof.
    induction m as [|[k' v'] t IH]; cbn; [discriminate|].
    destruct (k' =? k) eqn:E; [apply N.eqb_eq in E; left; auto|right; auto].
  Qed.

  Lemma upd_length_le m k v : (length m <= length (upd m k v))%nat.
  Proof. induction m as [|[k' v'] t IH]; cbn; [lia|]. destruct (k' =? k); cbn; lia. Qed.
End MapLemmas.

(* one bind of a successful monadic computation; the elementary facts of guards and checked arithmetic *)
Ltac bstep H x Hx := cbv zeta in H; apply bind_ok in H as [x [Hx H]].
Ltac gfacts :=
  repeat match goal with
  | H : guard _ = Ok _ |- _ => apply guard_ok' in H
  | H : must _ = Ok _ |- _ => apply must_ok' in H
  | H : of_opt _ = Ok _ |- _ => apply of_opt_ok in H
  | H : safe_add _ _ = Some _ |- _ => apply safe_add_some in H; destruct H as [? ?]
  | H : safe_sub _ _ = Some _ |- _ => apply safe_sub_some in H; destruct H as [? ?]
  end.
