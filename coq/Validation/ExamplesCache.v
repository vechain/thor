(* Validation/ExamplesCache.v — the hypotheses of the cache theorems instantiated on concrete histories in which the
   candidate list, the endorsement selection and the leader group REALLY change (Authority event, endorsor transfer,
   Params event, activity updates; housekeeping and BeneficiarySet), and the theorems applied to them. *)
From Coq Require Import List NArith Bool Lia.
From Verif Require Import Common.Util Sched.Model Header.Rules Validation.Cache Validation.ProofsCache.
Import ListNotations.
Open Scope N_scope.

Definition A := mkAC 1 10 true.
Definition B := mkAC 2 20 true.
Definition C := mkAC 3 30 false.
Definition D := mkAC 4 40 true.

(* block 1: Authority event (D added).  block 2: proposer 3 re-activated; VET transfer from endorsor 20 (B under-funded
   afterwards).  block 3: nothing watched; master 1 missed its slot.  block 4: Params event (max proposers 3 -> 2). *)
Definition x_ups (b : N) : list (N * bool) :=
  match b with 2 => [(3, true)] | 3 => [(1, false)] | _ => [] end.
Definition x_ev (b : N) : events :=
  match b with
  | 1 => mkEv true false false false []
  | 2 => mkEv false false false false [20; 77]
  | 4 => mkEv false true false false []
  | _ => mkEv false false false false [55; 66]
  end.
Definition x_all (b : N) : list acand :=
  match b with
  | 0 => [A; B; C]
  | 1 => [A; B; C; D]
  | 2 => [A; B; mkAC 3 30 true; D]
  | _ => [mkAC 1 10 false; B; mkAC 3 30 true; D]
  end.
Definition x_funded (b : N) (m e : N) : bool := if 2 <=? b then negb (e =? 20) else true.
Definition x_mbp (b : N) : N := if 4 <=? b then 2 else 3.
Definition x_child (p b : N) : Prop := b = p + 1 /\ p < 4.
(* the verdict = the proposers the validator used (so that a wrong list would show) *)
Definition x_judge (props : list acand) (p b : N) : list acand * option (list (N * bool) * events) :=
  (props, Some (x_ups b, x_ev b)).

Lemma x_cases p : p < 4 -> p = 0 \/ p = 1 \/ p = 2 \/ p = 3.
Proof. lia. Qed.

Lemma x_hyp1 p b ups ev : x_child p b ->
  snd (x_judge (poa_fresh N x_all x_funded x_mbp p) p b) = Some (ups, ev) -> ev_authority ev = false ->
  x_all b = apply_updates_list (x_all p) ups.
Proof.
  intros [-> Hp] E Ha. cbn [x_judge snd] in E. inversion E; subst ups ev. clear E.
  destruct (x_cases p Hp) as [-> | [-> | [-> | ->]]]; vm_compute in Ha |- *; try discriminate; reflexivity.
Qed.

Lemma x_hyp2 p b ups ev : x_child p b ->
  snd (x_judge (poa_fresh N x_all x_funded x_mbp p) p b) = Some (ups, ev) ->
  ((fun _ : N => false) b && ev_staker ev) = false -> ev_params ev = false ->
  (forall a, In a (ev_parties ev) -> existsb (fun c => ac_endorsor c =? a) (x_all p) = false) ->
  (forall c, In c (x_all p) -> x_funded b (ac_master c) (ac_endorsor c) = x_funded p (ac_master c) (ac_endorsor c)) /\
  x_mbp b = x_mbp p.
Proof.
  intros [-> Hp] E _ Hpar Hpt. cbn [x_judge snd] in E. inversion E; subst ups ev. clear E.
  destruct (x_cases p Hp) as [-> | [-> | [-> | ->]]].
  - split; [intros c _; reflexivity | reflexivity].
  - exfalso. specialize (Hpt 20 (or_introl eq_refl)). vm_compute in Hpt. discriminate.
  - split; [intros c _; reflexivity | reflexivity].
  - vm_compute in Hpar. discriminate.
Qed.

Definition x_steps : list (N * N) := [(0, 1); (1, 2); (2, 3); (3, 4); (2, 3); (3, 4)].

(* the hypotheses hold on this history, so the warm validator judges every step as a cold one ... *)
Example poa_cache_hypotheses_instance :
  poa_run N N.eqb (list acand) x_all x_funded x_mbp (fun _ => false) x_judge [] x_steps =
  map (fun pb => poa_fresh N x_all x_funded x_mbp (fst pb)) x_steps.
Proof.
  rewrite (poa_run_is_cold N N.eqb N.eqb_eq (list acand) x_child x_all x_funded x_mbp (fun _ => false) x_judge x_hyp1 x_hyp2
             x_steps [] ltac:(intros b e X; discriminate)).
  - reflexivity.
  - unfold x_steps, x_child. repeat constructor; cbn; lia.
Qed.

(* ... and the history is not trivial: the proposer list differs from block to block, the cache really holds, drops and
   invalidates entries (entry for 1: none — Authority event; for 2: list kept, selection dropped — endorsor transfer;
   for 3: list and selection kept; for 4: selection dropped — Params event) *)
Example poa_cache_history_nontrivial :
  map ac_master (poa_fresh N x_all x_funded x_mbp 0) = [1; 2; 3] /\
  map ac_master (poa_fresh N x_all x_funded x_mbp 1) = [1; 2; 3] /\
  map ac_master (poa_fresh N x_all x_funded x_mbp 2) = [1; 3; 4] /\
  map ac_active (poa_fresh N x_all x_funded x_mbp 3) = [false; true; true] /\
  map ac_master (poa_fresh N x_all x_funded x_mbp 4) = [1; 3] /\
  let c4 := fold_left (fun c pb => fst (poa_step N N.eqb (list acand) x_all x_funded x_mbp (fun _ => false) x_judge c (fst pb) (snd pb)))
                      [(0, 1); (1, 2); (2, 3); (3, 4)] [] in
  pget N N.eqb c4 1 = None /\
  option_map ce_sat (pget N N.eqb c4 2) = Some [] /\
  option_map ce_sat (pget N N.eqb c4 3) = Some [0; 2; 3]%nat /\
  option_map ce_sat (pget N N.eqb c4 4) = Some [].
Proof. vm_compute. repeat split; reflexivity. Qed.

(* the same history with an LRU that loses entries between validations (here: everything, twice) *)
Definition x_lossy_steps : list ((pcache N -> pcache N) * (N * N)) :=
  [(fun c => c, (0, 1)); (fun c => c, (1, 2)); (fun _ => [], (2, 3)); (fun c => c, (3, 4)); (fun _ => [], (3, 4)); (fun c => c, (2, 3))].

Example poa_cache_lossy_instance :
  poa_run_lossy N N.eqb (list acand) x_all x_funded x_mbp (fun _ => false) x_judge [] x_lossy_steps =
  map (fun s => poa_fresh N x_all x_funded x_mbp (fst (snd s))) x_lossy_steps.
Proof.
  rewrite (poa_run_lossy_is_cold N N.eqb N.eqb_eq (list acand) x_child x_all x_funded x_mbp (fun _ => false) x_judge x_hyp1 x_hyp2
             x_lossy_steps [] ltac:(intros b e X; discriminate)).
  - reflexivity.
  - unfold x_lossy_steps, x_child, only_loses_p.
    repeat constructor; cbn [fst snd]; try lia; try (intros c b e X; exact X); try (intros c b e X; discriminate X).
Qed.

Definition L1 := mkC (mkP 1 true 60) 0 0 None.
Definition L2 := mkC (mkP 2 true 40) 0 0 None.
Definition L2b := mkC (mkP 2 true 40) 0 0 (Some 99).
Definition L3 := mkC (mkP 3 true 25) 0 0 None.

(* after block 1 housekeeping for height 2 activates validator 3; block 3 contains setBeneficiary(2, 99) *)
Definition y_hk (p : N) : bool := p =? 1.
Definition y_pre (b : N) : list cand := match b with 0 | 1 => [L1; L2] | 2 => [L1; L2; L3] | _ => [L1; L2b; L3] end.
Definition y_of (b : N) : list cand := match b with 0 => [L1; L2] | 1 | 2 => [L1; L2; L3] | _ => [L1; L2b; L3] end.
Definition y_ev (b : N) : events := mkEv false false (b =? 3) (b =? 3) [].
Definition y_judge (ls : list cand) (p b : N) : list cand * option (list (N * bool) * events) := (ls, Some ([], y_ev b)).
Definition y_child (p b : N) : Prop := b = p + 1 /\ p < 3.

Lemma y_hyp1 p : y_hk p = false -> y_of p = y_pre p.
Proof.
  unfold y_hk. intros H. apply N.eqb_neq in H. destruct p as [|[q|q|]]; try reflexivity; try contradiction; destruct q; reflexivity.
Qed.

Lemma y_hyp2 p b ev : y_child p b -> snd (y_judge (y_of p) p b) = Some ([], ev) -> ev_beneficiary_set ev = false ->
  y_pre b = y_of p.
Proof.
  intros [-> Hp] E Hb. cbn [y_judge snd] in E. inversion E; subst ev. clear E.
  assert (Hc : p = 0 \/ p = 1 \/ p = 2) by lia. destruct Hc as [-> | [-> | ->]]; vm_compute in Hb |- *; try discriminate; reflexivity.
Qed.

Definition y_steps : list (N * N) := [(0, 1); (1, 2); (2, 3); (1, 2); (2, 3)].

Example pos_cache_hypotheses_instance :
  pos_run N N.eqb (list cand) y_hk y_of y_judge [] y_steps = map (fun pb => y_of (fst pb)) y_steps.
Proof.
  rewrite (pos_run_is_cold N N.eqb N.eqb_eq (list cand) y_child y_hk y_of y_pre y_judge y_hyp1 y_hyp2
             y_steps [] ltac:(intros b e X; discriminate)).
  - reflexivity.
  - unfold y_steps, y_child. repeat constructor; cbn; lia.
Qed.

(* the leader group changes by housekeeping (after block 1) and by BeneficiarySet (block 3); the cache holds an entry for
   blocks 1 and 2, drops the one for 1 when housekeeping reports updates, and stores none for block 3 *)
Example pos_cache_history_nontrivial :
  y_of 0 <> y_of 1 /\ y_pre 3 <> y_of 2 /\
  let c := fold_left (fun c pb => fst (pos_step N N.eqb (list cand) y_hk y_of y_judge c (fst pb) (snd pb))) [(0, 1); (1, 2); (2, 3)] [] in
  sget N N.eqb c 1 = None /\ sget N N.eqb c 2 = Some [L1; L2; L3] /\ sget N N.eqb c 3 = None.
Proof. split; [discriminate|]. split; [discriminate|]. vm_compute. repeat split; reflexivity. Qed.
