(* Bft/ProofsMonotone.v — the single-node clause of C03: along any import history every new finalized checkpoint is a
   descendant-or-equal of the previous one, and every block the node stores descends from the finalized checkpoint of
   that moment (blocks that do not are refused by Accepts). *)
From Coq Require Import List NArith ZArith Bool Lia.
From Coq Require Import ZifyN ZifyNat ZifyBool.
From Verif Require Import Common.Util Bft.Tree Bft.Model Bft.Quorum Bft.ProofsTally Bft.ProofsChain Bft.ProofsSuffix
  Bft.ProofsNode Bft.ProofsFinal.
Import ListNotations.
Open Scope N_scope.

Lemma at_num_skip l1 : forall x l2 n, grounded (l1 ++ x :: l2) -> n <= b_num x ->
  at_num (l1 ++ x :: l2) n = at_num (x :: l2) n.
Proof. intros x l2 n Hg Hn. rewrite !at_num_suffix, (suffix_at_skip l1 x l2 n Hg Hn). reflexivity. Qed.

Lemma at_num_self ch : grounded ch -> forall y, In y ch -> at_num ch (b_num y) = Some y.
Proof.
  intros Hg y Hin. destruct (in_split _ _ Hin) as [l1 [l2 E]]. subst ch.
  rewrite (at_num_skip l1 y l2 _ Hg (N.le_refl _)). unfold at_num. cbn [find]. rewrite N.eqb_refl. reflexivity.
Qed.

Lemma has_block_stored r head id : has_block r head id = true -> exists x, In x (chain_of r head) /\ b_id x = id.
Proof.
  unfold has_block, chain_has, at_num. destruct (find _ _) as [x|] eqn:E; [|discriminate].
  intros H. apply N.eqb_eq in H. exists x. split; [exact (proj1 (find_some _ _ E)) | exact H].
Qed.

(* the chain of an ancestor is a suffix of the descendant's *)
Lemma ancestor_suffix r head B : wf_repo r -> has_block r head (b_id B) = true ->
  exists l1, chain_of r head = l1 ++ chain_of r (b_id B).
Proof.
  intros Hwf Hh. destruct (has_block_stored _ _ _ Hh) as [z [Hz Hid]]. destruct (in_split _ _ Hz) as [l1 [l2 E]].
  exists l1. rewrite <- Hid, (chain_suffix r Hwf head l1 z l2 E). exact E.
Qed.

Lemma chain_last r : wf_repo r -> forall id x d, find_blk r id = Some x -> last (chain_of r id) d = last r d.
Proof.
  induction r as [|b r IH]; intros Hwf id x d Hf; [discriminate|].
  cbn in Hwf. destruct Hwf as [Hwf [Hfresh Hpar]].
  unfold find_blk in Hf. cbn [find] in Hf. cbn [chain_of]. destruct (b_id b =? id) eqn:E.
  - destruct r as [|r0 rr]; [reflexivity|].
    destruct Hpar as [p [Hp _]]. destruct (chain_of_known (r0 :: rr) Hwf _ _ Hp) as [t [Ht _]].
    rewrite Ht. change (last (b :: p :: t) d) with (last (p :: t) d). rewrite <- Ht. rewrite (IH Hwf _ p d Hp). reflexivity.
  - destruct r as [|r0 rr]; [discriminate|]. rewrite (IH Hwf _ x d Hf). reflexivity.
Qed.

(* on a grounded chain the only block with number 0 is the last one *)
Lemma grounded_zero_last ch : grounded ch -> forall x, In x ch -> b_num x = 0 -> forall d, last ch d = x.
Proof.
  induction ch as [|b t IH]; intros Hg x Hin H0 d; [destruct Hin|].
  destruct t as [|p t'].
  - destruct Hin as [<-|[]]. reflexivity.
  - pose proof Hg as Hg0. cbn in Hg. destruct Hg as [_ [Hn Hgt]].
    destruct Hin as [<-|Hin]; [lia|]. change (last (b :: p :: t') d) with (last (p :: t') d). exact (IH Hgt x Hin H0 d).
Qed.

Lemma last_in {A} (l : list A) d : l <> [] -> In (last l d) l.
Proof.
  induction l as [|a l IH]; [contradiction|]. intros _. destruct l as [|b l']; [left; reflexivity|].
  right. apply IH. discriminate.
Qed.

Section Mono.
Variable c : cfg.
Hypothesis HL : 0 < c_L c.
Notation L := (c_L c).

(* finalized is a stored block; when its number is 0 it is the root *)
Definition fin_ok (nd : node) : Prop :=
  (exists f, find_blk (n_repo nd) (e_fin (n_eng nd)) = Some f) /\
  (idnum (e_fin (n_eng nd)) = 0 -> forall d, e_fin (n_eng nd) = b_id (last (n_repo nd) d)).

(* a block with number 0 is on every chain of a well-formed repository exactly when it is the root *)
Lemma root_on_chain r id x : wf_repo r -> find_blk r id = Some x -> forall d, has_block r id (b_id (last r d)) = true.
Proof.
  intros Hwf Hf d. destruct (chain_of_known r Hwf _ _ Hf) as [t [Ht Hg]].
  assert (Hlast : last (chain_of r id) d = last r d) by (apply (chain_last r Hwf id x d Hf)).
  assert (Hr0 : b_num (last r d) = 0).
  { rewrite <- Hlast, Ht. clear Ht Hlast Hf. revert x Hg. induction t as [|p t IH]; intros x Hg; [exact Hg|].
    cbn in Hg. destruct Hg as [_ [_ Hg]]. change (last (x :: p :: t) d) with (last (p :: t) d). exact (IH p Hg). }
  unfold has_block, chain_has. change (idnum (b_id (last r d))) with (b_num (last r d)). rewrite Hr0, Ht.
  destruct (suffix_at_exists (x :: t) Hg x t eq_refl 0 ltac:(lia)) as [y [l2 [Hs Hy]]].
  rewrite at_num_suffix, Hs.
  assert (Hyin : In y (x :: t)). { destruct (suffix_at_split (x :: t) 0) as [l1 E]. rewrite Hs in E. rewrite E, in_app_iff. right. left. reflexivity. }
  rewrite <- (grounded_zero_last (x :: t) Hg y Hyin Hy d). rewrite <- Ht, Hlast. apply N.eqb_refl.
Qed.

(* if `old` is on the chain of head, it is on the chain of every block of that chain at or above old's number *)
Lemma has_block_inner r head x old : wf_repo r -> In x (chain_of r head) -> idnum old <= b_num x ->
  (exists hb, find_blk r head = Some hb) -> has_block r head old = true -> has_block r (b_id x) old = true.
Proof.
  intros Hwf Hin Hle [hb Hhb] Hh. destruct (chain_of_known r Hwf _ _ Hhb) as [t [Ht Hg]].
  destruct (in_split _ _ Hin) as [l1 [l2 E]].
  unfold has_block, chain_has in *. rewrite (chain_suffix r Hwf head l1 x l2 E).
  rewrite E in Hh. rewrite at_num_skip in Hh; [exact Hh | rewrite <- E, Ht; exact Hg | exact Hle].
Qed.

Lemma has_block_self r x : wf_repo r -> In x r -> has_block r (b_id x) (b_id x) = true.
Proof.
  intros Hwf Hin. pose proof (chain_of_stored r x Hwf Hin) as Hf.
  destruct (chain_of_known r Hwf _ _ Hf) as [t [Ht _]]. unfold has_block, chain_has, at_num. rewrite Ht. cbn [find].
  change (idnum (b_id x)) with (b_num x). rewrite N.eqb_refl. apply N.eqb_refl.
Qed.

Theorem add_and_commit_monotone guard nd b :
  inv c nd -> fin_ok nd -> known (n_repo nd) (b_id b) = false -> known (n_repo nd) (b_parent b) = true ->
  valid_child (n_repo nd) b -> accepts (n_repo nd) (n_eng nd) (b_parent b) = true ->
  let nd' := fst (add_and_commit guard c nd b false) in
  has_block (n_repo nd') (b_id b) (e_fin (n_eng nd)) = true /\
  has_block (n_repo nd') (e_fin (n_eng nd')) (e_fin (n_eng nd)) = true /\ fin_ok nd'.
Proof.
  intros Hi [[f Hf] Hroot] Hfresh Hpk Hvc Hacc. pose proof (inv_wf c _ Hi) as Hwf.
  destruct (child_setup c HL _ _ b Hwf (inv_qs c _ Hi) Hfresh Hpk Hvc) as [p [Hp [Hn [Hwf' [Hfb _]]]]].
  destruct (find_blk_id _ _ _ Hp) as [Hpid Hpin]. destruct (find_blk_id _ _ _ Hf) as [Hfid Hfin].
  set (r := n_repo nd) in *. set (e := n_eng nd) in *.
  cbv zeta. unfold add_and_commit. fold r e.
  pose proof (commit_block_finalized guard c (b :: r) e b false) as Hmove.
  destruct (commit_block guard c (b :: r) e b false) as [e' err]. unfold fin_ok. cbn [fst n_repo n_eng] in *.
  (* the new block descends from finalized *)
  assert (Hdesc : has_block (b :: r) (b_id b) (e_fin e) = true).
  { destruct (N.eq_dec (idnum (e_fin e)) 0) as [E0|E0].
    - rewrite (Hroot E0 b). replace (last r b) with (last (b :: r) b) by (destruct r; [discriminate | reflexivity]).
      apply (root_on_chain (b :: r) (b_id b) b Hwf' Hfb).
    - unfold accepts in Hacc. apply N.eqb_neq in E0. rewrite E0 in Hacc. cbn [negb] in Hacc.
      unfold has_block, chain_has in *. rewrite chain_of_head. unfold at_num in *. cbn [find].
      destruct (find (fun x => b_num x =? idnum (e_fin e)) (chain_of r (b_parent b))) as [y|] eqn:Ey; [|discriminate].
      destruct (find_some _ _ Ey) as [Hyin Hynum]. apply N.eqb_eq in Hynum.
      rewrite <- Hpid in Hyin. pose proof (chain_num_le r p y Hwf Hpin Hyin) as Hyle.
      assert (E : (b_num b =? idnum (e_fin e)) = false) by (apply N.eqb_neq; lia). rewrite E. exact Hacc. }
  split; [exact Hdesc|].
  destruct Hmove as [Hsame | [x [Hin [Hx Hle]]]].
  - rewrite Hsame. split; [rewrite <- Hfid; apply has_block_self; [exact Hwf' | right; exact Hfin]|]. split.
    + exists f. exact (find_blk_other b r _ f Hfresh Hf).
    + intros E0 d. rewrite (Hroot E0 d). destruct r; [discriminate | reflexivity].
  - rewrite Hx. split.
    + apply (has_block_inner (b :: r) (b_id b) x (e_fin e) Hwf' Hin Hle); [exists b; exact Hfb | exact Hdesc].
    + split.
      * exists x. apply (chain_of_stored (b :: r) x Hwf'). exact (chain_incl _ _ _ Hin).
      * change (idnum (b_id x)) with (b_num x). intros E0 d.
        destruct (chain_of_known (b :: r) Hwf' _ _ Hfb) as [t' [Ht' Hg']].
        rewrite Ht' in Hin. rewrite <- (grounded_zero_last (b :: t') Hg' x Hin E0 d). rewrite <- Ht'.
        rewrite (chain_last (b :: r) Hwf' (b_id b) b d Hfb). reflexivity.
Qed.

Theorem import_monotone guard nd b : inv c nd -> fin_ok nd -> valid_child (n_repo nd) b ->
  let nd' := fst (import guard c nd b) in
  has_block (n_repo nd') (e_fin (n_eng nd')) (e_fin (n_eng nd)) = true /\ fin_ok nd' /\
  (known (n_repo nd) (b_id b) = false -> known (n_repo nd') (b_id b) = true ->
   has_block (n_repo nd') (b_id b) (e_fin (n_eng nd)) = true).
Proof.
  intros Hi Hfo Hvc. cbv zeta.
  destruct (import_cases guard c nd b) as [[k [E _]]|[Ek [Ep [Ea E]]]]; rewrite E; cbn [fst].
  - pose proof Hfo as [[f Hf] _]. destruct (find_blk_id _ _ _ Hf) as [Hfid Hfin].
    split; [rewrite <- Hfid; apply has_block_self; [exact (inv_wf c _ Hi) | exact Hfin] | split; [exact Hfo|]].
    intros H1 H2. rewrite H1 in H2. discriminate.
  - destruct (add_and_commit_monotone guard nd b Hi Hfo Ek Ep Hvc Ea) as [H1 [H2 H3]].
    split; [exact H2 | split; [exact H3 | intros _ _; exact H1]].
Qed.

Lemma init_fin_ok g master : fin_ok (init_node g master).
Proof.
  split; [exists g; apply find_blk_head | intros _ d; reflexivity].
Qed.

(* along a whole history: the list of (repository, finalized) after each import *)
Fixpoint fin_trace (guard : bool) (nd : node) (bs : list blk) : list (repo * N) :=
  match bs with
  | [] => []
  | b :: t => let nd' := fst (import guard c nd b) in (n_repo nd', e_fin (n_eng nd')) :: fin_trace guard nd' t
  end.

Fixpoint monotone_from (prev : N) (tr : list (repo * N)) : Prop :=
  match tr with
  | [] => True
  | (r, fin) :: t => has_block r fin prev = true /\ monotone_from fin t
  end.

Theorem finalized_monotone_lemma guard bs : forall nd, inv c nd -> fin_ok nd ->
  (forall nd' b, inv c nd' -> In b bs -> valid_child (n_repo nd') b) ->
  monotone_from (e_fin (n_eng nd)) (fin_trace guard nd bs).
Proof.
  induction bs as [|b t IH]; intros nd Hi Hfo Hv; [exact I|].
  cbn [fin_trace monotone_from].
  assert (Hvc : valid_child (n_repo nd) b) by (apply Hv; [exact Hi | left; reflexivity]).
  destruct (import_monotone guard nd b Hi Hfo Hvc) as [H1 [H2 _]].
  split; [exact H1|]. apply IH; [apply import_inv; assumption | exact H2 |].
  intros nd' b' Hi' Hin. apply Hv; [exact Hi' | right; exact Hin].
Qed.
End Mono.
