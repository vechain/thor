(* Chain/ProofsSys.v — what AddBlock does to ancestry and paths; the fork-choice premise tip_rule; subscribers interleaved
   with AddBlock calls: the subscriber's stack is always the path to the
   reader's position, reads never fail, and a quiescent subscriber holds the canonical chain (C14). *)
From Coq Require Import List NArith Bool Lia ZifyN ZifyNat ZifyBool.
From Verif Require Import Chain.Model Chain.Proofs Chain.ProofsWalk.
Import ListNotations.
Open Scope N_scope.

(* the node's fork choice: a child of the current best block always becomes best (its total score is larger) *)
Definition tip_rule (r : repo) (b : blk) (best : bool) : Prop := b_parent b = r_best r -> best = true.

Section AddAnc.
  Variables (g gp : N) (r r' : repo) (b : blk) (conf : N) (best : bool).
  Hypothesis W : wf g gp r.
  Hypothesis V : valid_add r b conf.
  Hypothesis A : add_block r b conf best = Some r'.

  Lemma add_gen : r_gen r' = r_gen r.
  Proof. destruct (add_parent _ _ _ _ _ A) as [ps [_ ->]]. reflexivity. Qed.

  Lemma add_best : r_best r' = if best then b_id b else r_best r.
  Proof. destruct (add_parent _ _ _ _ _ A) as [ps [_ ->]]. reflexivity. Qed.

  Lemma add_new_not_stored : ~ stored r (b_id b).
  Proof. intros [s Hs]. destruct V as [F _]. congruence. Qed.

  Lemma anc_mono h a : anc r h a -> anc r' h a.
  Proof.
    induction 1 as [h s Hs|h s a Hs Hg _ IH].
    - eapply anc_refl. eapply add_summary_old; eauto.
    - eapply anc_step; [eapply add_summary_old; eauto | rewrite add_gen; exact Hg | exact IH].
  Qed.

  Lemma anc_add_inv h a : anc r' h a ->
    anc r h a \/ (h = b_id b /\ (a = b_id b \/ anc r (b_parent b) a)).
  Proof.
    induction 1 as [h s Hs|h s a Hs Hg _ IH].
    - rewrite (add_summary _ _ _ _ _ A) in Hs. destruct (N.eqb_spec (b_id b) h) as [E|NE].
      + right. split; [congruence | left; congruence].
      + left. eapply anc_refl; eauto.
    - rewrite (add_summary _ _ _ _ _ A) in Hs. rewrite add_gen in Hg. destruct (N.eqb_spec (b_id b) h) as [E|NE].
      + injection Hs as <-. cbn [s_parent] in IH. right. split; [congruence|]. right.
        destruct IH as [IH|[E' _]]; [exact IH|]. exfalso. apply add_new_not_stored. rewrite <- E'.
        destruct (add_parent _ _ _ _ _ A) as [ps [Hps _]]. exists ps. exact Hps.
      + left. destruct IH as [IH|[E' _]].
        * eapply anc_step; eauto.
        * exfalso. apply add_new_not_stored. rewrite <- E'.
          rewrite (w_gen _ _ _ W) in Hg. destruct (w_par _ _ _ W _ _ Hs Hg) as [ps [Hps _]]. exists ps. exact Hps.
  Qed.

  Lemma anc_add_new_iff a : anc r' (b_id b) a <-> a = b_id b \/ anc r (b_parent b) a.
  Proof.
    assert (Hs : get_summary r' (b_id b) = Some (mkS (b_id b) (b_parent b) (map tx_id (b_txs b)) conf))
      by (rewrite (add_summary _ _ _ _ _ A), N.eqb_refl; reflexivity).
    split.
    - intros Ha. destruct (anc_add_inv _ _ Ha) as [Ho|[_ Hn]]; [|exact Hn].
      exfalso. apply add_new_not_stored. apply (anc_stored _ _ _ Ho).
    - intros [->|Ha]; [eapply anc_refl; exact Hs|]. eapply anc_step; [exact Hs | | apply anc_mono; exact Ha].
      rewrite add_gen, (w_gen _ _ _ W). apply (add_ne_g g gp r b conf W V).
  Qed.
  Lemma anc_add_old_iff h a : stored r h -> (anc r' h a <-> anc r h a).
  Proof.
    intros Sh. split; [|apply anc_mono]. intros Ha. destruct (anc_add_inv _ _ Ha) as [Ho|[E _]]; [exact Ho|].
    exfalso. apply add_new_not_stored. rewrite <- E. exact Sh.
  Qed.

  Lemma path_mono h l : is_path r h l -> is_path r' h l.
  Proof.
    induction 1 as [|h s l Hs Hg _ IH].
    - rewrite <- add_gen. constructor.
    - eapply path_step; [eapply add_summary_old; eauto | rewrite add_gen; exact Hg | exact IH].
  Qed.

  Lemma best_tip_add : best_tip r -> tip_rule r b best -> best_tip r'.
  Proof.
    intros TIP RULE h Ha. rewrite add_best in *. destruct (anc_add_inv _ _ Ha) as [Ho|[Eh Hn]].
    - case_eq best; intros Eb; rewrite Eb in *.
      + exfalso. apply add_new_not_stored. apply (anc_stored _ _ _ Ho).
      + apply TIP. exact Ho.
    - case_eq best; intros Eb; rewrite Eb in *; [exact Eh|]. exfalso.
      destruct Hn as [E|Hp].
      + apply add_new_not_stored. rewrite <- E. apply (w_best _ _ _ W).
      + apply TIP in Hp. specialize (RULE Hp). congruence.
  Qed.
End AddAnc.

Lemma best_tip_init g gp tag : num_of g = 0 -> best_tip (init_repo g gp tag).
Proof.
  intros Hg h Ha. cbn [r_best init_repo] in *.
  destruct (anc_stored _ _ _ Ha) as [[s Hs] _]. unfold get_summary, init_repo in Hs. cbn [r_sums afind] in Hs.
  destruct (N.eqb_spec g h); [congruence | discriminate].
Qed.

Lemma reachable_best_tip g gp tag r : num_of g = 0 -> reachable g gp tag tip_rule r -> best_tip r.
Proof.
  intros Hg H. induction H.
  - apply best_tip_init. exact Hg.
  - eapply best_tip_add; eauto. eapply reachable_wf; eauto.
Qed.

Lemma path_unique r h l1 : is_path r h l1 -> forall l2, is_path r h l2 -> l1 = l2.
Proof.
  induction 1 as [|h s l Hs Hg _ IH]; intros l2 H2; inversion H2 as [|h' s' l' Hs' Hg' Hp']; subst; try congruence.
  rewrite Hs in Hs'. injection Hs' as <-. f_equal. apply IH. exact Hp'.
Qed.

(* a subscriber and the node: AddBlock calls (any valid ones obeying the fork-choice rule) interleaved with reads *)
Section System.
  Variables g gp tag : N.
  Hypothesis Hg : num_of g = 0.

  Inductive sys : repo -> N -> list N -> Prop :=
  | sys_start r h st : reachable g gp tag tip_rule r -> is_path r h st -> sys r h st
  | sys_add r pos st b conf best r' :
      sys r pos st -> valid_add r b conf -> tip_rule r b best -> add_block r b conf best = Some r' -> sys r' pos st
  | sys_read r pos st l np st' :
      sys r pos st -> read r pos = Ok (l, np) -> apply_stream r st l = Some st' -> sys r np st'.

  Lemma sys_inv r pos st : sys r pos st -> reachable g gp tag tip_rule r /\ is_path r pos st.
  Proof.
    induction 1 as [r h st R P | r pos st b conf best r' _ [R P] V T A | r pos st l np st' _ [R P] E Ap].
    - auto.
    - split; [eapply reach_add; eauto|]. eapply path_mono; eauto; try (eapply reachable_wf; eauto).
    - split; [exact R|].
      pose proof (reachable_wf _ _ _ _ _ Hg R) as W. pose proof (reachable_wf_body _ _ _ _ _ Hg R) as WB.
      pose proof (reachable_best_tip _ _ _ _ Hg R) as TIP.
      destruct (N.eq_dec pos (r_best r)) as [->|Hne].
      + rewrite read_at_best in E. injection E as <- <-. cbn in Ap. injection Ap as <-. exact P.
      + destruct (read_step g gp r W WB TIP pos st P Hne) as [l' [nx [st2 [E1 [_ [E3 [E4 _]]]]]]].
        rewrite E1 in E. injection E as <- <-. rewrite E3 in Ap. injection Ap as <-. exact E4.
  Qed.

  (* reads never fail and the stream is always applicable to what the subscriber holds *)
  Theorem reader_total r pos st : sys r pos st ->
    exists l np st', read r pos = Ok (l, np) /\ apply_stream r st l = Some st' /\
      (forall a, In (a, true) l -> anc r pos a /\ ~ anc r (r_best r) a) /\
      (pos <> r_best r -> anc r (r_best r) np).
  Proof.
    intros S. destruct (sys_inv _ _ _ S) as [R P].
    pose proof (reachable_wf _ _ _ _ _ Hg R) as W. pose proof (reachable_wf_body _ _ _ _ _ Hg R) as WB.
    pose proof (reachable_best_tip _ _ _ _ Hg R) as TIP.
    destruct (N.eq_dec pos (r_best r)) as [->|Hne].
    - exists [], (r_best r), st. rewrite read_at_best. repeat split; auto; try contradiction; destruct H.
    - destruct (read_step g gp r W WB TIP pos st P Hne) as [l [nx [st' [E1 [_ [E3 [E4 [E5 [E6 _]]]]]]]]].
      exists l, nx, st'. repeat split; auto; apply E6; exact H.
  Qed.

  (* a quiescent subscriber holds exactly the canonical chain *)
  Theorem reader_quiescent_canonical r pos st np :
    sys r pos st -> read r pos = Ok ([], np) -> pos = r_best r /\ is_path r (r_best r) st.
  Proof.
    intros S E. destruct (sys_inv _ _ _ S) as [R P].
    pose proof (reachable_wf _ _ _ _ _ Hg R) as W. pose proof (reachable_wf_body _ _ _ _ _ Hg R) as WB.
    pose proof (reachable_best_tip _ _ _ _ Hg R) as TIP.
    pose proof (read_quiescent g gp r W WB TIP pos st np P E) as ->. auto.
  Qed.
End System.

(* without further best changes a subscriber becomes quiescent within (height of best + 1) reads *)
Fixpoint run_reads (r : repo) (k : nat) (pos : N) (st : list N) : option (N * list N) :=
  match k with
  | O => Some (pos, st)
  | S k' => match read r pos with
            | Ok (l, np) => match apply_stream r st l with
                            | Some st' => run_reads r k' np st'
                            | None => None
                            end
            | _ => None
            end
  end.

Section Converge.
  Variables (g gp : N) (r : repo).
  Hypothesis W : wf g gp r.
  Hypothesis WB : wf_body r.
  Hypothesis TIP : best_tip r.

  Lemma run_on_canonical : forall k pos st,
    is_path r pos st -> anc r (r_best r) pos -> N.to_nat (num_of (r_best r) - num_of pos) = k ->
    exists stB, run_reads r k pos st = Some (r_best r, stB) /\ is_path r (r_best r) stB.
  Proof.
    induction k as [|k IH]; intros pos st P Ha Hk.
    - exists st. split; [|]; cbn [run_reads].
      + f_equal. f_equal. pose proof (anc_height g gp r W _ _ Ha). apply (anc_same_height g gp r W _ _ Ha). lia.
      + assert (pos = r_best r) as <- by (pose proof (anc_height g gp r W _ _ Ha); apply (anc_same_height g gp r W _ _ Ha); lia).
        exact P.
    - assert (Hne : pos <> r_best r) by (intros E; rewrite E in Hk; lia).
      destruct (read_step g gp r W WB TIP pos st P Hne) as [l [nx [st' [E1 [_ [E3 [E4 [E5 [_ E7]]]]]]]]].
      destruct (E7 Ha) as [_ En]. cbn [run_reads]. rewrite E1, E3. apply IH; auto. lia.
  Qed.

  Theorem reads_converge pos st : is_path r pos st ->
    exists k stB, (k <= N.to_nat (num_of (r_best r)) + 1)%nat /\
                  run_reads r k pos st = Some (r_best r, stB) /\ is_path r (r_best r) stB.
  Proof.
    intros P. destruct (N.eq_dec pos (r_best r)) as [E|Hne].
    - exists O, st. subst pos. repeat split; auto. lia.
    - destruct (read_step g gp r W WB TIP pos st P Hne) as [l [nx [st' [E1 [_ [E3 [E4 [E5 _]]]]]]]].
      destruct (run_on_canonical _ nx st' E4 E5 eq_refl) as [stB [R1 R2]].
      exists (S (N.to_nat (num_of (r_best r) - num_of nx))), stB. repeat split; auto; [lia|].
      cbn [run_reads]. rewrite E1, E3. exact R1.
  Qed.
End Converge.
