(* Sched/ProofsV1.v — PoA v1 over the constructor's own list (actives_v1), the Schedule/IsTheTime converse, v1 Updates completeness. *)
From Coq Require Import List NArith ZArith Bool Lia ZifyN ZifyNat ZifyBool.
From Verif Require Import Common.Util Sched.Model Sched.Arith Sched.Proofs Sched.ProofsUpdates.
Import ListNotations.
Open Scope N_scope.

Lemma actives_v1_in me ps p : In p (actives_v1 me ps) <-> In p ps /\ (p_active p = true \/ p_addr p = me).
Proof. unfold actives_v1. rewrite filter_In. unfold eligible. rewrite orb_true_iff, N.eqb_eq. tauto. Qed.

Lemma actives_v1_nonempty me ps mep : In mep ps -> p_addr mep = me -> actives_v1 me ps <> [].
Proof.
  intros Hin E H. assert (Hm : In mep (actives_v1 me ps)) by (apply actives_v1_in; tauto).
  rewrite H in Hm. exact Hm.
Qed.

Lemma actives_v1_me me ps mep : In mep ps -> p_addr mep = me -> In me (addrs (actives_v1 me ps)).
Proof.
  intros Hin E. unfold addrs. apply in_map_iff. exists mep. split; [exact E|]. apply actives_v1_in. tauto.
Qed.

Lemma actives_v1_nodup me ps : NoDup (addrs ps) -> NoDup (addrs (actives_v1 me ps)).
Proof. unfold addrs, actives_v1. apply NoDup_map_filter. Qed.

(* all nodes agree (v1): the active list does not depend on the viewpoint of an active member *)
Lemma actives_v1_agree me1 me2 ps :
  NoDup (addrs ps) ->
  (exists p, In p ps /\ p_addr p = me1 /\ p_active p = true) ->
  (exists p, In p ps /\ p_addr p = me2 /\ p_active p = true) ->
  actives_v1 me1 ps = actives_v1 me2 ps.
Proof.
  intros Hnd H1 H2. unfold actives_v1. apply filter_ext_in. intros q Hq.
  rewrite (eligible_active_indep (fun p => p) me1 ps Hnd H1 q Hq).
  exact (eq_sym (eligible_active_indep (fun p => p) me2 ps Hnd H2 q Hq)).
Qed.

(* converse of schedule_accepted: a slot the proposer owns is exactly what Schedule returns when asked at that time *)
Lemma owned_slot_is_scheduled pt T seq me t : 0 < T -> In me seq ->
  is_scheduled pt T seq t me = true -> schedule pt T seq me t = Some t.
Proof.
  intros HT Hin Hs.
  destruct (schedule_is_earliest_lemma pt T seq me t HT Hin) as [t' [E [Hs' [Hge [Hpt Hearly]]]]].
  rewrite E. f_equal.
  destruct (N.eq_dec t' t) as [|Hne']; [assumption|]. exfalso.
  assert (Hlt : pt < t) by (apply is_scheduled_iff in Hs; tauto).
  rewrite Hearly in Hs by lia. discriminate.
Qed.

Lemma sub_step t T j : t - T - j * T = t - (j + 1) * T.
Proof. rewrite <- N.sub_add_distr. f_equal. nia. Qed.

(* v1 Updates completeness: every owner (other than me) of a slot walked back from nbt - T is deactivated *)
Lemma missed_v1_complete h pt T acts me fuel t i p : 
  (i < N.of_nat fuel) -> i * T <= t -> pt < t - i * T ->
  (forall j, j <= i -> whose_turn h acts (t - j * T) <> None) ->
  whose_turn h acts (t - i * T) = Some p -> p_addr p <> me ->
  In (p_addr p) (missed_v1 h pt T acts me fuel t).
Proof.
  revert t i. induction fuel as [|f IH]; intros t i Hi Hle Hgt Hall Hp Hnm; [exfalso; lia|].
  cbn [missed_v1].
  destruct (N.leb_spec t pt) as [H|H]; [lia|].
  destruct (whose_turn h acts t) as [q|] eqn:Eq.
  - apply in_or_app. destruct (N.eq_dec i 0) as [->|Hi0].
    + left. replace (t - 0 * T) with t in Hp by lia. assert (q = p) by congruence. subst q.
      destruct (N.eqb_spec (p_addr p) me); [contradiction|]. now left.
    + right. apply (IH (t - T) (i - 1)); [lia | nia | | | | exact Hnm].
      * rewrite sub_step, N.sub_add by lia. exact Hgt.
      * intros j Hj. rewrite sub_step. apply Hall. lia.
      * rewrite sub_step, N.sub_add by lia. exact Hp.
  - exfalso. apply (Hall 0); [lia|]. replace (t - 0 * T) with t by lia. exact Eq.
Qed.
