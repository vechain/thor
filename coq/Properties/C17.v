(* Properties/C17.v — the statements and their examples; the proofs cite Staker/*.v.  "The validator set evolves only at epoch boundaries and stays well-formed".
   Model: Staker/Model.v (transcription of builtin/staker).  WF s la lq (Staker/Inv.v): following Next from the active
   (queued) head visits exactly the records la (lq), each once, Prev is the inverse of Next, tail and size are the stored
   ones, membership in la / lq is exactly status Active / Queued, every other record is unlinked. *)
From Coq Require Import List NArith Bool Lia.
From Verif Require Import Common.Util Staker.Model Staker.Base Staker.Lists Staker.Inv Staker.RList Staker.Inv2 Staker.ProofsStep
  Staker.ProofsUser Staker.ProofsUser2 Staker.ProofsHist Staker.Held Staker.ProofsEpoch Staker.ProofsAll Staker.ProofsCustody Staker.ProofsKeys Staker.Witness.
Import ListNotations.
Open Scope N_scope.

(* ---- well-formedness ---- *)

(* along EVERY history (user operations by any actors, blocks with the PoA->PoS transition and housekeeping: renewals, the
   scheduled exit, evictions, activations) the active and queued lists are well formed *)
Theorem lists_wellformed c d m ops : exists la lq, WF (run c (init d m) ops) la lq.
Proof. destruct (history_FullInv c d m ops) as [la [lq H]]. exists la, lq. exact (f_wf _ _ _ H). Qed.

(* the total weight used for scheduling scores and finality thresholds is the sum of the stored weights, every record that is
   not active has weight 0, and an active record's weight is its own weighted stake plus its delegations' locked weight *)
Theorem total_weight_is_sum_of_active_weights c d m ops :
  let s := run c (init d m) ops in
  g_lw s = sumf v_weight (vals s) /\
  (forall a v, getv s a = Some v -> v_status v <> StatusActive -> v_weight v = 0) /\
  (forall a v, getv s a = Some v -> v_status v = StatusActive ->
     v_weight v = calc_weight (v_locked v) (v_multiplier v) + a_lw (get_agg s a)).
Proof.
  destruct (history_FullInv c d m ops) as [la [lq H]]. pose proof (f_2 _ _ _ H) as J. cbv zeta.
  split; [apply (j_lw _ J)|split; [apply (j_w0 _ J)|]]. intros a v Hv Hs. apply (j_w1 _ J a v Hv Hs).
Qed.

(* the list operations themselves, for all lists and positions (head / middle / tail / only element):
   removing a member of a well-formed list yields the well-formed list without it ... *)
Theorem remove_keeps_wellformed w a e s s1 e1 l v0 :
  ll_remove w a e s = Ok (s1, e1) -> wf_list s (get_ls w s) l -> In a l ->
  getv s a = Some v0 -> v_prev e = v_prev v0 -> v_next e = v_next v0 ->
  exists l1 l2, l = l1 ++ a :: l2 /\ wf_list s1 (get_ls w s1) (l1 ++ l2) /\
    getv s1 a = Some (set_next None (set_prev None e)) /\ get_ls (negb w) s1 = get_ls (negb w) s.
Proof.
  intros H1 H2 H3 H4 H5 H6.
  destruct (ll_remove_wf w a e s s1 e1 l v0 H1 H2 H3 H4 H5 H6) as [l1 [l2 [A [B [C [D [E _]]]]]]].
  exists l1, l2. subst e1. auto.
Qed.

(* ... and appending a new member yields the well-formed list with it at the end *)
Theorem add_keeps_wellformed w a e s s1 l :
  ll_add w a e s = Ok s1 -> wf_list s (get_ls w s) l -> ~ In a l -> v_next e = None ->
  wf_list s1 (get_ls w s1) (l ++ [a]) /\ get_ls (negb w) s1 = get_ls (negb w) s.
Proof.
  intros H1 H2 H3 H4. destruct (ll_add_wf w a e s s1 l H1 H2 H3 H4) as [A [_ [B _]]]. auto.
Qed.

(* every active validator is reachable exactly once: the leader group the staker reports is the abstract active list
   (no duplicates), paired with the stored records *)
Theorem leader_group_enumerates_active_once s la lq : WF s la lq ->
  NoDup la /\ exists r, iterate true s = Ok r /\ map fst r = la /\ forall a v, In (a, v) r -> getv s a = Some v.
Proof.
  intros H. split; [apply (wl_nodup _ _ _ (wf_a _ _ _ H))|apply (leader_group_is_active_list s la lq H)].
Qed.

Theorem active_and_queued_disjoint s la lq a : WF s la lq -> In a la -> In a lq -> False.
Proof.
  intros H. apply (WF_disjoint s la lq H).
Qed.

(* ---- evolution only at epoch boundaries ---- *)

(* every user operation (successful or not) and every block that is not an epoch boundary leaves the leader group
   (members, order, weights) and the total weight unchanged *)
Theorem set_changes_only_at_epoch c o s la lq :
  WF s la lq -> Inv1 s -> InvA s ->
  (is_block o = true -> (blk s + 1) mod c_epoch c <> 0) ->
  leader_weights (step c s o) = leader_weights s /\ g_lw (step c s o) = g_lw s /\
  exists lq', WF (step c s o) la lq'.
Proof.
  intros H1 H2 H3 Hb.
  assert (U : user_ok s (step c s o) la lq).
  { destruct (is_block o) eqn:E; [destruct o; try discriminate; apply off_epoch_block_ok; auto|apply user_step_ok; auto]. }
  destruct U as [lq' [A [B [C D]]]].
  destruct (leader_weights_kept s (step c s o) la lq lq' H1 A C) as [K1 K2]. split; [auto|split; [auto|exists lq'; auto]].
Qed.

Theorem set_unchanged_between_epochs c s ops la lq :
  WF s la lq -> Inv1 s -> InvA s -> no_epoch_block c s ops ->
  leader_weights (run c s ops) = leader_weights s /\ g_lw (run c s ops) = g_lw s.
Proof.
  intros H1 H2 H3 H4. destruct (run_InvAll_no_epoch c s ops la lq H1 H2 H3 H4) as [lq' [_ [_ [_ [A B]]]]]. auto.
Qed.

Theorem block_off_epoch_is_noop c s :
  (blk s + 1) mod c_epoch c <> 0 -> step c s OBlock = w_blk (blk s + 1) s.
Proof. exact (block_off_epoch c s). Qed.

(* proof-of-stake is not activated while fewer than 2/3 of max-block-proposers are queued *)
Theorem transition_needs_two_thirds c b s :
  l_size (act s) = 0 -> l_size (que s) * 3 < get_mbp s * 2 -> sync_pos c b s = Ok (s, false, false).
Proof. exact (sync_pos_needs_two_thirds c b s). Qed.

(* the number of activations of one epoch is at most the queue length, and (when positive) does not lift the group
   above max-block-proposers *)
Theorem activation_bounded ex s :
  let n := compute_activation_count ex s in
  let ls := if ex then sub64 (l_size (act s)) 1 else l_size (act s) in
  n <= l_size (que s) /\ (n = 0 \/ ls + n <= get_mbp s).
Proof. exact (activation_count_bounded ex s). Qed.

(* offline validators are evicted only after the threshold, only at eviction-interval blocks *)
Theorem eviction_only_after_threshold c b s t a :
  compute_epoch_transition c b s = Ok t -> In a (tr_evictions t) ->
  b <> 0 /\ b mod c_evict_int c = 0 /\
  exists v off, getv s a = Some v /\ v_offline v = Some off /\ off + c_evict_thr c < b /\ v_exit v = None.
Proof. exact (evictions_only_after_threshold c b s t a). Qed.

(* at most one validator is scheduled to exit per epoch block: the exit of a block is the single entry of the exit map *)
Theorem one_exit_candidate_per_block c b s t :
  compute_epoch_transition c b s = Ok t -> tr_exit t = get_exit s b.
Proof.
  unfold compute_epoch_transition. intros H.
  apply bind_ok in H as [ev [_ H]]. apply bind_ok in H as [ren [_ H]]. inversion H; reflexivity.
Qed.
(* at most one validator leaves the leader group per block, namely the one scheduled in the exit map for that block
   (la, la' are THE active lists before and after: WF determines them) — for every state reached by a history *)
Theorem at_most_one_exit_per_epoch c d m ops la lq la' lq' :
  let s := run c (init d m) ops in
  WF s la lq -> WF (step c s OBlock) la' lq' ->
  forall a b, In a la -> In b la -> ~ In a la' -> ~ In b la' -> a = b /\ a = get_exit s (blk s + 1).
Proof.
  cbv zeta. intros W W' a b Ha Hb Na Nb. destruct (history_FullInv c d m ops) as [la0 [lq0 HF]].
  rewrite (WF_active_unique _ _ _ _ _ W (f_wf _ _ _ HF)) in Ha, Hb.
  pose proof (one_exit_per_block c _ la0 lq0 la' lq' HF W' a Ha Na). pose proof (one_exit_per_block c _ la0 lq0 la' lq' HF W' b Hb Nb).
  split; congruence.
Qed.

(* along histories, user operations and non-epoch blocks leave the leader group, its weights and the total weight unchanged *)
Theorem set_changes_only_at_epoch_along_histories c d m ops o :
  let s := run c (init d m) ops in
  (is_block o = true -> (blk s + 1) mod c_epoch c <> 0) ->
  leader_weights (step c s o) = leader_weights s /\ g_lw (step c s o) = g_lw s.
Proof.
  cbv zeta. intros Hb. destruct (history_FullInv c d m ops) as [la [lq [W I A J]]].
  destruct (set_changes_only_at_epoch c o _ la lq W I A Hb) as [E1 [E2 _]]. auto.
Qed.

(* the total weight is the sum of the weights of the leader group as the staker reports it (this needs that the validation map
   never holds two entries for one address, proved along histories in Staker/ProofsKeys.v) *)
Theorem total_weight_is_sum_over_leader_group c d m ops ws :
  leader_weights (run c (init d m) ops) = Ok ws -> g_lw (run c (init d m) ops) = sumN (map snd ws).
Proof. exact (total_weight_is_leader_sum_hist c d m ops ws). Qed.

(* ---- errors of the epoch step ---- *)

(* a block always advances the block number; if SyncPOS returns an error (any non-revert error inside the transition or
   housekeeping: arithmetic guard, missing record, exit-slot search exhausted) the staker state is exactly the state before the
   block with the new number: packer and validator revert to their checkpoint and go on, that epoch's housekeeping is skipped *)
Theorem block_number_always_advances c d m ops :
  blk (step c (run c (init d m) ops) OBlock) = blk (run c (init d m) ops) + 1.
Proof. exact (block_number_advances c _ (history_FullInv c d m ops)). Qed.

Theorem failed_sync_skips_the_epoch c s :
  (forall r, sync_pos c (blk s + 1) (w_blk (blk s + 1) s) <> Ok r) -> step c s OBlock = w_blk (blk s + 1) s.
Proof. exact (block_error_skips_housekeeping c s). Qed.

(* NOT proved: that SyncPOS never errs on reachable states.  It does, in the model and (replayed, corpus/C17/evictions-over-101.json)
   in builtin/staker: with max-block-proposers raised above 101, 102 active validators offline past the threshold make the
   eviction loop's exit-slot search (101 tries) fail at the eviction block; the whole housekeeping of that block is dropped *)
Definition sync_never_errs_statement : Prop :=
  forall c d m ops, exists r, let s := run c (init d m) ops in sync_pos c (blk s + 1) (w_blk (blk s + 1) s) = Ok r.

(* witness history (Staker/Witness.v): big_cfg, big_ops, big_sync_errs, big_block_is_skipped *)
Theorem sync_never_errs_refuted : ~ sync_never_errs_statement.
Proof.
  intros H. destruct (H big_cfg 0 102 big_ops) as [r Hr]. cbv zeta in Hr. rewrite big_sync_errs in Hr. discriminate.
Qed.
Example eviction_overflow_block_is_skipped :
  let s := run big_cfg (init 0 102) big_ops in
  (blk s, l_size (act s), answer big_cfg s OBlock, blk (step big_cfg s OBlock), l_size (act (step big_cfg s OBlock))) = (15, 102, (0, 6), 16, 102).
Proof. exact big_block_is_skipped. Qed.

(* ---- "never empty the set" ---- *)

(* activations only add members (every member of the leader group is still a member after any number of activations) *)
Theorem activations_only_add n b mx s la lq s' :
  Full s la lq -> activate_n n b mx s = Ok s' ->
  exists la' lq', Full s' la' lq' /\ forall x, In x la -> In x la'.
Proof.
  intros HF H. destruct (activate_n_ok b mx n s la lq s' HF H) as [la' [lq' [F' [_ [_ [Sub _]]]]]]. exists la', lq'. auto.
Qed.

(* the strong reading "the leader group never becomes empty once PoS is active" is FALSE for the model — and for builtin/staker
   (replayed: corpus/C17/leader-group-empties.json): the scheduled exit of the last active validator with an empty queue empties it *)
Definition leader_group_never_empties_statement : Prop :=
  forall c d m ops o, 0 < l_size (act (run c (init d m) ops)) -> 0 < l_size (act (step c (run c (init d m) ops) o)).
Definition one_cfg : cfg := mkC 4 8 12 16 4 8 8 0 0.
Definition one_ops : list op := [OAddValidation 161 57505 8 25000000] ++ repeat OBlock 5 ++ [OSignalExit 161 57505] ++ repeat OBlock 6.
Theorem leader_group_never_empties_refuted : ~ leader_group_never_empties_statement.
Proof.
  intros H. specialize (H one_cfg 0 1 one_ops OBlock). vm_compute in H. specialize (H eq_refl). discriminate.
Qed.

(* ---- non-vacuity on non-trivial states ---- *)

Definition ex_cfg17 : cfg := mkC 4 8 12 16 4 8 8 0 0.
(* three validators active (PoS from block 4), three more queued, one delegation, one exit signalled *)
Definition ex_ops17 : list op :=
  [OAddValidation 161 57505 8 25000000; OAddValidation 162 57506 8 26000000; OAddValidation 163 57507 12 27000000] ++ repeat OBlock 4 ++
  [OAddValidation 164 57508 8 25000000; OAddValidation 165 57509 8 25000000; OAddValidation 166 57510 8 25000000;
   OAddDeleg 161 1000 200; OSignalExit 162 57506; OBlock].
Example ex_state17 :
  let s := run ex_cfg17 (init 0 3) ex_ops17 in
  (iterate true s, iterate false s) = (iterate true s, iterate false s) /\
  exists la lq, WF s la lq /\ la = [161; 162; 163] /\ lq = [164; 165; 166] /\ Inv1 s /\ InvA s.
Proof.
  cbv zeta. split; [reflexivity|]. destruct (history_FullInv ex_cfg17 0 3 ex_ops17) as [la [lq [W I A J]]].
  exists la, lq. split; auto.
  destruct (leader_group_is_active_list _ la lq W) as [r [Hr [Hm _]]]. destruct (queued_group_is_queued_list _ la lq W) as [r' [Hr' [Hm' _]]].
  vm_compute in Hr. inversion Hr; subst r. vm_compute in Hr'. inversion Hr'; subst r'. cbn in Hm, Hm'. auto.
Qed.
(* removal from the middle of that queued list satisfies the hypotheses of remove_keeps_wellformed and yields [164; 166] *)
Example ex_remove_middle :
  let s := run ex_cfg17 (init 0 3) ex_ops17 in
  exists v s1 e1, getv s 165 = Some v /\ wf_list s (que s) [164; 165; 166] /\ ll_remove false 165 v s = Ok (s1, e1) /\ wf_list s1 (que s1) [164; 166].
Proof.
  cbv zeta. destruct ex_state17 as [_ [la [lq [W [-> [-> _]]]]]].
  destruct (getv (run ex_cfg17 (init 0 3) ex_ops17) 165) as [v|] eqn:Ev; [|vm_compute in Ev; discriminate].
  destruct (ll_remove false 165 v (run ex_cfg17 (init 0 3) ex_ops17)) as [[s1 e1]| |] eqn:Er;
    [|vm_compute in Ev; inversion Ev; subst v; vm_compute in Er; discriminate|vm_compute in Ev; inversion Ev; subst v; vm_compute in Er; discriminate].
  exists v, s1, e1. split; auto. split; [apply (wf_q _ _ _ W)|]. split; auto.
  destruct (remove_keeps_wellformed false 165 v _ s1 e1 [164; 165; 166] v Er (wf_q _ _ _ W)) as [l1 [l2 [El [Hw _]]]]; auto; [cbn; auto|].
  destruct l1 as [|x1 [|x2 [|x3 t]]]; cbn in El; inversion El; subst; try (destruct t; discriminate). exact Hw.
Qed.
(* the hypotheses of set_changes_only_at_epoch on that state, for a user operation and for the non-epoch block 6 *)
Example ex_set_changes_hyps :
  let s := run ex_cfg17 (init 0 3) ex_ops17 in
  (blk s + 1) mod c_epoch ex_cfg17 <> 0 /\ leader_weights s = Ok [(161, 25000000); (162, 26000000); (163, 27000000)] /\ g_lw s = 78000000.
Proof. vm_compute. repeat split; discriminate || reflexivity. Qed.

Print Assumptions lists_wellformed.
Print Assumptions total_weight_is_sum_over_leader_group.
Print Assumptions block_number_always_advances.
Print Assumptions failed_sync_skips_the_epoch.
Print Assumptions sync_never_errs_refuted.
Print Assumptions activations_only_add.
Print Assumptions leader_group_never_empties_refuted.
Print Assumptions total_weight_is_sum_of_active_weights.
Print Assumptions at_most_one_exit_per_epoch.
Print Assumptions set_changes_only_at_epoch_along_histories.
Print Assumptions remove_keeps_wellformed.
Print Assumptions add_keeps_wellformed.
Print Assumptions leader_group_enumerates_active_once.
Print Assumptions active_and_queued_disjoint.
Print Assumptions set_changes_only_at_epoch.
Print Assumptions set_unchanged_between_epochs.
Print Assumptions block_off_epoch_is_noop.
Print Assumptions transition_needs_two_thirds.
Print Assumptions activation_bounded.
Print Assumptions eviction_only_after_threshold.
Print Assumptions one_exit_candidate_per_block.

(* ---- translation tie (T): the period arithmetic that decides renewals and exits IS the code ----
   coq/Gen/StakerTime.v is regenerated by tools/go2v on every run from builtin/staker/validation/validation.go; on in-range inputs
   the model's current_iteration (exit scheduling, SignalExit) and is_period_end (the renewal / exit scan of Housekeep) are equal to
   the translated Validation.CurrentIteration / Validation.IsPeriodEnd applied to the record's fields (GenProofs/StakerTimeProofs.v). *)
From Coq Require Import ZArith.
From Verif Require Import GenProofs.StakerTimeProofs.
Open Scope N_scope.

Theorem period_arithmetic_is_translated_code v b :
  val_in_range v -> (b < 4294967295)%N ->
  gen_current_iteration v b = res_Z (current_iteration v b) /\ gen_is_period_end v b = is_period_end v b.
Proof.
  intros Hv Hb. destruct (staker_time_translation_tie (mkC 0 0 0 0 0 0 0 0 0) (mkD 0 0 0 None 0) v b Hv Hb) as [H1 [H2 _]].
  exact (conj H1 H2).
Qed.

Print Assumptions period_arithmetic_is_translated_code.
