(* Crash/ProofsShape.v — the shape of the writes of one import, and two more invariants of the uninterrupted run:
   every stored store-point block has its quality record (Qinv), every chain-head entry names a stored block (Hinv). *)
From Coq Require Import List NArith Bool Lia.
From Verif Require Import Crash.Model Crash.ProofsStore Crash.ProofsInv Crash.ProofsImport Crash.ProofsCrash Crash.ProofsEqv.
Import ListNotations.
Open Scope N_scope.

(* 1 < L makes block 0 no store point: the genesis store then needs no quality record (genesis_inv2, genesis_invq);
   no other proof uses the bound *)
Definition wf_cfg2 (c : cfg) : Prop := wf_cfg c /\ 1 < c_L c.

Definition Qinv (c : cfg) (s : store) : Prop :=
  forall id, stored s id = true -> is_storepoint (c_L c) (num_of id) = true -> has s (KQuality id) = true.
Definition Hinv (s : store) : Prop := forall id, has s (KHead id) = true -> stored s id = true.

Record Inv2 (c : cfg) (s : store) : Prop := mkInv2 { i2_inv : Inv c s; i2_q : Qinv c s; i2_h : Hinv s }.

Definition main_case (c : cfg) (s : store) (b : blk) (ab : bool) : Prop :=
  (max_num s + 1 <? num_of (b_id b)) = false /\
  ((0 <? scan_conflicts s (num_of (b_id b))) && stored s (b_id b)) = false /\
  stored s (b_parent b) = true /\
  num_of (b_parent b) + 1 = num_of (b_id b) /\
  accepts c s (b_parent b) = true /\
  select c s b = Some ab.

Definition conf_of (s : store) (b : blk) : N := scan_conflicts s (num_of (b_id b)).
Definition pre_writes (s : store) (b : blk) (ab : bool) : list batch :=
  state_batches b (conf_of s b) ++ [index_batch b (conf_of s b); block_bulk b (conf_of s b) ab].
Definition commit_writes (c : cfg) (s : store) (b : blk) (ab : bool) : list batch :=
  writes_of_steps (commit_steps c (apply_writes s (pre_writes s b ab)) (b_id b) (b_parent b) (b_just b) (b_comm b)).

Lemma main_case_ok c s b ab : main_case c s b ab <-> import_ok c s b = true /\ select c s b = Some ab.
Proof. unfold main_case, import_ok. rewrite !andb_true_iff, !negb_true_iff, N.eqb_eq. tauto. Qed.

Lemma import_steps_cases c s b :
  import_steps c s b = [] \/
  (select c s b = None /\ import_steps c s b = map SWrite (state_batches b (conf_of s b))) \/
  (exists ab, main_case c s b ab /\
     import_steps c s b = map SWrite (state_batches b (conf_of s b) ++ [index_batch b (conf_of s b)])
        ++ SWrite (block_bulk b (conf_of s b) ab) :: (if ab then [SPubBest (b_id b)] else [])
        ++ commit_steps c (apply_writes s (pre_writes s b ab)) (b_id b) (b_parent b) (b_just b) (b_comm b)).
Proof.
  rewrite import_steps_eq. destruct (import_ok c s b) eqn:G; [right|auto].
  destruct (select c s b) as [ab|] eqn:Sel; [right|auto].
  exists ab. split; [apply main_case_ok; auto|]. rewrite map_app, <- app_assoc. reflexivity.
Qed.

Lemma import_cases c s b :
  import_batches c s b = [] \/
  (select c s b = None /\ import_batches c s b = state_batches b (conf_of s b)) \/
  (exists ab, main_case c s b ab /\ import_batches c s b = pre_writes s b ab ++ commit_writes c s b ab).
Proof.
  rewrite import_batches_eq. destruct (import_ok c s b) eqn:G; [right|auto].
  destruct (select c s b) as [ab|] eqn:Sel; [right|auto].
  exists ab. split; [apply main_case_ok; auto|reflexivity].
Qed.

Lemma main_case_batches c s b ab : main_case c s b ab ->
  import_batches c s b = pre_writes s b ab ++ commit_writes c s b ab.
Proof. intro M. apply main_case_ok in M as [G Sel]. rewrite import_batches_eq, G, Sel. reflexivity. Qed.

(* s3 is the store after the block bulk (s2 after the trie commits, s4 after the quality record): Inv at s3 *)
Lemma main_case_inv3 c s b ab : wf_cfg c -> Inv c s -> wf_blk s b -> main_case c s b ab ->
  Inv c (apply_writes s (pre_writes s b ab)).
Proof.
  intros Hc I Hwf M. pose proof (import_all_prefixes c s b Hc I Hwf) as AP.
  rewrite (main_case_batches c s b ab M) in AP.
  pose proof (all_prefixes_firstn _ _ _ AP (length (pre_writes s b ab))) as X. rewrite firstn_length_app in X. exact X.
Qed.

Lemma main_not_stored c s b ab : main_case c s b ab -> stored s (b_id b) = false.
Proof.
  intros (_ & H & _). destruct (stored s (b_id b)) eqn:E; auto.
  pose proof (scan_conflicts_pos s (b_id b) E) as P. apply N.ltb_lt in P. rewrite P in H. discriminate.
Qed.

(* the commit part is nothing, or ONE batch: the quality record, alone or together with the finalized record *)
Lemma commit_shape c s id parent just comm :
  let cw := writes_of_steps (commit_steps c s id parent just comm) in
  cw = [] \/
  (exists q, cw = [[Put (KQuality id) (VNum q)]] /\ is_storepoint (c_L c) (num_of id) = true) \/
  (exists q f, cw = [[Put (KQuality id) (VNum q); Put KFinalized (VId f)]] /\ is_storepoint (c_L c) (num_of id) = true).
Proof.
  cbv zeta. destruct (commit_steps_cases c s id parent just comm) as [[-> _]|(q & Hsp & _ & [->|(f & _ & ->)])];
    cbn [writes_of_steps flat_map app]; [left|right; left|right; right]; eauto.
Qed.

Lemma checkpoint_le L n : 0 < L -> checkpoint L n <= n.
Proof. intro H. unfold checkpoint. rewrite N.mul_comm. apply N.mul_div_le. lia. Qed.

Lemma div_epoch L e r : r < L -> (e * L + r) / L = e.
Proof. intro H. rewrite N.add_comm, N.div_add, N.div_small; lia. Qed.

Lemma checkpoint_at L e r : r < L -> checkpoint L (e * L + r) = e * L.
Proof. intro H. unfold checkpoint. rewrite div_epoch; auto. Qed.

Lemma storepoint_epoch L n : 0 < L -> is_storepoint L n = true -> n = n / L * L + L - 1.
Proof. intros HL H. unfold is_storepoint, storepoint, checkpoint in H. apply N.eqb_eq in H. lia. Qed.

Lemma is_storepoint_at L e : 0 < L -> is_storepoint L (e * L + L - 1) = true.
Proof.
  intro H. unfold is_storepoint, storepoint. replace (e * L + L - 1) with (e * L + (L - 1)) by lia.
  rewrite checkpoint_at by lia. apply N.eqb_eq. lia.
Qed.

Lemma storepoint_pos L n : 1 < L -> is_storepoint L n = true -> 0 < n.
Proof. intros HL H. apply storepoint_epoch in H; [|lia]. remember (n / L * L) as q. lia. Qed.

Lemma quality_of_total c s parent n just : wf_cfg c -> Inv c s -> stored s parent = true -> num_of parent + 1 = n ->
  exists q, quality_of c s parent n just = Some q.
Proof.
  intros Hc I Hp Hn. unfold quality_of. destruct (n / c_L c =? 0); [eauto|].
  destruct (anc_total c s parent (checkpoint (c_L c) n - 1) Hc I Hp) as (a & ->); [|eauto].
  pose proof (checkpoint_le (c_L c) n (proj2 Hc)). lia.
Qed.

(* ---- what the batches of an import do to chain-head entries and quality records *)

Lemma aux_writes_frame s ws k : (forall w, In w ws -> aux_batch w) -> aux_key k = false -> get (apply_writes s ws) k = get s k.
Proof.
  intros H Hk. apply get_frame_writes. intros w o Hw Ho.
  apply (aux_key_ne w); auto; destruct k; try discriminate; reflexivity.
Qed.

Lemma aux_writes_finalized c s ws : (forall w, In w ws -> aux_batch w) -> finalized c (apply_writes s ws) = finalized c s.
Proof. intro H. unfold finalized, get_id. rewrite aux_writes_frame; auto. Qed.

Lemma aux_writes_eqv_na s ws : (forall w, In w ws -> aux_batch w) -> eqv_na s (apply_writes s ws).
Proof. intros H k Hk. symmetry. apply aux_writes_frame; auto. Qed.

Lemma bulk_head_ops b conf ab o : In o (block_bulk b conf ab) -> is_head (op_key o) = true ->
  o = Del (KHead (b_parent b)) \/ o = Put (KHead (b_id b)) (VBlob 0).
Proof.
  intros H Hh.
  destruct (in_bulk _ _ _ _ H) as [(i & t & p & [->|[->|[->| ->]]])|[->|[->|[->|[_ ->]]]]]; auto; discriminate.
Qed.

Lemma bulk_has_head s b conf ab x :
  has (apply_batch s (block_bulk b conf ab)) (KHead x) = true -> x = b_id b \/ has s (KHead x) = true.
Proof.
  unfold has. rewrite get_apply_batch. destruct (last_op (KHead x) (block_bulk b conf ab)) as [o|] eqn:E; auto.
  destruct (last_op_some_in _ _ _ E) as [Hin Hk].
  destruct (bulk_head_ops b conf ab o Hin) as [->| ->]; [rewrite Hk; auto| |].
  - discriminate.
  - simpl in Hk. inversion Hk. auto.
Qed.

Lemma bulk_puts_head s b conf ab : b_parent b <> b_id b -> has (apply_batch s (block_bulk b conf ab)) (KHead (b_id b)) = true.
Proof.
  intro Hne. eapply has_put_in with (v := VBlob 0).
  - unfold block_bulk. apply in_or_app. right. apply in_or_app. right. apply in_or_app. left. simpl. auto.
  - intros o Ho E. subst. destruct (bulk_head_ops b conf ab _ Ho eq_refl) as [H|H]; inversion H. congruence.
Qed.

Lemma commit_frame c s0 s id parent just comm k :
  (forall i, k <> KQuality i) -> k <> KFinalized ->
  get (apply_writes s (writes_of_steps (commit_steps c s0 id parent just comm))) k = get s k.
Proof.
  intros H1 H2. apply get_frame_writes. intros w o Hw Ho E.
  destruct (commit_writes_keys _ _ _ _ _ _ _ _ Hw Ho) as [X|X]; rewrite X in E; subst; [eapply H1; eauto|congruence].
Qed.

Lemma commit_no_summary c s id parent just comm w o i :
  In w (writes_of_steps (commit_steps c s id parent just comm)) -> In o w -> op_key o <> KSummary i.
Proof. intros Hw Ho X. destruct (commit_writes_keys _ _ _ _ _ _ _ _ Hw Ho) as [Y|Y]; rewrite Y in X; discriminate. Qed.

Lemma commit_stored c s0 s id parent just comm i :
  stored (apply_writes s (writes_of_steps (commit_steps c s0 id parent just comm))) i = stored s i.
Proof. unfold stored, get_summary. rewrite commit_frame by discriminate. reflexivity. Qed.

Lemma commit_nd c s id parent just comm w : In w (writes_of_steps (commit_steps c s id parent just comm)) -> nd_batch w.
Proof.
  intros Hw o Ho. destruct (commit_shape c s id parent just comm) as [E|[(q & E & _)|(q & f & E & _)]];
    rewrite E in Hw; simpl in Hw.
  - destruct Hw.
  - destruct Hw as [<-|[]]. destruct Ho as [<-|[]]. reflexivity.
  - destruct Hw as [<-|[]]. destruct Ho as [<-|[<-|[]]]; reflexivity.
Qed.

Lemma commit_has_quality c s st id parent just comm :
  Inv c s -> wf_cfg c -> stored s parent = true -> num_of parent + 1 = num_of id ->
  is_storepoint (c_L c) (num_of id) = true ->
  has (apply_writes st (writes_of_steps (commit_steps c s id parent just comm))) (KQuality id) = true.
Proof.
  intros I Hc Hp Hn Hsp. destruct (quality_of_total c s parent (num_of id) just Hc I Hp Hn) as (q' & Eq).
  pose proof (commit_nd c s id parent just comm) as Hnd.
  destruct (commit_steps_cases c s id parent just comm) as [[_ [X|X]]|(q & _ & _ & [Ec|(f & _ & Ec)])];
    [congruence|congruence|..]; rewrite Ec in *; cbn [writes_of_steps flat_map app apply_writes fold_left] in *;
    (eapply has_put_in with (v := VNum q); [left; reflexivity|apply nd_no_del; auto; apply Hnd; left; reflexivity]).
Qed.

Lemma pre_writes_nd s b ab w : In w (pre_writes s b ab) -> nd_batch w.
Proof.
  unfold pre_writes. intro H. apply in_app_or in H. destruct H as [H|[<-|[<-|[]]]].
  - apply aux_nd. eapply state_batches_aux; eauto.
  - apply aux_nd, index_batch_aux.
  - apply bulk_nd.
Qed.

(* the store after the state commit, the index commit and the block bulk *)
Section AfterBulk.
  Variables (c : cfg) (s : store) (b : blk) (ab : bool).
  Let conf := conf_of s b.
  Let s2 := apply_writes s (state_batches b conf ++ [index_batch b conf]).
  Let s3 := apply_writes s (pre_writes s b ab).

  Lemma s3_eq : s3 = apply_batch s2 (block_bulk b conf ab).
  Proof. apply apply_writes_snoc2. Qed.

  Lemma s2_aux : forall w, In w (state_batches b conf ++ [index_batch b conf]) -> aux_batch w.
  Proof. apply pre_aux. Qed.

  Lemma s2_na k : aux_key k = false -> get s2 k = get s k.
  Proof. intro Hk. apply aux_writes_frame; auto. apply s2_aux. Qed.

  Lemma s3_summary i : get_summary s3 i = if N.eq_dec i (b_id b) then Some (summary_of b conf) else get_summary s i.
  Proof. rewrite s3_eq, bulk_summary. destruct (N.eq_dec i (b_id b)); auto. unfold get_summary. rewrite s2_na; auto. Qed.

  Lemma s3_stored i : stored s3 i = true -> i = b_id b \/ stored s i = true.
  Proof. unfold stored. rewrite s3_summary. destruct (N.eq_dec i (b_id b)); auto. Qed.

  Lemma s3_stored_mono i : stored s i = true -> stored s3 i = true.
  Proof. unfold stored. rewrite s3_summary. destruct (N.eq_dec i (b_id b)); auto. Qed.

  Lemma s3_stored_b : stored s3 (b_id b) = true.
  Proof. unfold stored. rewrite s3_summary. destruct (N.eq_dec (b_id b) (b_id b)); congruence. Qed.

  Lemma s3_quality k : (exists i, k = KQuality i) \/ k = KFinalized -> get s3 k = get s k.
  Proof.
    intro Hk. rewrite s3_eq, bulk_other_frame; [apply s2_na|]; destruct Hk as [(i & ->)| ->]; simpl; auto.
  Qed.

  Lemma s3_finalized : finalized c s3 = finalized c s.
  Proof. unfold finalized, get_id. rewrite s3_quality; auto. Qed.

  Lemma s3_get_quality i : get_quality s3 i = get_quality s i.
  Proof. unfold get_quality. rewrite s3_quality; eauto. Qed.

  Lemma s3_keeps : stored s (b_id b) = false -> keeps_summaries s s3.
  Proof.
    intros Hn i sm E. rewrite s3_summary. destruct (N.eq_dec i (b_id b)) as [->|]; auto.
    rewrite (get_summary_stored _ _ _ E) in Hn. discriminate.
  Qed.

  Lemma s3_head x : has s3 (KHead x) = true -> x = b_id b \/ has s (KHead x) = true.
  Proof.
    rewrite s3_eq. intro H. destruct (bulk_has_head _ _ _ _ _ H) as [->|H']; auto.
    right. unfold has in *. rewrite s2_na in H'; auto.
  Qed.

  Lemma s3_head_b : b_parent b <> b_id b -> has s3 (KHead (b_id b)) = true.
  Proof. intro H. rewrite s3_eq. apply bulk_puts_head; auto. Qed.

  Lemma s3_mono k : is_head k = false -> has s k = true -> has s3 k = true.
  Proof. intros Hk H. apply has_mono_writes; auto. apply pre_writes_nd. Qed.
End AfterBulk.

Lemma Qinv_na c s s' : eqv_na s s' -> Qinv c s -> Qinv c s'.
Proof. intros E Q id Hs Hp. rewrite <- (na_stored s s' E) in Hs. rewrite <- (na_has s s' E); auto. Qed.
Lemma Hinv_na s s' : eqv_na s s' -> Hinv s -> Hinv s'.
Proof. intros E H id Hh. rewrite <- (na_has s s' E) in Hh; auto. rewrite <- (na_stored s s' E). auto. Qed.

Lemma run1_eq_cases c s b :
  run1 c s b = s \/
  (run1 c s b = apply_writes s (state_batches b (conf_of s b))) \/
  (exists ab, main_case c s b ab /\ run1 c s b = apply_writes (apply_writes s (pre_writes s b ab)) (commit_writes c s b ab)).
Proof.
  unfold run1. destruct (import_cases c s b) as [E|[[_ E]|(ab & M & E)]]; rewrite E.
  - left; auto.
  - right; left; auto.
  - right; right. exists ab. split; auto. apply apply_writes_app.
Qed.

(* no import ever changes or removes a stored summary *)
Lemma run1_keeps c s b : keeps_summaries s (run1 c s b).
Proof.
  intros id sm H. destruct (run1_eq_cases c s b) as [E|[E|(ab & M & E)]]; rewrite E; auto.
  - unfold get_summary in *. rewrite aux_writes_frame; auto. apply state_batches_aux.
  - unfold get_summary at 1. unfold commit_writes. rewrite commit_frame by discriminate.
    apply s3_keeps; auto. eapply main_not_stored; eauto.
Qed.

Theorem run1_inv2 c s b : wf_cfg2 c -> Inv2 c s -> wf_blk s b -> Inv2 c (run1 c s b).
Proof.
  intros [Hc HL] [I Q H] Hwf.
  assert (I' : Inv c (run1 c s b)) by (apply run1_inv; auto).
  destruct (run1_eq_cases c s b) as [E|[E|(ab & M & E)]].
  - rewrite E. constructor; auto.
  - constructor; auto; rewrite E.
    + eapply Qinv_na; [|exact Q]. apply aux_writes_eqv_na. apply state_batches_aux.
    + eapply Hinv_na; [|exact H]. apply aux_writes_eqv_na. apply state_batches_aux.
  - pose proof (main_case_inv3 c s b ab Hc I Hwf M) as I3. destruct M as (_ & _ & Mp & Mn & _).
    set (s3 := apply_writes s (pre_writes s b ab)) in *.
    constructor; auto; rewrite E; unfold commit_writes; fold s3.
    + intros id Hs Hsp.
      rewrite commit_stored in Hs. destruct (s3_stored s b ab id Hs) as [->|Hold].
      * apply commit_has_quality; auto. apply s3_stored_mono; auto.
      * apply has_mono_writes; auto. { intros w Hw. eapply commit_nd; eauto. }
        apply s3_mono; auto.
    + intros id Hh. unfold has in Hh. rewrite commit_frame in Hh by discriminate. rewrite commit_stored.
      destruct (s3_head s b ab id Hh) as [->|Hold].
      * apply s3_stored_b.
      * apply s3_stored_mono. auto.
Qed.

Lemma run_inv2 c l : forall s, wf_cfg2 c -> Inv2 c s -> wf_hist c s l -> Inv2 c (run c s l).
Proof.
  induction l as [|b r IH]; intros s Hc I Hw; simpl; auto.
  destruct Hw as [Hb Hr]. apply IH; auto. apply run1_inv2; auto.
Qed.

Lemma genesis_store_pre g : genesis_store g = apply_writes [] (pre_writes [] g true).
Proof. reflexivity. Qed.

(* the only block stored in the genesis store *)
Lemma genesis_get_summary g x sm : get_summary (genesis_store g) x = Some sm -> x = b_id g /\ sm = summary_of g 0.
Proof.
  rewrite genesis_store_pre, s3_summary. destruct (N.eq_dec x (b_id g)) as [->|]; [|discriminate].
  intro H. inversion H. auto.
Qed.

Lemma genesis_stored g id : stored (genesis_store g) id = true -> id = b_id g.
Proof. intro Hs. apply stored_iff in Hs as (sm & E). apply (genesis_get_summary g id sm E). Qed.

Lemma genesis_inv2 L g : 1 < L -> num_of (b_id g) = 0 -> b_skeep g = [] -> b_ikeep g = [] ->
  Inv2 (mkCfg L (b_id g)) (genesis_store g).
Proof.
  intros HL Hn Hk Hi. constructor; [apply genesis_inv; auto| |].
  - intros id Hs Hsp. apply genesis_stored in Hs. subst. apply (storepoint_pos L) in Hsp; auto. lia.
  - intros id Hh. rewrite genesis_store_pre in *.
    destruct (s3_head [] g true id Hh) as [->|Hold]; [apply s3_stored_b|discriminate].
Qed.
