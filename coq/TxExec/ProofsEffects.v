(* TxExec/ProofsEffects.v — the clause loop against its specification view (effects_of): success applies every clause in order,
   the reverted flag is exactly "some executed clause failed"; exact VET / VTHO totals of a transaction from the ledger
   primitives its clauses perform, self-destructs to self included (no assumption that "the VM conserves"); the VTHO delta
   over any address set (energy_delta_any_set_lemma); who pays and at what price (payer_and_price_lemma). *)
From Coq Require Import ZArith List Bool Lia.
From Verif Require Import Ledger.Model Ledger.Proofs TxExec.Model TxExec.Proofs.
Import ListNotations.
Open Scope Z_scope.

Section Effects.
  Variables W O : Type.
  Variable clause_result : env -> txn -> nat -> Z -> state W -> cres W O.
  Variable write_credit : Z -> Z -> Z -> W -> W.

  Definition outs_of (effs : list (state W * cres W O)) : list O := map (fun p => cr_out _ _ (snd p)) effs.

  Lemma effects_length cr T S cs : forall i lft st, length (effects_of W O cr T S i cs lft st) = length cs.
  Proof. induction cs as [|c rest IH]; intros; cbn; [reflexivity|]. rewrite IH. reflexivity. Qed.

  Lemma state_after_cons T S p effs st : state_after W O T S (p :: effs) st = state_after W O T S effs (cres_state W O T S (fst p) (snd p)).
  Proof. reflexivity. Qed.

  Lemma run_clauses_effects cr T S cp cs : forall i lft st outs log lft' st' outs' rev log',
    run_clauses W O cr T S cp i cs lft st outs log = (lft', st', outs', rev, log') ->
    let effs := effects_of W O cr T S i cs lft st in
    rev = any_error W O effs /\
    (rev = false -> st' = state_after W O T S effs st /\ outs' = outs ++ outs_of effs) /\
    (rev = true -> st' = cp /\ outs' = []).
  Proof.
    induction cs as [|c rest IH]; intros i lft st outs log lft' st' outs' rev log' H; cbn in H.
    - inversion H; subst. cbn. rewrite app_nil_r. repeat split; try discriminate; reflexivity.
    - cbn [effects_of]. cbv zeta. unfold any_error. cbn [existsb snd].
      destruct (cr_err W O (cr i lft st)) eqn:E.
      + inversion H; subst. cbn [orb]. repeat split; try discriminate; reflexivity.
      + apply IH in H. cbv zeta in H. destruct H as [A [B C]]. cbn [orb]. split; [exact A|]. split; [|exact C].
        intros R. destruct (B R) as [B1 B2]. split.
        * rewrite state_after_cons. exact B1.
        * rewrite B2. unfold outs_of. cbn [map snd]. rewrite <- app_assoc. reflexivity.
  Qed.

  Theorem tx_outcome_lemma e t ci st0 st rc :
    exec_tx W O clause_result write_credit e t ci st0 = Done W O st rc ->
    let T := e_time e in let S := e_stop e in
    let effs := tx_effects W O clause_result e t ci st0 in
    let prepaid := t_gas t * r_price O rc in
    let returned := (t_gas t - r_gas_used O rc) * r_price O rc in
    let st1 : state W := (fst (energy_sub T S (fst st0) (r_payer O rc) prepaid), snd st0) in
    length effs = length (t_clauses t) /\
    r_reverted O rc = any_error W O effs /\
    (r_reverted O rc = false ->
       r_outputs O rc = outs_of effs /\ length (r_outputs O rc) = length (t_clauses t) /\
       fst st = energy_add T S (energy_add T S (fst (state_after W O T S effs st1)) (r_payer O rc) returned) (e_benef e) (r_reward O rc) /\
       (snd st = snd (state_after W O T S effs st1) \/
        exists to credit', r_credit O rc = Some credit' /\ common_to (t_clauses t) = Some to /\
                           snd st = write_credit to (t_origin t) credit' (snd (state_after W O T S effs st1)))).
  Proof.
    intros H. destruct (exec_tx_done W O clause_result write_credit _ _ _ _ _ _ H) as (ig & b & lft & st2 & outs & rev & log & ER & _ & EB & ERC & -> & ->).
    unfold tx_effects. rewrite ER, EB.
    apply buy_gas_spec in EB. destruct EB as [Hpre [Hled [Hok _]]].
    cbn [r_reverted r_outputs r_payer r_price r_gas_used r_reward r_credit].
    apply run_clauses_effects in ERC. cbv zeta in ERC. destruct ERC as [A [B C]].
    rewrite <- Hpre, <- Hled.
    replace (t_gas t - (t_gas t - lft)) with lft by lia.
    split; [apply effects_length|]. split; [exact A|].
    intros R. destruct (B R) as [-> ->]. cbn [app].
    split; [reflexivity|]. split; [unfold outs_of; rewrite map_length; apply effects_length|].
    cbn [fst snd]. split; [reflexivity|].
    destruct (b_credit_tracked b && k_is_user ci); [|left; reflexivity].
    destruct (common_to (t_clauses t)) as [to|]; [|left; reflexivity].
    right. eexists _, _. repeat split; reflexivity.
  Qed.

  (* every primitive a non-failing clause performs is a transfer / energy move / self-destruct and touches only addresses of dom *)
  Definition clause_ops_ok (dom : list Z) : Prop :=
    forall e t i g st, cr_err _ _ (clause_result e t i g st) = false ->
      forall o, In o (cr_ops _ _ (clause_result e t i g st)) -> clause_kind o = true /\ covers dom o.
  Definition cr_ops_ok (dom : list Z) (cr : nat -> Z -> state W -> cres W O) : Prop :=
    forall i g st, cr_err _ _ (cr i g st) = false -> forall o, In o (cr_ops _ _ (cr i g st)) -> clause_kind o = true /\ covers dom o.
  (* no clause touches an address of dom at all *)
  Definition cr_ops_avoid (dom : list Z) (cr : nat -> Z -> state W -> cres W O) : Prop :=
    forall i g st o a, In o (cr_ops _ _ (cr i g st)) -> In a (touches o) -> ~ In a dom.
  Definition clause_ops_avoid (dom : list Z) : Prop := forall e t, cr_ops_avoid dom (clause_result e t).

  (* PER EXECUTION (the premises of the theorems): the same, about the clauses THIS transaction actually executes on THIS state —
     dom may depend on the transaction, the block context and the state (the global forms above quantify one dom over every
     transaction and are only sufficient conditions, satisfiable by oracles whose address set does not depend on the transaction) *)
  Definition effs_ok (dom : list Z) (effs : list (state W * cres W O)) : Prop :=
    forall p, In p effs -> cr_err _ _ (snd p) = false -> forall o, In o (cr_ops _ _ (snd p)) -> clause_kind o = true /\ covers dom o.
  Definition effs_quiet (dom : list Z) (effs : list (state W * cres W O)) : Prop :=
    forall p o, In p effs -> In o (cr_ops _ _ (snd p)) -> energy_quiet dom o.
  Definition effs_avoid (dom : list Z) (effs : list (state W * cres W O)) : Prop :=
    forall p o a, In p effs -> In o (cr_ops _ _ (snd p)) -> In a (touches o) -> ~ In a dom.
  Definition effs_no_self (effs : list (state W * cres W O)) : Prop :=
    forall p o, In p effs -> In o (cr_ops _ _ (snd p)) -> self_destruct_to_self o = false.
  Definition tx_ops_ok (dom : list Z) e t ci st0 : Prop := effs_ok dom (tx_effects W O clause_result e t ci st0).
  Definition tx_ops_quiet (dom : list Z) e t ci st0 : Prop := effs_quiet dom (tx_effects W O clause_result e t ci st0).
  Definition tx_ops_avoid (dom : list Z) e t ci st0 : Prop := effs_avoid dom (tx_effects W O clause_result e t ci st0).
  Definition tx_no_self e t ci st0 : Prop := effs_no_self (tx_effects W O clause_result e t ci st0).

  Lemma effs_ok_mono dom dom' effs : incl dom dom' -> effs_ok dom effs -> effs_ok dom' effs.
  Proof.
    intros I H p Hp E o Ho. destruct (H p Hp E o Ho) as [K C]. split; [exact K|]. intros a Ha. apply I. exact (C a Ha).
  Qed.

  Lemma effects_in cr T S cs : forall i lft st p, In p (effects_of W O cr T S i cs lft st) -> exists j g s, snd p = cr j g s.
  Proof.
    induction cs as [|c rest IH]; intros i lft st p H; [contradiction|]. cbn [effects_of] in H. cbv zeta in H.
    destruct H as [<-|H]; [eexists _, _, _; reflexivity|]. eapply IH; exact H.
  Qed.

  Lemma tx_effects_in e t ci st0 p : In p (tx_effects W O clause_result e t ci st0) -> exists j g s, snd p = clause_result e t j g s.
  Proof.
    unfold tx_effects. destruct (resolve t); [contradiction|]. destruct (buy_gas _ _ _ _); [contradiction|]. apply effects_in.
  Qed.

  (* the global forms imply the per-execution ones *)
  Lemma clause_ops_ok_tx dom : clause_ops_ok dom -> forall e t ci st0, tx_ops_ok dom e t ci st0.
  Proof.
    intros G e t ci st0 p Hp E o Ho. destruct (tx_effects_in _ _ _ _ _ Hp) as [j [g [s Eq]]]. rewrite Eq in E, Ho. exact (G e t j g s E o Ho).
  Qed.
  Lemma clause_ops_avoid_tx dom : clause_ops_avoid dom -> forall e t ci st0, tx_ops_avoid dom e t ci st0.
  Proof.
    intros G e t ci st0 p o a Hp Ho Ha. destruct (tx_effects_in _ _ _ _ _ Hp) as [j [g [s Eq]]]. rewrite Eq in Ho. exact (G e t j g s o a Ho Ha).
  Qed.
  Lemma effs_avoid_quiet dom effs : effs_avoid dom effs -> effs_quiet dom effs.
  Proof. intros H p o Hp Ho. right. intros a Ha. exact (H p o a Hp Ho Ha). Qed.

  Lemma burned_by_cons T S p effs :
    burned_by W O T S (p :: effs) =
    (fst (burned T S (fst (fst p)) (cr_ops _ _ (snd p))) + fst (burned_by W O T S effs),
     snd (burned T S (fst (fst p)) (cr_ops _ _ (snd p))) + snd (burned_by W O T S effs)).
  Proof. unfold burned_by. cbn [fold_right]. destruct (burned T S _ _). reflexivity. Qed.

  Lemma effects_totals cr T S dom (ND : NoDup dom) cs : forall i lft st,
    let effs := effects_of W O cr T S i cs lft st in
    effs_ok dom effs -> any_error W O effs = false ->
    sum_bal dom (l_acc (fst (state_after W O T S effs st))) = sum_bal dom (l_acc (fst st)) - fst (burned_by W O T S effs) /\
    sum_eng T S dom (l_acc (fst (state_after W O T S effs st))) = sum_eng T S dom (l_acc (fst st)) - snd (burned_by W O T S effs).
  Proof.
    induction cs as [|c rest IH]; intros i lft st effs OK HE; subst effs; [cbn; split; lia|].
    cbn [effects_of] in *. cbv zeta in *. unfold any_error in HE. cbn [existsb snd] in HE. apply orb_false_iff in HE. destruct HE as [E1 E2].
    rewrite state_after_cons, burned_by_cons. cbn [fst snd].
    destruct (IH _ _ _ (fun p Hp => OK p (or_intror Hp)) E2) as [A B]. rewrite A, B. clear A B IH.
    unfold cres_state. cbn [fst].
    pose proof (OK _ (or_introl eq_refl) E1) as K. cbn [snd] in K.
    destruct (ops_totals_exact T S (cr_ops _ _ (cr i lft st)) (fst st) dom ND (fun o Ho => proj2 (K o Ho))) as [C D].
    rewrite C, D. rewrite (clause_ops_no_delta T S _ (fst st) (fun o Ho => proj1 (K o Ho))). split; lia.
  Qed.

  (* a quantity of the ledger that no executed clause changes is the same after the loop *)
  Lemma state_after_keeps (F : ledger -> Z) cr T S cs : forall i lft st,
    let effs := effects_of W O cr T S i cs lft st in
    (forall p, In p effs -> F (apply_ops T S (fst (fst p)) (cr_ops _ _ (snd p))) = F (fst (fst p))) ->
    F (fst (state_after W O T S effs st)) = F (fst st).
  Proof.
    induction cs as [|c rest IH]; intros i lft st effs H; subst effs; [reflexivity|].
    cbn [effects_of] in *. cbv zeta in *. rewrite state_after_cons. cbn [fst snd].
    rewrite IH by (intros p Hp; apply H; right; exact Hp). exact (H _ (or_introl eq_refl)).
  Qed.

  Lemma effects_avoid cr T S dom cs : forall i lft st,
    let effs := effects_of W O cr T S i cs lft st in
    effs_avoid dom effs ->
    sum_bal dom (l_acc (fst (state_after W O T S effs st))) = sum_bal dom (l_acc (fst st)).
  Proof.
    intros i lft st effs AV. apply (state_after_keeps (fun l => sum_bal dom (l_acc l))). intros p Hp.
    apply sumf_ext; intros a Ha; apply untouched_ops; intros o Ho C; exact (AV p o a Hp Ho C Ha).
  Qed.

  Lemma effects_quiet cr T S dom cs : forall i lft st,
    let effs := effects_of W O cr T S i cs lft st in
    effs_quiet dom effs ->
    sum_eng T S dom (l_acc (fst (state_after W O T S effs st))) = sum_eng T S dom (l_acc (fst st)).
  Proof.
    intros i lft st effs Q. apply (state_after_keeps (fun l => sum_eng T S dom (l_acc l))). intros p Hp.
    apply energy_quiet_ops. intros o Ho. exact (Q p o Hp Ho).
  Qed.

  (* EXACT totals of one transaction: no assumption on what the clauses conserve — they perform ledger primitives *)
  Theorem tx_totals_exact_lemma e t ci st0 st rc dom :
    let T := e_time e in let S := e_stop e in
    tx_ops_ok dom e t ci st0 -> NoDup dom -> In (r_payer O rc) dom -> In (e_benef e) dom ->
    exec_tx W O clause_result write_credit e t ci st0 = Done W O st rc ->
    sum_eng T S dom (l_acc (fst st)) =
      sum_eng T S dom (l_acc (fst st0)) + r_reward O rc - r_paid O rc - snd (tx_burned W O clause_result e t ci st0) /\
    sum_bal dom (l_acc (fst st)) = sum_bal dom (l_acc (fst st0)) - fst (tx_burned W O clause_result e t ci st0).
  Proof.
    intros T S OKc ND Hp Hb H. subst T S.
    destruct (exec_tx_done W O clause_result write_credit _ _ _ _ _ _ H) as (ig & b & lft & st2 & outs & rev & log & ER & _ & EB & ERC & -> & ->).
    unfold tx_ops_ok, tx_burned in *. unfold tx_effects in *. rewrite ER, EB in *.
    set (effs := effects_of W O (clause_result e t) (e_time e) (e_stop e) 0%nat (t_clauses t) (t_gas t - ig) (b_led b, snd st0)) in *.
    apply buy_gas_spec in EB. destruct EB as [Hpre [Hled [Hok _]]].
    cbn in Hp |- *.
    rewrite !energy_add_eng, !energy_add_bal_any by assumption.
    apply run_clauses_effects in ERC. cbv zeta in ERC. fold effs in ERC. destruct ERC as [A [B C]]. rewrite <- A.
    (* the clause loop: restored when reverted, else the totals of the primitives performed *)
    assert (E2 : sum_bal dom (l_acc (fst st2)) = sum_bal dom (l_acc (b_led b)) -
                   fst (if rev then (0, 0) else burned_by W O (e_time e) (e_stop e) effs) /\
                 sum_eng (e_time e) (e_stop e) dom (l_acc (fst st2)) = sum_eng (e_time e) (e_stop e) dom (l_acc (b_led b)) -
                   snd (if rev then (0, 0) else burned_by W O (e_time e) (e_stop e) effs)).
    { destruct rev.
      - destruct (C eq_refl) as [-> _]. cbn [fst snd]. split; lia.
      - destruct (B eq_refl) as [-> _].
        exact (effects_totals (clause_result e t) (e_time e) (e_stop e) dom ND (t_clauses t) 0%nat (t_gas t - ig) (b_led b, snd st0) OKc (eq_sym A)). }
    destruct E2 as [E2 E3]. rewrite E2, E3, Hled.
    rewrite energy_sub_eng, energy_sub_bal_any by assumption. rewrite Hok. rewrite Hpre. split; lia.
  Qed.

  (* over ANY address set for which the executed clauses are "energy quiet" (each primitive either is a VET transfer or touches no
     address of the set): with dom = [a] the per-account statement — also when the payer sends or receives VET in the clauses *)
  Theorem energy_delta_any_set_lemma e t ci st0 st rc dom :
    let T := e_time e in let S := e_stop e in
    tx_ops_quiet dom e t ci st0 -> NoDup dom ->
    exec_tx W O clause_result write_credit e t ci st0 = Done W O st rc ->
    sum_eng T S dom (l_acc (fst st)) = sum_eng T S dom (l_acc (fst st0))
        + (if member (e_benef e) dom then r_reward O rc else 0) - (if member (r_payer O rc) dom then r_paid O rc else 0) /\
    (tx_ops_avoid dom e t ci st0 -> sum_bal dom (l_acc (fst st)) = sum_bal dom (l_acc (fst st0))).
  Proof.
    intros T S Q ND H. subst T S.
    destruct (exec_tx_done W O clause_result write_credit _ _ _ _ _ _ H) as (ig & b & lft & st2 & outs & rev & log & ER & _ & EB & ERC & -> & ->).
    unfold tx_ops_quiet, tx_ops_avoid, tx_effects in *. rewrite ER, EB in *.
    apply buy_gas_spec in EB. destruct EB as [Hpre [Hled [Hok _]]]. cbn in *.
    rewrite energy_add_eng_any, energy_add_bal_any by assumption.
    rewrite energy_add_eng_any, energy_add_bal_any by assumption.
    apply run_clauses_effects in ERC. cbv zeta in ERC. destruct ERC as [A [B C]].
    assert (E3 : sum_eng (e_time e) (e_stop e) dom (l_acc (fst st2)) = sum_eng (e_time e) (e_stop e) dom (l_acc (b_led b))).
    { destruct rev.
      - destruct (C eq_refl) as [-> _]. reflexivity.
      - destruct (B eq_refl) as [-> _]. apply (effects_quiet (clause_result e t) (e_time e) (e_stop e) dom). exact Q. }
    split.
    - rewrite E3, Hled. rewrite energy_sub_eng_any by assumption. rewrite Hok. cbn [andb].
      rewrite Hpre. destruct (member (b_payer b) dom), (member (e_benef e) dom); lia.
    - intros AV.
      assert (E2 : sum_bal dom (l_acc (fst st2)) = sum_bal dom (l_acc (b_led b))).
      { destruct rev.
        - destruct (C eq_refl) as [-> _]. reflexivity.
        - destruct (B eq_refl) as [-> _]. apply (effects_avoid (clause_result e t) (e_time e) (e_stop e) dom). exact AV. }
      rewrite E2, Hled. apply energy_sub_bal_any. assumption.
  Qed.

  Theorem payer_and_price_lemma e t ci st0 st rc :
    exec_tx W O clause_result write_credit e t ci st0 = Done W O st rc ->
    r_price O rc = effective_price e t (match e_base_fee e with Some bf => bf | None => 0 end) /\
    (match t_delegator t with
     | Some d => r_payer O rc = d
     | None => r_payer O rc = t_origin t \/
               (exists to, common_to (t_clauses t) = Some to /\ t_gas t * r_price O rc <= k_credit ci /\
                           (r_payer O rc = to \/ (k_is_sponsor ci = true /\ r_payer O rc = k_sponsor ci)))
     end).
  Proof.
    intros H. destruct (exec_tx_done W O clause_result write_credit _ _ _ _ _ _ H) as (ig & b & lft & st2 & outs & rev & log & _ & _ & EB & _ & _ & ->).
    apply buy_gas_spec in EB. destruct EB as (_ & _ & _ & _ & Hprice & Hpayer). exact (conj Hprice Hpayer).
  Qed.
End Effects.
