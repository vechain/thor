(* Codec/ProofsTop.v — what C11 says about the Go entry points (go_decode_* / go_reencode_*, UnmarshalBinary / MarshalBinary),
   from the codec_ok of the object codecs: decoding is sound, round-trips, and re-encoding gives back the input unless a nil
   position held 0xc0 (norm_* is the identity exactly then); the signing preimages determine the signed tuples; the header
   decoder before the txsRootFeatures fix accepted a second form (f3_witness). *)
From Coq Require Import List NArith ZArith Bool Lia.
From Coq Require Import ZifyN ZifyNat ZifyBool.
From Verif Require Import Codec.Model Codec.ProofsRLP Codec.ProofsComb Codec.ProofsObjects.
Import ListNotations.
Open Scope N_scope.

Lemma norm_nil_iff v : norm_nil v = v <-> is_nil_list v = false.
Proof. destruct v; cbn; split; congruence. Qed.
Lemma map_fix_iff {A} (f : A -> A) (p : A -> bool) l :
  (forall x, f x = x <-> p x = false) -> (map f l = l <-> existsb p l = false).
Proof.
  intros H. induction l as [|x l IH]; [split; reflexivity|]. cbn [map existsb]. rewrite orb_false_iff, <- H, <- IH.
  split; [intros E; injection E; auto|intros [E1 E2]; rewrite E1, E2; reflexivity].
Qed.
Lemma norm_clause_iff c : norm_clause c = c <-> is_nil_list (c_to c) = false.
Proof.
  destruct c as [to v d]. unfold norm_clause. cbn [c_to c_value c_data]. rewrite <- norm_nil_iff.
  split; [intros E; injection E; auto|intros E; rewrite E; reflexivity].
Qed.
Lemma norm_tx_iff t : norm_tx t = t <-> tx_has_nil_list t = false.
Proof.
  destruct t as [dy ct br ex cl gpc pr fe gas dep no res sg]. unfold norm_tx, tx_has_nil_list.
  cbn [t_depends t_clauses t_dyn t_chain_tag t_block_ref t_expiration t_gpc t_max_prio t_max_fee t_gas t_nonce t_reserved t_sig].
  rewrite orb_false_iff, <- norm_nil_iff, <- (map_fix_iff norm_clause _ cl norm_clause_iff).
  split; [intros E; injection E; auto|intros [E1 E2]; rewrite E1, E2; reflexivity].
Qed.
Lemma norm_block_iff b : norm_block b = b <-> block_has_nil_list b = false.
Proof.
  destruct b as [h txs]. unfold norm_block, block_has_nil_list. cbn [b_txs b_header].
  rewrite <- (map_fix_iff norm_tx _ txs norm_tx_iff). split; [intros E; injection E; auto|intros E; rewrite E; reflexivity].
Qed.

Lemma tx_roundtrip_l t : wfp c_tx t -> go_decode_tx (enc c_tx t) = Some t.
Proof. apply dec_exact_complete, c_tx_ok. Qed.
Lemma tx_decode_sound_l b t : go_decode_tx b = Some t -> b = enc c_tx t /\ wfp c_tx t.
Proof. apply dec_exact_sound, c_tx_ok. Qed.
Lemma tx_decode_canonical_except_l b t :
  go_decode_tx b = Some t -> tx_has_nil_list t = false ->
  go_reencode_tx t = b /\ lenN (tx_marshal t) = lenN (go_marshal_tx t).
Proof.
  intros H Hq. apply tx_decode_sound_l in H. destruct H as [-> _]. unfold go_reencode_tx, go_marshal_tx.
  rewrite (proj2 (norm_tx_iff t) Hq). split; reflexivity.
Qed.
Lemma tx_nil_ptr_refuted_l : exists b t, go_decode_tx b = Some t /\ go_reencode_tx t <> b.
Proof.
  exists [202; 128; 128; 128; 192; 128; 128; 192; 128; 192; 128].
  eexists. split; [vm_compute; reflexivity|]. vm_compute. discriminate.
Qed.
Lemma tx_clause_nil_ptr_refuted_l : exists b t, go_decode_tx b = Some t /\ go_reencode_tx t <> b.
Proof.
  exists [206; 128; 128; 128; 196; 195; 192; 128; 128; 128; 128; 128; 128; 192; 128].
  eexists. split; [vm_compute; reflexivity|]. vm_compute. discriminate.
Qed.

(* a list encoding starts with a byte >= 0xc0, which is how UnmarshalBinary tells a legacy body from a typed envelope *)
Lemma cwrap_first {A} (c : codec A) x : exists y rest, enc (cwrap c) x = y :: rest /\ 192 <= y.
Proof.
  change (enc (cwrap c) x) with (enc_list (enc c x)). unfold enc_list.
  destruct (enc_len_first 192 (lenN (enc c x))) as (h & t & -> & Hh). eexists _, _. split; [reflexivity|exact Hh].
Qed.
Lemma tx_unmarshal_sound_l b t : tx_unmarshal b = Some t ->
  b = tx_marshal t /\ (if t_dyn t then wfp c_dyn t else wfp c_legacy t).
Proof.
  unfold tx_unmarshal, tx_marshal. destruct b as [|x b']; [discriminate|]. destruct (127 <? x) eqn:E.
  - intros H. apply (dec_exact_sound _ _ _ (proj1 c_legacy_ok)) in H. destruct H as [Hb W].
    pose proof (c_legacy_dyn_flag _ W) as Hf. rewrite Hf. tauto.
  - intros H. apply (dec_typed_sound _ _ _ (proj1 c_dyn_ok)) in H. destruct H as [Hb W].
    pose proof (c_dyn_dyn_flag _ W) as Hf. rewrite Hf. tauto.
Qed.
Lemma tx_unmarshal_complete_l t : (if t_dyn t then wfp c_dyn t else wfp c_legacy t) -> tx_unmarshal (tx_marshal t) = Some t.
Proof.
  unfold tx_unmarshal, tx_marshal. destruct (t_dyn t) eqn:Ed; intros W.
  - cbn [N.ltb N.compare]. apply dec_typed_complete; [apply c_dyn_ok|apply c_dyn_nonempty|exact W].
  - destruct (cwrap_first _ _ : exists x rest, enc c_legacy t = x :: rest /\ 192 <= x) as [x [rest [E Hx]]].
    rewrite E. cbv beta iota.
    destruct (127 <? x) eqn:E2; [|exfalso; lia]. rewrite <- E. apply dec_exact_complete; [apply c_legacy_ok|exact W].
Qed.

Lemma tx_signing_injective_l t1 t2 :
  (if t_dyn t1 then wfp (cwrap dyn_sign_fields) (dyn_sign_tuple t1) else wfp (cwrap legacy_sign_fields) (legacy_sign_tuple t1)) ->
  (if t_dyn t2 then wfp (cwrap dyn_sign_fields) (dyn_sign_tuple t2) else wfp (cwrap legacy_sign_fields) (legacy_sign_tuple t2)) ->
  tx_signing_bytes t1 = tx_signing_bytes t2 ->
  t_dyn t1 = t_dyn t2 /\
  (if t_dyn t1 then dyn_sign_tuple t1 = dyn_sign_tuple t2 else legacy_sign_tuple t1 = legacy_sign_tuple t2).
Proof.
  unfold tx_signing_bytes. destruct (t_dyn t1) eqn:E1, (t_dyn t2) eqn:E2; intros W1 W2 H.
  - inversion H as [H1]. split; [reflexivity|]. exact (codec_inj _ _ _ dyn_sign_ok W1 W2 H1).
  - exfalso. destruct (cwrap_first legacy_sign_fields (legacy_sign_tuple t2)) as [y [rest [E Hy]]]. rewrite E in H. inversion H. lia.
  - exfalso. destruct (cwrap_first legacy_sign_fields (legacy_sign_tuple t1)) as [y [rest [E Hy]]]. rewrite E in H. inversion H. lia.
  - split; [reflexivity|]. exact (codec_inj _ _ _ legacy_sign_ok W1 W2 H).
Qed.

Lemma header_roundtrip_l h : wfp c_header h -> go_decode_header (enc c_header h) = Some h.
Proof. apply dec_exact_complete, c_header_ok. Qed.
Lemma header_decode_canonical_l b h : go_decode_header b = Some h -> go_reencode_header h = b /\ wfp c_header h.
Proof. intros H. apply (dec_exact_sound _ _ _ (proj1 c_header_ok)) in H. destruct H as [-> W]. split; [reflexivity|exact W]. Qed.
Lemma header_signing_injective_l h1 h2 :
  wfp (cwrap header_sign_fields) (header_sign_tuple h1) -> wfp (cwrap header_sign_fields) (header_sign_tuple h2) ->
  header_signing_bytes h1 = header_signing_bytes h2 -> header_sign_tuple h1 = header_sign_tuple h2.
Proof. intros W1 W2 H. exact (codec_inj _ _ _ header_sign_ok W1 W2 H). Qed.
(* the decoder of the tree before the fix (strict = false) accepted [root, 0x80]: recorded refutation F3 *)
Definition f3_witness : bytes :=
  [248; 160; 160] ++ repeat 1 32 ++ [128; 128; 148] ++ repeat 2 20 ++ [128; 128; 226; 160] ++ repeat 3 32 ++ [128; 160] ++ repeat 4 32
  ++ [160] ++ repeat 5 32 ++ [128].
Lemma header_features_refuted_before_fix_l :
  exists h, dec_exact (c_header_gen (c_trf_gen false)) f3_witness = Some h /\ enc (c_header_gen (c_trf_gen false)) h <> f3_witness.
Proof. eexists. split; [vm_compute; reflexivity|]. vm_compute. discriminate. Qed.
Lemma header_features_fixed_l : go_decode_header f3_witness = None.
Proof. vm_compute. reflexivity. Qed.

Lemma receipt_roundtrip_l r : wfp c_receipt r -> go_decode_receipt (enc c_receipt r) = Some r.
Proof. apply dec_exact_complete, c_receipt_ok. Qed.
Lemma receipt_decode_canonical_l b r : go_decode_receipt b = Some r -> go_reencode_receipt r = b /\ wfp c_receipt r.
Proof. intros H. apply (dec_exact_sound _ _ _ (proj1 c_receipt_ok)) in H. destruct H as [-> W]. split; [reflexivity|exact W]. Qed.

Lemma block_roundtrip_l b : wfp c_block b -> go_decode_block (enc c_block b) = Some b.
Proof. apply dec_exact_complete, c_block_ok. Qed.
Lemma block_decode_canonical_except_l bs b :
  go_decode_block bs = Some b -> block_has_nil_list b = false -> go_reencode_block b = bs /\ wfp c_block b.
Proof.
  intros H Hq. apply (dec_exact_sound _ _ _ (proj1 c_block_ok)) in H. destruct H as [-> W]. unfold go_reencode_block.
  rewrite (proj2 (norm_block_iff b) Hq). split; [reflexivity|exact W].
Qed.
