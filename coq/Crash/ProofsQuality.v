(* Crash/ProofsQuality.v — the quality records along a chain: every stored store-point block's record is the record of
   the previous epoch's store point on its chain plus one if its own epoch is justified (Qrec, kept by every import), hence
   qualities never decrease along a chain; sort.Search over them finds the least epoch reaching the target, and
   findCheckpointByQuality started from an older finalized block of the same chain finds the same checkpoint whenever the
   search from the newer one finds a checkpoint beyond it. *)
From Coq Require Import List NArith Bool Lia.
From Verif Require Import Crash.Model Crash.ProofsStore Crash.ProofsInv Crash.ProofsImport Crash.ProofsCrash
  Crash.ProofsEqv Crash.ProofsShape Crash.ProofsResumeAll Crash.ProofsFinalized.
Import ListNotations.
Open Scope N_scope.

(* ---- sort.Search over a monotone predicate returns the least index at which it holds *)

Section Bsearch.
  Variables (p : N -> option bool) (pb : N -> bool) (lo0 hi0 : N).
  Hypothesis Total : forall i, lo0 <= i < hi0 -> p i = Some (pb i).
  Hypothesis Mono : forall i j, lo0 <= i -> i <= j -> j < hi0 -> pb j = false -> pb i = false.

  Lemma bsearch_least : forall fuel lo hi, lo0 <= lo -> hi <= hi0 -> lo <= hi -> (N.to_nat (hi - lo) <= fuel)%nat ->
    (forall i, lo0 <= i < lo -> pb i = false) ->
    exists idx, bsearch fuel p lo hi = Some idx /\ lo <= idx <= hi /\
                (forall i, lo0 <= i < idx -> pb i = false) /\ (idx < hi -> pb idx = true).
  Proof.
    induction fuel as [|fu IH]; intros lo hi Hlo Hhi Hle Hf Hbelow.
    - assert (lo = hi) by lia. subst. simpl. rewrite N.ltb_irrefl. exists hi. repeat split; auto; lia.
    - simpl. destruct (lo <? hi) eqn:E.
      + apply N.ltb_lt in E.
        assert (H1 : lo <= (lo + hi) / 2) by (apply N.div_le_lower_bound; lia).
        assert (H2 : (lo + hi) / 2 < hi) by (apply N.div_lt_upper_bound; lia).
        set (h := (lo + hi) / 2) in *.
        rewrite Total by lia. destruct (pb h) eqn:Eh.
        * destruct (IH lo h Hlo) as (idx & Hi & Hr & Hb & Ht); auto; try lia.
          exists idx. rewrite Hi. repeat split; auto; try lia.
          intro Hx. destruct (N.eq_dec idx h) as [->|]; auto. apply Ht. lia.
        * destruct (IH (h + 1) hi) as (idx & Hi & Hr & Hb & Ht); auto; try lia.
          { intros i Hi. destruct (N.lt_ge_cases i lo) as [Hl|Hg]; [apply Hbelow; lia|].
            apply (Mono i h); auto; lia. }
          exists idx. rewrite Hi. repeat split; auto; lia.
      + apply N.ltb_ge in E. assert (lo = hi) by lia. subst. exists hi. repeat split; auto; lia.
  Qed.
End Bsearch.

Definition Qrec (c : cfg) (s : store) : Prop :=
  forall id sm, get_summary s id = Some sm -> is_storepoint (c_L c) (num_of id) = true ->
    quality_of c s (s_parent sm) (num_of id) (s_just sm) = Some (get_quality s id).

(* the finalized block is the first block of an epoch *)
Definition aligned (c : cfg) (f : N) : Prop := exists e, num_of f = e * c_L c.

Record InvQ (c : cfg) (s : store) : Prop := mkInvQ { iq_rec : Qrec c s; iq_al : aligned c (finalized c s) }.

Lemma checkpoint_pos L n : 0 < L -> n / L <> 0 -> L <= checkpoint L n.
Proof.
  intros H H0. unfold checkpoint. set (d := n / L) in *. assert (1 <= d) by lia.
  replace L with (1 * L) at 1 by lia. apply N.mul_le_mono_r. auto.
Qed.

Lemma quality_of_mono c s s' p n j q : wf_cfg c ->
  keeps_summaries s s' ->
  (forall y, stored s y = true -> num_of y < n -> get_quality s' y = get_quality s y) ->
  quality_of c s p n j = Some q -> quality_of c s' p n j = Some q.
Proof.
  intros [_ HL] K HQ. unfold quality_of. destruct (n / c_L c =? 0) eqn:E0; auto.
  apply N.eqb_neq in E0.
  destruct (anc s p (checkpoint (c_L c) n - 1)) as [a|] eqn:Ea; [|discriminate].
  rewrite (anc_mono s s' _ _ _ K Ea). destruct (anc_stored _ _ _ _ Ea) as [Hs Hn].
  rewrite HQ; auto. pose proof (checkpoint_le (c_L c) n HL). pose proof (checkpoint_pos (c_L c) n HL E0). lia.
Qed.

Lemma Qrec_extend c s s' x smx : wf_cfg c -> Qrec c s -> stored s x = false ->
  (forall i, get_summary s' i = if N.eq_dec i x then Some smx else get_summary s i) ->
  (forall i, i <> x -> get_quality s' i = get_quality s i) ->
  (is_storepoint (c_L c) (num_of x) = true -> quality_of c s' (s_parent smx) (num_of x) (s_just smx) = Some (get_quality s' x)) ->
  Qrec c s'.
Proof.
  intros Hc Q Hx HS HQ Hnew id sm E Hsp. rewrite HS in E. destruct (N.eq_dec id x) as [->|Hne].
  - inversion E; subst. auto.
  - rewrite HQ by auto. apply (quality_of_mono c s s'); auto.
    + intros i smi Ei. rewrite HS. destruct (N.eq_dec i x) as [->|]; auto.
      unfold stored in Hx. rewrite Ei in Hx. discriminate.
    + intros y Hy _. apply HQ. intro X. subst. congruence.
Qed.

Lemma Qrec_ext c s s' : (forall i, get_summary s' i = get_summary s i) -> (forall i, get_quality s' i = get_quality s i) ->
  Qrec c s -> Qrec c s'.
Proof.
  intros HS HQ Q id sm E Hsp. rewrite HS in E. rewrite HQ. rewrite <- (Q id sm E Hsp).
  unfold quality_of. destruct (num_of id / c_L c =? 0); auto.
  unfold anc. rewrite (ancestor_ext s s' HS). destruct (ancestor _ s _ _); auto. rewrite HQ. auto.
Qed.

Lemma aligned_find c s t fin head f : aligned c fin -> find_checkpoint c s t fin head = Some f -> aligned c f.
Proof.
  intros (e & He) H. destruct (find_checkpoint_some _ _ _ _ _ _ H) as (idx & Hi). apply anc_stored in Hi as [_ Hi].
  exists (e + idx). lia.
Qed.

(* ---- every import keeps the recurrence and the alignment of the finalized block *)

(* the store right after the quality record of a store-point block: the recurrence holds, the new block included *)
(* Qrec at s4, the store after the quality record of the imported block *)
Lemma main_case_qrec4 c s b ab q : wf_cfg c -> Qrec c s -> main_case c s b ab ->
  let s3 := apply_writes s (pre_writes s b ab) in
  quality_of c s3 (b_parent b) (num_of (b_id b)) (b_just b) = Some q ->
  Qrec c (apply_batch s3 [Put (KQuality (b_id b)) (VNum q)]).
Proof.
  intros Hc Q M s3 Eq.
  pose proof (main_not_stored c s b ab M) as Hns.
  assert (S3 : forall i, get_summary s3 i = if N.eq_dec i (b_id b) then Some (summary_of b (conf_of s b)) else get_summary s i)
    by (intro i; apply s3_summary).
  assert (Q3 : forall i, get_quality s3 i = get_quality s i) by (intro i; apply s3_get_quality).
  set (wq := [Put (KQuality (b_id b)) (VNum q)]) in *. set (s4 := apply_batch s3 wq).
  assert (S4 : forall i, get_summary s4 i = if N.eq_dec i (b_id b) then Some (summary_of b (conf_of s b)) else get_summary s i).
  { intro i. unfold s4, wq. rewrite get_summary_put_other by discriminate. apply S3. }
  assert (Q4 : forall i, i <> b_id b -> get_quality s4 i = get_quality s i).
  { intros i Hi. unfold s4, wq. rewrite get_quality_put. destruct (N.eq_dec i (b_id b)); [congruence|auto]. }
  assert (Q4b : get_quality s4 (b_id b) = q).
  { unfold s4, wq. rewrite get_quality_put. destruct (N.eq_dec (b_id b) (b_id b)); congruence. }
  assert (Hq4 : quality_of c s4 (b_parent b) (num_of (b_id b)) (b_just b) = Some q).
  { apply (quality_of_mono c s3 s4); auto.
    - intros i smi Ei. rewrite S4, <- S3. auto.
    - intros y _ Hy. rewrite Q4, Q3; auto. intro X. rewrite X in Hy. lia. }
  eapply (Qrec_extend c s s4 (b_id b)); eauto. intros _. cbn [summary_of s_parent s_just]. rewrite Q4b. auto.
Qed.

Theorem run1_invq c s b : wf_cfg2 c -> Inv2 c s -> InvQ c s -> wf_blk s b -> InvQ c (run1 c s b).
Proof.
  intros [Hc HL] I2 [Q A] Hwf. pose proof (i2_inv c s I2) as I.
  destruct (run1_eq_cases c s b) as [E|[E|(ab & M & E)]]; rewrite E.
  - constructor; auto.
  - assert (Ena : eqv_na s (apply_writes s (state_batches b (conf_of s b))))
      by (apply aux_writes_eqv_na; apply state_batches_aux).
    constructor.
    + eapply Qrec_ext; [| |exact Q]; intro i; symmetry; [apply na_get_summary|apply na_get_quality]; auto.
    + rewrite <- (na_finalized _ _ Ena). auto.
  - pose proof (main_not_stored c s b ab M) as Hns. pose proof (s3_finalized c s b ab) as F3.
    pose proof (fun q => main_case_qrec4 c s b ab q Hc Q M) as QR4. cbn zeta in QR4.
    unfold commit_writes. set (s3 := apply_writes s (pre_writes s b ab)) in *.
    destruct (commit_steps_cases c s3 (b_id b) (b_parent b) (b_just b) (b_comm b)) as [[Ec [Hsp|Eq]]|(q & Hsp & Eq & [Ec|(f & Ef & Ec)])];
      rewrite Ec; cbn [writes_of_steps flat_map app apply_writes fold_left].
    + (* not a store point: no record for the new block is asked for *)
      constructor; [|rewrite F3; auto].
      apply (Qrec_extend c s s3 (b_id b) (summary_of b (conf_of s b))); auto.
      * intro i. apply s3_summary.
      * intros i _. apply s3_get_quality.
      * intro X. congruence.
    + (* a store point always gets its record *)
      exfalso. pose proof M as M'. destruct M as (_ & _ & Mp & Mn & _).
      destruct (quality_of_total c s3 (b_parent b) (num_of (b_id b)) (b_just b) Hc (main_case_inv3 c s b ab Hc I Hwf M')
                  (s3_stored_mono s b ab _ Mp) Mn) as (q & Eq'). congruence.
    + constructor; auto. rewrite finalized_put_quality, F3. auto.
    + change (apply_batch s3 [Put (KQuality (b_id b)) (VNum q); Put KFinalized (VId f)])
        with (apply_batch (apply_batch s3 [Put (KQuality (b_id b)) (VNum q)]) [Put KFinalized (VId f)]).
      constructor.
      * eapply Qrec_ext; [| |apply (QR4 q Eq)]; intro i; [apply get_summary_put_other; discriminate|apply get_quality_put_fin].
      * rewrite finalized_put. eapply aligned_find; [|exact Ef]. rewrite F3. auto.
Qed.

Lemma run_invq c l : forall s, wf_cfg2 c -> Inv2 c s -> InvQ c s -> wf_hist c s l -> InvQ c (run c s l).
Proof.
  induction l as [|b r IH]; intros s Hc I Q Hw; simpl; auto.
  destruct Hw as [Hb Hr]. apply IH; auto. { apply run1_inv2; auto. } apply run1_invq; auto.
Qed.

Lemma genesis_invq L g : 1 < L -> num_of (b_id g) = 0 -> InvQ (mkCfg L (b_id g)) (genesis_store g).
Proof.
  intros HL Hn. constructor.
  - intros id sm E Hsp. exfalso. apply get_summary_stored, genesis_stored in E. subst.
    apply (storepoint_pos L) in Hsp; auto. lia.
  - exists 0. rewrite genesis_store_pre, s3_finalized. exact Hn.
Qed.

Definition Qe (c : cfg) (s : store) (head e : N) : N :=
  match anc s head (e * c_L c + c_L c - 1) with Some x => get_quality s x | None => 0 end.

Lemma Qe_step c s head e : wf_cfg c -> Inv c s -> Qrec c s -> stored s head = true ->
  (e + 1) * c_L c + c_L c - 1 <= num_of head -> Qe c s head e <= Qe c s head (e + 1).
Proof.
  intros Hc I Q Hs Hle. pose proof Hc as [_ HL]. unfold Qe.
  destruct (anc_total c s head ((e + 1) * c_L c + c_L c - 1) Hc I Hs Hle) as (x & Hx).
  destruct (anc_total c s head (e * c_L c + c_L c - 1) Hc I Hs) as (y & Hy); [lia|].
  rewrite Hx, Hy. destruct (anc_stored _ _ _ _ Hx) as [Hsx Hnx].
  unfold stored in Hsx. destruct (get_summary s x) as [sm|] eqn:Ex; [|discriminate].
  assert (Hsp : is_storepoint (c_L c) (num_of x) = true) by (rewrite Hnx; apply is_storepoint_at, HL).
  pose proof (Q x sm Ex Hsp) as R. unfold quality_of in R.
  assert (Ediv : num_of x / c_L c = e + 1).
  { rewrite Hnx. replace ((e + 1) * c_L c + c_L c - 1) with ((e + 1) * c_L c + (c_L c - 1)) by lia. apply div_epoch. lia. }
  rewrite Ediv in R. destruct (e + 1 =? 0) eqn:E0; [apply N.eqb_eq in E0; lia|].
  assert (Ecp : checkpoint (c_L c) (num_of x) - 1 = e * c_L c + c_L c - 1) by (unfold checkpoint; rewrite Ediv; lia).
  rewrite Ecp in R.
  assert (Hya : anc s x (e * c_L c + c_L c - 1) = Some y) by (eapply (anc_compose c s head); eauto; lia).
  rewrite (anc_step c s x sm _ I Ex) in Hya by lia. rewrite Hya in R. inversion R. lia.
Qed.

Lemma Qe_le c s head e e' : wf_cfg c -> Inv c s -> Qrec c s -> stored s head = true ->
  e <= e' -> e' * c_L c + c_L c - 1 <= num_of head -> Qe c s head e <= Qe c s head e'.
Proof.
  intros Hc I Q Hs Hee. revert e' Hee.
  apply (N.le_ind (fun e' => e' * c_L c + c_L c - 1 <= num_of head -> Qe c s head e <= Qe c s head e')); [intros x y ->; reflexivity|lia|].
  intros m Hm IH Hle. rewrite <- N.add_1_r in *. etransitivity; [apply IH; nia|apply Qe_step; auto].
Qed.

(* ---- findCheckpointByQuality: the first block of the least epoch (from the finalized one on) whose quality reaches
   the target, provided it is exactly the target *)

Section FindSpec.
  Variables (c : cfg) (s : store) (head E : N).
  Hypothesis Hc : wf_cfg c.
  Hypothesis I : Inv c s.
  Hypothesis Q : Qrec c s.
  Hypothesis Hs : stored s head = true.
  Hypothesis HE : num_of head = E * c_L c + c_L c - 1.

  (* bsearch_least on the predicate t <=? Qe (e0 + i), which is monotone in i by Qe_le *)
  Lemma find_checkpoint_spec t fin e0 f : num_of fin = e0 * c_L c -> e0 <= E ->
    (find_checkpoint c s t fin head = Some f <->
     exists e, e0 <= e <= E /\ Qe c s head e = t /\ (forall e', e0 <= e' < e -> Qe c s head e' < t) /\
               anc s head (e * c_L c) = Some f).
  Proof.
    intros Hfin He0. pose proof Hc as [_ HL]. set (L := c_L c) in *.
    unfold find_checkpoint. fold L. rewrite Hfin, HE.
    destruct (E * L + L - 1 <? e0 * L) eqn:Elt; [apply N.ltb_lt in Elt; nia|].
    assert (En : (E * L + L - 1 - e0 * L) / L + 1 = E - e0 + 1).
    { f_equal. replace (E * L + L - 1 - e0 * L) with ((E - e0) * L + (L - 1)) by nia. apply div_epoch. lia. }
    rewrite En. set (n := E - e0 + 1).
    assert (Esp : forall i, storepoint L (e0 * L + i * L) = (e0 + i) * L + L - 1).
    { intro i. unfold storepoint. replace (e0 * L + i * L) with ((e0 + i) * L + 0) by lia. rewrite checkpoint_at by lia. reflexivity. }
    set (qf := fun i => match anc s head (storepoint L (e0 * L + i * L)) with Some id => Some (get_quality s id) | None => None end).
    assert (Hqf : forall i, i < n -> qf i = Some (Qe c s head (e0 + i))).
    { intros i Hi. unfold qf, Qe. fold L. rewrite Esp.
      destruct (anc_total c s head ((e0 + i) * L + L - 1) Hc I Hs) as (x & Hx); [rewrite HE; fold L; unfold n in Hi; nia|].
      rewrite Hx. reflexivity. }
    set (pb := fun i => t <=? Qe c s head (e0 + i)).
    destruct (bsearch_least (fun i => match qf i with Some x => Some (t <=? x) | None => None end) pb 0 n) with
      (fuel := S (N.to_nat n)) (lo := 0) (hi := n) as (idx & Hb & Hr & Hbelow & Hat); try lia.
    { intros i Hi. rewrite Hqf by lia. reflexivity. }
    { intros i j _ Hij Hj. unfold pb. rewrite !N.leb_gt. intro X.
      assert (Qe c s head (e0 + i) <= Qe c s head (e0 + j)); [|lia].
      apply Qe_le; auto; try lia. rewrite HE. fold L. unfold n in Hj. nia. }
    fold L in Hb. unfold qf in Hb. rewrite Hb.
    change (match anc s head (storepoint L (e0 * L + idx * L)) with Some id => Some (get_quality s id) | None => None end) with (qf idx).
    split.
    - destruct (idx =? n) eqn:Ein; [discriminate|]. apply N.eqb_neq in Ein.
      assert (Hi : idx < n) by lia. rewrite Hqf by auto.
      destruct (Qe c s head (e0 + idx) =? t) eqn:Et; [|discriminate]. apply N.eqb_eq in Et.
      intro Ha. exists (e0 + idx). split; [unfold n in Hi; lia|]. split; auto. split.
      + intros e' He'. specialize (Hbelow (e' - e0)). unfold pb in Hbelow.
        replace (e0 + (e' - e0)) with e' in Hbelow by lia. apply N.leb_gt. apply Hbelow. lia.
      + replace ((e0 + idx) * L) with (e0 * L + idx * L) by lia. exact Ha.
    - intros (e & He & Hqe & Hbefore & Ha).
      assert (idx = e - e0).
      { destruct (N.lt_trichotomy idx (e - e0)) as [Hl|[->|Hg]]; auto.
        - assert (Hi : idx < n) by (unfold n; lia). specialize (Hat Hi). unfold pb in Hat. apply N.leb_le in Hat.
          specialize (Hbefore (e0 + idx)). lia.
        - specialize (Hbelow (e - e0)). unfold pb in Hbelow. replace (e0 + (e - e0)) with e in Hbelow by lia.
          rewrite Hqe, N.leb_refl in Hbelow. assert (true = false) by (apply Hbelow; lia). discriminate. }
      subst idx. destruct (e - e0 =? n) eqn:Ein; [apply N.eqb_eq in Ein; unfold n in Ein; lia|].
      rewrite Hqf by (unfold n; lia). replace (e0 + (e - e0)) with e by lia. rewrite Hqe, N.eqb_refl.
      replace (e0 * L + (e - e0) * L) with (e * L) by nia. exact Ha.
  Qed.

  (* two starts on the chain of [head]: an older finalized block (epoch er) and a newer one (epoch eu) *)
  Variables (t fr fu er eu : N).
  Hypothesis Hfr : num_of fr = er * c_L c.
  Hypothesis Hfu : num_of fu = eu * c_L c.
  Hypothesis Hru : er <= eu.
  Hypothesis HuE : eu <= E.

  Lemma find_from_older f : find_checkpoint c s t fr head = Some f ->
    (exists e, er <= e <= eu /\ anc s head (e * c_L c) = Some f) \/ find_checkpoint c s t fu head = Some f.
  Proof.
    intro H. apply (find_checkpoint_spec t fr er f Hfr) in H; [|lia]. destruct H as (e & He & Hq & Hb & Ha).
    destruct (N.le_gt_cases e eu) as [Hle|Hgt].
    - left. exists e. split; auto. lia.
    - right. apply (find_checkpoint_spec t fu eu f Hfu HuE). exists e. repeat split; auto; try lia.
      intros e' He'. apply Hb. lia.
  Qed.

  Lemma find_from_newer f : find_checkpoint c s t fu head = Some f -> anc s head (eu * c_L c) <> Some f ->
    find_checkpoint c s t fr head = Some f.
  Proof.
    intros H Hne. apply (find_checkpoint_spec t fu eu f Hfu HuE) in H. destruct H as (e & He & Hq & Hb & Ha).
    assert (Hlt : eu < e).
    { destruct (N.eq_dec e eu) as [->|]; [congruence|lia]. }
    apply (find_checkpoint_spec t fr er f Hfr); [lia|]. exists e. repeat split; auto; try lia.
    intros e' He'. destruct (N.le_gt_cases eu e') as [Hge|Hl]; [apply Hb; lia|].
    assert (Qe c s head e' <= Qe c s head eu) by (apply Qe_le; auto; try lia; rewrite HE; nia).
    assert (Qe c s head eu < t) by (apply Hb; lia). lia.
  Qed.
End FindSpec.
