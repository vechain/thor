(* Chain/ProofsChainDep.v — C09 first sentence, dependency clause at chain level: on every history all of whose
   blocks passed the body / verify rules, the dependency of every included tx occurs earlier on the same chain
   (a lower block, or an earlier position of the same block) and its receipt is not reverted. *)
From Coq Require Import List NArith Arith Bool Lia ZifyN ZifyNat ZifyBool.
From Verif Require Import Chain.Model Chain.Proofs Chain.ProofsWalk Chain.ProofsSys Chain.ProofsPath Chain.ProofsTx
  Chain.ProofsAccept Chain.ProofsChainInv.
Import ListNotations.
Open Scope N_scope.

Lemma afind_In {V} k (l : list (N * V)) v : afind k l = Some v -> In (k, v) l.
Proof.
  induction l as [|[k' v'] t IH]; cbn [afind]; [discriminate|].
  destruct (N.eqb_spec k' k) as [->|]; [intros E; injection E as ->; left; reflexivity | intros H; right; apply IH; exact H].
Qed.

Lemma head_skipn (l : list bool) : forall i, match skipn i l with v :: _ => v | [] => false end = nth i l false.
Proof. induction l as [|x l IH]; intros [|i]; cbn; auto. Qed.
Lemma tl_skipn {A} (l : list A) : forall i, tl (skipn i l) = skipn (S i) l.
Proof.
  induction l as [|x l IH]; intros i; [destruct i; reflexivity|].
  destruct i; cbn [skipn]; [reflexivity | apply IH].
Qed.

(* what the verify loop guarantees about dependencies, by absolute position in the block *)
Section VerifyDep.
  Variables (r : repo) (p : N) (all : list txrec) (revs_all : list bool).

  Definition dep_found (bound : nat) (d : N) : Prop :=
    (exists j tj, (j < bound)%nat /\ nth_error all j = Some tj /\ tx_id tj = d /\ nth j revs_all false = false) \/
    (exists e, get_tx_meta r p d = Ok e /\ e_rev e = false).

  (* the loop's `processed` list holds txs at earlier positions of the block, with their reverted flags *)
  Definition proc_inv (processed : list (N * bool)) (i : nat) : Prop :=
    forall x rv, In (x, rv) processed ->
      exists j tj, (j < i)%nat /\ nth_error all j = Some tj /\ tx_id tj = x /\ nth j revs_all false = rv.

  Lemma verify_loop_dep : forall suf pre processed,
    all = pre ++ suf -> proc_inv processed (length pre) ->
    verify_loop r p processed suf (skipn (length pre) revs_all) = V_ok ->
    forall k t d, nth_error suf k = Some t -> tx_dep t = Some d -> dep_found (length pre + k) d.
  Proof.
    induction suf as [|t0 suf IH]; intros pre processed Eall Inv H k t d Hk Hd; [destruct k; discriminate|].
    cbn [verify_loop] in H.
    destruct (match afind (tx_id t0) processed with Some _ => Ok true | None => has_transaction r p (tx_id t0) (tx_ref t0) end)
      as [[|]| |]; try discriminate.
    match type of H with (match ?dd with _ => _ end) = _ => destruct dd eqn:Edep; try discriminate end.
    rewrite head_skipn, tl_skipn in H.
    destruct k as [|k].
    - cbn [nth_error] in Hk. injection Hk as ->. rewrite Hd in Edep. rewrite Nat.add_0_r.
      destruct (afind d processed) as [rv|] eqn:Ea.
      + destruct rv; [discriminate|]. apply afind_In in Ea. destruct (Inv _ _ Ea) as [j [tj [Hj [Hn [Hi Hr]]]]].
        left. exists j, tj. auto.
      + destruct (get_tx_meta r p d) as [e| |] eqn:Em; try discriminate.
        destruct (e_rev e) eqn:Er; [discriminate|]. right. exists e. auto.
    - cbn [nth_error] in Hk.
      assert (Eall' : all = (pre ++ [t0]) ++ suf) by (rewrite <- app_assoc; exact Eall).
      assert (Elen : length (pre ++ [t0]) = S (length pre)) by (rewrite app_length; cbn; lia).
      replace (length pre + S k)%nat with (length (pre ++ [t0]) + k)%nat by lia.
      assert (Inv' : proc_inv ((tx_id t0, nth (length pre) revs_all false) :: processed) (length (pre ++ [t0]))).
      { rewrite Elen. intros x rv [E|Hin].
        * injection E as <- <-. exists (length pre), t0. repeat split; try lia.
          rewrite Eall. rewrite nth_error_app2 by lia. rewrite Nat.sub_diag. reflexivity.
        * destruct (Inv _ _ Hin) as [j [tj [Hj H']]]. exists j, tj. split; [lia | exact H']. }
      assert (H' : verify_loop r p ((tx_id t0, nth (length pre) revs_all false) :: processed) suf
                     (skipn (length (pre ++ [t0])) revs_all) = V_ok) by (rewrite Elen; exact H).
      exact (IH _ _ Eall' Inv' H' k t d Hk Hd).
  Qed.
End VerifyDep.

Lemma validate_dep r b : validate r b = V_ok ->
  forall k t d, nth_error (b_txs b) k = Some t -> tx_dep t = Some d ->
    dep_found r (b_parent b) (b_txs b) (map rc_rev (b_rcs b)) k d.
Proof.
  unfold validate. destruct (body_rules _ _ _); try discriminate. intros H k t d Hk Hd.
  apply (verify_loop_dep r (b_parent b) (b_txs b) (map rc_rev (b_rcs b)) (b_txs b) [] [] eq_refl) with (t := t); auto.
  intros x rv [].
Qed.

(* t with receipt rc stands at position i of stored block a *)
Definition tx_at (r : repo) (a : N) (i : nat) (t : txrec) (rc : receipt) : Prop :=
  exists s b, get_block r a = Some (s, b) /\ nth_error (b_txs b) i = Some t /\ nth_error (b_rcs b) i = Some rc.

Definition dep_ok (r : repo) (h : N) : Prop :=
  forall a i t rc d, anc r h a -> tx_at r a i t rc -> tx_dep t = Some d ->
    exists a' i' t' rc', anc r h a' /\ tx_at r a' i' t' rc' /\ tx_id t' = d /\ rc_rev rc' = false /\
                         (num_of a' < num_of a \/ (a' = a /\ (i' < i)%nat)).

Section ChainDep.
  Variables g gp tag : N.
  Variable U : txrec -> Prop.
  Hypothesis Hg : num_of g = 0.
  Hypothesis Hgp : num_of gp = max_u32.

  Theorem accepted_chain_dep_ok r : reachable g gp tag (accepted U) r -> forall h, stored r h -> dep_ok r h.
  Proof.
    induction 1 as [|r b conf best r' R IH V [Hval _] A].
    - intros h Sh a i t rc d Ha [s [bb [Hb [Ht _]]]] _. exfalso.
      unfold get_block, get_summary, init_repo in Hb. cbn [r_sums afind r_body] in Hb.
      destruct (g =? a); [|discriminate]. cbn [s_conf afind2] in Hb. destruct (eq2 _ _); [|discriminate].
      injection Hb as _ <-. destruct i; discriminate.
    - pose proof (reachable_wf _ _ _ _ _ Hg R) as W. pose proof (reachable_wf_body _ _ _ _ _ Hg R) as WB.
      pose proof (reachable_wf_txi _ _ _ _ _ Hg R) as WT. pose proof (reachable_conf_inj _ _ _ _ _ Hg R) as CI.
      destruct (add_parent _ _ _ _ _ A) as [ps [Hps _]].
      assert (Sp : stored r (b_parent b)) by (exists ps; exact Hps).
      (* positions in old blocks are unchanged *)
      assert (OldAt : forall a i t rc, stored r a -> (tx_at r' a i t rc <-> tx_at r a i t rc)).
      { intros a i t rc [s Hs]. unfold tx_at. rewrite (get_block_old g gp r r' b conf best a s W V A Hs). tauto. }
      intros h [sh Hsh]. rewrite (add_summary _ _ _ _ _ A) in Hsh.
      destruct (N.eqb_spec (b_id b) h) as [Eh|Nh].
      + subst h.
        pose proof (fun a => proj1 (anc_add_new_iff g gp r r' b conf best W V A a)) as Anc.
        pose proof (fun a Ha => proj2 (anc_add_new_iff g gp r r' b conf best W V A a) (or_intror Ha)) as Up.
        assert (Hnum : num_of (b_id b) = num_of (b_parent b) + 1) by apply V.
        intros a i t rc d Ha Hat Hd. destruct (Anc a Ha) as [->|Ho].
        * (* a tx of the new block *)
          destruct Hat as [s [bb [Hb [Ht Hrc]]]]. rewrite (get_block_new r r' b conf best A) in Hb. injection Hb as _ <-.
          destruct (validate_dep r b Hval i t d Ht Hd) as [[j [tj [Hj [Hn [Hid Hrv]]]]]|[e [Em Er]]].
          -- assert (Hlen : length (b_rcs b) = length (b_txs b)) by apply V.
             assert (Hjl : (j < length (b_rcs b))%nat) by (rewrite Hlen; apply nth_error_Some; congruence).
             destruct (nth_error (b_rcs b) j) as [rcj|] eqn:Ercj; [|apply nth_error_None in Ercj; lia].
             exists (b_id b), j, tj, rcj. split; [exact Ha|]. split.
             { exists (mkS (b_id b) (b_parent b) (map tx_id (b_txs b)) conf), b. rewrite (get_block_new r r' b conf best A). auto. }
             split; [exact Hid|]. split; [|right; auto].
             rewrite <- Hrv. rewrite (nth_indep _ false (rc_rev rcj)) by (rewrite map_length; exact Hjl).
             rewrite map_nth. f_equal. symmetry. apply nth_error_nth. exact Ercj.
          -- pose proof (get_tx_meta_spec g gp r W WT CI Hgp (b_parent b) d Sp) as M. rewrite Em in M.
             destruct M as [_ [a0 [s0 [b0 [t0 [rc0 [Ha0 [En0 [Hs0 [Ec0 [Hb0 [Ht0 [Hid0 [Hrc0 Hrv0]]]]]]]]]]]]]].
             exists a0, (N.to_nat (e_idx e)), t0, rc0. split; [apply Up; exact Ha0|]. split.
             { apply OldAt; [apply (anc_stored _ _ _ Ha0)|]. exists s0, b0. auto. }
             split; [exact Hid0|]. split; [congruence|]. left. pose proof (anc_height g gp r W _ _ Ha0). lia.
        * (* a tx of an older block of the parent's chain *)
          apply (OldAt a i t rc (proj2 (anc_stored _ _ _ Ho))) in Hat.
          destruct (IH _ Sp a i t rc d Ho Hat Hd) as [a' [i' [t' [rc' [Ha' [Hat' [Hid [Hrv Hord]]]]]]]].
          exists a', i', t', rc'. split; [apply Up; exact Ha'|]. split; [|auto].
          apply OldAt; [apply (anc_stored _ _ _ Ha') | exact Hat'].
      + assert (Sh : stored r h) by (exists sh; exact Hsh).
        pose proof (fun a => proj1 (anc_add_old_iff g gp r r' b conf best W V A h a Sh)) as Anc.
        intros a i t rc d Ha Hat Hd. apply Anc in Ha.
        apply (OldAt a i t rc (proj2 (anc_stored _ _ _ Ha))) in Hat.
        destruct (IH _ Sh a i t rc d Ha Hat Hd) as [a' [i' [t' [rc' [Ha' [Hat' [Hid [Hrv Hord]]]]]]]].
        exists a', i', t', rc'. split; [apply (anc_mono r r' b conf best V A); exact Ha'|]. split; [|auto].
        apply OldAt; [apply (anc_stored _ _ _ Ha') | exact Hat'].
  Qed.
End ChainDep.
