(* Staker/Inv2.v — the second group of invariants (needed to carry the accounting / list invariants through the
   epoch-boundary step, and for the weight clause of C17): idle aggregations of non-active validators, no cooldown
   before exit, renewal list well-formed with active members, exit slots point to active validators, weights,
   queued validators' pending aggregation = their delegations. *)
From Coq Require Import List NArith Bool Lia.
From Coq Require Import ZifyBool.
From Verif Require Import Common.Util Staker.Model Staker.Base Staker.Lists Staker.Inv Staker.RList.
Import ListNotations.
Open Scope N_scope.

Definition nonactive (s : st) (a : N) : Prop := forall v, getv s a = Some v -> v_status v <> StatusActive.
Definition dp_v (a : N) (d : delegation) : N := if d_val d =? a then d_stake d else 0.
Definition dp_w (a : N) (d : delegation) : N := if d_val d =? a then calc_weight (d_stake d) (d_mult d) else 0.

Definition ren_active (s : st) : Prop :=
  exists lr, RWF s lr /\ forall a, In a lr -> exists v, getv s a = Some v /\ v_status v = StatusActive.

Record Inv2 (s : st) : Prop := mkInv2 {
  j_idle : forall a, nonactive s a -> a_lw (get_agg s a) = 0 /\ a_ev (get_agg s a) = 0 /\ a_ew (get_agg s a) = 0;
  j_cd : forall a v, getv s a = Some v -> v_status v <> StatusExit -> v_cooldown v = 0;
  j_ren : ren_active s;
  j_exit : forall b a, get_exit s b = a -> a <> 0 -> blk s < b ->
             exists v, getv s a = Some v /\ v_status v = StatusActive /\ v_exit v = Some b;
  j_lw : g_lw s = sumf v_weight (vals s);
  (* pending-unlock stays below locked: decrease_stake leaves at least MinStake locked *)
  j_w1 : forall a v, getv s a = Some v -> v_status v = StatusActive ->
           v_weight v = calc_weight (v_locked v) (v_multiplier v) + a_lw (get_agg s a) /\ v_punlock v + 1 <= v_locked v;
  j_w0 : forall a v, getv s a = Some v -> v_status v <> StatusActive -> v_weight v = 0;
  j_q : forall a v, getv s a = Some v -> v_status v = StatusQueued ->
          v_locked v = 0 /\ 1 <= v_queued v /\
          a_pv (get_agg s a) = sumf (dp_v a) (dels s) /\ a_pw (get_agg s a) = sumf (dp_w a) (dels s) /\ v_punlock v = 0;
  j_new : forall a, getv s a = None -> get_agg s a = agg0;
  j_dv : forall id d, In (id, d) (dels s) -> getv s (d_val d) <> None;
  j_st : forall a v, getv s a = Some v ->
           v_status v = StatusQueued \/ v_status v = StatusActive \/ v_status v = StatusExit }.

Lemma RWF_ext s s' l : rh s' = rh s -> rt s' = rt s -> rprev s' = rprev s -> rnext s' = rnext s -> RWF s l -> RWF s' l.
Proof. intros E1 E2 E3 E4 [H1 H2 H3 H4]. constructor; rewrite ?E1, ?E2, ?E3, ?E4; auto. Qed.

Definition same2 (s s' : st) : Prop :=
  vals s' = vals s /\ aggs s' = aggs s /\ dels s' = dels s /\ rh s' = rh s /\ rt s' = rt s /\ rprev s' = rprev s /\
  rnext s' = rnext s /\ exits s' = exits s /\ blk s' = blk s /\ g_lw s' = g_lw s.

(* the seven equations of core_eq, under the names Cs Cc Cw Cl Cp Cq Cx *)
Ltac cf Ec := destruct (core_eq _ _ Ec) as [Cs [Cc [Cw [Cl [Cp [Cq Cx]]]]]].

Definition ocore (s : st) (a : N) := option_map core (getv s a).

(* what Inv2 says of one record, given the aggregation stored under its address and the sums of the delegations
   pending on it: j_st, j_cd, j_w1, j_w0 with j_idle, j_q *)
Definition rec_ok (ag : aggregation) (pv pw : N) (v : validation) : Prop :=
  (v_status v = StatusQueued \/ v_status v = StatusActive \/ v_status v = StatusExit) /\
  (v_status v <> StatusExit -> v_cooldown v = 0) /\
  (v_status v = StatusActive ->
     v_weight v = calc_weight (v_locked v) (v_multiplier v) + a_lw ag /\ v_punlock v + 1 <= v_locked v) /\
  (v_status v <> StatusActive -> v_weight v = 0 /\ a_lw ag = 0 /\ a_ev ag = 0 /\ a_ew ag = 0) /\
  (v_status v = StatusQueued -> v_locked v = 0 /\ 1 <= v_queued v /\ a_pv ag = pv /\ a_pw ag = pw /\ v_punlock v = 0).

Definition addr_ok (s : st) (a : N) : Prop :=
  match getv s a with
  | Some v => rec_ok (get_agg s a) (sumf (dp_v a) (dels s)) (sumf (dp_w a) (dels s)) v
  | None => get_agg s a = agg0
  end.

Definition exit_ok (s : st) : Prop :=
  forall b a, get_exit s b = a -> a <> 0 -> blk s < b ->
    exists v, getv s a = Some v /\ v_status v = StatusActive /\ v_exit v = Some b.
Definition dv_ok (s : st) : Prop := forall id d, In (id, d) (dels s) -> getv s (d_val d) <> None.

(* Inv2 without the total-weight equation, which the renewal loop breaks until its accumulator is applied *)
Definition Inv2w (s : st) : Prop := (forall a, addr_ok s a) /\ ren_active s /\ exit_ok s /\ dv_ok s.

Lemma addr_ok_some s a v : addr_ok s a -> getv s a = Some v ->
  rec_ok (get_agg s a) (sumf (dp_v a) (dels s)) (sumf (dp_w a) (dels s)) v.
Proof. unfold addr_ok. intros A Hv. rewrite Hv in A. exact A. Qed.

Lemma Inv2_iff s : Inv2 s <-> Inv2w s /\ g_lw s = sumf v_weight (vals s).
Proof.
  split.
  - intros [H1 H2 H3 H4 H5 H6 H7 H8 H9 H10 H11]. split; [|exact H5]. split; [|split; [exact H3|split; [exact H4|exact H10]]].
    intros a. unfold addr_ok. destruct (getv s a) as [v|] eqn:Ev; [|auto].
    split; [exact (H11 a v Ev)|]. split; [exact (H2 a v Ev)|]. split; [exact (H6 a v Ev)|]. split; [|exact (H8 a v Ev)].
    intros Hs. split; [exact (H7 a v Ev Hs)|]. apply H1. intros x Hx. congruence.
  - intros [[A [R [X D]]] W].
    assert (G : forall a v, getv s a = Some v -> rec_ok (get_agg s a) (sumf (dp_v a) (dels s)) (sumf (dp_w a) (dels s)) v)
      by (intros a v; apply addr_ok_some, A).
    constructor; auto.
    + intros a Hn. specialize (A a). unfold addr_ok in A. destruct (getv s a) as [v|] eqn:Ev; [|rewrite A; auto].
      destruct A as [_ [_ [_ [A _]]]]. apply A, (Hn v Ev).
    + intros a v Hv. apply (G a v Hv).
    + intros a v Hv. apply (G a v Hv).
    + intros a v Hv Hs. apply (G a v Hv), Hs.
    + intros a v Hv. apply (G a v Hv).
    + intros a Hv. specialize (A a). unfold addr_ok in A. rewrite Hv in A. exact A.
    + intros a v Hv. apply (G a v Hv).
Qed.

Lemma Inv2_w s : Inv2 s -> Inv2w s.
Proof. intros H. apply Inv2_iff, H. Qed.
Lemma Inv2_addr s a : Inv2 s -> addr_ok s a.
Proof. intros H. apply (Inv2_w s H). Qed.

Lemma rec_ok_core ag pv pw v v' : core v' = core v -> rec_ok ag pv pw v -> rec_ok ag pv pw v'.
Proof. intros E. unfold rec_ok, v_multiplier. inversion E. congruence. Qed.

Lemma rec_ok_upd ag pv pw v v' :
  v_status v' = v_status v -> v_weight v' = v_weight v -> v_locked v' = v_locked v -> v_cooldown v' <= v_cooldown v ->
  (v_status v = StatusQueued -> v_queued v' = v_queued v /\ v_punlock v' = v_punlock v) ->
  (v_status v = StatusActive -> v_punlock v' + 1 <= v_locked v) ->
  rec_ok ag pv pw v -> rec_ok ag pv pw v'.
Proof.
  intros Es Ew El Ec Eq Ep [R1 [R2 [R3 [R4 R5]]]]. unfold rec_ok, v_multiplier in *. rewrite Es, Ew, El.
  split; [auto|]. split; [intros Hs; specialize (R2 Hs); lia|]. split; [intros Hs; split; [apply R3, Hs|apply Ep, Hs]|].
  split; [auto|]. intros Hs. destruct (Eq Hs) as [-> ->]. auto.
Qed.

(* all that addr_ok reads at one address *)
Definition lview (s : st) (a : N) := (ocore s a, get_agg s a, sumf (dp_v a) (dels s), sumf (dp_w a) (dels s)).

Lemma lview_eq s s' a : ocore s' a = ocore s a -> get_agg s' a = get_agg s a -> dels s' = dels s -> lview s' a = lview s a.
Proof. unfold lview. intros -> -> ->. reflexivity. Qed.

Lemma addr_ok_view s s' a : lview s' a = lview s a -> addr_ok s a -> addr_ok s' a.
Proof.
  unfold lview, ocore, addr_ok. intros E. inversion E as [[E1 E2 E3 E4]]. rewrite E2, E3, E4.
  destruct (getv s' a) as [v'|], (getv s a) as [v|]; cbn in E1; try discriminate; auto.
  apply rec_ok_core. congruence.
Qed.

(* the frame: outside one address every view is kept; that address and the global clauses are re-established *)
Lemma Inv2w_frame s s' a0 :
  Inv2w s -> (forall a, a <> a0 -> lview s' a = lview s a) -> addr_ok s' a0 ->
  ren_active s' -> exit_ok s' -> dv_ok s' -> Inv2w s'.
Proof.
  intros [A0 _] F A R X D. repeat split; auto.
  intros a. destruct (N.eq_dec a a0) as [->|Hne]; auto. apply (addr_ok_view s); auto.
Qed.

Lemma Inv2_frame s s' a0 :
  Inv2 s -> (forall a, a <> a0 -> lview s' a = lview s a) -> addr_ok s' a0 ->
  ren_active s' -> exit_ok s' -> g_lw s' = sumf v_weight (vals s') -> dv_ok s' -> Inv2 s'.
Proof. intros H F A R X W D. apply Inv2_iff. split; [apply (Inv2w_frame s s' a0); auto; apply Inv2_w, H|exact W]. Qed.

Lemma ocore_some s s' a v : ocore s' a = ocore s a -> getv s a = Some v -> exists v', getv s' a = Some v' /\ core v' = core v.
Proof. unfold ocore. intros E Hv. rewrite Hv in E. destruct (getv s' a) as [v'|]; cbn in E; [|discriminate]. exists v'. split; congruence. Qed.

Lemma ren_active_frame s s' a0 :
  ren_active s -> rh s' = rh s -> rt s' = rt s -> rprev s' = rprev s -> rnext s' = rnext s ->
  (forall a, a <> a0 -> ocore s' a = ocore s a) ->
  (forall v, getv s a0 = Some v -> v_status v = StatusActive -> exists v', getv s' a0 = Some v' /\ v_status v' = StatusActive) ->
  ren_active s'.
Proof.
  intros [lr [R A]] E1 E2 E3 E4 C K. exists lr. split; [apply (RWF_ext s); auto|].
  intros a Ha. destruct (A a Ha) as [v [Hv Hs]]. destruct (N.eq_dec a a0) as [->|Hne]; [eauto|].
  destruct (ocore_some _ _ _ _ (C a Hne) Hv) as [v' [Hv' Ec]]. exists v'. split; auto. rewrite (core_status _ _ Ec). auto.
Qed.

Lemma exit_ok_frame s s' a0 :
  exit_ok s -> exits s' = exits s -> blk s <= blk s' ->
  (forall a, a <> a0 -> ocore s' a = ocore s a) ->
  (forall v b, getv s a0 = Some v -> v_status v = StatusActive -> v_exit v = Some b -> blk s' < b ->
     exists v', getv s' a0 = Some v' /\ v_status v' = StatusActive /\ v_exit v' = Some b) ->
  exit_ok s'.
Proof.
  intros X E B C K b a Hg Ha Hb. unfold get_exit in Hg. rewrite E in Hg.
  destruct (X b a Hg Ha ltac:(lia)) as [v [Hv [Hs He]]]. destruct (N.eq_dec a a0) as [->|Hne]; [eauto|].
  destruct (ocore_some _ _ _ _ (C a Hne) Hv) as [v' [Hv' Ec]]. exists v'. cf Ec. repeat split; congruence.
Qed.

Lemma dv_ok_frame s s' :
  dv_ok s -> (forall id d, In (id, d) (dels s') -> In (id, d) (dels s) \/ getv s' (d_val d) <> None) ->
  (forall a, getv s a <> None -> getv s' a <> None) -> dv_ok s'.
Proof. intros D I G id d Hin. destruct (I id d Hin) as [H|H]; auto. apply G, (D id d H). Qed.

Lemma ocore_dom s s' a0 : (forall a, a <> a0 -> ocore s' a = ocore s a) -> getv s' a0 <> None ->
  forall a, getv s a <> None -> getv s' a <> None.
Proof.
  intros C H0 a Ha. destruct (N.eq_dec a a0) as [->|Hne]; auto. specialize (C a Hne). unfold ocore in C.
  destruct (getv s a); [|congruence]. destruct (getv s' a); discriminate.
Qed.

Lemma Inv2w_change_ren s s' :
  Inv2w s -> vals s' = vals s -> aggs s' = aggs s -> dels s' = dels s -> exits s' = exits s -> blk s <= blk s' ->
  ren_active s' -> Inv2w s'.
Proof.
  intros H E1 E2 E3 E8 E9 R.
  assert (Gv : forall a, getv s' a = getv s a) by (intros; unfold getv; rewrite E1; auto).
  assert (Oc : forall a, a <> 0 -> ocore s' a = ocore s a) by (intros; unfold ocore; rewrite Gv; auto).
  assert (V : forall a, lview s' a = lview s a).
  { intros a. apply lview_eq; auto; [unfold ocore; rewrite Gv|unfold get_agg; rewrite E2]; reflexivity. }
  apply (Inv2w_frame s s' 0); auto.
  - apply (addr_ok_view s); [apply V|apply H].
  - apply (exit_ok_frame s s' 0); auto; [apply H|]. intros v b Hv. rewrite Gv. eauto.
  - apply (dv_ok_frame s); [apply H|rewrite E3; auto|intros a; rewrite Gv; auto].
Qed.

Lemma Inv2_change_ren s s' :
  Inv2 s -> vals s' = vals s -> aggs s' = aggs s -> dels s' = dels s -> exits s' = exits s -> blk s <= blk s' ->
  g_lw s' = g_lw s -> ren_active s' -> Inv2 s'.
Proof.
  intros H E1 E2 E3 E8 E9 E10 R. apply Inv2_iff. split; [apply (Inv2w_change_ren s); auto; apply Inv2_w, H|].
  rewrite E10, E1. apply (j_lw _ H).
Qed.

Lemma ren_active_ext s s' :
  vals s' = vals s -> rh s' = rh s -> rt s' = rt s -> rprev s' = rprev s -> rnext s' = rnext s -> ren_active s -> ren_active s'.
Proof.
  intros E1 E4 E5 E6 E7 [lr [R A]]. exists lr. split; [apply (RWF_ext s); auto|]. unfold getv. rewrite E1. exact A.
Qed.

Lemma Inv2_ext s s' : same2 s s' -> Inv2 s -> Inv2 s'.
Proof.
  intros [E1 [E2 [E3 [E4 [E5 [E6 [E7 [E8 [E9 E10]]]]]]]]] H. apply (Inv2_change_ren s); auto; [lia|].
  apply (ren_active_ext s); auto. apply (j_ren _ H).
Qed.

Lemma in_upd {V} (m : list (N * V)) k v k' v' : In (k', v') (upd m k v) -> (k', v') = (k, v) \/ In (k', v') m.
Proof.
  induction m as [|[k0 v0] t IH]; cbn.
  - intros [E|[]]; auto.
  - destruct (k0 =? k); cbn; intros [E|H]; auto. destruct (IH H); auto.
Qed.
Lemma get_in {V} (m : list (N * V)) k v : get m k = Some v -> In (k, v) m.
Proof.
  induction m as [|[k0 v0] t IH]; cbn; [discriminate|]. destruct (k0 =? k) eqn:E.
  - intros H; inversion H; subst. apply N.eqb_eq in E. subst. auto.
  - auto.
Qed.

Lemma same2_refl s : same2 s s.
Proof. repeat split. Qed.

Lemma calc_100 x : calc_weight x 100 = x.
Proof. unfold calc_weight. apply N.div_mul. discriminate. Qed.
Lemma calc_200 x : calc_weight x 200 = 2 * x.
Proof. unfold calc_weight. replace (x * 200) with (2 * x * 100) by lia. apply N.div_mul. discriminate. Qed.
Lemma calc_0 m : calc_weight 0 m = 0.
Proof. reflexivity. Qed.

(* a weight computed with the multiplier chosen by c is the one v_multiplier reads back from it *)
Lemma weight_multiplier l dw (c : bool) :
  (c = true -> 0 < l + dw) -> (c = false -> dw = 0) ->
  let w := calc_weight l (if c then MultiplierWithDelegations else Multiplier) + dw in
  w = calc_weight l (if w =? l then Multiplier else MultiplierWithDelegations) + dw.
Proof.
  unfold Multiplier, MultiplierWithDelegations. destruct c; intros Hp Hz; cbv zeta.
  - rewrite calc_200. specialize (Hp eq_refl). destruct (2 * l + dw =? l) eqn:E; [apply N.eqb_eq in E; lia|rewrite calc_200; reflexivity].
  - rewrite (Hz eq_refl), !N.add_0_r, calc_100, N.eqb_refl. symmetry. apply calc_100.
Qed.

Lemma sumf_zero {V} (f g : V -> N) (m : list (N * V)) :
  (forall v, f v = 0 -> g v = 0) -> sumf f m = 0 -> sumf g m = 0.
Proof.
  intros H. induction m as [|[k v] t IH]; cbn; auto. intros E.
  assert (f v = 0) by lia. assert (sumf f t = 0) by lia. rewrite (H v H0), IH; auto.
Qed.

Lemma dp_zero a d : dp_v a d = 0 -> dp_w a d = 0.
Proof. unfold dp_v, dp_w. destruct (d_val d =? a); auto. intros ->. reflexivity. Qed.

Lemma ocore_setv_other s a v' b : b <> a -> ocore (setv a v' s) b = ocore s b.
Proof. intros Hne. unfold ocore. rewrite getv_setv_other; auto. Qed.

(* a record rewritten as in rec_ok_upd while the exit map is replaced: the exit-slot clause is a premise *)
Lemma Inv2_setv_x s ex a v v' :
  Inv2 s -> getv s a = Some v ->
  v_status v' = v_status v -> v_weight v' = v_weight v -> v_locked v' = v_locked v ->
  v_cooldown v' <= v_cooldown v ->
  (v_status v = StatusQueued -> v_queued v' = v_queued v /\ v_punlock v' = v_punlock v) ->
  (v_status v = StatusActive -> v_punlock v' + 1 <= v_locked v) ->
  exit_ok (setv a v' (w_exits ex s)) -> Inv2 (setv a v' (w_exits ex s)).
Proof.
  intros H Hv Es Ew El Ec Eq Ep X. set (s1 := w_exits ex s). assert (Hv1 : getv s1 a = Some v) by exact Hv.
  assert (Oc : forall b, b <> a -> ocore (setv a v' s1) b = ocore s b) by (intros b Hne; apply (ocore_setv_other s1); auto).
  apply (Inv2_frame s _ a); auto.
  - intros b Hne. apply lview_eq; auto.
  - unfold addr_ok. rewrite getv_setv_same. apply (rec_ok_upd _ _ _ v); auto. apply (addr_ok_some s a v); auto. apply Inv2_addr, H.
  - apply (ren_active_frame s _ a); auto; [apply (j_ren _ H)|].
    intros y Hy Hs. exists v'. rewrite getv_setv_same. split; congruence.
  - change (g_lw (setv a v' s1)) with (g_lw s). rewrite (sumf_setv_eq v_weight a v v' s1 Hv1 Ew). apply (j_lw _ H).
  - apply (dv_ok_frame s); [exact (j_dv _ H)|auto|]. apply (ocore_dom _ _ a); auto. rewrite getv_setv_same. discriminate.
Qed.

Lemma Inv2_setv s a v v' :
  Inv2 s -> getv s a = Some v ->
  v_status v' = v_status v -> v_weight v' = v_weight v -> v_locked v' = v_locked v -> v_exit v' = v_exit v ->
  v_cooldown v' <= v_cooldown v ->
  (v_status v = StatusQueued -> v_queued v' = v_queued v /\ v_punlock v' = v_punlock v) ->
  (v_status v = StatusActive -> v_punlock v' + 1 <= v_locked v) ->
  Inv2 (setv a v' s).
Proof.
  intros H Hv Es Ew El Ex Ec Eq Ep. apply (Inv2_ext (setv a v' (w_exits (exits s) s))); [repeat split|].
  apply (Inv2_setv_x s _ a v); auto. apply (exit_ok_frame s _ a); try reflexivity; [exact (j_exit _ H)|apply (ocore_setv_other (w_exits (exits s) s))|].
  intros y b Hy Hs Hb _. exists v'. rewrite getv_setv_same. repeat split; congruence.
Qed.

Lemma ren_only_fields s s' : ren_only s s' ->
  vals s' = vals s /\ aggs s' = aggs s /\ dels s' = dels s /\ exits s' = exits s /\ blk s' = blk s /\ g_lw s' = g_lw s.
Proof. intros E. rewrite E. repeat split. Qed.

(* after removal the validator is no longer a member *)
Lemma rl_remove_not_member s a lr :
  RWF s lr -> exists lr', RWF (rl_remove a s) lr' /\ ~ In a lr' /\ forall b, In b lr' -> In b lr.
Proof.
  intros R. destruct (in_dec N.eq_dec a lr) as [Hin|Hn].
  - destruct (rl_remove_member s lr a R Hin) as [l1 [l2 [El [R' Hn]]]]. exists (l1 ++ l2). split; auto. split; auto.
    intros b Hb. rewrite El. apply in_app_iff in Hb as [Hb|Hb]; apply in_or_app; [left|right; right]; auto.
  - rewrite (rl_remove_nonmember s lr a R Hn). exists lr; auto.
Qed.

Lemma ren_active_rl_remove s a : ren_active s -> ren_active (rl_remove a s).
Proof.
  intros [lr [R A]]. destruct (ren_only_fields _ _ (rl_remove_only a s)) as [E1 _].
  destruct (rl_remove_not_member s a lr R) as [lr' [R' [_ Hsub]]]. exists lr'. split; auto.
  intros b Hb. unfold getv. rewrite E1. apply A, Hsub, Hb.
Qed.

Lemma Inv2_rl_add s a v : Inv2 s -> getv s a = Some v -> v_status v = StatusActive -> Inv2 (rl_add a s).
Proof.
  intros H Hv Hs. destruct (ren_only_fields _ _ (rl_add_only a s)) as [E1 [E2 [E3 [E4 [E5 E6]]]]].
  apply (Inv2_change_ren s); auto; [lia|].
  destruct (j_ren _ H) as [lr [R A]].
  destruct (N.eq_dec a 0) as [->|Hz]; [rewrite (rl_add_member s lr 0 R (or_introl eq_refl)); exists lr; auto|].
  destruct (in_dec N.eq_dec a lr) as [Hin|Hn].
  - rewrite (rl_add_member s lr a R (or_intror Hin)). exists lr; auto.
  - exists (lr ++ [a]). split; [apply rl_add_new; auto|].
    intros b Hb. unfold getv. rewrite E1. apply in_app_iff in Hb as [Hb|[<-|[]]]; [apply A; auto|eauto].
Qed.

Lemma Inv2w_rl_remove s a : Inv2w s -> Inv2w (rl_remove a s).
Proof.
  intros H. destruct (ren_only_fields _ _ (rl_remove_only a s)) as [E1 [E2 [E3 [E4 [E5 E6]]]]].
  apply (Inv2w_change_ren s); auto; [lia|]. apply ren_active_rl_remove, H.
Qed.

Lemma Inv2_signal_exit s a v eb cur :
  Inv2 s -> getv s a = Some v -> v_status v = StatusActive -> v_exit v = None -> get_exit s eb = 0 ->
  Inv2 (setv a (set_completed cur (set_exit (Some eb) v)) (w_exits (upd (exits s) eb a) s)).
Proof.
  intros H Hv Hs Hx Hfree. set (v' := set_completed cur (set_exit (Some eb) v)).
  apply (Inv2_setv_x s _ a v v'); auto; try reflexivity; try lia.
  - intros Ha. apply (j_w1 _ H a v Hv Ha).
  - intros b c Hg Hc Hb. unfold get_exit in Hg. cbn [exits setv w_vals w_exits] in Hg. rewrite mget_upd in Hg. destruct (eb =? b) eqn:E.
    + apply N.eqb_eq in E. subst b c. exists v'. rewrite getv_setv_same. auto.
    + change (mget (exits s) b) with (get_exit s b) in Hg.
      destruct (j_exit _ H b c Hg Hc Hb) as [y [Hy [Hsy Hey]]]. destruct (N.eq_dec a c) as [<-|Hne].
      * rewrite Hv in Hy. inversion Hy; subst y. congruence.
      * exists y. rewrite getv_setv_other by auto. auto.
Qed.

Lemma dp_other a b d : d_val d = a -> a <> b -> dp_v b d = 0 /\ dp_w b d = 0.
Proof. intros E Hne. unfold dp_v, dp_w. rewrite E. apply N.eqb_neq in Hne. rewrite Hne. auto. Qed.
Lemma dp_same a d : d_val d = a -> dp_v a d = d_stake d /\ dp_w a d = calc_weight (d_stake d) (d_mult d).
Proof. intros E. unfold dp_v, dp_w. rewrite E, N.eqb_refl. auto. Qed.

Lemma sumf_upd_opt {V} (f : V -> N) m k v :
  sumf f (upd m k v) + match get m k with Some o => f o | None => 0 end = sumf f m + f v.
Proof. destruct (get m k) eqn:E; [apply sumf_upd_some; auto|rewrite (sumf_upd_none f m k v E); lia]. Qed.

(* a delegation of validator a is written under id (over an earlier one of the same validator, or fresh) *)
Section Deleg.
  Variables (s s' : st) (id : N) (d : delegation) (a : N).
  Hypotheses (Ed : d_val d = a) (Hoa : forall o, get (dels s) id = Some o -> d_val o = a)
             (Ev : vals s' = vals s) (Edl : dels s' = upd (dels s) id d).

  Lemma deleg_sum_other b : b <> a -> sumf (dp_v b) (dels s') = sumf (dp_v b) (dels s) /\ sumf (dp_w b) (dels s') = sumf (dp_w b) (dels s).
  Proof.
    intros Hne. destruct (dp_other a b d Ed (fun e => Hne (eq_sym e))) as [Z1 Z2]. rewrite Edl.
    pose proof (sumf_upd_opt (dp_v b) (dels s) id d) as S1. pose proof (sumf_upd_opt (dp_w b) (dels s) id d) as S2.
    destruct (get (dels s) id) as [o|] eqn:Eo; [destruct (dp_other a b o (Hoa o eq_refl) (fun e => Hne (eq_sym e))) as [Z3 Z4]|]; lia.
  Qed.

  Lemma deleg_view_other b : b <> a -> get_agg s' b = get_agg s b -> lview s' b = lview s b.
  Proof.
    intros Hne Eg. destruct (deleg_sum_other b Hne) as [S1 S2]. unfold lview, ocore, getv. rewrite Ev, Eg, S1, S2. reflexivity.
  Qed.

  Lemma deleg_dv_ok v : getv s a = Some v -> dv_ok s -> dv_ok s'.
  Proof.
    intros Hv D. apply (dv_ok_frame s); auto; [|unfold getv; rewrite Ev; auto].
    intros id' d' Hin. rewrite Edl in Hin. apply in_upd in Hin as [E|Hin]; auto.
    right. inversion E; subst id' d'. unfold getv. rewrite Ev, Ed. change (getv s a <> None). congruence.
  Qed.
End Deleg.

(* generic: the delegation map gets d under id (old value od, or fresh), the aggregation of validator a = d_val d becomes x;
   x keeps the locked weight; if a is not active x is idle; if a is queued, x's pending part follows the delegations *)
Lemma Inv2_deleg s id d od x c a v :
  Inv2 s -> d_val d = a -> getv s a = Some v ->
  (get (dels s) id = od) -> (forall o, od = Some o -> d_val o = a) ->
  a_lw x = a_lw (get_agg s a) ->
  (v_status v <> StatusActive -> a_ev x = a_ev (get_agg s a) /\ a_ew x = a_ew (get_agg s a)) ->
  (v_status v = StatusQueued ->
     a_pv x + match od with Some o => d_stake o | None => 0 end = a_pv (get_agg s a) + d_stake d /\
     a_pw x + match od with Some o => calc_weight (d_stake o) (d_mult o) | None => 0 end
       = a_pw (get_agg s a) + calc_weight (d_stake d) (d_mult d)) ->
  Inv2 (set_agg a x (w_dels (upd (dels s) id d) c s)).
Proof.
  intros H Ed Hv Hod Hoa Elw Eidle Eq. subst od. set (s' := set_agg a x (w_dels (upd (dels s) id d) c s)).
  apply (Inv2_frame s s' a); auto.
  - intros b Hne. apply (deleg_view_other s s' id d a); auto. apply (get_agg_upd_other s s' a x); auto.
  - unfold addr_ok. change (getv s' a) with (getv s a). rewrite Hv. unfold s'. rewrite get_agg_set_agg, N.eqb_refl.
    destruct (addr_ok_some s a v (Inv2_addr s a H) Hv) as [R1 [R2 [R3 [R4 R5]]]].
    split; [auto|]. split; [auto|]. split; [rewrite Elw; auto|]. split.
    + intros Hs. destruct (R4 Hs) as [T1 [T2 [T3 T4]]]. destruct (Eidle Hs). repeat split; congruence.
    + intros Hs. destruct (R5 Hs) as [T1 [T2 [T3 [T4 T5]]]]. destruct (Eq Hs) as [Q1 Q2]. destruct (dp_same a d Ed) as [D1 D2].
      cbn [dels set_agg w_aggs w_dels].
      pose proof (sumf_upd_opt (dp_v a) (dels s) id d) as S1. pose proof (sumf_upd_opt (dp_w a) (dels s) id d) as S2.
      destruct (get (dels s) id) as [o|]; [destruct (dp_same a o (Hoa o eq_refl)) as [D3 D4]|]; repeat split; auto; lia.
  - apply (ren_active_ext s); auto. apply (j_ren _ H).
  - exact (j_exit _ H).
  - exact (j_lw _ H).
  - exact (deleg_dv_ok s s' id d a Ed eq_refl eq_refl v Hv (j_dv _ H)).
Qed.

(* the delegation map alone changes (aggregations untouched): allowed when the validator is not queued *)
Lemma Inv2_deleg_only s id d o c a v :
  Inv2 s -> d_val d = a -> getv s a = Some v -> get (dels s) id = Some o -> d_val o = a ->
  v_status v <> StatusQueued -> Inv2 (w_dels (upd (dels s) id d) c s).
Proof.
  intros H Ed Hv Hod Hoa Hnq. set (s' := w_dels (upd (dels s) id d) c s).
  assert (Hoa' : forall o', get (dels s) id = Some o' -> d_val o' = a) by (intros o' E; congruence).
  apply (Inv2_frame s s' a); auto.
  - intros b Hne. apply (deleg_view_other s s' id d a); auto.
  - unfold addr_ok. change (getv s' a) with (getv s a). rewrite Hv. change (get_agg s' a) with (get_agg s a).
    destruct (addr_ok_some s a v (Inv2_addr s a H) Hv) as [R1 [R2 [R3 [R4 R5]]]].
    split; [auto|]. split; [auto|]. split; [auto|]. split; [auto|]. intros Hs. contradiction.
  - apply (ren_active_ext s); auto. apply (j_ren _ H).
  - exact (j_exit _ H).
  - exact (j_lw _ H).
  - exact (deleg_dv_ok s s' id d a Ed eq_refl eq_refl v Hv (j_dv _ H)).
Qed.

Definition core_rel (s s' : st) (a : N) : Prop :=
  forall b, b <> a -> (getv s b = None -> getv s' b = None) /\
                      forall v, getv s b = Some v -> exists v', getv s' b = Some v' /\ core v' = core v.

Lemma core_rel_ocore s s' a : core_rel s s' a -> forall b, b <> a -> ocore s' b = ocore s b.
Proof.
  intros C b Hne. destruct (C b Hne) as [C1 C2]. unfold ocore. destruct (getv s b) as [v|] eqn:E.
  - destruct (C2 v eq_refl) as [v' [Hv' Ec]]. rewrite Hv'. cbn. congruence.
  - rewrite (C1 eq_refl). reflexivity.
Qed.

Lemma sumf_all_zero {V} (f : V -> N) (m : list (N * V)) : (forall k v, In (k, v) m -> f v = 0) -> sumf f m = 0.
Proof.
  induction m as [|[k v] t IH]; cbn; auto. intros H. rewrite (H k v (or_introl eq_refl)), IH; auto.
  intros k' v' Hin. apply (H k' v'). right; auto.
Qed.

(* record a (queued or active) becomes Exit with weight 0; its aggregation is reset *)
Lemma Inv2_to_exit s s' a v e1 :
  Inv2 s -> core_rel s s' a -> getv s a = Some v -> getv s' a = Some e1 ->
  v_status e1 = StatusExit -> v_weight e1 = 0 ->
  aggs s' = upd (aggs s) a agg0 -> dels s' = dels s -> exits s' = exits s -> blk s' = blk s ->
  g_lw s' + v_weight v = g_lw s ->
  sumf v_weight (vals s') + v_weight v = sumf v_weight (vals s) ->
  (forall b, blk s < b -> get_exit s b = a -> a = 0) ->
  (exists lr', RWF s' lr' /\ forall b, In b lr' -> b <> a /\ exists x, getv s b = Some x /\ v_status x = StatusActive) ->
  Inv2 s'.
Proof.
  intros H C Hv He1 Est Ew0 Eag Ed Eex Eb Eg Esum Hslot [lr' [R A]].
  pose proof (core_rel_ocore _ _ _ C) as OC.
  apply (Inv2_frame s s' a); auto.
  - intros b Hne. apply lview_eq; auto. apply (get_agg_upd_other s s' a agg0); auto.
  - unfold addr_ok. rewrite He1, (get_agg_upd_same _ _ _ _ Eag).
    split; [auto|]. split; [intros E; congruence|]. split; [intros E; rewrite Est in E; discriminate|].
    split; [intros _; repeat split; auto|intros E; rewrite Est in E; discriminate].
  - exists lr'. split; auto. intros b Hb. destruct (A b Hb) as [Hne [x [Hx Hs]]].
    destruct (ocore_some _ _ _ _ (OC b Hne) Hx) as [x' [Hx' Ec]]. exists x'. split; auto. rewrite (core_status _ _ Ec). auto.
  - intros b c Hg Hc Hb. unfold get_exit in Hg. rewrite Eex in Hg. rewrite Eb in Hb.
    destruct (N.eq_dec c a) as [->|Hne]; [exfalso; apply Hc, (Hslot b Hb Hg)|].
    destruct (j_exit _ H b c Hg Hc Hb) as [y [Hy [Hs Hey]]]. destruct (ocore_some _ _ _ _ (OC c Hne) Hy) as [y' [Hy' Ec]].
    exists y'. cf Ec. repeat split; congruence.
  - pose proof (j_lw _ H). pose proof (sumf_get_le v_weight (vals s) a v Hv). lia.
  - apply (dv_ok_frame s); [exact (j_dv _ H)|rewrite Ed; auto|apply (ocore_dom _ _ a); auto; congruence].
Qed.

(* a new queued record appears *)
Lemma Inv2_new s s' a e0 :
  Inv2 s -> core_rel s s' a -> getv s a = None -> getv s' a = Some e0 ->
  v_status e0 = StatusQueued -> v_weight e0 = 0 -> v_locked e0 = 0 -> 1 <= v_queued e0 -> v_cooldown e0 = 0 -> v_punlock e0 = 0 ->
  aggs s' = aggs s -> dels s' = dels s -> exits s' = exits s -> blk s' = blk s -> g_lw s' = g_lw s ->
  rh s' = rh s -> rt s' = rt s -> rprev s' = rprev s -> rnext s' = rnext s ->
  sumf v_weight (vals s') = sumf v_weight (vals s) + v_weight e0 ->
  Inv2 s'.
Proof.
  intros H C Hn He0 Est Ew0 El0 Eq1 Ecd Epu Eag Ed Eex Eb Eg R1 R2 R3 R4 Esum.
  pose proof (core_rel_ocore _ _ _ C) as OC.
  assert (Ga : forall b, get_agg s' b = get_agg s b) by (intros; unfold get_agg; rewrite Eag; auto).
  apply (Inv2_frame s s' a); auto.
  - intros b Hne. apply lview_eq; auto.
  - unfold addr_ok. rewrite He0, Ga, (j_new _ H a Hn), Ed.
    split; [auto|]. split; [auto|]. split; [intros E; rewrite Est in E; discriminate|]. split; [intros _; cbn; auto|].
    intros _. cbn [a_pv a_pw agg0].
    assert (Z : forall k d, In (k, d) (dels s) -> dp_v a d = 0).
    { intros k d Hin. pose proof (j_dv _ H k d Hin) as D. unfold dp_v. destruct (d_val d =? a) eqn:E; auto.
      apply N.eqb_eq in E. congruence. }
    rewrite (sumf_all_zero (dp_v a) (dels s) Z), (sumf_all_zero (dp_w a) (dels s)); [auto|]. intros k d Hin. apply dp_zero. eauto.
  - apply (ren_active_frame s s' a); auto; [apply (j_ren _ H)|]. intros y Hy. congruence.
  - apply (exit_ok_frame s s' a); auto; [exact (j_exit _ H)|lia|]. intros y b Hy. congruence.
  - rewrite Eg, Esum, Ew0, (j_lw _ H). lia.
  - apply (dv_ok_frame s); [exact (j_dv _ H)|rewrite Ed; auto|apply (ocore_dom _ _ a); auto; congruence].
Qed.
