(* Store/Proofs.v — facts about the node store model: what the reader answers after a commit and after a pruner
   round; pruning leaves hist entries outside the deleted partitions alone and makes pruned account/index roots fail. *)
From Coq Require Import List NArith Bool Arith Lia.
From Verif Require Import Trie.Model Store.Model.
Import ListNotations.
Open Scope N_scope.

Lemma ver_eqb_eq a b : ver_eqb a b = true <-> a = b.
Proof.
  destruct a, b; unfold ver_eqb; cbn. rewrite andb_true_iff, !N.eqb_eq. split; [intros [-> ->]; auto|intros E; inversion E; auto].
Qed.

Lemma ver_eqb_refl a : ver_eqb a a = true.
Proof. apply ver_eqb_eq; auto. Qed.

Lemma ver_eqb_false a b : a <> b -> ver_eqb a b = false.
Proof. intros H. destruct (ver_eqb a b) eqn:E; auto. apply ver_eqb_eq in E. contradiction. Qed.

Lemma ver_ltb_base base u : ver_ltb u (base, 0) = false <-> base <= fst u.
Proof.
  unfold ver_ltb. cbn [fst snd]. replace (snd u <? 0) with false by (symmetry; apply N.ltb_ge, N.le_0_l).
  rewrite andb_false_r, orb_false_r. apply N.ltb_ge.
Qed.

Section P.
  Variable V : Type.
  Notation snode := (snode V).
  Notation store := (store V).

  (* ---- the children loop of expand, named ---- *)
  Definition expand_list (f : nat) (g : list nat -> ver -> option snode) (p : list nat)
    : list snode -> nat -> option (list (node V)) :=
    fix go (l : list snode) (i : nat) :=
      match l with
      | [] => Some []
      | c :: t => match expand V f g (p ++ [i]) c, go t (S i) with Some c', Some t' => Some (c' :: t') | _, _ => None end
      end.

  Lemma expand_S_full f g p cs : expand V (S f) g p (SFull cs) =
    match expand_list f g p cs 0%nat with Some cs' => Some (Full cs') | None => None end.
  Proof. reflexivity. Qed.

  Lemma expand_list_cons f g p c t i : expand_list f g p (c :: t) i =
    match expand V f g (p ++ [i]) c, expand_list f g p t (S i) with Some c', Some t' => Some (c' :: t') | _, _ => None end.
  Proof. reflexivity. Qed.

  Lemma hist_find_app_other (es : list (list nat * snode)) l name v name' p v' :
    (name' =? name) && ver_eqb v' v = false ->
    hist_find V (map (fun e => (name, fst e, v, snd e)) es ++ l) name' p v' = hist_find V l name' p v'.
  Proof.
    intros H. induction es as [|e es IH]; cbn; auto.
    replace ((name' =? name) && path_eqb p (fst e) && ver_eqb v' v) with false; auto.
    destruct (name' =? name), (path_eqb p (fst e)), (ver_eqb v' v); cbn in *; auto; discriminate.
  Qed.

  Lemma sget_commit_other (s : store) name v es name' p v' :
    (name' =? name) && ver_eqb v' v = false ->
    sget V (commit V s name v es) name' p v' = sget V s name' p v'.
  Proof.
    intros H. unfold sget, commit; cbn. rewrite hist_find_app_other by auto. reflexivity.
  Qed.

  Definition cache_coherent (cache get : list nat -> ver -> option snode) : Prop :=
    forall p v b, cache p v = Some b -> get p v = Some b.

  Lemma cached_get_same cache get : cache_coherent cache get ->
    forall p v, cached_get V cache get p v = get p v.
  Proof. intros H p v. unfold cached_get. destruct (cache p v) eqn:E; auto. symmetry; auto. Qed.

  (* overwriting a cache slot with what the store answers there keeps the cache coherent (whatever the store answers) *)
  Lemma cache_fill_coherent cache get p0 v0 b0 :
    cache_coherent cache get -> get p0 v0 = Some b0 ->
    cache_coherent (fun p v => if path_eqb p p0 && ver_eqb v v0 then get p v else cache p v) get.
  Proof.
    intros H G p v b. destruct (path_eqb p p0 && ver_eqb v v0); auto.
  Qed.

  Lemma hist_find_filter (l : list (N * list nat * ver * snode)) (keep : ver -> bool) name p v :
    hist_find V (filter (fun e => keep (snd (fst e))) l) name p v = if keep v then hist_find V l name p v else None.
  Proof.
    induction l as [|[[[n' p'] v'] b] l IH]; cbn; [destruct (keep v); auto|].
    assert (M : (name =? n') && path_eqb p p' && ver_eqb v v' = true -> keep v = keep v').
    { intros M. apply andb_true_iff in M. destruct M as [_ M]. apply ver_eqb_eq in M. subst. reflexivity. }
    destruct (keep v') eqn:E; cbn; rewrite IH;
      destruct ((name =? n') && path_eqb p p' && ver_eqb v v'); auto; rewrite M; auto.
  Qed.

  Definition checkpoints (s : store) (cps : list (N * list (list nat * ver * snode))) : store :=
    fold_left (fun st c => checkpoint V st (fst c) (snd c)) cps s.
  Definition prune (s : store) (cps : list (N * list (list nat * ver * snode))) (base target : N) : store :=
    delete_history V (checkpoints s cps) base target.

  (* checkpoints write the deduped space only *)
  Lemma checkpoints_fields (cps : list (N * list (list nat * ver * snode))) : forall s : store,
    hist V (checkpoints s cps) = hist V s /\ hf V (checkpoints s cps) = hf V s /\ df V (checkpoints s cps) = df V s.
  Proof. unfold checkpoints. induction cps; cbn; intros; auto. apply (IHcps (checkpoint V s (fst a) (snd a))). Qed.

  Lemma hf_prune (s : store) cps base target : hf V (prune s cps base target) = hf V s.
  Proof. apply (checkpoints_fields cps s). Qed.

  Lemma hist_find_prune (s : store) cps base target name p v :
    hist_find V (hist V (prune s cps base target)) name p v =
    if in_deleted V s base target v then None else hist_find V (hist V s) name p v.
  Proof.
    unfold prune, delete_history; cbn [hist]. destruct (checkpoints_fields cps s) as (Eh & Ef & _).
    rewrite Eh, (hist_find_filter (hist V s) (fun w => negb (in_deleted V (checkpoints s cps) base target w))).
    unfold in_deleted. rewrite Ef. destruct (_ && _); reflexivity.
  Qed.

  Lemma sget_prune (s : store) cps base target name q w :
    sget V (prune s cps base target) name q w =
    match (if in_deleted V s base target w then None else hist_find V (hist V s) name q w) with
    | Some b => Some b
    | None => if is_root q && root_only name then None
              else dedup_find V (dedup V (checkpoints s cps)) (dptn V s (fst w)) name q
    end.
  Proof.
    unfold sget. rewrite hist_find_prune.
    replace (dptn V (prune s cps base target) (fst w)) with (dptn V s (fst w)); [reflexivity|].
    unfold dptn, prune, delete_history. cbn [df]. destruct (checkpoints_fields cps s) as (_ & _ & ->). reflexivity.
  Qed.

  (* every node written at a version outside the deleted partitions is served from hist exactly as before *)
  Theorem prune_keeps_hist_outside (s : store) cps base target name p v :
    in_deleted V s base target v = false ->
    hist_find V (hist V (prune s cps base target)) name p v = hist_find V (hist V s) name p v.
  Proof. intros H. rewrite hist_find_prune, H. reflexivity. Qed.

  (* every version at or above the target is outside the deleted partitions *)
  Lemma recent_outside (s : store) base target v :
    0 < hf V s -> target <= fst v -> in_deleted V s base target v = false.
  Proof.
    intros Hf Hv. unfold in_deleted.
    apply andb_false_iff. right. apply N.ltb_ge.
    apply N.div_le_mono; lia.
  Qed.

  (* a pruned root of the account / index trie fails: it is never looked up in the deduped space *)
  Theorem pruned_root_fails (s : store) cps base target name v :
    root_only name = true -> in_deleted V s base target v = true ->
    sget V (prune s cps base target) name [] v = None.
  Proof. intros R H. rewrite sget_prune, H. cbn. rewrite R. reflexivity. Qed.
End P.
