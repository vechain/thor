(* Compose/EvmOracle.v — C07 <-> C10: C07's only premise about the EVM, `oracle_ok`, discharged by C10's interpreter model.

     C07  TxExec/Model.v     the transaction wrapper (ResolveTransaction / PrepareTransaction / ExecuteTransaction) over an
                             ABSTRACT clause oracle  clause_result : env -> txn -> nat -> Z -> state W -> cres W O ;
          TxExec/Proofs.v    oracle_ok: for gas >= 0 a clause hands back 0 <= left <= gas and a refund counter >= 0 — the premise
                             of gas_bounds_lemma, tx_atomic_lemma, block_gas_lemma, block_gas_full_lemma (and, through
                             Compose/ExecSane.v, of C01's exec_sane)
     C10  EVM/Model.v        the executable interpreter: call_top (evm.Call at depth 0), do_create (evm.create), run
          EVM/ProofsRun.v    call_top_terminates / do_create_gas / run_gas: fuel gas+1 suffices, 0 <= gas left <= gas
          EVM/ProofsRefund.v the refund counter never decreases along a run

   Here the clause oracle INDUCED by the interpreter is defined the way runtime.PrepareClause drives the EVM:
     - a fresh statedb per clause: the accounts / storage view of the state with EMPTY logs, transfer records, self-destruct set
       and refund counter 0 (`fresh`);
     - clause.To() = some address -> evm.Call(origin, to, data, gas, value)  = call_top, not static, depth 0, creation counter 0;
       clause.To() = nil          -> evm.Create(origin, data, gas, value)    = do_create at depth 0 with creation counter 0, the
       new address being thor.CreateContractAddress(txID, clauseIndex, 0) = the first element of e_newaddrs (data of the EVM
       environment, as for the CREATE instruction in exec_create); if the environment supplies no address the result is the
       out-of-model outcome O_unsupported with no gas handed back and the world untouched — what do_call / do_create return for
       a callee that ends outside the model (exec_create: `None => halt O_unsupported`);
     - fuel := gas + 1 (call_top_terminates: then the run never ends for lack of fuel);
     - Output.LeftOverGas = r_gas, Output.RefundGas = stateDB.GetRefund() = w_refund of the final world,
       Output.VMErr != nil  <->  the outcome is not O_ok: REVERT (evm.Call returns errExecutionReverted), every O_err, and
       O_unsupported (outside C10's model nothing is claimed about the clause; it is counted as failed, so the wrapper reverts the
       transaction; O_fuel cannot occur, evm_frame_facts);
     - what is NOT fixed here stays DATA (Section variables, no assumptions): how the EVM environment and the accounts / storage
       view are read off C07's env / txn / clause index / state (evm_env, world_of), the clause's input bytes (C07's clause
       record only has the zero / non-zero byte counts: input_of), how the final world is written back into the rest of the
       state (world_back), the ledger primitives the run amounts to (ops_of) and the clause output (out_of).
     A clause index outside t_clauses (never asked for by run_clauses) gives the idle result: all gas back, nothing done.

   Results, for EVERY choice of these data:   evm_oracle_ok : oracle_ok W O evm_clause_result   with NO hypothesis, hence
   gas_bounds_evm / tx_atomic_evm / block_gas_evm / block_gas_full_evm = C07's theorems with the premise oracle_ok REMOVED, and
   exec_sane_evm = C01's premise exec_sane (Compose/ExecSane.v) for the wrapper over the interpreter, outright.
   Also: a clause that fails leaves the EVM world exactly the fresh view it was entered with (C10 failed_frame_no_effect /
   failed_creation_no_effect), evm_clause_failed_world. *)
From Coq Require Import ZArith List Bool Lia.
From Verif Require Ledger.Model TxExec.Model TxExec.Proofs TxExec.ProofsAdopt EVM.Model EVM.ProofsRun EVM.ProofsRefund.
From Verif Require Header.Rules Validation.Body Validation.ProofsPacker Compose.ExecSane.
Import ListNotations.
Open Scope Z_scope.

Module LM := Verif.Ledger.Model.
Module TM := Verif.TxExec.Model.
Module TP := Verif.TxExec.Proofs.
Module TA := Verif.TxExec.ProofsAdopt.
Module EM := Verif.EVM.Model.
Module ER := Verif.EVM.ProofsRun.
Module EF := Verif.EVM.ProofsRefund.

(* statedb.New(rt.state): accounts and storage as they are, nothing journalled yet *)
Definition fresh (w : EM.world) : EM.world := EM.mkWorld (EM.w_accts w) (EM.w_store w) [] 0 [] [].

Definition is_ok (o : EM.outcome) : bool := match o with EM.O_ok => true | _ => false end.

Definition clause_fuel (g : Z) : nat := S (Z.to_nat g).

(* the body of PrepareClause's exec closure *)
Definition run_clause (E : EM.env) (c : TM.clause) (input : list Z) (g : Z) (w : EM.world) : EM.fres :=
  match TM.c_to c with
  | Some to => EM.call_top (clause_fuel g) E false to (TM.c_value c) input g w
  | None =>
    match EM.nth_opt (EM.e_newaddrs E) 0 with
    | Some addr => EM.do_create (EM.run (clause_fuel g) E) E (EM.e_origin E) false 0 addr input (TM.c_value c) g w 0
    | None => EM.mkRes EM.O_unsupported [] 0 w 0
    end
  end.

Lemma clause_fuel_enough g : 0 <= g -> 0 <= g < Z.of_nat (clause_fuel g).
Proof. intros Hg. unfold clause_fuel. rewrite Nat2Z.inj_succ, Z2Nat.id by exact Hg. lia. Qed.

(* fuel never runs out, gas left within [0, gas], the refund counter does not go below its entry value *)
Lemma run_clause_facts E c input g w : 0 <= g ->
  let r := run_clause E c input g w in
  EM.r_out r <> EM.O_fuel /\ 0 <= EM.r_gas r <= g /\ EM.w_refund w <= EM.w_refund (EM.r_world r).
Proof.
  intros Hg. pose proof (clause_fuel_enough g Hg) as Hf. unfold run_clause.
  destruct (TM.c_to c) as [to|].
  - destruct (ER.call_top_terminates (clause_fuel g) E false to (TM.c_value c) input g w Hf) as (Ho & Hgas).
    split; [exact Ho|]. split; [exact Hgas|]. apply EF.call_top_refund.
  - destruct (EM.nth_opt (EM.e_newaddrs E) 0) as [addr|].
    + destruct (ER.do_create_gas (EM.run (clause_fuel g) E) E (EM.e_origin E) false 0 addr input (TM.c_value c) g w 0
                  (Z.of_nat (clause_fuel g))) as (Ho & Hgas).
      { intros cx' s' Hi Hl. apply ER.run_gas; assumption. }
      { exact Hf. }
      split; [exact Ho|]. split; [exact Hgas|]. apply EF.create_refund.
    + cbn [EM.r_out EM.r_gas EM.r_world]. split; [discriminate|]. split; lia.
Qed.

(* a clause that does not end with O_ok returns the world it was entered with *)
Lemma run_clause_failed E c input g w :
  let r := run_clause E c input g w in
  EM.r_out r <> EM.O_ok -> EM.r_world r = w.
Proof.
  unfold run_clause. destruct (TM.c_to c) as [to|].
  - apply ER.call_top_failed.
  - destruct (EM.nth_opt (EM.e_newaddrs E) 0) as [addr|]; [apply ER.create_failed|reflexivity].
Qed.

(* one candidate rendering of a run as ledger primitives: its VET transfer records, oldest first (runtime.newEVM's Transfer
   hook; self-destructs and the energy builtin are not rendered by it) *)
Definition transfer_ops (r : EM.fres) : list LM.op :=
  map (fun x => let '(s, d, amt) := x in LM.OTransfer s d amt) (rev (EM.w_transfers (EM.r_world r))).

Lemma transfer_ops_kind r o : In o (transfer_ops r) -> LM.clause_kind o = true.
Proof.
  unfold transfer_ops. intros H. apply in_map_iff in H. destruct H as ([[s d] amt] & <- & _). reflexivity.
Qed.

Section Oracle.
  Variables W O : Type.
  Variable evm_env : TM.env -> TM.txn -> nat -> TM.state W -> EM.env.   (* block / tx context, new addresses, hashes, fork *)
  Variable world_of : TM.state W -> EM.world.                            (* the accounts / storage view of the state *)
  Variable input_of : TM.txn -> nat -> list Z.                           (* clause.Data() *)
  Variable world_back : TM.state W -> EM.world -> W.                     (* the final world written back *)
  Variable ops_of : EM.fres -> list LM.op.                               (* the ledger primitives of the run *)
  Variable out_of : EM.fres -> O.                                        (* tx.Output *)

  Definition evm_frame (e : TM.env) (t : TM.txn) (i : nat) (g : Z) (st : TM.state W) : option EM.fres :=
    match nth_error (TM.t_clauses t) i with
    | None => None
    | Some c => Some (run_clause (evm_env e t i st) c (input_of t i) g (fresh (world_of st)))
    end.

  (* runtime.Output from the interpreter's result *)
  Definition cres_of (st : TM.state W) (r : EM.fres) : TM.cres W O :=
    TM.mkCres W O (EM.r_gas r) (EM.w_refund (EM.r_world r)) (negb (is_ok (EM.r_out r)))
              (ops_of r) (world_back st (EM.r_world r)) (out_of r).

  (* no such clause: nothing runs *)
  Definition idle (st : TM.state W) (g : Z) : TM.cres W O :=
    TM.mkCres W O g 0 false [] (snd st) (out_of (EM.mkRes EM.O_ok [] g (fresh (world_of st)) 0)).

  Definition evm_clause_result (e : TM.env) (t : TM.txn) (i : nat) (g : Z) (st : TM.state W) : TM.cres W O :=
    match evm_frame e t i g st with
    | Some r => cres_of st r
    | None => idle st g
    end.

  Lemma evm_frame_facts e t i g st r : 0 <= g -> evm_frame e t i g st = Some r ->
    EM.r_out r <> EM.O_fuel /\ 0 <= EM.r_gas r <= g /\ 0 <= EM.w_refund (EM.r_world r).
  Proof.
    intros Hg. unfold evm_frame. destruct (nth_error (TM.t_clauses t) i) as [c|]; [|discriminate].
    intros H. injection H as <-.
    destruct (run_clause_facts (evm_env e t i st) c (input_of t i) g (fresh (world_of st)) Hg) as (Ho & Hgas & Hr).
    cbn [fresh EM.w_refund] in Hr. split; [exact Ho|]. split; [exact Hgas|exact Hr].
  Qed.

  Theorem evm_oracle_ok : TP.oracle_ok W O evm_clause_result.
  Proof.
    intros e t i g st Hg. unfold evm_clause_result.
    destruct (evm_frame e t i g st) as [r|] eqn:Ef.
    - destruct (evm_frame_facts e t i g st r Hg Ef) as (_ & Hgas & Hr).
      cbn [cres_of TM.cr_left TM.cr_refund]. split; [exact Hgas|exact Hr].
    - cbn [idle TM.cr_left TM.cr_refund]. lia.
  Qed.

  (* a clause the wrapper counts as failed hands back the fresh view untouched: no account, storage, log, transfer record,
     refund or self-destruct of it (or of its nested frames) survives *)
  Theorem evm_clause_failed_world e t i g st :
    TM.cr_err W O (evm_clause_result e t i g st) = true ->
    exists r, evm_frame e t i g st = Some r /\ EM.r_out r <> EM.O_ok /\ EM.r_world r = fresh (world_of st) /\
              TM.cr_refund W O (evm_clause_result e t i g st) = 0 /\
              TM.cr_world W O (evm_clause_result e t i g st) = world_back st (fresh (world_of st)).
  Proof.
    unfold evm_clause_result. destruct (evm_frame e t i g st) as [r|] eqn:Ef; [|cbn [idle TM.cr_err]; discriminate].
    cbn [cres_of TM.cr_err TM.cr_refund TM.cr_world]. intros He. exists r.
    assert (Hno : EM.r_out r <> EM.O_ok). { intros Hq. rewrite Hq in He. discriminate He. }
    assert (Hw : EM.r_world r = fresh (world_of st)).
    { unfold evm_frame in Ef. destruct (nth_error (TM.t_clauses t) i) as [c|]; [|discriminate].
      injection Ef as <-. apply run_clause_failed. exact Hno. }
    split; [reflexivity|]. split; [exact Hno|]. split; [exact Hw|]. rewrite Hw. split; reflexivity.
  Qed.

  Variable write_credit : Z -> Z -> Z -> W -> W.
  Let exec := TM.exec_tx W O evm_clause_result write_credit.

  Theorem gas_bounds_evm e t ci st0 st rc :
    exec e t ci st0 = TM.Done W O st rc ->
    exists ig, TM.intrinsic_gas (TM.t_clauses t) = Some ig /\
      ig <= TM.r_gas_used O rc <= TM.t_gas t /\ TM.t_gas t <= TM.e_gas_limit e /\
      TM.r_paid O rc = TM.r_gas_used O rc * TM.r_price O rc /\
      TP.log_ok (TM.r_clause_log O rc) /\
      TM.r_gas_used O rc = ig + TP.log_used (TM.r_clause_log O rc) - TP.log_refund (TM.r_clause_log O rc) /\
      2 * TP.log_refund (TM.r_clause_log O rc) <= TP.log_used (TM.r_clause_log O rc).
  Proof. exact (TP.gas_bounds_lemma W O evm_clause_result write_credit evm_oracle_ok e t ci st0 st rc). Qed.

  Theorem tx_atomic_evm e t ci st0 st rc :
    exec e t ci st0 = TM.Done W O st rc -> TM.r_reverted O rc = true ->
    let T := TM.e_time e in let S := TM.e_stop e in
    let prepaid := TM.t_gas t * TM.r_price O rc in
    let returned := (TM.t_gas t - TM.r_gas_used O rc) * TM.r_price O rc in
    TM.r_outputs O rc = [] /\
    snd (LM.energy_sub T S (fst st0) (TM.r_payer O rc) prepaid) = true /\
    fst st = LM.energy_add T S (LM.energy_add T S (fst (LM.energy_sub T S (fst st0) (TM.r_payer O rc) prepaid))
                                              (TM.r_payer O rc) returned) (TM.e_benef e) (TM.r_reward O rc) /\
    (snd st = snd st0 \/
     exists to credit', TM.r_credit O rc = Some credit' /\ TM.common_to (TM.t_clauses t) = Some to /\
                        snd st = write_credit to (TM.t_origin t) credit' (snd st0)).
  Proof. exact (TP.tx_atomic_lemma W O evm_clause_result write_credit evm_oracle_ok e t ci st0 st rc). Qed.

  Theorem block_gas_evm e txs st used st' rcs :
    0 <= TM.e_gas_limit e -> 2 * TM.e_gas_limit e < TM.two64 ->
    Forall (fun p => 0 <= TM.t_gas (fst p) < TM.two64 /\
                     Forall (fun c => 0 <= TM.c_zeros c /\ 0 <= TM.c_nonzeros c) (TM.t_clauses (fst p))) txs ->
    TM.adopt_all W O evm_clause_result write_credit e 0 txs st [] = (used, st', rcs) ->
    used = TP.sum_used O rcs /\ 0 <= used <= TM.e_gas_limit e.
  Proof.
    intros H0 HL HF H.
    exact (TP.block_gas_lemma W O evm_clause_result write_credit evm_oracle_ok e txs HL HF 0 st [] used st' rcs
             (conj (Z.le_refl 0) H0) eq_refl H).
  Qed.

  Theorem block_gas_full_evm e fe txs st fs' st' rcs :
    0 <= TM.e_gas_limit e -> 2 * TM.e_gas_limit e < TM.two64 ->
    Forall (fun p => 0 <= TM.t_gas (fst (fst p)) < TM.two64 /\
                     Forall (fun c => 0 <= TM.c_zeros c /\ 0 <= TM.c_nonzeros c) (TM.t_clauses (fst (fst p)))) txs ->
    TM.adopt_all_full W O evm_clause_result write_credit e fe (TM.mkFS 0 []) txs st [] = (fs', st', rcs) ->
    TM.fs_used fs' = TP.sum_used O rcs /\ 0 <= TM.fs_used fs' <= TM.e_gas_limit e.
  Proof.
    intros H0 HL HF H.
    exact (TA.block_gas_full_lemma W O evm_clause_result write_credit evm_oracle_ok e fe txs HL HF (TM.mkFS 0 []) st [] fs' st' rcs
             (conj (Z.le_refl 0) H0) eq_refl H).
  Qed.

  (* C01's premise about execution (Compose/ExecSane.v), outright: C01 <- C07 <- C10 *)
  Theorem exec_sane_evm (tx_rest : Validation.Body.txn -> TM.txn) (env_rest : Header.Rules.bctx -> TM.state W -> TM.env)
          (credit_of : Header.Rules.bctx -> TM.state W -> Validation.Body.txn -> TM.credit_info) (digest : TM.receipt O -> N) :
    Validation.ProofsPacker.exec_sane (TM.state W)
      (ExecSane.exec_of_c07 W O evm_clause_result write_credit tx_rest env_rest credit_of digest).
  Proof. exact (ExecSane.exec_of_c07_sane W O evm_clause_result write_credit tx_rest env_rest credit_of digest evm_oracle_ok). Qed.
End Oracle.

(* An instance in which the EVM's balances are READ from C07's ledger and its transfers go back as ledger primitives:
   the rest of the world is (known addresses with code and master flag, storage); the view gives every known address the VET
   balance the ledger holds; the written-back world is the newest binding per account / slot; ops = the transfer records;
   output = (return data, number of events).
   Contract 10:  PUSH0; PUSH1 5; SSTORE; STOP  — clears slot 5 (which holds 3): 5005 gas, refund counter 15000.
   Contract 11:  INVALID.
   Creation data: PUSH0; PUSH0; MSTORE8; PUSH1 1; PUSH0; RETURN — deploys the one-byte code [STOP] (200 gas deposit). *)
Definition XW : Type := (list (Z * (list Z * bool)) * list (Z * Z * Z))%type.
Definition XO : Type := (list Z * nat)%type.

Definition x_world_of (st : TM.state XW) : EM.world :=
  EM.mkWorld (map (fun p => (fst p, EM.mkAcc (LM.a_bal (LM.l_acc (fst st) (fst p))) (fst (snd p)) (snd (snd p)))) (fst (snd st)))
             (snd (snd st)) [] 0 [] [].
Definition x_world_back (_ : TM.state XW) (w : EM.world) : XW :=
  (map (fun p => (fst p, (EM.a_code (snd p), EM.a_master (snd p)))) (EM.acct_view w), EM.store_view w).
Definition x_out_of (r : EM.fres) : XO := (EM.r_data r, length (EM.w_logs (EM.r_world r))).
Definition x_evm_env (e : TM.env) (t : TM.txn) (i : nat) (_ : TM.state XW) : EM.env :=
  EM.mkEnv (TM.t_origin t) 1 (TM.e_benef e) (TM.e_time e) (TM.e_number e) 0 (TM.e_gas_limit e) 39
           (match TM.e_base_fee e with Some bf => bf | None => 0 end)
           [500 + 10 * Z.of_nat i; 501 + 10 * Z.of_nat i] [([], 77)] 42 3.
Definition x_init : list Z := [95; 95; 83; 96; 1; 95; 243].
Definition x_input_of (t : TM.txn) (i : nat) : list Z :=
  match nth_error (TM.t_clauses t) i with
  | Some c => match TM.c_to c with None => x_init | Some _ => [] end
  | None => []
  end.
Definition x_oracle := evm_clause_result XW XO x_evm_env x_world_of x_input_of x_world_back transfer_ops x_out_of.
Definition x_wc (_ _ _ : Z) (w : XW) : XW := w.

Definition x_env := TM.mkEnv 100 1000 5 3 10000000 (Some 10000000000000) 1000000000000000 300000000000000000 77 10.
Definition x_led : LM.ledger :=
  LM.mkL (fun a => if a =? 1 then LM.mkAcc 1000 90000000000000000000 50 else LM.empty_acc) 0 0 0.
Definition x_w0 : XW := ([(1, ([], false)); (10, ([95; 96; 5; 85; 0], false)); (11, ([254], false))], [(10, 5, 3)]).
Definition x_ci := TM.mkCI 0 0 false false.
(* clause 0: call contract 10 with 3 wei; clause 1: a creation (data: 7 non-zero bytes) *)
Definition x_tx := TM.mkTx true 200000 [TM.mkClause (Some 10) 0 0 3; TM.mkClause None 0 7 0]
                           0 20000000000000 500 1 true None true 0 0 0 false.
(* the same with a third clause calling contract 11, which fails *)
Definition x_tx_bad := TM.mkTx true 200000 [TM.mkClause (Some 10) 0 0 3; TM.mkClause None 0 7 0; TM.mkClause (Some 11) 0 0 0]
                               0 20000000000000 500 1 true None true 0 0 0 false.

(* the interpreter really runs inside the wrapper: clause 0 consumes 5005 gas and, its refund counter being 15000, gets the
   cap 5005/2 = 2502 back; clause 1 consumes 15 + 200 (code deposit); gas used = intrinsic 69476 + 5220 consumed - 2502 refunded = 72194.  Slot 5
   is cleared, the new contract 510 has the code [STOP] and a master, the 3 wei moved on the LEDGER from the origin to 10. *)
Example x_runs : exists st rc,
  TM.exec_tx XW XO x_oracle x_wc x_env x_tx x_ci (x_led, x_w0) = TM.Done XW XO st rc /\
  TM.r_reverted XO rc = false /\ TM.r_gas_used XO rc = 72194 /\ TM.intrinsic_gas (TM.t_clauses x_tx) = Some 69476 /\
  TM.r_clause_log XO rc = [(130524, 5005, 2502); (128021, 215, 0)] /\
  TM.r_outputs XO rc = [([], 0%nat); ([], 1%nat)] /\
  snd (snd st) = [(10, 5, 0)] /\
  map fst (fst (snd st)) = [510; 10; 1; 11] /\
  EM.code_of (x_world_of st) 510 = [0] /\
  LM.a_bal (LM.l_acc (fst st) 10) = 3 /\ LM.a_bal (LM.l_acc (fst st) 1) = 997.
Proof. eexists _, _. split; [vm_compute; reflexivity|]. vm_compute. repeat split; reflexivity. Qed.

(* ... and the theorem applies to that run *)
Example x_gas_bounds : exists st rc ig,
  TM.exec_tx XW XO x_oracle x_wc x_env x_tx x_ci (x_led, x_w0) = TM.Done XW XO st rc /\
  TM.intrinsic_gas (TM.t_clauses x_tx) = Some ig /\ ig <= TM.r_gas_used XO rc <= TM.t_gas x_tx.
Proof.
  destruct x_runs as (st & rc & E & _). exists st, rc.
  destruct (gas_bounds_evm XW XO x_evm_env x_world_of x_input_of x_world_back transfer_ops x_out_of x_wc _ _ _ _ _ _ E)
    as (ig & Hi & Hb & _).
  exists ig. split; [exact E|]. split; [exact Hi|exact Hb].
Qed.

(* the refund counter of the first clause as the interpreter reports it; the frame of the failing clause *)
Example x_clause_results :
  let st1 : TM.state XW := (x_led, x_w0) in
  TM.cr_refund XW XO (x_oracle x_env x_tx 0%nat 130524 st1) = 15000 /\
  TM.cr_left XW XO (x_oracle x_env x_tx 0%nat 130524 st1) = 125519 /\
  TM.cr_ops XW XO (x_oracle x_env x_tx 0%nat 130524 st1) = [LM.OTransfer 1 10 3] /\
  TM.cr_err XW XO (x_oracle x_env x_tx_bad 2%nat 1000 st1) = true /\
  TM.cr_left XW XO (x_oracle x_env x_tx_bad 2%nat 1000 st1) = 0 /\
  TM.cr_left XW XO (x_oracle x_env x_tx 7%nat 1000 st1) = 1000.
Proof. vm_compute. repeat split; reflexivity. Qed.

(* tx_atomic_evm / evm_clause_failed_world: the third clause fails after the first two wrote; the transaction is reverted, the
   rest of the world is the initial one, all gas of the failing clause is consumed (gas used = the whole 200000) *)
Example x_reverts : exists st rc,
  TM.exec_tx XW XO x_oracle x_wc x_env x_tx_bad x_ci (x_led, x_w0) = TM.Done XW XO st rc /\
  TM.r_reverted XO rc = true /\ TM.r_outputs XO rc = [] /\ snd st = x_w0 /\
  TM.r_clause_log XO rc = [(114524, 5005, 2502); (112021, 215, 0); (111806, 111806, 0)] /\
  TM.r_gas_used XO rc = 200000 /\
  LM.a_bal (LM.l_acc (fst st) 10) = 0 /\ LM.a_bal (LM.l_acc (fst st) 1) = 1000.
Proof. eexists _, _. split; [vm_compute; reflexivity|]. vm_compute. repeat split; reflexivity. Qed.

Example x_atomic : exists st rc,
  TM.exec_tx XW XO x_oracle x_wc x_env x_tx_bad x_ci (x_led, x_w0) = TM.Done XW XO st rc /\
  TM.r_reverted XO rc = true /\ TM.r_outputs XO rc = [] /\ snd st = snd (x_led, x_w0).
Proof.
  destruct x_reverts as (st & rc & E & R & _). exists st, rc.
  destruct (tx_atomic_evm XW XO x_evm_env x_world_of x_input_of x_world_back transfer_ops x_out_of x_wc _ _ _ _ _ _ E R)
    as (Ho & _ & _ & [Hs|(to & cr & Hc & _)]).
  - split; [exact E|]. split; [exact R|]. split; [exact Ho|exact Hs].
  - exfalso. revert Hc. generalize E. vm_compute. intros E'. injection E' as _ <-. discriminate.
Qed.

Example x_failed_world :
  let st1 : TM.state XW := (x_led, x_w0) in
  TM.cr_err XW XO (x_oracle x_env x_tx_bad 2%nat 1000 st1) = true /\
  exists r, evm_frame XW x_evm_env x_world_of x_input_of x_env x_tx_bad 2%nat 1000 st1 = Some r /\
            EM.r_out r = EM.O_err EM.E_invalid /\ EM.r_world r = fresh (x_world_of st1).
Proof.
  cbv zeta. split; [vm_compute; reflexivity|].
  destruct (evm_clause_failed_world XW XO x_evm_env x_world_of x_input_of x_world_back transfer_ops x_out_of
              x_env x_tx_bad 2%nat 1000 (x_led, x_w0)) as (r & Ef & _ & Hw & _); [vm_compute; reflexivity|].
  exists r. split; [exact Ef|]. split; [|exact Hw].
  revert Ef. vm_compute. intros Ef. injection Ef as <-. reflexivity.
Qed.

(* a block of the two transactions (block_gas_evm); in the second one slot 5 is already clear (no refund) and the creation
   collides with contract 510 deployed by the first, so it is reverted at its second clause with all gas consumed *)
Example x_block : exists st rcs,
  TM.adopt_all XW XO x_oracle x_wc x_env 0 [(x_tx, x_ci); (x_tx_bad, x_ci)] (x_led, x_w0) [] = (272194, st, rcs) /\
  map (TM.r_gas_used XO) rcs = [72194; 200000] /\ 272194 = TP.sum_used XO rcs /\ 0 <= 272194 <= TM.e_gas_limit x_env.
Proof.
  assert (E : exists st rcs, TM.adopt_all XW XO x_oracle x_wc x_env 0 [(x_tx, x_ci); (x_tx_bad, x_ci)] (x_led, x_w0) [] = (272194, st, rcs) /\
                             map (TM.r_gas_used XO) rcs = [72194; 200000]).
  { eexists _, _. split; [vm_compute; reflexivity|]. vm_compute. reflexivity. }
  destruct E as (st & rcs & E & M). exists st, rcs. split; [exact E|]. split; [exact M|].
  apply (block_gas_evm XW XO x_evm_env x_world_of x_input_of x_world_back transfer_ops x_out_of x_wc x_env
           [(x_tx, x_ci); (x_tx_bad, x_ci)] (x_led, x_w0) 272194 st rcs); [vm_compute; discriminate|reflexivity| |exact E].
  repeat constructor; cbn; lia.
Qed.
