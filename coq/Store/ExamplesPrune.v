(* Store/ExamplesPrune.v — a concrete history for the account trie (name 0): four canonical blocks v0..v3 and a two-block
   dead fork (1,1),(2,1) branching from block 0, on a store with HistPtnFactor 2 and the production deduped factor (none);
   then one pruner round [0,2) that checkpoints the root of block 1, two more blocks and a second round [2,4).  Used as
   the non-vacuity witness of the History theorems and as the model-level witness of finding F8: the statement
   never_silently_different_statement (a pruned fork root answers differently after the round) is refuted here, and the
   freshness premise of the unpruned-store theorems is shown to fail on the pruned store. *)
From Coq Require Import List NArith Bool Arith Lia.
From Verif Require Import Trie.Model Store.Model Store.Proofs Store.ProofsCommit Store.ProofsReach Store.ProofsPrune Store.ProofsLink.
Import ListNotations.

Definition bigT : wnode nat -> bool := fun _ => true.        (* every full node has a hash: stored standalone *)
Definition leaf (k x : nat) : wnode nat := WShort [k; 16%nat] (WValue x) Dirty.
Definition lf (k x : nat) : node nat := Short [k; 16%nat] (Value x).

Definition v0 : ver := (0, 0)%N.
Definition v1 : ver := (1, 0)%N.
Definition v2 : ver := (2, 0)%N.
Definition v3 : ver := (3, 0)%N.
Definition w1 : ver := (1, 1)%N.                             (* the fork: block 1', block 2' *)
Definition w2 : ver := (2, 1)%N.

Definition xs0 : store nat := mkStore nat [] [] 2%N None.

(* working tries at commit time (children: 0 empty, 1 a branch with two leaves, 2 a leaf) *)
Definition xn0 : wnode nat := WFull [WNil; WFull [leaf 1 10; leaf 2 20] Dirty; leaf 3 1] Dirty.           (* genesis *)
Definition xn1 : wnode nat := WFull [WNil; WFull [leaf 1 10; leaf 2 20] (Clean v0); leaf 3 2] Dirty.      (* branch loaded, clean *)
Definition xf1 : wnode nat := WFull [WNil; WFull [leaf 1 99; leaf 2 20] Dirty; leaf 3 1] Dirty.           (* fork on block 0: rewrites the branch *)
Definition xf2 : wnode nat := WFull [WNil; WRef w1; leaf 3 7] Dirty.                                     (* fork on block 1': keeps its branch *)
Definition xn2 : wnode nat := WFull [WNil; WRef v0; leaf 3 3] Dirty.                                     (* branch not loaded *)
Definition xn3 : wnode nat := WFull [WNil; WFull [leaf 1 11; leaf 2 20] Dirty; leaf 3 3] Dirty.           (* rewrites the branch *)

Definition xt0 : node nat := Full [Nil; Full [lf 1 10; lf 2 20]; lf 3 1].
Definition xt1 : node nat := Full [Nil; Full [lf 1 10; lf 2 20]; lf 3 2].
Definition xt2 : node nat := Full [Nil; Full [lf 1 10; lf 2 20]; lf 3 3].
Definition xt3 : node nat := Full [Nil; Full [lf 1 11; lf 2 20]; lf 3 3].
Definition xtf2 : node nat := Full [Nil; Full [lf 1 99; lf 2 20]; lf 3 7].       (* what block 2' committed *)
Definition xtf2' : node nat := Full [Nil; Full [lf 1 10; lf 2 20]; lf 3 7].      (* what it reads after the round *)

Definition cm (s : store nat) (v : ver) (n : wnode nat) : store nat :=
  commit nat s 0 v (snd (wstore nat bigT false v [] n)).

Definition xs1 := cm xs0 v0 xn0.
Definition xs2 := cm xs1 v1 xn1.
Definition xs3 := cm xs2 w1 xf1.
Definition xs4 := cm xs3 w2 xf2.
Definition xs5 := cm xs4 v2 xn2.
Definition xs6 := cm xs5 v3 xn3.

Definition xnodes : list (list nat * ver * snode nat) :=
  Eval vm_compute in match checkpoint_nodes nat 10 xs6 0 v1 0 with Some l => l | None => [] end.
Definition xcps : list (N * list (list nat * ver * snode nat)) := [(0%N, xnodes)].
Definition xs7 := prune nat xs6 xcps 0 2.

Ltac coh_tac :=
  repeat first
    [ apply Coh_nil | apply Coh_val | apply Coh_ref | apply CohL_nil | apply CohL_cons
    | apply Coh_short; [discriminate| |let E := fresh in intros ? E; first [discriminate E|inversion E; subst; vm_compute; reflexivity]]
    | apply Coh_full; [|let E := fresh in intros ? E; first [discriminate E|inversion E; subst; vm_compute; reflexivity]] ].

Ltac wres_tac :=
  repeat first
    [ apply WRes_nil | apply WRes_val | apply WRes_short | apply WRes_full | apply WResL_nil | apply WResL_cons
    | eapply WRes_ref; [vm_compute; reflexivity|]
    | apply Res_nil | apply Res_val | apply Res_short | apply Res_full | apply ResL_nil | apply ResL_cons
    | eapply Res_ref; [vm_compute; reflexivity|] ].

Ltac wtop_inv :=
  repeat match goal with
  | H : WTop _ _ WNil _ _ _ |- _ => inversion H
  | H : WTop _ _ (WValue _) _ _ _ |- _ => inversion H
  | H : WTop _ _ (WShort _ _ _) _ _ _ |- _ => inversion H; subst; clear H
  | H : WTop _ _ (WFull _ _) _ _ _ |- _ => inversion H; subst; clear H
  | H : WTop _ _ (WRef _) _ _ _ |- _ => inversion H; subst; clear H
  | H : nth_error [] ?i = Some _ |- _ => destruct i; discriminate H
  | H : nth_error (_ :: _) ?i = Some _ |- _ => destruct i; cbn in H; [inversion H; subst; clear H|]
  end.

Ltac fresh_tac := apply hist_fresh_check; vm_compute; reflexivity.

(* the branch at path [1] is a node of the head root *)
Ltac reach_branch :=
  eexists; unfold RR;
  eapply Reach_below; [vm_compute; reflexivity|];
  eapply (Reach_full _ _ _ _ 1%nat); [reflexivity|];
  apply Reach_here; vm_compute; reflexivity.

(* a canonical commit of handle n denoting t (both names of definitions); the `derived` premise is left *)
Ltac commit_tac name s chain P v n t H :=
  apply (H_commit nat name s chain P v bigT false n t H);
  [ fresh_tac | cbn; lia | first [exact I|cbn; lia] | unfold n, leaf; coh_tac | unfold n, t, leaf, lf; wres_tac | exact I | ].

Lemma xH1 : History nat 0 xs1 [(v0, xt0)] 0.
Proof.
  commit_tac 0%N xs0 (@nil (ver * node nat)) 0%N v0 xn0 xt0 (H_init nat 0 xs0 0%N eq_refl).
  intros q w r T. unfold xn0, leaf in T. wtop_inv.
Qed.

Lemma xH2 : History nat 0 xs2 [(v1, xt1); (v0, xt0)] 0.
Proof.
  commit_tac 0%N xs1 [(v0, xt0)] 0%N v1 xn1 xt1 xH1.
  intros q w r T. unfold xn1, leaf in T. wtop_inv. cbn [fst]. reach_branch.
Qed.

Lemma xH4 : History nat 0 xs4 [(v1, xt1); (v0, xt0)] 0.
Proof.
  apply H_other; [apply H_other; [exact xH2|]|]; right; (split; [fresh_tac|cbn; lia]).
Qed.

Lemma xH5 : History nat 0 xs5 [(v2, xt2); (v1, xt1); (v0, xt0)] 0.
Proof.
  commit_tac 0%N xs4 [(v1, xt1); (v0, xt0)] 0%N v2 xn2 xt2 xH4.
  intros q w r T. unfold xn2, leaf in T. wtop_inv. cbn [fst]. reach_branch.
Qed.

Lemma xH6 : History nat 0 xs6 [(v3, xt3); (v2, xt2); (v1, xt1); (v0, xt0)] 0.
Proof.
  commit_tac 0%N xs5 [(v2, xt2); (v1, xt1); (v0, xt0)] 0%N v3 xn3 xt3 xH5.
  intros q w r T. unfold xn3, leaf in T. wtop_inv.
Qed.

(* a pruner round c on a concrete store, leaving the history before it: bounds, alignment, which roots stay, the
   anchor, the iterator's report and that it is the round's only checkpoint of this trie are computed *)
Ltac round_tac c :=
  apply c;
  [ | cbn; lia | cbn; lia | reflexivity | reflexivity | repeat constructor; cbn; lia | cbn; lia | vm_compute; reflexivity
  | split; [intros nodes' [E|[]]; inversion E; reflexivity|intros _; left; reflexivity] ].

(* the round [0,2): blocks 2 and 3 stay live *)
Lemma xH7 : History nat 0 xs7 [(v3, xt3); (v2, xt2)] 2.
Proof.
  round_tac (H_prune nat 0 xs6 [(v3, xt3); (v2, xt2)] (v1, xt1) [(v0, xt0)] 0%N 0%N 2%N xcps 10 xnodes). exact xH6.
Qed.

(* what the round did, computed: two nodes checkpointed (the root of block 1 and the branch written by block 0);
   block 2 reads the branch from the deduped space; the pruned root of block 1 fails *)
Example x_checkpointed : map (fun e => fst e) xnodes = [([], v1); ([1%nat], v0)].
Proof. vm_compute. reflexivity. Qed.
Example x_block2_after : open_root nat 10 xs7 0 v2 = Some xt2 /\ hist_find nat (hist nat xs7) 0 [1%nat] v0 = None.
Proof. split; vm_compute; reflexivity. Qed.
Example x_block3_after : open_root nat 10 xs7 0 v3 = Some xt3.
Proof. vm_compute. reflexivity. Qed.
Example x_block1_after : open_root nat 10 xs7 0 v1 = None.
Proof. vm_compute. reflexivity. Qed.

(* F8 in the model: block 2' (version (2,1) >= target, on a fork that left the canonical chain below block target-1)
   resolved to xtf2 before the round and resolves — silently — to a different trie after it *)
Example x_fork_before : open_root nat 10 xs6 0 w2 = Some xtf2.
Proof. vm_compute. reflexivity. Qed.
Example x_fork_after : open_root nat 10 xs7 0 w2 = Some xtf2'.
Proof. vm_compute. reflexivity. Qed.
Example x_fork_differs : xtf2 <> xtf2'.
Proof. discriminate. Qed.

(* ---- a second round [2,4) on the pruned store: blocks 4 and 5 keep the branch written by block 3 by reference; the
   checkpoint of block 3 overwrites the deduped entry of path [1] (the deduped key has no version) *)
Definition v4 : ver := (4, 0)%N.
Definition v5 : ver := (5, 0)%N.
Definition xn4 : wnode nat := WFull [WNil; WFull [leaf 1 11; leaf 2 20] (Clean v3); leaf 3 4] Dirty.
Definition xn5 : wnode nat := WFull [WNil; WRef v3; leaf 3 5] Dirty.
Definition xt4 : node nat := Full [Nil; Full [lf 1 11; lf 2 20]; lf 3 4].
Definition xt5 : node nat := Full [Nil; Full [lf 1 11; lf 2 20]; lf 3 5].
Definition xs8 := cm xs7 v4 xn4.
Definition xs9 := cm xs8 v5 xn5.
Definition xnodes2 : list (list nat * ver * snode nat) :=
  Eval vm_compute in match checkpoint_nodes nat 10 xs9 0 v3 2 with Some l => l | None => [] end.
Definition xcps2 : list (N * list (list nat * ver * snode nat)) := [(0%N, xnodes2)].
Definition xs10 := prune nat xs9 xcps2 2 4.

Lemma xH8 : History nat 0 xs8 [(v4, xt4); (v3, xt3); (v2, xt2)] 2.
Proof.
  commit_tac 0%N xs7 [(v3, xt3); (v2, xt2)] 2%N v4 xn4 xt4 xH7.
  intros q w r T. unfold xn4, leaf in T. wtop_inv. cbn [fst]. reach_branch.
Qed.

Lemma xH9 : History nat 0 xs9 [(v5, xt5); (v4, xt4); (v3, xt3); (v2, xt2)] 2.
Proof.
  commit_tac 0%N xs8 [(v4, xt4); (v3, xt3); (v2, xt2)] 2%N v5 xn5 xt5 xH8.
  intros q w r T. unfold xn5, leaf in T. wtop_inv. cbn [fst]. reach_branch.
Qed.

Lemma xH10 : History nat 0 xs10 [(v5, xt5); (v4, xt4)] 4.
Proof.
  round_tac (H_prune nat 0 xs9 [(v5, xt5); (v4, xt4)] (v3, xt3) [(v2, xt2)] 2%N 2%N 4%N xcps2 10 xnodes2). exact xH9.
Qed.

Example x_round2 : map (fun e => fst e) xnodes2 = [([], v3); ([1%nat], v3)] /\
  open_root nat 10 xs10 0 v4 = Some xt4 /\ open_root nat 10 xs10 0 v5 = Some xt5 /\
  open_root nat 10 xs10 0 v2 = None /\ open_root nat 10 xs10 0 w2 = None.
Proof. repeat split; vm_compute; reflexivity. Qed.

(* ---- never_silently_different over all roots of a trie, canonical or not: refuted by block 2' (finding F8) ---- *)
(* "whatever root of the trie resolved before a pruner round of a valid history and still resolves after it, resolves to
   the same trie" *)
Definition never_silently_different_statement (V : Type) : Prop :=
  forall name (s : store V) newer anchor older P base target cps f nodes,
    History V name s (newer ++ anchor :: older) P ->
    (P <= base)%N -> (base <= target)%N -> (base mod hf V s = 0)%N -> (target mod hf V s = 0)%N ->
    Forall (fun vt => (target <= fst (fst vt))%N) newer -> (fst (fst anchor) < target)%N ->
    checkpoint_nodes V f s name (fst anchor) base = Some nodes ->
    cps_for V name cps nodes ->
    forall fu v t t', open_root V fu s name v = Some t -> open_root V fu (prune V s cps base target) name v = Some t' -> t = t'.

Lemma never_silently_different_refuted : ~ never_silently_different_statement nat.
Proof.
  intros H.
  apply x_fork_differs.
  apply (H 0%N xs6 [(v3, xt3); (v2, xt2)] (v1, xt1) [(v0, xt0)] 0%N 0%N 2%N xcps 10%nat xnodes xH6) with (fu := 10%nat) (v := w2).
  - cbn; lia.
  - cbn; lia.
  - reflexivity.
  - reflexivity.
  - repeat constructor; cbn; lia.
  - cbn; lia.
  - vm_compute. reflexivity.
  - split.
    + intros nodes' [E|[]]. inversion E. reflexivity.
    + intros _. left. reflexivity.
  - exact x_fork_before.
  - exact x_fork_after.
Qed.

(* ---- on the pruned store xs7 (after round [0,2)): the reader is no longer silent at a new version (the premise of
   commit_preserves_roots / commit_reads_back fails), while the premises of their any-store forms hold ---- *)
Example x_old_freshness_fails : sget nat xs7 0 [1%nat] v4 <> None.
Proof. vm_compute. discriminate. Qed.

Example x_commit_any_premise : forall q w b, Reach nat (sget nat xs7 0) [] (SRef v3) q w b -> w <> v4.
Proof.
  intros q w b R.
  apply (followed_not_fresh nat xs7 0 [(v3, xt3); (v2, xt2)] 2%N v4 (History_Inv nat 0 xs7 _ 2%N xH7)) with (vt := (v3, xt3)) (q := q) (b := b).
  - fresh_tac.
  - cbn; lia.
  - left; reflexivity.
  - exact R.
Qed.

Example x_commit_after_prune : open_root nat 10 xs8 0 v3 = Some xt3 /\ Res nat (sget nat xs8 0) [] (SRef v4) xt4.
Proof.
  split; [vm_compute; reflexivity|].
  apply (history_roots_resolve nat 0 xs8 _ 2%N v4 xt4 xH8). left; reflexivity.
Qed.

(* the conditional theorem's premise on the first round: every node root v2 follows survives *)
Example x_survives : ResC nat (survives nat xs6 xcps 0 2 0) (sget nat xs6 0) [] (SRef v2) xt2.
Proof.
  unfold xt2, lf.
  repeat first
    [ apply ResC_nil | apply ResC_val | apply ResC_short | apply ResC_full | apply ResCL_nil | apply ResCL_cons
    | eapply ResC_ref;
      [ vm_compute; reflexivity
      | first [ left; split; vm_compute; reflexivity | right; split; [|split]; vm_compute; reflexivity ]
      | ] ].
Qed.
