(* Bft/ProofsTally.v — the vote tally is a function of the *set* of (signer, COM bit) pairs it was fed
   (weights being a function of the signer, as in computeState where every vote of an epoch is weighed against the
   same checkpoint state): any permutation, duplication or split of the AddBlock sequence gives the same votes map,
   counters and summary.  Corollaries: the cache-hit path of computeState (parent's justifier + the new block) equals
   the rebuild from the checkpoint; justified is monotone in the vote set. *)
From Coq Require Import List NArith ZArith Bool Lia Permutation.
From Coq Require Import ZifyN ZifyNat ZifyBool.
From Verif Require Import Common.Util Bft.Tree Bft.Model Bft.Quorum.
Import ListNotations.
Open Scope N_scope.

Definition sumf (f : vote -> N) (vs : list (N * vote)) : N := sumN (map (fun kv => f (snd kv)) vs).
Definition f_one (v : vote) : N := if v_com v then 1 else 0.
Definition f_comw (v : vote) : N := if v_com v then v_w v else 0.

Definition keys (vs : list (N * vote)) : list N := map fst vs.

(* counters are functions of the votes map *)
Definition consistent (js : justifier) : Prop :=
  NoDup (keys (j_votes js)) /\
  j_com js = sumf f_one (j_votes js) /\ j_comw js = sumf f_comw (j_votes js) /\ j_jw js = sumf v_w (j_votes js).

Lemma find_key_some {V} (l : list (N * V)) k kv : find (fun kv => fst kv =? k) l = Some kv -> In kv l /\ fst kv = k.
Proof. intros H. destruct (find_some _ _ H) as [H1 H2]. apply N.eqb_eq in H2. tauto. Qed.

Lemma find_key_none {V} (l : list (N * V)) k v : find (fun kv => fst kv =? k) l = None -> ~ In (k, v) l.
Proof. intros H Hin. pose proof (find_none _ _ H _ Hin) as E. cbn in E. rewrite N.eqb_refl in E. discriminate. Qed.

Lemma find_key_unique {V} (l : list (N * V)) k kv v : NoDup (map fst l) -> find (fun kv => fst kv =? k) l = Some kv ->
  In (k, v) l -> kv = (k, v).
Proof.
  induction l as [|[k1 v1] l IH]; intros Hn Hf Hin; [destruct Hin|]. inversion Hn as [|? ? Hn1 Hn2]; subst.
  cbn [find fst] in Hf. destruct (k1 =? k) eqn:E.
  - apply N.eqb_eq in E. subst k1. inversion Hf; subst kv. destruct Hin as [H|H]; [exact H|].
    exfalso. apply Hn1. apply in_map_iff. exists (k, v). split; [reflexivity | exact H].
  - destruct Hin as [H|H]; [inversion H; subst; rewrite N.eqb_refl in E; discriminate|]. exact (IH Hn2 Hf H).
Qed.

Lemma lookup_none_notin vs s : lookup_vote vs s = None -> ~ In s (keys vs).
Proof.
  unfold lookup_vote, keys. destruct (find _ vs) eqn:E; [discriminate|]. intros _ Hin.
  apply in_map_iff in Hin. destruct Hin as [[k v] [<- Hin]]. exact (find_key_none vs k v E Hin).
Qed.

Lemma lookup_some_in vs s v : lookup_vote vs s = Some v -> In (s, v) vs.
Proof.
  unfold lookup_vote. destruct (find _ vs) as [[k v0]|] eqn:E; [|discriminate]. intros H. inversion H; subst v0.
  destruct (find_key_some vs s _ E) as [Hin <-]. exact Hin.
Qed.

Lemma in_lookup vs s v : NoDup (keys vs) -> In (s, v) vs -> lookup_vote vs s = Some v.
Proof.
  intros Hnd Hin. unfold lookup_vote. destruct (find _ vs) as [kv|] eqn:E; [|contradiction (find_key_none vs s v E Hin)].
  rewrite (find_key_unique vs s kv v Hnd E Hin). reflexivity.
Qed.

Lemma keys_set_vote vs s v : keys (set_vote vs s v) = keys vs.
Proof.
  unfold keys, set_vote. induction vs as [|[k v0] vs IH]; cbn; [reflexivity|].
  destruct (k =? s) eqn:E; cbn; [apply N.eqb_eq in E; subst|]; rewrite IH; reflexivity.
Qed.

Lemma sumf_set_vote f vs s prev v : NoDup (keys vs) -> lookup_vote vs s = Some prev ->
  sumf f (set_vote vs s v) + f prev = sumf f vs + f v.
Proof.
  unfold sumf, lookup_vote, keys, set_vote. induction vs as [|[k v0] vs IH]; cbn; [discriminate|].
  intros Hnd. inversion Hnd as [|? ? Hk Hr]; subst. destruct (k =? s) eqn:E; cbn.
  - intros H. inversion H; subst. apply N.eqb_eq in E. subst.
    assert (Hsame : map (fun kv : N * vote => if fst kv =? s then (s, v) else kv) vs = vs).
    { clear IH Hnd Hr H. induction vs as [|[k1 v1] vs IHv]; cbn; [reflexivity|].
      destruct (k1 =? s) eqn:E1.
      - apply N.eqb_eq in E1. subst. exfalso. apply Hk. left. reflexivity.
      - f_equal. apply IHv. intros Hin. apply Hk. right. exact Hin. }
    rewrite Hsame. lia.
  - intros H. specialize (IH Hr H). lia.
Qed.

Lemma lookup_set_vote vs s v t :
  lookup_vote (set_vote vs s v) t =
  if t =? s then match lookup_vote vs s with Some _ => Some v | None => None end else lookup_vote vs t.
Proof.
  unfold lookup_vote, set_vote. induction vs as [|[k v0] vs IH]; cbn.
  - destruct (t =? s); reflexivity.
  - destruct (k =? s) eqn:E; cbn.
    + apply N.eqb_eq in E. subst k. rewrite (N.eqb_sym s t). destruct (t =? s) eqn:E2; cbn; [reflexivity|].
      exact IH.
    + destruct (k =? t) eqn:E3; cbn.
      * apply N.eqb_eq in E3. subst k. rewrite E. reflexivity.
      * rewrite IH. destruct (t =? s) eqn:E2; [|reflexivity].
        apply N.eqb_eq in E2. subst t. reflexivity.
Qed.

Lemma add_block_consistent js s com w : consistent js -> consistent (add_block js s com w).
Proof.
  intros [Hnd [Hc [Hcw Hj]]]. unfold add_block.
  destruct (lookup_vote (j_votes js) s) as [prev|] eqn:El.
  - destruct (eqb (v_com prev) com) eqn:Eb; [repeat split; assumption|].
    unfold consistent; cbn [j_votes j_com j_comw j_jw]. rewrite keys_set_vote.
    pose proof (sumf_set_vote f_one _ s prev (mkV false (v_w prev)) Hnd El) as S1.
    pose proof (sumf_set_vote f_comw _ s prev (mkV false (v_w prev)) Hnd El) as S2.
    pose proof (sumf_set_vote v_w _ s prev (mkV false (v_w prev)) Hnd El) as S3.
    split; [exact Hnd|]. destruct prev as [[] pw]; cbn [f_one f_comw v_com v_w] in *; repeat split; lia.
  - unfold consistent; cbn [j_votes j_com j_comw j_jw]. split.
    + cbn. constructor; [exact (lookup_none_notin _ _ El) | exact Hnd].
    + rewrite Hc, Hcw, Hj. unfold sumf. cbn [map sumN snd].
      destruct com; [change (f_one (mkV true w)) with 1; change (f_comw (mkV true w)) with w
                    | change (f_one (mkV false w)) with 0; change (f_comw (mkV false w)) with 0];
      cbn [v_w]; repeat split; lia.
Qed.

Definition voted (l : list (N * (bool * N))) (s : N) : bool := existsb (fun e => fst e =? s) l.
Definition allcom (l : list (N * (bool * N))) (s : N) : bool := forallb (fun e => negb (fst e =? s) || fst (snd e)) l.

(* the inputs weigh every signer consistently *)
Definition weighed (w : N -> N) (l : list (N * (bool * N))) : Prop := forall e, In e l -> snd (snd e) = w (fst e).

Definition spec_votes (w : N -> N) (l : list (N * (bool * N))) (vs : list (N * vote)) : Prop :=
  forall s, lookup_vote vs s = if voted l s then Some (mkV (allcom l s) (w s)) else None.

Definition step (js : justifier) (x : N * (bool * N)) : justifier := add_block js (fst x) (fst (snd x)) (snd (snd x)).

Lemma tally_votes_fold pq tv tw l : tally_votes pq tv tw l = fold_left step l (new_js pq tv tw).
Proof. reflexivity. Qed.

Lemma voted_app l x s : voted (l ++ [x]) s = voted l s || (fst x =? s).
Proof. unfold voted. rewrite existsb_app. cbn. rewrite orb_false_r. reflexivity. Qed.
Lemma allcom_app l x s : allcom (l ++ [x]) s = allcom l s && (negb (fst x =? s) || fst (snd x)).
Proof. unfold allcom. rewrite forallb_app. cbn. rewrite andb_true_r. reflexivity. Qed.

Lemma add_block_other js sx cx wx s : (sx =? s) = false ->
  lookup_vote (j_votes (add_block js sx cx wx)) s = lookup_vote (j_votes js) s.
Proof.
  intros E. unfold add_block. destruct (lookup_vote (j_votes js) sx) as [prev|].
  - destruct (eqb (v_com prev) cx); [reflexivity|]. cbn [j_votes]. rewrite lookup_set_vote, N.eqb_sym, E. reflexivity.
  - cbn [j_votes]. unfold lookup_vote. cbn [find fst]. rewrite E. reflexivity.
Qed.

Lemma step_spec w l js x : weighed w (l ++ [x]) -> spec_votes w l (j_votes js) ->
  spec_votes w (l ++ [x]) (j_votes (step js x)).
Proof.
  intros Hw Hs s. destruct x as [sx [cx wx]]. unfold step. cbn [fst snd].
  assert (Hwx : wx = w sx). { apply (Hw (sx, (cx, wx))). rewrite in_app_iff. right. left. reflexivity. }
  rewrite voted_app, allcom_app. cbn [fst snd]. destruct (sx =? s) eqn:E.
  2:{ rewrite (add_block_other _ _ _ _ _ E), Hs, orb_false_r. cbn. rewrite andb_true_r. reflexivity. }
  apply N.eqb_eq in E. subst s. rewrite orb_true_r. cbn [negb orb]. pose proof (Hs sx) as Hsx. unfold add_block.
  destruct (lookup_vote (j_votes js) sx) as [prev|] eqn:El.
  - destruct (voted l sx) eqn:Ev; [|discriminate]. inversion Hsx as [Hp]. subst prev. cbn [v_com v_w].
    destruct (eqb (allcom l sx) cx) eqn:Eb.
    + (* same bit again: nothing changes *)
      rewrite El. apply eqb_prop in Eb. subst cx. destruct (allcom l sx); reflexivity.
    + cbn [j_votes]. rewrite lookup_set_vote, N.eqb_refl, El. destruct (allcom l sx), cx; try discriminate; reflexivity.
  - destruct (voted l sx) eqn:Ev; [discriminate|]. cbn [j_votes]. unfold lookup_vote. cbn [find fst snd]. rewrite N.eqb_refl.
    subst wx. assert (Ha : allcom l sx = true); [|rewrite Ha; reflexivity].
    unfold allcom. apply forallb_forall. intros e He. destruct (fst e =? sx) eqn:E2; [|reflexivity].
    exfalso. unfold voted in Ev. apply Bool.not_true_iff_false in Ev. apply Ev. apply existsb_exists. exists e. tauto.
Qed.

Lemma fold_spec w pq tv tw l : weighed w l ->
  let js := fold_left step l (new_js pq tv tw) in
  spec_votes w l (j_votes js) /\ consistent js /\ j_pq js = pq /\ j_tv js = tv /\ j_tw js = tw.
Proof.
  induction l as [|x l IH] using rev_ind; intros Hw.
  - cbn. repeat split; try reflexivity. constructor.
  - assert (Hw' : weighed w l). { intros e He. apply Hw. rewrite in_app_iff. left. exact He. }
    destruct (IH Hw') as [Hs [Hc [H1 [H2 H3]]]]. rewrite fold_left_app. cbn [fold_left].
    split; [apply step_spec; assumption|]. split; [apply add_block_consistent; exact Hc|].
    unfold step, add_block. destruct (lookup_vote _ _) as [prev|]; [destruct (eqb _ _)|]; cbn; repeat split; assumption.
Qed.

Lemma sumN_perm (a b : list N) : Permutation a b -> sumN a = sumN b.
Proof. induction 1; cbn; lia. Qed.

Lemma votes_perm (v1 v2 : list (N * vote)) : NoDup (keys v1) -> NoDup (keys v2) ->
  (forall s, lookup_vote v1 s = lookup_vote v2 s) -> Permutation v1 v2.
Proof.
  intros H1 H2 Hl. apply NoDup_Permutation.
  - unfold keys in H1. exact (NoDup_map_inv _ _ H1).
  - unfold keys in H2. exact (NoDup_map_inv _ _ H2).
  - intros [s v]. split; intros Hin.
    + apply lookup_some_in. rewrite <- Hl. apply in_lookup; assumption.
    + apply lookup_some_in. rewrite Hl. apply in_lookup; assumption.
Qed.

Definition same_set {A} (l1 l2 : list A) : Prop := forall x, In x l1 <-> In x l2.

Lemma voted_same l1 l2 s : same_set l1 l2 -> voted l1 s = voted l2 s.
Proof.
  intros H. unfold voted. apply eq_true_iff_eq. rewrite !existsb_exists.
  split; intros [e [He E]]; exists e; split; try exact E; apply H; exact He.
Qed.
Lemma allcom_same l1 l2 s : same_set l1 l2 -> allcom l1 s = allcom l2 s.
Proof.
  intros H. unfold allcom. apply eq_true_iff_eq. rewrite !forallb_forall.
  split; intros Ha e He; apply Ha; apply H; exact He.
Qed.

Record js_equiv (a b : justifier) : Prop := mkEq {
  eq_pq : j_pq a = j_pq b; eq_tv : j_tv a = j_tv b; eq_tw : j_tw a = j_tw b;
  eq_votes : forall s, lookup_vote (j_votes a) s = lookup_vote (j_votes b) s;
  eq_len : length (j_votes a) = length (j_votes b);
  eq_com : j_com a = j_com b; eq_comw : j_comw a = j_comw b; eq_jw : j_jw a = j_jw b }.

Lemma js_equiv_summarize a b : js_equiv a b -> summarize a = summarize b.
Proof. intros [E1 E2 E3 E4 E5 E6 E7 E8]. unfold summarize. rewrite E1, E2, E3, E5, E6, E7, E8. reflexivity. Qed.

Theorem tally_order_independent_lemma w pq tv tw l1 l2 :
  weighed w l1 -> weighed w l2 -> same_set l1 l2 ->
  js_equiv (tally_votes pq tv tw l1) (tally_votes pq tv tw l2).
Proof.
  intros W1 W2 Hs. rewrite !tally_votes_fold.
  destruct (fold_spec w pq tv tw l1 W1) as [S1 [[N1 [C1 [CW1 J1]]] [P1 [T1 TW1]]]].
  destruct (fold_spec w pq tv tw l2 W2) as [S2 [[N2 [C2 [CW2 J2]]] [P2 [T2 TW2]]]].
  assert (Hl : forall s, lookup_vote (j_votes (fold_left step l1 (new_js pq tv tw))) s =
                         lookup_vote (j_votes (fold_left step l2 (new_js pq tv tw))) s).
  { intros s. rewrite S1, S2, (voted_same l1 l2 s Hs), (allcom_same l1 l2 s Hs). reflexivity. }
  pose proof (votes_perm _ _ N1 N2 Hl) as Hp.
  assert (Hsum : forall f, sumf f (j_votes (fold_left step l1 (new_js pq tv tw))) =
                            sumf f (j_votes (fold_left step l2 (new_js pq tv tw)))).
  { intros f. unfold sumf. apply sumN_perm. apply Permutation_map. exact Hp. }
  constructor; [congruence | congruence | congruence | exact Hl | exact (Permutation_length Hp)
               | rewrite C1, C2; apply Hsum | rewrite CW1, CW2; apply Hsum | rewrite J1, J2; apply Hsum].
Qed.

Definition vote_of (c : cfg) (x : blk) : N * (bool * N) := (b_signer x, (b_com x, weight_of c (b_signer x))).

Lemma tally_as_votes c pq seg : tally c pq seg = tally_votes pq (thr_votes c) (thr_weight c) (map (vote_of c) seg).
Proof.
  unfold tally, tally_votes. generalize (new_js pq (thr_votes c) (thr_weight c)) as js.
  induction seg as [|x seg IH]; intros js; cbn; [reflexivity|]. apply IH.
Qed.

Lemma weighed_blocks c seg : weighed (weight_of c) (map (vote_of c) seg).
Proof. intros e He. apply in_map_iff in He. destruct He as [x [<- _]]. reflexivity. Qed.

(* two block lists whose (signer, COM) pairs form the same set tally alike *)
Theorem tally_blocks_order_independent c pq seg1 seg2 :
  same_set (map (vote_of c) seg1) (map (vote_of c) seg2) ->
  js_equiv (tally c pq seg1) (tally c pq seg2).
Proof.
  intros Hs. rewrite !tally_as_votes.
  apply (tally_order_independent_lemma (weight_of c)); [apply weighed_blocks | apply weighed_blocks | exact Hs].
Qed.

(* the cache-hit path of computeState: the parent's justifier (built from the same blocks in whatever order) plus the
   new block, against the rebuild from the checkpoint (block first, then its ancestors) *)
Theorem incremental_eq_scratch_lemma c pq segp segp' b :
  same_set segp segp' ->
  js_equiv (add_blk c (tally c pq segp') b) (tally c pq (b :: segp)).
Proof.
  intros Hs.
  assert (E : add_blk c (tally c pq segp') b = tally c pq (segp' ++ [b])).
  { unfold tally. rewrite fold_left_app. reflexivity. }
  rewrite E. apply tally_blocks_order_independent.
  intros e. rewrite map_app, in_app_iff. cbn. rewrite !in_map_iff.
  split.
  - intros [[x [<- Hx]]|[<-|[]]]; [right; exists x; split; [reflexivity | apply Hs; exact Hx] | left; reflexivity].
  - intros [<-|[x [<- Hx]]]; [right; left; reflexivity | left; exists x; split; [reflexivity | apply Hs; exact Hx]].
Qed.

Lemma spec_in w l vs s v : NoDup (keys vs) -> spec_votes w l vs -> In (s, v) vs ->
  voted l s = true /\ v = mkV (allcom l s) (w s).
Proof.
  intros Hnd Hs Hin. pose proof (in_lookup _ _ _ Hnd Hin) as Hl. rewrite Hs in Hl.
  destruct (voted l s); [inversion Hl; split; reflexivity | discriminate].
Qed.

Lemma spec_keys w l vs : NoDup (keys vs) -> spec_votes w l vs -> forall s, In s (keys vs) <-> voted l s = true.
Proof.
  intros Hnd Hs s. split.
  - intros Hin. unfold keys in Hin. apply in_map_iff in Hin. destruct Hin as [[k v] [<- Hin]].
    exact (proj1 (spec_in _ _ _ _ _ Hnd Hs Hin)).
  - intros Hv. specialize (Hs s). rewrite Hv in Hs. apply lookup_some_in in Hs. apply (in_map fst) in Hs. exact Hs.
Qed.

Lemma sumf_as_keys (vs : list (N * vote)) (w : N -> N) :
  (forall s v, In (s, v) vs -> v_w v = w s) -> sumf v_w vs = sumw w (keys vs).
Proof.
  intros H. unfold sumf, sumw, keys. rewrite map_map. f_equal. apply map_ext_in. intros [s v] Hin. exact (H s v Hin).
Qed.

Lemma sumf_keys_le (f : N -> N) (v1 v2 : list (N * vote)) :
  NoDup (keys v1) -> incl (keys v1) (keys v2) ->
  (forall s x, In (s, x) v1 -> v_w x = f s) -> (forall s y, In (s, y) v2 -> v_w y = f s) ->
  sumf v_w v1 <= sumf v_w v2.
Proof. intros N1 Hk W1 W2. rewrite (sumf_as_keys _ f W1), (sumf_as_keys _ f W2). apply sumw_incl; assumption. Qed.

(* adding blocks to the fed set never un-justifies: quality of the summary is monotone in the set *)
Theorem justified_monotone_lemma c pq seg1 seg2 :
  incl (map (vote_of c) seg1) (map (vote_of c) seg2) ->
  s_just (summarize (tally c pq seg1)) = true -> s_just (summarize (tally c pq seg2)) = true.
Proof.
  intros Hi. rewrite !tally_as_votes, !tally_votes_fold.
  set (l1 := map (vote_of c) seg1). set (l2 := map (vote_of c) seg2).
  destruct (fold_spec (weight_of c) pq (thr_votes c) (thr_weight c) l1 (weighed_blocks c seg1)) as [S1 [[N1 [_ [_ J1]]] [_ [T1 TW1]]]].
  destruct (fold_spec (weight_of c) pq (thr_votes c) (thr_weight c) l2 (weighed_blocks c seg2)) as [S2 [[N2 [_ [_ J2]]] [_ [T2 TW2]]]].
  fold l1 in S1, N1, J1, T1, TW1. fold l2 in S2, N2, J2, T2, TW2.
  set (j1 := fold_left step l1 _) in *. set (j2 := fold_left step l2 _) in *.
  assert (Hv : forall s, voted l1 s = true -> voted l2 s = true).
  { intros s. unfold voted. rewrite !existsb_exists. intros [e [He E]]. exists e. split; [apply Hi; exact He | exact E]. }
  assert (Hk : incl (keys (j_votes j1)) (keys (j_votes j2))).
  { intros s Hs. apply (spec_keys _ _ _ N2 S2). apply Hv. apply (spec_keys _ _ _ N1 S1). exact Hs. }
  unfold summarize. cbn [s_just]. rewrite T1, T2, TW1, TW2.
  destruct (thr_weight c =? 0).
  - intros H. apply N.ltb_lt in H. apply N.ltb_lt.
    pose proof (NoDup_incl_length N1 Hk) as Hl. unfold keys in Hl. rewrite !map_length in Hl. lia.
  - intros H. apply N.ltb_lt in H. apply N.ltb_lt. rewrite J1 in H. rewrite J2.
    assert (Hle : sumf v_w (j_votes j1) <= sumf v_w (j_votes j2)).
    { apply (sumf_keys_le (weight_of c)); try assumption; intros s x Hin.
      - rewrite (proj2 (spec_in _ _ _ _ _ N1 S1 Hin)). reflexivity.
      - rewrite (proj2 (spec_in _ _ _ _ _ N2 S2 Hin)). reflexivity. }
    lia.
Qed.

Lemma sumf_le f g vs : (forall v, f v <= g v) -> sumf f vs <= sumf g vs.
Proof. intros H. unfold sumf. induction vs as [|[k v] vs IH]; cbn; [lia|]. specialize (H v). lia. Qed.

Lemma sumf_one_le_length vs : sumf f_one vs <= N.of_nat (length vs).
Proof. unfold sumf, f_one. induction vs as [|[k v] vs IH]; cbn [map sumN length snd]; [lia|]. destruct (v_com v); lia. Qed.

(* COM votes are votes *)
Theorem committed_implies_justified_lemma c pq seg :
  s_comm (summarize (tally c pq seg)) = true -> s_just (summarize (tally c pq seg)) = true.
Proof.
  rewrite tally_as_votes, tally_votes_fold.
  destruct (fold_spec (weight_of c) pq (thr_votes c) (thr_weight c) _ (weighed_blocks c seg)) as [_ [[_ [C [CW J]]] _]].
  set (j := fold_left step _ _) in *. unfold summarize. cbn [s_comm s_just].
  destruct (j_tw j =? 0); intros H; apply N.ltb_lt in H; apply N.ltb_lt.
  - pose proof (sumf_one_le_length (j_votes j)). lia.
  - assert (sumf f_comw (j_votes j) <= sumf v_w (j_votes j)).
    { apply sumf_le. intros v. unfold f_comw. destruct (v_com v); lia. }
    lia.
Qed.

Lemma summarize_quality js : s_q (summarize js) = if s_just (summarize js) then j_pq js + 1 else j_pq js.
Proof. unfold summarize. cbn. reflexivity. Qed.

Lemma tally_pq c pq seg : j_pq (tally c pq seg) = pq.
Proof.
  rewrite tally_as_votes, tally_votes_fold.
  destruct (fold_spec (weight_of c) pq (thr_votes c) (thr_weight c) _ (weighed_blocks c seg)) as [_ [_ [P _]]]. exact P.
Qed.
