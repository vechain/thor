(* EVM/ProofsRun.v — properties of the interpreter model for ALL programs, worlds and inputs:
   gas never increases and every non-halting iteration costs at least 1 (so fuel = gas + 1 suffices, and more fuel changes
   nothing), a static frame changes nothing at any depth and no frame lowers the refund counter (world_le), a failing frame
   returns the world it was entered with.  Each is proved for one iteration (step_gas, step_world, step_mono) and iterated. *)
From Coq Require Import ZArith List Bool Lia.
From Verif Require Import EVM.Word EVM.ProofsALU EVM.Model EVM.ProofsGas.
Import ListNotations.
Open Scope Z_scope.

Definition stack_ok (st : list Z) : Prop := Forall in_word st.
Definition inv (s : mstate) : Prop := stack_ok (s_stack s) /\ 0 <= s_msize s /\ 0 <= s_gas s.

Lemma wrap_in_word v : in_word (wrap v).
Proof. unfold in_word. rewrite wrap_mod. apply Z.mod_pos_bound. exact W_pos. Qed.
Lemma in_word_0 : in_word 0. Proof. pose proof W_pos. unfold in_word. lia. Qed.
Lemma in_word_1 : in_word 1. Proof. pose proof W_half. pose proof HALF_pos. unfold in_word. lia. Qed.
Lemma nthz_ok st : stack_ok st -> forall i, in_word (nthz st i).
Proof.
  induction 1 as [|x t Hx Ht IH]; intros i; cbn [nthz]. apply in_word_0.
  destruct (i <=? 0); auto.
Qed.
Lemma dropz_ok st : stack_ok st -> forall n, stack_ok (dropz n st).
Proof.
  induction 1 as [|x t Hx Ht IH]; intros n; cbn [dropz]. constructor.
  destruct (n <=? 0). constructor; auto. apply IH.
Qed.
Lemma takez_ok st : stack_ok st -> forall n, stack_ok (takez n st).
Proof.
  induction 1 as [|x t Hx Ht IH]; intros n; cbn [takez]. constructor.
  destruct (n <=? 0). constructor. constructor; auto. apply IH.
Qed.
Lemma pushw_ok v st : stack_ok st -> stack_ok (pushw v st).
Proof. intros. constructor; auto using wrap_in_word. Qed.
Lemma swap_ok st n : stack_ok st -> stack_ok (nthz st n :: takez (n - 1) (dropz 1 st) ++ nthz st 0 :: dropz (n + 1) st).
Proof.
  intros H. constructor. apply nthz_ok; auto. apply Forall_app. split.
  apply takez_ok, dropz_ok; auto. constructor. apply nthz_ok; auto. apply dropz_ok; auto.
Qed.

Definition halting (i : instr) : bool := match i with I_STOP | I_RETURN | I_REVERT => true | _ => false end.

Ltac inv_some :=
  repeat match goal with
  | H : Some _ = Some _ |- _ => inversion H; subst; clear H
  | H : None = Some _ |- _ => discriminate H
  | H : oadd _ _ = Some _ |- _ => apply oadd_some in H; destruct H as (? & ? & ?); subst
  end.

(* w' comes after w in a frame of which P says that it must not write: the same world if P holds, and in any case the
   refund counter (statedb.AddRefund: 15000 from gasSStore, 24000 from gasSuicide, nothing else touches it) has not gone down *)
Definition world_le (P : Prop) (w w' : world) : Prop := (P -> w' = w) /\ w_refund w <= w_refund w'.

Lemma world_le_refl P w : world_le P w w.
Proof. split; [reflexivity|lia]. Qed.
Lemma world_le_trans P w1 w2 w3 : world_le P w1 w2 -> world_le P w2 w3 -> world_le P w1 w3.
Proof. intros (E1 & L1) (E2 & L2). split; [intros p; rewrite (E2 p); exact (E1 p)|lia]. Qed.
Lemma world_le_weaken (P Q : Prop) w w' : (Q -> P) -> world_le P w w' -> world_le Q w w'.
Proof. intros I (E & L). split; [intros q; exact (E (I q))|exact L]. Qed.

Lemma transfer_zero w a b : transfer w a b 0 = w.
Proof. reflexivity. Qed.
Lemma transfer_refund w a b v : w_refund (transfer w a b v) = w_refund w.
Proof. unfold transfer. destruct (v =? 0); reflexivity. Qed.
Lemma selfdestruct_refund w self recv : w_refund (selfdestruct w self recv) = w_refund w.
Proof.
  unfold selfdestruct. cbv zeta.
  destruct (balance w self =? 0) eqn:Eb.
  - destruct (exists_acct w self); reflexivity.
  - match goal with |- context [if ?c then _ else _] => destruct c end; reflexivity.
Qed.
Lemma set_code_refund w a c : w_refund (set_code w a c) = w_refund w.
Proof. reflexivity. Qed.

(* the gas table: what it does to the world, and (for 256-bit stack entries) what it charges.  Every row is a constant >= 1
   (0 only for STOP / RETURN / REVERT, which halt) or mem_gas plus non-negative terms.  The last clause is what lets step_gas
   give a callee less gas than its caller has: a call row is 700 + extras + callee gas, and a call with value pays 9000 among
   the extras, which covers the 2300 stipend (params.CallStipend) that exec_call adds to the callee's gas. *)
Lemma gas_cost_spec cx s i n cost cg w' :
  gas_cost cx s i n = Some (cost, cg, w') ->
  world_le (writes i = false) (s_world s) w' /\
  (stack_ok (s_stack s) -> 0 <= s_msize s ->
   0 <= cost /\ 0 <= cg /\ (halting i = false -> 1 <= cost) /\
   (forall k, i = I_CALLI k -> 700 + (if call_value k (s_stack s) =? 0 then 0 else 2300) <= cost - cg)).
Proof.
  intros H.
  assert (B : stack_ok (s_stack s) -> 0 <= s_msize s ->
            (forall g, mem_gas (s_msize s) n = Some g -> 0 <= g) /\
            (forall j, 0 <= nthz (s_stack s) j /\ 0 <= to_words (nthz (s_stack s) j))).
  { intros Hst Hm. split; [intros; eapply mem_gas_nonneg; eauto|].
    intros j. pose proof (nthz_ok _ Hst j) as [Hj _]. split; [exact Hj|apply to_words_nonneg, Hj]. }
  destruct i; cbn [gas_cost halting writes] in H |- *;
    try discriminate;
    repeat match goal with
    | H : context [match ?x with _ => _ end] |- _ => destruct x eqn:?
    end; inv_some;
    (split; [first [apply world_le_refl|split; [discriminate|cbn [add_refund w_refund]; lia]]|]);
    intros Hst Hm; destruct (B Hst Hm) as (Hmg & Hn);
    pose proof (Hn 0) as (H0 & _); pose proof (Hn 1) as (H1 & Hw1); pose proof (Hn 2) as (H2 & Hw2); pose proof (Hn 3) as (H3 & Hw3);
    try match goal with Hq : mem_gas _ _ = Some ?g |- _ => pose proof (Hmg _ Hq) end;
    try (specialize (Hmg _ eq_refl));
    try (repeat split; try lia; try (intros; discriminate); try (intros ? ?; discriminate); fail).
  all: try (match goal with |- context [alu_gas ?a ?st] => pose proof (alu_gas_pos a st) end; repeat split; try lia; intros; discriminate).
  all: match goal with |- context [call_gas ?a ?b ?c] => pose proof (call_gas_nonneg a b c H0) end;
    repeat split; try lia; intros k0 Hk; inversion Hk; subst;
    destruct (call_value _ (s_stack s) =? 0) eqn:E;
    repeat match goal with Hq : context [call_value _ _ =? 0] |- _ => rewrite E in Hq end;
    cbn [negb andb] in *; try discriminate; lia.
Qed.

Lemma pre_ok_inv E cx s i s1 cg : pre E cx s = P_ok i s1 cg ->
  exists need cost w' mem' msize',
    (c_static cx && (writes i || (match i with I_CALLI K_CALL => negb (nthz (s_stack s) 2 =? 0) | _ => false end))) = false /\
    gas_cost cx s i (to_words need * 32) = Some (cost, cg, w') /\ cost <= s_gas s /\
    (msize' = s_msize s \/ s_msize s < msize') /\
    s1 = mkSt (s_pc s) (s_stack s) mem' msize' (s_gas s - cost) (s_ret s) w' (s_cc s).
Proof.
  unfold pre. destruct (decode_at _ _) as [i0|]; [|discriminate].
  destruct (stack_req i0) as [pops pushes].
  destruct (_ <? pops); [discriminate|]. destruct (1024 <? _); [discriminate|].
  destruct (c_static cx && _) eqn:Hst; [discriminate|]. destruct (unsupported i0 _); [discriminate|].
  destruct (mem_req i0 _) as [need|]; [|discriminate]. cbv zeta.
  destruct (W64 <=? _); [discriminate|].
  destruct (gas_cost cx s i0 _) as [[[cost cg0] w']|] eqn:Hgc; [|discriminate].
  destruct (Z.ltb_spec (s_gas s) cost) as [|Hle]; [discriminate|].
  intros H. inversion H; subst. exists need, cost, w'. eexists. eexists.
  split; [exact Hst|]. split; [exact Hgc|]. split; [assumption|]. split; [|reflexivity].
  destruct ((0 <? _) && (s_msize s <? _)) eqn:Hg; [right|left; reflexivity].
  apply andb_prop in Hg. destruct Hg as [_ Hg]. apply Z.ltb_lt in Hg. exact Hg.
Qed.

Lemma pre_halt E cx s r : pre E cx s = P_halt r ->
  exists res, r = S_halt res /\ r_world res = s_world s /\ r_gas res = s_gas s /\ r_out res <> O_fuel.
Proof.
  assert (Hh : forall o, o <> O_fuel -> exists res, halt o [] s = S_halt res /\ r_world res = s_world s /\ r_gas res = s_gas s /\ r_out res <> O_fuel).
  { intros o Ho. eexists. split; [reflexivity|]. cbn. auto. }
  unfold pre, fail. intros H.
  repeat match type of H with
  | (match ?x with _ => _ end) = _ => destruct x
  | (let '(_, _) := ?x in _) = _ => destruct x
  end; inversion H; apply Hh; discriminate.
Qed.

Lemma pre_ok E cx s i s1 cg : inv s -> pre E cx s = P_ok i s1 cg ->
  inv s1 /\ s_stack s1 = s_stack s /\
  (exists cost, s_gas s1 = s_gas s - cost /\ 0 <= cost <= s_gas s /\ 0 <= cg /\
                (halting i = false -> 1 <= cost) /\
                (forall k, i = I_CALLI k -> 700 + (if call_value k (s_stack s) =? 0 then 0 else 2300) <= cost - cg)).
Proof.
  intros (Hst & Hm & Hg) H. destruct (pre_ok_inv _ _ _ _ _ _ H) as (need & cost & w' & mem' & msize' & _ & Hgc & Hle & Hms & ->).
  destruct (proj2 (gas_cost_spec _ _ _ _ _ _ _ Hgc) Hst Hm) as (B1 & B2 & B3 & B4).
  unfold inv. cbn [s_stack s_msize s_gas]. repeat split; auto; try lia. exists cost. repeat split; auto; lia.
Qed.

(* the static flag lets through only instructions that do not write, and a CALL only without value *)
Lemma pre_world E cx s i s1 cg : pre E cx s = P_ok i s1 cg ->
  world_le (writes i = false) (s_world s) (s_world s1) /\
  (c_static cx = true -> writes i = false /\ (i = I_CALLI K_CALL -> call_value K_CALL (s_stack s1) = 0)).
Proof.
  intros H. destruct (pre_ok_inv _ _ _ _ _ _ H) as (need & cost & w' & mem' & msize' & Hw & Hgc & _ & _ & ->).
  cbn [s_world s_stack]. split; [exact (proj1 (gas_cost_spec _ _ _ _ _ _ _ Hgc))|].
  intros Hs. rewrite Hs in Hw. apply orb_false_elim in Hw. destruct Hw as [Hw Hv].
  split; [exact Hw|]. intros ->. apply negb_false_iff, Z.eqb_eq in Hv. exact Hv.
Qed.

Lemma exec_plain_spec E cx i s :
  match exec_plain E cx i s with
  | S_next s2 => world_le (writes i = false) (s_world s) (s_world s2) /\ s_cc s2 = s_cc s /\
                 s_gas s2 = s_gas s /\ s_msize s2 = s_msize s /\ (stack_ok (s_stack s) -> stack_ok (s_stack s2)) /\
                 halting i = false
  | S_halt r => world_le (writes i = false) (s_world s) (r_world r) /\ r_gas r = s_gas s /\ r_out r <> O_fuel /\ r_cc r = s_cc s
  end.
Proof.
  destruct i; cbn [exec_plain]; unfold next, next_mem, halt, fail, upd;
    repeat match goal with
    | |- context [if ?c then _ else _] => destruct c
    | |- context [match keccak ?e ?d with _ => _ end] => destruct (keccak e d)
    end;
    cbn [s_world s_cc s_gas s_msize s_stack r_world r_gas r_out r_cc halting writes];
    repeat split; try reflexivity; try discriminate; try (intros; reflexivity); try (rewrite ?selfdestruct_refund; apply Z.le_refl);
    intros Hst; auto using pushw_ok, swap_ok, dropz_ok.
Qed.

Theorem alu_step_math E cx op s : stack_ok (s_stack s) ->
  exec_plain E cx (I_ALU op) s =
  next s (pushw (m_alu op (nthz (s_stack s) 0) (nthz (s_stack s) 1) (nthz (s_stack s) 2)) (dropz (alu_arity op) (s_stack s))).
Proof.
  intros H. cbn [exec_plain]. rewrite alu_matches_math_lemma by (apply nthz_ok; assumption). reflexivity.
Qed.

Lemma initial_inv gas w cc : 0 <= gas -> inv (mkSt 0 [] [] 0 gas [] w cc).
Proof. intros. unfold inv. cbn. repeat split; try lia. constructor. Qed.

(* what a failed callee frame leaves of its result (RevertToSnapshot; only REVERT keeps data and gas); shared by do_call
   and do_create *)
Definition frame_ret (w : world) (r : fres) : fres :=
  match r_out r with
  | O_ok => r
  | O_revert => mkRes O_revert (r_data r) (r_gas r) w (r_cc r)
  | O_err e => mkRes (O_err e) [] 0 w (r_cc r)
  | O_unsupported => mkRes O_unsupported [] 0 w (r_cc r)
  | O_fuel => mkRes O_fuel [] 0 w (r_cc r)
  end.

Lemma frame_ret_out w r : r_out (frame_ret w r) = r_out r.
Proof. unfold frame_ret. destruct (r_out r) eqn:E; cbn; congruence. Qed.
Lemma frame_ret_failed w r : r_out r <> O_ok -> r_world (frame_ret w r) = w.
Proof. unfold frame_ret. destruct (r_out r); cbn; congruence. Qed.
Lemma frame_ret_gas w r : 0 <= r_gas r -> 0 <= r_gas (frame_ret w r) <= r_gas r.
Proof. unfold frame_ret. destruct (r_out r); cbn; lia. Qed.
Lemma frame_ret_world P w r : world_le P w (r_world r) -> world_le P w (r_world (frame_ret w r)).
Proof. intros H. unfold frame_ret. destruct (r_out r); cbn; auto using world_le_refl. Qed.

(* what do_call does before it needs the interpreter: it answers at once (depth, balance, precompile, no account, no code),
   or it enters the callee's frame, in the world w1 after the value transfer *)
Lemma do_call_view E self cs vs static d k to v args gas w cc :
  let w1 := match k with K_CALL => transfer w self to v | _ => w end in
  (exists r, (forall runf, do_call runf E self cs vs static d k to v args gas w cc = r) /\
             r_out r <> O_fuel /\ r_gas r = gas /\ (r_world r = w \/ r_out r = O_ok /\ r_world r = w1)) \/
  (exists cx', (static = true \/ k = K_STATIC -> c_static cx' = true) /\
               forall runf, do_call runf E self cs vs static d k to v args gas w cc =
                            frame_ret w (runf cx' (mkSt 0 [] [] 0 gas [] w1 cc))).
Proof.
  intros w1.
  assert (Hnow : forall o w', o <> O_fuel -> w' = w \/ o = O_ok /\ w' = w1 ->
            exists r, (forall runf : ctx -> mstate -> fres, mkRes o [] gas w' cc = r) /\ r_out r <> O_fuel /\ r_gas r = gas /\
                      (r_world r = w \/ r_out r = O_ok /\ r_world r = w1)).
  { intros o w' Ho Hw. eexists. split; [reflexivity|]. cbn. auto. }
  unfold do_call. cbv zeta. fold w1.
  destruct (1024 <? d); [left; apply Hnow; [discriminate|auto]|].
  destruct (_ && (balance w self <? v)); [left; apply Hnow; [discriminate|auto]|].
  destruct (precompile E to); [left; apply Hnow; [discriminate|auto]|].
  destruct (_ && negb (exists_acct w to) && (v =? 0)); [left; apply Hnow; [discriminate|auto]|].
  destruct (code_of _ to); [left; apply Hnow; [discriminate|auto]|].
  right. eexists. split; [|reflexivity]. intros [->| ->]; [destruct k|]; reflexivity.
Qed.

Lemma do_call_failed runf E self cs vs static d k to v args gas w cc :
  let r := do_call runf E self cs vs static d k to v args gas w cc in
  r_out r <> O_ok -> r_world r = w.
Proof.
  cbv zeta. destruct (do_call_view E self cs vs static d k to v args gas w cc) as [(r & Er & _ & _ & Hw)|(cx' & _ & Er)]; rewrite Er.
  - destruct Hw as [H|[H _]]; [auto|contradiction].
  - rewrite frame_ret_out. apply frame_ret_failed.
Qed.

Lemma do_call_world runf E self cs vs static d k to v args gas w cc :
  (forall cx' s', world_le (c_static cx' = true) (s_world s') (r_world (runf cx' s'))) ->
  world_le ((static = true \/ k = K_STATIC) /\ (k = K_CALL -> v = 0)) w
           (r_world (do_call runf E self cs vs static d k to v args gas w cc)).
Proof.
  intros Hrun. set (P := (static = true \/ k = K_STATIC) /\ (k = K_CALL -> v = 0)).
  assert (Hw1 : world_le P w (match k with K_CALL => transfer w self to v | _ => w end)).
  { destruct k; try apply world_le_refl. split; [|rewrite transfer_refund; lia].
    intros (_ & Hv). rewrite (Hv eq_refl). apply transfer_zero. }
  destruct (do_call_view E self cs vs static d k to v args gas w cc) as [(r & Er & _ & _ & Hw)|(cx' & Hs & Er)]; rewrite Er.
  - destruct Hw as [->|[_ ->]]; [apply world_le_refl|exact Hw1].
  - apply frame_ret_world. eapply world_le_trans; [exact Hw1|].
    eapply world_le_weaken; [intros (p & _); exact (Hs p)|]. apply (Hrun cx' (mkSt 0 [] [] 0 gas [] _ cc)).
Qed.

Lemma do_call_gas runf E self cs vs static d k to v args gas w cc (F : Z) :
  (forall cx' s', inv s' -> s_gas s' < F ->
     r_out (runf cx' s') <> O_fuel /\ 0 <= r_gas (runf cx' s') <= s_gas s') ->
  0 <= gas < F ->
  let r := do_call runf E self cs vs static d k to v args gas w cc in
  r_out r <> O_fuel /\ 0 <= r_gas r <= gas.
Proof.
  intros Hrun Hg. cbv zeta.
  destruct (do_call_view E self cs vs static d k to v args gas w cc) as [(r & Er & Ho & Hr & _)|(cx' & _ & Er)]; rewrite Er.
  - split; [exact Ho|lia].
  - rewrite frame_ret_out.
    match goal with |- context [runf cx' ?s0] => destruct (Hrun cx' s0) as (H1 & H2); [apply initial_inv, Hg|apply Hg|] end.
    split; [exact H1|]. pose proof (frame_ret_gas w _ (proj1 H2)). cbn [s_gas] in H2. lia.
Qed.

(* the creation's own tail: the deposit checks and SetCode on success, frame_ret otherwise *)
Definition deploy (E : env) (addr : Z) (w : world) (r : fres) : fres :=
  match r_out r with
  | O_ok =>
      let ret := r_data r in
      if 24576 <? zlen ret then mkRes (O_err E_codesize) [] 0 w (r_cc r)
      else if (3 <=? e_fork E) && negb (is_nil ret) && (nthz ret 0 =? 239) then mkRes (O_err E_invalidcode) [] 0 w (r_cc r)
      else if r_gas r <? zlen ret * 200 then mkRes (O_err E_codestore) [] 0 w (r_cc r)
      else mkRes O_ok [] (r_gas r - zlen ret * 200) (set_code (r_world r) addr ret) (r_cc r)
  | _ => frame_ret w r
  end.

Lemma zlen_nonneg {A} (l : list A) : 0 <= zlen l.
Proof. induction l; cbn [zlen]; lia. Qed.

Lemma deploy_fuel E addr w r : r_out (deploy E addr w r) = O_fuel <-> r_out r = O_fuel.
Proof.
  unfold deploy. pose proof (frame_ret_out w r) as H. destruct (r_out r) eqn:Ho; try (rewrite H; reflexivity).
  repeat match goal with |- context [if ?c then _ else _] => destruct c end; cbn; split; discriminate.
Qed.
Lemma deploy_failed E addr w r : r_out (deploy E addr w r) <> O_ok -> r_world (deploy E addr w r) = w.
Proof.
  unfold deploy. pose proof (frame_ret_out w r) as H. pose proof (frame_ret_failed w r) as H'.
  destruct (r_out r) eqn:Ho; try (intros _; apply H'; discriminate).
  repeat match goal with |- context [if ?c then _ else _] => destruct c end; cbn; congruence.
Qed.
Lemma deploy_gas E addr w r : 0 <= r_gas r -> 0 <= r_gas (deploy E addr w r) <= r_gas r.
Proof.
  intros Hg. unfold deploy. pose proof (frame_ret_gas w r Hg). pose proof (zlen_nonneg (r_data r)).
  destruct (r_out r); try assumption.
  repeat match goal with |- context [if ?c then _ else _] => destruct c eqn:? end; cbn [r_gas]; lia.
Qed.
Lemma deploy_refund E addr w r : w_refund w <= w_refund (r_world r) -> w_refund w <= w_refund (r_world (deploy E addr w r)).
Proof.
  intros Hr. unfold deploy. pose proof (frame_ret_world False w r (conj (False_ind _) Hr)) as [_ H].
  destruct (r_out r); try assumption.
  repeat match goal with |- context [if ?c then _ else _] => destruct c end; cbn [r_world]; rewrite ?set_code_refund; lia.
Qed.

(* do_create answers at once (depth, balance, collision), or runs the init code (unless it is empty) in the world w1 with the
   new account and the value, and deploys *)
Lemma do_create_view E self static d addr init v gas w cc :
  (exists r, (forall runf, do_create runf E self static d addr init v gas w cc = r) /\
             r_out r <> O_fuel /\ r_out r <> O_ok /\ (r_gas r = gas \/ r_gas r = 0) /\ r_world r = w) \/
  (exists cx' w1 cc1, w_refund w1 = w_refund w /\
     forall runf, do_create runf E self static d addr init v gas w cc =
                  deploy E addr w (match init with [] => mkRes O_ok [] gas w1 cc1 | _ => runf cx' (mkSt 0 [] [] 0 gas [] w1 cc1) end)).
Proof.
  unfold do_create.
  destruct (1024 <? d); [left; eexists; split; [reflexivity|cbn; repeat split; auto; discriminate]|].
  destruct (balance w self <? v); [left; eexists; split; [reflexivity|cbn; repeat split; auto; discriminate]|].
  destruct (negb (is_nil (code_of w addr))); [left; eexists; split; [reflexivity|cbn; repeat split; auto; discriminate]|].
  right. exists (mkCtx addr self v init (zlen init) [] static (d + 1)),
    (transfer (add_log (set_master w addr) (mkLog addr [e_master_topic E] (word_bytes self))) self addr v), (cc + 1).
  split; [rewrite transfer_refund; reflexivity|].
  intros runf. cbv zeta. unfold deploy, frame_ret. destruct (r_out _); reflexivity.
Qed.

Lemma do_create_failed runf E self static d addr init v gas w cc :
  let r := do_create runf E self static d addr init v gas w cc in
  r_out r <> O_ok -> r_world r = w.
Proof.
  cbv zeta. destruct (do_create_view E self static d addr init v gas w cc) as [(r & Er & _ & _ & _ & Hw)|(cx' & w1 & cc1 & _ & Er)];
    rewrite Er; [intros _; exact Hw|apply deploy_failed].
Qed.

Lemma do_create_gas runf E self static d addr init v gas w cc (F : Z) :
  (forall cx' s', inv s' -> s_gas s' < F ->
     r_out (runf cx' s') <> O_fuel /\ 0 <= r_gas (runf cx' s') <= s_gas s') ->
  0 <= gas < F ->
  let r := do_create runf E self static d addr init v gas w cc in
  r_out r <> O_fuel /\ 0 <= r_gas r <= gas.
Proof.
  intros Hrun Hg. cbv zeta.
  destruct (do_create_view E self static d addr init v gas w cc) as [(r & Er & Ho & _ & Hr & _)|(cx' & w1 & cc1 & _ & Er)]; rewrite Er.
  - split; [exact Ho|lia].
  - rewrite deploy_fuel.
    match goal with |- r_out ?x <> _ /\ _ => assert (Hr : r_out x <> O_fuel /\ 0 <= r_gas x <= gas) end.
    { destruct init; [cbn; split; [discriminate|lia]|].
      apply (Hrun cx' _ (initial_inv gas w1 cc1 (proj1 Hg)) (proj2 Hg)). }
    split; [apply Hr|]. pose proof (deploy_gas E addr w _ (proj1 (proj2 Hr))). lia.
Qed.

(* creation is a write: nothing is claimed under the static flag (pre rejects CREATE there) *)
Lemma do_create_world runf E self static d addr init v gas w cc :
  (forall cx' s', world_le (c_static cx' = true) (s_world s') (r_world (runf cx' s'))) ->
  w_refund w <= w_refund (r_world (do_create runf E self static d addr init v gas w cc)).
Proof.
  intros Hrun.
  destruct (do_create_view E self static d addr init v gas w cc) as [(r & Er & _ & _ & _ & Hw)|(cx' & w1 & cc1 & Hw & Er)]; rewrite Er.
  - rewrite Hw. lia.
  - apply deploy_refund. rewrite <- Hw. destruct init; [cbn; lia|]. apply (Hrun cx' (mkSt 0 [] [] 0 gas [] w1 cc1)).
Qed.

(* how step goes on after pre: with a callee frame (call, creation) or without *)
Inductive step_kind := SK_call (k : call_kind) | SK_create (two : bool) | SK_plain.
Definition kind_of (i : instr) : step_kind :=
  match i with I_CALLI k => SK_call k | I_CREATE => SK_create false | I_CREATE2 => SK_create true | _ => SK_plain end.
Lemma step_plain runf E cx s i s1 cg : pre E cx s = P_ok i s1 cg -> kind_of i = SK_plain ->
  step runf E cx s = exec_plain E cx i s1.
Proof. intros H Hn. unfold step. rewrite H. destruct i; try reflexivity; discriminate. Qed.
Lemma step_call runf E cx s k s1 cg : pre E cx s = P_ok (I_CALLI k) s1 cg ->
  step runf E cx s = exec_call runf E cx k s1 cg.
Proof. intros H. unfold step. rewrite H. reflexivity. Qed.
Lemma step_create runf E cx s i two s1 cg : pre E cx s = P_ok i s1 cg -> kind_of i = SK_create two ->
  step runf E cx s = exec_create runf E cx two s1.
Proof. intros H Hk. unfold step. rewrite H. destruct i; try discriminate; inversion Hk; reflexivity. Qed.
Lemma kind_call i k : kind_of i = SK_call k -> i = I_CALLI k.
Proof. destruct i; cbn; try discriminate. inversion 1; reflexivity. Qed.
Lemma kind_create_writes i two : kind_of i = SK_create two -> writes i = true /\ halting i = false.
Proof. destruct i; cbn; try discriminate; auto. Qed.

(* exec_call and exec_create look at the callee only through the result r of do_call / do_create (of which Q is what the
   caller knows; the callee's address and input, and a creation's address, code and value, are read off stack and memory and
   nothing here depends on them): the frame goes on with r's gas and world in place of its own, or halts (callee outside
   the model, or out of fuel) *)
Lemma exec_call_spec runf E cx k s cg (Q : fres -> Prop) :
  (forall to args,
     Q (do_call runf E (c_addr cx) (c_caller cx) (c_value cx) (c_static cx) (c_depth cx) k to (call_value k (s_stack s)) args
                (if call_value k (s_stack s) =? 0 then cg else cg + 2300) (s_world s) (s_cc s))) ->
  exists r, Q r /\
  match exec_call runf E cx k s cg with
  | S_next s2 => r_out r <> O_fuel /\ s_gas s2 = s_gas s + r_gas r /\ s_msize s2 = s_msize s /\ s_world s2 = r_world r /\
                 (stack_ok (s_stack s) -> stack_ok (s_stack s2))
  | S_halt res => r_out res = r_out r /\ r_gas res = 0 /\ r_world res = s_world s
  end.
Proof.
  intros HQ. unfold exec_call. cbv zeta.
  match goal with |- context [do_call runf E ?a ?b ?c ?d ?dd k ?t ?vv ?ar ?g ?w ?ccc] =>
    exists (do_call runf E a b c d dd k t vv ar g w ccc); split; [apply HQ|];
    set (r := do_call runf E a b c d dd k t vv ar g w ccc) end.
  assert (Hs : forall f, in_word f -> stack_ok (s_stack s) ->
                stack_ok (f :: dropz (6 + match k with K_CALL | K_CALLCODE => 1 | _ => 0 end) (s_stack s))).
  { intros f Hf Hst. constructor; [exact Hf|apply dropz_ok, Hst]. }
  destruct (r_out r) eqn:Ho; cbn [s_gas s_msize s_world s_stack r_out r_gas r_world];
    repeat split; auto using in_word_0, in_word_1; discriminate.
Qed.

Lemma exec_create_spec runf E cx two s (Q : fres -> Prop) :
  (forall addr init v,
     Q (do_create runf E (c_addr cx) (c_static cx) (c_depth cx) addr init v (s_gas s - s_gas s / 64) (s_world s) (s_cc s))) ->
  exec_create runf E cx two s = halt O_unsupported [] s \/
  exists r, Q r /\
  match exec_create runf E cx two s with
  | S_next s2 => r_out r <> O_fuel /\ s_gas s2 = s_gas s / 64 + r_gas r /\ s_msize s2 = s_msize s /\ s_world s2 = r_world r /\
                 (stack_ok (s_stack s) -> stack_ok (s_stack s2))
  | S_halt res => r_out res = r_out r /\ r_gas res = 0 /\ r_world res = s_world s
  end.
Proof.
  intros HQ. unfold exec_create. cbv zeta.
  match goal with |- context [match ?o with Some _ => _ | None => _ end] => destruct o as [addr|]; [right|left; reflexivity] end.
  match goal with |- context [do_create runf E ?a ?b ?c addr ?ini ?vv ?g ?w ?ccc] =>
    exists (do_create runf E a b c addr ini vv g w ccc); split; [apply HQ|];
    set (r := do_create runf E a b c addr ini vv g w ccc) end.
  destruct (r_out r) eqn:Ho; cbn [s_gas s_msize s_world s_stack r_out r_gas r_world];
    repeat split; try discriminate; try lia; intros Hst; apply pushw_ok, dropz_ok, Hst.
Qed.

(* every iteration that goes on costs at least 1 gas, and a callee gets less than the frame has *)
Lemma step_gas runf E cx s :
  (forall cx' s', inv s' -> s_gas s' < s_gas s ->
     r_out (runf cx' s') <> O_fuel /\ 0 <= r_gas (runf cx' s') <= s_gas s') ->
  inv s ->
  match step runf E cx s with
  | S_next s' => inv s' /\ s_gas s' < s_gas s
  | S_halt r => r_out r <> O_fuel /\ 0 <= r_gas r <= s_gas s
  end.
Proof.
  intros Hrun Hinv. destruct (pre E cx s) as [r0|i s1 cg] eqn:Hpre.
  { destruct (pre_halt _ _ _ _ Hpre) as (res & -> & _ & Hgas & Hout).
    unfold step. rewrite Hpre, Hgas. destruct Hinv as (_ & _ & Hg). split; [assumption|lia]. }
  destruct (pre_ok _ _ _ _ _ _ Hinv Hpre) as ((Hst1 & Hm1 & Hgas1) & Hstk & cost & Hg1 & Hc & Hcg & Hnh & Hcall).
  destruct (kind_of i) as [k|two|] eqn:Hic.
  - apply kind_call in Hic. subst i. rewrite (step_call _ _ _ _ _ _ _ Hpre).
    specialize (Hcall k eq_refl). rewrite <- Hstk in Hcall.
    set (gas' := if call_value k (s_stack s1) =? 0 then cg else cg + 2300).
    destruct (exec_call_spec runf E cx k s1 cg (fun r => r_out r <> O_fuel /\ 0 <= r_gas r <= gas')) as (r & (Ho & Hrg) & H).
    { intros. apply do_call_gas with (F := s_gas s); [exact Hrun|]. unfold gas'. destruct (_ =? 0); lia. }
    unfold gas' in Hrg. destruct (exec_call runf E cx k s1 cg) as [s2|res].
    + destruct H as (_ & G & M & _ & S). unfold inv. rewrite G, M. destruct (_ =? 0); repeat split; auto; lia.
    + destruct H as (O & G & _). rewrite O, G. split; [exact Ho|lia].
  - destruct (kind_create_writes _ _ Hic) as (_ & Hh). specialize (Hnh Hh).
    rewrite (step_create _ _ _ _ _ _ _ _ Hpre Hic).
    assert (Hq : 0 <= s_gas s1 / 64 <= s_gas s1). { split. apply Z.div_pos; lia. apply Z.div_le_upper_bound; lia. }
    destruct (exec_create_spec runf E cx two s1 (fun r => r_out r <> O_fuel /\ 0 <= r_gas r <= s_gas s1 - s_gas s1 / 64))
      as [->|(r & (Ho & Hrg) & H)].
    { intros. apply do_create_gas with (F := s_gas s); [exact Hrun|lia]. }
    { cbn. split; [discriminate|lia]. }
    destruct (exec_create runf E cx two s1) as [s2|res].
    + destruct H as (_ & G & M & _ & S). unfold inv. rewrite G, M. repeat split; auto; lia.
    + destruct H as (O & G & _). rewrite O, G. split; [exact Ho|lia].
  - rewrite (step_plain _ _ _ _ _ _ _ Hpre Hic). pose proof (exec_plain_spec E cx i s1) as H.
    destruct (exec_plain E cx i s1) as [s2|res].
    + destruct H as (_ & _ & G & M & S & Hh). specialize (Hnh Hh). unfold inv. rewrite G, M. repeat split; auto; lia.
    + destruct H as (_ & G & Ho & _). rewrite G. split; [exact Ho|lia].
Qed.

(* a static frame changes nothing, and no frame lowers the refund counter *)
Lemma step_world runf E cx s :
  (forall cx' s', world_le (c_static cx' = true) (s_world s') (r_world (runf cx' s'))) ->
  match step runf E cx s with
  | S_next s' => world_le (c_static cx = true) (s_world s) (s_world s')
  | S_halt r => world_le (c_static cx = true) (s_world s) (r_world r)
  end.
Proof.
  intros Hrun. destruct (pre E cx s) as [r0|i s1 cg] eqn:Hpre.
  { destruct (pre_halt _ _ _ _ Hpre) as (res & -> & Hw & _). unfold step. rewrite Hpre, Hw. apply world_le_refl. }
  destruct (pre_world _ _ _ _ _ _ Hpre) as (Hw1 & Hs).
  assert (Hw : world_le (c_static cx = true) (s_world s) (s_world s1)).
  { eapply world_le_weaken; [|exact Hw1]. intros p. apply (Hs p). }
  destruct (kind_of i) as [k|two|] eqn:Hic.
  - apply kind_call in Hic. subst i. rewrite (step_call _ _ _ _ _ _ _ Hpre).
    destruct (exec_call_spec runf E cx k s1 cg (fun r => world_le (c_static cx = true) (s_world s) (r_world r))) as (r & Hr & H).
    { intros. eapply world_le_trans; [exact Hw|]. eapply world_le_weaken; [|apply do_call_world, Hrun].
      intros p. split; [left; exact p|]. intros ->. apply (Hs p). reflexivity. }
    destruct (exec_call runf E cx k s1 cg) as [s2|res].
    + destruct H as (_ & _ & _ & -> & _). exact Hr.
    + destruct H as (_ & _ & ->). exact Hw.
  - destruct (kind_create_writes _ _ Hic) as (Hx & _). rewrite (step_create _ _ _ _ _ _ _ _ Hpre Hic).
    destruct (exec_create_spec runf E cx two s1 (fun r => w_refund (s_world s1) <= w_refund (r_world r))) as [->|(r & Hr & H)];
      [intros; apply do_create_world, Hrun|exact Hw|].
    destruct (exec_create runf E cx two s1) as [s2|res].
    + destruct H as (_ & _ & _ & -> & _). split; [intros p; destruct (Hs p); congruence|destruct Hw; lia].
    + destruct H as (_ & _ & ->). exact Hw.
  - rewrite (step_plain _ _ _ _ _ _ _ Hpre Hic). pose proof (exec_plain_spec E cx i s1) as H.
    destruct (exec_plain E cx i s1) as [s2|res]; destruct H as (H & _);
      (eapply world_le_trans; [exact Hw|]; eapply world_le_weaken; [|exact H]; intros p; apply (Hs p)).
Qed.

(* a callee that has finished is not affected by more fuel, so neither is the iteration *)
Section Mono.
  Variables runf rung : ctx -> mstate -> fres.
  Hypothesis Hsame : forall cx' s', r_out (runf cx' s') <> O_fuel -> rung cx' s' = runf cx' s'.

  Lemma do_call_mono E self cs vs static d k to v args gas w cc :
    r_out (do_call runf E self cs vs static d k to v args gas w cc) <> O_fuel ->
    do_call rung E self cs vs static d k to v args gas w cc = do_call runf E self cs vs static d k to v args gas w cc.
  Proof.
    destruct (do_call_view E self cs vs static d k to v args gas w cc) as [(r & Er & _)|(cx' & _ & Er)]; rewrite !Er; [reflexivity|].
    rewrite frame_ret_out. intros H. rewrite (Hsame _ _ H). reflexivity.
  Qed.

  Lemma do_create_mono E self static d addr init v gas w cc :
    r_out (do_create runf E self static d addr init v gas w cc) <> O_fuel ->
    do_create rung E self static d addr init v gas w cc = do_create runf E self static d addr init v gas w cc.
  Proof.
    destruct (do_create_view E self static d addr init v gas w cc) as [(r & Er & _)|(cx' & w1 & cc1 & _ & Er)]; rewrite !Er; [reflexivity|].
    rewrite deploy_fuel. destruct init; [reflexivity|]. intros H. rewrite (Hsame _ _ H). reflexivity.
  Qed.

  Lemma step_mono E cx s :
    (forall res, step runf E cx s = S_halt res -> r_out res <> O_fuel) ->
    step rung E cx s = step runf E cx s.
  Proof.
    intros Hnf. destruct (pre E cx s) as [r|i s1 cg] eqn:Hpre. { unfold step. rewrite Hpre. reflexivity. }
    destruct (kind_of i) as [k|two|] eqn:Hk.
    - apply kind_call in Hk. subst i. rewrite !(step_call _ _ _ _ _ _ _ Hpre) in *.
      unfold exec_call in *. cbv zeta in *.
      erewrite do_call_mono; [reflexivity|]. intros Hf. rewrite Hf in Hnf. exact (Hnf _ eq_refl eq_refl).
    - rewrite !(step_create _ _ _ _ _ _ _ _ Hpre Hk) in *.
      unfold exec_create in *. cbv zeta in *.
      match goal with |- context [match ?o with Some _ => _ | None => _ end] => destruct o as [addr|]; [|reflexivity] end.
      erewrite do_create_mono; [reflexivity|]. intros Hf. rewrite Hf in Hnf. exact (Hnf _ eq_refl eq_refl).
    - rewrite !(step_plain _ _ _ _ _ _ _ Hpre Hk). reflexivity.
  Qed.
End Mono.

Lemma run_gas fuel : forall E cx s, inv s -> s_gas s < Z.of_nat fuel ->
  r_out (run fuel E cx s) <> O_fuel /\ 0 <= r_gas (run fuel E cx s) <= s_gas s.
Proof.
  induction fuel as [|f IH]; intros E cx s Hinv Hlt.
  { destruct Hinv as (_ & _ & Hg). lia. }
  cbn [run]. assert (H : _) by (apply (step_gas (run f E) E cx s); [intros; apply IH; [assumption|lia]|exact Hinv]).
  destruct (step (run f E) E cx s) as [s2|res]; [|exact H].
  destruct H as (Hi2 & Hg2). destruct (IH E cx s2 Hi2) as (A & B); [lia|]. split; [exact A|lia].
Qed.

Lemma run_world fuel : forall E cx s, world_le (c_static cx = true) (s_world s) (r_world (run fuel E cx s)).
Proof.
  induction fuel as [|f IH]; intros E cx s. { apply world_le_refl. }
  cbn [run]. pose proof (step_world (run f E) E cx s (IH E)) as H.
  destruct (step (run f E) E cx s) as [s2|res]; [|exact H]. eapply world_le_trans; [exact H|apply IH].
Qed.

Lemma run_static fuel : forall E cx s, c_static cx = true -> r_world (run fuel E cx s) = s_world s.
Proof. intros E cx s. apply run_world. Qed.

Lemma run_mono f : forall E cx s, r_out (run f E cx s) <> O_fuel ->
  forall f', (f <= f')%nat -> run f' E cx s = run f E cx s.
Proof.
  induction f as [|f IH]; intros E cx s Hnf f' Hle. { cbn in Hnf. congruence. }
  destruct f' as [|g]; [lia|]. assert (Hfg : (f <= g)%nat) by lia.
  cbn [run] in *.
  assert (Hstep : step (run g E) E cx s = step (run f E) E cx s).
  { apply step_mono.
    - intros cx' s' H. apply IH; assumption.
    - intros res Hres. rewrite Hres in Hnf. exact Hnf. }
  rewrite Hstep. destruct (step (run f E) E cx s) as [s2|res]; [|reflexivity].
  apply IH; assumption.
Qed.

Theorem call_top_terminates fuel E static to v input gas w :
  0 <= gas < Z.of_nat fuel ->
  let r := call_top fuel E static to v input gas w in
  r_out r <> O_fuel /\ 0 <= r_gas r <= gas.
Proof.
  intros Hg. unfold call_top. apply do_call_gas with (F := Z.of_nat fuel); [|exact Hg].
  intros cx' s' Hi Hl. apply run_gas; assumption.
Qed.

Theorem call_top_failed fuel E static to v input gas w :
  let r := call_top fuel E static to v input gas w in
  r_out r <> O_ok -> r_world r = w.
Proof. unfold call_top. apply do_call_failed. Qed.

Theorem frame_failed fuel E self cs vs static d k to v args gas w cc :
  let r := do_call (run fuel E) E self cs vs static d k to v args gas w cc in
  r_out r <> O_ok -> r_world r = w.
Proof. apply do_call_failed. Qed.
Theorem create_failed fuel E self static d addr init v gas w cc :
  let r := do_create (run fuel E) E self static d addr init v gas w cc in
  r_out r <> O_ok -> r_world r = w.
Proof. apply do_create_failed. Qed.

Theorem frame_world fuel E self cs vs static d k to v args gas w cc :
  world_le ((static = true \/ k = K_STATIC) /\ (k = K_CALL -> v = 0)) w
           (r_world (do_call (run fuel E) E self cs vs static d k to v args gas w cc)).
Proof. apply do_call_world. intros cx' s'. apply run_world. Qed.

Theorem frame_static fuel E self cs vs static d k to v args gas w cc :
  static = true \/ k = K_STATIC -> (k = K_CALL -> v = 0) ->
  r_world (do_call (run fuel E) E self cs vs static d k to v args gas w cc) = w.
Proof. intros H Hv. apply frame_world. split; assumption. Qed.

Theorem call_top_static fuel E to input gas w :
  r_world (call_top fuel E true to 0 input gas w) = w.
Proof. apply frame_static; auto. Qed.


Theorem call_top_fuel_irrelevant f f' E static to v input gas w :
  r_out (call_top f E static to v input gas w) <> O_fuel -> (f <= f')%nat ->
  call_top f' E static to v input gas w = call_top f E static to v input gas w.
Proof.
  intros Hnf Hle. apply do_call_mono; [|exact Hnf]. intros cx' s' H. apply run_mono; assumption.
Qed.
