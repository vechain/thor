(* Chain/Proofs.v — the repository invariant over every history of AddBlock calls, and what the by-number index
   and HasBlock compute (C14). *)
From Coq Require Import List NArith Bool Lia ZifyN ZifyNat ZifyBool Wf_nat.
From Verif Require Import Chain.Model.
Import ListNotations.
Open Scope N_scope.
Global Opaque num_of.

Lemma afind_cons {V} k k' (v : V) t : afind k ((k', v) :: t) = if k' =? k then Some v else afind k t.
Proof. reflexivity. Qed.
Lemma afind2_cons {V} k k' (v : V) t : afind2 k ((k', v) :: t) = if eq2 k' k then Some v else afind2 k t.
Proof. reflexivity. Qed.
Lemma eq2_spec a b : eq2 a b = true <-> a = b.
Proof.
  destruct a as [a1 a2], b as [b1 b2]. unfold eq2. cbn [fst snd]. rewrite andb_true_iff, !N.eqb_eq.
  split; [intros [-> ->]; reflexivity | intros E; inversion E; auto].
Qed.
Lemma eq2_false a b : eq2 a b = false <-> a <> b.
Proof. rewrite <- eq2_spec. destruct (eq2 a b); split; congruence. Qed.
Lemma memN_In x l : memN x l = true <-> In x l.
Proof.
  unfold memN. rewrite existsb_exists. split.
  - intros [y [Hy E]]. apply N.eqb_eq in E. subst. exact Hy.
  - intros H. exists x. split; [exact H | apply N.eqb_refl].
Qed.

Definition stored (r : repo) (id : N) : Prop := exists s, get_summary r id = Some s.

(* the calls the node makes: parent known, id new, height = parent height + 1 (block.Number of the two ids),
   conflicts = number of stored headers of that height (guardBlockProcessing), one receipt per tx *)
Definition valid_add (r : repo) (b : blk) (conf : N) : Prop :=
  get_summary r (b_id b) = None /\
  num_of (b_id b) = num_of (b_parent b) + 1 /\
  num_of (b_id b) < max_u32 /\
  conf = scan_conflicts r (num_of (b_id b)) /\
  length (b_rcs b) = length (b_txs b).

Section Histories.
  Variables g gp tag : N.
  (* adm: an additional admission condition on every added block (True, or "accepted by the validation rules") *)
  Variable adm : repo -> blk -> bool -> Prop.

  Inductive reachable : repo -> Prop :=
  | reach_init : reachable (init_repo g gp tag)
  | reach_add r b conf best r' :
      reachable r -> valid_add r b conf -> adm r b best -> add_block r b conf best = Some r' -> reachable r'.
End Histories.

(* ancestry by parent pointers: the specification the index is measured against *)
Inductive anc (r : repo) : N -> N -> Prop :=
| anc_refl h s : get_summary r h = Some s -> anc r h h
| anc_step h s a : get_summary r h = Some s -> h <> r_gen r -> anc r (s_parent s) a -> anc r h a.

Record wf (g gp : N) (r : repo) : Prop := {
  w_gen    : r_gen r = g;
  w_gsum   : get_summary r g = Some (mkS g gp [] 0);
  w_groot  : index_root r (mkS g gp [] 0) = [(0, g)];
  w_gnum   : num_of g = 0;
  w_id     : forall id s, get_summary r id = Some s -> s_id s = id;
  w_par    : forall id s, get_summary r id = Some s -> id <> g ->
             exists ps, get_summary r (s_parent s) = Some ps /\ num_of id = num_of (s_parent s) + 1 /\
                        index_root r s = (num_of id, id) :: index_root r ps;
  w_conf   : forall id s, get_summary r id = Some s -> s_conf s < scan_conflicts r (num_of id);
  w_num    : forall id s, get_summary r id = Some s -> num_of id < max_u32;
  w_best   : stored r (r_best r)
}.

Lemma wf_init g gp tag : num_of g = 0 -> wf g gp (init_repo g gp tag).
Proof.
  intros Hg. unfold init_repo.
  assert (S0 : forall id s, get_summary (init_repo g gp tag) id = Some s -> id = g /\ s = mkS g gp [] 0).
  { unfold get_summary, init_repo. cbn. intros id s. destruct (N.eqb_spec g id); [intros E; inversion E; auto | discriminate]. }
  constructor; cbn [r_gen r_best]; auto.
  - unfold get_summary. cbn. rewrite N.eqb_refl. reflexivity.
  - unfold index_root. cbn. rewrite Hg. cbn. reflexivity.
  - intros id s H. destruct (S0 _ _ H) as [-> ->]. reflexivity.
  - intros id s H Hne. destruct (S0 _ _ H) as [-> _]. congruence.
  - intros id s H. destruct (S0 _ _ H) as [-> ->]. unfold scan_conflicts. cbn. rewrite Hg. cbn. lia.
  - intros id s H. destruct (S0 _ _ H) as [-> ->]. rewrite Hg. unfold max_u32. lia.
  - exists (mkS g gp [] 0). unfold get_summary. cbn. rewrite N.eqb_refl. reflexivity.
Qed.

(* what add_block does to the lookups *)
Section AddBlock.
  Variables (g gp : N) (r r' : repo) (b : blk) (conf : N) (best : bool).
  Hypothesis W : wf g gp r.
  Hypothesis V : valid_add r b conf.
  Hypothesis A : add_block r b conf best = Some r'.

  Let news := mkS (b_id b) (b_parent b) (map tx_id (b_txs b)) conf.

  Lemma add_parent : exists ps, get_summary r (b_parent b) = Some ps /\
    r' = save_block r (((num_of (b_id b), conf), (num_of (b_id b), b_id b) :: index_root r ps) :: r_index r) b conf best.
  Proof.
    unfold add_block in A. destruct (get_summary r (b_parent b)) as [ps|]; [|discriminate].
    exists ps. split; [reflexivity | congruence].
  Qed.

  Lemma add_summary id : get_summary r' id = if b_id b =? id then Some news else get_summary r id.
  Proof. destruct add_parent as [ps [_ ->]]. reflexivity. Qed.

  Lemma add_summary_old id s : get_summary r id = Some s -> get_summary r' id = Some s.
  Proof.
    intros H. rewrite add_summary. destruct (N.eqb_spec (b_id b) id); [|exact H].
    subst. destruct V as [F _]. congruence.
  Qed.

  Lemma add_scan n : scan_conflicts r' n = scan_conflicts r n + (if num_of (b_id b) =? n then 1 else 0).
  Proof.
    destruct add_parent as [ps [_ ->]]. unfold scan_conflicts, save_block. cbn [r_sums filter fst].
    destruct (num_of (b_id b) =? n); cbn [length]; lia.
  Qed.

  (* the (number, conflicts) version key of the new block is the key of no stored block *)
  Lemma add_key_old id s : get_summary r id = Some s -> eq2 (num_of (b_id b), conf) (num_of id, s_conf s) = false.
  Proof.
    intros H. apply eq2_false. intros E. injection E as E1 E2.
    pose proof (w_conf _ _ _ W _ _ H) as C. destruct V as [_ [_ [_ [Hc _]]]]. rewrite E1 in Hc. lia.
  Qed.

  Lemma add_body_old id s : get_summary r id = Some s ->
    afind2 (num_of id, s_conf s) (r_body r') = afind2 (num_of id, s_conf s) (r_body r).
  Proof. intros H. destruct add_parent as [ps [_ ->]]. cbn [r_body save_block]. rewrite afind2_cons, (add_key_old id s H). reflexivity. Qed.

  Lemma add_root_old id s : get_summary r id = Some s -> index_root r' s = index_root r s.
  Proof.
    intros H. destruct add_parent as [ps [_ ->]]. unfold index_root, save_block. cbn [r_index].
    rewrite afind2_cons, (w_id _ _ _ W _ _ H), (add_key_old id s H). reflexivity.
  Qed.

  Lemma add_root_new ps : get_summary r (b_parent b) = Some ps ->
    index_root r' news = (num_of (b_id b), b_id b) :: index_root r ps.
  Proof.
    intros H. destruct add_parent as [ps' [H' ->]]. rewrite H in H'. inversion H'; subst ps'.
    unfold index_root, save_block. cbn [r_index s_id s_conf news]. rewrite afind2_cons.
    replace (eq2 _ _) with true; [reflexivity|]. symmetry. apply eq2_spec. reflexivity.
  Qed.

  Lemma add_ne_g : b_id b <> g.
  Proof. intros E. destruct V as [F _]. rewrite E, (w_gsum _ _ _ W) in F. discriminate. Qed.

  Lemma add_wf : wf g gp r'.
  Proof.
    destruct add_parent as [ps [Hps Er']].
    constructor.
    - rewrite Er'. cbn. apply (w_gen _ _ _ W).
    - apply add_summary_old. apply (w_gsum _ _ _ W).
    - rewrite (add_root_old g); [apply (w_groot _ _ _ W) | apply (w_gsum _ _ _ W)].
    - apply (w_gnum _ _ _ W).
    - intros id s. rewrite add_summary. destruct (N.eqb_spec (b_id b) id).
      + intros E. injection E as <-. subst id. reflexivity.
      + apply (w_id _ _ _ W).
    - intros id s. rewrite add_summary. destruct (N.eqb_spec (b_id b) id) as [E|NE].
      + intros E' _. injection E' as <-. subst id. cbn [s_parent news].
        exists ps. split; [apply add_summary_old; exact Hps|]. split; [apply V|].
        rewrite (add_root_new ps Hps). f_equal. symmetry. apply (add_root_old (b_parent b)). exact Hps.
      + intros H Hg. destruct (w_par _ _ _ W _ _ H Hg) as [ps' [P1 [P2 P3]]].
        exists ps'. split; [apply add_summary_old; exact P1|]. split; [exact P2|].
        rewrite (add_root_old id s H), (add_root_old _ ps' P1). exact P3.
    - intros id s. rewrite add_summary, add_scan. destruct (N.eqb_spec (b_id b) id) as [E|NE].
      + intros E'. injection E' as <-. subst id. cbn [s_conf news]. rewrite N.eqb_refl.
        destruct V as [_ [_ [_ [Hc _]]]]. lia.
      + intros H. pose proof (w_conf _ _ _ W _ _ H). destruct (num_of (b_id b) =? num_of id); lia.
    - intros id s. rewrite add_summary. destruct (N.eqb_spec (b_id b) id) as [E|NE].
      + intros _. subst id. apply V.
      + apply (w_num _ _ _ W).
    - assert (Eb : r_best r' = if best then b_id b else r_best r) by (rewrite Er'; reflexivity).
      rewrite Eb. unfold stored. case best.
      + exists news. rewrite add_summary, N.eqb_refl. reflexivity.
      + destruct (w_best _ _ _ W) as [s Hs]. exists s. apply add_summary_old. exact Hs.
  Qed.
End AddBlock.

Lemma reachable_wf g gp tag adm r : num_of g = 0 -> reachable g gp tag adm r -> wf g gp r.
Proof.
  intros Hg H. induction H.
  - apply wf_init. exact Hg.
  - eapply add_wf; eauto.
Qed.

Section Ancestry.
  Variables (g gp : N) (r : repo).
  Hypothesis W : wf g gp r.

  Lemma anc_stored h a : anc r h a -> stored r h /\ stored r a.
  Proof. induction 1; unfold stored; [eauto | destruct IHanc; eauto]. Qed.

  Lemma anc_height h a : anc r h a -> num_of a <= num_of h.
  Proof.
    induction 1 as [|h s a Hs Hg _ IH]; [lia|].
    rewrite (w_gen _ _ _ W) in Hg. destruct (w_par _ _ _ W _ _ Hs Hg) as [ps [_ [E _]]]. lia.
  Qed.

  Lemma anc_trans h a c : anc r h a -> anc r a c -> anc r h c.
  Proof. induction 1; intros; eauto using anc_step. Qed.

  Lemma anc_gen_inv a : anc r g a -> a = g.
  Proof. inversion 1; subst; [reflexivity|]. rewrite (w_gen _ _ _ W) in *. congruence. Qed.

  Lemma anc_same_height h a : anc r h a -> num_of a = num_of h -> a = h.
  Proof.
    inversion 1 as [|h' s a' Hs Hg Hp]; subst; [reflexivity|]. intros E.
    rewrite (w_gen _ _ _ W) in Hg. destruct (w_par _ _ _ W _ _ Hs Hg) as [ps [_ [E' _]]].
    pose proof (anc_height _ _ Hp). lia.
  Qed.

  (* C14: the index of head h maps height n to a  <->  a is h's own ancestor at height n *)
  Lemma index_is_ancestry_root h s n a :
    get_summary r h = Some s ->
    (afind n (index_root r s) = Some a <-> anc r h a /\ num_of a = n).
  Proof.
    remember (N.to_nat (num_of h)) as k eqn:Hk. revert h s Hk n a.
    induction k as [k IH] using lt_wf_ind. intros h s Hk n a Hs.
    destruct (N.eq_dec h g) as [->|Hg].
    - rewrite (w_gsum _ _ _ W) in Hs. inversion Hs; subst s. rewrite (w_groot _ _ _ W). cbn [afind].
      destruct (N.eqb_spec 0 n) as [<-|Hn].
      + split.
        * intros E. inversion E; subst. split; [eapply anc_refl; apply (w_gsum _ _ _ W) | apply (w_gnum _ _ _ W)].
        * intros [Ha _]. apply anc_gen_inv in Ha. congruence.
      + split; [discriminate|]. intros [Ha E]. apply anc_gen_inv in Ha. subst a. rewrite (w_gnum _ _ _ W) in E. congruence.
    - destruct (w_par _ _ _ W _ _ Hs Hg) as [ps [Hps [Hn Hroot]]]. rewrite Hroot, afind_cons.
      assert (IHp : afind n (index_root r ps) = Some a <-> anc r (s_parent s) a /\ num_of a = n).
      { apply (IH (N.to_nat (num_of (s_parent s)))); [lia | reflexivity | exact Hps]. }
      destruct (N.eqb_spec (num_of h) n) as [<-|Hne].
      + split.
        * intros E. inversion E; subst a. split; [eapply anc_refl; eauto | reflexivity].
        * intros [Ha E]. apply anc_same_height in Ha; [congruence | exact E].
      + rewrite IHp. split.
        * intros [Ha E]. split; [|exact E]. eapply anc_step; eauto. rewrite (w_gen _ _ _ W). exact Hg.
        * intros [Ha E]. split; [|exact E]. inversion Ha as [|h' s' a' Hs' Hg' Hp]; subst.
          -- congruence.
          -- rewrite Hs in Hs'. inversion Hs'; subst s'. exact Hp.
  Qed.

  Lemma get_block_id_spec h n a : stored r h -> (get_block_id r h n = Ok a <-> anc r h a /\ num_of a = n).
  Proof.
    intros [s Hs]. unfold get_block_id. rewrite Hs.
    rewrite <- (index_is_ancestry_root h s n a Hs).
    destruct (afind n (index_root r s)); split; congruence.
  Qed.

  Lemma get_block_id_never_fails h n : stored r h -> get_block_id r h n <> Fail.
  Proof. intros [s Hs]. unfold get_block_id. rewrite Hs. destruct (afind _ _); discriminate. Qed.

  (* every height up to the head's is populated *)
  Lemma anc_total h : stored r h -> forall n, n <= num_of h -> exists a, anc r h a /\ num_of a = n.
  Proof.
    remember (N.to_nat (num_of h)) as k eqn:Hk. revert h Hk.
    induction k as [k IH] using lt_wf_ind. intros h Hk [s Hs] n Hn.
    destruct (N.eq_dec (num_of h) n) as [E|NE].
    - exists h. split; [eapply anc_refl; eauto | exact E].
    - destruct (N.eq_dec h g) as [->|Hg]; [rewrite (w_gnum _ _ _ W) in *; lia|].
      destruct (w_par _ _ _ W _ _ Hs Hg) as [ps [Hps [E _]]].
      destruct (IH (N.to_nat (num_of (s_parent s))) ltac:(lia) (s_parent s) eq_refl (ex_intro _ ps Hps) n ltac:(lia)) as [a [Ha En]].
      exists a. split; [|exact En]. eapply anc_step; eauto. rewrite (w_gen _ _ _ W). exact Hg.
  Qed.

  Lemma anc_unique_at h a a' : anc r h a -> anc r h a' -> num_of a = num_of a' -> a = a'.
  Proof.
    intros Ha Ha' E. destruct (anc_stored _ _ Ha) as [Sh _].
    assert (H1 : get_block_id r h (num_of a) = Ok a) by (apply get_block_id_spec; auto).
    assert (H2 : get_block_id r h (num_of a) = Ok a') by (apply get_block_id_spec; auto).
    congruence.
  Qed.

  Lemma has_block_spec h id : stored r h -> exists v, has_block r h id = Ok v /\ (v = true <-> anc r h id).
  Proof.
    intros Sh. unfold has_block. destruct (get_block_id r h (num_of id)) as [f| |] eqn:E.
    - exists (id =? f). split; [reflexivity|]. apply get_block_id_spec in E; [|exact Sh]. destruct E as [Hf En].
      rewrite N.eqb_eq. split; [intros ->; exact Hf|]. intros Hid. eapply anc_unique_at; eauto.
    - exists false. split; [reflexivity|]. split; [discriminate|]. intros Hid.
      assert (get_block_id r h (num_of id) = Ok id) by (apply get_block_id_spec; auto). congruence.
    - exfalso. eapply get_block_id_never_fails; eauto.
  Qed.

  (* placeholder; that the conflicts ordinal identifies a block among the stored blocks of its height is conf_inj (ProofsTx) *)
  Lemma conflicts_inj_aux : True. Proof. exact I. Qed.
End Ancestry.
