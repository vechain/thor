(* Crash/ProofsCatchUp.v — a node whose finalized record lags behind (it holds an ancestor of the finalized block another
   node holds, all other keys equal) and what imports do to the pair, as long as the up-to-date node's finality check
   refuses no block (counter-example otherwise: Crash/ExamplesCatchUp.v).  Such a node arises from a cut between the
   quality and the finalized record when they are two writes (split_window); side material, not used by resume_converges. *)
From Coq Require Import List NArith Bool Lia Permutation.
From Verif Require Import Crash.Model Crash.ProofsStore Crash.ProofsInv Crash.ProofsImport Crash.ProofsCrash
  Crash.ProofsEqv Crash.ProofsShape Crash.ProofsResumeAll Crash.ProofsFinalized Crash.ProofsQuality.
Import ListNotations.
Open Scope N_scope.

Definition eqv_nf (s s' : store) : Prop := forall k, k <> KFinalized -> get s k = get s' k.

Lemma eqv_nf_refl s : eqv_nf s s. Proof. intros k _. reflexivity. Qed.
Lemma eqv_eqv_nf s s' : eqv s s' -> eqv_nf s s'. Proof. intros H k _. apply H. Qed.

Lemma eqv_nf_apply_batch s s' w : eqv_nf s s' -> eqv_nf (apply_batch s w) (apply_batch s' w).
Proof. intros E k Hk. apply get_apply_batch_ext, E, Hk. Qed.
Lemma eqv_nf_apply_writes ws s s' : eqv_nf s s' -> eqv_nf (apply_writes s ws) (apply_writes s' ws).
Proof. intros E k Hk. apply get_apply_writes_ext, E, Hk. Qed.

Lemma eqv_nf_put_l s s' v : eqv_nf s s' -> eqv_nf (apply_batch s [Put KFinalized v]) s'.
Proof. intros E k Hk. rewrite get_put_other; auto. Qed.
Lemma eqv_nf_put_r s s' v : eqv_nf s s' -> eqv_nf s (apply_batch s' [Put KFinalized v]).
Proof. intros E k Hk. rewrite get_put_other; auto. Qed.

Lemma eqv_nf_put_both s s' v : eqv_nf s s' -> eqv (apply_batch s [Put KFinalized v]) (apply_batch s' [Put KFinalized v]).
Proof.
  intros E k. rewrite !get_put. destruct (key_eq_dec k KFinalized); auto.
Qed.

Section NF.
  Variables s s' : store.
  Hypothesis E : eqv_nf s s'.

  Lemma nf_get_summary id : get_summary s id = get_summary s' id.
  Proof. unfold get_summary. rewrite E by discriminate. reflexivity. Qed.
  Lemma nf_stored id : stored s id = stored s' id.
  Proof. unfold stored. rewrite nf_get_summary. reflexivity. Qed.
  Lemma nf_get_quality id : get_quality s id = get_quality s' id.
  Proof. unfold get_quality. rewrite E by discriminate. reflexivity. Qed.

  Lemma nf_quality_of c p n j : quality_of c s p n j = quality_of c s' p n j.
  Proof. apply ext_quality_of; [exact nf_get_summary|exact nf_get_quality]. Qed.
  Lemma nf_select c b : select c s b = select c s' b.
  Proof.
    apply ext_select; [exact nf_get_summary|exact nf_get_quality|]. unfold get_id. rewrite E by discriminate. reflexivity.
  Qed.
  Lemma nf_pre_writes b ab : pre_writes s b ab = pre_writes s' b ab.
  Proof. unfold pre_writes, conf_of. rewrite (scan_conflicts_ext s s' _ nf_stored). reflexivity. Qed.
End NF.

(* ---- the checks of the import path before the finality check *)

Definition precheck (s : store) (b : blk) : bool :=
  negb (max_num s + 1 <? num_of (b_id b)) && negb ((0 <? scan_conflicts s (num_of (b_id b))) && stored s (b_id b))
  && stored s (b_parent b) && (num_of (b_parent b) + 1 =? num_of (b_id b)).

(* errBFTRejected *)
Definition bft_rejected (c : cfg) (s : store) (b : blk) : bool := precheck s b && negb (accepts c s (b_parent b)).

Fixpoint no_bft_reject (c : cfg) (s : store) (l : list blk) : bool :=
  match l with
  | [] => true
  | b :: r => negb (bft_rejected c s b) && no_bft_reject c (run1 c s b) r
  end.

Lemma nf_precheck s s' b : eqv_nf s s' -> precheck s b = precheck s' b.
Proof.
  intro E. pose proof (nf_stored s s' E) as Hst. unfold precheck.
  rewrite (max_num_ext s s' Hst), (scan_conflicts_ext s s' _ Hst), !Hst. reflexivity.
Qed.

Lemma import_ok_precheck c s b : import_ok c s b = precheck s b && accepts c s (b_parent b).
Proof. reflexivity. Qed.

Lemma precheck_parent s b : precheck s b = true -> stored s (b_parent b) = true.
Proof. unfold precheck. intro H. repeat (apply andb_prop in H as [H ?]). assumption. Qed.

Lemma main_case_precheck c s b ab : main_case c s b ab -> precheck s b = true /\ accepts c s (b_parent b) = true.
Proof. intro M. apply main_case_ok in M as [G _]. rewrite import_ok_precheck in G. apply andb_prop, G. Qed.

(* ---- the finality check with an older finalized block *)

Lemma accepts_older c r u p : wf_cfg c -> Inv c u -> eqv_nf r u -> desc u (finalized c r) (finalized c u) ->
  stored u p = true -> accepts c u p = true -> accepts c r p = true.
Proof.
  intros Hc I E D Hp Ha. pose proof (accepts_anc c u p Hc I Hp Ha) as Au.
  unfold accepts. destruct (num_of (finalized c r) =? 0); auto.
  rewrite (ext_anc r u (nf_get_summary r u E)). unfold desc in D.
  pose proof (ancestor_le _ _ _ _ _ D) as L1. pose proof (ancestor_le _ _ _ _ _ Au) as L2.
  destruct (anc_total c u p (num_of (finalized c r)) Hc I Hp) as (a & Ha'); [lia|].
  rewrite Ha'. pose proof (anc_compose c u p _ _ _ _ I Au L1 Ha') as X. rewrite D in X. inversion X. apply N.eqb_refl.
Qed.

Lemma mul_lt_cancel a b L : a * L < b * L -> a < b.
Proof.
  intro H. destruct (N.le_gt_cases b a); auto. assert (b * L <= a * L) by (apply N.mul_le_mono_r; auto). lia.
Qed.

(* ---- the finalized part of a commit, computed from two finalized blocks of the same chain *)

Section FinPart.
  Variables (c : cfg) (u4 r4 : store) (id E fr fu er eu q : N) (cond : bool).
  Hypothesis Hc : wf_cfg c.
  Hypothesis I : Inv c u4.
  Hypothesis Q : Qrec c u4.
  Hypothesis Hs : stored u4 id = true.
  Hypothesis HE : num_of id = E * c_L c + c_L c - 1.
  Hypothesis Hfr : num_of fr = er * c_L c.
  Hypothesis Hfu : num_of fu = eu * c_L c.
  Hypothesis Afr : anc u4 id (num_of fr) = Some fr.
  Hypothesis Afu : anc u4 id (num_of fu) = Some fu.
  Hypothesis NF : eqv_nf r4 u4.
  Hypothesis Fr : finalized c r4 = fr.
  Hypothesis Fu : finalized c u4 = fu.

  Definition fin_writes (s : store) (F : N) : list batch :=
    if cond && (num_of F <? checkpoint (c_L c) (num_of id)) then
      match find_checkpoint c s (q - 1) F id with
      | Some f => [[Put KFinalized (VId f)]]
      | None => []
      end
    else [].

  Let r1 := apply_writes r4 (fin_writes u4 fr).
  Let u1 := apply_writes u4 (fin_writes u4 fu).

  Lemma fp_L : 0 < c_L c. Proof. destruct Hc; auto. Qed.

  Hypothesis Hle : num_of fr <= num_of fu.

  Lemma fp_ru : er <= eu.
  Proof. pose proof fp_L. pose proof Hle as H1. rewrite Hfr, Hfu in H1. nia. Qed.

  Lemma fp_uE : eu <= E.
  Proof.
    pose proof fp_L. pose proof (ancestor_le _ _ _ _ _ Afu) as H1. rewrite Hfu, HE in H1. nia.
  Qed.

  Lemma fp_cp : checkpoint (c_L c) (num_of id) = E * c_L c.
  Proof.
    pose proof fp_L. rewrite HE. replace (E * c_L c + c_L c - 1) with (E * c_L c + (c_L c - 1)) by lia. apply checkpoint_at. lia.
  Qed.

  Lemma fp_desc_at e f : e <= eu -> anc u4 id (e * c_L c) = Some f -> desc u4 f fu.
  Proof.
    intros He Ha. unfold desc. destruct (anc_stored _ _ _ _ Ha) as [_ Hn]. rewrite Hn.
    eapply (anc_compose c u4 id); eauto. rewrite Hfu. apply N.mul_le_mono_r. auto.
  Qed.

  Lemma fp_desc_fr : desc u4 fr fu.
  Proof. unfold desc. eapply (anc_compose c u4 id); eauto. Qed.

  Lemma fp_stored_fu : stored u4 fu = true.
  Proof. apply anc_stored in Afu. tauto. Qed.

  Lemma fp_al_fr : aligned c fr. Proof. exists er. auto. Qed.

  Lemma fp_al_at e f : anc u4 id (e * c_L c) = Some f -> aligned c f.
  Proof. intro Ha. exists e. apply anc_stored in Ha. tauto. Qed.

  Lemma fp_fin_r4_put f : finalized c (apply_writes r4 [[Put KFinalized (VId f)]]) = f.
  Proof. cbn [apply_writes fold_left]. apply finalized_put. Qed.

  (* what the finalized part of the commit leaves of the lag: r still lags behind u (or has caught up, if u's finalized block moved) *)
  Definition lag_kept : Prop :=
    eqv_nf r1 u1 /\ desc u1 (finalized c r1) (finalized c u1) /\ aligned c (finalized c r1) /\
    (finalized c u1 <> fu -> eqv r1 u1).

  Lemma lag_kept_none : fin_writes u4 fr = [] -> fin_writes u4 fu = [] -> lag_kept.
  Proof.
    intros E1 E2. unfold lag_kept, r1, u1. rewrite E1, E2. cbn [apply_writes fold_left]. rewrite Fr, Fu.
    split; auto. split; [apply fp_desc_fr|]. split; [apply fp_al_fr|]. intro X. congruence.
  Qed.

  Lemma lag_kept_r_only e f : fin_writes u4 fr = [[Put KFinalized (VId f)]] -> fin_writes u4 fu = [] ->
    e <= eu -> anc u4 id (e * c_L c) = Some f -> lag_kept.
  Proof.
    intros E1 E2 He Ha. unfold lag_kept, r1, u1. rewrite E1, E2. cbn [apply_writes fold_left]. rewrite finalized_put, Fu.
    split; [apply eqv_nf_put_l; auto|]. split; [apply (fp_desc_at e f); auto|]. split; [apply (fp_al_at e f); auto|]. intro X. congruence.
  Qed.

  Lemma lag_kept_both f f' : fin_writes u4 fr = [[Put KFinalized (VId f)]] -> fin_writes u4 fu = [[Put KFinalized (VId f')]] ->
    desc u4 f f' -> aligned c f -> (f' <> fu -> f = f') -> lag_kept.
  Proof.
    intros E1 E2 D A Same. unfold lag_kept, r1, u1. rewrite E1, E2. cbn [apply_writes fold_left]. rewrite !finalized_put.
    split; [apply eqv_nf_put_l, eqv_nf_put_r; auto|]. split; [eapply desc_mono; [apply keeps_put; discriminate|exact D]|]. split; [exact A|].
    intro X. rewrite (Same X). apply eqv_nf_put_both; auto.
  Qed.

  Theorem fin_part_lag : lag_kept.
  Proof.
    pose proof fp_L as HL. pose proof fp_ru as Hru. pose proof fp_uE as HuE. pose proof fp_cp as Hcp.
    (* the case analysis below evaluates the two write lists *)
    pose proof (eq_refl (fin_writes u4 fr)) as Wr. pose proof (eq_refl (fin_writes u4 fu)) as Wu.
    unfold fin_writes at 2 in Wr. unfold fin_writes at 2 in Wu.
    destruct cond; [|apply (lag_kept_none Wr Wu)].
    destruct (num_of fr <? checkpoint (c_L c) (num_of id)) eqn:Gr.
    2:{ assert (Gu : (num_of fu <? checkpoint (c_L c) (num_of id)) = false) by (apply N.ltb_ge; apply N.ltb_ge in Gr; lia).
        rewrite Gu in Wu. apply (lag_kept_none Wr Wu). }
    destruct (num_of fu <? checkpoint (c_L c) (num_of id)) eqn:Gu.
    - (* both searches run *)
      destruct (find_checkpoint c u4 (q - 1) fu id) as [f'|] eqn:Fu'.
      + destruct (N.eq_dec f' fu) as [->|Hne].
        * (* the newer search finds the finalized block again *)
          destruct (find_checkpoint c u4 (q - 1) fr id) as [f|] eqn:Fr'.
          -- destruct (find_from_older c u4 id E Hc I Q Hs HE (q - 1) fr fu er eu Hfr Hfu Hru HuE f Fr') as [(e & He & Ha)|Hsame].
             ++ apply (lag_kept_both f fu Wr Wu); [apply (fp_desc_at e f); [lia|auto]|apply (fp_al_at e f); auto|congruence].
             ++ rewrite Fu' in Hsame. injection Hsame as <-.
                apply (lag_kept_both fu fu Wr Wu); [apply desc_refl, fp_stored_fu|exists eu; auto|congruence].
          -- unfold lag_kept, r1, u1. rewrite Wr, Wu. cbn [andb apply_writes fold_left]. rewrite finalized_put, Fr.
             split; [apply eqv_nf_put_r; auto|]. split; [eapply desc_mono; [apply keeps_put; discriminate|apply fp_desc_fr]|].
             split; [apply fp_al_fr|]. intro X. congruence.
        * (* the finalized block moves: the older search finds the same checkpoint *)
          assert (Fr' : find_checkpoint c u4 (q - 1) fr id = Some f').
          { apply (find_from_newer c u4 id E Hc I Q Hs HE (q - 1) fr fu er eu Hfr Hfu Hru HuE f' Fu').
            rewrite <- Hfu, Afu. congruence. }
          rewrite Fr' in Wr. apply (lag_kept_both f' f' Wr Wu); auto.
          -- apply desc_refl. eapply find_checkpoint_stored; eauto.
          -- eapply aligned_find; [|exact Fu']. exists eu; auto.
      + destruct (find_checkpoint c u4 (q - 1) fr id) as [f|] eqn:Fr'; [|apply (lag_kept_none Wr Wu)].
        destruct (find_from_older c u4 id E Hc I Q Hs HE (q - 1) fr fu er eu Hfr Hfu Hru HuE f Fr') as [(e & He & Ha)|Hsame];
          [|congruence].
        apply (lag_kept_r_only e f Wr Wu); auto; lia.
    - (* the block is still in the newer finalized block's own epoch: only the older search may run *)
      destruct (find_checkpoint c u4 (q - 1) fr id) as [f|] eqn:Fr'; [|apply (lag_kept_none Wr Wu)].
      pose proof Fr' as Sp. apply (find_checkpoint_spec c u4 id E Hc I Q Hs HE (q - 1) fr er f Hfr) in Sp; [|lia].
      destruct Sp as (e & He & _ & _ & Ha).
      assert (E <= eu).
      { apply N.ltb_ge in Gu. rewrite Hcp, Hfu in Gu. apply N.mul_le_mono_pos_r in Gu; auto. }
      apply (lag_kept_r_only e f Wr Wu); auto; lia.
  Qed.
End FinPart.

Lemma nf_fin_writes c id q cond s s' F : eqv_nf s s' -> fin_writes c id q cond s F = fin_writes c id q cond s' F.
Proof. intro E. unfold fin_writes. rewrite (ext_find_checkpoint s s' (nf_get_summary s s' E) (nf_get_quality s s' E)). reflexivity. Qed.

(* ---- one import on a lagging and on an up-to-date store *)

Record Lag (c : cfg) (r u : store) : Prop := mkLag {
  lag_nf : eqv_nf r u;
  lag_desc : desc u (finalized c r) (finalized c u);
  lag_al : aligned c (finalized c r)
}.

Lemma eqv_lag c r u : wf_cfg c -> Inv c u -> InvQ c u -> eqv r u -> Lag c r u.
Proof.
  intros Hc I [_ A] E. assert (Ef : finalized c r = finalized c u) by (apply na_finalized, eqv_eqv_na; auto).
  constructor; [apply eqv_eqv_nf; auto| |rewrite Ef; auto].
  rewrite Ef. apply desc_refl. apply finalized_stored; auto.
Qed.

(* the store after the commit batch is the store after the quality record followed by the finalized part *)
Lemma commit_apply_split c s3 id parent just comm st :
  apply_writes st (writes_of_steps (commit_steps c s3 id parent just comm)) =
  apply_writes st
   (if is_storepoint (c_L c) (num_of id) then
      match quality_of c s3 parent (num_of id) just with
      | None => []
      | Some q => [Put (KQuality id) (VNum q)] ::
                  fin_writes c id q (comm && (1 <? q)) (apply_batch s3 [Put (KQuality id) (VNum q)]) (finalized c s3)
      end
    else []).
Proof.
  rewrite commit_unfold. unfold fin_writes. destruct (is_storepoint _ _); auto. destruct (quality_of _ _ _ _ _) as [q|]; auto.
  destruct (comm && (1 <? q) && _); auto. destruct (find_checkpoint _ _ _ _ _); auto.
Qed.

Theorem lag_step c r u b : wf_cfg2 c -> Inv2 c u -> InvQ c u -> wf_blk u b -> Lag c r u ->
  bft_rejected c u b = false ->
  Lag c (run1 c r b) (run1 c u b) /\
  (finalized c (run1 c u b) <> finalized c u -> eqv (run1 c r b) (run1 c u b)).
Proof.
  intros [Hc HL] I2 [Q A] Hwf [NF D Al] Hrej. pose proof (i2_inv c u I2) as I.
  unfold bft_rejected in Hrej.
  (* both stores pass the same checks, see the same fork choice and the same number of conflicts *)
  unfold run1. rewrite !import_batches_eq, !import_ok_precheck, (nf_precheck r u b NF).
  destruct (precheck u b) eqn:P; cbn [andb] in *.
  2:{ cbn [apply_writes fold_left]. split; [constructor; auto|]. intro X. congruence. }
  apply negb_false_iff in Hrej.
  assert (Har : accepts c r (b_parent b) = true) by (eapply accepts_older; eauto using precheck_parent).
  rewrite Hrej, Har, (nf_select r u NF), (scan_conflicts_ext r u _ (nf_stored r u NF)). cbv zeta.
  destruct (select c u b) as [ab|] eqn:Sel.
  2:{ (* bft select fails after the state commit on both *)
    fold (conf_of u b).
    assert (Hau : forall w, In w (state_batches b (conf_of u b)) -> aux_batch w) by (apply state_batches_aux).
    assert (F1 : forall s, finalized c (apply_writes s (state_batches b (conf_of u b))) = finalized c s)
      by (intro s; apply aux_writes_finalized, Hau).
    split; [|intro X; rewrite F1 in X; congruence]. constructor; rewrite ?F1; auto.
    + apply eqv_nf_apply_writes; auto.
    + eapply desc_mono; [|exact D]. intros i sm Ei. unfold get_summary in *. rewrite aux_writes_frame; auto. }
  - assert (Mu : main_case c u b ab) by (apply main_case_ok; rewrite import_ok_precheck, P, Hrej; auto).
    fold (conf_of u b). fold (pre_writes u b ab).
    rewrite !apply_writes_app.
    set (pre := pre_writes u b ab). set (u3 := apply_writes u pre). set (r3 := apply_writes r pre).
    assert (NF3 : eqv_nf r3 u3) by (apply eqv_nf_apply_writes; auto).
    assert (I3 : Inv c u3) by (apply (main_case_inv3 c u b ab); auto).
    assert (Fu3 : finalized c u3 = finalized c u) by apply s3_finalized.
    assert (Fr3 : finalized c r3 = finalized c r) by (unfold r3, pre; rewrite <- (nf_pre_writes r u NF); apply s3_finalized).
    assert (K3 : keeps_summaries u u3) by (apply s3_keeps; eapply main_not_stored; eauto).
    assert (D3 : desc u3 (finalized c r) (finalized c u)) by (eapply desc_mono; eauto).
    rewrite !commit_apply_split, (nf_quality_of r3 u3 NF3).
    destruct (is_storepoint (c_L c) (num_of (b_id b))) eqn:Hsp;
      [destruct (quality_of c u3 (b_parent b) (num_of (b_id b)) (b_just b)) as [q|] eqn:Eq|].
    (* no record is written: nothing changes for the pair *)
    2,3: cbn [apply_writes fold_left]; (split; [constructor; rewrite ?Fu3, ?Fr3; auto|]); intro X; rewrite Fu3 in X; congruence.
    set (wq := [Put (KQuality (b_id b)) (VNum q)]). rewrite !apply_writes_cons.
    set (u4 := apply_batch u3 wq). set (r4 := apply_batch r3 wq).
    assert (NF4 : eqv_nf r4 u4) by (apply eqv_nf_apply_batch; auto).
    assert (I4 : Inv c u4) by (apply quality_put_inv; auto; apply s3_stored_b).
    assert (Q4 : Qrec c u4) by (apply (main_case_qrec4 c u b ab q Hc Q Mu Eq)).
    assert (Fu4 : finalized c u4 = finalized c u) by (unfold u4, wq; rewrite finalized_put_quality; auto).
    assert (Fr4 : finalized c r4 = finalized c r) by (unfold r4, wq; rewrite finalized_put_quality; auto).
    assert (K4 : keeps_summaries u3 u4) by (apply keeps_put; discriminate).
    assert (Hb4 : stored u4 (b_id b) = true) by (apply (keeps_stored u3); auto; apply s3_stored_b).
    assert (D4 : desc u4 (finalized c r) (finalized c u)) by (eapply desc_mono; eauto).
    (* the finalized block of u is an ancestor of the new block *)
    assert (Au4 : anc u4 (b_id b) (num_of (finalized c u)) = Some (finalized c u)).
    { apply (new_block_desc c u b ab); auto. }
    assert (Ar4 : anc u4 (b_id b) (num_of (finalized c r)) = Some (finalized c r)).
    { apply (desc_trans c u4 (finalized c r) (finalized c u) (b_id b)); auto. }
    destruct Al as (er & Her). destruct A as (eu & Heu).
    pose proof (storepoint_epoch (c_L c) (num_of (b_id b)) (proj2 Hc) Hsp) as HE.
    rewrite (nf_fin_writes c _ _ _ r4 u4 _ NF4).
    rewrite Fr3, Fu3.
    pose proof (fin_part_lag c u4 r4 (b_id b) (num_of (b_id b) / c_L c) (finalized c r) (finalized c u) er eu q
                  (b_comm b && (1 <? q)) Hc I4 Q4 Hb4 HE Her Heu Ar4 Au4 NF4 Fr4 Fu4 (ancestor_le _ _ _ _ _ D4)) as G.
    unfold lag_kept in G. destruct G as (G1 & G2 & G3 & G4).
    split; [constructor; auto|exact G4].
Qed.

(* ---- the whole resumed stream *)

Lemma no_bft_reject_app c l1 : forall s l2, no_bft_reject c s (l1 ++ l2) = true ->
  no_bft_reject c s l1 = true /\ no_bft_reject c (run c s l1) l2 = true.
Proof.
  induction l1 as [|b r IH]; intros s l2 H; simpl in *; auto.
  apply andb_true_iff in H. destruct H as [H1 H2]. destruct (IH _ _ H2) as [H3 H4]. rewrite H1, H3. auto.
Qed.

Theorem lag_run c rest : forall r u, wf_cfg2 c -> Inv2 c u -> InvQ c u -> wf_hist c u rest -> no_bft_reject c u rest = true ->
  Lag c r u ->
  Lag c (run c r rest) (run c u rest) /\
  (finalized c (run c u rest) <> finalized c u -> eqv (run c r rest) (run c u rest)).
Proof.
  induction rest as [|b l IH]; intros r u Hc I2 IQ Hw Hn HLag.
  - simpl. split; auto. intro X. congruence.
  - destruct Hw as [Hb Hl]. cbn [no_bft_reject] in Hn. apply andb_true_iff in Hn. destruct Hn as [Hn1 Hn2].
    apply negb_true_iff in Hn1.
    destruct (lag_step c r u b Hc I2 IQ Hb HLag Hn1) as [L1 E1].
    assert (I2' : Inv2 c (run1 c u b)) by (apply run1_inv2; auto).
    assert (IQ' : InvQ c (run1 c u b)) by (apply run1_invq; auto).
    destruct (IH (run1 c r b) (run1 c u b) Hc I2' IQ' Hl Hn2 L1) as [L2 E2].
    cbn [run fold_left]. fold (run c (run1 c r b) l). fold (run c (run1 c u b) l).
    split; auto. intro X.
    destruct (N.eq_dec (finalized c (run1 c u b)) (finalized c u)) as [Same|Moved].
    + apply E2. congruence.
    + apply eqv_run. apply E1. auto.
Qed.

