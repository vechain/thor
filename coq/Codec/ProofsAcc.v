(* Codec/ProofsAcc.v — accessors: the cached Size() paths agree with a fresh Size(); IntrinsicGas never wraps
   (it is the exact sum or the overflow error); the key/value pairs DeriveRoot hands to the trie determine the
   ordered list, and the keys are prefix-free. *)
From Coq Require Import List NArith ZArith Bool Lia.
From Coq Require Import ZifyN ZifyNat ZifyBool.
From Verif Require Import Codec.Model Codec.ProofsRLP Codec.ProofsComb Codec.ProofsObjects Codec.ProofsTop Codec.ProofsNorm.
Import ListNotations.
Open Scope N_scope.

Lemma list_size_enc_list p : list_size (lenN p) = lenN (enc_list p).
Proof. unfold list_size, enc_list. rewrite lenN_app. reflexivity. Qed.

Theorem tx_size_cached_l b t : go_decode_tx b = Some t -> go_tx_size_cached b = go_tx_size_fresh t.
Proof.
  intros H. pose proof (tx_reencode_length_l b t H) as [_ Hm]. apply tx_decode_sound_l in H. destruct H as [-> W].
  unfold go_tx_size_fresh. rewrite Hm. unfold go_tx_size_cached, tx_marshal. cbn [enc c_tx wfp] in *. destruct (t_dyn t).
  - destruct W as [W Hl]. assert (Hne : enc c_dyn t <> []) by (apply c_dyn_nonempty; exact W).
    rewrite <- (app_nil_r (enc_str _)), shead_str, (typed_str_shape _ Hne) by (rewrite lenN_cons; unfold two64; lia). reflexivity.
  - destruct W as [[_ Hl] _]. cbn [enc c_legacy cmap cpmap cwrap]. rewrite (shead_list_end _ Hl), list_size_enc_list. reflexivity.
Qed.
Theorem block_size_cached_l bs b : go_decode_block bs = Some b -> go_block_size_cached bs = go_block_size_fresh b /\ go_block_size_cached bs = lenN bs.
Proof.
  intros H. pose proof (block_reencode_length_l bs b H) as Hm. unfold go_block_size_fresh. rewrite Hm.
  apply (dec_exact_sound _ _ _ (proj1 c_block_ok)) in H. destruct H as [-> [[_ Hl] _]].
  unfold go_block_size_cached. cbn [enc c_block cmap cpmap cwrap] in *. rewrite (shead_list_end _ Hl), list_size_enc_list. tauto.
Qed.

Lemma count_zero_le d : count_zero d <= lenN d.
Proof.
  unfold count_zero, lenN. induction d as [|x d IH]; [cbn; lia|]. cbn [filter length]. destruct (x =? 0); cbn [length]; lia.
Qed.

Lemma data_gas_spec d : data_gas d = if data_gas_math d <? u64max1 then Some (data_gas_math d) else None.
Proof.
  unfold data_gas, data_gas_math. destruct d as [|x d'].
  - reflexivity.
  - set (d := x :: d'). pose proof (count_zero_le d) as Hz. set (z := count_zero d) in *. set (n := lenN d) in *.
    unfold safe_mul, safe_add, u64max1.
    destruct (4 * z <? 18446744073709551616) eqn:E1; destruct (68 * (n - z) <? 18446744073709551616) eqn:E2;
      destruct (4 * z + 68 * (n - z) <? 18446744073709551616) eqn:E3; try reflexivity; lia.
Qed.

Lemma intrinsic_loop_spec cl : forall total, total < u64max1 ->
  intrinsic_loop cl total = if total + clauses_gas_math cl <? u64max1 then Some (total + clauses_gas_math cl) else None.
Proof.
  induction cl as [|c cl IH]; intros total Ht; cbn [intrinsic_loop clauses_gas_math].
  - rewrite N.add_0_r. destruct (total <? u64max1) eqn:E; [reflexivity|lia].
  - rewrite data_gas_spec. set (g := data_gas_math (c_data c)). set (k := clause_gas c). set (r := clauses_gas_math cl).
    destruct (g <? u64max1) eqn:E1.
    + unfold safe_add. destruct (total + g <? u64max1) eqn:E2.
      * destruct (total + g + k <? u64max1) eqn:E3.
        -- rewrite IH by lia. fold r. replace (total + g + k + r) with (total + (g + k + r)) by lia. reflexivity.
        -- destruct (total + (g + k + r) <? u64max1) eqn:E4; [lia|reflexivity].
      * destruct (total + (g + k + r) <? u64max1) eqn:E4; [lia|reflexivity].
    + destruct (total + (g + k + r) <? u64max1) eqn:E4; [lia|reflexivity].
Qed.

(* IntrinsicGas is the exact (unbounded) sum when that fits 64 bits and the overflow error otherwise: never a wrapped value *)
Theorem intrinsic_gas_exact_l cl :
  intrinsic_gas cl = if intrinsic_gas_math cl <? u64max1 then Some (intrinsic_gas_math cl) else None.
Proof.
  unfold intrinsic_gas, intrinsic_gas_math. destruct cl as [|c cl]; [reflexivity|].
  apply intrinsic_loop_spec. unfold u64max1. lia.
Qed.
Lemma data_gas_math_bound d : data_gas_math d <= 68 * lenN d.
Proof. unfold data_gas_math. pose proof (count_zero_le d). lia. Qed.
Lemma clauses_gas_math_bound cl : clauses_gas_math cl <= 68 * lenN (concat (map c_data cl)) + 48000 * lenN cl.
Proof.
  induction cl as [|c cl IH]; [cbn; lia|]. cbn [clauses_gas_math map concat]. rewrite lenN_app, lenN_cons.
  pose proof (data_gas_math_bound (c_data c)). unfold clause_gas. destruct (is_nil (c_to c)); lia.
Qed.
(* it cannot fail for any transaction whose clause data is below 2^56 bytes in total and that respects the clause bound *)
Theorem intrinsic_gas_total_l cl : lenN cl <= max_clauses -> lenN (concat (map c_data cl)) < 2 ^ 56 ->
  exists g, intrinsic_gas cl = Some g /\ g = intrinsic_gas_math cl.
Proof.
  intros Hc Hd. rewrite intrinsic_gas_exact_l. pose proof (clauses_gas_math_bound cl) as Hb.
  assert (H : intrinsic_gas_math cl < u64max1).
  { unfold intrinsic_gas_math, u64max1, max_clauses in *. change (2 ^ 56) with 72057594037927936 in Hd. destruct cl; lia. }
  destruct (intrinsic_gas_math cl <? u64max1) eqn:E; [|lia]. eexists. split; reflexivity.
Qed.

Lemma uint8_wf i : i < u64max1 -> wfp (c_uint 8) i.
Proof. intros H. apply c_uint_wf; [apply N.le_refl|]. change (256 ^ 8) with u64max1. exact H. Qed.
Lemma root_key_prefix_free i j r : i < u64max1 -> j < u64max1 -> enc (c_uint 8) j = enc (c_uint 8) i ++ r -> i = j /\ r = [].
Proof.
  intros Hi Hj E. assert (Wi : wfp (c_uint 8) i) by (apply uint8_wf; exact Hi).
  assert (Wj : wfp (c_uint 8) j) by (apply uint8_wf; exact Hj).
  rewrite <- (app_nil_r (enc (c_uint 8) j)) in E. symmetry in E.
  destruct (codec_inj_app (c_uint 8) i j r [] (c_uint_ok 8) Wi Wj E) as [-> ->]. tauto.
Qed.

Lemma root_pairs_from_in i vals k v : In (k, v) (root_pairs_from i vals) ->
  exists n, (n < length vals)%nat /\ k = enc (c_uint 8) (i + N.of_nat n) /\ nth_error vals n = Some v.
Proof.
  revert i. induction vals as [|v0 t IH]; intros i H; [contradiction|]. cbn [root_pairs_from] in H. destruct H as [H|H].
  - inversion H; subst. exists O. cbn [length nth_error]. split; [lia|]. split; [|reflexivity].
    replace (i + N.of_nat 0) with i by lia. reflexivity.
  - destruct (IH _ H) as [n [Hn [Hk Hv]]]. exists (S n). cbn [length nth_error]. split; [lia|]. split; [|exact Hv].
    rewrite Hk. replace (i + 1 + N.of_nat n) with (i + N.of_nat (S n)) by lia. reflexivity.
Qed.
Lemma root_pairs_from_nth i vals n v : nth_error vals n = Some v -> In (enc (c_uint 8) (i + N.of_nat n), v) (root_pairs_from i vals).
Proof.
  revert i n. induction vals as [|v0 t IH]; intros i n H; [destruct n; discriminate|]. destruct n as [|n]; cbn [nth_error] in H.
  - inversion H; subst. left. replace (i + N.of_nat 0) with i by lia. reflexivity.
  - right. specialize (IH (i + 1) n H). replace (i + N.of_nat (S n)) with (i + 1 + N.of_nat n) by lia. exact IH.
Qed.

Lemma nth_error_ext' {A} (l1 l2 : list A) : (forall n, nth_error l1 n = nth_error l2 n) -> l1 = l2.
Proof.
  revert l2. induction l1 as [|x l1 IH]; intros [|y l2] H; try reflexivity.
  - specialize (H O). discriminate.
  - specialize (H O). discriminate.
  - pose proof (H O) as H0. cbn in H0. inversion H0; subst. f_equal. apply IH. intros n. exact (H (S n)).
Qed.

(* the SET of pairs (what a key-value map such as the trie can see) determines the ORDERED list *)
Theorem root_pairs_determine_list_l l1 l2 :
  lenN l1 < u64max1 -> lenN l2 < u64max1 ->
  (forall k v, In (k, v) (root_pairs l1) <-> In (k, v) (root_pairs l2)) -> l1 = l2.
Proof.
  intros H1 H2 Hset.
  assert (key_inj : forall a b, a < u64max1 -> b < u64max1 -> enc (c_uint 8) a = enc (c_uint 8) b -> a = b).
  { intros a b Ha Hb E. apply (codec_inj (c_uint 8) a b (c_uint_ok 8)); [apply uint8_wf; exact Ha|apply uint8_wf; exact Hb|exact E]. }
  assert (sub : forall la lb, lenN la < u64max1 -> lenN lb < u64max1 ->
            (forall k v, In (k, v) (root_pairs la) -> In (k, v) (root_pairs lb)) ->
            forall n v, nth_error la n = Some v -> nth_error lb n = Some v).
  { intros la lb Ha Hb Hin n v Hn. pose proof (root_pairs_from_nth 0 la n v Hn) as Hp. apply Hin in Hp.
    apply root_pairs_from_in in Hp. destruct Hp as [m [Hm [Hk Hv]]].
    assert (Hnl : (n < length la)%nat) by (apply nth_error_Some; congruence).
    apply key_inj in Hk; unfold lenN in *; try lia. assert (m = n) by lia. subst m. exact Hv. }
  apply nth_error_ext'. intros n.
  destruct (nth_error l1 n) as [v|] eqn:E1.
  - symmetry. apply (sub l1 l2 H1 H2 (fun k v => proj1 (Hset k v)) n v E1).
  - destruct (nth_error l2 n) as [w|] eqn:E2; [|reflexivity].
    pose proof (sub l2 l1 H2 H1 (fun k v => proj2 (Hset k v)) n w E2). congruence.
Qed.

(* the values (MarshalBinary forms) determine the transactions *)
Definition wf_bin (t : tx) : Prop := if t_dyn t then wfp c_dyn t else wfp c_legacy t.
Lemma tx_marshal_inj a b : wf_bin a -> wf_bin b -> tx_marshal a = tx_marshal b -> a = b.
Proof.
  intros Wa Wb E. pose proof (tx_unmarshal_complete_l a Wa) as Ha. pose proof (tx_unmarshal_complete_l b Wb) as Hb.
  rewrite E in Ha. congruence.
Qed.
Lemma map_inj_on {A B} (P : A -> Prop) (f : A -> B) : (forall a b, P a -> P b -> f a = f b -> a = b) ->
  forall l1 l2, Forall P l1 -> Forall P l2 -> map f l1 = map f l2 -> l1 = l2.
Proof.
  intros Hf. induction l1 as [|a l1 IH]; intros [|b l2] W1 W2 E; try reflexivity; try discriminate.
  inversion W1; inversion W2; subst. cbn [map] in E. inversion E. f_equal; [apply Hf; assumption|apply IH; assumption].
Qed.
Theorem txs_values_determine_l l1 l2 : Forall wf_bin l1 -> Forall wf_bin l2 -> map tx_marshal l1 = map tx_marshal l2 -> l1 = l2.
Proof. apply map_inj_on, tx_marshal_inj. Qed.
