(* Compose/CrashBftFork.v — a second, non-degenerate instance of the Crash <-> Bft bridge (Compose/CrashBft.v):
   epoch length 4, THREE proposer slots (count mode: a round is justified by more than 3*2/3 = 2 distinct signers, committed
   by more than 2 COM votes), a non-COM vote, and a FORK: main chain 1..11, side branch 6', 7' off block 5 whose round has
   only two distinct signers (not justified: quality 1 at 7' against 2 at 7).  The crash-side flags of every block are
   computed by the Bft tally at import time ([mk_hist]: exactly the coupling premise blk_flags_ok); everything else is
   checked: the premises of hist_ok, the derived coupling flags_are_tallies on the final and on a resumed store
   (vm_compute of the tally over the abstracted store), and that the abstraction of the crash store is the Bft node that
   imported the same blocks (13 blocks, best = block 11, finalized = block 4, quality records 1 2 1 3). *)
From Coq Require Import List NArith Bool Lia.
From Verif Require Import Crash.Model Crash.ProofsStore Crash.ProofsInv Crash.ProofsImport Crash.ProofsCrash Crash.Examples
  Crash.ProofsEqv Crash.ProofsShape Crash.ProofsResumeAll Crash.ProofsResume Crash.ProofsQuality.
From Verif Require Import Compose.CrashBft.
Import ListNotations.
Open Scope N_scope.

Definition fcfg : cfg := mkCfg 4 (bid 0 7).
Definition fbc : BM.cfg := BM.mkCfg 4 3 false 0 [].
(* the low bits of an id encode the signer (mod 3) and the COM bit (100..199: non-COM) *)
Definition fsg (id : N) : N := (id mod P224) mod 3.
Definition fcm (id : N) : bool := negb ((id mod P224) / 100 =? 1).
Definition fmaster : N := 9.
Definition fs0 : store := genesis_store ex_gen.
Definition fnode : BM.node := gnode tr_small fsg fcm fmaster ex_gen.

(* (number, tail, parent number, parent tail, score) *)
Definition fspecs : list (N * N * N * N * N) :=
  [ (1, 0, 0, 7, 1); (2, 101, 1, 0, 2); (3, 1, 2, 101, 3);                      (* round 0: signers 0, 2 (non-COM), 1 *)
    (4, 0, 3, 1, 4); (5, 1, 4, 0, 5); (6, 2, 5, 1, 6); (7, 3, 6, 2, 7);           (* round 1: signers 0 1 2 0, all COM *)
    (6, 4, 5, 1, 6); (7, 7, 6, 4, 7);                                              (* side branch off block 5: signers 1 1 *)
    (8, 0, 7, 3, 8); (9, 1, 8, 0, 9); (10, 2, 9, 1, 10); (11, 3, 10, 2, 11) ].    (* round 2 on the main chain *)

(* the crash-side block of a spec, its flags taken from the Bft tally over the node that imported the blocks before it *)
Fixpoint mk_hist (nd : BM.node) (l : list (N * N * N * N * N)) : list blk :=
  match l with
  | [] => []
  | (n, k, pn, pk, sc) :: t =>
    let B := ablk_of tr_small fsg fcm (bid n k) (bid pn pk) sc in
    let st := BM.compute_state fbc (BM.n_repo nd) (BM.e_qs (BM.n_eng nd)) B in
    mkBlk (bid n k) (bid pn pk) [] [] [] [(31, 100 + 10 * n + k)] [(41, 200 + 10 * n + k)] [KNode 0 33 0 0] []
          sc (BM.s_just st) (BM.s_comm st)
    :: mk_hist (fst (BM.import true fbc nd B)) t
  end.

Definition fhist : list blk := Eval vm_compute in mk_hist fnode fspecs.
Definition fabs : store -> BM.node := abs fcfg tr_small fsg fcm fmaster.
Definition frun : BM.node := BN.import_all fbc true fnode (map (ablk tr_small fsg fcm) fhist).

(* the flags are not all alike: justified from the third distinct signer of a round on, committed with the third COM vote *)
Lemma fhist_flags :
  map (fun b => (num_of (b_id b), b_just b, b_comm b)) fhist =
  [ (1, false, false); (2, false, false); (3, true, false);
    (4, false, false); (5, false, false); (6, true, true); (7, true, true);
    (6, false, false); (7, false, false);
    (8, false, false); (9, false, false); (10, true, true); (11, true, true) ].
Proof. vm_compute. reflexivity. Qed.

Lemma f_wf_cfg2 : wf_cfg2 fcfg.
Proof. split; [split; reflexivity | reflexivity]. Qed.

Lemma f_ids_ok : ids_ok small fhist.
Proof.
  intros b Hb. unfold fhist in Hb. cbn [In] in Hb.
  repeat (destruct Hb as [<-|Hb]; [split; [vm_compute; reflexivity | split; vm_compute; reflexivity]|]). destruct Hb.
Qed.


(* the history evaluated once, block by block *)
Definition f_blocks : list (list batch) := Eval vm_compute in block_writes fcfg fs0 fhist.
Lemma f_blocks_eq : block_writes fcfg fs0 fhist = f_blocks.
Proof. vm_compute. reflexivity. Qed.

Lemma f_wf_hist : wf_hist fcfg fs0 fhist.
Proof. apply wf_hist_on_sound. rewrite f_blocks_eq. vm_compute. reflexivity. Qed.

Lemma f_flags_hist : flags_hist fbc tr_small fsg fcm fnode fhist.
Proof. apply flags_histb_sound. vm_compute. reflexivity. Qed.

Lemma f_hist_ok : hist_ok fcfg fbc tr_small small fsg fcm fs0 fnode fhist.
Proof. apply hist_ok_intro; [exact f_ids_ok | exact f_wf_hist | exact f_flags_hist]. Qed.

Lemma f_small_gen : small (b_id ex_gen).
Proof. vm_compute. reflexivity. Qed.

Lemma f_bridge_hypotheses :
  BM.c_L fbc = c_L fcfg /\ wf_cfg2 fcfg /\ c_g fcfg = b_id ex_gen /\ small (b_id ex_gen) /\
  wf_hist fcfg fs0 fhist /\ hist_ok fcfg fbc tr_small small fsg fcm fs0 fnode fhist.
Proof.
  split; [reflexivity|]. split; [exact f_wf_cfg2|]. split; [reflexivity|]. split; [exact f_small_gen|].
  split; [exact f_wf_hist | exact f_hist_ok].
Qed.

(* the cut between the block bulk and the quality record of the SIDE store point 7' (the F6 window on a side chain) *)
Definition f_cut : nat := 29.

Definition f_resumed : option store := Eval vm_compute in resume fcfg true (crash fcfg fs0 fhist f_cut) (skipn 8 fhist).
Lemma f_resumed_eq : resume fcfg true (crash fcfg fs0 fhist f_cut) (skipn 8 fhist) = f_resumed.
Proof. rewrite crash_blocks, f_blocks_eq. vm_compute. reflexivity. Qed.

(* the derived coupling, checked on the final store and on the store resumed after that cut *)
Lemma f_flags_are_tallies :
  flags_are_tallies fcfg fbc tr_small fsg fcm fmaster (run fcfg fs0 fhist) /\
  cut_in_import fcfg fs0 fhist f_cut 8 /\
  stored (crash fcfg fs0 fhist f_cut) (bid 7 7) = true /\ has (crash fcfg fs0 fhist f_cut) (KQuality (bid 7 7)) = false /\
  match resume fcfg true (crash fcfg fs0 fhist f_cut) (skipn 8 fhist) with
  | Some r => flags_are_tallies fcfg fbc tr_small fsg fcm fmaster r
  | None => False
  end.
Proof.
  unfold cut_in_import. rewrite f_resumed_eq, !offset_blocks, !crash_blocks, run_blocks, f_blocks_eq. unfold f_resumed.
  split; [apply flags_are_tallies_b_ok; vm_compute; reflexivity|].
  split; [vm_compute; repeat split; auto; lia|]. split; [vm_compute; reflexivity|]. split; [vm_compute; reflexivity|].
  apply flags_are_tallies_b_ok. vm_compute. reflexivity.
Qed.

Definition frun_v : BM.node := Eval vm_compute in frun.
Lemma frun_eq : frun = frun_v.
Proof. vm_compute. reflexivity. Qed.

(* the abstraction of the crash store after the history, and of the store resumed after the cut, is the Bft node that
   imported the thirteen blocks: 14 stored blocks, best = block 11, finalized = block 4; quality records of the store
   points 3, 7, 7' and 11 *)
Lemma f_abs_is_bft_run :
  BM.n_repo (fabs (run fcfg fs0 fhist)) = BM.n_repo frun /\
  BM.n_best (fabs (run fcfg fs0 fhist)) = BM.n_best frun /\
  BM.e_fin (BM.n_eng (fabs (run fcfg fs0 fhist))) = BM.e_fin (BM.n_eng frun) /\
  length (BM.n_repo frun) = 14%nat /\
  BM.n_best frun = tr_small (bid 11 3) /\ BM.e_fin (BM.n_eng frun) = tr_small (bid 4 0) /\
  map (fun id => BM.get_q (BM.e_qs (BM.n_eng frun)) (tr_small id)) [bid 3 1; bid 7 3; bid 7 7; bid 11 3] = [1; 2; 1; 3] /\
  map (fun id => get_quality (run fcfg fs0 fhist) id) [bid 3 1; bid 7 3; bid 7 7; bid 11 3] = [1; 2; 1; 3] /\
  option_map (fun r => (BM.n_repo (fabs r), BM.n_best (fabs r), BM.e_fin (BM.n_eng (fabs r))))
    (resume fcfg true (crash fcfg fs0 fhist f_cut) (skipn 8 fhist)) =
  Some (BM.n_repo frun, BM.n_best frun, BM.e_fin (BM.n_eng frun)).
Proof. rewrite f_resumed_eq, run_blocks, f_blocks_eq, frun_eq. vm_compute. repeat split. Qed.

(* a theorem of CrashBft.v's FromGenesis section APPLIED to this instance: the store resumed after the cut on the side
   chain is simulated by the Bft node that imported the thirteen blocks (same best, finalized, stored set, quality records) *)
Lemma f_resumed_is_bft_run :
  exists r, resume fcfg true (crash fcfg fs0 fhist f_cut) (skipn 8 fhist) = Some r /\
    (exists best, get_id r KBest = Some best /\ BM.n_best frun = tr_small best) /\
    BM.e_fin (BM.n_eng frun) = tr_small (finalized fcfg r) /\
    (forall id, small id -> BT.known (BM.n_repo frun) (tr_small id) = stored r id) /\
    (forall id, small id -> BM.get_q (BM.e_qs (BM.n_eng frun)) (tr_small id) = get_quality r id).
Proof.
  destruct (resumed_is_bft_run fcfg fbc eq_refl tr_small small tr_small_num tr_small_lt fsg fcm fmaster ex_gen
              f_wf_cfg2 eq_refl eq_refl eq_refl eq_refl eq_refl f_small_gen fhist f_cut 8%nat f_wf_hist
              (proj1 (proj2 f_flags_are_tallies)) f_hist_ok) as (r & Hr & _ & Hb & Hf & Hk & Hq).
  exists r. exact (conj Hr (conj Hb (conj Hf (conj Hk Hq)))).
Qed.
