(* Staker/ProofsUser2.v — every user operation preserves the second invariant group (Inv2). *)
From Coq Require Import List NArith Bool Lia.
From Coq Require Import ZifyBool.
From Verif Require Import Common.Util Staker.Model Staker.Base Staker.Lists Staker.Inv Staker.RList Staker.Inv2 Staker.ProofsUser.
Import ListNotations.
Open Scope N_scope.

Opaque e18 two64.

(* the goal state differs from `inner` only in fields that Inv2 does not read *)
Ltac strip inner := apply (Inv2_ext inner); [repeat split|].

Lemma Inv2_pay_in wei s : Inv2 s -> Inv2 (pay_in wei s).
Proof. intros H. strip s. exact H. Qed.

Lemma sub64_le a b : b <= a -> sub64 a b <= a - b.
Proof.
  intros H. unfold sub64. replace (a + 18446744073709551616 - b) with (a - b + 1 * 18446744073709551616) by lia.
  rewrite N.mod_add by discriminate. apply N.mod_le. discriminate.
Qed.

Lemma increase_stake_inv2 a e vet s s' x :
  increase_stake a e vet (pay_in (vet * e18) s) = Ok (s', x) -> Inv2 s -> Inv2 s'.
Proof.
  intros H HI. unfold increase_stake in H.
  bstep H v Hv. apply get_or_revert_ok in Hv. change (getv s a = Some v) in Hv.
  bstep H u1 G1. bstep H u2 G2. bstep H u3 G3. bstep H u4 G4. bstep H u5 G5. bstep H u6 G6.
  inversion H; subst s' x; clear H. gfacts. apply N.eqb_eq in G3.
  set (v' := set_queued (v_queued v + vet) v).
  strip (rl_add a (setv a v' (pay_in (vet * e18) s))).
  apply (Inv2_rl_add _ a v'); [|apply getv_setv_same|exact G3].
  apply (Inv2_setv _ a v); auto; try reflexivity; try lia; try (intros _; split; reflexivity).
  - apply Inv2_pay_in; auto.
  - intros E. rewrite G3 in E. discriminate.
  - intros E. apply (j_w1 _ HI a v Hv E).
Qed.

Lemma decrease_stake_inv2 a e vet s s' x : decrease_stake a e vet s = Ok (s', x) -> Inv2 s -> Inv2 s'.
Proof.
  intros H HI. unfold decrease_stake in H.
  bstep H u0 G0. bstep H v Hv. apply get_or_revert_ok in Hv.
  bstep H u1 G1. bstep H u2 G2. bstep H u3 G3. bstep H u4 G4. bstep H u5 G5. bstep H u6 G6. bstep H u7 G7.
  inversion H; subst s' x; clear H. gfacts. apply N.eqb_eq in G3.
  set (v' := set_punlock (v_punlock v + vet) v).
  apply (Inv2_rl_add _ a v'); [|apply getv_setv_same|exact G3].
  apply (Inv2_setv _ a v); auto; try reflexivity; try lia.
  { intros E. rewrite G3 in E. discriminate. }
  intros E. destruct (j_w1 _ HI a v Hv E) as [_ P]. pose proof (sub64_le (v_locked v) (v_punlock v)).
    apply negb_true_iff, N.ltb_ge in G5, G6. unfold MinStakeVET in G6. cbn [v' set_punlock set_amounts v_punlock]. lia.
Qed.

Lemma signal_exit_inv2 c a e s s' x : signal_exit c a e s = Ok (s', x) -> Inv2 s -> Inv2 s'.
Proof.
  intros H HI. unfold signal_exit in H.
  bstep H v Hv. apply get_or_revert_ok in Hv. bstep H u1 G1. bstep H u2 G2. bstep H u3 G3. bstep H cur Hc. bstep H s1 Hs.
  inversion H; subst s' x; clear H. gfacts. apply N.eqb_eq in G2.
  apply svc_signal_exit_shape in Hs; [|discriminate]. destruct Hs as [v2 [eb [cur2 [Hv2 [Hfree ->]]]]].
  assert (v2 = v) by congruence. subst v2.
  apply Inv2_signal_exit; auto. destruct (v_exit v); [discriminate|reflexivity].
Qed.

Lemma set_online_inv2 a on s s' x : set_online a on s = Ok (s', x) -> Inv2 s -> Inv2 s'.
Proof.
  intros H HI. unfold set_online in H. bstep H v Hv. unfold get_existing in Hv. apply of_opt_ok in Hv.
  inversion H; subst s' x; clear H. apply (Inv2_setv _ a v); auto; try reflexivity; try lia; try (intros _; split; reflexivity).
  intros E. apply (j_w1 _ HI a v Hv E).
Qed.

Lemma set_beneficiary_inv2 a e b s s' x : set_beneficiary a e b s = Ok (s', x) -> Inv2 s -> Inv2 s'.
Proof.
  intros H HI. unfold set_beneficiary in H. bstep H v Hv. apply get_or_revert_ok in Hv.
  bstep H u1 G1. bstep H u2 G2. inversion H; subst s' x; clear H. apply (Inv2_setv _ a v); auto; try reflexivity; try lia; try (intros _; split; reflexivity).
  intros E. apply (j_w1 _ HI a v Hv E).
Qed.

Lemma increase_reward_inv2 a amt s s' x : increase_reward a amt s = Ok (s', x) -> Inv2 s -> Inv2 s'.
Proof.
  intros H HI. unfold increase_reward in H. bstep H v Hv. bstep H cur Hc. inversion H; subst s' x; clear H.
  strip s. exact HI.
Qed.

Lemma current_iteration_queued v b : v_status v = StatusQueued -> current_iteration v b = Ok 0.
Proof. intros E. unfold current_iteration. rewrite E. reflexivity. Qed.

Lemma add_delegation_inv2 a vet mult s s' x :
  add_delegation a vet mult (pay_in (vet * e18) s) = Ok (s', x) -> Inv1 s -> Inv2 s -> Inv2 s'.
Proof.
  intros H [_ _ _ _ _ _ I7] HI. unfold add_delegation in H.
  bstep H u1 G1. bstep H u2 G2. bstep H v Hv. apply get_or_revert_ok in Hv. change (getv s a = Some v) in Hv.
  bstep H u3 G3. bstep H u4 G4. bstep H u5 G5. bstep H cur Hc. bstep H s2 Hp. bstep H u6 G6.
  inversion H; subst s' x; clear H. clear G1 G2 G4 G5 G6 Hc.
  unfold aggs_add_pending in Hp. bstep Hp pw Hpw. destruct pw as [pv pw]. inversion Hp; subst s2; clear Hp.
  apply ws_add_ok in Hpw. cbn [fst snd] in Hpw. destruct Hpw as [Epv Epw].
  set (s0 := pay_in (vet * e18) s) in *.
  set (id := del_ctr s0 + 1) in *. set (d := mkD a vet mult None (cur + 1)) in *.
  set (sd := w_dels (upd (dels s0) id d) id s0) in *.
  change (get_agg sd a) with (get_agg s0 a) in *.
  set (ag := mkA (a_lv (get_agg s0 a)) (a_lw (get_agg s0 a)) pv pw (a_ev (get_agg s0 a)) (a_ew (get_agg s0 a))) in *.
  assert (Hfresh : get (dels s0) id = None).
  { change (dels s0) with (dels s). destruct (get (dels s) id) as [dd|] eqn:E; auto. apply I7 in E. unfold id in E. change (del_ctr s0) with (del_ctr s) in E. lia. }
  assert (I0 : Inv2 (set_agg a ag sd)).
  { apply (Inv2_deleg s0 id d None ag id a v); auto.
    - apply Inv2_pay_in; auto.
    - intros o Ho. discriminate.
    - intros _. cbn. lia. }
  assert (Hfin : Inv2 (add_queued vet (set_agg a ag sd))) by (strip (set_agg a ag sd); exact I0).
  destruct (v_status v =? StatusActive) eqn:Es; [|exact Hfin].
  apply N.eqb_eq in Es. apply (Inv2_rl_add _ a v); auto.
Qed.

Lemma started_active d v b stt : d_started d v b = Ok stt -> stt = true ->
  v_status v <> StatusQueued /\ v_status v <> StatusUnknown.
Proof.
  unfold d_started. intros H ->. destruct ((v_status v =? StatusQueued) || (v_status v =? StatusUnknown)) eqn:E; [inversion H|].
  apply orb_false_iff in E as [E1 E2]. apply N.eqb_neq in E1, E2. auto.
Qed.

Lemma not_ended_active d v b en : d_started d v b = Ok true -> d_ended d v b = Ok en -> en = false -> v_status v <> StatusExit.
Proof.
  unfold d_ended. intros Hs H ->. destruct (v_status v =? StatusQueued) eqn:E1; [apply N.eqb_eq in E1; rewrite E1; discriminate|].
  rewrite Hs in H. cbn in H. destruct (v_status v =? StatusExit) eqn:E2; [cbn in H; discriminate|]. apply N.eqb_neq in E2. auto.
Qed.

Lemma signal_delegation_exit_inv2 id s s' x : signal_delegation_exit id s = Ok (s', x) -> Inv2 s -> Inv2 s'.
Proof.
  intros H HI. unfold signal_delegation_exit in H.
  destruct (get (dels s) id) as [d|] eqn:Ed; [|discriminate].
  bstep H u1 G1. bstep H u2 G2. bstep H v Hv. unfold get_existing in Hv. apply of_opt_ok in Hv.
  bstep H stt Hst. bstep H u3 G3. bstep H en Hen. bstep H u4 G4. bstep H cur Hc.
  bstep H s2 Hp. inversion H; subst s' x; clear H. gfacts. subst stt. apply negb_true_iff in G4. subst en.
  unfold aggs_signal_exit in Hp. bstep Hp ew Hew. destruct ew as [ev ew]. inversion Hp; subst s2; clear Hp.
  set (d' := mkD (d_val d) (d_stake d) (d_mult d) (Some cur) (d_first d)) in *.
  set (sd := w_dels (upd (dels s) id d') (del_ctr s) s) in *.
  change (get_agg sd (d_val d)) with (get_agg s (d_val d)) in *.
  destruct (started_active _ _ _ _ Hst eq_refl) as [Nq Nu]. pose proof (not_ended_active _ _ _ _ Hst Hen eq_refl) as Ne.
  set (ag := mkA _ _ _ _ ev ew) in *.
  assert (Hact : v_status v = StatusActive) by (destruct (j_st _ HI _ _ Hv) as [E|[E|E]]; congruence).
  assert (I0 : Inv2 (set_agg (d_val d) ag sd)).
  { apply (Inv2_deleg s id d' (Some d) ag (del_ctr s) (d_val d) v); auto.
    - intros o Ho. inversion Ho; auto.
    - intros Hna. congruence. }
  destruct (v_status v =? StatusActive); [|exact I0].
  apply (Inv2_rl_add _ (d_val d) v); auto.
Qed.

Lemma withdraw_delegation_inv2 id s s1 x s2 :
  withdraw_delegation id s = Ok (s1, x) -> pay_out x s1 = Ok s2 -> Inv2 s -> Inv2 s2.
Proof.
  intros H Hpay HI. unfold withdraw_delegation in H.
  destruct (get (dels s) id) as [d|] eqn:Ed; [|discriminate].
  bstep H v Hv. unfold get_existing in Hv. apply of_opt_ok in Hv.
  bstep H stt Hst. bstep H fi Hfi. bstep H u1 G1. bstep H sb Hb. bstep H u2 G2.
  inversion H; subst s1 x; clear H. clear G1 G2.
  unfold pay_out in Hpay. bstep Hpay u3 G3. bstep Hpay u4 G4. inversion Hpay; subst s2; clear Hpay G3 G4.
  strip sb.
  set (d' := mkD (d_val d) 0 (d_mult d) (d_last d) (d_first d)) in *.
  set (sd := w_dels (upd (dels s) id d') (del_ctr s) s) in *.
  assert (Hq : v_status v = StatusQueued -> negb stt && negb (v_status v =? StatusExit) = true).
  { intros E. unfold d_started in Hst. rewrite E in Hst. cbn in Hst. inversion Hst; subst. rewrite E. reflexivity. }
  destruct (negb stt && negb (v_status v =? StatusExit)) eqn:Eb.
  - bstep Hb sa Ha. unfold aggs_sub_pending in Ha. bstep Ha pw Hpw. destruct pw as [pv pw]. inversion Ha; subst sa; clear Ha.
    apply ws_sub_ok in Hpw. cbn [fst snd] in Hpw. destruct Hpw as [Epv [Epw [Lpv Lpw]]].
    unfold remove_queued in Hb. bstep Hb q Hq'. inversion Hb; subst sb; clear Hb.
    change (get_agg sd (d_val d)) with (get_agg s (d_val d)) in *.
    set (ag := mkA _ _ pv pw _ _) in *.
    strip (set_agg (d_val d) ag sd).
    apply (Inv2_deleg s id d' (Some d) ag (del_ctr s) (d_val d) v); auto.
    + intros o Ho. inversion Ho; auto.
    + intros _. cbn. lia.
  - unfold remove_withdrawable in Hb. bstep Hb y Hy. inversion Hb; subst sb; clear Hb.
    strip sd. apply (Inv2_deleg_only s id d' d (del_ctr s) (d_val d) v); auto.
    intros E. specialize (Hq E). discriminate.
Qed.

Definition money_only (s s' : st) : Prop :=
  exists q wd cd e b, s' = w_money e b (w_glob (g_lv s) (g_lw s) q wd cd s).

Lemma money_only_refl s : money_only s s.
Proof. exists (g_q s), (g_wd s), (g_cd s), (eff s), (bal s). destruct s; reflexivity. Qed.
Lemma money_only_trans s1 s2 s3 : money_only s1 s2 -> money_only s2 s3 -> money_only s1 s3.
Proof. intros [q [wd [cd [e [b ->]]]]] [q' [wd' [cd' [e' [b' ->]]]]]. exists q', wd', cd', e', b'. reflexivity. Qed.
Lemma money_only_same2 s s' : money_only s s' -> same2 s s'.
Proof. intros [q [wd [cd [e [b ->]]]]]. repeat split. Qed.

Lemma mo_remove_queued x s s' : remove_queued x s = Ok s' -> money_only s s'.
Proof. unfold remove_queued. intros H. bstep H y Hy. inversion H; subst. exists y, (g_wd s), (g_cd s), (eff s), (bal s). destruct s; reflexivity. Qed.
Lemma mo_add_withdrawable x s s' : add_withdrawable x s = Ok s' -> money_only s s'.
Proof. unfold add_withdrawable. intros H. bstep H y Hy. inversion H; subst. exists (g_q s), y, (g_cd s), (eff s), (bal s). destruct s; reflexivity. Qed.
Lemma mo_remove_withdrawable x s s' : remove_withdrawable x s = Ok s' -> money_only s s'.
Proof. unfold remove_withdrawable. intros H. bstep H y Hy. inversion H; subst. exists (g_q s), y, (g_cd s), (eff s), (bal s). destruct s; reflexivity. Qed.
Lemma mo_remove_cooldown x s s' : remove_cooldown x s = Ok s' -> money_only s s'.
Proof. unfold remove_cooldown. intros H. bstep H y Hy. inversion H; subst. exists (g_q s), (g_wd s), y, (eff s), (bal s). destruct s; reflexivity. Qed.
Lemma mo_add_cooldown x s s' : add_cooldown x s = Ok s' -> money_only s s'.
Proof. unfold add_cooldown. intros H. bstep H y Hy. inversion H; subst. exists (g_q s), (g_wd s), y, (eff s), (bal s). destruct s; reflexivity. Qed.
Lemma mo_pay_out x s s' : pay_out x s = Ok s' -> money_only s s'.
Proof. unfold pay_out. intros H. bstep H u1 G1. bstep H u2 G2. inversion H; subst. exists (g_q s), (g_wd s), (g_cd s), (eff s - x * e18), (bal s - x * e18). destruct s; reflexivity. Qed.
Lemma mo_cond (b : bool) (f : st -> res st) s s' :
  (forall t t', f t = Ok t' -> money_only t t') -> (if b then f s else Ok s) = Ok s' -> money_only s s'.
Proof. intros Hf H. destruct b; [eauto|inversion H; apply money_only_refl]. Qed.

(* WithdrawStake followed by the transfer: up to the counters and the money, the record is rewritten in place, or,
   for a validation still queued, taken off the queue with its aggregation reset *)
Lemma withdraw_stake_shape c a e s s1 x s2 :
  withdraw_stake c a e s = Ok (s1, x) -> pay_out x s1 = Ok s2 ->
  exists v sb, getv s a = Some v /\ money_only sb s2 /\
    if v_status v =? StatusQueued
    then exists s1' e1,
      ll_remove false a (set_status StatusExit (set_amounts (v_locked v) (v_punlock v) 0 (v_cooldown v) 0 (v_weight v) v)) s
        = Ok (s1', e1) /\ sb = set_agg a agg0 s1'
    else sb = setv a (set_amounts (v_locked v) (v_punlock v) 0 (if cooldown_ended c v (blk s) then 0 else v_cooldown v) 0 (v_weight v) v) s.
Proof.
  intros H Hpay. unfold withdraw_stake in H.
  bstep H v Hv. apply get_or_revert_ok in Hv. bstep H u1 G1.
  bstep H r Hr. destruct r as [[[sa wd] q] cd].
  bstep H sb Hb. bstep H sc Hc. bstep H sd Hd. bstep H se He. bstep H t1 Ht1. bstep H tot Htot. bstep H u2 Hcb.
  inversion H; subst s1 x; clear H.
  assert (M : money_only sb s2).
  { eapply money_only_trans; [eapply (mo_cond _ (remove_withdrawable wd)); [apply mo_remove_withdrawable|exact Hc]|].
    eapply money_only_trans; [eapply (mo_cond _ (remove_queued q)); [apply mo_remove_queued|exact Hd]|].
    eapply money_only_trans; [eapply (mo_cond _ (remove_cooldown cd)); [apply mo_remove_cooldown|exact He]|].
    eapply mo_pay_out; eauto. }
  exists v. unfold svc_withdraw_stake in Hr. destruct (v_status v =? StatusQueued).
  - bstep Hr r1 Hrm. destruct r1 as [s1' e1]. inversion Hr; subst sa wd q cd; clear Hr.
    exists (set_agg a agg0 s1'). split; [exact Hv|]. split; [|eauto].
    apply (money_only_trans _ sb); [|exact M]. unfold aggs_exit in Hb. cbn [e_qdec] in Hb. destruct (0 <? a_pv (get_agg s1' a)).
    + bstep Hb s1b Hq. eapply money_only_trans; [eapply mo_remove_queued; eauto|eapply mo_add_withdrawable; eauto].
    + inversion Hb. apply money_only_refl.
  - inversion Hr; subst sa wd q cd; clear Hr. inversion Hb; subst sb; clear Hb. eauto.
Qed.

Lemma withdraw_stake_inv2 c a e s s1 x s2 la lq :
  withdraw_stake c a e s = Ok (s1, x) -> pay_out x s1 = Ok s2 -> WF s la lq -> Inv2 s -> Inv2 s2.
Proof.
  intros H Hpay Hwf HI. destruct (withdraw_stake_shape _ _ _ _ _ _ _ H Hpay) as [v [sb [Hv [M Hsh]]]].
  apply (Inv2_ext sb); [apply money_only_same2; auto|]. clear M H Hpay.
  destruct (v_status v =? StatusQueued) eqn:Est.
  - apply N.eqb_eq in Est. destruct Hsh as [s1' [e1 [Hrm ->]]].
    set (v1 := set_status StatusExit (set_amounts (v_locked v) (v_punlock v) 0 (v_cooldown v) 0 (v_weight v) v)) in *.
    assert (Hin : In a lq) by (apply (wf_st _ _ _ Hwf a v Hv); auto).
    destruct (WF_remove false s la lq a v1 s1' e1 v Hwf Hrm Hv Hin eq_refl eq_refl eq_refl)
      as [l1 [l2 [El [Hwf1 [Hlo [Hga [Hce [Hco [Hsum Hno]]]]]]]]].
    destruct (lists_only_ex _ _ Hlo) as [vs1 [a1 [q1 Es1]]]. subst s1'. set (s1' := w_vals vs1 (w_act a1 (w_que q1 s))) in *.
    assert (Hw0 : v_weight v = 0) by (apply (j_w0 _ HI a v Hv); rewrite Est; discriminate).
    destruct (core_eq _ _ Hce) as [Cs [Cc [Cw [Cl [Cp [Cq Cx]]]]]].
    apply (Inv2_to_exit s _ a v e1); auto.
    + intros b Hne.
      split; [apply (Hno b Hne)|intros y Hy; apply (Hco b y Hne Hy)].
    + rewrite Cw. exact Hw0.
    + cbn. lia.
    + destruct (core_sums _ Hsum) as [_ [_ [_ [_ S]]]]. cbn in S |- *. lia.
    + intros b Hb' Hg. destruct (N.eq_dec a 0); auto. destruct (j_exit _ HI b a Hg n Hb') as [y [Hy [Hs _]]]. assert (y = v) by congruence. subst y. rewrite Est in Hs. discriminate.
    + destruct (j_ren _ HI) as [lr [R A]]. exists lr. split.
      * apply (RWF_ext s _ lr); auto.
      * intros b Hb'. destruct (A b Hb') as [y [Hy Hs]]. split; [intros ->; assert (y = v) by congruence; subst y; rewrite Est in Hs; discriminate|eauto].
  - subst sb. apply (Inv2_setv _ a v); auto; try reflexivity; try (intros _; split; reflexivity).
    + cbn. destruct (cooldown_ended c v (blk s)); lia.
    + intros E. rewrite E in Est. discriminate.
    + intros E. apply (j_w1 _ HI a v Hv E).
Qed.

Lemma add_validation_inv2 c a e p vet s s' x la lq :
  add_validation c a e p vet (pay_in (vet * e18) s) = Ok (s', x) -> WF s la lq -> Inv2 s -> Inv2 s'.
Proof.
  intros H Hwf HI. unfold add_validation in H.
  bstep H u1 G1. bstep H u2 G2. bstep H u3 G3. bstep H u4 G4. bstep H u5 G5. bstep H s1 Hadd. bstep H u6 G6.
  inversion H; subst s' x; clear H. gfacts.
  assert (Hnone : getv (pay_in (vet * e18) s) a = None).
  { change (getv (pay_in (vet * e18) s) a) with (getv s a) in *. destruct (getv s a); [discriminate|reflexivity]. }
  set (e0 := mkV e None p 0 StatusQueued 0 None None 0 0 vet 0 0 0 None None) in *.
  destruct (WF_add_new _ la lq a e0 s1 (WF_pay_in _ _ _ _ Hwf) Hnone Hadd eq_refl eq_refl) as [Hwf1 [Hlo [Hco [Hno Hsum]]]].
  destruct (lists_only_ex _ _ Hlo) as [vs1 [a1 [q1 Es1]]]. subst s1.
  set (s1 := w_vals vs1 (w_act a1 (w_que q1 (pay_in (vet * e18) s)))) in *. strip s1.
  assert (Hga : exists e1, getv s1 a = Some e1 /\ core e1 = core e0).
  { destruct (ll_add_wf false a e0 (pay_in (vet * e18) s) s1 lq Hadd (wf_q _ _ _ (WF_pay_in _ _ _ _ Hwf))) as [_ [Hg _]]; auto.
    - intros Hx. destruct (seg_in_get _ _ _ _ _ _ (wl_seg _ _ _ (wf_q _ _ _ Hwf)) Hx) as [y Hy].
      change (getv (pay_in (vet * e18) s) a) with (getv s a) in Hnone. congruence.
    - eexists. split; [exact Hg|reflexivity]. }
  destruct Hga as [e1 [Hg1 Hc1]]. destruct (core_eq _ _ Hc1) as [Cs [Cc [Cw [Cl [Cp [Cq Cx]]]]]].
  apply (Inv2_new s s1 a e1); auto.
  - intros b Hne. split; [apply (Hno b Hne)|intros y Hy; apply (Hco b y Hne Hy)].
  - rewrite Cq. cbn. apply negb_true_iff, N.ltb_ge in G1. unfold MinStakeVET in G1. lia.
  - rewrite Cw. apply (core_sums _ Hsum).
Qed.

Definition is_block_op (o : op) : bool := match o with OBlock => true | _ => false end.

Lemma user_run_inv2 c o s s' x la lq :
  is_block_op o = false -> run_op c o s = Ok (s', x) -> WF s la lq -> Inv1 s -> Inv2 s -> Inv2 s'.
Proof.
  intros Hb H Hwf Hi HI. destruct o; try discriminate; cbn [run_op] in H.
  - bstep H u G. eapply add_validation_inv2; eauto.
  - bstep H u G. eapply increase_stake_inv2; eauto.
  - bstep H u G. eapply decrease_stake_inv2; eauto.
  - eapply signal_exit_inv2; eauto.
  - bstep H r Hr. destruct r as [s1 y]. bstep H s2 Hp. inversion H; subst. eapply withdraw_stake_inv2; eauto.
  - eapply set_online_inv2; eauto.
  - eapply set_beneficiary_inv2; eauto.
  - bstep H u G. eapply add_delegation_inv2; eauto.
  - eapply signal_delegation_exit_inv2; eauto.
  - bstep H r Hr. destruct r as [s1 y]. bstep H s2 Hp. inversion H; subst. eapply withdraw_delegation_inv2; eauto.
  - eapply increase_reward_inv2; eauto.
  - inversion H; subst. strip s. exact HI.
  - inversion H; subst. strip s. exact HI.
Qed.
