(* Staker/Inv.v — the invariants: well-formed active / queued lists (WF), the VET counter sums (Inv1), no locked stake in
   the aggregations of non-active validators (InvA); the frame lemmas that carry them through the operations, and WF
   through unlinking a record (WF_remove) and queueing a new one (WF_add_new). *)
From Coq Require Import List NArith Bool Lia.
From Coq Require Import ZifyBool.
From Verif Require Import Common.Util Staker.Model Staker.Base Staker.Lists.
Import ListNotations.
Open Scope N_scope.

Record WF (s : st) (la lq : list N) : Prop := mkWF {
  wf_a : wf_list s (act s) la;
  wf_q : wf_list s (que s) lq;
  wf_st : forall a v, getv s a = Some v ->
     (In a la <-> v_status v = StatusActive) /\ (In a lq <-> v_status v = StatusQueued) /\
     (~ In a la -> ~ In a lq -> v_prev v = None /\ v_next v = None) }.

Record Inv1 (s : st) : Prop := mkInv1 {
  i_lv : g_lv s = sumf v_locked (vals s) + sumf a_lv (aggs s);
  i_q : g_q s = sumf v_queued (vals s) + sumf a_pv (aggs s);
  i_cd : g_cd s = sumf v_cooldown (vals s);
  (* a delegation's stake is counted once: in its validator's aggregation while locked or pending there, else in g_wd *)
  i_wd : g_wd s + sumf a_lv (aggs s) + sumf a_pv (aggs s) = sumf v_withdrawable (vals s) + sumf d_stake (dels s);
  i_eff : eff s = (g_lv s + g_q s + g_wd s + g_cd s) * e18;
  i_bal : eff s <= bal s;
  i_ctr : forall id d, get (dels s) id = Some d -> id <= del_ctr s }.

Definition Inv (s : st) : Prop := exists la lq, WF s la lq /\ Inv1 s.

Definition links_status_kept (s s' : st) : Prop :=
  (forall a v, getv s a = Some v -> exists v', getv s' a = Some v' /\ v_prev v' = v_prev v /\ v_next v' = v_next v /\
                                               v_status v' = v_status v) /\
  (forall a, getv s a = None -> getv s' a = None).

Lemma wf_list_frame s s' ls l : wf_list s ls l -> links_status_kept s s' -> wf_list s' ls l.
Proof.
  intros [H1 H2 H3 H4] [K _]. constructor; auto.
  eapply seg_frame; eauto. intros a _ v Hv. destruct (K a v Hv) as [v' [? [? [? ?]]]]. exists v'; auto.
Qed.

Lemma WF_frame s s' la lq :
  WF s la lq -> act s' = act s -> que s' = que s -> links_status_kept s s' -> WF s' la lq.
Proof.
  intros [Ha Hq Hs] Ea Eq K. constructor.
  - rewrite Ea. eapply wf_list_frame; eauto.
  - rewrite Eq. eapply wf_list_frame; eauto.
  - intros a v' Hv'. destruct (getv s a) as [v|] eqn:Ev.
    + destruct (proj1 K a v Ev) as [v2 [Hv2 [E1 [E2 E3]]]]. rewrite Hv' in Hv2. inversion Hv2; subst v2.
      rewrite E1, E2, E3. apply Hs; auto.
    + rewrite (proj2 K a Ev) in Hv'. discriminate.
Qed.

Lemma kept_same_vals s s' : vals s' = vals s -> links_status_kept s s'.
Proof. intros E. unfold links_status_kept, getv. rewrite E. split; eauto. Qed.

Lemma kept_setv s a v v' :
  getv s a = Some v -> v_prev v' = v_prev v -> v_next v' = v_next v -> v_status v' = v_status v ->
  links_status_kept s (setv a v' s).
Proof.
  intros Hv E1 E2 E3. split.
  - intros b vb Hb. destruct (N.eq_dec a b) as [<-|Hne].
    + rewrite Hv in Hb. inversion Hb; subst. exists v'. rewrite getv_setv_same. auto.
    + exists vb. rewrite getv_setv_other; auto.
  - intros b Hb. destruct (N.eq_dec a b) as [<-|Hne]; [congruence|]. rewrite getv_setv_other; auto.
Qed.

Lemma kept_trans s1 s2 s3 : links_status_kept s1 s2 -> links_status_kept s2 s3 -> links_status_kept s1 s3.
Proof.
  intros [A1 B1] [A2 B2]. split.
  - intros a v Hv. destruct (A1 a v Hv) as [v2 [H2 [? [? ?]]]]. destruct (A2 a v2 H2) as [v3 [H3 [? [? ?]]]].
    exists v3. repeat split; auto; congruence.
  - intros a Ha. auto.
Qed.

(* weights of the active members and the total weight are untouched *)
Definition keeps_active (s s' : st) (la : list N) : Prop :=
  (forall a v, In a la -> getv s a = Some v -> exists v', getv s' a = Some v' /\ v_weight v' = v_weight v) /\
  g_lw s' = g_lw s.

Lemma sum_setv (f : validation -> N) a v v' s :
  getv s a = Some v -> sumf f (vals (setv a v' s)) + f v = sumf f (vals s) + f v'.
Proof. intros H. unfold setv; cbn. apply sumf_upd_some; auto. Qed.

Lemma sum_set_agg (f : aggregation -> N) a x s :
  f agg0 = 0 -> sumf f (aggs (set_agg a x s)) + f (get_agg s a) = sumf f (aggs s) + f x.
Proof.
  intros H0. unfold set_agg, get_agg; cbn. destruct (get (aggs s) a) as [old|] eqn:E.
  - apply sumf_upd_some; auto.
  - rewrite (sumf_upd_none f _ _ _ E), H0. lia.
Qed.

Lemma get_agg_upd s s' a x b : aggs s' = upd (aggs s) a x -> get_agg s' b = if a =? b then x else get_agg s b.
Proof. intros E. unfold get_agg. rewrite E, get_upd. destruct (a =? b); reflexivity. Qed.
Lemma get_agg_upd_other s s' a x b : aggs s' = upd (aggs s) a x -> b <> a -> get_agg s' b = get_agg s b.
Proof. intros E Hne. rewrite (get_agg_upd s s' a x b E). apply N.eqb_neq in Hne. rewrite N.eqb_sym, Hne. reflexivity. Qed.
Lemma get_agg_upd_same s s' a x : aggs s' = upd (aggs s) a x -> get_agg s' a = x.
Proof. intros E. rewrite (get_agg_upd s s' a x a E), N.eqb_refl. reflexivity. Qed.
Lemma get_agg_set_agg a x s b : get_agg (set_agg a x s) b = if a =? b then x else get_agg s b.
Proof. apply (get_agg_upd s). reflexivity. Qed.

(* the renewal list operations touch only the renewal list *)
Definition ren_only (s s' : st) : Prop := s' = w_ren (rh s') (rt s') (rprev s') (rnext s') s.
Lemma rl_add_only k s : ren_only s (rl_add k s).
Proof.
  unfold ren_only, rl_add. destruct (k =? 0); [destruct s; reflexivity|].
  destruct (rl_contains k s); [destruct s; reflexivity|]. destruct (rt s =? 0); destruct s; reflexivity.
Qed.
Lemma rl_remove_only k s : ren_only s (rl_remove k s).
Proof.
  unfold ren_only, rl_remove. destruct (k =? 0); [destruct s; reflexivity|].
  destruct (negb (rl_contains k s)); [destruct s; reflexivity|].
  destruct ((mget (rprev s) k =? 0) && (mget (rnext s) k =? 0) && (negb (rh s =? k) || negb (rt s =? k))); [destruct s; reflexivity|].
  destruct (mget (rprev s) k =? 0), (mget (rnext s) k =? 0); destruct s; reflexivity.
Qed.

Lemma Inv1_ren_only s s' : ren_only s s' -> Inv1 s -> Inv1 s'.
Proof. intros E [H1 H2 H3 H4 H5 H6 H7]. rewrite E. constructor; cbn; auto. Qed.
Lemma WF_ren_only s s' la lq : ren_only s s' -> WF s la lq -> WF s' la lq.
Proof.
  intros E H. apply (WF_frame s s' la lq H); try (rewrite E; reflexivity).
  apply kept_same_vals. rewrite E; reflexivity.
Qed.
Lemma keeps_ren_only s s' la : ren_only s s' -> keeps_active s s' la.
Proof.
  intros E. split; [|rewrite E; reflexivity]. intros a v _ Hv. exists v. split; auto.
  unfold getv in *. rewrite E; cbn. auto.
Qed.

Lemma keeps_trans s1 s2 s3 la : keeps_active s1 s2 la -> keeps_active s2 s3 la -> keeps_active s1 s3 la.
Proof.
  intros [A1 B1] [A2 B2]. split; [|congruence].
  intros a v Hin Hv. destruct (A1 a v Hin Hv) as [v2 [H2 E2]]. destruct (A2 a v2 Hin H2) as [v3 [H3 E3]].
  exists v3. split; auto; congruence.
Qed.

Lemma cbc_ok p s u : contract_balance_check p s = Ok u ->
  to_vet (eff s) = g_lv s + g_q s + g_wd s + g_cd s + p /\ to_vet (eff s) <= to_vet (bal s).
Proof.
  unfold contract_balance_check. intros H.
  repeat (apply bind_ok in H as [? [? H]]).
  repeat match goal with
  | H : of_opt _ = Ok _ |- _ => apply of_opt_ok, safe_add_some in H; destruct H as [? ?]
  | H : must _ = Ok _ |- _ => apply must_ok' in H
  end. subst. split; lia.
Qed.

Lemma WF_disjoint s la lq : WF s la lq -> forall b, In b la -> In b lq -> False.
Proof.
  intros [Ha _ Hs] b Hba Hbq. destruct (seg_in_get _ _ _ _ _ _ (wl_seg _ _ _ Ha) Hba) as [vb Hvb].
  destruct (Hs b vb Hvb) as [[S1 _] [[S2 _] _]]. rewrite (S1 Hba) in S2. specialize (S2 Hbq). discriminate.
Qed.

Lemma wf_list_same s s1 ls l :
  wf_list s ls l -> (forall b v, In b l -> getv s b = Some v -> getv s1 b = Some v) -> wf_list s1 ls l.
Proof. intros [Q1 Q2 Q3 Q4] F. constructor; auto. eapply seg_frame; [exact Q1|]. intros b Hb v Hv. exists v. auto. Qed.

Lemma core_eq v v' : core v = core v' ->
  v_status v = v_status v' /\ v_cooldown v = v_cooldown v' /\ v_weight v = v_weight v' /\ v_locked v = v_locked v' /\
  v_punlock v = v_punlock v' /\ v_queued v = v_queued v' /\ v_exit v = v_exit v'.
Proof. intros H. inversion H. repeat split; auto. Qed.
Lemma core_status v v' : core v = core v' -> v_status v = v_status v'.
Proof. intros H. apply (core_eq v v' H). Qed.

Lemma WF_remove w s la lq a e s1 e1 v0 :
  WF s la lq -> ll_remove w a e s = Ok (s1, e1) -> getv s a = Some v0 ->
  In a (if w then la else lq) -> v_prev e = v_prev v0 -> v_next e = v_next v0 -> v_status e = StatusExit ->
  exists l1 l2, (if w then la else lq) = l1 ++ a :: l2 /\
    WF s1 (if w then l1 ++ l2 else la) (if w then lq else l1 ++ l2) /\
    lists_only s s1 /\
    getv s1 a = Some e1 /\ core e1 = core e /\
    (forall b v, b <> a -> getv s b = Some v -> exists v', getv s1 b = Some v' /\ core v' = core v) /\
    (forall f : validation -> N, core_fun f -> sumf f (vals s1) + f v0 = sumf f (vals s) + f e) /\
    (forall b, b <> a -> getv s b = None -> getv s1 b = None).
Proof.
  intros Hwf H Hv0 Hin Ep En Est. pose proof (WF_disjoint _ _ _ Hwf) as Hdisj. destruct Hwf as [Ha Hq Hs].
  set (l := if w then la else lq) in *. set (lo := if w then lq else la).
  assert (Hl : wf_list s (get_ls w s) l) by (destruct w; assumption).
  assert (Hlo : wf_list s (get_ls (negb w) s) lo) by (destruct w; assumption).
  assert (Hd : forall b, In b lo -> ~ In b l) by (intros b H1 H2; destruct w; eapply Hdisj; eauto).
  destruct (ll_remove_wf w a e s s1 e1 l v0 H Hl Hin Hv0 Ep En) as [l1 [l2 [El [Hwl [Ee1 [Hga [Hot [Hlo1 [Hco Hsum]]]]]]]]].
  exists l1, l2. split; auto. split; [|split; [auto|split; [auto|split; [subst e1; reflexivity|split; [|split; [auto|]]]]]].
  - assert (Hna : ~ In a (l1 ++ l2)).
    { pose proof (wl_nodup _ _ _ Hl) as ND. rewrite El in ND. apply NoDup_remove_2 in ND. auto. }
    assert (Hlo' : wf_list s1 (get_ls (negb w) s1) lo).
    { rewrite Hot. apply (wf_list_same s); auto. intros b v Hb Hv.
      assert (Hne : b <> a) by (intros ->; apply (Hd a Hb Hin)).
      destruct (proj2 (Hco b Hne) v Hv) as [v' [Hv' [_ Hsame]]]. rewrite (Hsame (Hd b Hb)) in Hv'. exact Hv'. }
    assert (Hst : forall b vb, getv s1 b = Some vb ->
              (In b (l1 ++ l2) <-> v_status vb = if w then StatusActive else StatusQueued) /\
              (In b lo <-> v_status vb = if w then StatusQueued else StatusActive) /\
              (~ In b (l1 ++ l2) -> ~ In b lo -> v_prev vb = None /\ v_next vb = None)).
    { intros b vb Hb. destruct (N.eq_dec b a) as [->|Hne].
      - rewrite Hga in Hb. inversion Hb; subst vb e1. cbn [v_status v_prev v_next set_next set_prev]. rewrite Est.
        split; [split; [intros Hx; contradiction|destruct w; discriminate]|].
        split; [split; [intros Hx; destruct (Hd a Hx Hin)|destruct w; discriminate]|auto].
      - destruct (getv s b) as [v|] eqn:Ev; [|rewrite (proj1 (Hco b Hne) Ev) in Hb; discriminate].
        destruct (proj2 (Hco b Hne) v Ev) as [v' [Hv' [Ec Hsame]]]. rewrite Hb in Hv'. inversion Hv'; subst v'.
        rewrite (core_status _ _ Ec). destruct (Hs b v Ev) as [S1 [S2 S3]].
        assert (Hiff : In b (l1 ++ l2) <-> In b l) by (rewrite El; symmetry; apply in_mid_ne, Hne).
        rewrite Hiff. unfold l, lo. destruct w; (split; [auto|split; [auto|]]); intros N1 N2; rewrite (Hsame N1); auto. }
    destruct w; constructor; auto; intros b vb Hb; destruct (Hst b vb Hb) as [T1 [T2 T3]]; auto.
  - intros b v Hne Hv. destruct (proj2 (Hco b Hne) v Hv) as [v' [Hv' [Ec _]]]. eauto.
  - intros b Hne. apply (Hco b Hne).
Qed.

Definition InvA (s : st) : Prop :=
  forall a, (forall v, getv s a = Some v -> v_status v <> StatusActive) -> a_lv (get_agg s a) = 0.

Lemma InvA_frame2 s s' :
  InvA s -> links_status_kept s s' ->
  (forall a, (forall v, getv s a = Some v -> v_status v <> StatusActive) -> a_lv (get_agg s' a) = a_lv (get_agg s a)) -> InvA s'.
Proof.
  intros H [K1 K2] Ea a Hna.
  assert (Hs : forall v, getv s a = Some v -> v_status v <> StatusActive).
  { intros v Hv. destruct (K1 a v Hv) as [v' [Hv' [_ [_ Es]]]]. rewrite <- Es. apply (Hna v' Hv'). }
  rewrite (Ea a Hs). apply H; auto.
Qed.

Lemma InvA_frame s s' :
  InvA s -> links_status_kept s s' -> (forall a, a_lv (get_agg s' a) = a_lv (get_agg s a)) -> InvA s'.
Proof. intros H K Ea. apply (InvA_frame2 s); auto. Qed.

Definition InvAll (s : st) : Prop := exists la lq, WF s la lq /\ Inv1 s /\ InvA s.

Lemma WF_add_new s la lq a e s1 :
  WF s la lq -> getv s a = None -> ll_add false a e s = Ok s1 -> v_next e = None -> v_status e = StatusQueued ->
  WF s1 la (lq ++ [a]) /\ lists_only s s1 /\
  (forall b v, b <> a -> getv s b = Some v -> exists v', getv s1 b = Some v' /\ core v' = core v) /\
  (forall b, b <> a -> getv s b = None -> getv s1 b = None) /\
  (forall f : validation -> N, core_fun f -> sumf f (vals s1) = sumf f (vals s) + f e).
Proof.
  intros Hwf Hnone H Hnx Hst. pose proof (WF_disjoint _ _ _ Hwf) as Hdisj. destruct Hwf as [Ha Hq Hs].
  assert (Hnq : ~ In a lq).
  { intros Hx. destruct (seg_in_get _ _ _ _ _ _ (wl_seg _ _ _ Hq) Hx) as [v Hv]. congruence. }
  assert (Hna : ~ In a la).
  { intros Hx. destruct (seg_in_get _ _ _ _ _ _ (wl_seg _ _ _ Ha) Hx) as [v Hv]. congruence. }
  destruct (ll_add_wf false a e s s1 lq H Hq Hnq Hnx) as [Hwl [Hga [Hot [Hlo [Hco Hsum]]]]].
  split; [|split; [auto|split; [|split]]].
  - constructor.
    + change (act s1) with (get_ls (negb false) s1). rewrite Hot. apply (wf_list_same s); [exact Ha|]. intros b v Hb Hv.
      assert (Hne : b <> a) by (intros ->; auto).
      destruct (proj2 (Hco b Hne) v Hv) as [v' [Hv' [_ Hsame]]]. rewrite (Hsame (fun Hx => Hdisj b Hb Hx)) in Hv'. exact Hv'.
    + exact Hwl.
    + intros b vb Hb. destruct (N.eq_dec b a) as [->|Hne].
      * rewrite Hga in Hb. inversion Hb; subst vb. cbn [v_status v_prev v_next set_prev]. rewrite Hst.
        split; [split; [intros Hx; contradiction|discriminate]|].
        split; [split; auto; intros _; apply in_or_app; right; left; auto|].
        intros _ Hx. exfalso. apply Hx, in_or_app. right; left; auto.
      * destruct (getv s b) as [v|] eqn:Ev; [|rewrite (proj1 (Hco b Hne) Ev) in Hb; discriminate].
        destruct (proj2 (Hco b Hne) v Ev) as [v' [Hv' [Ec Hsame]]]. rewrite Hb in Hv'. inversion Hv'; subst v'.
        destruct (Hs b v Ev) as [S1 [S2 S3]]. rewrite (core_status _ _ Ec).
        pose proof (in_mid_ne b a lq [] Hne) as Hiff. rewrite app_nil_r in Hiff.
        split; auto. split; [rewrite Hiff; auto|].
        intros Hn1 Hn2. rewrite Hiff in Hn2. rewrite (Hsame Hn2). auto.
  - intros b v Hne Hv. destruct (proj2 (Hco b Hne) v Hv) as [v' [Hv' [Ec _]]]. eauto.
  - intros b Hne Hb. apply (proj1 (Hco b Hne) Hb).
  - intros f Hf. specialize (Hsum f Hf). rewrite Hnone in Hsum. exact Hsum.
Qed.
