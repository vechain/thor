(* Chain/ProofsChainInv.v — C09 first sentence at chain level (at most once, chain tag, validity window) by
   induction over every history all of whose blocks passed the body / verify rules. *)
From Coq Require Import List NArith Bool Lia ZifyN ZifyNat ZifyBool.
From Verif Require Import Chain.Model Chain.Proofs Chain.ProofsWalk Chain.ProofsSys Chain.ProofsPath Chain.ProofsTx Chain.ProofsAccept.
Import ListNotations.
Open Scope N_scope.

Section ChainInv.
  Variables g gp tag : N.
  Variable U : txrec -> Prop.          (* the transactions that exist; an id determines the body (hash collision freedom) *)
  Hypothesis U_inj : forall t1 t2, U t1 -> U t2 -> tx_id t1 = tx_id t2 -> t1 = t2.
  Hypothesis Hg : num_of g = 0.
  Hypothesis Hgp : num_of gp = max_u32.

  Definition accepted (r : repo) (b : blk) (_ : bool) : Prop := validate r b = V_ok /\ forall t, In t (b_txs b) -> U t.

  Definition tx_in (r : repo) (a : N) (t : txrec) : Prop := exists s b, get_block r a = Some (s, b) /\ In t (b_txs b).

  Definition chain_ok (r : repo) (h : N) : Prop :=
    (forall a t, anc r h a -> tx_in r a t -> U t /\ tx_tag t = tag /\ tx_ref t <= num_of a /\ num_of a <= tx_ref t + tx_exp t) /\
    (forall a1 t1 a2 t2, anc r h a1 -> anc r h a2 -> tx_in r a1 t1 -> tx_in r a2 t2 -> tx_id t1 = tx_id t2 -> a1 = a2) /\
    (forall a s b, anc r h a -> get_block r a = Some (s, b) -> NoDup (map tx_id (b_txs b))).

  Lemma tag_const r : reachable g gp tag accepted r -> r_tag r = tag.
  Proof.
    induction 1 as [|r b conf best r' _ IH _ _ A]; [reflexivity|].
    destruct (add_parent _ _ _ _ _ A) as [ps [_ ->]]. exact IH.
  Qed.

  Lemma tx_in_incl r a t : wf_body r -> tx_in r a t -> forall h, anc r h a -> incl_on r h (tx_id t) a.
  Proof.
    intros WB [s [b [Hb Hin]]] h Ha. unfold get_block in Hb. destruct (get_summary r a) as [s'|] eqn:Hs; [|discriminate].
    destruct (WB a s' Hs) as [b' [B1 [_ [B3 _]]]]. rewrite B1 in Hb. injection Hb as <- <-.
    exists s'. split; [exact Ha|]. split; [exact Hs|]. rewrite B3. apply in_map. exact Hin.
  Qed.

  Lemma incl_tx_in r h x a : wf_body r -> incl_on r h x a -> exists t, tx_in r a t /\ tx_id t = x.
  Proof.
    intros WB [s [Ha [Hs Hin]]]. destruct (WB a s Hs) as [b [B1 [_ [B3 _]]]]. rewrite B3 in Hin.
    apply in_map_iff in Hin. destruct Hin as [t [Et Hin]]. exists t. split; [|exact Et].
    exists s, b. split; [|exact Hin]. unfold get_block. rewrite Hs, B1. reflexivity.
  Qed.

  Theorem accepted_chain_ok r : reachable g gp tag accepted r -> forall h, stored r h -> chain_ok r h.
  Proof.
    induction 1 as [|r b conf best r' R IH V [Hval HU] A].
    - (* genesis only *)
      intros h Sh.
      assert (NoTx : forall a t, ~ tx_in (init_repo g gp tag) a t).
      { intros a t [s [b [Hb Hin]]]. unfold get_block, get_summary, init_repo in Hb. cbn [r_sums afind r_body] in Hb.
        destruct (g =? a); [|discriminate]. cbn [s_conf afind2] in Hb. destruct (eq2 _ _); [|discriminate]. injection Hb as _ <-. destruct Hin. }
      repeat split; intros; try (exfalso; eapply NoTx; eauto; fail).
      unfold get_block, get_summary, init_repo in H0. cbn [r_sums afind r_body] in H0.
      destruct (g =? a); [|discriminate]. cbn [s_conf afind2] in H0. destruct (eq2 _ _); [|discriminate]. injection H0 as _ <-. constructor.
    - pose proof (reachable_wf _ _ _ _ _ Hg R) as W. pose proof (reachable_wf_body _ _ _ _ _ Hg R) as WB.
      pose proof (reachable_wf_txi _ _ _ _ _ Hg R) as WT. pose proof (reachable_conf_inj _ _ _ _ _ Hg R) as CI.
      destruct (add_parent _ _ _ _ _ A) as [ps [Hps _]].
      assert (Sp : stored r (b_parent b)) by (exists ps; exact Hps).
      pose proof (IH _ Sp) as [P1 [P2 P3]].
      (* facts about the new block from the acceptance rules *)
      assert (Hwin : forall t a, In t (b_txs b) -> incl_on r (b_parent b) (tx_id t) a -> tx_ref t <= num_of a).
      { intros t a Hin Hi. destruct (incl_tx_in r _ _ _ WB Hi) as [t' [Ht' Eid]]. destruct Hi as [s [Ha _]].
        destruct (P1 a t' Ha Ht') as [Ut' [_ [Hr _]]]. rewrite (U_inj t t' (HU t Hin) Ut' (eq_sym Eid)). exact Hr. }
      destruct (accepted_block_step g gp r W WB WT CI Hgp b Sp Hval Hwin) as [ND Hnew].
      rewrite (tag_const r R) in Hnew.
      (* old blocks keep their content, old heads their ancestry *)
      assert (OldTx : forall a t, stored r a -> (tx_in r' a t <-> tx_in r a t)).
      { intros a t [s Hs]. unfold tx_in. rewrite (get_block_old g gp r r' b conf best a s W V A Hs). tauto. }
      assert (NewTx : forall t, tx_in r' (b_id b) t <-> In t (b_txs b)).
      { intros t. unfold tx_in. rewrite (get_block_new r r' b conf best A). split.
        - intros [s [b' [E Hin]]]. injection E as _ <-. exact Hin.
        - intros Hin. eauto. }
      intros h Sh. destruct Sh as [sh Hsh]. rewrite (add_summary _ _ _ _ _ A) in Hsh.
      destruct (N.eqb_spec (b_id b) h) as [Eh|Nh].
      + (* the new block as head: its chain is itself plus the parent's chain *)
        subst h.
        pose proof (fun a => proj1 (anc_add_new_iff g gp r r' b conf best W V A a)) as Anc.
        assert (OldA : forall a, anc r (b_parent b) a -> stored r a) by (intros a Ha; apply (anc_stored _ _ _ Ha)).
        split; [|split].
        * intros a t Ha Ht. destruct (Anc a Ha) as [->|Ho].
          -- apply NewTx in Ht. destruct (Hnew t Ht) as [_ [H1 [H2 H3]]]. auto.
          -- apply (OldTx a t (OldA a Ho)) in Ht. apply (P1 a t Ho Ht).
        * intros a1 t1 a2 t2 Ha1 Ha2 Ht1 Ht2 Eid.
          destruct (Anc a1 Ha1) as [->|Ho1]; destruct (Anc a2 Ha2) as [->|Ho2]; [reflexivity | | |].
          -- exfalso. apply NewTx in Ht1. apply (OldTx a2 t2 (OldA a2 Ho2)) in Ht2.
             destruct (Hnew t1 Ht1) as [Hno _]. apply (Hno a2). rewrite Eid. apply tx_in_incl; auto.
          -- exfalso. apply NewTx in Ht2. apply (OldTx a1 t1 (OldA a1 Ho1)) in Ht1.
             destruct (Hnew t2 Ht2) as [Hno _]. apply (Hno a1). rewrite <- Eid. apply tx_in_incl; auto.
          -- apply (OldTx a1 t1 (OldA a1 Ho1)) in Ht1. apply (OldTx a2 t2 (OldA a2 Ho2)) in Ht2. eapply P2; eauto.
        * intros a s b' Ha Hb. destruct (Anc a Ha) as [->|Ho].
          -- rewrite (get_block_new r r' b conf best A) in Hb. injection Hb as _ <-. exact ND.
          -- destruct (OldA a Ho) as [sa Hsa]. rewrite (get_block_old g gp r r' b conf best a sa W V A Hsa) in Hb. eapply P3; eauto.
      + (* an old head: nothing changed on its chain *)
        assert (Sh : stored r h) by (exists sh; exact Hsh).
        pose proof (IH _ Sh) as [Q1 [Q2 Q3]].
        pose proof (fun a => proj1 (anc_add_old_iff g gp r r' b conf best W V A h a Sh)) as Anc.
        assert (OldA : forall a, anc r h a -> stored r a) by (intros a Ha; apply (anc_stored _ _ _ Ha)).
        split; [|split].
        * intros a t Ha Ht. apply Anc in Ha. apply (OldTx a t (OldA a Ha)) in Ht. apply (Q1 a t Ha Ht).
        * intros a1 t1 a2 t2 Ha1 Ha2 Ht1 Ht2 Eid. apply Anc in Ha1. apply Anc in Ha2.
          apply (OldTx a1 t1 (OldA a1 Ha1)) in Ht1. apply (OldTx a2 t2 (OldA a2 Ha2)) in Ht2. eapply Q2; eauto.
        * intros a s b' Ha Hb. apply Anc in Ha. destruct (OldA a Ha) as [sa Hsa].
          rewrite (get_block_old g gp r r' b conf best a sa W V A Hsa) in Hb. eapply Q3; eauto.
  Qed.
  (* accepted chains respect the window rule, so on them the two lookup paths agree with each other and with membership *)
  Theorem accepted_paths_agree r : reachable g gp tag accepted r -> forall h t, stored r h -> U t ->
    exists v, has_transaction r h (tx_id t) (tx_ref t) = Ok v /\ has_tx_indexed r h (tx_id t) = Ok v /\
              (tx_ref t <= num_of h -> num_of h - tx_ref t < 100 -> recent_walk r (tx_id t) (tx_ref t) 102 h = Ok v) /\
              (v = true <-> exists a, incl_on r h (tx_id t) a).
  Proof.
    intros R h t Sh Ut.
    pose proof (reachable_wf _ _ _ _ _ Hg R) as W. pose proof (reachable_wf_body _ _ _ _ _ Hg R) as WB.
    pose proof (reachable_wf_txi _ _ _ _ _ Hg R) as WT. pose proof (reachable_conf_inj _ _ _ _ _ Hg R) as CI.
    apply (has_tx_paths_agree_lemma g gp r W WB WT CI Hgp h (tx_id t) (tx_ref t) Sh).
    intros a Hi. destruct (incl_tx_in r _ _ _ WB Hi) as [t' [Ht' Eid]]. destruct Hi as [s [Ha _]].
    destruct (accepted_chain_ok r R h Sh) as [P1 _]. destruct (P1 a t' Ha Ht') as [Ut' [_ [Hr _]]].
    rewrite (U_inj t t' Ut Ut' (eq_sym Eid)). exact Hr.
  Qed.
End ChainInv.
