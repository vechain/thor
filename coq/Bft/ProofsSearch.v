(* Bft/ProofsSearch.v — findCheckpointByQuality's search.  sort.Search (binary search) over a sequence that grows by 0
   or 1 per step finds every target between its first and last value, at the first index carrying it (search_first).
   CommitBlock's case: a committed epoch is justified, so the epoch before it carries the target quality q-1. *)
From Coq Require Import List NArith ZArith Bool Lia.
From Coq Require Import ZifyN ZifyNat ZifyBool.
From Verif Require Import Common.Util Bft.Tree Bft.Model.
Import ListNotations.
Open Scope N_scope.

(* sort.Search on a predicate that never errs: the result is the first true index if the predicate is monotone *)
Lemma bsearch_spec (g : N -> bool) (f : N -> res bool) (n : N) :
  (forall i, i < n -> f i = Ok (g i)) ->
  forall fuel i j, (N.to_nat (j - i) < fuel)%nat -> i <= j -> j <= n ->
  (forall k, k < i -> g k = false) -> (j < n -> g j = true) ->
  (forall a b, a <= b -> b < n -> g a = true -> g b = true) ->
  exists m, bsearch fuel f i j = Ok m /\ i <= m /\ m <= j /\ (forall k, k < m -> g k = false) /\ (m < n -> g m = true).
Proof.
  intros Hf. induction fuel as [|fuel IH]; intros i j Hfuel Hij Hjn Hlow Hhigh Hmono; [lia|].
  cbn [bsearch]. destruct (i <? j) eqn:Elt.
  - apply N.ltb_lt in Elt. set (h := (i + j) / 2).
    assert (Hh : i <= h /\ h < j) by (unfold h; lia).
    rewrite (Hf h ltac:(lia)). destruct (g h) eqn:Egh.
    + destruct (IH i h) as [m [Hm Hr]]; [lia | lia | lia | exact Hlow | intros _; exact Egh | exact Hmono |].
      exists m. split; [exact Hm|]. destruct Hr as [? [? [? ?]]]. repeat split; try assumption; lia.
    + destruct (IH (h + 1) j) as [m [Hm Hr]]; [lia | lia | lia | | exact Hhigh | exact Hmono |].
      * intros k Hk. destruct (g k) eqn:Egk; [|reflexivity].
        rewrite (Hmono k h ltac:(lia) ltac:(lia) Egk) in Egh. discriminate.
      * exists m. split; [exact Hm|]. destruct Hr as [? [? [? ?]]]. repeat split; try assumption; lia.
  - apply N.ltb_ge in Elt. assert (i = j) by lia. subst j.
    exists i. repeat split; try lia; assumption.
Qed.

Lemma steps_mono (q : N -> N) (hi : N) : (forall k, k + 1 <= hi -> q k <= q (k + 1)) ->
  forall i j, i <= j -> j <= hi -> q i <= q j.
Proof.
  intros Hs i j Hij Hj. remember (N.to_nat (j - i)) as d eqn:Ed. revert i j Hij Hj Ed.
  induction d as [|d IH]; intros i j Hij Hj Ed.
  - assert (i = j) by lia. subst. lia.
  - specialize (IH i (j - 1) ltac:(lia) ltac:(lia) ltac:(lia)). pose proof (Hs (j - 1) ltac:(lia)) as H.
    replace (j - 1 + 1) with j in H by lia. lia.
Qed.

(* general form: any target between the first and the last record is found, at the first index carrying it *)
Theorem search_first (q : N -> N) (n T : N) :
  1 <= n -> (forall i, i + 1 < n -> q i <= q (i + 1) <= q i + 1) -> q 0 <= T -> T <= q (n - 1) ->
  forall f, (forall i, i < n -> f i = Ok (T <=? q i)) ->
  exists m, bsearch (S (N.to_nat n)) f 0 n = Ok m /\ m < n /\ q m = T /\ forall k, k < m -> q k < T.
Proof.
  intros Hn Hstep H0 Hlast f Hf.
  assert (Hmono : forall a b, a <= b -> b < n -> q a <= q b).
  { intros a b Hab Hb. apply (steps_mono q (n - 1)); [|exact Hab|lia]. intros k Hk. apply Hstep. lia. }
  destruct (bsearch_spec (fun i => T <=? q i) f n Hf (S (N.to_nat n)) 0 n) as [m [Hm [_ [Hmn [Hlow Hhigh]]]]];
    try lia.
  - intros a b Hab Hb Ha. apply N.leb_le in Ha. apply N.leb_le. specialize (Hmono a b Hab Hb). lia.
  - exists m. split; [exact Hm|].
    assert (Hlt : m < n).
    { destruct (N.lt_ge_cases m n) as [H|H]; [exact H|]. assert (m = n) by lia. subst m.
      assert (Hf2 := Hlow (n - 1) ltac:(lia)). cbn beta in Hf2. apply N.leb_gt in Hf2. lia. }
    split; [exact Hlt|].
    assert (Hge := Hhigh Hlt). cbn beta in Hge. apply N.leb_le in Hge.
    assert (Hbelow : forall k, k < m -> q k < T).
    { intros k Hk. assert (Hf2 := Hlow k Hk). cbn beta in Hf2. apply N.leb_gt in Hf2. exact Hf2. }
    split; [|exact Hbelow].
    destruct (N.eq_dec m 0) as [->|Hm0]; [lia|].
    pose proof (Hbelow (m - 1) ltac:(lia)) as Hb1. pose proof (Hstep (m - 1) ltac:(lia)) as Hs.
    replace (m - 1 + 1) with m in Hs by lia. lia.
Qed.

(* the sequence argument: q is the quality recorded at the store point of the i-th epoch counted from finalized's *)
Theorem search_total_lemma (q : N -> N) (n : N) (Q : N) :
  2 <= n ->                                               (* the guard: the committed epoch is after finalized's *)
  (forall i, i + 1 < n -> q i <= q (i + 1) <= q i + 1) -> (* quality_step, per epoch *)
  q (n - 1) = Q -> q (n - 1) = q (n - 2) + 1 ->           (* the committed epoch is justified *)
  1 < Q ->
  forall f, (forall i, i < n -> f i = Ok (Q - 1 <=? q i)) ->
  exists m, bsearch (S (N.to_nat n)) f 0 n = Ok m /\ m < n /\ q m = Q - 1.
Proof.
  intros Hn Hstep HQ Hjust HQ1 f Hf.
  destruct (search_first q n (Q - 1)) with (f := f) as [m [Hm [Hmn [Hqm _]]]]; try lia; [| |exact Hf|eauto].
  - exact Hstep.
  - assert (q 0 <= q (n - 2)); [|lia].
    apply (steps_mono q (n - 1)); [|lia|lia]. intros k Hk. apply Hstep. lia.
Qed.

(* without the guard the same search fails exactly in the F1 situation: one epoch (n = 1) whose own quality is Q *)
Lemma search_fails_in_own_epoch (q : N -> N) (Q : N) f :
  q 0 = Q -> 1 < Q -> (forall i, i < 1 -> f i = Ok (Q - 1 <=? q i)) ->
  bsearch (S (N.to_nat 1)) f 0 1 = Ok 0 /\ q 0 <> Q - 1.
Proof.
  intros H0 HQ Hf. split; [|lia]. cbn. rewrite (Hf 0 ltac:(lia)).
  assert (E : (Q - 1 <=? q 0) = true) by (apply N.leb_le; lia). rewrite E. reflexivity.
Qed.
