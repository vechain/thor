(* Properties/C16.v — the statements and their examples; the proofs cite Staker/*.v.  "Staked VET is fully accounted for and withdrawable exactly once".
   Model: Staker/Model.v (transcription of builtin/staker + the value statements of staker.sol).
   Invariant: FullInv s = exists la lq, Full s la lq, Full = WF /\ Inv1 /\ InvA /\ Inv2   (Staker/ProofsAll.v, ProofsEpoch.v, Inv.v, Inv2.v)
     Inv1: locked = sum(v.Locked) + sum(agg.Locked); queued = sum(v.Queued) + sum(agg.Pending); cooldown = sum(v.Cooldown);
           withdrawable + sum(agg.Locked) + sum(agg.Pending) = sum(v.Withdrawable) + sum(delegation.Stake);
           effectiveVET = (locked + queued + withdrawable + cooldown) * 1e18 <= balance. *)
From Coq Require Import List NArith Bool Lia.
From Verif Require Import Common.Util Staker.Model Staker.Base Staker.Lists Staker.Inv Staker.RList Staker.Inv2 Staker.ProofsStep
  Staker.ProofsUser Staker.ProofsUser2 Staker.ProofsHist Staker.Held Staker.ProofsEpoch Staker.ProofsAll Staker.ProofsCustody Staker.Witness.
Import ListNotations.
Open Scope N_scope.

(* ---- counters = sums, tracked total = counters, balance >= tracked total ---- *)

(* along EVERY history — any sequence of add-validation, increase / decrease stake, signal-exit, withdraw, set-online,
   set-beneficiary, add-delegation (all multipliers), signal-delegation-exit, withdraw-delegation, reward, parameter change,
   forced donation by any actors, successful or reverted, interleaved with blocks (SyncPOS: the PoA->PoS transition and
   housekeeping with renewals, the scheduled exit, evictions, activations) — the full invariant holds:
   Full = WF (lists) /\ Inv1 (VET accounting) /\ InvA /\ Inv2 (auxiliary: idle aggregations, weights, renewal list, exit slots) *)
Theorem full_invariant c d m ops : exists la lq, Full (run c (init d m) ops) la lq.
Proof. exact (history_FullInv c d m ops). Qed.

Theorem counters_sum c d m ops : Inv1 (run c (init d m) ops).
Proof. destruct (history_FullInv c d m ops) as [la [lq H]]. exact (f_1 _ _ _ H). Qed.

(* corollary in money terms: at every point of every history effectiveVET is exactly the sum of what every validation holds
   (locked + queued + cooldown + withdrawable) plus every delegation's remaining stake, the four counters add up to it,
   and the contract owns at least that *)
Theorem tracked_total_along_histories c d m ops :
  let s := run c (init d m) ops in
  eff s = (sumf held (vals s) + sumf d_stake (dels s)) * e18 /\ eff s <= bal s /\
  g_lv s + g_q s + g_wd s + g_cd s = sumf held (vals s) + sumf d_stake (dels s).
Proof. exact (effective_is_sum_of_holdings _ (counters_sum c d m ops)). Qed.

Theorem counters_sum_initial d m : InvAll (init d m).
Proof. exact (InvAll_init d m). Qed.

Theorem counters_sum_every_user_operation c o s la lq :
  is_block o = false -> WF s la lq -> Inv1 s -> InvA s ->
  exists lq', WF (step c s o) la lq' /\ Inv1 (step c s o) /\ InvA (step c s o).
Proof.
  intros Hb H1 H2 H3. destruct (user_step_ok c o s la lq Hb H1 H2 H3) as [lq' [A [B [_ C]]]]. exists lq'; auto.
Qed.

(* unconditional for histories that contain no epoch-boundary block (any number of actors and operations) *)
Theorem counters_sum_between_epochs c s ops la lq :
  WF s la lq -> Inv1 s -> InvA s -> no_epoch_block c s ops ->
  exists lq', WF (run c s ops) la lq' /\ Inv1 (run c s ops) /\ InvA (run c s ops).
Proof.
  intros H1 H2 H3 H4. destruct (run_InvAll_no_epoch c s ops la lq H1 H2 H3 H4) as [lq' [A [B [C _]]]]. exists lq'; auto.
Qed.

(* what the invariant says about money: effectiveVET is exactly the sum of what every validation holds
   (locked + queued + cooldown + withdrawable) plus every delegation's remaining stake, and the contract owns at least that *)
Theorem tracked_total_is_sum_of_holdings s : Inv1 s ->
  eff s = (sumf held (vals s) + sumf d_stake (dels s)) * e18 /\ eff s <= bal s /\
  g_lv s + g_q s + g_wd s + g_cd s = sumf held (vals s) + sumf d_stake (dels s).
Proof. exact (effective_is_sum_of_holdings s). Qed.

(* ---- custody ---- *)

(* per-staker ledger along every history.  held_by s a = locked + queued + cooldown + withdrawable of validation a;
   paid_in / paid_out = the VET a successful AddValidation / IncreaseStake brought in and a successful WithdrawStake paid out
   (read off the operation's answer); total sums them along the history.  What was paid in is exactly what was paid out plus
   what is still held: nobody gets out more than was put in, and gets everything once nothing is held any more. *)
Theorem custody c d m ops a :
  held_by (run c (init d m) ops) a + total paid_out c (init d m) ops a = total paid_in c (init d m) ops a.
Proof. pose proof (custody_validation_hist c (init d m) ops a (Full_init d m)) as H. exact H. Qed.

Theorem custody_never_more_out_than_in c d m ops a :
  total paid_out c (init d m) ops a <= total paid_in c (init d m) ops a /\
  (held_by (run c (init d m) ops) a = 0 <-> total paid_out c (init d m) ops a = total paid_in c (init d m) ops a).
Proof. pose proof (custody c d m ops a). split; [lia|split; lia]. Qed.

(* the same for a delegation id: stake still there + withdrawn = deposited *)
Theorem custody_delegation c d m ops id :
  stake_of (run c (init d m) ops) id + total deleg_out c (init d m) ops id = total deleg_in c (init d m) ops id.
Proof. pose proof (custody_delegation_hist c (init d m) ops id (Full_init d m)) as H. exact H. Qed.

(* never twice: from any state reached by a history, a WithdrawStake that follows a successful WithdrawStake of the same
   validation (with no operation in between) pays 0 *)
Theorem second_withdraw_pays_nothing c d m ops a e s1 x s2 s3 y :
  let s := run c (init d m) ops in
  withdraw_stake c a e s = Ok (s1, x) -> pay_out x s1 = Ok s2 -> withdraw_stake c a e s2 = Ok (s3, y) -> y = 0.
Proof.
  cbv zeta. destruct (history_FullInv c d m ops) as [la [lq HF]]. exact (second_withdraw_pays_zero c a e _ s1 x s2 s3 y la lq HF).
Qed.

(* one step, from any state reached by a history: the ledger equation for every operation incl. blocks *)
Theorem custody_every_step c d m ops o a :
  let s := run c (init d m) ops in
  held_by (step c s o) a + paid_out c s o a = held_by s a + paid_in c s o a.
Proof. exact (custody_step c _ o a (history_FullInv c d m ops)). Qed.

(* WithdrawStake pays exactly the free buckets: withdrawable + queued, and the cooldown bucket only once
   exit block + cooldown period <= current block; the locked bucket is never paid; only the endorser is served *)
Theorem withdraw_only_free_stake c a e s s1 x v :
  withdraw_stake c a e s = Ok (s1, x) -> getv s a = Some v ->
  x = v_withdrawable v + v_queued v +
      (if negb (v_status v =? StatusQueued) && cooldown_ended c v (blk s) then v_cooldown v else 0)
  /\ v_endorser v = e.
Proof. exact (withdraw_stake_amount c a e s s1 x v). Qed.

(* WithdrawDelegation pays only a delegation that has not started or has ended, pays its whole stake, and leaves
   the stake at 0: whatever a later withdrawal of the same id does, it pays 0 *)
Theorem delegation_withdrawn_once id s s1 x :
  withdraw_delegation id s = Ok (s1, x) ->
  exists d v, get (dels s) id = Some d /\ getv s (d_val d) = Some v /\ x = d_stake d /\
    (exists st fi, d_started d v (blk s) = Ok st /\ d_ended d v (blk s) = Ok fi /\ (st = false \/ fi = true)) /\
    exists d1, get (dels s1) id = Some d1 /\ d_stake d1 = 0.
Proof. exact (withdraw_delegation_pays_stake id s s1 x). Qed.

(* ---- "each staker can withdraw, in total, exactly what they deposited": liveness is NOT a theorem, and fails in one case ----

   The statement below (an active validation's scheduled exit block is always still ahead, i.e. every scheduled exit is executed
   when its block comes) is FALSE for the faithful model and for builtin/staker (replayed on the real staker on every run:
   corpus/C16/scheduled-exit-lost.json, known finding class custody:scheduled-exit-lost-when-housekeeping-fails):
   if SyncPOS fails at the very block an exit is scheduled for, packer and validator skip that block's housekeeping; the exit map
   is keyed by block and never consulted again; the validation stays active with its exit block set, cannot signal again and
   its locked stake never reaches the cooldown / withdrawable buckets. *)
Definition scheduled_exit_is_executed_statement : Prop :=
  forall c d m ops a v b, let s := run c (init d m) ops in
    getv s a = Some v -> v_status v = StatusActive -> v_exit v = Some b -> blk s < b.

(* witness history (Staker/Witness.v): lost_cfg, lost_ops, lost_fact, lost_stuck *)
Theorem scheduled_exit_is_executed_refuted : ~ scheduled_exit_is_executed_statement.
Proof.
  intros H. specialize (H lost_cfg 0 103 lost_ops 8191). cbv zeta in H. pose proof lost_fact as F.
  remember (run lost_cfg (init 0 103) lost_ops) as s eqn:Es. clear Es.
  destruct (getv s 8191) as [v|]; [|inversion F].
  inversion F as [[E1 E2 E3]]. specialize (H v 16 eq_refl E1 E2). rewrite E3 in H. apply N.ltb_lt in H. vm_compute in H. discriminate.
Qed.
(* the stake is stuck: 40 blocks after the lost exit the validation still holds its 25M locked, signalling again reverts, a
   withdrawal pays 0 *)
Example lost_exit_is_stuck :
  let s := run lost_cfg (init 0 103) lost_ops in
  (blk s, held_by s 8191, answer lost_cfg s (OSignalExit 8191 65535), answer lost_cfg s (OWithdraw 8191 65535),
   answer lost_cfg (run lost_cfg (init 0 103) (firstn 221 lost_ops)) OBlock) = (56, 25000000, (1, 0), (0, 0), (0, 6)).
Proof. exact lost_stuck. Qed.

(* ---- non-vacuity: a history of two actors (deposit, failed and successful operations, a withdrawal while queued)
        satisfies the hypotheses of counters_sum_between_epochs from the initial state and moves money ---- *)
Definition ex_cfg : cfg := mkC 4 8 12 16 4 8 8 0 0.
Definition ex_ops : list op :=
  [OAddValidation 161 57505 8 25000000; OAddDeleg 161 1000 200; OAddValidation 162 57506 12 30000000;
   OBlock; OIncrease 161 57505 5; OWithdrawDeleg 1; OBlock; OWithdraw 162 57506; OWithdraw 162 57506; OBlock].
Example ex_no_epoch_block : no_epoch_block ex_cfg (init 7 3) ex_ops.
Proof. vm_compute. repeat split; intros; discriminate. Qed.
Example ex_moves_money :
  let s := run ex_cfg (init 7 3) ex_ops in
  (g_q s, eff s, map (fun o => answer ex_cfg (init 7 3) o) [OAddValidation 161 57505 8 25000000]) =
  (25000000, 25000000 * e18, [(0, 0)]).
Proof. vm_compute. reflexivity. Qed.
Example ex_custody_nontrivial :
  (total paid_in ex_cfg (init 7 3) ex_ops 162, total paid_out ex_cfg (init 7 3) ex_ops 162, held_by (run ex_cfg (init 7 3) ex_ops) 162,
   total paid_in ex_cfg (init 7 3) ex_ops 161, held_by (run ex_cfg (init 7 3) ex_ops) 161) = (30000000, 30000000, 0, 25000000, 25000000).
Proof. vm_compute. reflexivity. Qed.
(* a PoS history: two validators activated at block 4, a delegation, an exit signalled at block 5 and executed at block 12,
   a withdrawal during the cooldown (pays 0), one after it (pays the whole stake), a second one (pays 0); the delegation is
   withdrawn after the exit (pays its stake) and once more (pays 0) *)
Definition pos_cfg : cfg := mkC 4 8 12 16 4 8 8 0 0.
Definition pos_ops : list op :=
  [OAddValidation 161 57505 8 25000000; OAddValidation 162 57506 8 26000000] ++ repeat OBlock 5 ++
  [OAddDeleg 161 1000 200; OSignalExit 161 57505] ++ repeat OBlock 8 ++ [OWithdraw 161 57505] ++ repeat OBlock 3 ++
  [OWithdraw 161 57505; OWithdraw 161 57505; OWithdrawDeleg 1; OWithdrawDeleg 1].
Example ex_pos_history :
  let s := run pos_cfg (init 0 2) pos_ops in
  (blk s, l_size (act s), total paid_in pos_cfg (init 0 2) pos_ops 161, total paid_out pos_cfg (init 0 2) pos_ops 161, held_by s 161,
   total deleg_in pos_cfg (init 0 2) pos_ops 1, total deleg_out pos_cfg (init 0 2) pos_ops 1, stake_of s 1, g_lv s, g_cd s, g_wd s) =
  (16, 1, 25000000, 25000000, 0, 1000, 1000, 0, 26000000, 0, 0).
Proof. vm_compute. reflexivity. Qed.
Example ex_pos_withdraw_answers :
  let s13 := run pos_cfg (init 0 2) (firstn 17 pos_ops) in
  let s16 := run pos_cfg (init 0 2) (firstn 21 pos_ops) in
  (blk s13, answer pos_cfg s13 (OWithdraw 161 57505), blk s16, answer pos_cfg s16 (OWithdraw 161 57505),
   answer pos_cfg (step pos_cfg s16 (OWithdraw 161 57505)) (OWithdraw 161 57505)) = (13, (0, 0), 16, (0, 25000000), (0, 0)).
Proof. vm_compute. reflexivity. Qed.

Example ex_hyps_hold : exists lq, WF (init 7 3) [] lq /\ Inv1 (init 7 3) /\ InvA (init 7 3).
Proof. destruct (InvAll_init 7 3) as [la [lq [H1 [H2 H3]]]]. exists []. split; [|split]; auto.
  constructor; [constructor; cbn; auto; constructor|constructor; cbn; auto; constructor|intros a v H; discriminate]. Qed.

Print Assumptions full_invariant.
Print Assumptions counters_sum.
Print Assumptions tracked_total_along_histories.
Print Assumptions custody.
Print Assumptions custody_never_more_out_than_in.
Print Assumptions custody_delegation.
Print Assumptions custody_every_step.
Print Assumptions second_withdraw_pays_nothing.
Print Assumptions scheduled_exit_is_executed_refuted.
Print Assumptions counters_sum_initial.
Print Assumptions counters_sum_every_user_operation.
Print Assumptions counters_sum_between_epochs.
Print Assumptions tracked_total_is_sum_of_holdings.
Print Assumptions withdraw_only_free_stake.
Print Assumptions delegation_withdrawn_once.

(* ---- translation tie (T): the time / period functions the model uses ARE the code ----
   coq/Gen/StakerTime.v is regenerated by tools/go2v on every run from builtin/staker/validation/validation.go (CurrentIteration,
   IsPeriodEnd, CooldownEnded, CalculateWithdrawableVET, NextPeriodTVL, multiplier) and delegation/delegation.go (Started, Ended);
   gen_f v b is the generated function applied to the fields of the model record.  On in-range inputs the hand-written model
   functions used throughout this file are equal to the translated code (GenProofs/StakerTimeProofs.v also gives the inputs
   where the unbounded model and the fixed-width code differ: block 2^32 - 1 and exit block + cooldown period >= 2^32). *)
From Coq Require Import ZArith.
From Verif Require Import GenProofs.StakerTimeProofs.
Open Scope N_scope.

Theorem staker_time_model_is_translated_code c d v b :
  val_in_range v -> (b < 4294967295)%N ->
  gen_current_iteration v b = res_Z (current_iteration v b) /\
  gen_is_period_end v b = is_period_end v b /\
  gen_started d v b = res_bool (d_started d v b) /\
  gen_ended d v b = res_bool (d_ended d v b) /\
  gen_multiplier v = Z.of_N (v_multiplier v) /\
  (cooldown_fits c v -> gen_cooldown_ended c v b = cooldown_ended c v b) /\
  (cooldown_fits c v -> n64 (v_withdrawable v + v_cooldown v + v_queued v) ->
     gen_calc_withdrawable c v b = Z.of_N (calc_withdrawable c v b)) /\
  (n64 (v_locked v + v_queued v) -> n64 (v_punlock v) -> gen_next_period_tvl v = res_Z (v_next_period_tvl v)).
Proof. exact (staker_time_translation_tie c d v b). Qed.

Example ex_translation_tie_hyps :
  let v := mkV 7 None 180 0 2 360 (Some 900) None 25000000 0 5 0 0 25000000 None None in
  val_in_range v /\ cooldown_fits (mkC 180 0 0 0 8640 0 0 0 0) v /\ n64 (v_withdrawable v + v_cooldown v + v_queued v) /\
  gen_current_iteration v 1000 = Some 4%Z /\ current_iteration v 1000 = Ok 4.
Proof. exact tie_hyps_hold. Qed.

Print Assumptions staker_time_model_is_translated_code.
