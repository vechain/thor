(* State/Assoc.v — association lists with a decidable key (StackedMap.assoc / assoc_set / assoc_del): lookup after set and
   delete, and the keys of a set list.  The maps of a level, the revision table, Stage's pending storage map and its list of
   changed records are all read through these. *)
From Coq Require Import List Bool.
From Verif Require Import State.StackedMap.
Import ListNotations.

Section Assoc.
  Variable K : Type.
  Variable keqb : K -> K -> bool.
  Hypothesis keqb_spec : forall a b, keqb a b = true <-> a = b.

  Notation assoc := (assoc K keqb).
  Notation assoc_set := (assoc_set K keqb).
  Notation assoc_del := (assoc_del K keqb).

  Lemma keqb_refl a : keqb a a = true.
  Proof. apply keqb_spec; auto. Qed.
  Lemma keqb_neq a b : a <> b -> keqb a b = false.
  Proof. intros N. destruct (keqb a b) eqn:E; auto. apply keqb_spec in E. congruence. Qed.

  Lemma assoc_set_same {A} k (v : A) l : assoc k (assoc_set k v l) = Some v.
  Proof. induction l as [|[k' v'] l IH]; cbn; [rewrite keqb_refl; auto|]. destruct (keqb k k') eqn:E; cbn; rewrite ?keqb_refl, ?E; auto. Qed.
  Lemma assoc_set_other {A} k k' (v : A) l : k <> k' -> assoc k' (assoc_set k v l) = assoc k' l.
  Proof.
    intros N. induction l as [|[k2 v2] l IH]; cbn.
    - rewrite keqb_neq; auto.
    - destruct (keqb k k2) eqn:E; cbn.
      + apply keqb_spec in E; subst. rewrite !keqb_neq by auto. auto.
      + destruct (keqb k' k2); auto.
  Qed.
  Lemma assoc_del_same {A} k (l : list (K * A)) : assoc k (assoc_del k l) = None.
  Proof. induction l as [|[k' v'] l IH]; cbn; auto. destruct (keqb k k') eqn:E; cbn; rewrite ?E; auto. Qed.
  Lemma assoc_del_other {A} k k' (l : list (K * A)) : k <> k' -> assoc k' (assoc_del k l) = assoc k' l.
  Proof.
    intros N. induction l as [|[k2 v2] l IH]; cbn; auto.
    destruct (keqb k k2) eqn:E; cbn.
    - apply keqb_spec in E; subst. rewrite keqb_neq by auto. auto.
    - destruct (keqb k' k2); auto.
  Qed.

  Lemma assoc_set_keys_in {A} k (v : A) l x : In x (map fst (assoc_set k v l)) -> x = k \/ In x (map fst l).
  Proof.
    induction l as [|[k' v'] l IH]; cbn; intros H.
    - destruct H; auto.
    - destruct (keqb k k') eqn:E; cbn in H.
      + destruct H as [H|H]; auto.
      + destruct H as [H|H]; auto. destruct (IH H); auto.
  Qed.
  (* keys of an association list built by assoc_set stay distinct *)
  Lemma assoc_set_nodup {A} k (v : A) l : NoDup (map fst l) -> NoDup (map fst (assoc_set k v l)).
  Proof.
    induction l as [|[k' v'] l IH]; cbn; intros H.
    - repeat constructor; auto.
    - inversion H; subst. destruct (keqb k k') eqn:E; cbn.
      + apply keqb_spec in E; subst. constructor; auto.
      + constructor; auto. intros I. apply assoc_set_keys_in in I. destruct I as [->|I]; auto.
        rewrite keqb_refl in E; discriminate.
  Qed.
  Lemma assoc_in_keys {A} k (l : list (K * A)) : (exists v, assoc k l = Some v) <-> In k (map fst l).
  Proof.
    induction l as [|[k' v'] l IH]; cbn.
    - split; [intros [v H]; discriminate|tauto].
    - destruct (keqb k k') eqn:E.
      + apply keqb_spec in E; subst. split; eauto.
      + rewrite IH. split; auto. intros [->|H]; auto. rewrite keqb_refl in E; discriminate.
  Qed.
End Assoc.
