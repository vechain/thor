(* Properties/C02.v — the statements of the property, proved by citing Validation/ProofsRules.v, then the non-vacuity
   Examples: a valid block and, for every rule family, a mutant on which exactly that rule fails (checked by RuleCheck.v).
   "Validation rejects every block that breaks a protocol rule (even re-signed),
   a rejected block leaves no trace, validation never panics."
   Model: Header/Rules.v (validateBlockHeader, proposer validators), Validation/Body.v (Process/validate/
   validateBlockBody/verifyBlock, node import); catalogue: Validation/Catalogue.v (declarative, one Prop per rule).
   Abstract (Section variables of the theorems, universally quantified): transaction execution, reward hook, staker
   sanity check, the three Merkle roots, chain lookups.  Crypto results are data carried by the header / tx views. *)
From Coq Require Import List NArith ZArith Bool Lia.
From Verif Require Import Common.Util Common.GoInt Sched.Model Gen.GasLimit GenProofs.GasLimitProofs BaseFee.Model
     Header.Rules Header.Proofs Validation.Body Validation.Catalogue Validation.ProofsRules Validation.RuleCheck.
From Verif Require Chain.Model Chain.Proofs Chain.ProofsChainInv Chain.ProofsChainDep Compose.Replay Compose.ReplayExamples.
Import ListNotations.
Open Scope N_scope.

(* 0. the gas-limit step rule, over the go2v translation of block/gas_limit.go (regenerated on every run) *)
Theorem gas_limit_rule gl parent : u64 gl -> u64 parent ->
  GasLimit_IsValid gl parent = true <->
  (GasLimitProofs.min_gas_limit <= gl /\ Z.abs (gl - parent) <= parent / bound_divisor)%Z.
Proof. exact (is_valid_spec gl parent). Qed.

(* 1. the header rule chain accepts exactly the headers satisfying the declarative header rules *)
Theorem header_accept_iff cfg parent h now :
  h_gas_limit h < two64 -> h_gas_limit parent < two64 ->
  validate_header cfg parent h now = Accept <-> header_rules cfg parent h now.
Proof. exact (validate_header_accept_iff cfg parent h now). Qed.

Section C02.
  Variable State : Type.
  Variable exec : bctx -> State -> txn -> option (State * receipt).
  Variable apply_updates : bool -> N -> State -> list (N * bool) -> State.
  Variable rewards : bctx -> State -> option State.
  Variable sanity : State -> bool.
  Variable root_of_state : State -> N.
  Variable root_of_receipts : list receipt -> N.
  Variable root_of_txs : list txn -> N.
  Variable has_tx : N -> N -> bool.
  Variable find_meta : N -> option bool.

  Notation process := (process State exec apply_updates rewards sanity root_of_state root_of_receipts root_of_txs has_tx find_meta).
  Notation rule_holds := (rule_holds State exec apply_updates rewards sanity root_of_state root_of_receipts root_of_txs has_tx find_meta).
  Notation all_rules := (all_rules State exec apply_updates rewards sanity root_of_state root_of_receipts root_of_txs has_tx find_meta).
  Notation import := (import State exec apply_updates rewards sanity root_of_state root_of_receipts root_of_txs has_tx find_meta).

  (* 2. a block is accepted iff every rule of the catalogue holds (block interval > 0, gas limits < 2^64).
        For rules 11, 22, 23, 41-47 the catalogue uses the same Gallina functions as the validator model (base-fee
        formula, scheduler updates/score, leader beneficiary, plain sequential run): for those the iff relates the ORDER and
        SHAPE of the checks to the rule, not two independent formulas; rule 21 is stated through C05's slot owner. *)
  Theorem accept_iff_rules cfg pv parent st0 b now : 0 < c_interval cfg -> wf_gas parent b ->
    (exists st rcs, process cfg pv parent st0 b now = Accepted State st rcs) <-> all_rules cfg pv parent st0 b now.
  Proof. exact (accept_iff_rules_lemma State exec apply_updates rewards sanity root_of_state root_of_receipts root_of_txs has_tx find_meta cfg pv parent st0 b now). Qed.

  (* 3a. ANY breach — one rule or several, whatever the mutation — of a block that is not from the future (rule 3) and
         whose transactions and reward hook execute (rules 41, 46) is rejected with a consensus-critical error *)
  Theorem rule_breach_rejected_critical cfg pv parent st0 b now :
    0 < c_interval cfg -> wf_gas parent b -> parent_sane cfg parent ->
    ~ all_rules cfg pv parent st0 b now ->
    rule_holds cfg pv parent st0 b now 3 -> rule_holds cfg pv parent st0 b now 41 -> rule_holds cfg pv parent st0 b now 46 ->
    exists r, process cfg pv parent st0 b now = Rejected State (Critical r).
  Proof. exact (rule_breach_rejected_critical_lemma State exec apply_updates rewards sanity root_of_state root_of_receipts root_of_txs has_tx find_meta cfg pv parent st0 b now). Qed.

  (* 3b. exactly one rule broken (all others, incl. the crypto-report rules 7, 8, 20: "correctly re-signed") => consensus-
         critical, except the three rules the code classes otherwise (3 future, 41 non-executable tx, 46 reward hook).
         The catalogue's rules are independent enough for this to be satisfiable for every rule family of the property's
         mutation list: see the Examples below (one concrete mutant per family with EXACTLY that rule failing). *)
  Theorem single_mutation_rejected cfg pv parent st0 b now i :
    0 < c_interval cfg -> wf_gas parent b -> parent_sane cfg parent ->
    ~ rule_holds cfg pv parent st0 b now i ->
    (forall j, j <> i -> rule_holds cfg pv parent st0 b now j) ->
    non_critical_rule i = false ->
    exists r, process cfg pv parent st0 b now = Rejected State (Critical r).
  Proof. exact (single_mutation_rejected_lemma State exec apply_updates rewards sanity root_of_state root_of_receipts root_of_txs has_tx find_meta cfg pv parent st0 b now i). Qed.

  (* 3c. a breach of ANY rule that Process checks before executing transactions (header 1,2,4-12; proposer 20-23; txs root 30;
         body 31-37) is consensus-critical whether or not the transactions would execute — e.g. an unrecoverable origin,
         which breaks rule 31 and (with any exec satisfying C01's exec_sane) rule 41 as well, so that 3a and 3b do not apply.
         Only the clock rule 3 is required.  Not covered: breaches of the loop / root rules 40, 42-47 in a block where ALSO
         a transaction or the reward hook fails to execute (the code returns the raw runtime error there: reject_class). *)
  Theorem pre_execution_breach_rejected_critical cfg pv parent st0 b now i :
    0 < c_interval cfg -> wf_gas parent b -> parent_sane cfg parent ->
    rule_holds cfg pv parent st0 b now 3 -> pre_exec_rule i = true -> ~ rule_holds cfg pv parent st0 b now i ->
    exists r, process cfg pv parent st0 b now = Rejected State (Critical r).
  Proof. exact (pre_execution_breach_rejected_critical_lemma State exec apply_updates rewards sanity root_of_state root_of_receipts root_of_txs has_tx find_meta cfg pv parent st0 b now i). Qed.

  (* 4. every rejection is critical, or names the non-critical rule that failed; the model's panic sites (CalcBaseFee's nil
        dereference and division by zero) are unreachable for a child of a sane parent *)
  Theorem reject_class cfg pv parent st0 b now v : parent_sane cfg parent ->
    process cfg pv parent st0 b now = Rejected State v ->
    match v with
    | Critical _ => True
    | Future => ~ rule_holds cfg pv parent st0 b now 3
    | Other _ => ~ rule_holds cfg pv parent st0 b now 41 \/ ~ rule_holds cfg pv parent st0 b now 46
    | Accept | Panics => False
    end.
  Proof. exact (process_reject_class State exec apply_updates rewards sanity root_of_state root_of_receipts root_of_txs has_tx find_meta cfg pv parent st0 b now v). Qed.

  (* 4b. parent_sane is an invariant of accepted chains (below the uint64 wrap of gasLimit*75): a header that passed the
         header rules as a child of its own parent is a sane parent *)
  Theorem accepted_parent_sane cfg gp parent now :
    header_rules cfg gp parent now -> h_number parent = h_number gp + 1 -> h_number parent + 1 < 4294967296 ->
    (Z.of_N (h_gas_limit parent) <= max_nowrap_gas_limit)%Z -> parent_sane cfg parent.
  Proof. exact (accepted_parent_is_sane State apply_updates has_tx find_meta cfg gp parent now). Qed.

  (* 5. REMARK (by the shape of executeAndCommitBlock in the model: every write is issued after cons.Process returned nil):
        a rejected block issues no repository write and leaves the repository as it was.  On the implementation this
        clause is TESTED (Process level and on a real node.Node), not proved. *)
  Theorem rejected_leaves_no_trace cfg pv parent st0 rp b now conflicts known ps ba best rp' v :
    import cfg pv parent st0 rp b now conflicts known ps ba best = (rp', Rejected State v) -> rp' = rp.
  Proof. exact (rejected_leaves_no_trace_lemma State exec apply_updates rewards sanity root_of_state root_of_receipts root_of_txs has_tx find_meta cfg pv parent st0 rp b now conflicts known ps ba best rp' v). Qed.
End C02.

(* ================================================================ non-vacuity *)
(* A concrete PoA-v2 parent and valid block, a post-GALACTICA / FINALITY-later variant, a PoS variant; for every rule family of
   the property's mutation list a mutant on which EXACTLY that rule fails (every other catalogue rule holds), to which
   single_mutation_rejected applies. *)
Definition ex_exec (c : bctx) (st : N) (t : txn) : option (N * receipt) :=
  if t_gas t <? 21000 then None else Some (st + t_id t, mkRc 21000 (t_id t =? 9009) 5).
Definition ex_has (id _ : N) : bool := id =? 8000.                 (* tx 8000 is on the parent's chain *)
Definition ex_meta (id : N) : option bool := if id =? 8000 then Some false else if id =? 8001 then Some true else None.
Definition X_process cfg pv parent b now :=
  process N ex_exec (fun _ _ st _ => st) (fun _ st => Some (st + 1)) (fun _ => true) (fun st => st)
          (fun rs => N.of_nat (length rs)) (fun ts => N.of_nat (length ts)) ex_has ex_meta cfg pv parent 7 b now.
Definition X_rule cfg pv parent b now :=
  rule_holds N ex_exec (fun _ _ st _ => st) (fun _ st => Some (st + 1)) (fun _ => true) (fun st => st)
             (fun rs => N.of_nat (length rs)) (fun ts => N.of_nat (length ts)) ex_has ex_meta cfg pv parent 7 b now.
Definition X_check cfg pv parent b now i :=
  forallb (fun j => (j =? i) || rule_b N ex_exec (fun _ _ st _ => st) (fun _ st => Some (st + 1)) (fun _ => true) (fun st => st)
             (fun rs => N.of_nat (length rs)) (fun ts => N.of_nat (length ts)) ex_has ex_meta cfg pv parent 7 b now j) rule_ids.
Definition exactly cfg pv parent b now i :=
  ~ X_rule cfg pv parent b now i /\ (forall j, j <> i -> X_rule cfg pv parent b now j).

Lemma exactly_intro cfg pv parent b now i v : 0 < c_interval cfg -> wf_gas parent b ->
  X_check cfg pv parent b now i = true -> X_process cfg pv parent b now = Rejected N v -> exactly cfg pv parent b now i.
Proof. intros HT W Hc Hp. exact (exactly_one_rule_fails_by_check N _ _ _ _ _ _ _ _ _ cfg pv parent 7 b now i v HT W Hc Hp). Qed.

(* applying theorem 3b to such a mutant *)
Lemma exactly_critical cfg pv parent b now i : 0 < c_interval cfg -> wf_gas parent b -> parent_sane cfg parent ->
  exactly cfg pv parent b now i -> non_critical_rule i = false ->
  exists r, X_process cfg pv parent b now = Rejected N (Critical r).
Proof. intros HT W S [H1 H2] Hn. exact (single_mutation_rejected N _ _ _ _ _ _ _ _ _ cfg pv parent 7 b now i HT W S H1 H2 Hn). Qed.

Ltac exact_fail := eapply exactly_intro; [reflexivity | split; reflexivity | vm_compute; reflexivity | vm_compute; reflexivity].

(* ---- PoA v2; GALACTICA at 1000, every other fork at 0 *)
Definition ex_cfg := mkCfg 0 0 0 0 1000 10 39.
Definition ex_parent := mkH 5 1000 10000000 0 0 50 0 1 777 0 (0, 0) false None 146 (Some 11) (Some (0, 0)).
Definition ex_cands := [ mkC (mkP 11 true 0) 2 111 None; mkC (mkP 22 true 0) 1 222 None ].
Definition ex_pv := mkPV false ex_cands 0 (fun _ => 0).
Definition tx1 := mkTx 9001 true false true false 39 4 32 0 0 false 21000 true None.
(* header: time gaslimit beneficiary gasused score txsroot features stateroot receiptsroot alpha com basefee siglen signer beta *)
Definition hdr time gl ben gu score troot feat sroot rroot alpha com bf sl sg beta :=
  mkH 6 time gl ben gu score troot feat sroot rroot alpha com bf sl sg beta.
Definition ex_header := hdr 1010 10000000 222 21000 52 1 1 9008 1 (32, 777) true None 146 (Some 22) (Some (32, 4242)).
Definition ex_block := mkB ex_header [tx1] None.

Example ex_accepted : X_process ex_cfg ex_pv ex_parent ex_block 1005 = Accepted N 9008 [mkRc 21000 false 5]
  /\ wf_gas ex_parent ex_block /\ parent_sane ex_cfg ex_parent /\ 0 < c_interval ex_cfg.
Proof. split; [vm_compute; reflexivity|]. split; [split; reflexivity|]. split; [split; [reflexivity | vm_compute; discriminate] | reflexivity]. Qed.

(* every catalogue rule holds on the valid block (through accept_iff_rules) *)
Example ex_all_rules : forall i, X_rule ex_cfg ex_pv ex_parent ex_block 1005 i.
Proof.
  apply (accept_iff_rules N _ _ _ _ _ _ _ _ _ ex_cfg ex_pv ex_parent 7 ex_block 1005); [reflexivity | split; reflexivity |].
  eexists. eexists. vm_compute. reflexivity.
Qed.

Definition with_hdr h := mkB h [tx1] None.
(* header family.  Note on rules 1 / 2 failing ALONE: slot_index uses truncated subtraction, so for a time at or before the parent's
   (or less than one interval after it) the slot is index 0 of the eligible sequence: the two mutants below keep rule 21 because the signer
   22 is that first element; for another signer a non-positive time shift breaks rule 21 as well (then 3a / 3c apply, not 3b) *)
Example mut_time_equals_parent :       (* rule 1 *)
  exactly ex_cfg ex_pv ex_parent (with_hdr (hdr 1000 10000000 222 21000 52 1 1 9008 1 (32, 777) true None 146 (Some 22) (Some (32, 4242)))) 1005 1.
Proof. exact_fail. Qed.
Example mut_time_off_interval :        (* rule 2 *)
  exactly ex_cfg ex_pv ex_parent (with_hdr (hdr 1015 10000000 222 21000 52 1 1 9008 1 (32, 777) true None 146 (Some 22) (Some (32, 4242)))) 1005 2.
Proof. exact_fail. Qed.
Example mut_gas_limit_beyond_bound :   (* rule 6: parent/1024 = 9765 *)
  exactly ex_cfg ex_pv ex_parent (with_hdr (hdr 1010 10009766 222 21000 52 1 1 9008 1 (32, 777) true None 146 (Some 22) (Some (32, 4242)))) 1005 6.
Proof. exact_fail. Qed.
Example mut_gas_limit_at_bound_is_valid :
  X_process ex_cfg ex_pv ex_parent (with_hdr (hdr 1010 10009765 222 21000 52 1 1 9008 1 (32, 777) true None 146 (Some 22) (Some (32, 4242)))) 1005
  = Accepted N 9008 [mkRc 21000 false 5].
Proof. vm_compute. reflexivity. Qed.
Example mut_alpha_wrong :              (* rule 8 *)
  exactly ex_cfg ex_pv ex_parent (with_hdr (hdr 1010 10000000 222 21000 52 1 1 9008 1 (32, 778) true None 146 (Some 22) (Some (32, 4242)))) 1005 8.
Proof. exact_fail. Qed.
Example mut_vrf_proof_invalid :        (* rule 8 *)
  exactly ex_cfg ex_pv ex_parent (with_hdr (hdr 1010 10000000 222 21000 52 1 1 9008 1 (32, 777) true None 146 (Some 22) None)) 1005 8.
Proof. exact_fail. Qed.
Example mut_features :                 (* rule 12 (the tx itself uses no feature) *)
  exactly ex_cfg ex_pv ex_parent (with_hdr (hdr 1010 10000000 222 21000 52 1 0 9008 1 (32, 777) true None 146 (Some 22) (Some (32, 4242)))) 1005 12.
Proof. exact_fail. Qed.
(* proposer family *)
Example mut_unauthorised_signer :      (* rule 20 *)
  exactly ex_cfg ex_pv ex_parent (with_hdr (hdr 1010 10000000 222 21000 52 1 1 9008 1 (32, 777) true None 146 (Some 33) (Some (32, 4242)))) 1005 20.
Proof. exact_fail. Qed.
Example mut_other_master_signs :       (* rule 21: 11 is authorised, the slot is 22's *)
  exactly ex_cfg ex_pv ex_parent (with_hdr (hdr 1010 10000000 222 21000 52 1 1 9008 1 (32, 777) true None 146 (Some 11) (Some (32, 4242)))) 1005 21.
Proof. exact_fail. Qed.
Example mut_score_plus_one :           (* rule 22 *)
  exactly ex_cfg ex_pv ex_parent (with_hdr (hdr 1010 10000000 222 21000 53 1 1 9008 1 (32, 777) true None 146 (Some 22) (Some (32, 4242)))) 1005 22.
Proof. exact_fail. Qed.
(* body family *)
Definition with_txs h txs := mkB h txs None.
Example mut_txs_root :                 (* rule 30 *)
  exactly ex_cfg ex_pv ex_parent (with_hdr (hdr 1010 10000000 222 21000 52 2 1 9008 1 (32, 777) true None 146 (Some 22) (Some (32, 4242)))) 1005 30.
Proof. exact_fail. Qed.
Example mut_tx_chain_tag :             (* rule 33 *)
  exactly ex_cfg ex_pv ex_parent (with_txs ex_header [mkTx 9001 true false true false 38 4 32 0 0 false 21000 true None]) 1005 33.
Proof. exact_fail. Qed.
Example mut_tx_future_ref :            (* rule 34 *)
  exactly ex_cfg ex_pv ex_parent (with_txs ex_header [mkTx 9001 true false true false 39 7 32 0 0 false 21000 true None]) 1005 34.
Proof. exact_fail. Qed.
Example mut_tx_expired :               (* rule 35 *)
  exactly ex_cfg ex_pv ex_parent (with_txs ex_header [mkTx 9001 true false true false 39 1 4 0 0 false 21000 true None]) 1005 35.
Proof. exact_fail. Qed.
Example mut_tx_typed_before_galactica : (* rule 36 *)
  exactly ex_cfg ex_pv ex_parent (with_txs ex_header [mkTx 9001 true false true false 39 4 32 81 0 false 21000 true None]) 1005 36.
Proof. exact_fail. Qed.
Example mut_tx_unsupported_feature :   (* rule 37 *)
  exactly ex_cfg ex_pv ex_parent (with_txs ex_header [mkTx 9001 true false true false 39 4 32 0 2 false 21000 true None]) 1005 37.
Proof. exact_fail. Qed.
Example mut_tx_unused_reserved :       (* rule 37 *)
  exactly ex_cfg ex_pv ex_parent (with_txs ex_header [mkTx 9001 true false true false 39 4 32 0 0 true 21000 true None]) 1005 37.
Proof. exact_fail. Qed.
(* re-execution family *)
Example mut_tx_already_on_chain :      (* rule 40: id 8000 is on the parent's chain *)
  exactly ex_cfg ex_pv ex_parent
    (with_txs (hdr 1010 10000000 222 21000 52 1 1 8007 1 (32, 777) true None 146 (Some 22) (Some (32, 4242)))
              [mkTx 8000 true false true false 39 4 32 0 0 false 21000 true None]) 1005 40.
Proof. exact_fail. Qed.
Example mut_tx_duplicate_in_block :    (* rule 40 *)
  exactly ex_cfg ex_pv ex_parent
    (with_txs (hdr 1010 10000000 222 42000 52 2 1 18009 2 (32, 777) true None 146 (Some 22) (Some (32, 4242))) [tx1; tx1]) 1005 40.
Proof. exact_fail. Qed.
Example mut_tx_dependency_unknown :    (* rule 42 *)
  exactly ex_cfg ex_pv ex_parent (with_txs ex_header [mkTx 9001 true false true false 39 4 32 0 0 false 21000 true (Some 5555)]) 1005 42.
Proof. exact_fail. Qed.
Example mut_tx_dependency_reverted_on_chain :  (* rule 42: 8001 is on the chain, reverted *)
  exactly ex_cfg ex_pv ex_parent (with_txs ex_header [mkTx 9001 true false true false 39 4 32 0 0 false 21000 true (Some 8001)]) 1005 42.
Proof. exact_fail. Qed.
Example mut_tx_dependency_reverted_in_block :  (* rule 42: tx 9009 reverts in the VM *)
  exactly ex_cfg ex_pv ex_parent
    (with_txs (hdr 1010 10000000 222 42000 52 2 1 18017 2 (32, 777) true None 146 (Some 22) (Some (32, 4242)))
              [mkTx 9009 true false true false 39 4 32 0 0 false 21000 true None; mkTx 9001 true false true false 39 4 32 0 0 false 21000 true (Some 9009)]) 1005 42.
Proof. exact_fail. Qed.
Example mut_gas_used_plus_one :        (* rule 43 *)
  exactly ex_cfg ex_pv ex_parent (with_hdr (hdr 1010 10000000 222 21001 52 1 1 9008 1 (32, 777) true None 146 (Some 22) (Some (32, 4242)))) 1005 43.
Proof. exact_fail. Qed.
Example mut_receipts_root :            (* rule 44 *)
  exactly ex_cfg ex_pv ex_parent (with_hdr (hdr 1010 10000000 222 21000 52 1 1 9008 77 (32, 777) true None 146 (Some 22) (Some (32, 4242)))) 1005 44.
Proof. exact_fail. Qed.
Example mut_state_root :               (* rule 47 *)
  exactly ex_cfg ex_pv ex_parent (with_hdr (hdr 1010 10000000 222 21000 52 1 1 9009 1 (32, 777) true None 146 (Some 22) (Some (32, 4242)))) 1005 47.
Proof. exact_fail. Qed.
(* over-limit gas: the block's transactions use more gas than its limit (48 x 21000 > 1 000 000 = the parent's limit) while the
   header's gasUsed is the executed gas: exactly rule 4 fails *)
Definition small_parent := mkH 5 1000 1000000 0 0 50 0 1 777 0 (0, 0) false None 146 (Some 11) (Some (0, 0)).
Definition many_txs := map (fun k => mkTx (9001 + N.of_nat k) true false true false 39 4 32 0 0 false 21000 true None) (seq 0 48).
Example mut_over_limit_gas :           (* rule 4 *)
  exactly ex_cfg ex_pv small_parent
    (mkB (hdr 1010 1000000 222 1008000 52 48 1 433183 48 (32, 777) true None 146 (Some 22) (Some (32, 4242))) many_txs None) 1005 4.
Proof. exact_fail. Qed.
Example mut_receipts_root_fixed_by_table :
  X_process ex_cfg ex_pv ex_parent (mkB (hdr 1010 10000000 222 21000 52 1 1 9008 77 (32, 777) true None 146 (Some 22) (Some (32, 4242))) [tx1] (Some 1)) 1005
  = Accepted N 9008 [mkRc 21000 false 5].
Proof. vm_compute. reflexivity. Qed.

(* ---- after GALACTICA (fork at 3), before FINALITY (fork at 100); VIP214 at 0 *)
Definition g_cfg := mkCfg 0 0 0 100 3 10 39.
Definition g_parent := mkH 5 1000 10000000 0 7500000 50 0 1 777 0 (0, 0) false (Some 10000000000000) 146 (Some 11) (Some (0, 0)).
Definition g_header := hdr 1010 10000000 222 21000 52 1 1 9008 1 (32, 777) false (Some 10000000000000) 146 (Some 22) (Some (32, 4242)).
Example g_accepted : X_process g_cfg ex_pv g_parent (with_hdr g_header) 1005 = Accepted N 9008 [mkRc 21000 false 5]
  /\ parent_sane g_cfg g_parent.
Proof. split; [vm_compute; reflexivity | split; [reflexivity | vm_compute; discriminate]]. Qed.
Example mut_base_fee_plus_one :        (* rule 11 *)
  exactly g_cfg ex_pv g_parent (with_hdr (hdr 1010 10000000 222 21000 52 1 1 9008 1 (32, 777) false (Some 10000000000001) 146 (Some 22) (Some (32, 4242)))) 1005 11.
Proof. exact_fail. Qed.
Example mut_base_fee_missing :         (* rule 11 *)
  exactly g_cfg ex_pv g_parent (with_hdr (hdr 1010 10000000 222 21000 52 1 1 9008 1 (32, 777) false None 146 (Some 22) (Some (32, 4242)))) 1005 11.
Proof. exact_fail. Qed.
Example mut_com_before_finality :      (* rule 9 *)
  exactly g_cfg ex_pv g_parent (with_hdr (hdr 1010 10000000 222 21000 52 1 1 9008 1 (32, 777) true (Some 10000000000000) 146 (Some 22) (Some (32, 4242)))) 1005 9.
Proof. exact_fail. Qed.
Example mut_base_fee_before_galactica : (* rule 10, on the first configuration *)
  exactly ex_cfg ex_pv ex_parent (with_hdr (hdr 1010 10000000 222 21000 52 1 1 9008 1 (32, 777) true (Some 10000000000000) 146 (Some 22) (Some (32, 4242)))) 1005 10.
Proof. exact_fail. Qed.

(* ---- PoS: the signer's validation has a contract-level beneficiary 999 *)
Definition s_cands := [ mkC (mkP 11 true 60) 2 111 None; mkC (mkP 22 true 40) 1 222 (Some 999) ].
Definition s_pv := mkPV true s_cands 100 (fun _ => 0).
Definition s_header := hdr 1010 10000000 999 21000 10050 1 1 9009 1 (32, 777) true None 146 (Some 22) (Some (32, 4242)).
Example s_accepted : X_process ex_cfg s_pv ex_parent (with_hdr s_header) 1005 = Accepted N 9009 [mkRc 21000 false 5].
Proof. vm_compute. reflexivity. Qed.
Example mut_pos_beneficiary_mismatch : (* rule 23 *)
  exactly ex_cfg s_pv ex_parent (with_hdr (hdr 1010 10000000 998 21000 10050 1 1 9009 1 (32, 777) true None 146 (Some 22) (Some (32, 4242)))) 1005 23.
Proof. exact_fail. Qed.

(* theorem 3b applied: each of these mutants is rejected with a consensus-critical error *)
Example single_mutation_applies :
  (exists r, X_process ex_cfg ex_pv ex_parent (with_hdr (hdr 1000 10000000 222 21000 52 1 1 9008 1 (32, 777) true None 146 (Some 22) (Some (32, 4242)))) 1005 = Rejected N (Critical r)) /\
  (exists r, X_process ex_cfg ex_pv ex_parent (with_hdr (hdr 1010 10000000 222 21000 52 1 1 9008 1 (32, 777) true None 146 (Some 33) (Some (32, 4242)))) 1005 = Rejected N (Critical r)) /\
  (exists r, X_process ex_cfg ex_pv ex_parent (with_txs ex_header [mkTx 9001 true false true false 39 1 4 0 0 false 21000 true None]) 1005 = Rejected N (Critical r)).
Proof.
  assert (S : parent_sane ex_cfg ex_parent) by (split; [reflexivity | vm_compute; discriminate]).
  split; [|split].
  - apply (exactly_critical _ _ _ _ _ 1); [reflexivity | split; reflexivity | exact S | exact mut_time_equals_parent | reflexivity].
  - apply (exactly_critical _ _ _ _ _ 20); [reflexivity | split; reflexivity | exact S | exact mut_unauthorised_signer | reflexivity].
  - apply (exactly_critical _ _ _ _ _ 35); [reflexivity | split; reflexivity | exact S | exact mut_tx_expired | reflexivity].
Qed.

(* the classes the code reports otherwise *)
Example other_classes :
  X_process ex_cfg ex_pv ex_parent ex_block 999 = Rejected N Future /\
  X_process ex_cfg ex_pv ex_parent (with_txs ex_header [mkTx 9001 true false true false 39 4 32 0 0 false 20999 true None]) 1005 = Rejected N (Other 53).
Proof. split; vm_compute; reflexivity. Qed.

(* theorem 3c applied: an origin-unrecoverable transaction that the runtime also refuses (rules 31 AND 41 fail): critical *)
Example origin_unrecoverable_is_critical :
  let b := with_txs ex_header [mkTx 9001 false false true false 39 4 32 0 0 false 20999 true None] in
  ~ X_rule ex_cfg ex_pv ex_parent b 1005 31 /\ ~ X_rule ex_cfg ex_pv ex_parent b 1005 41 /\
  exists r, X_process ex_cfg ex_pv ex_parent b 1005 = Rejected N (Critical r).
Proof.
  cbv zeta. assert (H31 : ~ X_rule ex_cfg ex_pv ex_parent (with_txs ex_header [mkTx 9001 false false true false 39 4 32 0 0 false 20999 true None]) 1005 31).
  { intros H. inversion H as [|? ? [C _] _]. discriminate C. }
  split; [exact H31|]. split.
  - intros H. destruct (H (mkP 22 true 0)) as (stf & rs & C); [exists 22; split; reflexivity | vm_compute in C; discriminate C].
  - apply (pre_execution_breach_rejected_critical N _ _ _ _ _ _ _ _ _ ex_cfg ex_pv ex_parent 7 _ 1005 31);
      [reflexivity | split; reflexivity | split; [reflexivity | vm_compute; discriminate] | vm_compute; discriminate | reflexivity | exact H31].
Qed.

(* theorem 3a applied to a breach of two rules at once (total score = the parent's: rules 5 and 22) *)
Example two_rule_breach_is_critical :
  let b := with_hdr (hdr 1010 10000000 222 21000 50 1 1 9008 1 (32, 777) true None 146 (Some 22) (Some (32, 4242))) in
  ~ X_rule ex_cfg ex_pv ex_parent b 1005 5 /\ ~ X_rule ex_cfg ex_pv ex_parent b 1005 22 /\
  exists r, X_process ex_cfg ex_pv ex_parent b 1005 = Rejected N (Critical r).
Proof.
  cbv zeta. split; [intros H; vm_compute in H; discriminate H|]. split.
  - intros H. specialize (H (mkP 22 true 0) ltac:(exists 22; split; reflexivity)). vm_compute in H. discriminate H.
  - apply (rule_breach_rejected_critical N _ _ _ _ _ _ _ _ _ ex_cfg ex_pv ex_parent 7 _ 1005);
      [reflexivity | split; reflexivity | split; [reflexivity | vm_compute; discriminate] | | vm_compute; discriminate | | ].
    + intros A. specialize (A 5). vm_compute in A. discriminate A.
    + apply (rule_b_sound N _ _ _ _ _ _ _ _ _ ex_cfg ex_pv ex_parent 7 _ 1005 41). vm_compute. reflexivity.
    + apply (rule_b_sound N _ _ _ _ _ _ _ _ _ ex_cfg ex_pv ex_parent 7 _ 1005 46). vm_compute. reflexivity.
Qed.

(* theorem 4b applied: the valid block of the first Example, accepted as a child of ex_parent, is a sane parent *)
Example accepted_block_is_sane_parent : parent_sane ex_cfg ex_header.
Proof.
  apply (accepted_parent_sane N (fun _ _ st _ => st) ex_has ex_meta ex_cfg ex_parent ex_header 1005);
    [apply header_accept_iff; [reflexivity | reflexivity | vm_compute; reflexivity] | reflexivity | reflexivity | vm_compute; discriminate].
Qed.

Print Assumptions gas_limit_rule.
Print Assumptions header_accept_iff.
Print Assumptions accept_iff_rules.
Print Assumptions rule_breach_rejected_critical.
Print Assumptions single_mutation_rejected.
Print Assumptions reject_class.
Print Assumptions accepted_parent_sane.
Print Assumptions rejected_leaves_no_trace.
Print Assumptions single_mutation_applies.
Print Assumptions pre_execution_breach_rejected_critical.
Print Assumptions exactly_intro.
Print Assumptions exactly_critical.
Print Assumptions origin_unrecoverable_is_critical.
Print Assumptions two_rule_breach_is_critical.
Print Assumptions accepted_block_is_sane_parent.

(* ================================================================ composition *)
(* C02 <-> C09 (Compose/Replay.v).  The chain lookups has_tx / find_meta, abstract above, instantiated with C09's repository
   (Chain/Model.v: HasTransaction / GetTransactionMeta on the parent's chain, Replay.has_tx_of / find_meta_of): the body and
   re-execution rules of this file and C09's independently written `validate` give the same verdict on every block, and every
   chain of blocks `process` accepted satisfies C09's first sentence.  Remaining premise: lookups_total (C02's lookups cannot
   fail, C09's can on a corrupt database) - discharged on every repository reached by AddBlock calls. *)
Section Composition.
  Variable State : Type.
  Variable exec : bctx -> State -> txn -> option (State * receipt).
  Variable apply_updates : bool -> N -> State -> list (N * bool) -> State.
  Variable rewards : bctx -> State -> option State.
  Variable sanity : State -> bool.
  Variable root_of_state : State -> N.
  Variable root_of_receipts : list receipt -> N.
  Variable root_of_txs : list txn -> N.
  Notation process_on := (Replay.process_on State exec apply_updates rewards sanity root_of_state root_of_receipts root_of_txs).

  (* 6. validateBlockBody: same verdict as C09's body_rules on every transaction list *)
  Theorem body_check_same_verdict_as_c09 cfg num feats txs ctxs : Forall2 Replay.same_tx txs ctxs ->
    match body_txs_check cfg num feats txs with
    | None => Chain.Model.body_rules (c_chain_tag cfg) num ctxs = Chain.Model.V_ok
    | Some c => match Replay.replay_class c with
                | Some v => Chain.Model.body_rules (c_chain_tag cfg) num ctxs = v
                | None => True
                end
    end.
  Proof. exact (Replay.body_same_verdict cfg num feats txs ctxs). Qed.

  (* 7. verifyBlock's loop: same verdict as C09's verify_loop on every transaction list, from every loop state *)
  Theorem verify_loop_same_verdict_as_c09 r p ctx txs ctxs st proc used :
    Replay.lookups_total r p -> Forall2 Replay.same_tx txs ctxs ->
    match verify_txs State exec (Replay.has_tx_of r p) (Replay.find_meta_of r p) ctx txs st proc used with
    | VOk _ _ rcs _ => Replay.exec_flags State exec ctx st txs = map r_reverted rcs /\
                       Chain.Model.verify_loop r p proc ctxs (map r_reverted rcs) = Chain.Model.V_ok
    | VBad _ v => match Replay.loop_class v with
                  | Some cv => Chain.Model.verify_loop r p proc ctxs (Replay.exec_flags State exec ctx st txs) = cv
                  | None => v = Other 53 \/ v = Critical 54
                  end
    end.
  Proof. intros LT S. exact (Replay.verify_same_verdict State exec r p LT ctx txs ctxs S st proc used). Qed.

  (* 8. the block: accepted iff C09's validate accepts and the rules C09 does not model hold *)
  Theorem accepted_iff_c09_validate cfg pv parent st0 b now r cb st2 rcs :
    wf_gas parent b -> Replay.linked cfg parent r b cb -> Replay.lookups_total r (Chain.Model.b_parent cb) ->
    map Chain.Model.rc_rev (Chain.Model.b_rcs cb) = map r_reverted rcs ->
    process_on r (Chain.Model.b_parent cb) cfg pv parent st0 b now = Accepted State st2 rcs <->
    Chain.Model.validate r cb = Chain.Model.V_ok /\
    Replay.accept_rest State exec apply_updates rewards sanity root_of_state root_of_receipts root_of_txs cfg pv parent st0 b now st2 rcs.
  Proof. exact (Replay.process_accept_iff_validate State exec apply_updates rewards sanity root_of_state root_of_receipts root_of_txs cfg pv parent st0 b now r cb st2 rcs). Qed.

  (* 9. every chain of blocks accepted by `process` carries every transaction at most once, with the chain tag, inside its
        validity window (C09 accepted_chain_inv with its premise "every block passed validate" discharged) *)
  Theorem accepted_chain_satisfies_c09 g gp tag (U : Chain.Model.txrec -> Prop) :
    (forall t1 t2, U t1 -> U t2 -> Chain.Model.tx_id t1 = Chain.Model.tx_id t2 -> t1 = t2) ->
    Chain.Model.num_of g = 0 -> Chain.Model.num_of gp = Chain.Model.max_u32 ->
    forall r, Chain.Proofs.reachable g gp tag
                (Replay.c02_accepted State exec apply_updates rewards sanity root_of_state root_of_receipts root_of_txs U) r ->
    forall h, Chain.Proofs.stored r h ->
      (forall a t, Chain.Proofs.anc r h a -> Chain.ProofsChainInv.tx_in r a t ->
         U t /\ Chain.Model.tx_tag t = tag /\ Chain.Model.tx_ref t <= Chain.Model.num_of a /\
         Chain.Model.num_of a <= Chain.Model.tx_ref t + Chain.Model.tx_exp t) /\
      (forall a1 t1 a2 t2, Chain.Proofs.anc r h a1 -> Chain.Proofs.anc r h a2 -> Chain.ProofsChainInv.tx_in r a1 t1 ->
         Chain.ProofsChainInv.tx_in r a2 t2 -> Chain.Model.tx_id t1 = Chain.Model.tx_id t2 -> a1 = a2) /\
      (forall a s b, Chain.Proofs.anc r h a -> Chain.Model.get_block r a = Some (s, b) ->
         NoDup (map Chain.Model.tx_id (Chain.Model.b_txs b))).
  Proof. exact (Replay.c02_chain_at_most_once_in_window State exec apply_updates rewards sanity root_of_state root_of_receipts root_of_txs g gp tag U). Qed.
End Composition.

(* non-vacuity of 9: the fork history of Chain/Examples.v is a history of blocks accepted by `process` *)
Example accepted_chain_example :
  Chain.Proofs.reachable Chain.Examples.ex_g Chain.Examples.ex_gp Chain.Examples.ex_tag
    (Replay.c02_accepted N ReplayExamples.x_exec (fun _ _ st _ => st) (fun _ st => Some (st + 1)) (fun _ => true) (fun st => st)
                         (fun rs => N.of_nat (length rs)) (fun ts => N.of_nat (length ts)) ReplayExamples.x_U) Chain.Examples.ex_r4.
Proof. exact (proj2 (proj2 (proj2 ReplayExamples.fork_history_accepted_by_c02))). Qed.

Print Assumptions body_check_same_verdict_as_c09.
Print Assumptions verify_loop_same_verdict_as_c09.
Print Assumptions accepted_iff_c09_validate.
Print Assumptions accepted_chain_satisfies_c09.
Print Assumptions accepted_chain_example.
