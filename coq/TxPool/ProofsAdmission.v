(* TxPool/ProofsAdmission.v — evaluate_implies_adopt: clause-by-clause comparison of TxObject.Evaluate and Flow.Adopt
   on the same head. *)
From Coq Require Import List NArith Bool Lia.
From Verif Require Import Common.Util TxPool.ModelAdmission.
Import ListNotations.
Open Scope N_scope.

Section A.
  Variable St : Type.
  Variable fee_ok : St -> txv -> bool.
  Variable energy_ok : St -> N -> txv -> bool.
  Variable eff_priority_fee : St -> txv -> N.
  Variable interval_30 : N.

  Notation evaluate := (evaluate St fee_ok energy_ok interval_30).
  Notation adopt := (adopt St fee_ok energy_ok eff_priority_fee).

  (* the only ways Adopt can answer something else than "adopted" for a tx the pool evaluates executable *)
  Definition allowed (h : headv) (s : St) (f : flowv St) (t : txv) (v : ad_verdict) : Prop :=
    match v with
    | AOk => True
    | ABad BPriorityFeeTooLow =>            (* packer option --min-tx-priority-fee *)
        0 < f_min_priority_fee St f /\ eff_priority_fee (f_state St f) t < f_min_priority_fee St f
    | ABad BExecFailed =>                   (* the flow's state/time no longer lets the payer buy the gas *)
        fee_ok (f_state St f) t && energy_ok (f_state St f) (f_time St f) t = false
    | ABad _ => False
    | ANotNow NBlockSpace | AGasLimitReached =>   (* block space (incl. a new-block gas limit below the head's) *)
        f_gas_limit St f < f_gas_used St f + t_gas t
    | ANotNow NFeeBelowBaseFee => fee_ok (f_state St f) t = false   (* params changed inside the block *)
    | ANotNow NBlockRefAhead => False
    | ANotNow NDepMissing => False
    | AKnownTx => f_processed St f (t_id t) <> None                  (* an earlier tx of this flow has the same id *)
    | ANotForever => exists d, t_dep t = Some d /\ f_processed St f d = Some true
    end.

  Lemma evaluate_executable_inv h s t : evaluate h s t = VExecutable ->
    is_expired t (h_next h) = false /\ (h_next h <? h_galactica h) && negb (t_legacy t) = false /\
    negb (features_ok t (h_vip191 h <=? h_next h)) = false /\ h_known h (t_id t) (t_blockref t) = false /\
    (forall d, t_dep t = Some d -> h_dep h d = Some false) /\ (h_next h <? t_blockref t) = false /\
    fee_ok s t && energy_ok s (h_next_time h) t = true.
  Proof.
    (* each destruct below takes the branch on which Evaluate goes on, turning the matching conjunct into false = false *)
    unfold ModelAdmission.evaluate.
    destruct (h_gas_limit h <? t_gas t); [discriminate|].
    destruct (is_expired t (h_next h)); [discriminate|].
    destruct (h_next h + interval_30 <? t_blockref t); [discriminate|].
    destruct ((h_next h <? h_galactica h) && negb (t_legacy t)); [discriminate|].
    destruct (negb (features_ok t (h_vip191 h <=? h_next h))); [discriminate|].
    destruct (h_known h (t_id t) (t_blockref t)); [discriminate|].
    destruct (t_dep t) as [d|]; [destruct (h_dep h d) as [[|]|] eqn:Ed; try discriminate|];
      (destruct (h_next h <? t_blockref t); [discriminate|]);
      (destruct (fee_ok s t && energy_ok s (h_next_time h) t); [|discriminate]);
      intros _; repeat split; trivial; intros d' X; congruence.
  Qed.

  Theorem evaluate_implies_adopt_thm h s f t :
    evaluate h s t = VExecutable -> pool_static t = true -> allowed h s f t (adopt h f t).
  Proof.
    unfold pool_static. intros He Hs. apply evaluate_executable_inv in He. destruct He as (E2 & E4 & E5 & E6 & Hdep & E7 & _).
    apply andb_true_iff in Hs. destruct Hs as [Hs Hdb]. apply andb_true_iff in Hs. destruct Hs as [Hs Hob].
    apply andb_true_iff in Hs. destruct Hs as [Htag Hde].
    apply negb_true_iff in Hdb, Hob.
    unfold ModelAdmission.adopt.
    rewrite Hob, Hdb, Hde, Htag, E5, E7, E2. repeat rewrite andb_false_r. cbn [negb].
    destruct (f_gas_limit St f <? f_gas_used St f + t_gas t) eqn:G1.
    { apply N.ltb_lt in G1. destruct (f_gas_used St f + tx_gas + clause_gas <=? f_gas_limit St f); cbn; auto. }
    (* the type / fee checks, before and from GALACTICA *)
    destruct (h_next h <? h_galactica h) eqn:G2.
    1: cbn [andb] in E4; rewrite E4.
    2: destruct (negb (fee_ok (f_state St f) t)) eqn:F1; [apply negb_true_iff in F1; exact F1|];
       destruct ((0 <? f_min_priority_fee St f) && (eff_priority_fee (f_state St f) t <? f_min_priority_fee St f)) eqn:M;
       [apply andb_true_iff in M; destruct M as [M1 M2]; apply N.ltb_lt in M1, M2; cbn; auto|].
    (* then the same end on both sides: known, dependency, execution *)
    all: destruct (f_processed St f (t_id t)) eqn:P1; [cbn; congruence|]; rewrite E6;
      destruct (t_dep t) as [d|] eqn:Ed;
      [destruct (f_processed St f d) as [[|]|] eqn:P2; [cbn; exists d; auto | | rewrite (Hdep d eq_refl)]|];
      destruct (fee_ok (f_state St f) t && energy_ok (f_state St f) (f_time St f) t) eqn:X; cbn; auto.
  Qed.

  (* a fresh flow on the same head: same state, nothing processed, nothing used; the block is not earlier than
     the pool's evaluation time and energy does not shrink with time; the option --min-tx-priority-fee is off (or
     satisfied); the new block's gas limit admits the tx.  Then the tx IS adopted. *)
  Corollary fresh_flow_adopts h s f t :
    evaluate h s t = VExecutable -> pool_static t = true ->
    f_state St f = s -> (forall i, f_processed St f i = None) -> f_gas_used St f = 0 ->
    h_next_time h <= f_time St f ->
    (forall tm tm', tm <= tm' -> energy_ok s tm t = true -> energy_ok s tm' t = true) ->
    (f_min_priority_fee St f = 0 \/ f_min_priority_fee St f <= eff_priority_fee s t) ->
    t_gas t <= f_gas_limit St f ->
    adopt h f t = AOk.
  Proof.
    intros He Hs Hst Hpr Hgu Htm Hmono Hmin Hgl.
    pose proof (evaluate_implies_adopt_thm h s f t He Hs) as A.
    destruct (evaluate_executable_inv h s t He) as (_ & _ & _ & _ & _ & _ & Hbuy).
    apply andb_true_iff in Hbuy. destruct Hbuy as [B1 B2].
    destruct (adopt h f t) as [|c|w| | |] eqn:E; auto; cbn in A.
    - destruct c; try contradiction.
      + destruct A as [A1 A2]. rewrite Hst in A2. lia.
      + rewrite Hst, B1, (Hmono _ _ Htm B2) in A. discriminate.
    - destruct w; try contradiction.
      + rewrite Hgu in A. lia.
      + rewrite Hst, B1 in A. discriminate.
    - rewrite Hgu in A. lia.
    - rewrite Hpr in A. congruence.
    - destruct A as [d [_ A]]. rewrite Hpr in A. discriminate.
  Qed.
End A.
