(* Staker/ProofsAll.v — the full invariant holds along every history. *)
From Coq Require Import List NArith Bool Lia.
From Coq Require Import ZifyBool.
From Verif Require Import Common.Util Staker.Model Staker.Base Staker.Lists Staker.Inv Staker.RList Staker.Inv2
  Staker.ProofsStep Staker.ProofsUser Staker.ProofsUser2 Staker.ProofsHist Staker.ProofsEpoch.
Import ListNotations.
Open Scope N_scope.

Opaque e18 two64.

Definition FullInv (s : st) : Prop := exists la lq, Full s la lq.

Lemma Inv2_init d m : Inv2 (init d m).
Proof.
  constructor.
  - intros a _. cbn. auto.
  - intros a v H. discriminate.
  - exists []. split; [constructor; cbn; auto; constructor|intros a []].
  - intros b a H Ha. cbn in H. congruence.
  - reflexivity.
  - intros a v H. discriminate.
  - intros a v H. discriminate.
  - intros a v H. discriminate.
  - intros a _. reflexivity.
  - intros id dd [].
  - intros a v H. discriminate.
Qed.

Lemma Full_init d m : FullInv (init d m).
Proof.
  destruct (InvAll_init d m) as [la [lq [H1 [H2 H3]]]]. exists la, lq. constructor; auto. apply Inv2_init.
Qed.

Lemma is_block_same o : is_block_op o = is_block o.
Proof. destruct o; reflexivity. Qed.

(* every user operation (and every reverted / failed one) preserves the full invariant and the active list *)
Lemma user_step_Full c o s la lq :
  is_block o = false -> Full s la lq -> exists lq', Full (step c s o) la lq' /\ keeps_active s (step c s o) la.
Proof.
  intros Hb [Hwf Hi HA H2].
  destruct (user_step_ok c o s la lq Hb Hwf Hi HA) as [lq' [W [I [K A]]]].
  assert (J : Inv2 (step c s o)).
  { unfold step. destruct (run_op c o s) as [[s' x]| |] eqn:E; auto.
    apply (user_run_inv2 c o s s' x la lq); auto. }
  exists lq'. split; auto. constructor; auto.
Qed.

Theorem step_FullInv c s o : FullInv s -> FullInv (step c s o).
Proof.
  intros [la [lq HF]]. destruct (is_block o) eqn:Eb.
  - destruct o; try discriminate. destruct (block_step_Full c s la lq HF) as [la1 [lq1 [F1 _]]]. exists la1, lq1; auto.
  - destruct (user_step_Full c o s la lq Eb HF) as [lq' [F' _]]. exists la, lq'. auto.
Qed.

Theorem run_FullInv c s ops : FullInv s -> FullInv (run c s ops).
Proof.
  revert s. induction ops as [|o t IH]; intros s H; cbn; auto. apply IH. apply step_FullInv; auto.
Qed.

Theorem history_FullInv c d m ops : FullInv (run c (init d m) ops).
Proof. apply run_FullInv, Full_init. Qed.

Lemma WF_active_unique s la lq la' lq' : WF s la lq -> WF s la' lq' -> la = la'.
Proof.
  intros H1 H2. destruct (leader_group_is_active_list s la lq H1) as [r [Hr [Hm _]]].
  destruct (leader_group_is_active_list s la' lq' H2) as [r' [Hr' [Hm' _]]]. congruence.
Qed.

(* at most one validator leaves the leader group in one block, and only the one scheduled in the exit map *)
Lemma one_exit_per_block c s la lq la' lq' :
  Full s la lq -> WF (step c s OBlock) la' lq' ->
  forall a, In a la -> ~ In a la' -> a = get_exit s (blk s + 1).
Proof.
  intros HF W' a Ha Hn. destruct (block_step_Full c s la lq HF) as [la1 [lq1 [F1 [Sub _]]]].
  rewrite (WF_active_unique _ _ _ _ _ W' (f_wf _ _ _ F1)) in Hn.
  destruct (N.eq_dec a (get_exit s (blk s + 1))); auto. exfalso. apply Hn, Sub; auto.
Qed.

(* a user operation never changes the leader group *)
Lemma user_op_keeps_leader_group c o s la lq la' lq' :
  is_block o = false -> Full s la lq -> WF (step c s o) la' lq' -> la' = la.
Proof.
  intros Hb HF W'. destruct (user_step_Full c o s la lq Hb HF) as [lq1 [F1 _]].
  symmetry. apply (WF_active_unique _ _ _ _ _ (f_wf _ _ _ F1) W').
Qed.

Lemma queued_group_is_queued_list s la lq : WF s la lq ->
  exists r, iterate false s = Ok r /\ map fst r = lq /\ forall a v, In (a, v) r -> getv s a = Some v.
Proof. intros H. apply (group_is_list false), (wf_q _ _ _ H). Qed.

Lemma WF_queued_unique s la lq la' lq' : WF s la lq -> WF s la' lq' -> lq = lq'.
Proof.
  intros H1 H2. destruct (queued_group_is_queued_list s la lq H1) as [r [Hr [Hm _]]].
  destruct (queued_group_is_queued_list s la' lq' H2) as [r' [Hr' [Hm' _]]]. congruence.
Qed.

(* the block number always advances, also when SyncPOS returns an error (the epoch's housekeeping is then skipped as a whole) *)
Lemma block_number_advances c s : FullInv s -> blk (step c s OBlock) = blk s + 1.
Proof. intros [la [lq HF]]. destruct (block_step_Full c s la lq HF) as [_ [_ [_ [_ [_ E]]]]]. exact E. Qed.

Lemma block_error_skips_housekeeping c s :
  (forall r, sync_pos c (blk s + 1) (w_blk (blk s + 1) s) <> Ok r) -> step c s OBlock = w_blk (blk s + 1) s.
Proof.
  intros H. unfold step. cbn [run_op]. destruct (sync_pos c (blk s + 1) (w_blk (blk s + 1) s)) as [[[s1 a] u]| |]; [exfalso; eapply H; eauto|reflexivity|reflexivity].
Qed.
