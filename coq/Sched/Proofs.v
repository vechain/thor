(* Sched/Proofs.v — the sequence scheduler of PoA v2 / PoS: who is in the sequence and that active members agree on it
   (seq_of), the slot's unique owner (is_scheduled), Schedule returns the proposer's earliest slot. *)
From Coq Require Import List NArith ZArith Bool Lia ZifyN ZifyNat ZifyBool Permutation.
From Verif Require Import Common.Util Sched.Model Sched.Arith.
Import ListNotations.
Open Scope N_scope.

Lemma insert_k_perm {A} (x : A * N) l : Permutation (insert_k x l) (x :: l).
Proof.
  induction l as [|y t IH]; cbn [insert_k]; [reflexivity|].
  destruct (snd y <? snd x); [|reflexivity].
  rewrite IH. apply perm_swap.
Qed.

Lemma sort_k_perm {A} (l : list (A * N)) : Permutation (sort_k l) l.
Proof.
  induction l as [|x t IH]; cbn [sort_k fold_right]; [reflexivity|].
  fold (sort_k t). rewrite insert_k_perm. now constructor.
Qed.

Lemma seq_of_perm me ps :
  Permutation (seq_of me ps) (map fst (filter (fun pk => eligible me (fst pk)) ps)).
Proof. unfold seq_of. apply Permutation_map, sort_k_perm. Qed.

Lemma in_seq_of me ps p :
  In p (seq_of me ps) <-> In p (map fst ps) /\ eligible me p = true.
Proof.
  split.
  - intros H. apply (Permutation_in _ (seq_of_perm me ps)) in H.
    apply in_map_iff in H. destruct H as [[q k] [E Hin]]. cbn in E. subst q.
    apply filter_In in Hin. destruct Hin as [Hin He]. split; [|exact He].
    apply in_map_iff. now exists (p, k).
  - intros [Hin He]. apply (Permutation_in _ (Permutation_sym (seq_of_perm me ps))).
    apply in_map_iff in Hin. destruct Hin as [[q k] [E Hin]]. cbn in E. subst q.
    apply in_map_iff. exists (p, k). split; [reflexivity|]. apply filter_In. now split.
Qed.

Lemma eligible_me me p : p_addr p = me -> eligible me p = true.
Proof. intros E. unfold eligible. rewrite E, N.eqb_refl. apply orb_true_r. Qed.

Lemma find_me_in me ps mep : find_me me ps = Some mep -> In mep ps /\ p_addr mep = me.
Proof. unfold find_me. intros H. apply find_some in H. destruct H as [H1 H2]. apply N.eqb_eq in H2. auto. Qed.

Lemma me_in_seq me ps mep :
  In mep (map fst ps) -> p_addr mep = me -> In me (addrs (seq_of me ps)).
Proof.
  intros Hin E. unfold addrs. apply in_map_iff. exists mep. split; [exact E|].
  apply in_seq_of. split; [exact Hin | exact (eligible_me _ _ E)].
Qed.

Lemma NoDup_map_filter {A B} (f : A -> B) (g : A -> bool) l :
  NoDup (map f l) -> NoDup (map f (filter g l)).
Proof.
  induction l as [|x t IH]; cbn; [auto|]. intros H. inversion H as [|? ? Hn Hd]; subst.
  destruct (g x); cbn; [constructor|]; auto.
  intros Hin. apply Hn. apply in_map_iff in Hin. destruct Hin as [y [E Hy]].
  apply filter_In in Hy. apply in_map_iff. exists y. tauto.
Qed.

Lemma nodup_seq_of me ps :
  NoDup (map (fun pk : proposer * N => p_addr (fst pk)) ps) -> NoDup (addrs (seq_of me ps)).
Proof.
  intros H. unfold addrs.
  eapply Permutation_NoDup.
  - apply Permutation_sym. apply Permutation_map. apply seq_of_perm.
  - rewrite map_map. apply NoDup_map_filter. exact H.
Qed.

Lemma NoDup_map_inj {A B} (f : A -> B) l x y : NoDup (map f l) -> In x l -> In y l -> f x = f y -> x = y.
Proof.
  induction l as [|a t IH]; cbn; [tauto|]. intros Hn Hx Hy E. inversion Hn as [|? ? Hnot Hn']; subst.
  destruct Hx as [->|Hx], Hy as [->|Hy]; auto; exfalso; apply Hnot; [rewrite E | rewrite <- E]; apply in_map; assumption.
Qed.

(* a list of distinct addresses read by an active member: eligible is p_active, whoever reads; `pr` is the projection
   to the proposer record (fst for the keyed list of V2/PoS, the identity for V1) *)
Lemma eligible_active_indep {A} (pr : A -> proposer) me l :
  NoDup (map (fun x => p_addr (pr x)) l) ->
  (exists x, In x l /\ p_addr (pr x) = me /\ p_active (pr x) = true) ->
  forall y, In y l -> eligible me (pr y) = p_active (pr y).
Proof.
  intros Hnd (x & Hx & Ea & Hact) y Hy. unfold eligible.
  destruct (p_active (pr y)) eqn:Ey; [reflexivity|]. cbn.
  destruct (N.eqb_spec (p_addr (pr y)) me) as [E|]; [|reflexivity].
  rewrite (NoDup_map_inj _ l x y Hnd Hx Hy) in Hact by congruence. congruence.
Qed.

Lemma owner_agreement_lemma me1 me2 ps :
  NoDup (map (fun pk : proposer * N => p_addr (fst pk)) ps) ->
  (exists p k, In (p, k) ps /\ p_addr p = me1 /\ p_active p = true) ->
  (exists p k, In (p, k) ps /\ p_addr p = me2 /\ p_active p = true) ->
  seq_of me1 ps = seq_of me2 ps.
Proof.
  intros Hnd (p1 & k1 & H1) (p2 & k2 & H2). unfold seq_of. f_equal. f_equal.
  apply filter_ext_in. intros pk Hin.
  rewrite (eligible_active_indep fst me1 ps Hnd (ex_intro _ (p1, k1) H1) pk Hin).
  rewrite (eligible_active_indep fst me2 ps Hnd (ex_intro _ (p2, k2) H2) pk Hin). reflexivity.
Qed.

(* for an inactive viewpoint the sequence is "the actives plus me" *)
Lemma seq_membership me ps p :
  In p (seq_of me ps) <-> In p (map fst ps) /\ (p_active p = true \/ p_addr p = me).
Proof.
  rewrite in_seq_of. unfold eligible. rewrite orb_true_iff, N.eqb_eq. tauto.
Qed.

Lemma time_guard_iff pt T t (x : bool) :
  (if t <=? pt then false else if negb ((t - pt) mod T =? 0) then false else x) = true <->
  pt < t /\ (t - pt) mod T = 0 /\ x = true.
Proof.
  destruct (N.leb_spec t pt); [split; [discriminate | lia]|].
  destruct (N.eqb_spec ((t - pt) mod T) 0); cbn [negb]; [tauto | split; [discriminate | tauto]].
Qed.

Lemma is_scheduled_iff pt T seq t a :
  is_scheduled pt T seq t a = true <->
  pt < t /\ (t - pt) mod T = 0 /\
  nth_error seq (N.to_nat (slot_index pt T (N.of_nat (length seq)) t)) = Some a.
Proof.
  unfold is_scheduled. rewrite time_guard_iff.
  destruct (nth_error seq _) as [x|]; [rewrite N.eqb_eq|]; split; intros (H1 & H2 & H3); repeat split; auto; congruence.
Qed.

Lemma slot_index_lt pt T n t : 0 < n -> slot_index pt T n t < n.
Proof. intros. unfold slot_index. apply N.mod_lt. lia. Qed.

Lemma slot_owner_unique_lemma pt T seq t : seq <> [] ->
  pt < t -> (t - pt) mod T = 0 ->
  exists a, In a seq /\ is_scheduled pt T seq t a = true /\
            forall b, is_scheduled pt T seq t b = true -> b = a.
Proof.
  intros Hne Hlt Hm.
  assert (Hn : 0 < N.of_nat (length seq)) by (destruct seq; [congruence|cbn; lia]).
  pose proof (slot_index_lt pt T _ t Hn) as Hi.
  destruct (nth_error seq (N.to_nat (slot_index pt T (N.of_nat (length seq)) t))) as [a|] eqn:E.
  - exists a. split; [eapply nth_error_In; eauto|]. split.
    + apply is_scheduled_iff. auto.
    + intros b Hb. apply is_scheduled_iff in Hb. destruct Hb as [_ [_ Hb]]. congruence.
  - exfalso. apply nth_error_None in E. lia.
Qed.

(* every slot of a NoDup sequence has exactly one index: no two members own the same slot, and
   a member owns exactly the slots whose index is its position *)
Lemma owner_position pt T seq t a i : 0 < T -> NoDup seq -> seq <> [] ->
  nth_error seq i = Some a ->
  (is_scheduled pt T seq t a = true <->
   pt < t /\ (t - pt) mod T = 0 /\ N.to_nat (slot_index pt T (N.of_nat (length seq)) t) = i).
Proof.
  intros HT Hnd Hne Hi. rewrite is_scheduled_iff. split.
  - intros [H1 [H2 H3]]. repeat split; auto.
    apply (proj1 (NoDup_nth_error seq) Hnd); [apply nth_error_Some; congruence | congruence].
  - intros [H1 [H2 H3]]. repeat split; auto. now rewrite H3.
Qed.

Lemma find_from_some seq me n offset fuel i j :
  find_from seq me n offset fuel i = Some j ->
  i <= j /\ j < i + N.of_nat fuel /\
  nth_error seq (N.to_nat ((j + offset) mod n)) = Some me /\
  forall i', i <= i' -> i' < j -> nth_error seq (N.to_nat ((i' + offset) mod n)) <> Some me.
Proof.
  revert i. induction fuel as [|f IH]; intros i; cbn [find_from]; [discriminate|].
  destruct (nth_error seq (N.to_nat ((i + offset) mod n))) as [a|] eqn:E; [|discriminate].
  destruct (N.eqb_spec a me) as [Ea|Ea].
  - intros H. inversion H; subst. repeat split; try lia; exact E.
  - intros H. apply IH in H. destruct H as [H1 [H2 [H3 H4]]]. repeat split; try lia; auto.
    intros i' Hi1 Hi2. destruct (N.eq_dec i' i) as [->|Hne]; [congruence|]. apply H4; lia.
Qed.

Lemma find_from_none seq me n offset fuel i :
  0 < n -> n = N.of_nat (length seq) ->
  find_from seq me n offset fuel i = None ->
  forall i', i <= i' -> i' < i + N.of_nat fuel -> nth_error seq (N.to_nat ((i' + offset) mod n)) <> Some me.
Proof.
  intros Hn En. revert i. induction fuel as [|f IH]; intros i; cbn [find_from]; [intros; lia|].
  destruct (nth_error seq (N.to_nat ((i + offset) mod n))) as [a|] eqn:E.
  - destruct (N.eqb_spec a me) as [Ea|Ea]; [discriminate|].
    intros H i' H1 H2. destruct (N.eq_dec i' i) as [->|Hne]; [congruence|].
    apply (IH (i + 1) H); lia.
  - exfalso. apply nth_error_None in E.
    assert ((i + offset) mod n < n) by (apply N.mod_lt; lia). lia.
Qed.

Lemma in_nth_error_N (seq : list N) a : In a seq -> exists j, j < N.of_nat (length seq) /\ nth_error seq (N.to_nat j) = Some a.
Proof.
  intros H. apply In_nth_error in H. destruct H as [k Hk].
  exists (N.of_nat k). rewrite Nnat.Nat2N.id. split; [|exact Hk].
  assert (k < length seq)%nat by (apply nth_error_Some; congruence). lia.
Qed.

Theorem schedule_is_earliest_lemma pt T seq me now :
  0 < T -> In me seq ->
  exists t, schedule pt T seq me now = Some t /\
    is_scheduled pt T seq t me = true /\ now <= t /\ pt < t /\
    forall t', now <= t' -> pt < t' -> t' < t -> is_scheduled pt T seq t' me = false.
Proof.
  intros HT Hin.
  assert (Hn : 0 < N.of_nat (length seq)) by (destruct seq; [contradiction|cbn; lia]).
  destruct (first_slot_spec pt T now HT) as [k0 [Hk0 [Ef [Hnow Hmin]]]].
  unfold schedule. rewrite Ef.
  set (n := N.of_nat (length seq)) in *.
  assert (Eoff : (pt + k0 * T - pt) / T - 1 = k0 - 1).
  { replace (pt + k0 * T - pt) with (k0 * T) by lia. rewrite N.div_mul by lia. reflexivity. }
  rewrite Eoff.
  destruct (find_from seq me n (k0 - 1) (length seq) 0) as [i|] eqn:Ef0.
  - apply find_from_some in Ef0. destruct Ef0 as [_ [Hi [Hnth Hearly]]].
    exists (pt + k0 * T + i * T). split; [reflexivity|].
    assert (Et : pt + k0 * T + i * T = pt + (k0 + i) * T) by (clear; lia).
    assert (Hki : 1 <= k0 + i) by (clear - Hk0; lia).
    repeat split.
    + apply is_scheduled_iff. rewrite Et. repeat split; [clear - HT Hki; nia | apply aligned_mod; auto|].
      rewrite (slot_index_form pt T _ _ HT Hki). fold n.
      replace (k0 + i - 1) with (i + (k0 - 1)) by (clear - Hk0; lia). exact Hnth.
    + clear - Hnow. lia.
    + clear - HT Hk0. nia.
    + intros t' Hnow' Hpt' Hlt'.
      destruct (is_scheduled pt T seq t' me) eqn:Es; [|reflexivity]. exfalso.
      apply is_scheduled_iff in Es. destruct Es as [_ [Hal Hnth']].
      destruct (aligned_form pt T t' HT Hpt' Hal) as [k [Hk Et']]. subst t'.
      pose proof (Hmin k Hk Hnow') as Hk0k.
      rewrite (slot_index_form pt T _ k HT Hk) in Hnth'. fold n in Hnth'.
      apply (Hearly (k - k0)); [apply N.le_0_l | clear - HT Hk0k Hlt'; nia|].
      replace (k - k0 + (k0 - 1)) with (k - 1) by (clear - Hk0 Hk0k; lia). exact Hnth'.
  - exfalso.
    destruct (in_nth_error_N seq me Hin) as [j [Hj Hnthj]]. fold n in Hj.
    destruct (mod_shift_exists n (k0 - 1) j Hn Hj) as [i [Hi Ei]].
    eapply (find_from_none seq me n (k0 - 1) (length seq) 0 Hn eq_refl Ef0 i); [apply N.le_0_l | exact Hi |].
    rewrite Ei. exact Hnthj.
Qed.

Corollary schedule_accepted_lemma pt T seq me now : 0 < T -> In me seq ->
  exists t, schedule pt T seq me now = Some t /\ is_scheduled pt T seq t me = true.
Proof.
  intros HT Hin. destruct (schedule_is_earliest_lemma pt T seq me now HT Hin) as [t [H1 [H2 _]]].
  eauto.
Qed.
