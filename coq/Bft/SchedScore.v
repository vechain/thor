(* Bft/SchedScore.v — the PoA (scheduler/poa_v2.go) score rule as a checkable predicate on block trees, and the F4 history
   re-scored so that every block's total score obeys it.
   Rule (NewPoASchedulerV2 / Updates): on parent p the candidate list is (validators active in p's state) + the signer,
   sorted by Blake2b(seed, number(p), address) — a hash, here DATA of the run (`rank`: height -> address -> sort key);
   the signer owns the slots k with k mod n = its position; the validators in the first min(k, n) positions other than the
   signer are marked inactive; the block's score increment is n minus their number; the signer is (re)activated.
   So the increment is either n - pos (the signer takes its first slot: exactly those ranked before it are dropped) or 1
   (it waits a full round or more: everybody else is dropped).  Timestamps themselves are not modelled. *)
From Coq Require Import List NArith Bool Lia.
From Verif Require Import Common.Util Bft.Tree Bft.Model Bft.Quorum Bft.Safety Bft.ProofsWitness.
Import ListNotations.
Open Scope N_scope.

Fixpoint insert_by (key : N -> N) (x : N) (l : list N) : list N :=
  match l with [] => [x] | y :: t => if key x <=? key y then x :: l else y :: insert_by key x t end.
Definition sort_by (key : N -> N) (l : list N) : list N := fold_right (insert_by key) [] l.

Fixpoint index_of (x : N) (l : list N) : nat := match l with [] => O | y :: t => if y =? x then O else S (index_of x t) end.

(* active set after the head of a chain (newest first, genesis last); None = some block's score breaks the rule *)
Fixpoint active_after (rank : N -> N -> N) (vals : list N) (ch : list blk) : option (list N) :=
  match ch with
  | [] => Some vals
  | b :: t =>
      match t with
      | [] => Some vals                                (* genesis: everybody active *)
      | p :: _ =>
          match active_after rank vals t with
          | None => None
          | Some A =>
              let s := b_signer b in
              let sh := sort_by (rank (b_num p)) (filter (fun v => mem A v || (v =? s)) vals) in
              let n := N.of_nat (length sh) in
              let pos := index_of s sh in
              let inc := b_score b - b_score p in
              if negb (mem vals s) || (b_score b <=? b_score p) then None
              else if inc =? n - N.of_nat pos then Some (s :: filter (fun v => negb (mem (firstn pos sh) v) && negb (v =? s)) A)
              else if inc =? 1 then Some [s]
              else None
          end
      end
  end.

Definition scores_ok (rank : N -> N -> N) (vals : list N) (tree : repo) : bool :=
  forallb (fun b => match active_after rank vals (chain_of tree (b_id b)) with Some _ => true | None => false end) tree.

(* validators 1..4; hash order per parent height: 0 -> v1 first, 1 -> v2 first, 2 -> v3 first, 3 -> v3,v1,v2,v4,
   4 -> v2 first, 5 and 6 -> v4 first, any other height -> 1,2,3,4 *)
Definition f4_order (h : N) : list N :=
  match h with
  | 0 => [1;2;3;4] | 1 => [2;1;3;4] | 2 => [3;1;2;4] | 3 => [3;1;2;4]
  | 4 => [2;1;3;4] | 5 => [4;1;2;3] | 6 => [4;1;2;3] | _ => [1;2;3;4]
  end.
Definition f4_rank (h a : N) : N := N.of_nat (index_of a (f4_order h)).

(* branch Y: 4Y(v1) takes the second slot (v3 was first: +3), 5Y 6Y 7Y are first in their orders (+3 each); later Y blocks
   and all X blocks after 4X are produced a round late (+1) *)
Definition sy4' := bk 4 2 1 1 true 15.   Definition sy5' := bk 5 2 2 2 true 18.
Definition sy6' := bk 6 2 2 4 false 21.  Definition sy7' := bk 7 2 2 4 false 24.
Definition sy8' := bk 8 2 2 1 false 25.  Definition sy9' := bk 9 2 2 3 false 26.
Definition sy10' := bk 10 2 2 4 false 27. Definition sy11' := bk 11 2 2 4 false 28.
Definition sy12' := bk 12 2 2 1 false 29. Definition sy13' := bk 13 2 2 3 false 30.
Definition sy14' := bk 14 2 2 4 false 31. Definition sy15' := bk 15 2 2 4 false 32.
Definition sy16' := bk 16 2 2 1 true 33.  Definition sy17' := bk 17 2 2 3 true 34.
Definition sy18' := bk 18 2 2 4 true 35.  Definition sy19' := bk 19 2 2 4 true 36.

Definition f4s_run : list event :=
  [ P 0%nat c1; I 1%nat c1; I 2%nat c1; P 1%nat c2; I 0%nat c2; I 2%nat c2; P 2%nat c3; I 0%nat c3; I 1%nat c3;
    P 0%nat sy4'; I 1%nat sy4'; P 1%nat sy5';
    P 2%nat x4; I 0%nat x4; P 0%nat x5; I 2%nat x5; I 2%nat x6; P 2%nat x7; P 2%nat x8;
    I 0%nat x6; I 0%nat x7; I 0%nat x8; P 0%nat x9;
    I 1%nat x4; I 1%nat x5; I 1%nat x6; I 1%nat x7; I 1%nat x8; I 1%nat x9; I 1%nat x10; P 1%nat x11;
    I 0%nat sy5'; I 0%nat sy6'; I 0%nat sy7'; P 0%nat sy8';
    I 2%nat sy4'; I 2%nat sy5'; I 2%nat sy6'; I 2%nat sy7'; I 2%nat sy8'; I 2%nat x9; P 2%nat sy9';
    I 0%nat sy9'; I 0%nat sy10'; I 0%nat sy11'; P 0%nat sy12';
    I 2%nat sy10'; I 2%nat sy11'; I 2%nat sy12'; P 2%nat sy13';
    I 0%nat sy13'; I 0%nat sy14'; I 0%nat sy15'; P 0%nat sy16';
    I 2%nat sy14'; I 2%nat sy15'; I 2%nat sy16'; P 2%nat sy17';
    I 0%nat sy17'; I 0%nat sy18'; I 0%nat sy19'; I 2%nat sy18'; I 2%nat sy19' ].

Lemma f4s_valid : valid_run_b true cfg4 [4] f4_world [gen] f4s_run = true.
Proof. vm_compute. reflexivity. Qed.

Lemma f4s_scores : scores_ok f4_rank [1;2;3;4] (seen_after [gen] f4s_run) = true.
Proof. vm_compute. reflexivity. Qed.

Lemma f4s_fins : In (b_id x4) (all_fins true cfg4 f4_world f4s_run) /\ In (b_id sy12') (all_fins true cfg4 f4_world f4s_run).
Proof. apply mem_both. vm_compute. reflexivity. Qed.

Lemma f4s_conflict : conflict (seen_after [gen] f4s_run) (b_id x4) (b_id sy12') = true.
Proof. vm_compute. reflexivity. Qed.

Lemma f4s_breaks_premise : no_tie_switch_b true cfg4 f4_world f4s_run = false.
Proof. vm_compute. reflexivity. Qed.
