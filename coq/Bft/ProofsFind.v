(* Bft/ProofsFind.v — findCheckpointByQuality, general form: searching from a finalized checkpoint number a*L up to a
   stored store-point block, any target quality between the record of finalized's epoch and the head's is found, and
   the result is the checkpoint of the FIRST epoch whose store point carries that quality. *)
From Coq Require Import List NArith ZArith Bool Lia.
From Coq Require Import ZifyN ZifyNat ZifyBool.
From Verif Require Import Common.Util Bft.Tree Bft.Model Bft.Quorum Bft.ProofsTally Bft.ProofsChain Bft.ProofsSearch
  Bft.ProofsSuffix Bft.ProofsNode Bft.ProofsFinal.
Import ListNotations.
Open Scope N_scope.

Section Find.
Variable c : cfg.
Hypothesis HL : 0 < c_L c.
Notation L := (c_L c).

(* quality (from the definitions) at the store point of epoch k on the chain of head *)
Definition q_epoch (r : repo) (head k : N) : N := quality_pure c (suffix_at (k * L + L - 1) (chain_of r head)).

Section Chain.
Variables (r : repo) (head : N) (hb : blk) (kb : N).
Hypothesis Hwf : wf_repo r.
Hypothesis Hhb : find_blk r head = Some hb.
Hypothesis Hnum : b_num hb = kb * L + L - 1.

Lemma q_epoch_step k : k + 1 <= kb -> q_epoch r head k <= q_epoch r head (k + 1) <= q_epoch r head k + 1.
Proof.
  intros Hk. unfold q_epoch.
  destruct (chain_at r head hb ((k + 1) * L + L - 1) Hwf Hhb) as [l1 [x [l2 [_ [Hx [Hs [_ [_ [_ Hgs]]]]]]]]]; [rewrite Hnum; nia|].
  destruct (chain_of_known r Hwf _ _ Hhb) as [t [HC Hg]].
  assert (Hcpx : checkpoint L (b_num x) = (k + 1) * L) by (rewrite Hx; apply checkpoint_store; exact HL).
  destruct (quality_epoch_step c HL (x :: l2) x l2 Hgs eq_refl) as [Hb _]; [rewrite Hcpx; nia|].
  rewrite Hcpx, (store_before L HL (k + 1)), N.add_sub, <- Hs in Hb by lia.
  rewrite (suffix_at_comp (chain_of r head) ltac:(rewrite HC; exact Hg) hb t HC) in Hb; [exact Hb | nia | rewrite Hnum; nia].
Qed.

Lemma q_epoch_mono i j : i <= j -> j <= kb -> q_epoch r head i <= q_epoch r head j.
Proof. apply steps_mono. intros k Hk. exact (proj1 (q_epoch_step k Hk)). Qed.

Lemma q_epoch_head : q_epoch r head kb = quality_pure c (chain_of r head).
Proof.
  destruct (chain_of_known r Hwf _ _ Hhb) as [t [HC _]].
  unfold q_epoch. rewrite <- Hnum, HC. cbn [suffix_at]. rewrite N.eqb_refl. reflexivity.
Qed.

(* a justified closing epoch adds one to the quality of the epoch before it *)
Lemma q_epoch_closing : 1 <= kb -> s_just (state_pure c (chain_of r head)) = true ->
  quality_pure c (chain_of r head) = q_epoch r head (kb - 1) + 1.
Proof.
  intros Hkb Hj. destruct (chain_of_known r Hwf _ _ Hhb) as [t [HC Hg]].
  assert (Hcp : checkpoint L (b_num hb) = kb * L) by (rewrite Hnum; apply checkpoint_store; exact HL).
  destruct (quality_epoch_step c HL (chain_of r head) hb t ltac:(rewrite HC; exact Hg) HC) as [_ Hs]; [rewrite Hcp; nia|].
  rewrite Hcp, (store_before L HL kb Hkb) in Hs. exact (Hs Hj).
Qed.

Lemma checkpoint_on_chain k : k <= kb -> exists y, block_at r head (k * L) = Some y /\ b_num y = k * L.
Proof.
  intros Hk. destruct (chain_at r head hb (k * L) Hwf Hhb) as [_ [y [_ [_ [Hy [_ [Hb _]]]]]]]; [rewrite Hnum; nia|].
  exists y. split; [exact Hb | exact Hy].
Qed.

(* the records read by the search are the qualities from the definitions *)
Lemma quality_at_store qs k :
  (forall x, In x r -> storepoint L (b_num x) = b_num x -> get_q qs (b_id x) = qual c r x) ->
  k <= kb -> quality_at r qs head (k * L + L - 1) = Ok (q_epoch r head k).
Proof.
  intros Hqs Hk.
  destruct (chain_at r head hb (k * L + L - 1) Hwf Hhb) as [_ [x [l2 [_ [Hx [Hs [Hb [Hcx [Hin _]]]]]]]]]; [rewrite Hnum; nia|].
  unfold quality_at, q_epoch. rewrite Hb, Hs, (Hqs x Hin).
  - unfold qual. rewrite Hcx. reflexivity.
  - rewrite Hx. apply storepoint_store. exact HL.
Qed.
End Chain.

Theorem find_cp_general r qs fin head hb a kb T :
  wf_repo r -> (forall x, In x r -> storepoint L (b_num x) = b_num x -> get_q qs (b_id x) = qual c r x) ->
  find_blk r head = Some hb -> idnum fin = a * L -> b_num hb = kb * L + L - 1 -> a <= kb ->
  q_epoch r head a <= T -> T <= quality_pure c (chain_of r head) ->
  exists m y, find_cp c r qs T fin head = Ok (b_id y) /\ a + m <= kb /\
              block_at r head ((a + m) * L) = Some y /\ b_num y = (a + m) * L /\
              q_epoch r head (a + m) = T /\ forall k, k < m -> q_epoch r head (a + k) < T.
Proof.
  intros Hwf Hqs Hhb Hfin Hnum Hak H0 HT.
  destruct (find_blk_id _ _ _ Hhb) as [Hid _].
  assert (Hhead : idnum head = b_num hb) by (unfold b_num; rewrite Hid; reflexivity).
  set (n := kb - a + 1).
  set (qf := fun i => q_epoch r head (a + i)).
  unfold find_cp. rewrite Hhead, Hfin.
  assert (Elt : (b_num hb <? a * L) = false) by (apply N.ltb_ge; rewrite Hnum; nia). rewrite Elt.
  assert (En : (b_num hb - a * L) / L + 1 = n).
  { unfold n. rewrite Hnum, (div_span L HL a kb) by lia. reflexivity. }
  rewrite En.
  set (get := fun i : N => quality_at r qs head (storepoint L (a * L + i * L))).
  assert (Hgeti : forall i, i < n -> get i = Ok (qf i)).
  { intros i Hi. unfold get. replace (a * L + i * L) with ((a + i) * L) by lia. rewrite (storepoint_mul L HL).
    apply (quality_at_store r head hb kb Hwf Hhb Hnum qs _ Hqs). unfold n in Hi. lia. }
  set (f := fun i : N => match get i with Ok q => Ok (T <=? q) | Err e => Err e end).
  destruct (search_first qf n T) with (f := f) as [m [Hm [Hmn [Hqm Hmin]]]].
  - unfold n. lia.
  - intros i Hi. unfold qf. replace (a + (i + 1)) with (a + i + 1) by lia.
    apply (q_epoch_step r head hb kb Hwf Hhb Hnum). unfold n in Hi. lia.
  - unfold qf. replace (a + 0) with a by lia. exact H0.
  - unfold qf, n. replace (a + (kb - a + 1 - 1)) with kb by lia.
    rewrite (q_epoch_head r head hb kb Hwf Hhb Hnum). exact HT.
  - intros i Hi. unfold f. rewrite (Hgeti i Hi). reflexivity.
  - change (bsearch (S (N.to_nat n)) (fun i : N => match quality_at r qs head (storepoint L (a * L + i * L)) with
                                               | Ok q => Ok (T <=? q) | Err e => Err e end) 0 n)
      with (bsearch (S (N.to_nat n)) f 0 n).
    rewrite Hm.
    assert (Emn : (m =? n) = false) by (apply N.eqb_neq; lia). rewrite Emn.
    change (quality_at r qs head (storepoint L (a * L + m * L))) with (get m).
    rewrite (Hgeti m Hmn), Hqm, N.eqb_refl. cbn [negb].
    destruct (checkpoint_on_chain r head hb kb Hwf Hhb Hnum (a + m)) as [y [Hy Hyn]]; [unfold n in Hmn; lia|].
    replace (a * L + m * L) with ((a + m) * L) by lia. rewrite Hy.
    exists m, y. split; [reflexivity|]. split; [unfold n in Hmn; lia|]. split; [exact Hy|]. split; [exact Hyn|].
    split; [exact Hqm | exact Hmin].
Qed.

(* the search CommitBlock runs: the head closes a justified epoch kb after finalized's epoch a, the target is one below
   the head's quality; it is found before epoch kb *)
Lemma find_cp_committed r qs fin head hb a kb :
  wf_repo r -> (forall x, In x r -> storepoint L (b_num x) = b_num x -> get_q qs (b_id x) = qual c r x) ->
  find_blk r head = Some hb -> idnum fin = a * L -> b_num hb = kb * L + L - 1 -> a < kb ->
  s_just (state_pure c (chain_of r head)) = true ->
  exists m y, find_cp c r qs (quality_pure c (chain_of r head) - 1) fin head = Ok (b_id y) /\ a + m < kb /\
              block_at r head ((a + m) * L) = Some y /\ b_num y = (a + m) * L /\
              q_epoch r head (a + m) = quality_pure c (chain_of r head) - 1 /\
              forall k, k < m -> q_epoch r head (a + k) < quality_pure c (chain_of r head) - 1.
Proof.
  intros Hwf Hqs Hhb Hfin Hnum Hak Hj.
  pose proof (q_epoch_closing r head hb kb Hwf Hhb Hnum ltac:(lia) Hj) as HQ.
  pose proof (q_epoch_head r head hb kb Hwf Hhb Hnum) as Hlast.
  destruct (find_cp_general r qs fin head hb a kb (quality_pure c (chain_of r head) - 1) Hwf Hqs Hhb Hfin Hnum)
    as [m [y [Hfc [Hle [Hy [Hyn [Hqm Hmin]]]]]]]; [lia | | lia |].
  - pose proof (q_epoch_mono r head hb kb Hwf Hhb Hnum a (kb - 1)). lia.
  - exists m, y. repeat split; try assumption.
    destruct (N.eq_dec (a + m) kb) as [E|E]; [rewrite E in Hqm; lia | lia].
Qed.
End Find.
