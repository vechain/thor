(* Trie/Theorems.v — the trie results in terms of the API-level functions trie_get / trie_update. *)
From Coq Require Import List Arith Bool Lia.
From Verif Require Import Trie.Model Trie.Keys Trie.ProofsWf Trie.ProofsMap Trie.ProofsCanon.
Import ListNotations.

Section TOP.
  Variable V : Type.
  Variable veqb : V -> V -> bool.
  Hypothesis veqb_sound : forall a b, veqb a b = true -> a = b.

  Notation node := (node V).
  Notation wfc := (wfc V).
  Notation lookup := (lookup V).
  Notation trie_get := (trie_get V).
  Notation trie_insert := (trie_insert V veqb).
  Notation trie_delete := (trie_delete V).
  Notation trie_update := (trie_update V veqb).

  Lemma wfc_wfv t : wfc t -> wfv V t.
  Proof. intros [->|H]; [left|right; left]; auto. Qed.

  Lemma trie_get_lookup t k : wfc t -> trie_get t k = lookup t k.
  Proof. intros H. apply get_lookup; [apply wfc_wfv; auto|lia]. Qed.

  Theorem insert_wf_root t k v : wfc t -> vkey k -> wfc (trie_insert t k v).
  Proof.
    intros Ht Hk. right. unfold trie_insert, Model.trie_insert.
    rewrite insert_ins by (apply vkey_nonempty; auto). apply ins_spec; auto.
  Qed.

  Theorem delete_wf_root t k : wfc t -> vkey k -> wfc (trie_delete t k).
  Proof. intros Ht Hk. apply (wf_match_wfc V t), (delete_spec V); auto. Qed.

  Theorem update_wf_root t k ov : wfc t -> vkey k -> wfc (trie_update t k ov).
  Proof. destruct ov; cbn; [apply insert_wf_root|apply delete_wf_root]. Qed.

  Theorem get_insert t k v k' : wfc t -> vkey k -> vkey k' ->
    trie_get (trie_insert t k v) k' = if vkey_eq_dec k k' then Some v else trie_get t k'.
  Proof.
    intros Ht Hk Hk'. rewrite !trie_get_lookup by (auto; apply insert_wf_root; auto).
    unfold trie_insert, Model.trie_insert.
    rewrite insert_ins by (apply vkey_nonempty; auto). apply ins_spec; auto.
  Qed.

  Theorem get_delete t k k' : wfc t -> vkey k -> vkey k' ->
    trie_get (trie_delete t k) k' = if vkey_eq_dec k k' then None else trie_get t k'.
  Proof.
    intros Ht Hk Hk'. rewrite !trie_get_lookup by (auto; apply delete_wf_root; auto).
    apply (delete_spec V); auto.
  Qed.

  Theorem get_update t k ov k' : wfc t -> vkey k -> vkey k' ->
    trie_get (trie_update t k ov) k' = if vkey_eq_dec k k' then ov else trie_get t k'.
  Proof. destruct ov; cbn; [apply get_insert|apply get_delete]. Qed.

  Theorem canonical_get t1 t2 : wfc t1 -> wfc t2 ->
    (forall k, vkey k -> trie_get t1 k = trie_get t2 k) -> t1 = t2.
  Proof.
    intros H1 H2 Heq. apply canonical_root; auto.
    intros k Hk. rewrite <- !trie_get_lookup by auto. auto.
  Qed.

  Definition op := (list nat * option V)%type.       (* Update(key, value) ; None = empty value = delete *)

  Fixpoint run (ops : list op) (t : node) : node :=
    match ops with
    | [] => t
    | (k, ov) :: r => run r (trie_update t k ov)
    end.

  (* the plain map the sequence denotes: last write wins *)
  Fixpoint denote (ops : list op) (base : list nat -> option V) (k' : list nat) : option V :=
    match ops with
    | [] => base k'
    | (k, ov) :: r => denote r (fun x => if vkey_eq_dec k x then ov else base x) k'
    end.

  Definition valid_ops (ops : list op) : Prop := Forall (fun o => vkey (fst o)) ops.

  Lemma run_wf ops : forall t, wfc t -> valid_ops ops -> wfc (run ops t).
  Proof.
    induction ops as [|[k ov] r IH]; cbn; intros t Ht Hv; auto.
    inversion Hv; subst. apply IH; auto. apply update_wf_root; auto.
  Qed.

  Lemma denote_ext ops : forall b1 b2 k', (forall x, vkey x -> b1 x = b2 x) -> vkey k' ->
    denote ops b1 k' = denote ops b2 k'.
  Proof.
    induction ops as [|[k ov] r IH]; cbn; intros; auto.
    apply IH; auto. intros x Hx. destruct (vkey_eq_dec k x); auto.
  Qed.

  Theorem run_refines_map ops : forall t k', wfc t -> valid_ops ops -> vkey k' ->
    trie_get (run ops t) k' = denote ops (trie_get t) k'.
  Proof.
    induction ops as [|[k ov] r IH]; cbn; intros t k' Ht Hv Hk'; auto.
    inversion Hv; subst. cbn in *. rewrite IH by (auto; apply update_wf_root; auto).
    apply denote_ext; auto. intros x Hx. apply get_update; auto.
  Qed.

  (* the trie (hence any function of it: the Merkle root) is determined by the denoted content *)
  Theorem run_canonical ops1 ops2 t1 t2 :
    wfc t1 -> wfc t2 -> valid_ops ops1 -> valid_ops ops2 ->
    (forall k, vkey k -> denote ops1 (trie_get t1) k = denote ops2 (trie_get t2) k) ->
    run ops1 t1 = run ops2 t2.
  Proof.
    intros H1 H2 V1 V2 Heq. apply canonical_get; try apply run_wf; auto.
    intros k Hk. rewrite !run_refines_map by auto. auto.
  Qed.
End TOP.
