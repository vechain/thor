(* Crash/ExamplesInterleave.v — a concrete trace of the example history with reader events. *)
From Coq Require Import List NArith Bool Lia.
From Verif Require Import Crash.Model Crash.ProofsStore Crash.ProofsInv Crash.ProofsImport Crash.ProofsCrash Crash.Examples
  Crash.ProofsReaders Crash.ProofsInterleave Crash.ProofsResumeAll.
Import ListNotations.
Open Scope N_scope.

Lemma exec_imps c l y rest : exec c y (l ++ rest) (map EImp l) (do_steps y l) rest.
Proof.
  pose proof (prefix_is_interleaving c y (l ++ rest) (length l)) as H.
  rewrite firstn_length_app, skipn_app, skipn_all, PeanoNat.Nat.sub_diag in H. exact H.
Qed.

Definition ex_steps : list step := Eval vm_compute in steps_of ex_cfg ex_s0 ex_hist.
Lemma ex_steps_eq : steps_of ex_cfg ex_s0 ex_hist = ex_steps.
Proof. rewrite steps_of_blocks, ex_bsteps_eq. vm_compute. reflexivity. Qed.

Lemma ex_trace :
  let l := steps_of ex_cfg ex_s0 ex_hist in
  let y0 := mkSys ex_s0 (bid 0 7) (bid 0 7) in
  exists y' todo',
    exec ex_cfg y0 l (map EImp (firstn 3 l) ++ ERead QBest (bid 0 7) (bid 0 7) (ANum (bid 0 7)) ::
                      map EImp (firstn 1 (skipn 3 l)) ++ ERead (QBlock (bid 1 1)) (bid 1 1) (bid 0 7) (ABool true) ::
                      map EImp (firstn 10 (skipn 4 l))) y' todo' /\
    nth_error l 3 = Some (SPubBest (bid 1 1)) /\ y_best y' = bid 3 3.
Proof.
  rewrite ex_steps_eq. intros l y0.
  set (y1 := do_steps y0 (firstn 3 l)). set (y2 := do_steps y1 (firstn 1 (skipn 3 l))).
  set (y3 := do_steps y2 (firstn 10 (skipn 4 l))).
  exists y3, (skipn 14 l). split; [|split; vm_compute; reflexivity].
  assert (E1 : l = firstn 3 l ++ skipn 3 l) by (symmetry; apply firstn_skipn).
  assert (E2 : skipn 3 l = firstn 1 (skipn 3 l) ++ skipn 4 l) by (vm_compute; reflexivity).
  assert (E3 : skipn 4 l = firstn 10 (skipn 4 l) ++ skipn 14 l) by (vm_compute; reflexivity).
  eapply exec_app; [rewrite E1 at 1; apply exec_imps|]. fold y1.
  assert (R1 : y_best y1 = bid 0 7 /\ y_fin y1 = bid 0 7 /\ query_steps ex_cfg y1 QBest = ([], ANum (bid 0 7))) by (vm_compute; auto).
  destruct R1 as (B1 & F1 & Q1).
  replace (ERead QBest (bid 0 7) (bid 0 7) (ANum (bid 0 7))) with (ERead QBest (y_best y1) (y_fin y1) (snd (query_steps ex_cfg y1 QBest)))
    by (rewrite B1, F1, Q1; reflexivity).
  constructor. rewrite Q1. cbn [fst do_steps fold_left].
  eapply exec_app; [rewrite E2 at 1; apply exec_imps|]. fold y2.
  assert (R2 : y_best y2 = bid 1 1 /\ y_fin y2 = bid 0 7 /\ query_steps ex_cfg y2 (QBlock (bid 1 1)) = ([], ABool true)) by (vm_compute; auto).
  destruct R2 as (B2 & F2 & Q2).
  replace (ERead (QBlock (bid 1 1)) (bid 1 1) (bid 0 7) (ABool true))
    with (ERead (QBlock (bid 1 1)) (y_best y2) (y_fin y2) (snd (query_steps ex_cfg y2 (QBlock (bid 1 1)))))
    by (rewrite B2, F2, Q2; reflexivity).
  constructor. rewrite Q2. cbn [fst do_steps fold_left].
  rewrite E3 at 1. apply exec_imps.
Qed.
