(* LogDB/ProofsSync.v — the startup re-sync (cmd/thor/sync_logdb.go; tied to the real functions by the C15 harness
   through the cmd/thor test-binary hook) re-establishes the C15 invariant:
   if the tables are the canonical tables of ANY stored block x (the best block at the time logs were last written:
   an ancestor of the current best, a descendant, or a block of an abandoned branch), then after sync_logdb they are
   the canonical tables of the current best block. *)
From Coq Require Import List NArith Bool Lia ZifyN ZifyNat ZifyBool Arith.
From Verif Require Import Chain.Model Chain.Proofs Chain.ProofsWalk Chain.ProofsSys Chain.ProofsPath
  LogDB.Model LogDB.Proofs LogDB.ProofsCanon LogDB.ProofsRows.
Import ListNotations.
Open Scope N_scope.

Transparent num_of.
Lemma num_of_0 : num_of 0 = 0.
Proof. reflexivity. Qed.
Lemma id_lt_of_num_lt a b : num_of a < num_of b -> a < b.
Proof.
  unfold num_of. rewrite !N.shiftr_div_pow2. intros H.
  destruct (N.lt_ge_cases a b) as [|Hge]; [assumption|]. exfalso.
  assert (b / 2 ^ 224 <= a / 2 ^ 224) by (apply N.div_le_mono; [discriminate | exact Hge]). lia.
Qed.
Global Opaque num_of.

Lemma last_app_ne {A} (l1 l2 : list A) d : l2 <> [] -> last (l1 ++ l2) d = last l2 d.
Proof.
  intros Hne. induction l1 as [|a l1 IH]; [reflexivity|]. cbn [app].
  destruct (l1 ++ l2) as [|x t] eqn:E.
  - apply app_eq_nil in E. destruct E. contradiction.
  - change (last (a :: x :: t) d) with (last (x :: t) d). exact IH.
Qed.
Lemma last_In {A} (l : list A) d : l <> [] -> In (last l d) l.
Proof.
  induction l as [|a l IH]; [congruence|]. intros _. destruct l as [|x t]; [left; reflexivity|].
  change (last (a :: x :: t) d) with (last (x :: t) d). right. apply IH. discriminate.
Qed.

Section PathsMore.
  Variables (g gp : N) (r : repo).
  Hypothesis W : wf g gp r.

  Lemma path_suffix c pre : forall y suf, is_path r c (pre ++ y :: suf) -> is_path r y (y :: suf).
  Proof.
    revert c. induction pre as [|a pre IH]; intros c y suf P; cbn [app] in P.
    - destruct (path_head _ _ _ P) as [t Et]. injection Et as -> _. exact P.
    - inversion P as [E|h s l Hs Hg Hp]; subst.
      + destruct pre; discriminate.
      + eapply IH. exact Hp.
  Qed.

  Lemma path_length c pre : forall suf F, is_path r c (pre ++ suf) -> is_path r F suf ->
    num_of c = num_of F + N.of_nat (length pre).
  Proof.
    revert c. induction pre as [|a pre IH]; intros c suf F P PF; cbn [app length] in *.
    - destruct (path_head _ _ _ P) as [t Et]. destruct (path_head _ _ _ PF) as [t' Et'].
      rewrite Et in Et'. injection Et' as -> _. lia.
    - inversion P as [E|h s l Hs Hg Hp]; subst.
      + exfalso. destruct (path_head _ _ _ PF) as [t' ->]. destruct pre; discriminate.
      + rewrite (w_gen _ _ _ W) in Hg. destruct (w_par _ _ _ W _ _ Hs Hg) as [ps [_ [En _]]].
        rewrite (IH _ _ _ Hp PF) in En. lia.
  Qed.

  (* the blocks of c's chain above F, pumped by height, are the prefix of c's path, oldest first *)
  Lemma write_range_path c pre : forall suf F d, is_path r c (pre ++ suf) -> is_path r F suf ->
    write_range r c (length pre) (num_of F + 1) d = write_ids r (rev pre) d.
  Proof.
    induction pre as [|y pre IH] using rev_ind; intros suf F d P PF; [reflexivity|].
    rewrite rev_app_distr, app_length. cbn [rev app length]. rewrite Nat.add_1_r. cbn [write_range write_ids].
    rewrite <- app_assoc in P. cbn [app] in P.
    pose proof (path_suffix c pre y suf P) as Py.
    assert (Ey : num_of y = num_of F + 1 /\ anc r c y).
    { split.
      - inversion Py as [E|h s l Hs Hg Hp]; subst.
        + exfalso. destruct (path_head _ _ _ PF) as [t' E']. discriminate E'.
        + destruct (path_head _ _ _ Hp) as [t1 E1]. destruct (path_head _ _ _ PF) as [t2 E2].
          rewrite E1 in E2. injection E2 as E2 _. rewrite (w_gen _ _ _ W) in Hg.
          destruct (w_par _ _ _ W _ _ Hs Hg) as [ps [_ [En _]]]. rewrite E2 in En. exact En.
      - apply (path_members g gp r W _ _ P). apply in_or_app. right. left. reflexivity. }
    destruct Ey as [Ey Ay].
    replace (get_block_id r c (num_of F + 1)) with (Ok y)
      by (symmetry; apply (get_block_id_spec g gp r W); [apply (anc_stored _ _ _ Ay) | auto]).
    destruct (get_block r y) as [[s b]|]; [|reflexivity]. destruct (write_block b d) as [d'|]; [|reflexivity].
    rewrite <- Ey. apply (IH (y :: suf) y d' P Py).
  Qed.
End PathsMore.

Lemma spec_events_block bid bnum btime txid origin txi clause evs : forall ec,
  Forall (fun x => er_block x = bid) (spec_events bid bnum btime txid origin txi clause ec evs).
Proof. induction evs as [|e evs IH]; intros ec; constructor; [reflexivity | apply IH]. Qed.
Lemma spec_transfers_block bid bnum btime txid origin txi clause trs : forall tc,
  Forall (fun x => tr_block x = bid) (spec_transfers bid bnum btime txid origin txi clause tc trs).
Proof. induction trs as [|t trs IH]; intros tc; constructor; [reflexivity | apply IH]. Qed.
Lemma spec_outputs_ev_block bid bnum btime txid origin txi outs : forall clause ec,
  Forall (fun x => er_block x = bid) (spec_outputs_ev bid bnum btime txid origin txi clause ec outs).
Proof.
  induction outs as [|[evs trs] outs IH]; intros clause ec; [constructor|].
  apply Forall_app. split; [apply spec_events_block | apply IH].
Qed.
Lemma spec_outputs_tr_block bid bnum btime txid origin txi outs : forall clause tc,
  Forall (fun x => tr_block x = bid) (spec_outputs_tr bid bnum btime txid origin txi clause tc outs).
Proof.
  induction outs as [|[evs trs] outs IH]; intros clause tc; [constructor|].
  apply Forall_app. split; [apply spec_transfers_block | apply IH].
Qed.
Lemma spec_receipts_ev_block bid bnum btime rcs : forall txs txi ec,
  Forall (fun x => er_block x = bid) (spec_receipts_ev bid bnum btime txs rcs txi ec).
Proof.
  induction rcs as [|rc rcs IH]; intros txs txi ec; [constructor|].
  apply Forall_app. split; [apply spec_outputs_ev_block | apply IH].
Qed.
Lemma spec_receipts_tr_block bid bnum btime rcs : forall txs txi tc,
  Forall (fun x => tr_block x = bid) (spec_receipts_tr bid bnum btime txs rcs txi tc).
Proof.
  induction rcs as [|rc rcs IH]; intros txs txi tc; [constructor|].
  apply Forall_app. split; [apply spec_outputs_tr_block | apply IH].
Qed.

(* the rows of a chain in either table: f id are the rows of block id, each carrying that id *)
Section ChainRows.
  Context {A : Type} (blockof : A -> N) (f : N -> list A).
  Hypothesis f_block : forall id x, In x (f id) -> blockof x = id.

  Fixpoint chain_rows (st : list N) : list A :=
    match st with [] => [] | id :: older => chain_rows older ++ f id end.

  Lemma chain_rows_app pre suf : chain_rows (pre ++ suf) = chain_rows suf ++ chain_rows pre.
  Proof. induction pre as [|a pre IH]; cbn [app chain_rows]; [rewrite app_nil_r; reflexivity|]. rewrite IH, app_assoc. reflexivity. Qed.

  Lemma chain_rows_concat st : chain_rows st = concat (map f (rev st)).
  Proof.
    induction st as [|id st IH]; [reflexivity|]. cbn [chain_rows rev]. rewrite map_app, concat_app, IH. cbn [map concat].
    rewrite app_nil_r. reflexivity.
  Qed.

  Lemma chain_rows_origin st x : In x (chain_rows st) -> In (blockof x) st.
  Proof.
    induction st as [|id st IH]; cbn [chain_rows In]; [tauto|]. intros H. apply in_app_or in H.
    destruct H as [H|H]; [right; apply IH; exact H | left; symmetry; apply f_block; exact H].
  Qed.

  (* blocks above `best` that contribute the newest row would make NewestBlockID exceed best *)
  Lemma pre_no_rows best suf pre : (forall y, In y pre -> best < y) ->
    last (map blockof (chain_rows (pre ++ suf))) 0 <= best -> chain_rows (pre ++ suf) = chain_rows suf.
  Proof.
    induction pre as [|y pre IH]; intros Hy Hl; [reflexivity|]. cbn [app chain_rows] in *.
    destruct (f y) as [|x t] eqn:E.
    - rewrite app_nil_r in *. apply IH; [intros z Hz; apply Hy; right; exact Hz | exact Hl].
    - exfalso. rewrite map_app, last_app_ne in Hl by discriminate.
      assert (I : In (last (map blockof (x :: t)) 0) (map blockof (x :: t))) by (apply last_In; discriminate).
      apply in_map_iff in I. destruct I as [z [Ez Hz]]. rewrite <- E in Hz. apply f_block in Hz.
      pose proof (Hy y (or_introl eq_refl)). lia.
  Qed.
End ChainRows.

Section Origin.
  Variable r : repo.
  Hypothesis WB : wf_body r.

  Definition blk_events (id : N) : list evrow := match get_block r id with Some (_, b) => block_events b | None => [] end.
  Definition blk_transfers (id : N) : list trrow := match get_block r id with Some (_, b) => block_transfers b | None => [] end.

  Lemma blk_events_block id x : In x (blk_events id) -> er_block x = id.
  Proof.
    unfold blk_events. destruct (get_block r id) as [[s b]|] eqn:E; [|intros []].
    rewrite <- (get_block_id_eq r WB _ _ _ E). revert x. apply Forall_forall, spec_receipts_ev_block.
  Qed.
  Lemma blk_transfers_block id x : In x (blk_transfers id) -> tr_block x = id.
  Proof.
    unfold blk_transfers. destruct (get_block r id) as [[s b]|] eqn:E; [|intros []].
    rewrite <- (get_block_id_eq r WB _ _ _ E). revert x. apply Forall_forall, spec_receipts_tr_block.
  Qed.

  Lemma chain_events_eq st : chain_events r st = chain_rows blk_events st.
  Proof. induction st as [|id st IH]; cbn [chain_events chain_rows]; [|rewrite IH]; reflexivity. Qed.
  Lemma chain_transfers_eq st : chain_transfers r st = chain_rows blk_transfers st.
  Proof. induction st as [|id st IH]; cbn [chain_transfers chain_rows]; [|rewrite IH]; reflexivity. Qed.

  Lemma rows_suffix_some pre : forall suf d, rows_of_path r (pre ++ suf) = Some d -> exists ds, rows_of_path r suf = Some ds.
  Proof.
    induction pre as [|y pre IH]; intros suf d H; [eauto|]. cbn [app rows_of_path] in H.
    destruct (rows_of_path r (pre ++ suf)) as [d0|] eqn:E; [|discriminate]. eapply IH; eauto.
  Qed.

End Origin.

Section Sync.
  Variables (g gp : N) (r : repo).
  Hypothesis W : wf g gp r.
  Hypothesis WB : wf_body r.
  Variables (x : N) (st_x st_b : list N) (db : logdb).
  Hypothesis Px : is_path r x st_x.
  Hypothesis Pb : is_path r (r_best r) st_b.
  Hypothesis Hdb : rows_of_path r st_x = Some db.       (* the tables were canonical for x *)
  Let best := r_best r.

  Lemma flat_x : db_events db = chain_rows (blk_events r) st_x /\ db_transfers db = chain_rows (blk_transfers r) st_x.
  Proof. rewrite <- chain_events_eq, <- chain_transfers_eq. apply (rows_of_path_flat r st_x WB (path_desc g gp r W _ _ Px) db Hdb). Qed.

  (* a block with a row in the tables is on x's chain *)
  Lemma row_block_on_x h :
    (exists e, In e (db_events db) /\ er_block e = h) \/ (exists t, In t (db_transfers db) /\ tr_block t = h) -> In h st_x.
  Proof.
    destruct flat_x as [E1 E2]. intros [[e [He <-]]|[t [Ht <-]]].
    - rewrite E1 in He. apply (chain_rows_origin er_block _ (blk_events_block r WB) _ _ He).
    - rewrite E2 in Ht. apply (chain_rows_origin tr_block _ (blk_transfers_block r WB) _ _ Ht).
  Qed.

  (* truncating above a common block h and rewriting best's chain above h yields the canonical tables of best *)
  Lemma rebuild_from h d1 db' : In h st_x -> anc r best h ->
    truncate (num_of h + 1) db = Some d1 ->
    write_range r best (N.to_nat (num_of best - num_of h)) (num_of h + 1) d1 = Some db' ->
    rows_of_path r st_b = Some db'.
  Proof.
    intros Hx Hb T Hw.
    destruct (in_split _ _ Hx) as [pre_x [suf_x Ex]]. destruct (in_split _ _ (proj2 (path_members g gp r W _ _ Pb h) Hb)) as [pre_b [suf_b Eb]].
    pose proof Px as Px'. rewrite Ex in Px'. pose proof Pb as Pb'. rewrite Eb in Pb'.
    pose proof (path_suffix r _ _ _ _ Px') as Ph. pose proof (path_suffix r _ _ _ _ Pb') as Ph'.
    assert (Es : suf_b = suf_x) by (assert (X : h :: suf_b = h :: suf_x) by (eapply path_unique; eauto); injection X; auto).
    subst suf_b.
    (* the truncate leaves the rows of h's path *)
    assert (Hd1 : rows_of_path r (h :: suf_x) = Some d1).
    { rewrite Ex in Hdb. apply (rows_truncated r WB pre_x (h :: suf_x) db (num_of h + 1) d1 Hdb); [| |exact T]; intros a Ha.
      - pose proof (desc_app_lt pre_x (h :: suf_x) (path_desc g gp r W _ _ Px') a h Ha (or_introl eq_refl)). lia.
      - apply (path_members g gp r W _ _ Ph) in Ha. pose proof (anc_height g gp r W _ _ Ha). lia. }
    pose proof (path_length g gp r W _ _ _ _ Pb' Ph) as Hlen. fold best in Hlen.
    replace (N.to_nat (num_of best - num_of h)) with (length pre_b) in Hw by lia.
    rewrite (write_range_path g gp r W best pre_b (h :: suf_x) h d1 Pb' Ph) in Hw.
    rewrite Eb, <- (rev_involutive pre_b). eapply rows_write_ids; eauto.
  Qed.

  (* the seek walk stops at a block of best's chain that is either genesis or has a row in the tables *)
  Lemma seek_walk_spec : forall fuel h p, anc r best h -> (N.to_nat (num_of h) < fuel)%nat ->
    seek_walk r db fuel h = Ok p ->
    exists h', anc r best h' /\ p = num_of h' + 1 /\ num_of h' <= num_of h /\ In h' st_x.
  Proof.
    induction fuel as [|f IH]; intros h p Ha Hf H; [lia|]. cbn [seek_walk] in H.
    destruct (N.eqb_spec (num_of h) 0) as [E0|N0].
    - injection H as <-. exists h. repeat split; auto; try lia.
      rewrite (stored_height0 g gp r W h (proj2 (anc_stored _ _ _ Ha)) E0).
      apply (path_members g gp r W _ _ Px). apply (anc_to_gen g gp r W). apply (path_stored g gp r W _ _ Px).
    - destruct (has_block_id db h) as [[|]|] eqn:Eh; try discriminate.
      + injection H as <-. exists h. repeat split; auto; try lia. apply row_block_on_x.
        unfold has_block_id in Eh. destruct (seq_of (num_of h) 0 0) as [s|]; [|discriminate]. injection Eh as Eh.
        apply orb_true_iff in Eh. destruct Eh as [Eh|Eh]; apply existsb_exists in Eh; destruct Eh as [y [Hy Ey]];
          apply andb_true_iff in Ey; destruct Ey as [_ Ey]; apply N.eqb_eq in Ey; [right | left]; eauto.
      + destruct (anc_stored _ _ _ Ha) as [_ [s Hs]]. rewrite Hs in H.
        assert (Hg : h <> g) by (intros ->; rewrite (w_gnum _ _ _ W) in N0; congruence).
        destruct (w_par _ _ _ W _ _ Hs Hg) as [ps [_ [En _]]].
        destruct (IH (s_parent s) p) as [h' [A1 [A2 [A3 A4]]]]; auto.
        * eapply anc_trans; [exact Ha | apply (anc_parent g gp r W); auto].
        * lia.
        * exists h'. repeat split; auto. lia.
  Qed.

  Lemma seek_position_common p : seek_position r db = Ok p ->
    p = 0 \/ exists h, In h st_x /\ anc r best h /\ p = num_of h + 1 /\ (num_of best < p -> newest_block_id db = best).
  Proof.
    unfold seek_position. fold best. intros H.
    assert (Sb : stored r best) by apply (w_best _ _ _ W).
    destruct (N.eqb_spec (num_of best) 0) as [B0|B0]; [injection H as <-; auto|].
    destruct (N.eqb_spec (num_of (newest_block_id db)) 0) as [N0|N0]; [injection H as <-; auto|].
    right. destruct (N.eqb_spec (newest_block_id db) best) as [Enew|Nnew].
    - (* the newest row belongs to best *)
      injection H as <-. exists best. split; [|split; [destruct Sb as [s Hs]; eapply anc_refl; exact Hs | auto]].
      apply row_block_on_x. unfold newest_block_id in Enew.
      assert (Bnz : best <> 0) by (intros E; rewrite E, num_of_0 in B0; congruence).
      (* the table that gives the maximum is not empty (best <> 0), and its last row carries best *)
      destruct (N.max_spec (last (map tr_block (db_transfers db)) 0) (last (map er_block (db_events db)) 0)) as [[_ M]|[_ M]];
        rewrite M in Enew; [left | right];
        match type of Enew with last ?l 0 = _ =>
          assert (Ne : l <> []) by (intros E; rewrite E in Enew; cbn in Enew; congruence);
          pose proof (last_In _ 0 Ne) as I; rewrite Enew in I; apply in_map_iff in I; destruct I as [e [E1 E2]]; eauto end.
    - (* the seek walk *)
      set (start := if num_of best <=? num_of (newest_block_id db) then num_of best - 1 else num_of (newest_block_id db)) in *.
      assert (Hstart : start <= num_of best - 1).
      { unfold start. destruct (N.leb_spec (num_of best) (num_of (newest_block_id db))); lia. }
      destruct (anc_total g gp r W best Sb start ltac:(lia)) as [h0 [A0 E0]].
      replace (get_block_id r best start) with (Ok h0) in H by (symmetry; apply (get_block_id_spec g gp r W); auto).
      destruct (seek_walk_spec (S (N.to_nat (num_of h0))) h0 p A0 (Nat.lt_succ_diag_r _) H) as [h' [A1 [A2 [A3 A4]]]].
      exists h'. repeat split; auto. lia.
  Qed.

  (* C15 for the startup re-sync *)
  Theorem sync_reestablishes_lemma db' : sync_logdb r db = Some db' -> rows_of_path r st_b = Some db'.
  Proof.
    unfold sync_logdb. fold best. destruct (seek_position r db) as [p| |] eqn:Ep; try discriminate.
    destruct (seek_position_common p Ep) as [->|[h [Hx [Hb [-> Hnew]]]]].
    - (* rebuilding from block 1 *)
      cbn [N.eqb]. destruct (N.ltb_spec (num_of best) 0) as [|_]; [lia|].
      destruct (truncate 1 db) as [d1|] eqn:T; [|discriminate]. intros Hw.
      apply (rebuild_from g d1 db'); rewrite ?(w_gnum _ _ _ W).
      + apply (path_members g gp r W _ _ Px), (anc_to_gen g gp r W), (path_stored g gp r W _ _ Px).
      + apply (anc_to_gen g gp r W), (w_best _ _ _ W).
      + exact T.
      + replace (num_of best - 0) with (num_of best + 1 - 1) by lia. exact Hw.
    - pose proof (anc_height g gp r W _ _ Hb) as Hh. destruct (N.ltb_spec (num_of best) (num_of h + 1)) as [L|L].
      + (* the newest row belongs to best: nothing to do, and indeed the tables are best's *)
        intros H. injection H as <-. assert (h = best) by (apply (anc_same_height g gp r W _ _ Hb); lia). subst h.
        pose proof (Hnew L) as Enew. destruct flat_x as [F1 F2]. unfold newest_block_id in Enew.
        assert (Lt : last (map tr_block (db_transfers db)) 0 <= best) by (rewrite <- Enew; apply N.le_max_l).
        assert (Le : last (map er_block (db_events db)) 0 <= best) by (rewrite <- Enew; apply N.le_max_r).
        destruct (in_split _ _ Hx) as [pre [suf Ex]]. pose proof Px as Px'. rewrite Ex in Px'.
        pose proof (path_suffix r _ _ _ _ Px') as Ph.
        assert (Est : st_b = best :: suf) by (eapply path_unique; eauto).
        assert (Hpre : forall y, In y pre -> best < y).
        { intros y Hy. apply id_lt_of_num_lt. pose proof (path_desc g gp r W _ _ Px') as D.
          apply (desc_app_lt pre (best :: suf) D y best Hy (or_introl eq_refl)). }
        rewrite Ex in Hdb, F1, F2.
        destruct (rows_suffix_some r pre (best :: suf) db Hdb) as [ds Hds].
        destruct (rows_of_path_flat r (best :: suf) WB (path_desc g gp r W _ _ Ph) ds Hds) as [G1 G2].
        rewrite chain_events_eq in G1. rewrite chain_transfers_eq in G2.
        rewrite Est, Hds. f_equal. destruct ds as [e1 t1], db as [e2 t2]. cbn [db_events db_transfers] in *. f_equal.
        * rewrite G1, F1. symmetry. apply (pre_no_rows er_block _ (blk_events_block r WB) best); auto. rewrite <- F1. exact Le.
        * rewrite G2, F2. symmetry. apply (pre_no_rows tr_block _ (blk_transfers_block r WB) best); auto. rewrite <- F2. exact Lt.
      + replace (num_of h + 1 =? 0) with false by (symmetry; apply N.eqb_neq; lia).
        destruct (truncate (num_of h + 1) db) as [d1|] eqn:T; [|discriminate]. intros Hw.
        apply (rebuild_from h d1 db' Hx Hb T). replace (num_of best - num_of h) with (num_of best + 1 - (num_of h + 1)) by lia. exact Hw.
  Qed.
End Sync.
