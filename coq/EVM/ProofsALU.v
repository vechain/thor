(* EVM/ProofsALU.v — every ALU instruction of the interpreter (Word.v, prefix i_) equals its mathematical definition
   (prefix m_) on all 256-bit operands.  Algebraic proofs (Z.div / Z.modulo / Z.quot / Z.rem / bit lemmas). *)
From Coq Require Import ZArith Lia Bool Zpow_facts.
From Verif Require Import EVM.Word.
Open Scope Z_scope.

Lemma W_eq : W = 2 ^ 256. Proof. reflexivity. Qed.
Lemma HALF_eq : HALF = 2 ^ 255. Proof. reflexivity. Qed.
Lemma W64_eq : W64 = 2 ^ 64. Proof. reflexivity. Qed.
Lemma W_half : W = 2 * HALF. Proof. reflexivity. Qed.
Lemma MASK_ones : MASK = Z.ones 256. Proof. reflexivity. Qed.
Lemma HALF_pos : 0 < HALF. Proof. reflexivity. Qed.
Lemma W_pos : 0 < W. Proof. reflexivity. Qed.
Lemma wrap_mod x : wrap x = x mod W.
Proof. unfold wrap. rewrite MASK_ones, Z.land_ones by lia. rewrite W_eq. reflexivity. Qed.
Global Opaque W HALF W64 MASK.

Ltac bdestruct :=
  repeat match goal with
  | |- context [?x =? ?y] => destruct (Z.eqb_spec x y)
  | |- context [?x <? ?y] => destruct (Z.ltb_spec x y)
  | |- context [?x <=? ?y] => destruct (Z.leb_spec x y)
  end.

Lemma mod_small_W v : 0 <= v < W -> v mod W = v.
Proof. intros; apply Z.mod_small; lia. Qed.
Lemma div_bound a b : 0 <= a -> 0 < b -> 0 <= a / b <= a.
Proof.
  intros Ha Hb. split. apply Z.div_pos; lia.
  apply Z.div_le_upper_bound; nia.
Qed.
Lemma u_div_spec x y : 0 <= x -> 0 <= y -> u_div x y = if y =? 0 then 0 else x / y.
Proof.
  intros Hx Hy. unfold u_div. destruct (Z.eqb_spec y 0) as [->|Hy0]; [reflexivity|]. cbn [orb].
  destruct (Z.ltb_spec x y). { symmetry; apply Z.div_small; lia. }
  destruct (Z.eqb_spec x y) as [->|]. { symmetry; apply Z_div_same_full; lia. } reflexivity.
Qed.
Lemma u_mod_spec x y : 0 <= x -> 0 <= y -> u_mod x y = if y =? 0 then 0 else x mod y.
Proof.
  intros Hx Hy. unfold u_mod. destruct (Z.eqb_spec y 0) as [->|Hy0].
  { rewrite orb_true_r. reflexivity. }
  destruct (Z.eqb_spec x 0) as [->|Hx0]; cbn [orb]. { symmetry; apply Z.mod_0_l; lia. }
  destruct (Z.compare_spec x y) as [->|Hlt|Hgt].
  - symmetry; apply Z_mod_same_full.
  - symmetry; apply Z.mod_small; lia.
  - reflexivity.
Qed.
Lemma u_neg_0 : u_neg 0 = 0. Proof. reflexivity. Qed.
Lemma u_neg_pos x : 0 < x < W -> u_neg x = W - x.
Proof.
  intros H. unfold u_neg, u_sub. rewrite wrap_mod. symmetry. apply Zmod_unique with (-1); lia.
Qed.
Lemma u_neg_opp x : u_neg x = (- x) mod W.
Proof. unfold u_neg, u_sub. rewrite wrap_mod. f_equal. Qed.
Lemma signed_lo x : x < HALF -> signed x = x.
Proof. unfold signed. destruct (Z.ltb_spec x HALF); lia. Qed.
Lemma signed_hi x : HALF <= x -> signed x = x - W.
Proof. unfold signed. destruct (Z.ltb_spec x HALF); lia. Qed.
Lemma u_sign_0 : u_sign 0 = 0. Proof. reflexivity. Qed.
Lemma u_sign_pos x : 0 < x < HALF -> u_sign x = 1.
Proof. intros. unfold u_sign. bdestruct; lia. Qed.
Lemma u_sign_neg x : HALF <= x -> u_sign x = -1.
Proof. intros. pose proof HALF_pos. unfold u_sign. bdestruct; lia. Qed.

Lemma add_ok a b : i_add a b = m_add a b.
Proof. unfold i_add, u_add, m_add. apply wrap_mod. Qed.
Lemma mul_ok a b : i_mul a b = m_mul a b.
Proof. unfold i_mul, u_mul, m_mul. apply wrap_mod. Qed.
Lemma sub_ok a b : i_sub a b = m_sub a b.
Proof. unfold i_sub, u_sub, m_sub. apply wrap_mod. Qed.
Lemma div_ok a b : in_word a -> in_word b -> i_div a b = m_div a b.
Proof. intros [? ?] [? ?]. unfold i_div, m_div. apply u_div_spec; lia. Qed.
Lemma mod_ok a b : in_word a -> in_word b -> i_mod a b = m_mod a b.
Proof. intros [? ?] [? ?]. unfold i_mod, m_mod. apply u_mod_spec; lia. Qed.

Lemma u_div_0_r x : u_div x 0 = 0. Proof. reflexivity. Qed.
Lemma u_div_0_l y : 0 <= y -> u_div 0 y = 0.
Proof. intros. rewrite u_div_spec by lia. destruct (y =? 0); reflexivity. Qed.
Lemma u_mod_0_r x : u_mod x 0 = 0. Proof. unfold u_mod. rewrite orb_true_r. reflexivity. Qed.
Lemma u_mod_0_l y : u_mod 0 y = 0. Proof. reflexivity. Qed.

(* a word as a signed number: zero, positive, or negative with magnitude W - x *)
Lemma sign_cases x : in_word x ->
  x = 0 \/ (0 < x < HALF /\ u_sign x = 1 /\ signed x = x) \/
  (HALF <= x /\ 0 < W - x <= HALF /\ u_sign x = -1 /\ signed x = - (W - x) /\ u_neg x = W - x).
Proof.
  intros [? ?]. pose proof W_half. destruct (Z.eq_dec x 0) as [->|]; [left; reflexivity|right].
  destruct (Z.ltb_spec x HALF); [left|right].
  - rewrite u_sign_pos, signed_lo by lia. repeat split; lia.
  - rewrite u_sign_neg, signed_hi, u_neg_pos by lia. repeat split; lia.
Qed.

Lemma sdiv_ok a b : in_word a -> in_word b -> i_sdiv a b = m_sdiv a b.
Proof.
  intros Ha Hb. pose proof W_half as HW. pose proof HALF_pos as HP. unfold i_sdiv, m_sdiv, u_sdiv.
  destruct (sign_cases b Hb) as [->|Sb].
  { rewrite u_sign_0. change (0 <? 0) with false. cbv iota.
    destruct (0 <? u_sign a); rewrite ?u_neg_0, ?u_div_0_r; reflexivity. }
  destruct (Z.eqb_spec b 0) as [->|Hb0]; [lia|].
  destruct (sign_cases a Ha) as [->|Sa].
  { rewrite u_sign_0, u_neg_0, (signed_lo 0), Z.quot_0_l, Z.mod_0_l by lia.
    change (0 <? 0) with false. cbv iota.
    destruct Sb as [(? & -> & _)|(? & ? & -> & _ & ->)]; cbn [Z.ltb Z.compare]; rewrite ?u_div_0_l, ?u_neg_0 by lia; reflexivity. }
  destruct Sa as [(A & -> & ->)|(A & A' & -> & -> & ->)]; destruct Sb as [(B & -> & ->)|(B & B' & -> & -> & ->)];
    cbn [Z.ltb Z.compare]; rewrite u_div_spec by lia;
    match goal with |- context [?d =? 0] => destruct (Z.eqb_spec d 0); [lia|] end;
    rewrite ?Z.quot_opp_opp, ?Z.quot_opp_l, ?Z.quot_opp_r, Z.quot_div_nonneg by lia; try apply u_neg_opp.
  - pose proof (div_bound a b). rewrite mod_small_W; lia.
  - pose proof (div_bound (W - a) (W - b)). rewrite mod_small_W; lia.
Qed.

Lemma smod_ok a b : in_word a -> in_word b -> i_smod a b = m_smod a b.
Proof.
  intros Ha Hb. pose proof W_half as HW. pose proof HALF_pos as HP. unfold i_smod, m_smod, u_smod. cbv zeta.
  destruct (sign_cases b Hb) as [->|Sb].
  { rewrite u_sign_0. change (0 =? -1) with false. cbv iota. rewrite u_mod_0_r.
    destruct (u_sign a =? -1); rewrite ?u_neg_0; reflexivity. }
  destruct (Z.eqb_spec b 0) as [->|Hb0]; [lia|].
  destruct (sign_cases a Ha) as [->|Sa].
  { rewrite u_sign_0. change (0 =? -1) with false. cbv iota. rewrite u_mod_0_l, (signed_lo 0), Z.rem_0_l, Z.mod_0_l by lia. reflexivity. }
  destruct Sa as [(A & -> & ->)|(A & A' & -> & -> & ->)]; destruct Sb as [(B & -> & ->)|(B & B' & -> & -> & ->)];
    cbn [Z.eqb Pos.eqb]; rewrite u_mod_spec by lia;
    match goal with |- context [?d =? 0] => destruct (Z.eqb_spec d 0); [lia|] end;
    rewrite ?Z.rem_opp_opp, ?Z.rem_opp_l, ?Z.rem_opp_r, Z.rem_mod_nonneg by lia; try apply u_neg_opp.
  - pose proof (Z.mod_pos_bound a b). rewrite mod_small_W; lia.
  - pose proof (Z.mod_pos_bound a (W - b)). rewrite mod_small_W; lia.
Qed.

Lemma mulmod_ok a b c : i_mulmod a b c = m_mulmod a b c.
Proof.
  unfold i_mulmod, m_mulmod, u_mulmod.
  destruct (Z.eqb_spec c 0) as [->|]. { rewrite !orb_true_r. reflexivity. }
  destruct (Z.eqb_spec a 0) as [->|]. { cbn [orb]. rewrite Z.mul_0_l, Z.mod_0_l by lia. reflexivity. }
  destruct (Z.eqb_spec b 0) as [->|]. { cbn [orb]. rewrite Z.mul_0_r, Z.mod_0_l by lia. reflexivity. }
  reflexivity.
Qed.

(* uint256's comparisons work on the four limbs: Lt by the borrow chain, Eq limb by limb, IsZero by OR of the limbs *)
Lemma limb_spec x i : 0 <= i -> limb x i = (x / 2 ^ (64 * i)) mod 2 ^ 64.
Proof.
  intros. unfold limb. change 18446744073709551615 with (Z.ones 64).
  rewrite Z.land_ones by lia. rewrite Z.shiftr_div_pow2 by lia. reflexivity.
Qed.
Lemma limbs_decomp x : 0 <= x < W ->
  x = limb x 0 + 2 ^ 64 * limb x 1 + 2 ^ 128 * limb x 2 + 2 ^ 192 * limb x 3 /\
  0 <= limb x 0 < 2 ^ 64 /\ 0 <= limb x 1 < 2 ^ 64 /\ 0 <= limb x 2 < 2 ^ 64 /\ 0 <= limb x 3 < 2 ^ 64.
Proof.
  intros Hx. rewrite W_eq in Hx. rewrite !limb_spec by lia.
  change (64 * 0) with 0. change (64 * 1) with 64. change (64 * 2) with 128. change (64 * 3) with 192.
  rewrite Z.pow_0_r, Z.div_1_r.
  assert (H1 : x / 2 ^ 128 = x / 2 ^ 64 / 2 ^ 64) by (rewrite Z.div_div by lia; reflexivity).
  assert (H2 : x / 2 ^ 192 = x / 2 ^ 64 / 2 ^ 64 / 2 ^ 64) by (rewrite !Z.div_div by lia; reflexivity).
  rewrite H1, H2.
  set (a := x / 2 ^ 64). set (b := a / 2 ^ 64). set (c := b / 2 ^ 64).
  pose proof (Z.div_mod x (2 ^ 64) ltac:(lia)) as D0. pose proof (Z.mod_pos_bound x (2 ^ 64) ltac:(lia)) as B0.
  pose proof (Z.div_mod a (2 ^ 64) ltac:(lia)) as D1. pose proof (Z.mod_pos_bound a (2 ^ 64) ltac:(lia)) as B1.
  pose proof (Z.div_mod b (2 ^ 64) ltac:(lia)) as D2. pose proof (Z.mod_pos_bound b (2 ^ 64) ltac:(lia)) as B2.
  pose proof (Z.mod_pos_bound c (2 ^ 64) ltac:(lia)) as B3.
  fold a in D0. fold b in D1. fold c in D2.
  assert (Hc : 0 <= c < 2 ^ 64).
  { unfold c, b, a. rewrite !Z.div_div by lia. split. apply Z.div_pos; lia. apply Z.div_lt_upper_bound; lia. }
  rewrite (Z.mod_small c) by lia.
  change (2 ^ 128) with (2 ^ 64 * 2 ^ 64). change (2 ^ 192) with (2 ^ 64 * 2 ^ 64 * 2 ^ 64).
  repeat split; try lia.
Qed.

Lemma u_lt_spec z x : in_word z -> in_word x -> u_lt z x = (z <? x).
Proof.
  intros Hz Hx. destruct (limbs_decomp z Hz) as (Ez & Z0 & Z1 & Z2 & Z3).
  destruct (limbs_decomp x Hx) as (Ex & X0 & X1 & X2 & X3).
  unfold u_lt, borrow64.
  set (z0 := limb z 0) in *. set (z1 := limb z 1) in *. set (z2 := limb z 2) in *. set (z3 := limb z 3) in *.
  set (x0 := limb x 0) in *. set (x1 := limb x 1) in *. set (x2 := limb x 2) in *. set (x3 := limb x 3) in *.
  change (2 ^ 64) with 18446744073709551616 in *.
  change (2 ^ 128) with (18446744073709551616 * 18446744073709551616) in *.
  change (2 ^ 192) with (18446744073709551616 * 18446744073709551616 * 18446744073709551616) in *.
  cbn [b2w].
  destruct (Z.ltb_spec z0 (x0 + 0)); cbn [b2w];
  match goal with |- context [z1 <? ?b] => destruct (Z.ltb_spec z1 b) end; cbn [b2w];
  match goal with |- context [z2 <? ?b] => destruct (Z.ltb_spec z2 b) end; cbn [b2w];
  match goal with |- context [z3 <? ?b] => destruct (Z.ltb_spec z3 b) end;
  destruct (Z.ltb_spec z x); try reflexivity; exfalso; lia.
Qed.
Lemma u_eq_spec z x : in_word z -> in_word x -> u_eq z x = (z =? x).
Proof.
  intros Hz Hx. unfold u_eq. destruct (Z.eqb_spec z x) as [->|N]; [rewrite !Z.eqb_refl; reflexivity|].
  (* four equal limbs make equal words *)
  destruct (limbs_decomp z Hz) as (Ez & _). destruct (limbs_decomp x Hx) as (Ex & _).
  apply not_true_iff_false. intros H. rewrite !andb_true_iff, !Z.eqb_eq in H. destruct H as (((E0 & E1) & E2) & E3).
  apply N. rewrite Ez, Ex, E0, E1, E2, E3. reflexivity.
Qed.
Lemma u_iszero_spec z : in_word z -> u_iszero z = (z =? 0).
Proof.
  intros Hz. destruct (limbs_decomp z Hz) as (Ez & Z0 & Z1 & Z2 & Z3). unfold u_iszero.
  destruct (Z.eqb_spec (Z.lor (Z.lor (Z.lor (limb z 0) (limb z 1)) (limb z 2)) (limb z 3)) 0) as [E|N].
  - apply Z.lor_eq_0_iff in E. destruct E as (E & E3). apply Z.lor_eq_0_iff in E. destruct E as (E & E2).
    apply Z.lor_eq_0_iff in E. destruct E as (E0 & E1). rewrite Ez, E0, E1, E2, E3. reflexivity.
  - destruct (Z.eqb_spec z 0) as [->|]; [|reflexivity]. exfalso. apply N. reflexivity.
Qed.


Lemma lt_ok a b : in_word a -> in_word b -> i_lt a b = m_lt a b.
Proof. intros. unfold i_lt, m_lt. rewrite u_lt_spec by assumption. reflexivity. Qed.
Lemma gt_ok a b : in_word a -> in_word b -> i_gt a b = m_gt a b.
Proof. intros Ha Hb. exact (lt_ok b a Hb Ha). Qed.
Lemma eq_ok a b : in_word a -> in_word b -> i_eq a b = m_eq a b.
Proof. intros. unfold i_eq, m_eq. rewrite u_eq_spec by assumption. reflexivity. Qed.
Lemma iszero_ok a : in_word a -> i_iszero a = m_iszero a.
Proof. intros. unfold i_iszero, m_iszero. rewrite u_iszero_spec by assumption. reflexivity. Qed.

(* definitional: the model represents limb-wise AND / OR / XOR by Z.land / Z.lor / Z.lxor, which is also their mathematical
   definition (bit i of the result = and / or / xor of the operands' bits i, Z.land_spec etc.) *)
Lemma bitwise_ok : (forall a b, i_and a b = m_and a b) /\ (forall a b, i_or a b = m_or a b) /\ (forall a b, i_xor a b = m_xor a b).
Proof. repeat split; reflexivity. Qed.

(* ADDMOD: the fast path and the 257-bit path of uint256.AddMod *)
(* sums of two residues: S = x' + y' with 0 <= S < 2m, S = x + y (mod m) *)
Lemma mod_of_near a m S k : 0 < m -> a = S + m * k -> 0 <= S < 2 * m ->
  a mod m = if S <? m then S else S - m.
Proof.
  intros Hm Ha HS. destruct (Z.ltb_spec S m).
  - symmetry. apply Zmod_unique with k; lia.
  - symmetry. apply Zmod_unique with (k + 1); lia.
Qed.

Lemma addmod_ok a b n : in_word a -> in_word b -> in_word n -> i_addmod a b n = m_addmod a b n.
Proof.
  intros [Ha1 Ha2] [Hb1 Hb2] [Hn1 Hn2]. unfold i_addmod, m_addmod.
  destruct (Z.eqb_spec n 0) as [->|Hn0]; [reflexivity|].
  unfold u_addmod. rewrite !wrap_mod.
  set (P := 6277101735386680763835789423207666416102355444464034512896).
  assert (HP : W = P * 2 ^ 64) by reflexivity. assert (HPpos : 0 < P) by reflexivity.
  destruct (negb (n / P =? 0) && (a / P <=? n / P) && (b / P <=? n / P)) eqn:Hfast.
  - (* fast path *)
    apply andb_prop in Hfast. destruct Hfast as (Hf & Hby). apply andb_prop in Hf. destruct Hf as (Hn3 & Hax).
    apply negb_true_iff, Z.eqb_neq in Hn3. apply Z.leb_le in Hax. apply Z.leb_le in Hby.
    assert (Hnd : n = P * (n / P) + n mod P) by (apply Z.div_mod; lia).
    assert (Had : a = P * (a / P) + a mod P) by (apply Z.div_mod; lia).
    assert (Hbd : b = P * (b / P) + b mod P) by (apply Z.div_mod; lia).
    pose proof (Z.mod_pos_bound n P HPpos). pose proof (Z.mod_pos_bound a P HPpos). pose proof (Z.mod_pos_bound b P HPpos).
    assert (0 < n / P). { assert (0 <= n / P) by (apply Z.div_pos; lia). lia. }
    assert (Hn_ge : P <= n) by nia.
    assert (Ha_lt : a < n + P) by nia. assert (Hb_lt : b < n + P) by nia.
    set (a' := if n <=? a then a - n else a). set (b' := if n <=? b then b - n else b).
    assert (Ha' : 0 <= a' < n /\ exists ka, a = a' + n * ka).
    { unfold a'. destruct (Z.leb_spec n a). split; [lia|exists 1; lia]. split; [lia|exists 0; lia]. }
    assert (Hb' : 0 <= b' < n /\ exists kb, b = b' + n * kb).
    { unfold b'. destruct (Z.leb_spec n b). split; [lia|exists 1; lia]. split; [lia|exists 0; lia]. }
    destruct Ha' as (Ba & ka & Ea). destruct Hb' as (Bb & kb & Eb).
    rewrite (mod_of_near (a + b) n (a' + b') (ka + kb)) by lia.
    destruct (Z.leb_spec W (a' + b')) as [Hc1|Hc1]; cbn [negb andb].
    + (* carry out of the addition: the subtraction result is taken *)
      assert (Er : (a' + b') mod W = a' + b' - W) by (symmetry; apply Zmod_unique with 1; lia).
      rewrite Er. destruct (Z.ltb_spec (a' + b') n); [lia|].
      symmetry. apply Zmod_unique with (-1); lia.
    + rewrite (mod_small_W (a' + b')) by lia.
      destruct (Z.ltb_spec (a' + b') n); [reflexivity|].
      apply mod_small_W. lia.
  - (* general path *)
    destruct (Z.eqb_spec n 0); [lia|].
    destruct (Z.leb_spec W (a + b)).
    + assert (Er : (a + b) mod W = a + b - W) by (symmetry; apply Zmod_unique with 1; lia).
      rewrite Er. f_equal. lia.
    + rewrite (mod_small_W (a + b)) by lia. rewrite u_mod_spec by lia.
      destruct (Z.eqb_spec n 0); [lia|reflexivity].
Qed.

Lemma slt_ok a b : in_word a -> in_word b -> i_slt a b = m_slt a b.
Proof.
  intros [? ?] [? ?]. pose proof W_half. pose proof HALF_pos.
  unfold i_slt, m_slt, u_slt, u_sign, signed. f_equal.
  destruct (Z.ltb_spec a HALF); destruct (Z.ltb_spec b HALF); destruct (Z.eqb_spec a 0); destruct (Z.eqb_spec b 0);
    bdestruct; cbn [andb]; try reflexivity; try lia.
Qed.
Lemma u_sgt_slt z x : u_sgt z x = u_slt x z.
Proof.
  unfold u_sgt, u_slt. cbv zeta.
  destruct (Z.leb_spec 0 (u_sign z)), (Z.ltb_spec (u_sign z) 0), (Z.leb_spec 0 (u_sign x)), (Z.ltb_spec (u_sign x) 0);
    try lia; reflexivity.
Qed.
Lemma sgt_ok a b : in_word a -> in_word b -> i_sgt a b = m_sgt a b.
Proof. intros Ha Hb. unfold i_sgt. rewrite u_sgt_slt. exact (slt_ok b a Hb Ha). Qed.
Lemma not_ok a : in_word a -> i_not a = m_not a.
Proof.
  intros [? ?]. unfold i_not, u_not, m_not. rewrite wrap_mod. unfold Z.lnot.
  symmetry. apply Zmod_unique with (-1); lia.
Qed.

Lemma exp_loop_spec e : forall res mult, exp_loop res mult e = (res * mult ^ Zpos e) mod W.
Proof.
  pose proof W_pos as HW.
  induction e as [p IH|p IH|]; intros res mult; cbn [exp_loop].
  - rewrite IH. unfold u_mul. rewrite !wrap_mod.
    replace (Zpos p~1) with (2 * Zpos p + 1) by lia.
    rewrite Z.pow_add_r, Z.pow_1_r, Z.pow_mul_r by lia. replace (mult ^ 2) with (mult * mult) by (rewrite Z.pow_2_r; reflexivity).
    rewrite Z.mul_mod by lia. rewrite Z.mod_mod by lia.
    rewrite <- (Zpower_mod (mult * mult) (Zpos p) W) by lia.
    rewrite <- Z.mul_mod by lia. f_equal. ring.
  - rewrite IH. unfold u_mul. rewrite !wrap_mod.
    replace (Zpos p~0) with (2 * Zpos p) by lia.
    rewrite Z.pow_mul_r by lia. replace (mult ^ 2) with (mult * mult) by (rewrite Z.pow_2_r; reflexivity).
    rewrite (Z.mul_mod res (((mult * mult) mod W) ^ Zpos p)) by lia.
    rewrite <- (Zpower_mod (mult * mult) (Zpos p) W) by lia.
    rewrite <- Z.mul_mod by lia. reflexivity.
  - unfold u_mul. rewrite wrap_mod, Z.pow_1_r. reflexivity.
Qed.
Lemma exp_ok a b : in_word a -> in_word b -> i_exp a b = m_exp a b.
Proof.
  intros [? ?] [? ?]. unfold i_exp, u_exp, m_exp. destruct b as [|p|p]; [|rewrite exp_loop_spec; f_equal; lia|lia].
  rewrite Z.pow_0_r. symmetry. apply Z.mod_small. pose proof W_half; pose proof HALF_pos; lia.
Qed.

Lemma pow256_le n : 256 <= n -> W <= 2 ^ n.
Proof. intros. rewrite W_eq. apply Z.pow_le_mono_r; lia. Qed.
Lemma shl_ok n x : in_word n -> in_word x -> i_shl n x = m_shl n x.
Proof.
  intros [? ?] [? ?]. unfold i_shl, m_shl, u_lsh.
  destruct (Z.ltb_spec n 256).
  - destruct (Z.leb_spec 256 n); [lia|]. rewrite wrap_mod, Z.shiftl_mul_pow2 by lia. reflexivity.
  - replace n with (256 + (n - 256)) by lia. rewrite Z.pow_add_r by lia. rewrite <- W_eq.
    rewrite Z.mul_assoc, (Z.mul_comm x W), <- Z.mul_assoc, Z.mul_comm. symmetry. apply Z.mod_mul. pose proof W_pos; lia.
Qed.
Lemma shr_ok n x : in_word n -> in_word x -> i_shr n x = m_shr n x.
Proof.
  intros [? ?] [? ?]. unfold i_shr, m_shr, u_rsh.
  destruct (Z.ltb_spec n 256).
  - destruct (Z.leb_spec 256 n); [lia|]. apply Z.shiftr_div_pow2; lia.
  - symmetry. apply Z.div_small. pose proof (pow256_le n). lia.
Qed.

Lemma testbit_255 x : in_word x -> Z.testbit x 255 = (HALF <=? x).
Proof.
  intros [? ?]. pose proof W_half. pose proof HALF_pos.
  destruct (Z.leb_spec HALF x).
  - apply Z.testbit_true; [lia|]. rewrite <- HALF_eq.
    replace (x / HALF) with 1; [reflexivity|]. apply Z.div_unique with (x - HALF); lia.
  - apply Z.testbit_false; [lia|]. rewrite <- HALF_eq. rewrite Z.div_small by lia. reflexivity.
Qed.

Lemma lor_disjoint lo h k : 0 <= k -> 0 <= lo < 2 ^ k -> Z.lor lo (h * 2 ^ k) = lo + h * 2 ^ k.
Proof.
  intros Hk Hlo.
  assert (E : Z.land lo (h * 2 ^ k) = 0).
  { apply Z.bits_inj'. intros i Hi. rewrite Z.land_spec, Z.bits_0.
    destruct (Z.lt_ge_cases i k).
    - rewrite Z.mul_pow2_bits_low by lia. apply andb_false_r.
    - rewrite <- (Z.mod_small lo (2 ^ k)) by lia. rewrite Z.mod_pow2_bits_high by lia. reflexivity. }
  rewrite <- Z.lxor_lor by exact E. symmetry. apply Z.add_nocarry_lxor. exact E.
Qed.

Lemma neg_div_m1 v m : - m <= v < 0 -> v / m = -1.
Proof. intros. symmetry. apply Z.div_unique with (v + m); lia. Qed.
Lemma mod_neg_W v : - W <= v < 0 -> v mod W = v + W.
Proof. intros. symmetry. apply Zmod_unique with (-1); lia. Qed.

Lemma sar_ok n x : in_word n -> in_word x -> i_sar n x = m_sar n x.
Proof.
  intros [Hn1 Hn2] [Hx1 Hx2]. pose proof W_half as HW. pose proof HALF_pos as HP.
  unfold i_sar, m_sar, u_srsh, u_rsh. rewrite testbit_255 by (split; lia).
  destruct (Z.leb_spec HALF x) as [Hneg|Hpos]; cbn [negb].
  - (* negative value *)
    rewrite (u_sign_neg x), signed_hi by lia. change (0 <=? -1) with false. cbv iota.
    assert (Hbig : 256 <= n -> (x - W) / 2 ^ n mod W = W - 1).
    { intros Hn. pose proof (pow256_le n Hn). rewrite neg_div_m1 by lia. rewrite mod_neg_W by lia. lia. }
    destruct (Z.ltb_spec 256 n). { symmetry. apply Hbig. lia. }
    destruct (Z.leb_spec 256 n). { symmetry. apply Hbig. lia. }
    set (k := 256 - n).
    assert (HWk : W = 2 ^ k * 2 ^ n). { rewrite <- Z.pow_add_r by lia. rewrite W_eq. f_equal. lia. }
    assert (0 < 2 ^ k) by (apply Z.pow_pos_nonneg; lia). assert (0 < 2 ^ n) by (apply Z.pow_pos_nonneg; lia).
    rewrite Z.shiftr_div_pow2, Z.shiftl_mul_pow2 by lia. rewrite Z.ones_equiv.
    rewrite lor_disjoint.
    2: lia.
    2:{ split. apply Z.div_pos; lia. apply Z.div_lt_upper_bound; lia. }
    replace (x - W) with (x + (- 2 ^ k) * 2 ^ n) by lia. rewrite Z.div_add by lia.
    assert (0 <= x / 2 ^ n < 2 ^ k). { split. apply Z.div_pos; lia. apply Z.div_lt_upper_bound; lia. }
    assert (2 ^ k <= W) by nia.
    rewrite mod_neg_W by lia. unfold Z.pred. lia.
  - (* non-negative value *)
    rewrite signed_lo by lia.
    assert (Hs : 0 <=? u_sign x = true).
    { unfold u_sign. destruct (x =? 0); [reflexivity|]. destruct (Z.ltb_spec x HALF); [reflexivity|lia]. }
    rewrite Hs.
    assert (Hbig : 256 <= n -> x / 2 ^ n mod W = 0).
    { intros Hn. pose proof (pow256_le n Hn). rewrite Z.div_small by lia. apply Z.mod_0_l. lia. }
    destruct (Z.ltb_spec 256 n). { symmetry. apply Hbig. lia. }
    destruct (Z.leb_spec 256 n). { symmetry. apply Hbig. lia. }
    rewrite Z.shiftr_div_pow2 by lia. symmetry. apply Z.mod_small.
    assert (0 < 2 ^ n) by (apply Z.pow_pos_nonneg; lia).
    split. apply Z.div_pos; lia. apply Z.div_lt_upper_bound; nia.
Qed.

Lemma testbit_255_ones i : 0 <= i -> Z.testbit 255 i = (i <? 8).
Proof.
  intros. change 255 with (Z.ones 8). destruct (Z.ltb_spec i 8).
  - apply Z.ones_spec_low; lia.
  - apply Z.ones_spec_high; lia.
Qed.
Lemma byte_core val q r : 0 <= q <= 3 -> 0 <= r < 8 ->
  Z.shiftr (Z.land ((val / 2 ^ (64 * (3 - q))) mod 2 ^ 64) (Z.shiftr (255 * 2 ^ 56) (r * 8))) (56 - r * 8)
  = (val / 2 ^ (8 * (31 - (8 * q + r)))) mod 2 ^ 8.
Proof.
  intros Hq Hr. apply Z.bits_inj'. intros i Hi.
  rewrite Z.shiftr_spec, Z.land_spec, Z.shiftr_spec by lia.
  replace (i + (56 - r * 8) + r * 8) with (56 + i) by lia.
  rewrite Z.mul_pow2_bits_add by lia. rewrite testbit_255_ones by lia.
  destruct (Z.ltb_spec i 8).
  - rewrite andb_true_r. rewrite !Z.mod_pow2_bits_low by lia. rewrite !Z.div_pow2_bits by lia.
    f_equal. lia.
  - rewrite andb_false_r. rewrite Z.mod_pow2_bits_high by lia. reflexivity.
Qed.
Lemma byte_ok i x : in_word i -> in_word x -> i_byte i x = m_byte i x.
Proof.
  intros [Hi1 Hi2] [Hx1 Hx2]. unfold i_byte, u_byte, m_byte.
  destruct (Z.ltb_spec i 32); [|reflexivity].
  assert (E : i = 8 * (i / 8) + i mod 8) by (apply Z.div_mod; lia).
  assert (B : 0 <= i mod 8 < 8) by (apply Z.mod_pos_bound; lia).
  assert (0 <= i / 8 <= 3). { split. apply Z.div_pos; lia. enough (i / 8 < 4) by lia. apply Z.div_lt_upper_bound; lia. }
  rewrite W64_eq. change 18374686479671623680 with (255 * 2 ^ 56). change 256 with (2 ^ 8).
  rewrite byte_core by lia. do 3 f_equal. lia.
Qed.

Lemma signextend_ok k x : in_word k -> in_word x -> i_signextend k x = m_signextend k x.
Proof.
  intros [Hk1 Hk2] [Hx1 Hx2]. pose proof W_half as HW. pose proof HALF_pos as HP.
  unfold i_signextend, u_extendsign, m_signextend.
  destruct (Z.ltb_spec 31 k); destruct (Z.ltb_spec k 32); try lia; try reflexivity.
  set (bit := k * 8 + 7). cbv zeta. replace (8 * (k + 1)) with (bit + 1) by (unfold bit; lia).
  assert (Hbit : 7 <= bit <= 255) by (unfold bit; lia).
  assert (Hp : 0 < 2 ^ bit) by (apply Z.pow_pos_nonneg; lia).
  assert (HWb : W = 2 ^ (256 - bit) * 2 ^ bit). { rewrite <- Z.pow_add_r by lia. rewrite W_eq. f_equal. lia. }
  assert (Hp2 : 0 < 2 ^ (256 - bit)) by (apply Z.pow_pos_nonneg; lia).
  assert (Hp3 : 2 ^ 1 <= 2 ^ (256 - bit)) by (apply Z.pow_le_mono_r; lia). rewrite Z.pow_1_r in Hp3.
  assert (Hle : 2 ^ bit < W) by nia.
  assert (Hmask : u_sub (u_lsh 1 bit) 1 = 2 ^ bit - 1).
  { unfold u_lsh, u_sub. destruct (Z.leb_spec 256 bit); [lia|]. rewrite !wrap_mod.
    rewrite Z.shiftl_mul_pow2, Z.mul_1_l by lia. rewrite (Z.mod_small (2 ^ bit)) by lia. apply Z.mod_small. lia. }
  rewrite Hmask.
  assert (Hsplit : x mod 2 ^ (bit + 1) = x mod 2 ^ bit + 2 ^ bit * ((x / 2 ^ bit) mod 2)).
  { rewrite Z.pow_add_r, Z.pow_1_r by lia. apply Z.rem_mul_r; lia. }
  pose proof (Z.mod_pos_bound x (2 ^ bit) Hp) as Hlo.
  unfold signed_t. replace (bit + 1 - 1) with bit by lia. rewrite Hsplit.
  destruct (Z.testbit x bit) eqn:Hb.
  - apply Z.testbit_true in Hb; [|lia]. rewrite Hb.
    destruct (Z.ltb_spec (x mod 2 ^ bit + 2 ^ bit * 1) (2 ^ bit)); [lia|].
    rewrite Z.pow_add_r, Z.pow_1_r by lia.
    rewrite mod_neg_W by lia.
    (* interpreter side *)
    assert (Hnot : u_not (2 ^ bit - 1) = W - 2 ^ bit).
    { change (u_not (2 ^ bit - 1)) with (i_not (2 ^ bit - 1)). rewrite not_ok by (split; lia). unfold m_not. lia. }
    rewrite Hnot.
    set (h := Z.ones (256 - bit)).
    assert (Hh : W - 2 ^ bit = h * 2 ^ bit). { unfold h. rewrite Z.ones_equiv. unfold Z.pred. lia. }
    rewrite Hh.
    set (lo := x mod 2 ^ bit) in *. set (q := x / 2 ^ bit).
    assert (Hx : x = lo + q * 2 ^ bit). { unfold lo, q. pose proof (Z.div_mod x (2 ^ bit)). lia. }
    assert (Hq : 0 <= q < 2 ^ (256 - bit)).
    { unfold q. split. apply Z.div_pos; lia. apply Z.div_lt_upper_bound; lia. }
    rewrite Hx at 1. rewrite <- (lor_disjoint lo q bit) by lia.
    rewrite <- Z.lor_assoc. rewrite <- !Z.shiftl_mul_pow2 by lia. rewrite <- Z.shiftl_lor.
    assert (Hqh : Z.lor q h = h).
    { unfold h. apply Z.lor_ones_low; [lia|]. destruct (Z.eq_dec q 0) as [->|]; [change (Z.log2 0) with 0; lia|].
      apply Z.log2_lt_pow2; lia. }
    rewrite Hqh. rewrite Z.shiftl_mul_pow2 by lia. rewrite lor_disjoint by lia. lia.
  - apply Z.testbit_false in Hb; [|lia]. rewrite Hb.
    destruct (Z.ltb_spec (x mod 2 ^ bit + 2 ^ bit * 0) (2 ^ bit)); [|lia].
    rewrite Z.mul_0_r, Z.add_0_r. rewrite Z.mod_small by lia.
    change (2 ^ bit - 1) with (Z.pred (2 ^ bit)). rewrite <- Z.ones_equiv. apply Z.land_ones. lia.
Qed.

Theorem alu_matches_math_lemma (op : alu_op) (a b c : Z) :
  in_word a -> in_word b -> in_word c -> i_alu op a b c = m_alu op a b c.
Proof.
  intros Ha Hb Hc. destruct bitwise_ok as (Hand & Hor & Hxor).
  destruct op; cbn [i_alu m_alu];
    auto using lt_ok, gt_ok, eq_ok, iszero_ok, add_ok, mul_ok, sub_ok, div_ok, sdiv_ok, mod_ok, smod_ok, addmod_ok, mulmod_ok, exp_ok, signextend_ok,
      slt_ok, sgt_ok, not_ok, byte_ok, shl_ok, shr_ok, sar_ok.
Qed.
