(* TxPool/Compose.v — the two halves of C18 composed: the per-object verdict wash uses IS TxObject.Evaluate of the
   object's transaction on the wash's head (ModelAdmission.evaluate); then what wash publishes is adoptable by
   Flow.Adopt on that head up to the enumerated differences, and an Evaluate drop carries the clause that failed.
   Also: the victims of the executable limit are the lowest priced; the error path of wash; a bound on the quota. *)
From Coq Require Import List NArith PeanoNat Bool Lia Sorted.
From Verif Require Import Common.Util TxPool.Model TxPool.Proofs TxPool.ModelWash TxPool.ProofsWash
  TxPool.ModelAdmission TxPool.ProofsAdmission.
Import ListNotations.
Open Scope N_scope.

Definition ev_code (e : ev_err) : N :=
  match e with
  | EGasAboveBlockLimit => 1 | EExpired => 2 | ERefOutOfSchedule => 3 | ETypeNotSupported => 4
  | EFeatures => 5 | EKnownTx => 6 | EDepReverted => 7 | EBuyGas => 8
  end.

Lemma ev_code_inj e e' : ev_code e = ev_code e' -> e = e'.
Proof. destruct e, e'; cbn; intro H; try reflexivity; discriminate. Qed.

Section Compose.
  Variable St : Type.
  Variable fee_ok : St -> txv -> bool.
  Variable energy_ok : St -> N -> txv -> bool.
  Variable eff_priority_fee : St -> txv -> N.
  Variable interval_30 : N.
  Variable h : headv.                    (* the head the wash runs on *)
  Variable s : St.                       (* its state *)
  Variable view : txobj -> txv.          (* the transaction inside a pooled object *)
  Variable pricing_of : txobj -> pricing.  (* payer / cost / priority price Evaluate computes (BuyGas, not modelled) *)

  (* wash's call: txObj.Evaluate(chain, newState(), head, forkConfig, baseFee, txObj.executable) *)
  Definition eval_of (o : txobj) : ev_out :=
    match evaluate St fee_ok energy_ok interval_30 h s (view o) with
    | VErr e => EvErr (ev_code e)
    | VNotYet => EvNo
    | VExecutable => EvYes (if executable o then None else Some (pricing_of o))
    end.

  Definition env_of (blocked outlived : txobj -> bool) (refresh : txobj -> option N) (energy : N -> N) (limit : nat) :=
    mkEnv blocked outlived eval_of refresh energy limit.

  (* the first premise: what add() established for the object (chain tag, delegator) and what wash re-checks (not blocked);
     NOT established by Fill (see manifest): for Fill'ed txs it is an assumption on Fill's caller. *)
  Theorem wash_published_adoptable blocked outlived refresh energy limit p o' :
    (forall o, In o (objs p) -> blocked o = false -> pool_static (view o) = true) ->
    In o' (wr_published (wash (env_of blocked outlived refresh energy limit) p)) ->
    exists o, In o (objs p) /\ hash o' = hash o /\
      evaluate St fee_ok energy_ok interval_30 h s (view o) = VExecutable /\
      forall f, allowed St fee_ok energy_ok eff_priority_fee h s f (view o)
                        (adopt St fee_ok energy_ok eff_priority_fee h f (view o)).
  Proof.
    intros Hst Hin.
    destruct (published_were_evaluated _ _ _ Hin) as [o [A [B [C [pr D]]]]].
    cbn [w_blocked w_eval env_of] in C, D. unfold eval_of in D.
    exists o. split; auto. split; auto.
    destruct (evaluate St fee_ok energy_ok interval_30 h s (view o)) eqn:E; try discriminate.
    split; auto. intro f. apply evaluate_implies_adopt_thm with (interval_30 := interval_30); auto.
  Qed.

  Theorem eval_drop_names_clause blocked outlived refresh energy limit p hh c :
    In (hh, REvalErr c) (wr_removed (wash (env_of blocked outlived refresh energy limit) p)) ->
    exists o e, In o (objs p) /\ hash o = hh /\ c = ev_code e /\
                evaluate St fee_ok energy_ok interval_30 h s (view o) = VErr e.
  Proof.
    intro Hin. destruct (drop_reasons_thm _ _ _ _ Hin) as [o [A [B C]]].
    cbn in C. unfold eval_of in C.
    destruct (evaluate St fee_ok energy_ok interval_30 h s (view o)) as [e| |] eqn:E; try discriminate.
    exists o, e. inversion C. auto.
  Qed.
End Compose.

Theorem limit_displaces_lowest_priced limit l nonexec kept over y :
  apply_limits limit (sort_desc l) nonexec = (kept, over) ->
  In y (skipn limit (sort_desc l)) ->
  forall x, In x kept -> pgp_of y <= pgp_of x.
Proof.
  unfold apply_limits. intros H Hy x Hx.
  destruct (Nat.ltb limit (length (sort_desc l))) eqn:E.
  - inversion H; subst. exact (sorted_split_le _ _ _ _ (sort_desc_sorted l) Hx Hy).
  - apply Nat.ltb_ge in E. rewrite skipn_all2 in Hy by auto. destruct Hy.
Qed.

Theorem wash_error_cut_keeps_inv limit p : inv p -> inv (wash_error_cut limit p).
Proof. exact (steps_inv _ _ _ (remove_fold_steps hash _ p)). Qed.

(* ---------------- over-admission bound: without Fill (which skips the check by design) no account ever holds more
   than limit + 1 slots (limit, unless a tx names its own origin as delegator: both references are checked before
   either is counted) *)
Definition no_fill (s : step) : bool := match s with SFill _ => false | _ => true end.
Definition limit_le (L : N) (s : step) : bool := match s with SAdd _ _ _ limit _ => limit <=? L | _ => true end.

Lemma refs_le_2 a o : refs a o <= 2.
Proof. unfold refs. destruct (a =? origin o); destruct (delegator o) as [d|]; try destruct (a =? d); lia. Qed.

Lemma quota_step_bound L p st a :
  inv p -> no_fill st = true -> limit_le L st = true ->
  quota_of (objs p) a <= L + 1 -> quota_of (objs (pool_step p st)) a <= L + 1.
Proof.
  intros Hinv Hnf Hl Hb. destruct st as [o exe pr limit bal|hh|hh id|l|hh id pr]; cbn [pool_step]; try discriminate.
  - (* add *)
    cbn in Hl. apply N.leb_le in Hl. destruct Hinv as [Hnd [Hq Hc]].
    unfold add. destruct (find_obj (hash o) (objs p)); [cbn; auto|].
    destruct (limit <=? aget (quota p) (origin o)) eqn:E1; [cbn; auto|].
    destruct (match delegator o with Some d => limit <=? aget (quota p) d | None => false end) eqn:E2; [cbn; auto|].
    apply N.leb_gt in E1. rewrite (aget_Q _ _ _ (Hq (origin o))) in E1.
    set (o2 := set_exec (match pr with Some _ => set_price o pr | None => o end) exe).
    assert (Href : refs a o2 = refs a o) by (unfold o2; destruct pr; reflexivity).
    assert (Hnew : quota_of (o2 :: objs p) a <= L + 1).
    { unfold quota_of. cbn [map sumN]. rewrite Href. fold (quota_of (objs p) a).
      unfold refs. destruct (a =? origin o) eqn:Ea.
      - apply N.eqb_eq in Ea. subst a. destruct (delegator o) as [d|]; [destruct (origin o =? d)|]; lia.
      - destruct (delegator o) as [d|]; [|lia]. destruct (a =? d) eqn:Ed; [|lia].
        apply N.eqb_eq in Ed. subst d. apply N.leb_gt in E2. rewrite (aget_Q _ _ _ (Hq a)) in E2. lia. }
    destruct (if exe then price o2 else None) as [pc|]; cbn zeta.
    + destruct (bal (payer pc) <? aget (cost p) (payer pc) + pcost pc); cbn [fst objs]; auto.
    + cbn [fst objs]. auto.
  - (* remove *)
    destruct Hinv as [Hnd _]. unfold remove_by_hash. destruct (find_obj hh (objs p)) as [o|] eqn:E; cbn [fst objs]; auto.
    pose proof (sum_remove (refs a) (objs p) hh o Hnd E) as X. unfold quota_of in *. lia.
  - (* promote *)
    destruct Hinv as [Hnd _]. unfold promote. destruct (find_obj hh (objs p)) as [o|] eqn:E; cbn [fst objs]; auto.
    destruct (negb (oid o =? id)); cbn [fst objs]; auto. destruct (executable o); cbn [fst objs]; auto.
    destruct (find_obj_some _ _ _ E) as [_ <-]. rewrite (quota_replace _ o (set_exec o true) a Hnd E eq_refl). exact Hb.
  - (* set pricing *)
    destruct Hinv as [Hnd _]. unfold set_pricing. destruct (find_obj hh (objs p)) as [o|] eqn:E; auto.
    destruct ((oid o =? id) && _); auto. cbn [objs].
    destruct (find_obj_some _ _ _ E) as [_ <-]. rewrite (quota_replace _ o (set_price o (Some pr)) a Hnd E eq_refl). exact Hb.
Qed.

Theorem quota_bounded L : forall steps a,
    forallb no_fill steps = true -> forallb (limit_le L) steps = true ->
    quota_of (objs (run steps)) a <= L + 1.
Proof.
  intros steps a Hnf Hl. unfold run.
  assert (G : forall l p, inv p -> forallb no_fill l = true -> forallb (limit_le L) l = true ->
              quota_of (objs p) a <= L + 1 -> quota_of (objs (fold_left pool_step l p)) a <= L + 1).
  { induction l as [|st t IH]; intros p Hi H1 H2 Hb; cbn; auto.
    cbn in H1, H2. apply andb_true_iff in H1, H2. destruct H1 as [A1 A2], H2 as [B1 B2].
    apply IH; auto. apply inv_step; auto. apply quota_step_bound; auto. }
  apply G; auto. apply inv_empty. cbn. lia.
Qed.
