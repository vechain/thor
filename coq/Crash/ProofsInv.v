(* Crash/ProofsInv.v — the store invariant "every visible block is complete" and its preservation by every
   single batch of every import (hence by every prefix of every history: every crash cut, every reader step). *)
From Coq Require Import List NArith Bool Lia.
From Verif Require Import Crash.Model Crash.ProofsStore.
Import ListNotations.
Open Scope N_scope.

Definition is_node (k : key) : bool := match k with KNode _ _ _ _ => true | _ => false end.

Definition wf_cfg (c : cfg) : Prop := num_of (c_g c) = 0 /\ 0 < c_L c.

(* block [id] with summary [sm] is complete in [s] *)
Definition ok_block (c : cfg) (s : store) (id : N) (sm : summary) : Prop :=
  (forall it, In it (enum_from 0 (s_txs sm)) ->
     has s (KTx (num_of id) (s_conf sm) (fst it)) = true /\ has s (KReceipt (num_of id) (s_conf sm) (fst it)) = true)
  /\ (forall k, In k (s_sreach sm) -> is_node k = true /\ has s k = true)
  /\ (forall k, In k (s_ireach sm) -> is_node k = true /\ has s k = true)
  /\ ((id = c_g c /\ num_of id = 0) \/ (stored s (s_parent sm) = true /\ num_of (s_parent sm) + 1 = num_of id)).

Record Inv (c : cfg) (s : store) : Prop := mkInv {
  inv_best : exists b, get_id s KBest = Some b /\ stored s b = true;
  inv_blocks : forall id sm, get_summary s id = Some sm -> ok_block c s id sm;
  inv_quality : forall id, has s (KQuality id) = true -> stored s id = true;
  inv_fin : forall f, get_id s KFinalized = Some f -> stored s f = true
}.

Lemma ok_block_mono c s s' id sm :
  (forall k, is_head k = false -> has s k = true -> has s' k = true) ->
  (forall p, stored s p = true -> stored s' p = true) ->
  ok_block c s id sm -> ok_block c s' id sm.
Proof.
  intros M S (Ht & Hs & Hi & Hp). repeat split.
  - apply M; auto. apply Ht; auto.
  - apply M; auto. apply Ht; auto.
  - apply Hs; auto.
  - apply M; [|apply Hs; auto]. destruct (Hs k H) as [X _]. destruct k; simpl in *; congruence.
  - apply Hi; auto.
  - apply M; [|apply Hi; auto]. destruct (Hi k H) as [X _]. destruct k; simpl in *; congruence.
  - destruct Hp as [Hp|[Hp1 Hp2]]; [left; auto|right; split; auto].
Qed.

(* a store with the same summaries and best pointer, at least the nodes, and bft records that name blocks stored before *)
Lemma Inv_mono c s s' :
  (forall k, is_head k = false -> has s k = true -> has s' k = true) ->
  (forall id, get_summary s' id = get_summary s id) ->
  get_id s' KBest = get_id s KBest ->
  (forall f, get_id s' KFinalized = Some f -> stored s f = true) ->
  (forall id, has s' (KQuality id) = true -> stored s id = true) ->
  Inv c s -> Inv c s'.
Proof.
  intros M S B F Q [Ib Ibl Iq If].
  assert (St : forall p, stored s' p = stored s p) by (intro p; unfold stored; rewrite S; auto).
  constructor.
  - destruct Ib as (b & H1 & H2). exists b. rewrite B, St. auto.
  - intros id sm H. rewrite S in H. eapply ok_block_mono; [exact M| |apply Ibl; auto].
    intros p Hp. rewrite St; auto.
  - intros id H. rewrite St. auto.
  - intros f H. rewrite St. auto.
Qed.

Lemma Inv_ext c s s' :
  (forall k, is_head k = false -> has s k = true -> has s' k = true) ->
  (forall id, get_summary s' id = get_summary s id) ->
  get_id s' KBest = get_id s KBest ->
  get_id s' KFinalized = get_id s KFinalized ->
  (forall id, has s' (KQuality id) = has s (KQuality id)) ->
  Inv c s -> Inv c s'.
Proof.
  intros M S B F Q I. apply (Inv_mono c s); auto.
  - intros f H. rewrite F in H. eapply inv_fin; eauto.
  - intros id H. rewrite Q in H. eapply inv_quality; eauto.
Qed.

(* ---- batches that only add trie nodes / code *)

Definition aux_op (o : op) : bool :=
  match o with Put (KNode _ _ _ _) _ => true | Put (KCode _) _ => true | _ => false end.
Definition aux_batch (w : batch) : Prop := forall o, In o w -> aux_op o = true.

Lemma aux_nd w : aux_batch w -> nd_batch w.
Proof. intros H o Hin. specialize (H o Hin). destruct o as [k v|k]; simpl in *; auto. destruct k; discriminate. Qed.

Lemma aux_key_ne w k : aux_batch w -> is_node k = false -> (forall h, k <> KCode h) -> forall o, In o w -> op_key o <> k.
Proof.
  intros H Hk Hc o Hin E. specialize (H o Hin). destruct o as [k' v|k']; simpl in *; subst.
  - destruct k; simpl in *; try discriminate. eapply Hc; eauto.
  - destruct k; discriminate.
Qed.

Lemma aux_batch_inv c s w : aux_batch w -> Inv c s -> Inv c (apply_batch s w).
Proof.
  intros Ha. apply Inv_ext.
  - intros k Hk Hs. apply has_mono; auto. apply aux_nd; auto.
  - intro id. apply get_summary_frame. apply aux_key_ne; auto; discriminate.
  - apply get_id_frame. apply aux_key_ne; auto; discriminate.
  - apply get_id_frame. apply aux_key_ne; auto; discriminate.
  - intro id. apply has_frame. apply aux_key_ne; auto; discriminate.
Qed.

Lemma aux_writes_stored s ws p : (forall w, In w ws -> aux_batch w) -> stored (apply_writes s ws) p = stored s p.
Proof.
  revert s. induction ws as [|w r IH]; intros s H; auto.
  rewrite apply_writes_cons, IH by (intros; apply H; right; auto).
  apply stored_frame. apply aux_key_ne; try discriminate; auto. apply H; left; auto.
Qed.

Lemma node_ops_aux cls maj min l : aux_batch (node_ops cls maj min l).
Proof. intros o Hin. unfold node_ops in Hin. apply in_map_iff in Hin. destruct Hin as (p & <- & _). reflexivity. Qed.

Lemma state_batches_aux b conf : forall w, In w (state_batches b conf) -> aux_batch w.
Proof.
  intros w Hin. unfold state_batches in Hin. apply in_app_or in Hin. destruct Hin as [Hin|Hin].
  - destruct (b_codes b) as [|x cs] eqn:E; [destruct Hin|]. destruct Hin as [<-|[]].
    intros o Ho. apply in_map_iff in Ho. destruct Ho as (p & <- & _). reflexivity.
  - apply in_app_or in Hin. destruct Hin as [Hin|[<-|[]]].
    + apply in_map_iff in Hin. destruct Hin as (l & <- & _). apply node_ops_aux.
    + apply node_ops_aux.
Qed.

Lemma index_batch_aux b conf : aux_batch (index_batch b conf).
Proof. apply node_ops_aux. Qed.

(* ---- presence through a list of batches *)

Lemma has_mono_writes s ws k :
  (forall w, In w ws -> nd_batch w) -> is_head k = false -> has s k = true -> has (apply_writes s ws) k = true.
Proof.
  revert s. induction ws as [|w r IH]; intros s Hnd Hk Hs; auto.
  rewrite apply_writes_cons. apply IH; auto.
  - intros; apply Hnd; right; auto.
  - apply has_mono; auto. apply Hnd; left; auto.
Qed.

Lemma nd_no_del w k : nd_batch w -> is_head k = false -> forall o, In o w -> o <> Del k.
Proof. intros Hnd Hk o Hin E. subst. specialize (Hnd _ Hin). destruct k; simpl in *; congruence. Qed.

Lemma has_put_in_writes s ws w k v :
  (forall w, In w ws -> nd_batch w) -> is_head k = false -> In w ws -> In (Put k v) w ->
  has (apply_writes s ws) k = true.
Proof.
  revert s. induction ws as [|w0 r IH]; intros s Hnd Hk Hw Hp; [destruct Hw|].
  rewrite apply_writes_cons. destruct Hw as [->|Hw].
  - apply has_mono_writes; auto. { intros; apply Hnd; right; auto. }
    eapply has_put_in; eauto. apply nd_no_del; auto. apply Hnd; left; auto.
  - eapply IH; eauto. intros; apply Hnd; right; auto.
Qed.

(* ---- ancestors *)

(* one step of the walk: for either fuel the summary is there and the number is n (the walk ends here) or above n,
   and only fuel S f goes on, from the parent *)
Lemma ancestor_inv fuel s id n a : ancestor fuel s id n = Some a ->
  exists sm, get_summary s id = Some sm /\
    ((num_of id = n /\ a = id) \/
     (n < num_of id /\ exists f, fuel = S f /\ ancestor f s (s_parent sm) n = Some a)).
Proof.
  destruct fuel as [|f]; simpl; (destruct (get_summary s id) as [sm|]; [|discriminate]);
    (destruct (num_of id =? n) eqn:E1; [apply N.eqb_eq in E1; intro H; inversion H; subst; exists sm; auto|]);
    (destruct (num_of id <? n) eqn:E2; [discriminate|]); [discriminate|].
  intro H. exists sm. split; auto. right. apply N.eqb_neq in E1. apply N.ltb_ge in E2. split; [lia|eauto].
Qed.

Lemma ancestor_stored fuel s id n a : ancestor fuel s id n = Some a -> stored s a = true /\ num_of a = n.
Proof.
  revert id. induction fuel as [|f IH]; intros id H;
    destruct (ancestor_inv _ _ _ _ _ H) as (sm & E & [[Hn ->]|(_ & f' & Ef & Hr)]); eauto using get_summary_stored; [discriminate|].
  inversion Ef; subst. eauto.
Qed.

Lemma ancestor_le fuel s : forall id n a, ancestor fuel s id n = Some a -> n <= num_of id.
Proof. intros id n a H. destruct (ancestor_inv _ _ _ _ _ H) as (sm & _ & [[Hn _]|(Hn & _)]); lia. Qed.

Lemma ancestor_ext s s' : (forall i, get_summary s' i = get_summary s i) ->
  forall fuel i n, ancestor fuel s' i n = ancestor fuel s i n.
Proof.
  intro H. induction fuel as [|f IH]; intros i n; simpl; rewrite H; destruct (get_summary s i); auto.
  destruct (num_of i =? n); auto. destruct (num_of i <? n); auto.
Qed.

Lemma anc_stored s id n a : anc s id n = Some a -> stored s a = true /\ num_of a = n.
Proof. apply ancestor_stored. Qed.

(* in a store satisfying the invariant every stored block has all its ancestors *)
Lemma ancestor_total c s : wf_cfg c -> Inv c s ->
  forall fuel id n, stored s id = true -> n <= num_of id -> (N.to_nat (num_of id - n) <= fuel)%nat ->
  exists a, ancestor fuel s id n = Some a.
Proof.
  intros [Hg HL] I. induction fuel as [|f IH]; intros id n Hs Hn Hf.
  - assert (num_of id = n) by lia. simpl. unfold stored in Hs. destruct (get_summary s id); [|discriminate].
    apply N.eqb_eq in H. rewrite H. eauto.
  - simpl. unfold stored in Hs. destruct (get_summary s id) as [sm|] eqn:E; [|discriminate].
    destruct (num_of id =? n) eqn:E1; [eauto|]. apply N.eqb_neq in E1.
    assert (Hlt : n < num_of id) by lia.
    destruct (num_of id <? n) eqn:E2; [apply N.ltb_lt in E2; lia|].
    destruct (inv_blocks c s I id sm E) as (_ & _ & _ & [[_ H0]|[Hp Hnum]]); [lia|].
    apply IH; auto; lia.
Qed.

Lemma anc_total c s id n : wf_cfg c -> Inv c s -> stored s id = true -> n <= num_of id -> exists a, anc s id n = Some a.
Proof. intros. unfold anc. eapply ancestor_total; eauto. Qed.

(* the number-0 ancestor of a stored block is the genesis block *)
Lemma ancestor_genesis c s : wf_cfg c -> Inv c s ->
  forall fuel id a, ancestor fuel s id 0 = Some a -> a = c_g c.
Proof.
  intros [Hg HL] I. induction fuel as [|f IH]; intros id a H;
    destruct (ancestor_inv _ _ _ _ _ H) as (sm & E & [[Hn ->]|(_ & f' & Ef & Hr)]); try discriminate.
  1,2: destruct (inv_blocks c s I id sm E) as (_ & _ & _ & [[H0 _]|[_ Hnum]]); auto; lia.
  inversion Ef; subst. eauto.
Qed.

Lemma ancestor_mono s s' : keeps_summaries s s' -> forall fuel id n a, ancestor fuel s id n = Some a -> ancestor fuel s' id n = Some a.
Proof.
  intro K. induction fuel as [|f IH]; intros id n a; simpl;
    destruct (get_summary s id) as [sm|] eqn:E; try discriminate; rewrite (K _ _ E); auto.
  destruct (num_of id =? n); auto. destruct (num_of id <? n); auto.
Qed.

Lemma anc_mono s s' id n a : keeps_summaries s s' -> anc s id n = Some a -> anc s' id n = Some a.
Proof. intros K H. unfold anc in *. eapply ancestor_mono; eauto. Qed.

(* one step up the chain *)
Lemma anc_step c s id sm n : Inv c s -> get_summary s id = Some sm -> n < num_of id ->
  anc s id n = anc s (s_parent sm) n.
Proof.
  intros I E Hlt. destruct (inv_blocks c s I id sm E) as (_ & _ & _ & [[_ H0]|[_ Hnum]]); [lia|].
  unfold anc. replace (N.to_nat (num_of id - n)) with (S (N.to_nat (num_of (s_parent sm) - n))) by lia.
  cbn [ancestor]. rewrite E.
  destruct (num_of id =? n) eqn:E1; [apply N.eqb_eq in E1; lia|].
  destruct (num_of id <? n) eqn:E2; [apply N.ltb_lt in E2; lia|]. reflexivity.
Qed.

Lemma anc_self s id sm : get_summary s id = Some sm -> anc s id (num_of id) = Some id.
Proof. intro E. unfold anc. rewrite N.sub_diag. simpl. rewrite E, N.eqb_refl. reflexivity. Qed.

Lemma anc_summary s id n a : anc s id n = Some a -> exists sm, get_summary s id = Some sm.
Proof. unfold anc. destruct (N.to_nat (num_of id - n)); simpl; destruct (get_summary s id); eauto; discriminate. Qed.

(* the ancestor at n of the ancestor at m is the ancestor at n *)
Lemma anc_compose c s id m n f a : Inv c s -> anc s id m = Some f -> n <= m -> anc s id n = Some a -> anc s f n = Some a.
Proof.
  intro I. remember (N.to_nat (num_of id - m)) as d eqn:Hd. symmetry in Hd. revert id m n f a Hd.
  induction d as [|d IH]; intros id m n f a Hd Hf Hnm Ha.
  - pose proof (ancestor_le _ _ _ _ _ Hf) as Hle. assert (num_of id = m) by lia.
    destruct (anc_summary _ _ _ _ Hf) as (sm & E). subst m. rewrite (anc_self s id sm E) in Hf. inversion Hf; subst. auto.
  - destruct (anc_summary _ _ _ _ Hf) as (sm & E).
    assert (Hlt : m < num_of id) by lia.
    rewrite (anc_step c s id sm m I E Hlt) in Hf. rewrite (anc_step c s id sm n I E) in Ha by lia.
    destruct (inv_blocks c s I id sm E) as (_ & _ & _ & [[_ H0]|[_ Hnum]]); [lia|].
    eapply IH; eauto. lia.
Qed.

(* ---- single-key batches of the bft engine *)

Lemma quality_put_inv c s id v : Inv c s -> stored s id = true -> Inv c (apply_batch s [Put (KQuality id) v]).
Proof.
  intros I Hs. apply (Inv_mono c s); [| | | | |exact I].
  - intros; apply has_mono; auto using put_nd.
  - intro i. apply get_summary_put_other. discriminate.
  - unfold get_id. rewrite get_put_other; [reflexivity|discriminate].
  - intros f H. unfold get_id in H. rewrite get_put_other in H by discriminate. eapply inv_fin; eauto.
  - intros i H. unfold has in H. rewrite get_put in H.
    destruct (key_eq_dec (KQuality i) (KQuality id)) as [E|_]; [inversion E; subst; auto|eapply inv_quality; eauto].
Qed.

Lemma finalized_put_inv c s f : Inv c s -> stored s f = true -> Inv c (apply_batch s [Put KFinalized (VId f)]).
Proof.
  intros I Hs. apply (Inv_mono c s); [| | | | |exact I].
  - intros; apply has_mono; auto using put_nd.
  - intro i. apply get_summary_put_other. discriminate.
  - unfold get_id. rewrite get_put_other; [reflexivity|discriminate].
  - intros f' H. unfold get_id in H. rewrite get_put in H. cbn in H. inversion H; subst; auto.
  - intros i H. unfold has in H. rewrite get_put_other in H by discriminate. eapply inv_quality; eauto.
Qed.
