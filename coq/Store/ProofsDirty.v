(* Store/ProofsDirty.v — which nodes insert / delete on a working trie leave dirty: when they report `true` every full /
   short node of the result met along the key is dirty and no reference is left on that walk (so hasher.store, which
   descends through dirty nodes only, reaches and rewrites every node on the modified path); when they report `false`
   the old node is kept (ProofsWork.v w_insert_ok / w_delete_ok, last conjunct).  Purely structural: no hypothesis on the
   store or on the trie. *)
From Coq Require Import List NArith Bool Arith Lia.
From Verif Require Import Trie.Model Trie.Keys Store.Model Store.ProofsCommit Store.WorkTrie Store.ProofsWork.
Import ListNotations.
Local Open Scope nat_scope.

Section PD.
  Variable V : Type.
  Variable veqb : V -> V -> bool.
  Notation snode := (snode V).
  Notation wnode := (wnode V).
  Variable g : list nat -> ver -> option snode.

  (* walking n along key: every full / short node met is dirty and no reference is met, until the key leaves the trie,
     ends, or reaches a value / an empty slot *)
  Inductive Spine : wnode -> list nat -> Prop :=
  | Sp_nil key : Spine WNil key
  | Sp_val v key : Spine (WValue v) key
  | Sp_short_off k c key : prefix_len k key <> length k -> Spine (WShort k c Dirty) key
  | Sp_short_on k c key : prefix_len k key = length k -> Spine c (skipn (length k) key) -> Spine (WShort k c Dirty) key
  | Sp_full_end cs : Spine (WFull cs Dirty) []
  | Sp_full cs i r : Spine (wchild V cs i) r -> Spine (WFull cs Dirty) (i :: r).

  Lemma prefix_len_firstn : forall m (key : list nat), prefix_len (firstn m key) key = length (firstn m key).
  Proof. intros m key. rewrite <- (firstn_skipn m key) at 2. apply prefix_len_app. Qed.

  Lemma prefix_len_app_same (k : list nat) : forall a b, prefix_len (k ++ a) (k ++ b) = length k + prefix_len a b.
  Proof. induction k as [|x k IH]; intros a b; cbn; [reflexivity|]. rewrite Nat.eqb_refl, IH. reflexivity. Qed.

  Lemma skipn_skipn {A} : forall x y (l : list A), skipn x (skipn y l) = skipn (y + x) l.
  Proof.
    intros x y. revert x. induction y as [|y IH]; intros x l; [reflexivity|].
    destruct l as [|a l]; cbn; [destruct x; reflexivity|]. apply IH.
  Qed.

  Lemma skipn_cons_nth (l : list nat) : forall m j r, skipn m l = j :: r -> nth m l 0 = j /\ skipn (S m) l = r.
  Proof.
    induction l as [|a l IH]; intros m j r H.
    - destruct m; discriminate.
    - destruct m as [|m]; cbn in H.
      + inversion H; subst. split; reflexivity.
      + apply IH in H. exact H.
  Qed.

  Lemma wchild_beyond (cs : list wnode) i : length cs <= i -> wchild V cs i = WNil.
  Proof. intros H. apply nth_overflow. exact H. Qed.

  (* the slot just written holds what was written (or nothing, if the index is beyond the children) *)
  Lemma spine_wupd_slot (cs : list wnode) i x r : Spine x r -> Spine (wchild V (wupd V cs i x) i) r.
  Proof.
    intros H. destruct (Nat.lt_ge_cases i (length cs)) as [L|L].
    - rewrite wchild_wupd_same by exact L. exact H.
    - rewrite wupd_beyond by exact L. rewrite wchild_beyond by exact L. constructor.
  Qed.

  (* a short node in front of a spine *)
  Lemma spine_prepend k k2 c2 f2 key :
    Spine (WShort k2 c2 f2) key -> Spine (WShort (k ++ k2) c2 Dirty) (k ++ key).
  Proof.
    intros H. inversion H; subst.
    - apply Sp_short_off. rewrite prefix_len_app_same, app_length. lia.
    - apply Sp_short_on.
      + rewrite prefix_len_app_same, app_length. lia.
      + rewrite app_length, <- skipn_skipn. rewrite skipn_app, Nat.sub_diag, skipn_all. cbn. assumption.
  Qed.

  Lemma spine_leaf (k : list nat) v : Spine (wmk_leaf V k (WValue v)) k.
  Proof.
    destruct k as [|a k]; cbn [wmk_leaf]; [constructor|].
    apply Sp_short_on; [apply prefix_len_refl|constructor].
  Qed.

  Definition ins_spine (f : nat) : Prop := forall n p key v n',
    w_insert V veqb g f n p key (WValue v) = Some (true, n') -> Spine n' key.

  Lemma ins_step_spine f : ins_spine f -> forall n p key v n', key <> [] ->
    ins_step V (w_insert V veqb g f) n p key (WValue v) = Some (true, n') -> Spine n' key.
  Proof.
    intros IH n p key v n' Hkey H. destruct n as [|a|k c fl|cs fl|w]; cbn [ins_step] in H.
    - inversion H; subst. apply Sp_short_on; [apply prefix_len_refl|constructor].
    - discriminate.
    - set (m := prefix_len key k) in *.
      pose proof (prefix_len_le_r key k) as Hm. fold m in Hm.
      pose proof (prefix_len_le_l key k) as Hm'. fold m in Hm'.
      destruct (m =? length k) eqn:E.
      + apply Nat.eqb_eq in E.
        destruct (w_insert V veqb g f c (p ++ firstn m key) (skipn m key) (WValue v)) as [[d nn]|] eqn:E1; [|discriminate].
        destruct d; [|discriminate]. inversion H; subst n'.
        apply Sp_short_on; [rewrite prefix_len_comm; exact E|].
        rewrite <- E. eapply IH; eauto.
      + destruct (w_insert V veqb g f WNil (p ++ firstn (S m) k) (skipn (S m) k) c) as [[d1 b1]|]; [|discriminate].
        destruct (w_insert V veqb g f WNil (p ++ firstn (S m) key) (skipn (S m) key) (WValue v)) as [[d2 b2]|] eqn:E2; [|discriminate].
        assert (B2 : Spine b2 (skipn (S m) key)).
        { destruct f as [|f]; [cbn in E2; inversion E2; constructor|].
          rewrite w_insert_nil in E2. inversion E2; subst. apply spine_leaf. }
        assert (SB : Spine (WFull (wupd V (wupd V (wempty_children V) (nth m k 0) b1) (nth m key 0) b2) Dirty) (skipn m key)).
        { destruct (skipn m key) as [|j r] eqn:Es; [constructor|].
          destruct (skipn_cons_nth key m j r Es) as [Ej Er]. rewrite Ej, <- Er.
          apply Sp_full. apply spine_wupd_slot. exact B2. }
        set (branch := WFull (wupd V (wupd V (wempty_children V) (nth m k 0) b1) (nth m key 0) b2) Dirty) in *.
        destruct (m =? 0) eqn:Z; inversion H; subst n'.
        * apply Nat.eqb_eq in Z. assert (Es : skipn m key = key) by (rewrite Z; reflexivity). rewrite Es in SB. exact SB.
        * apply Sp_short_on; [apply prefix_len_firstn|].
          rewrite firstn_length_le by exact Hm'. exact SB.
    - destruct key as [|i r]; [congruence|].
      destruct (w_insert V veqb g f (wchild V cs i) (p ++ [i]) r (WValue v)) as [[d nn]|] eqn:E1; [|discriminate].
      destruct d; [|discriminate]. inversion H; subst n'.
      apply Sp_full. apply spine_wupd_slot. eapply IH; eauto.
    - discriminate.
  Qed.

  Theorem insert_spine : forall f, ins_spine f.
  Proof.
    induction f as [|f IH]; intros n p key v n' H; [cbn in H; discriminate|].
    destruct key as [|i r].
    - cbn [w_insert] in H. destruct n; inversion H; subst; constructor.
    - destruct n as [|a|k c fl|cs fl|w].
      1-4: (eapply ins_step_spine; [exact IH|discriminate|exact H]).
      cbn [w_insert] in H. destruct (w_resolve_ref V g p w) as [rn|]; [|discriminate].
      destruct (ins_step V (w_insert V veqb g f) rn p (i :: r) (WValue v)) as [[d nn]|] eqn:E1; [|discriminate].
      destruct d; [|discriminate]. inversion H; subst n'.
      eapply ins_step_spine; [exact IH|discriminate|exact E1].
  Qed.
  Definition del_spine (f : nat) : Prop := forall n p key n',
    w_delete V g f n p key = Some (true, n') -> Spine n' key.

  Lemma spine_not_ref n key : Spine n key -> not_ref V n.
  Proof. intros H. inversion H; exact I. Qed.

  (* the one-nibble (or merged) short node that replaces a full node reduced to its entry at pos *)
  Lemma spine_collapse (cs : list wnode) i r pos nn cn :
    Spine nn r ->
    forall p, w_resolve V g (wchild V (wupd V cs i nn) pos) p = Some cn ->
    Spine (match cn with
           | WShort k2 c2 _ => WShort (pos :: k2) c2 Dirty
           | _ => WShort [pos] (wchild V (wupd V cs i nn) pos) Dirty
           end) (i :: r).
  Proof.
    intros Hn p Hr.
    destruct (Nat.eq_dec pos i) as [->|Ne].
    - (* the remaining entry is the slot just written *)
      pose proof (spine_wupd_slot cs i nn r Hn) as Hs.
      assert (Ec : cn = wchild V (wupd V cs i nn) i).
      { pose proof (spine_not_ref _ _ Hs) as Nr. destruct (wchild V (wupd V cs i nn) i); cbn in *; try congruence. contradiction. }
      rewrite <- Ec in *.
      destruct cn as [|a|k2 c2 f2|cs2 f2|w].
      + apply Sp_short_on; [cbn; rewrite Nat.eqb_refl; reflexivity|exact Hs].
      + apply Sp_short_on; [cbn; rewrite Nat.eqb_refl; reflexivity|exact Hs].
      + apply (spine_prepend [i] k2 c2 f2 r Hs).
      + apply Sp_short_on; [cbn; rewrite Nat.eqb_refl; reflexivity|exact Hs].
      + apply Sp_short_on; [cbn; rewrite Nat.eqb_refl; reflexivity|exact Hs].
    - assert (Z : forall k2, prefix_len (pos :: k2) (i :: r) <> length (pos :: k2)).
      { intros k2. cbn. apply Nat.eqb_neq in Ne. rewrite Ne. discriminate. }
      destruct cn; apply Sp_short_off; apply Z.
  Qed.

  Lemma del_step_spine f : del_spine f -> forall n p key n',
    del_step V g (w_delete V g f) n p key = Some (true, n') -> Spine n' key.
  Proof.
    intros IH n p key n' H. destruct n as [|a|k c fl|cs fl|w]; cbn [del_step] in H.
    - discriminate.
    - inversion H; constructor.
    - set (m := prefix_len key k) in *.
      pose proof (prefix_len_le_r key k) as Hm. fold m in Hm.
      destruct (m <? length k) eqn:E1; [discriminate|]. apply Nat.ltb_ge in E1.
      assert (Em : prefix_len k key = length k) by (rewrite prefix_len_comm; fold m; lia).
      destruct (m =? length key); [inversion H; constructor|].
      destruct (w_delete V g f c (p ++ firstn (length k) key) (skipn (length k) key)) as [[d ch]|] eqn:E2; [|discriminate].
      destruct d; [|discriminate].
      pose proof (IH _ _ _ _ E2) as Hs.
      destruct ch as [|a|k2 c2 f2|cs2 f2|w]; inversion H; subst n'.
      + apply Sp_short_on; auto.
      + apply Sp_short_on; auto.
      + rewrite (prefix_len_full k key Em) at 1. apply (spine_prepend k k2 c2 f2 _ Hs).
      + apply Sp_short_on; auto.
      + apply Sp_short_on; auto.
    - destruct key as [|i r]; [discriminate|].
      destruct (w_delete V g f (wchild V cs i) (p ++ [i]) r) as [[d nn]|] eqn:E2; [|discriminate].
      destruct d; [|discriminate].
      pose proof (IH _ _ _ _ E2) as Hs. cbv zeta in H.
      pose proof (spine_wupd_slot cs i nn r Hs) as Hslot.
      assert (Plain : forall pos, Spine (WShort [pos] (wchild V (wupd V cs i nn) pos) Dirty) (i :: r)).
      { intros pos. destruct (Nat.eq_dec pos i) as [->|Ne].
        - apply Sp_short_on; [cbn; rewrite Nat.eqb_refl; reflexivity|exact Hslot].
        - apply Sp_short_off. cbn. apply Nat.eqb_neq in Ne. rewrite Ne. discriminate. }
      destruct (wsingle_pos V (wupd V cs i nn)) as [pos|].
      + destruct (negb (pos =? 16)).
        * destruct (w_resolve V g (wchild V (wupd V cs i nn) pos) (p ++ [pos])) as [cn|] eqn:Er; [|discriminate].
          pose proof (spine_collapse cs i r pos nn cn Hs _ Er) as Hc.
          destruct cn; inversion H; subst n'; exact Hc.
        * inversion H; subst n'. apply Plain.
      + inversion H; subst n'. apply Sp_full. exact Hslot.
    - discriminate.
  Qed.

  Theorem delete_spine : forall f, del_spine f.
  Proof.
    induction f as [|f IH]; intros n p key n' H; [cbn in H; discriminate|].
    destruct n as [|a|k c fl|cs fl|w].
    1-4: (eapply del_step_spine; [exact IH|exact H]).
    cbn [w_delete] in H. destruct (w_resolve_ref V g p w) as [rn|]; [|discriminate].
    destruct (del_step V g (w_delete V g f) rn p key) as [[d nn]|] eqn:E1; [|discriminate].
    destruct d; [|discriminate]. inversion H; subst n'.
    eapply del_step_spine; [exact IH|exact E1].
  Qed.

  (* Trie.Update: whenever the root changes, it is dirty along the updated key *)
  Corollary update_spine w key ov d w' :
    (match ov with
     | Some v => w_insert V veqb g (S (length key)) w [] key (WValue v)
     | None => w_delete V g (S (length key)) w [] key
     end) = Some (d, w') -> d = true -> Spine w' key.
  Proof.
    intros H ->. destruct ov as [v|]; [eapply insert_spine; eauto|eapply delete_spine; eauto].
  Qed.
End PD.
