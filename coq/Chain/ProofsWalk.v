(* Chain/ProofsWalk.v — Exclude computes the difference of two chains; every stored summary has its body (wf_body);
   one BlockReader.Read walks back to the fork point and forward along the canonical chain, and the stream it returns
   applies to the path the subscriber holds (C14). *)
From Coq Require Import List NArith Bool Lia ZifyN ZifyNat ZifyBool Sorted.
From Verif Require Import Chain.Model Chain.Proofs.
Import ListNotations.
Open Scope N_scope.

Section Walks.
  Variables (g gp : N) (r : repo).
  Hypothesis W : wf g gp r.

  Lemma stored_height0 a : stored r a -> num_of a = 0 -> a = g.
  Proof.
    intros [s Hs] E. destruct (N.eq_dec a g) as [|Hg]; [assumption|].
    destruct (w_par _ _ _ W _ _ Hs Hg) as [ps [_ [E' _]]]. lia.
  Qed.

  Lemma anc_to_gen h : stored r h -> anc r h g.
  Proof.
    intros Sh. destruct (anc_total g gp r W h Sh 0 ltac:(lia)) as [a [Ha E]].
    rewrite <- (stored_height0 a); [exact Ha | apply (anc_stored _ _ _ Ha) | exact E].
  Qed.

  Lemma anc_linear c a a' : anc r c a -> anc r c a' -> num_of a' <= num_of a -> anc r a a'.
  Proof.
    intros Ha Ha' Hle. destruct (anc_stored _ _ _ Ha) as [_ Sa].
    destruct (anc_total g gp r W a Sa (num_of a') Hle) as [x [Hx E]].
    assert (X : x = a').
    { apply (anc_unique_at g gp r W c); auto. eapply anc_trans; [exact Ha | exact Hx]. }
    subst x. exact Hx.
  Qed.

  Lemma anc_parent h s : get_summary r h = Some s -> h <> g -> anc r h (s_parent s).
  Proof.
    intros Hs Hg. destruct (w_par _ _ _ W _ _ Hs Hg) as [ps [Hps _]].
    eapply anc_step; eauto; [rewrite (w_gen _ _ _ W); exact Hg | eapply anc_refl; eauto].
  Qed.

  Definition asc (l : list N) : Prop := StronglySorted (fun a b => num_of a < num_of b) l.

  Lemma exclude_walk_spec c o : stored r c -> stored r o ->
    forall fuel id acc,
      anc r c id -> (N.to_nat (num_of id) < fuel)%nat ->
      (forall a, In a acc <-> anc r c a /\ num_of id < num_of a) ->
      (forall a, In a acc -> ~ anc r o a) -> asc acc ->
      exists l, exclude_walk r c o fuel id acc = Ok l /\
                (forall a, In a l <-> anc r c a /\ ~ anc r o a) /\ asc l.
  Proof.
    intros Sc So. induction fuel as [|f IH]; intros id acc Hid Hf Hacc Hno Hs; [lia|].
    (* finishing with acc when id is on o's chain *)
    assert (Stop : anc r o id -> (forall a, In a acc <-> anc r c a /\ ~ anc r o a)).
    { intros Hoid a. split.
      - intros Hin. split; [apply Hacc; exact Hin | apply Hno; exact Hin].
      - intros [Hca Hna]. apply Hacc. split; [exact Hca|].
        destruct (N.lt_ge_cases (num_of id) (num_of a)) as [|Hle]; [assumption|].
        exfalso. apply Hna. eapply anc_trans; [exact Hoid|]. apply (anc_linear c id a); assumption. }
    cbn [exclude_walk]. destruct (N.eqb_spec (num_of id) 0) as [E0|N0].
    - exists acc. split; [reflexivity|]. split; [|exact Hs]. apply Stop.
      rewrite (stored_height0 id); [apply anc_to_gen; exact So | apply (anc_stored _ _ _ Hid) | exact E0].
    - (* the continuation: push id, go to c's block at height n-1 *)
      assert (Go : ~ anc r o id ->
                   exists l, match get_block_id r c (num_of id - 1) with
                             | Ok p => exclude_walk r c o f p (id :: acc) | _ => Fail end = Ok l /\
                             (forall a, In a l <-> anc r c a /\ ~ anc r o a) /\ asc l).
      { intros Hn. destruct (anc_total g gp r W c Sc (num_of id - 1)) as [p [Hp Ep]].
        { pose proof (anc_height g gp r W _ _ Hid). lia. }
        assert (Eg : get_block_id r c (num_of id - 1) = Ok p) by (apply (get_block_id_spec g gp r W); auto).
        rewrite Eg. apply IH; auto.
        - lia.
        - intros a. cbn [In]. rewrite Hacc. split.
          + intros [<-|[Ha Hl]]; [split; [exact Hid | lia] | split; [exact Ha | lia]].
          + intros [Ha Hl]. destruct (N.eq_dec (num_of a) (num_of id)) as [E|NE].
            * left. eapply (anc_unique_at g gp r W c); eauto.
            * right. split; [exact Ha | lia].
        - intros a [<-|Hin]; [exact Hn | apply Hno; exact Hin].
        - constructor; [exact Hs|]. apply Forall_forall. intros a Hin. apply Hacc in Hin. lia. }
      destruct (N.ltb_spec (num_of o) (num_of id)) as [Hlt|Hge].
      + apply Go. intros Ho. pose proof (anc_height g gp r W _ _ Ho). lia.
      + destruct (N.eqb_spec (num_of id) (num_of o)) as [Eo|Neo].
        * destruct (N.eqb_spec id o) as [->|Nid].
          -- exists acc. split; [reflexivity|]. split; [|exact Hs]. apply Stop. destruct So as [so Hso]. eapply anc_refl; eauto.
          -- apply Go. intros Ho. apply Nid. apply (anc_same_height g gp r W o id); auto.
        * destruct (has_block_spec g gp r W o id So) as [v [Ev Hv]]. rewrite Ev. destruct v.
          -- exists acc. split; [reflexivity|]. split; [|exact Hs]. apply Stop. apply Hv. reflexivity.
          -- apply Go. intros Ho. apply Hv in Ho. discriminate.
  Qed.

  (* C14: the difference between two chains is exactly the blocks on one and not on the other, ascending *)
  Lemma exclude_spec c o : stored r c -> stored r o ->
    exists l, exclude r c o = Ok l /\ (forall a, In a l <-> anc r c a /\ ~ anc r o a) /\ asc l.
  Proof.
    intros Sc So. unfold exclude. destruct Sc as [sc Hsc].
    apply exclude_walk_spec; try (exists sc; exact Hsc); auto.
    - eapply anc_refl; eauto.
    - intros a. cbn [In]. split; [contradiction|]. intros [Ha Hl].
      pose proof (anc_height g gp r W _ _ Ha). lia.
    - constructor.
  Qed.
End Walks.

Definition wf_body (r : repo) : Prop :=
  forall id s, get_summary r id = Some s ->
    exists b, afind2 (num_of id, s_conf s) (r_body r) = Some b /\ b_id b = id /\
              s_txids s = map tx_id (b_txs b) /\ s_parent s = b_parent b /\ length (b_rcs b) = length (b_txs b).

Lemma wf_body_init g gp tag : num_of g = 0 -> wf_body (init_repo g gp tag).
Proof.
  intros Hg id s. unfold get_summary, init_repo. cbn [r_sums afind r_body].
  destruct (N.eqb_spec g id) as [<-|]; [|discriminate]. intros E. injection E as <-. cbn [s_conf s_txids s_parent].
  exists (mkB g gp 0 [] []). rewrite Hg. cbn. auto.
Qed.

Lemma wf_body_add g gp r r' b conf best :
  wf g gp r -> wf_body r -> valid_add r b conf -> add_block r b conf best = Some r' -> wf_body r'.
Proof.
  intros W WB V A id s. rewrite (add_summary r r' b conf best A).
  destruct (add_parent r r' b conf best A) as [ps [Hps Er']].
  destruct (N.eqb_spec (b_id b) id) as [E|NE].
  - intros E'. injection E' as <-. subst id. exists b. rewrite Er'. cbn [r_body save_block s_conf s_txids s_parent].
    rewrite afind2_cons. replace (eq2 _ _) with true by (symmetry; apply eq2_spec; reflexivity).
    repeat split; auto. apply V.
  - intros H. destruct (WB id s H) as [b0 [B1 B2]]. exists b0. split; [|exact B2].
    rewrite (add_body_old g gp r r' b conf best W V A id s H). exact B1.
Qed.

Lemma reachable_wf_body g gp tag adm r : num_of g = 0 -> reachable g gp tag adm r -> wf_body r.
Proof.
  intros Hg H. induction H.
  - apply wf_body_init. exact Hg.
  - eapply wf_body_add; eauto. eapply reachable_wf; eauto.
Qed.

(* the blocks from h down to genesis, newest first *)
Inductive is_path (r : repo) : N -> list N -> Prop :=
| path_gen : is_path r (r_gen r) [r_gen r]
| path_step h s l : get_summary r h = Some s -> h <> r_gen r -> is_path r (s_parent s) l -> is_path r h (h :: l).

(* the node's fork choice never leaves the best block with stored descendants: a child of best becomes best *)
Definition best_tip (r : repo) : Prop := forall h, anc r h (r_best r) -> h = r_best r.

Lemma apply_obsolete r obs st : apply_stream r (obs ++ st) (map (fun a => (a, true)) obs) = Some st.
Proof. induction obs as [|a obs IH]; [reflexivity|]. cbn. rewrite N.eqb_refl. exact IH. Qed.

Lemma apply_app r l1 : forall st l2, apply_stream r st (l1 ++ l2) =
  match apply_stream r st l1 with Some st' => apply_stream r st' l2 | None => None end.
Proof.
  induction l1 as [|[b o] l1 IH]; intros st l2; [reflexivity|]. cbn [app apply_stream].
  destruct o.
  - destruct st as [|t st]; [reflexivity|]. destruct (t =? b); [apply IH | reflexivity].
  - destruct (get_summary r b); [|reflexivity]. destruct st as [|t st]; [reflexivity|].
    destruct (s_parent s =? t); [apply IH | reflexivity].
Qed.

Section Reader.
  Variables (g gp : N) (r : repo).
  Hypothesis W : wf g gp r.
  Hypothesis WB : wf_body r.
  Hypothesis TIP : best_tip r.
  Let B := r_best r.

  Lemma path_head h l : is_path r h l -> exists t, l = h :: t.
  Proof. inversion 1; eauto. Qed.

  Lemma path_stored h l : is_path r h l -> stored r h.
  Proof.
    inversion 1; subst; [|eexists; eauto]. rewrite (w_gen _ _ _ W). eexists. apply (w_gsum _ _ _ W).
  Qed.

  Lemma get_block_stored h s : get_summary r h = Some s -> exists b, get_block r h = Some (s, b).
  Proof. intros Hs. unfold get_block. rewrite Hs. destruct (WB h s Hs) as [b [-> _]]. eauto. Qed.

  (* one Read from a position that is not best: obsolete blocks = the part of pos's chain that is not canonical,
     newest first, then the canonical successor of the fork point *)
  Definition read_post (pos : N) (st : list N) (acc : list (N * bool)) (out : res (list (N * bool) * N)) : Prop :=
    exists obs stf nx sn,
      out = Ok (rev acc ++ map (fun a => (a, true)) obs ++ [(nx, false)], nx) /\
      st = obs ++ stf /\ (forall a, In a obs -> anc r pos a /\ ~ anc r B a) /\
      get_summary r nx = Some sn /\ is_path r (s_parent sn) stf /\ anc r B nx /\ anc r B (s_parent sn) /\ nx <> g /\
      (anc r B pos -> obs = [] /\ s_parent sn = pos).

  Lemma read_walk_spec : forall fuel pos st acc,
      is_path r pos st -> pos <> B -> (N.to_nat (num_of pos) + 1 < fuel)%nat ->
      read_post pos st acc (read_walk r B fuel pos acc).
  Proof.
    induction fuel as [|f IH]; intros pos st acc Hp Hne Hf; [lia|].
    pose proof (path_stored _ _ Hp) as Sp. destruct Sp as [s Hs].
    destruct (get_block_stored pos s Hs) as [bb Hgb]. cbn [read_walk]. rewrite Hgb.
    assert (SB : stored r B) by apply (w_best _ _ _ W).
    (* walking one step back *)
    assert (Back : ~ anc r B pos -> read_post pos st acc (read_walk r B f (s_parent s) ((pos, true) :: acc))).
    { intros Hn. assert (Hg : pos <> g) by (intros ->; apply Hn; apply (anc_to_gen g gp r W); exact SB).
      inversion Hp as [|h' s' l' Hs' Hg' Hp']; subst; [rewrite (w_gen _ _ _ W) in Hg; congruence|].
      rewrite Hs in Hs'. injection Hs' as <-.
      destruct (w_par _ _ _ W _ _ Hs Hg) as [ps [Hps [En _]]].
      assert (Hne' : s_parent s <> B).
      { intros E. apply Hne. apply TIP. fold B. rewrite <- E. apply (anc_parent g gp r W); auto. }
      destruct (IH (s_parent s) l' ((pos, true) :: acc) Hp' Hne' ltac:(lia))
        as [obs [stf [nx [sn [E1 [E2 [E3 [E4 [E5 [E6 [E7 [E8 E9]]]]]]]]]]]].
      exists (pos :: obs), stf, nx, sn. repeat split; auto.
      - rewrite E1. cbn [rev map app]. rewrite <- !app_assoc. reflexivity.
      - cbn [app]. congruence.
      - destruct H as [<-|Hin]; [eapply anc_refl; eauto|]. eapply anc_trans; [apply (anc_parent g gp r W); eauto|]. apply E3. exact Hin.
      - destruct H as [<-|Hin]; [exact Hn | apply E3; exact Hin].
      - contradiction.
      - contradiction. }
    destruct (N.ltb_spec (num_of B) (num_of pos)) as [Hlt|Hge].
    - apply Back. intros Ha. pose proof (anc_height g gp r W _ _ Ha). lia.
    - destruct (has_block_spec g gp r W B pos SB) as [v [Ev Hv]]. rewrite Ev. destruct v.
      + assert (Ha : anc r B pos) by (apply Hv; reflexivity).
        assert (Hlt : num_of pos < num_of B).
        { destruct (N.eq_dec (num_of pos) (num_of B)) as [E|]; [|lia]. exfalso. apply Hne. eapply (anc_same_height g gp r W); eauto. }
        destruct (anc_total g gp r W B SB (num_of pos + 1) ltac:(lia)) as [nx [Hnx Enx]].
        assert (Eg : get_block_id r B (num_of pos + 1) = Ok nx) by (apply (get_block_id_spec g gp r W); auto).
        rewrite Eg. destruct (anc_stored _ _ _ Hnx) as [_ [sn Hsn]].
        destruct (get_block_stored nx sn Hsn) as [bn ->].
        assert (Hg : nx <> g) by (intros ->; rewrite (w_gnum _ _ _ W) in Enx; lia).
        destruct (w_par _ _ _ W _ _ Hsn Hg) as [ps [Hps [En _]]].
        assert (Hpar : s_parent sn = pos).
        { assert (X : anc r nx pos) by (eapply (anc_linear g gp r W); eauto; lia).
          inversion X as [|h' s' a' Hs' Hg' Hp']; subst; [lia|]. rewrite Hsn in Hs'. injection Hs' as <-.
          symmetry. apply (anc_same_height g gp r W _ _ Hp'). lia. }
        exists [], st, nx, sn. cbn [map app rev]. repeat split; auto.
        * destruct H.
        * rewrite Hpar. exact Hp.
        * rewrite Hpar. exact Ha.
      + apply Back. intros Ha. apply Hv in Ha. discriminate.
  Qed.

  (* C14: one read step of a subscriber *)
  Lemma read_step pos st : is_path r pos st -> pos <> B ->
    exists l nx st',
      read r pos = Ok (l, nx) /\ l <> [] /\ apply_stream r st l = Some st' /\ is_path r nx st' /\ anc r B nx /\
      (forall a, In (a, true) l -> anc r pos a /\ ~ anc r B a) /\
      (anc r B pos -> l = [(nx, false)] /\ num_of nx = num_of pos + 1).
  Proof.
    intros Hp Hne. unfold read. fold B. destruct (N.eqb_spec B pos) as [E|_]; [congruence|].
    destruct (read_walk_spec (S (S (N.to_nat (num_of pos)))) pos st [] Hp Hne ltac:(lia))
      as [obs [stf [nx [sn [E1 [E2 [E3 [E4 [E5 [E6 [E7 [E8 E9]]]]]]]]]]]].
    rewrite E1. cbn [rev app].
    destruct (path_head _ _ E5) as [t Et].
    exists (map (fun a => (a, true)) obs ++ [(nx, false)]), nx, (nx :: stf). repeat split; auto.
    - destruct obs; discriminate.
    - rewrite apply_app, E2, apply_obsolete. cbn [apply_stream]. rewrite E4, Et, N.eqb_refl. reflexivity.
    - eapply path_step; eauto. rewrite (w_gen _ _ _ W). exact E8.
    - apply in_app_or in H. destruct H as [H|[H|[]]]; [|discriminate].
      apply in_map_iff in H. destruct H as [x [Hx Hin]]. injection Hx as <-. apply E3. exact Hin.
    - apply in_app_or in H. destruct H as [H|[H|[]]]; [|discriminate].
      apply in_map_iff in H. destruct H as [x [Hx Hin]]. injection Hx as <-. apply E3. exact Hin.
    - destruct (E9 H) as [-> _]. reflexivity.
    - destruct (E9 H) as [_ Hpar]. destruct (w_par _ _ _ W _ _ E4 E8) as [ps [_ [En _]]]. rewrite Hpar in En. exact En.
  Qed.

  Lemma read_at_best : read r B = Ok ([], B).
  Proof. unfold read. fold B. rewrite N.eqb_refl. reflexivity. Qed.

  (* a reader is quiescent exactly at the best block *)
  Lemma read_quiescent pos st np : is_path r pos st -> read r pos = Ok ([], np) -> pos = B.
  Proof.
    intros Hp E. destruct (N.eq_dec pos B) as [|Hne]; [assumption|].
    destruct (read_step pos st Hp Hne) as [l [nx [st' [E1 [E2 _]]]]]. rewrite E1 in E. injection E as E _. congruence.
  Qed.
End Reader.
