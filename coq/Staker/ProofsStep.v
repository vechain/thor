(* Staker/ProofsStep.v — single-operation facts: off-epoch blocks do nothing, the 2/3 rule, withdrawal gating,
   a delegation pays out once, the bound on the activation count, who is put on the eviction list. *)
From Coq Require Import List NArith Bool Lia.
From Coq Require Import ZifyBool.
From Verif Require Import Common.Util Staker.Model Staker.Base.
Import ListNotations.
Open Scope N_scope.

Lemma housekeep_off_epoch c b s : b mod c_epoch c <> 0 -> housekeep c b s = Ok (s, false).
Proof. intros H. unfold housekeep. apply N.eqb_neq in H. rewrite H. reflexivity. Qed.

Lemma transition_off_epoch c b s : b mod c_epoch c <> 0 -> transition_pos c b s = Ok (s, false).
Proof. intros H. unfold transition_pos. apply N.eqb_neq in H. rewrite H. reflexivity. Qed.

Lemma sync_pos_off_epoch c b s : b mod c_epoch c <> 0 -> exists a u, sync_pos c b s = Ok (s, a, u).
Proof.
  intros H. unfold sync_pos.
  destruct (b <? c_hayabusa c + c_tp c); [eauto|].
  rewrite (transition_off_epoch c b s H).
  destruct (negb (0 <? l_size (act s)) && ((c_tp c =? 0) || ((b - c_hayabusa c) mod c_tp c =? 0))); cbn.
  - destruct (0 <? l_size (act s)); cbn; [|eauto]. rewrite housekeep_off_epoch; cbn; eauto.
  - destruct (0 <? l_size (act s)); cbn; [|eauto]. rewrite housekeep_off_epoch; cbn; eauto.
Qed.

Lemma block_off_epoch c s : (blk s + 1) mod c_epoch c <> 0 -> step c s OBlock = w_blk (blk s + 1) s.
Proof.
  intros H. unfold step, run_op.
  destruct (sync_pos_off_epoch c (blk s + 1) (w_blk (blk s + 1) s) H) as [a [u E]]. rewrite E. reflexivity.
Qed.

Lemma sync_pos_needs_two_thirds c b s :
  l_size (act s) = 0 -> l_size (que s) * 3 < get_mbp s * 2 -> sync_pos c b s = Ok (s, false, false).
Proof.
  intros Ha Hq. unfold sync_pos.
  destruct (b <? c_hayabusa c + c_tp c); [reflexivity|].
  rewrite Ha. cbn [N.ltb N.compare negb andb orb].
  assert (T : transition_pos c b s = Ok (s, false)).
  { unfold transition_pos. destruct (negb (b mod c_epoch c =? 0)); [reflexivity|].
    rewrite Ha. cbn [N.ltb N.compare]. apply N.ltb_lt in Hq. rewrite Hq. reflexivity. }
  destruct ((c_tp c =? 0) || ((b - c_hayabusa c) mod c_tp c =? 0)); cbn; [rewrite T|]; reflexivity.
Qed.

(* what WithdrawStake pays is bounded by the free buckets of the validation: withdrawable + queued, plus the
   cooldown bucket only once exit block + cooldown period has passed; locked stake is never paid *)
Lemma withdraw_stake_amount c a e s s1 x v :
  withdraw_stake c a e s = Ok (s1, x) -> getv s a = Some v ->
  x = v_withdrawable v + v_queued v +
      (if negb (v_status v =? StatusQueued) && cooldown_ended c v (blk s) then v_cooldown v else 0)
  /\ v_endorser v = e.
Proof.
  intros H Hv. unfold withdraw_stake in H. unfold get_or_revert in H. rewrite Hv in H. cbn [bind] in H.
  bstep H u1 G1. apply guard_ok' in G1. apply N.eqb_eq in G1.
  bstep H r Hr. destruct r as [[[s0 wd] q] cd].
  assert (Hamt : wd = v_withdrawable v /\ q = v_queued v /\
                 cd = if negb (v_status v =? StatusQueued) && cooldown_ended c v (blk s) then v_cooldown v else 0).
  { unfold svc_withdraw_stake in Hr. destruct (v_status v =? StatusQueued) eqn:Eq.
    - bstep Hr r1 Hrm. destruct r1. inversion Hr; subst. cbn. auto.
    - inversion Hr; subst. cbn [negb andb]. auto. }
  clear Hr. destruct Hamt as [-> [-> ->]].
  bstep H sb Hb. bstep H sc Hc. bstep H sd Hd. bstep H se He. bstep H t1 Ht1. bstep H tot Htot. bstep H u2 Hcb.
  apply of_opt_ok, safe_add_some in Ht1 as [-> _]. apply of_opt_ok, safe_add_some in Htot as [-> _].
  inversion H; subst. split; auto.
Qed.

(* a delegation is paid only when it has not started or has ended, the payment is its whole stake, and afterwards
   its stake is zero — a second withdrawal can only pay 0 *)
Lemma withdraw_delegation_pays_stake id s s1 x :
  withdraw_delegation id s = Ok (s1, x) ->
  exists d v, get (dels s) id = Some d /\ getv s (d_val d) = Some v /\ x = d_stake d /\
    (exists st fi, d_started d v (blk s) = Ok st /\ d_ended d v (blk s) = Ok fi /\ (st = false \/ fi = true)) /\
    exists d1, get (dels s1) id = Some d1 /\ d_stake d1 = 0.
Proof.
  unfold withdraw_delegation. intros H. destruct (get (dels s) id) as [d|] eqn:Ed; [|discriminate].
  apply bind_ok in H as [v [Hv H]]. unfold get_existing in Hv. apply of_opt_ok in Hv.
  apply bind_ok in H as [st [Hst H]]. apply bind_ok in H as [fi [Hfi H]].
  apply bind_ok in H as [u [Hg H]]. apply guard_ok' in Hg.
  apply bind_ok in H as [s2 [Hs2 H]]. apply bind_ok in H as [u2 [Hc H]]. inversion H; subst; clear H.
  exists d, v. repeat split; auto.
  - exists st, fi. repeat split; auto. destruct st, fi; cbn in Hg; auto; discriminate.
  - assert (D : forall s', dels s' = upd (dels s) id (mkD (d_val d) 0 (d_mult d) (d_last d) (d_first d)) ->
                exists d1, get (dels s') id = Some d1 /\ d_stake d1 = 0).
    { intros s' E. rewrite E, get_upd_same. eauto. }
    apply D. clear D Hc.
    destruct (negb st && negb (v_status v =? StatusExit)).
    + apply bind_ok in Hs2 as [s3 [Hs3 Hs2]]. unfold aggs_sub_pending in Hs3.
      apply bind_ok in Hs3 as [[pv pw] [_ Hs3]]. inversion Hs3; subst; clear Hs3.
      unfold remove_queued in Hs2. apply bind_ok in Hs2 as [q [_ Hs2]]. inversion Hs2; subst. reflexivity.
    + unfold remove_withdrawable in Hs2. apply bind_ok in Hs2 as [q [_ Hs2]]. inversion Hs2; subst. reflexivity.
Qed.

Lemma activation_count_bounded ex s :
  let n := compute_activation_count ex s in
  let ls := if ex then sub64 (l_size (act s)) 1 else l_size (act s) in
  n <= l_size (que s) /\ (n = 0 \/ ls + n <= get_mbp s).
Proof.
  cbv zeta. unfold compute_activation_count.
  set (ls := if ex then sub64 (l_size (act s)) 1 else l_size (act s)).
  destruct ((get_mbp s <=? ls) || (l_size (que s) =? 0)) eqn:E; [split; [lia|auto]|].
  apply orb_false_iff in E as [E1 E2]. apply N.leb_gt in E1.
  destruct (get_mbp s - ls <? l_size (que s)) eqn:E3.
  - apply N.ltb_lt in E3. split; [lia|right; lia].
  - apply N.ltb_ge in E3. split; [lia|right; lia].
Qed.

Lemma ll_walk_in fuel h s r a v : ll_walk fuel h s = Ok r -> In (a, v) r -> getv s a = Some v.
Proof.
  revert h r. induction fuel as [|f IH]; intros h r H Hin.
  - destruct h; cbn in H; [discriminate|]. inversion H; subst. contradiction.
  - destruct h as [b|]; cbn in H; [|inversion H; subst; contradiction].
    apply bind_ok in H as [e [He H]]. apply of_opt_ok in He.
    apply bind_ok in H as [r' [Hr H]]. inversion H; subst. destruct Hin as [E|Hin].
    + inversion E; subst. auto.
    + eapply IH; eauto.
Qed.

(* a validator is put on the eviction list only at an eviction-interval block, when it has been offline for more
   than the threshold and has not signalled exit *)
Lemma evictions_only_after_threshold c b s t a :
  compute_epoch_transition c b s = Ok t -> In a (tr_evictions t) ->
  b <> 0 /\ b mod c_evict_int c = 0 /\
  exists v off, getv s a = Some v /\ v_offline v = Some off /\ off + c_evict_thr c < b /\ v_exit v = None.
Proof.
  unfold compute_epoch_transition. intros H Hin.
  apply bind_ok in H as [ev [Hev H]]. apply bind_ok in H as [ren [Hren H]]. inversion H; subst t; clear H.
  cbn [tr_evictions] in Hin.
  destruct (negb (b =? 0) && (b mod c_evict_int c =? 0)) eqn:E; [|inversion Hev; subst; contradiction].
  apply andb_true_iff in E as [E1 E2]. apply negb_true_iff, N.eqb_neq in E1. apply N.eqb_eq in E2.
  apply bind_ok in Hev as [l [Hl Hev]]. inversion Hev; subst ev; clear Hev.
  apply in_map_iff in Hin as [[a' v] [Ea Hf]]. cbn in Ea. subst a'. apply filter_In in Hf as [Hf1 Hf2]. cbn in Hf2.
  unfold iterate in Hl. pose proof (ll_walk_in _ _ _ _ _ _ Hl Hf1) as Hv.
  unfold evictable in Hf2. destruct (v_offline v) as [off|] eqn:Eo; [|discriminate].
  apply andb_true_iff in Hf2 as [F1 F2]. apply N.ltb_lt in F1. apply negb_true_iff in F2.
  repeat split; auto. exists v, off. repeat split; auto. destruct (v_exit v); [discriminate|reflexivity].
Qed.
