(* Store/ProofsLink.v — hasher.store (wstore) on a working trie whose clean nodes and references are nodes of the parent
   root: the root it writes follows only its own entries and nodes of the parent root (the link condition of
   Store/ProofsPrune.v), its entries are well-formed blobs, and it reads back — with freshness required in the hist space
   only (after a pruner round the deduped space answers for every version of a path, so the reader is no longer silent
   at a new version).  Then: histories of canonical commits / other commits / pruner rounds keep the invariant.
   After that: what fails keeps failing (pruned account roots, state read through them), commits and caches on any
   store (pruned or not). *)
From Coq Require Import List NArith Bool Arith Lia.
From Verif Require Import Trie.Model Store.Model Store.Proofs Store.ProofsCommit Store.ProofsReach Store.ProofsPrune.
Import ListNotations.

Section PL.
  Variable V : Type.
  Notation snode := (snode V).
  Notation wnode := (wnode V).
  Notation node := (node V).
  Notation store := (store V).
  Notation getter := (getter V).

  (* the clean nodes (r = false) and references (r = true) of a working trie, with their paths and versions *)
  Inductive WTop : list nat -> wnode -> list nat -> ver -> bool -> Prop :=
  | WTop_ref p v : WTop p (WRef v) p v true
  | WTop_short_clean p k c v : WTop p (WShort k c (Clean v)) p v false
  | WTop_full_clean p cs v : WTop p (WFull cs (Clean v)) p v false
  | WTop_short p k c f q w r : WTop (p ++ k) c q w r -> WTop p (WShort k c f) q w r
  | WTop_full p cs f i c q w r : nth_error cs i = Some c -> WTop (p ++ [i]) c q w r -> WTop p (WFull cs f) q w r.

  (* ---- encodings of coherent working tries are well-formed blobs ---- *)
  Lemma coh_wfk g : forall p n, Coh V g p n -> wfk V (enc V n) = true /\ wfk V (enc_child V n) = true.
  Proof.
    apply (Coh_mut V g (fun p n _ => wfk V (enc V n) = true /\ wfk V (enc_child V n) = true)
                       (fun p i cs _ => forallb (wfk V) (map (enc_child V) cs) = true)).
    - intros; split; reflexivity.
    - intros; split; reflexivity.
    - intros; split; reflexivity.
    - intros p k c f Hk _ [_ IH] _.
      assert (E : wfk V (enc V (WShort k c f)) = true).
      { rewrite enc_short. cbn [wfk]. rewrite IH. destruct k; [contradiction|reflexivity]. }
      split; auto. destruct f; [exact E|reflexivity].
    - intros p cs f _ IH _.
      assert (E : wfk V (enc V (WFull cs f)) = true) by (rewrite enc_full; exact IH).
      split; auto. destruct f; [exact E|reflexivity].
    - reflexivity.
    - intros p i c t _ [_ IHc] _ IHt. cbn [map forallb]. rewrite IHc, IHt. reflexivity.
  Qed.

  Lemma coh_blob_ok g p n : Coh V g p n -> is_inner V n -> blob_ok V (enc V n).
  Proof.
    intros HC Hi. split; [|apply (coh_wfk g p n HC)].
    destruct n; cbn in Hi; try contradiction; exact I.
  Qed.

  Lemma Reach_ref_inv (g : getter) p v q w b : Reach V g p (SRef v) q w b ->
    exists b0, g p v = Some b0 /\ ((q = p /\ w = v /\ b = b0) \/ Reach V g p b0 q w b).
  Proof. intros R. inversion R; subst; eauto 7. Qed.
  Lemma Reach_short_inv (g : getter) p k c q w b : Reach V g p (SShort k c) q w b -> Reach V g (p ++ k) c q w b.
  Proof. intros R. inversion R; subst; auto. Qed.
  Lemma Reach_full_inv (g : getter) p cs q w b : Reach V g p (SFull cs) q w b ->
    exists i c, nth_error cs i = Some c /\ Reach V g (p ++ [i]) c q w b.
  Proof. intros R. inversion R; subst; eauto. Qed.

  (* ---- what resolving the encoding of a coherent working trie follows ---- *)
  Section Follow.
    Variable g : getter.
    Variable newv : ver.

    (* (q, w, b) is, or is followed from, a clean node or reference the working trie had at another version *)
    Definition old_case (p : list nat) (n : wnode) (q : list nat) (w : ver) (b : snode) : Prop :=
      exists q0 w0 r, WTop p n q0 w0 r /\ w0 <> newv /\ Reach V g q0 (SRef w0) q w b.
    Definition new_case (q : list nat) (w : ver) (b : snode) : Prop :=
      w = newv /\ exists m, Coh V g q m /\ is_inner V m /\ b = enc V m.

    Lemma old_case_short p k c f q w b : old_case (p ++ k) c q w b -> old_case p (WShort k c f) q w b.
    Proof. intros [q0 [w0 [r [T X]]]]. exists q0, w0, r. split; auto. apply WTop_short; auto. Qed.
    Lemma old_case_full p cs f i c q w b : nth_error cs i = Some c -> old_case (p ++ [i]) c q w b -> old_case p (WFull cs f) q w b.
    Proof. intros Hi [q0 [w0 [r [T X]]]]. exists q0, w0, r. split; auto. eapply WTop_full; eauto. Qed.

    (* a clean short / full node n, referred to by its parent as SRef v *)
    Lemma follow_clean p n v q w b :
      Coh V g p n -> is_inner V n -> WTop p n p v false -> g p v = Some (enc V n) ->
      (forall q w b, Reach V g p (enc V n) q w b -> old_case p n q w b \/ new_case q w b) ->
      Reach V g p (SRef v) q w b -> old_case p n q w b \/ new_case q w b.
    Proof.
      intros HC Hi T Hgv Inner R. destruct (ver_eqb v newv) eqn:Ev.
      - apply ver_eqb_eq in Ev. subst v.
        destruct (Reach_ref_inv g p newv q w b R) as [b0 [Hg [[-> [-> ->]]|R0]]]; rewrite Hgv in Hg; inversion Hg; subst.
        + right. split; auto. exists n. auto.
        + apply Inner; auto.
      - left. exists p, v, false. split; [exact T|split; [|exact R]].
        intros ->. rewrite ver_eqb_refl in Ev. discriminate.
    Qed.

    Lemma coh_follow : forall p n, Coh V g p n ->
      (forall q0, ~ WTop p n q0 newv true) ->
      forall q w b, Reach V g p (enc_child V n) q w b -> old_case p n q w b \/ new_case q w b.
    Proof.
      apply (Coh_mut V g
        (fun p n _ => (forall q0, ~ WTop p n q0 newv true) ->
           forall q w b, Reach V g p (enc_child V n) q w b -> old_case p n q w b \/ new_case q w b)
        (fun p i cs _ => (forall j c q0, nth_error cs j = Some c -> ~ WTop (p ++ [i + j]%nat) c q0 newv true) ->
           forall j c q w b, nth_error cs j = Some c -> Reach V g (p ++ [i + j]%nat) (enc_child V c) q w b ->
           old_case (p ++ [i + j]%nat) c q w b \/ new_case q w b)).
      - intros p _ q w b R. inversion R.
      - intros p v _ q w b R. inversion R.
      - (* reference *)
        intros p v Hno q w b R. left. exists p, v, true. split; [constructor|split; [|exact R]].
        intros ->; apply (Hno p); constructor.
      - (* short *)
        intros p k c f Hk HC IH Hf Hno q w b R.
        assert (Hno' : forall q0, ~ WTop (p ++ k) c q0 newv true) by (intros q0 T; apply (Hno q0); apply WTop_short; auto).
        assert (Inner : forall q w b, Reach V g p (enc V (WShort k c f)) q w b -> old_case p (WShort k c f) q w b \/ new_case q w b).
        { intros q1 w1 b1 R1. rewrite enc_short in R1. apply Reach_short_inv in R1.
          destruct (IH Hno' _ _ _ R1) as [O|N]; auto. left. apply old_case_short; auto. }
        destruct f as [|v]; cbn [enc_child] in R; [apply Inner; exact R|].
        apply (follow_clean p (WShort k c (Clean v)) v); auto; [constructor; auto|exact I|constructor].
      - (* full *)
        intros p cs f HC IH Hf Hno q w b R.
        assert (Hno' : forall j c q0, nth_error cs j = Some c -> ~ WTop (p ++ [0 + j]%nat) c q0 newv true).
        { intros j c q0 Hj T. apply (Hno q0). eapply WTop_full; eauto. }
        assert (Inner : forall q w b, Reach V g p (enc V (WFull cs f)) q w b -> old_case p (WFull cs f) q w b \/ new_case q w b).
        { intros q1 w1 b1 R1. rewrite enc_full in R1. apply Reach_full_inv in R1. destruct R1 as [i [x [Hx R1]]].
          rewrite nth_error_map in Hx. destruct (nth_error cs i) as [c0|] eqn:Hc0; [|discriminate]. inversion Hx; subst x.
          destruct (IH Hno' i c0 _ _ _ Hc0 R1) as [O|N]; auto. left. eapply old_case_full; eauto. }
        destruct f as [|v]; cbn [enc_child] in R; [apply Inner; exact R|].
        apply (follow_clean p (WFull cs (Clean v)) v); auto; [constructor; auto|exact I|constructor].
      - intros p i _ j c q w b Hj. destruct j; discriminate.
      - intros p i c t HC IHc HCt IHt Hno j c0 q w b Hj R.
        destruct j as [|j]; cbn in Hj.
        + inversion Hj; subst c0. rewrite Nat.add_0_r in *. apply IHc; auto.
          intros q0 T. apply (Hno 0%nat c q0); [reflexivity|]. rewrite Nat.add_0_r. exact T.
        + rewrite Nat.add_succ_r in *. apply (IHt (fun j' c' q0 Hj' => ltac:(
            intros T; apply (Hno (S j') c' q0 Hj'); rewrite Nat.add_succ_r; exact T)) j c0 q w b Hj R).
    Qed.
  End Follow.

  (* ---- the clean nodes of the working trie after hasher.store: stamped newv, or clean nodes it had before ---- *)
  Section After.
    Variable big : wnode -> bool.
    Variable skip : bool.
    Variable newv : ver.
    Variable g : getter.

    Lemma wstore_wtop : forall p n, Coh V g p n ->
      forall q w r, WTop p (fst (wstore V big skip newv p n)) q w r -> (w = newv /\ r = false) \/ WTop p n q w r.
    Proof.
      apply (Coh_mut V g
        (fun p n _ => forall q w r, WTop p (fst (wstore V big skip newv p n)) q w r -> (w = newv /\ r = false) \/ WTop p n q w r)
        (fun p i cs _ => forall j c', nth_error (fst (wchildren V big skip newv p cs i)) j = Some c' ->
           exists c, nth_error cs j = Some c /\
             forall q w r, WTop (p ++ [i + j]%nat) c' q w r -> (w = newv /\ r = false) \/ WTop (p ++ [i + j]%nat) c q w r)).
      - intros p q w r T. cbn in T. auto.
      - intros p v q w r T. cbn in T. auto.
      - intros p v q w r T. cbn in T. auto.
      - (* short *)
        intros p k c f Hk HC IH Hf q w r T. rewrite wstore_short in T.
        set (X := if is_dirty_inner V c then wstore V big skip newv (p ++ k) c else (c, [])) in *.
        assert (Child : forall q w r, WTop (p ++ k) (fst X) q w r -> (w = newv /\ r = false) \/ WTop (p ++ k) c q w r)
          by (subst X; destruct (is_dirty_inner V c); [exact IH|auto]).
        destruct X as [c' ec]. cbn [fst] in Child.
        cbv zeta in T. destruct (is_root p || skip); cbn [fst] in T.
        + inversion T; subst; auto.
          destruct (Child _ _ _ H6) as [X|X]; auto. right. apply WTop_short; auto.
        + inversion T; subst.
          * right. constructor.
          * destruct (Child _ _ _ H6) as [X|X]; auto. right. apply WTop_short; auto.
      - (* full *)
        intros p cs f HC IH Hf q w r T. rewrite wstore_full in T. cbv zeta in T.
        destruct (wchildren V big skip newv p cs 0) as [cs' ecs] eqn:E. cbn [fst snd] in *.
        assert (Child : forall i c', nth_error cs' i = Some c' -> forall q w r, WTop (p ++ [i]) c' q w r ->
                  (w = newv /\ r = false) \/ WTop p (WFull cs f) q w r).
        { intros i c' Hi q0 w0 r0 T0. destruct (IH i c' Hi) as [c [Hc X]]. cbn in X.
          destruct (X _ _ _ T0) as [Y|Y]; auto. right. eapply WTop_full; eauto. }
        destruct (is_root p || big (WFull cs' f) || skip); cbn [fst] in T.
        + inversion T; subst; auto. eapply Child; eauto.
        + inversion T; subst.
          * right. constructor.
          * eapply Child; eauto.
      - intros p i j c' Hj. rewrite wchildren_nil in Hj. destruct j; discriminate.
      - intros p i c t HC IHc HCt IHt j c' Hj. rewrite wchildren_cons in Hj.
        destruct (if is_dirty_inner V c && (i <? 16)%nat then wstore V big skip newv (p ++ [i]) c else (c, [])) as [c1 ec] eqn:E1.
        destruct (wchildren V big skip newv p t (S i)) as [t' et] eqn:E2. cbn [fst] in *.
        destruct j as [|j]; cbn in Hj.
        + inversion Hj; subst c'. exists c. split; [reflexivity|]. rewrite Nat.add_0_r.
          intros q w r T. destruct (is_dirty_inner V c && (i <? 16)%nat).
          * apply IHc. rewrite E1. exact T.
          * inversion E1; subst. auto.
        + destruct (IHt j c' Hj) as [c0 [Hc0 X]]. exists c0. split; [exact Hc0|]. rewrite Nat.add_succ_r. exact X.
    Qed.
  End After.

  (* a working trie that only uses references on which two getters agree *)
  Lemma coh_wres_transfer (g g0 : getter) (Old : list nat -> ver -> snode -> Prop) :
    (forall q w b, Old q w b -> g0 q w = Some b /\ g q w = Some b) ->
    (forall q w b q1 w1 b1, Old q w b -> Reach V g q b q1 w1 b1 -> Old q1 w1 b1) ->
    forall p n t, WRes V g p n t -> Coh V g p n ->
      (forall q w r, WTop p n q w r -> exists b, Old q w b) ->
      WRes V g0 p n t /\ Coh V g0 p n.
  Proof.
    intros Hag Hcl.
    apply (WRes_mut V g
      (fun p n t _ => Coh V g p n -> (forall q w r, WTop p n q w r -> exists b, Old q w b) -> WRes V g0 p n t /\ Coh V g0 p n)
      (fun p i cs cts _ => CohL V g p i cs ->
         (forall j c q w r, nth_error cs j = Some c -> WTop (p ++ [i + j]%nat) c q w r -> exists b, Old q w b) ->
         WResL V g0 p i cs cts /\ CohL V g0 p i cs)).
    - intros; split; constructor.
    - intros; split; constructor.
    - intros p k c f c' _ IH HC HT. inversion HC as [| | |p0 k0 c0 f0 Hk Hcc Hf|]; subst.
      destruct (IH Hcc) as [W C]. { intros q w r T. apply (HT q w r). apply WTop_short; auto. }
      split; constructor; auto.
      intros v Ev. subst f. destruct (HT p v false (WTop_short_clean p k c v)) as [b Ob].
      destruct (Hag _ _ _ Ob) as [E0 E]. rewrite (Hf v eq_refl) in E. inversion E; subst. exact E0.
    - intros p cs f cs' _ IH HC HT. inversion HC as [| | | |p0 cs0 f0 Hcc Hf]; subst.
      destruct (IH Hcc) as [W C]. { intros j c q w r Hj T. apply (HT q w r). eapply WTop_full; eauto. }
      split; constructor; auto.
      intros v Ev. subst f. destruct (HT p v false (WTop_full_clean p cs v)) as [b Ob].
      destruct (Hag _ _ _ Ob) as [E0 E]. rewrite (Hf v eq_refl) in E. inversion E; subst. exact E0.
    - intros p v b t Hg Hr _ HT. split; [|constructor].
      destruct (HT p v true (WTop_ref p v)) as [b0 Ob].
      destruct (Hag _ _ _ Ob) as [E0 E]. rewrite Hg in E. inversion E; subst b0.
      eapply WRes_ref; eauto.
      apply (ResC_transfer V (fun q w b1 => g0 q w = Some b1) g g0); [auto|].
      apply Res_ResC; auto. intros q w b1 R. apply (Hag q w b1). eapply Hcl; eauto.
    - intros; split; constructor.
    - intros p i c c' t t' _ IHc _ IHt HC HT. inversion HC as [|p0 i0 c0 t0 Hc0 Ht0]; subst.
      destruct (IHc Hc0) as [W1 C1].
      { intros q w r T. apply (HT 0%nat c q w r); [reflexivity|]. rewrite Nat.add_0_r. exact T. }
      destruct (IHt Ht0) as [W2 C2].
      { intros j c1 q w r Hj T. apply (HT (S j) c1 q w r); [exact Hj|]. rewrite Nat.add_succ_r. exact T. }
      split; constructor; auto.
  Qed.

  Lemma lookup_In q (es : list (list nat * snode)) b : lookup V q es = Some b -> In (q, b) es.
  Proof.
    induction es as [|[p b'] es IH]; cbn; [discriminate|].
    destruct (path_eqb q p) eqn:E; auto. intros H. inversion H; subst. apply path_eqb_eq in E. subst. left; auto.
  Qed.

  (* ---------------------------------------------------------------- the canonical commit through hasher.store *)
  (* every clean node and every reference of the working trie is a node of the head root (none if there is no root yet) *)
  Definition derived (g : getter) (chain : list (ver * node)) (n : wnode) : Prop :=
    forall q w r, WTop [] n q w r -> match chain with [] => False | vt :: _ => exists b, RR V g (fst vt) q w b end.

  (* The general form, for any store (pruned or not): `Old` is any set of stored nodes that contains every clean node and
     reference of the working trie, is closed under what resolving them follows, resolves, and does not contain a node
     of version newv.  No freshness of newv is needed beyond that: the commit only changes what the reader answers at
     version newv, and the new root refers to newv only at the paths it writes. *)
  Theorem wstore_general (s : store) name newv big skip n t (Old : list nat -> ver -> snode -> Prop) :
    (forall q w b, Old q w b -> w <> newv /\ sget V s name q w = Some b) ->
    (forall q w b q1 w1 b1, Old q w b -> Reach V (sget V s name) q b q1 w1 b1 -> Old q1 w1 b1) ->
    (forall q w b, Old q w b -> exists t', Res V (sget V s name) q b t') ->
    (forall q w r, WTop [] n q w r -> exists b, Old q w b) ->
    Coh V (sget V s name) [] n -> WRes V (sget V s name) [] n t -> is_inner V n ->
    let es := snd (wstore V big skip newv [] n) in
    let n' := fst (wstore V big skip newv [] n) in
    let g' := sget V (commit V s name newv es) name in
    Res V g' [] (SRef newv) t /\ Coh V g' [] n' /\ WRes V g' [] n' t /\
    (forall q w b, Reach V g' [] (SRef newv) q w b ->
       (w = newv /\ lookup V q es = Some b /\ blob_ok V b) \/ Old q w b).
  Proof.
    intros O1 Old_cl O3 Hder' HC HW Hin es n' g'.
    set (g := sget V s name) in *.
    set (g0 := fun p w => if ver_eqb w newv then None else g p w).
    assert (Old_ne : forall q w b, Old q w b -> w <> newv) by (intros q w b O; apply (O1 q w b O)).
    assert (Old_get : forall q w b, Old q w b -> g0 q w = Some b /\ g q w = Some b).
    { intros q w b O. destruct (O1 q w b O) as [Hn E]. split; auto. unfold g0. rewrite ver_eqb_false by auto. exact E. }
    destruct (coh_wres_transfer g g0 Old Old_get Old_cl [] n t HW HC Hder') as [HW0 HC0].
    assert (Fresh0 : forall p, g0 p newv = None) by (intros p; unfold g0; rewrite ver_eqb_refl; reflexivity).
    destruct (wstore_reads_back_g V g0 newv big skip n t Fresh0 HC0 HW0 Hin) as [R0 [C0' [W0' [Cl Hlk]]]].
    fold es in R0, C0', W0', Hlk. fold n' in C0', W0', Cl.
    set (g0' := with_entries V g0 newv es) in *.
    (* the store after the commit answers everything g0' answers *)
    assert (S2 : sub V g0' g').
    { intros p w b H. unfold g'. rewrite sget_commit. unfold g0', with_entries in H. unfold with_entries.
      destruct (ver_eqb w newv) eqn:E.
      - destruct (lookup V p es); auto. apply ver_eqb_eq in E. subst. rewrite Fresh0 in H. discriminate.
      - unfold g0 in H. rewrite E in H. exact H. }
    assert (Hag : forall q w b, Reach V g0' [] (SRef newv) q w b -> g' q w = Some b).
    { intros q w b R. apply S2. eapply Reach_get; eauto. }
    destruct (resolution_transfer V g0' g' [] (SRef newv) t R0 Hag) as [T1 [T2 _]].
    split; [exact T1|split; [eapply Coh_mono; eauto|split; [eapply WRes_mono; eauto|]]].
    intros q w b R. apply T2 in R.
    assert (NoRef : forall q0, ~ WTop [] n' q0 newv true).
    { intros q0 T. destruct (wstore_wtop big skip newv g0 [] n HC0 _ _ _ T) as [[_ X]|X]; [discriminate|].
      destruct (Hder' _ _ _ X) as [b0 O]. apply (Old_ne _ _ _ O). reflexivity. }
    rewrite <- Cl in R.
    destruct (coh_follow g0' newv [] n' C0' NoRef q w b R) as [[q0 [w0 [r [T [Hne Rr]]]]]|[E [m [Cm [Im Eb]]]]].
    - (* below, or at, a clean node the trie had before *)
      right. destruct (Reach_ref_inv _ _ _ _ _ _ Rr) as [b0 [Hg Hor]].
      destruct (wstore_wtop big skip newv g0 [] n HC0 _ _ _ T) as [[X _]|X]; [contradiction|].
      destruct (Hder' _ _ _ X) as [b0' O].
      assert (Eb : b0' = b0).
      { destruct (Old_get _ _ _ O) as [E0 _]. unfold g0' in Hg. rewrite with_entries_other in Hg by auto.
        rewrite E0 in Hg. inversion Hg; auto. }
      subst b0'.
      destruct Hor as [[-> [-> ->]]|Rb]; auto.
      apply (Old_cl q0 w0 b0); auto.
      (* the sub-resolution below an old node is the same through g0' and g *)
      destruct (O3 _ _ _ O) as [t' Ht'].
      assert (Hag' : forall q1 w1 b1, Reach V g q0 b0 q1 w1 b1 -> g0' q1 w1 = Some b1).
      { intros q1 w1 b1 R1. unfold g0'.
        assert (O1' : Old q1 w1 b1) by (eapply Old_cl; eauto).
        rewrite with_entries_other by (eapply Old_ne; eauto). apply (Old_get _ _ _ O1'). }
      destruct (resolution_transfer V g g0' q0 b0 t' Ht' Hag') as [_ [T2' _]].
      apply T2'. exact Rb.
    - (* written by this commit *)
      left. subst w. split; [reflexivity|]. split.
      + apply Hlk. eapply Reach_get; eauto.
      + subst b. eapply coh_blob_ok; eauto.
  Qed.

  (* wstore_general with Old := the nodes the head root follows *)
  Lemma wstore_head (s : store) name chain P newv big skip n t :
    Inv V s name chain P -> hist_fresh V s name newv -> (P <= fst newv)%N ->
    Coh V (sget V s name) [] n -> WRes V (sget V s name) [] n t -> is_inner V n ->
    derived (sget V s name) chain n ->
    let Old := fun q w b => match chain with [] => False | vt :: _ => RR V (sget V s name) (fst vt) q w b end in
    let es := snd (wstore V big skip newv [] n) in
    let n' := fst (wstore V big skip newv [] n) in
    let g' := sget V (commit V s name newv es) name in
    (forall q w b, Old q w b -> w <> newv) /\
    Res V g' [] (SRef newv) t /\ Coh V g' [] n' /\ WRes V g' [] n' t /\
    (forall q w b, Reach V g' [] (SRef newv) q w b ->
       (w = newv /\ lookup V q es = Some b /\ blob_ok V b) \/ Old q w b).
  Proof.
    intros HI Hfr HP HC HW Hin Hder Old.
    assert (Old_ne : forall q w b, Old q w b -> w <> newv).
    { intros q w b O. unfold Old in O. destruct chain as [|vt chain]; [contradiction|].
      apply (followed_not_fresh V s name (vt :: chain) P newv HI Hfr HP vt (or_introl eq_refl) q w b O). }
    split; [exact Old_ne|]. apply (wstore_general s name newv big skip n t Old); auto.
    - intros q w b O. split; [eapply Old_ne; eauto|]. unfold Old in O. destruct chain; [contradiction|]. eapply Reach_get; eauto.
    - intros q w b q1 w1 b1 O R. unfold Old in *. destruct chain; [contradiction|]. eapply Reach_trans; eauto.
    - intros q w b O. unfold Old in O. destruct chain as [|vt chain]; [contradiction|].
      destruct HI as [_ [HF _]]. rewrite Forall_forall in HF. destruct (HF vt (or_introl eq_refl)) as [HRv _].
      eapply Res_sub; eauto.
    - intros q w r T. specialize (Hder q w r T). unfold Old. destruct chain; [contradiction|]. exact Hder.
  Qed.

  Theorem wstore_links (s : store) name chain P newv big skip n t :
    Inv V s name chain P -> hist_fresh V s name newv -> (P <= fst newv)%N ->
    match chain with [] => True | vt :: _ => (fst (fst vt) < fst newv)%N end ->
    Coh V (sget V s name) [] n -> WRes V (sget V s name) [] n t -> is_inner V n ->
    derived (sget V s name) chain n ->
    let es := snd (wstore V big skip newv [] n) in
    link_cond V s name chain newv es /\ Res V (sget V (commit V s name newv es) name) [] (SRef newv) t.
  Proof.
    intros HI Hfr HP Hlt HC HW Hin Hder es.
    destruct (wstore_head s name chain P newv big skip n t HI Hfr HP HC HW Hin Hder) as (Old_ne & HR & _ & _ & HL).
    split; [|exact HR]. intros q w b R. destruct (HL q w b R) as [X|O]; [left; exact X|right].
    split; [eapply Old_ne; eauto|exact O].
  Qed.

  (* ---------------------------------------------------------------- histories *)
  (* the life of one trie in the store: canonical commits through hasher.store on a working trie derived from the head
     root, any other commit (another trie; a fork of this one at a version fresh in the hist space and not below the
     pruned mark), pruner rounds [base, target) with aligned bounds, base not below the previous target, checkpointing
     the newest canonical root below target through the version-filtered iterator *)
  Inductive History (name : N) : store -> list (ver * node) -> N -> Prop :=
  | H_init s P : (0 < hf V s)%N -> History name s [] P
  | H_commit s chain P newv big skip n t :
      History name s chain P ->
      hist_fresh V s name newv -> (P <= fst newv)%N ->
      match chain with [] => True | vt :: _ => (fst (fst vt) < fst newv)%N end ->
      Coh V (sget V s name) [] n -> WRes V (sget V s name) [] n t -> is_inner V n ->
      derived (sget V s name) chain n ->
      History name (commit V s name newv (snd (wstore V big skip newv [] n))) ((newv, t) :: chain) P
  | H_other s chain P name' v' es :
      History name s chain P ->
      name' <> name \/ (hist_fresh V s name v' /\ (P <= fst v')%N) ->
      History name (commit V s name' v' es) chain P
  | H_prune s newer anchor older P base target cps f nodes :
      History name s (newer ++ anchor :: older) P ->
      (P <= base)%N -> (base <= target)%N -> (base mod hf V s = 0)%N -> (target mod hf V s = 0)%N ->
      Forall (fun vt => (target <= fst (fst vt))%N) newer -> (fst (fst anchor) < target)%N ->
      checkpoint_nodes V f s name (fst anchor) base = Some nodes ->
      cps_for V name cps nodes ->
      History name (prune V s cps base target) (live_after V name newer anchor) target.

  Theorem History_Inv name s chain P : History name s chain P -> Inv V s name chain P.
  Proof.
    induction 1.
    - split; [auto|split; [constructor|exact I]].
    - destruct (wstore_links s name chain P newv big skip n t) as [HL HR]; auto.
      apply Inv_canonical_commit; auto.
    - apply Inv_other_commit; auto.
    - eapply Inv_prune; eauto.
  Qed.

  (* after any history — commits, forks, any number of pruner rounds — every live canonical root
     (after a round: those at or above the target, and for a storage trie also the root the round checkpointed) resolves
     to exactly the trie that its commit denoted *)
  Theorem history_roots_resolve name s chain P v t :
    History name s chain P -> In (v, t) chain -> Res V (sget V s name) [] (SRef v) t.
  Proof.
    intros H I. destruct (History_Inv name s chain P H) as [_ [HF _]].
    rewrite Forall_forall in HF. destruct (HF (v, t) I) as [HR _]. exact HR.
  Qed.

  (* one round, in the shape of the property: every live root resolves to the same trie before and after the round *)
  Theorem prune_round_preserves name s newer anchor older P base target cps f nodes v t :
    History name s (newer ++ anchor :: older) P ->
    (P <= base)%N -> (base <= target)%N -> (base mod hf V s = 0)%N -> (target mod hf V s = 0)%N ->
    Forall (fun vt => (target <= fst (fst vt))%N) newer -> (fst (fst anchor) < target)%N ->
    checkpoint_nodes V f s name (fst anchor) base = Some nodes ->
    cps_for V name cps nodes ->
    In (v, t) (live_after V name newer anchor) ->
    Res V (sget V s name) [] (SRef v) t /\ Res V (sget V (prune V s cps base target) name) [] (SRef v) t.
  Proof.
    intros H HPb Hbt Hab Hat Hnew Hanc Hit Hcps Hin. split.
    - apply (history_roots_resolve name s (newer ++ anchor :: older) P); auto. eapply live_after_sub; eauto.
    - apply (history_roots_resolve name (prune V s cps base target) (live_after V name newer anchor) target); auto.
      eapply H_prune; eauto.
  Qed.

  (* ---------------------------------------------------------------- never silently different: what fails keeps failing *)
  (* an account / index root that does not answer (pruned) does not come back: not by a further round ... *)
  Lemma failed_root_prune (s : store) cps base target name v :
    root_only name = true -> sget V s name [] v = None -> sget V (prune V s cps base target) name [] v = None.
  Proof.
    intros Hr H. rewrite sget_prune. unfold sget in H. cbn [is_root andb] in *. rewrite Hr in *.
    destruct (hist_find V (hist V s) name [] v); [discriminate|].
    destruct (in_deleted V s base target v); reflexivity.
  Qed.

  (* ... nor by a commit of another trie or another version *)
  Lemma failed_root_commit (s : store) name' v' es name v :
    sget V s name [] v = None -> name' <> name \/ v <> v' -> sget V (commit V s name' v' es) name [] v = None.
  Proof. intros H Hne. destruct (commit_other_agrees V s name' v' es name [] v Hne) as [E _]. rewrite E. exact H. Qed.

  (* state below the target: a storage trie is only ever opened through the account trie of its block (state.go), whose
     root is in the deleted partitions — the read fails whatever the deduped space holds for the storage trie *)
  Definition read_through_account (f : nat) (s : store) (acc_ver : ver) (sname : N) (sver : ver) : option node :=
    match open_root V f s 0 acc_ver with
    | Some _ => open_root V f s sname sver
    | None => None
    end.

  Lemma pruned_state_fails f (s : store) cps base target acc_ver sname sver :
    in_deleted V s base target acc_ver = true ->
    read_through_account f (prune V s cps base target) acc_ver sname sver = None.
  Proof.
    intros Hd. unfold read_through_account, open_root.
    destruct f as [|f]; [reflexivity|]. cbn [expand].
    rewrite (pruned_root_fails V s cps base target 0 acc_ver eq_refl Hd). reflexivity.
  Qed.

  Lemma hist_fresh_check (s : store) name v :
    forallb (fun e => negb ((name =? fst (fst (fst e)))%N && ver_eqb v (snd (fst e)))) (hist V s) = true ->
    hist_fresh V s name v.
  Proof.
    intros H p. induction (hist V s) as [|[[[n' p'] v'] b] l IH]; [reflexivity|].
    cbn in H. apply andb_true_iff in H. destruct H as [H1 H2]. cbn [hist_find].
    rewrite (IH H2). destruct (name =? n')%N, (path_eqb p p'), (ver_eqb v v'); cbn in *; auto; discriminate.
  Qed.

  (* history_roots_resolve through the fuel-based reader open_root *)
  Theorem history_roots_open name s chain P v t :
    History name s chain P -> In (v, t) chain ->
    exists f0, forall f, (f0 <= f)%nat -> open_root V f s name v = Some t.
  Proof. intros H I. apply Res_expand. eapply history_roots_resolve; eauto. Qed.

  Theorem prune_round_preserves_open name s newer anchor older P base target cps f nodes v t :
    History name s (newer ++ anchor :: older) P ->
    (P <= base)%N -> (base <= target)%N -> (base mod hf V s = 0)%N -> (target mod hf V s = 0)%N ->
    Forall (fun vt => (target <= fst (fst vt))%N) newer -> (fst (fst anchor) < target)%N ->
    checkpoint_nodes V f s name (fst anchor) base = Some nodes ->
    cps_for V name cps nodes ->
    In (v, t) (live_after V name newer anchor) ->
    exists f0, forall f', (f0 <= f')%nat ->
      open_root V f' s name v = Some t /\ open_root V f' (prune V s cps base target) name v = Some t.
  Proof.
    intros H HPb Hbt Hab Hat Hnew Hanc Hit Hcps Hin.
    destruct (prune_round_preserves name s newer anchor older P base target cps f nodes v t) as [R1 R2]; auto.
    destruct (Res_expand V _ _ _ _ R1) as [f1 E1]. destruct (Res_expand V _ _ _ _ R2) as [f2 E2].
    exists (Nat.max f1 f2). intros f' Hf. split; [apply E1|apply E2]; lia.
  Qed.

  (* ---------------------------------------------------------------- any store, pruned or not *)
  (* commit_preserves_roots without a freshness premise on the reader: a commit of (name, v) changes what the reader
     answers only at version v of trie name, so every root that does not follow a node of that version — any root of
     another trie, and any root of this trie whose followed nodes have other versions — resolves to the same trie, with
     the same fuel *)
  Theorem commit_preserves_roots_any f (s : store) name v es name' v' t :
    open_root V f s name' v' = Some t ->
    name' <> name \/ (forall q w b, Reach V (sget V s name') [] (SRef v') q w b -> w <> v) ->
    open_root V f (commit V s name v es) name' v' = Some t.
  Proof.
    intros H Hc. unfold open_root in *. apply (expand_agree V f (sget V s name')); auto.
    intros q w b R.
    assert (Hne : name <> name' \/ w <> v) by (destruct Hc as [Hc|Hc]; [left; congruence|right; eapply Hc; eauto]).
    destruct (commit_other_agrees V s name v es name' q w Hne) as [E _]. rewrite E. eapply Reach_get; eauto.
  Qed.

  (* caches: a cache that agrees with the store on the nodes a root follows is invisible for that root ... *)
  Theorem cache_invisible_on_followed f (cache g : getter) p n t :
    expand V f g p n = Some t ->
    (forall q w b b', Reach V g p n q w b -> cache q w = Some b' -> b' = b) ->
    expand V f (cached_get V cache g) p n = Some t.
  Proof.
    intros H Hc. apply (expand_agree V f g); auto.
    intros q w b R. unfold cached_get. destruct (cache q w) as [b'|] eqn:E.
    - f_equal. eapply Hc; eauto.
    - eapply Reach_get; eauto.
  Qed.

  (* ... in particular a cache filled before a pruner round (coherent with the store then, and not flushed by the round —
     the real node cache survives the round and may still hold deleted hist nodes) is invisible for every live root after it *)
  Theorem cache_survives_round name s newer anchor older P base target cps f nodes (cache : getter) v t :
    History name s (newer ++ anchor :: older) P ->
    (P <= base)%N -> (base <= target)%N -> (base mod hf V s = 0)%N -> (target mod hf V s = 0)%N ->
    Forall (fun vt => (target <= fst (fst vt))%N) newer -> (fst (fst anchor) < target)%N ->
    checkpoint_nodes V f s name (fst anchor) base = Some nodes ->
    cps_for V name cps nodes ->
    cache_coherent V cache (sget V s name) ->
    In (v, t) (live_after V name newer anchor) ->
    Res V (cached_get V cache (sget V (prune V s cps base target) name)) [] (SRef v) t.
  Proof.
    intros H HPb Hbt Hab Hat Hnew Hanc Hit Hcps Hcoh Hin.
    pose proof (History_Inv _ _ _ _ H) as HI.
    assert (HR : Res V (sget V s name) [] (SRef v) t).
    { destruct (prune_round_preserves name s newer anchor older P base target cps f nodes v t) as [R1 _]; auto. }
    destruct (resolution_transfer V (sget V s name) (cached_get V cache (sget V (prune V s cps base target) name)) [] (SRef v) t HR) as [T _]; auto.
    intros q w b R. unfold cached_get. destruct (cache q w) as [b'|] eqn:E.
    - pose proof (Hcoh q w b' E) as X. pose proof (Reach_get V _ _ _ _ _ _ R) as Y. congruence.
    - apply (prune_agrees V s name P base target cps newer anchor older f nodes HI HPb Hbt Hab Hnew Hit Hcps (v, t) Hin q w b R).
  Qed.
End PL.
