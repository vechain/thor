(* Bft/ProofsOrder.v — C04, "agree on finality": the finalized checkpoint is a function of the SET of stored
   blocks for consistent trees (all finalizing blocks — committed store points of quality > 1 — lie on one chain):
   it is the checkpoint of the first epoch, on the chain of the highest finalizing block B, whose store point carries
   quality Q_B - 1 (genesis if there is no finalizing block).  Chains, qualities and per-block states do not depend on the
   order in which the blocks were stored. *)
From Coq Require Import List NArith ZArith Bool Lia.
From Coq Require Import ZifyN ZifyNat ZifyBool.
From Verif Require Import Common.Util Bft.Tree Bft.Model Bft.Quorum Bft.ProofsTally Bft.ProofsChain Bft.ProofsSearch
  Bft.ProofsSuffix Bft.ProofsNode Bft.ProofsFinal Bft.ProofsCommit Bft.ProofsFind Bft.ProofsLive2 Bft.ProofsVote
  Bft.ProofsMonotone Bft.ProofsTree2.
Import ListNotations.
Open Scope N_scope.

Lemma chain_head_id r : forall id x t, chain_of r id = x :: t -> b_id x = id /\ In x r.
Proof.
  induction r as [|b r IH]; intros id x t H; [discriminate|]. cbn [chain_of] in H.
  destruct (b_id b =? id) eqn:E.
  - inversion H; subst. apply N.eqb_eq in E. split; [exact E | left; reflexivity].
  - destruct (IH _ _ _ H) as [A B]. split; [exact A | right; exact B].
Qed.

Lemma chain_of_set_eq r1 r2 id : wf_repo r1 -> wf_repo r2 -> (forall x, In x r1 <-> In x r2) -> chain_of r1 id = chain_of r2 id.
Proof.
  intros W1 W2 H. destruct (known r1 id) eqn:K1.
  - apply known_find in K1. destruct K1 as [x Hx]. destruct (find_blk_id _ _ _ Hx) as [<- Hin].
    apply sub_chain; [exact W1 | exact W2 | intros z Hz; apply H; exact Hz | exact Hin].
  - rewrite (chain_of_unknown r1 id K1). symmetry. apply chain_of_unknown.
    destruct (known r2 id) eqn:K2; [|reflexivity]. apply known_find in K2. destruct K2 as [x Hx].
    destruct (find_blk_id _ _ _ Hx) as [<- Hin]. rewrite (known_in r1 x (proj2 (H x) Hin)) in K1. discriminate.
Qed.

(* a block with number 0 of a well-formed repository is its root *)
Lemma zero_is_root r : wf_repo r -> forall x d, In x r -> b_num x = 0 -> x = last r d.
Proof.
  induction r as [|b r IH]; intros Hwf x d Hin H0; [destruct Hin|].
  cbn in Hwf. destruct Hwf as [Hwf [_ Hpar]]. destruct r as [|r0 rr].
  - destruct Hin as [<-|[]]. reflexivity.
  - change (last (b :: r0 :: rr) d) with (last (r0 :: rr) d). destruct Hin as [<-|Hin]; [|exact (IH Hwf x d Hin H0)].
    destruct Hpar as [p [_ Hn]]. lia.
Qed.

Section Order.
Variable c : cfg.
Hypothesis HL : 0 < c_L c.
Notation L := (c_L c).

Definition finalizing (r : repo) (B : blk) : Prop :=
  In B r /\ storepoint L (b_num B) = b_num B /\
  s_comm (state_pure c (chain_of r (b_id B))) = true /\ 1 < quality_pure c (chain_of r (b_id B)).

Definition first_epoch (r : repo) (B : blk) (j : N) : Prop :=
  q_epoch c r (b_id B) j = quality_pure c (chain_of r (b_id B)) - 1 /\
  forall k, k < j -> q_epoch c r (b_id B) k < quality_pure c (chain_of r (b_id B)) - 1.

(* all finalizing blocks lie on one chain *)
Definition consistent (r : repo) : Prop :=
  forall B1 B2, finalizing r B1 -> finalizing r B2 ->
    has_block r (b_id B1) (b_id B2) = true \/ has_block r (b_id B2) (b_id B1) = true.

(* finalized as a function of the stored set *)
Definition fin_char (r : repo) (fin : N) : Prop :=
  ((forall B, ~ finalizing r B) /\ exists g, In g r /\ b_num g = 0 /\ fin = b_id g) \/
  (exists B j y, finalizing r B /\ (forall B', finalizing r B' -> b_num B' <= b_num B) /\
                 first_epoch r B j /\ block_at r (b_id B) (j * L) = Some y /\ b_num y = j * L /\ fin = b_id y).

Lemma finalizing_set_eq r1 r2 B : wf_repo r1 -> wf_repo r2 -> (forall x, In x r1 <-> In x r2) ->
  finalizing r1 B -> finalizing r2 B.
Proof.
  intros W1 W2 H [Hin [Hsp [Hc HQ]]]. unfold finalizing. rewrite <- (chain_of_set_eq r1 r2 _ W1 W2 H).
  split; [apply H; exact Hin | tauto].
Qed.

(* two blocks of one chain with the same number are the same block *)
Lemma same_number_same_block r B1 B2 : wf_repo r -> In B1 r -> In B2 r -> b_num B1 = b_num B2 ->
  has_block r (b_id B1) (b_id B2) = true -> B1 = B2.
Proof.
  intros Hwf H1 H2 Hn Hh. apply (stored_unique r B1 B2 Hwf H1 H2).
  destruct (chain_of_in r B1 Hwf H1) as [t [Ht _]]. unfold has_block, chain_has, at_num in Hh. rewrite Ht in Hh.
  change (idnum (b_id B2)) with (b_num B2) in Hh. cbn [find] in Hh. rewrite Hn, N.eqb_refl in Hh. apply N.eqb_eq. exact Hh.
Qed.

Theorem fin_char_unique r1 r2 f1 f2 : wf_repo r1 -> wf_repo r2 -> (forall x, In x r1 <-> In x r2) -> consistent r1 ->
  fin_char r1 f1 -> fin_char r2 f2 -> f1 = f2.
Proof.
  intros W1 W2 Hset Hcons C1 C2.
  assert (Hset' : forall x, In x r2 <-> In x r1) by (intros x; symmetry; apply Hset).
  destruct C1 as [[Hno1 [g1 [Hg1 [Hz1 ->]]]] | [B1 [j1 [y1 [HB1 [Hmax1 [[Hq1 Hmin1] [Hy1 [_ ->]]]]]]]]];
  destruct C2 as [[Hno2 [g2 [Hg2 [Hz2 ->]]]] | [B2 [j2 [y2 [HB2 [Hmax2 [[Hq2 Hmin2] [Hy2 [_ ->]]]]]]]]].
  - f_equal. rewrite (zero_is_root r1 W1 g1 g1 Hg1 Hz1). symmetry. apply (zero_is_root r1 W1 g2 g1); [apply Hset; exact Hg2 | exact Hz2].
  - exfalso. apply (Hno1 B2). apply (finalizing_set_eq r2 r1); assumption.
  - exfalso. apply (Hno2 B1). apply (finalizing_set_eq r1 r2); assumption.
  - pose proof (finalizing_set_eq r2 r1 B2 W2 W1 Hset' HB2) as HB2'.
    pose proof (finalizing_set_eq r1 r2 B1 W1 W2 Hset HB1) as HB1'.
    assert (Hn : b_num B1 = b_num B2). { pose proof (Hmax1 B2 HB2'). pose proof (Hmax2 B1 HB1'). lia. }
    assert (HB : B1 = B2).
    { destruct (Hcons B1 B2 HB1 HB2') as [Hh|Hh].
      - apply (same_number_same_block r1 B1 B2 W1 (proj1 HB1) (proj1 HB2') Hn Hh).
      - symmetry. apply (same_number_same_block r1 B2 B1 W1 (proj1 HB2') (proj1 HB1) (eq_sym Hn) Hh). }
    subst B2.
    pose proof (chain_of_set_eq r1 r2 (b_id B1) W1 W2 Hset) as Ech.
    unfold q_epoch in *. rewrite <- Ech in Hq2, Hmin2.
    assert (Hj : j1 = j2).
    { destruct (N.lt_trichotomy j1 j2) as [Hlt|[E|Hgt]]; [|exact E|].
      - specialize (Hmin2 j1 Hlt). lia.
      - specialize (Hmin1 j2 Hgt). lia. }
    subst j2. unfold block_at in *. rewrite <- Ech in Hy2. rewrite Hy1 in Hy2. inversion Hy2. reflexivity.
Qed.

Lemma fresh_ne b r B : wf_repo (b :: r) -> In B r -> b_id b <> b_id B.
Proof. intros [_ [Hf _]] Hin. exact (fresh_not_in r _ B Hf Hin). Qed.

Lemma finalizing_fresh b r B : wf_repo (b :: r) -> In B r -> (finalizing (b :: r) B <-> finalizing r B).
Proof.
  intros Hwf Hin. unfold finalizing. rewrite (chain_of_fresh b r (b_id B) (fresh_ne b r B Hwf Hin)).
  split; intros [H1 H2]; (split; [|exact H2]); [exact Hin | right; exact Hin].
Qed.

(* the per-epoch qualities of an ancestor store point are those of the descendant's chain *)
Lemma q_epoch_ancestor r b B k kB : wf_repo r -> In b r -> In B r -> has_block r (b_id b) (b_id B) = true ->
  b_num B = kB * L + L - 1 -> k <= kB -> q_epoch c r (b_id B) k = q_epoch c r (b_id b) k.
Proof.
  intros Hwf Hb HB Hh HnB Hk. destruct (ancestor_suffix r (b_id b) B Hwf Hh) as [l1 E].
  destruct (chain_of_in r b Hwf Hb) as [t [Ht Hg]]. destruct (chain_of_in r B Hwf HB) as [tB [HtB _]].
  unfold q_epoch. rewrite E, HtB. symmetry. f_equal. apply suffix_at_skip; [rewrite <- HtB, <- E, Ht; exact Hg | rewrite HnB; nia].
Qed.

Lemma block_at_epoch_le r B j y : wf_repo r -> In B r -> block_at r (b_id B) (j * L) = Some y -> j <= b_num B / L.
Proof.
  intros Hwf HB Hy. destruct (block_at_num _ _ _ _ Hy) as [Hyn Hyin]. pose proof (chain_num_le r B y Hwf HB Hyin).
  apply N.div_le_lower_bound; lia.
Qed.

(* in a consistent repository a finalizing block stored earlier is an ancestor of a fresh finalizing block, in an
   earlier epoch *)
Lemma prev_finalizing_below b r B : wf_repo (b :: r) -> consistent (b :: r) -> finalizing (b :: r) b -> finalizing r B ->
  has_block (b :: r) (b_id b) (b_id B) = true /\ b_num B < b_num b /\ b_num B / L < b_num b / L.
Proof.
  intros Hwf' Hcons Hfz HB. pose proof (proj1 HB) as HBin. pose proof (fresh_ne b r B Hwf' HBin) as Hne.
  assert (Hbin' : In b (b :: r)) by (left; reflexivity). assert (HBin' : In B (b :: r)) by (right; exact HBin).
  assert (Hanc : has_block (b :: r) (b_id b) (b_id B) = true).
  { destruct (Hcons b B Hfz (proj2 (finalizing_fresh b r B Hwf' HBin) HB)) as [H|H]; [exact H|]. exfalso.
    destruct (has_block_stored _ _ _ H) as [x [Hx Hxid]]. rewrite (chain_of_fresh b r (b_id B) Hne) in Hx.
    destruct Hwf' as [_ [Hfresh _]]. exact (fresh_not_in r _ x Hfresh (chain_incl _ _ _ Hx) (eq_sym Hxid)). }
  assert (Hnum : b_num B < b_num b).
  { pose proof (has_block_num (b :: r) b B Hwf' Hbin' HBin' Hanc) as Hle.
    destruct (N.eq_dec (b_num b) (b_num B)) as [E|E]; [|lia].
    contradiction Hne. f_equal. exact (same_number_same_block (b :: r) b B Hwf' Hbin' HBin' E Hanc). }
  split; [exact Hanc|]. split; [exact Hnum|].
  pose proof (storepoint_form L HL _ (proj1 (proj2 HB))) as HkB. pose proof (storepoint_form L HL _ (proj1 (proj2 Hfz))) as Hkb.
  pose proof (N.div_le_mono (b_num B) (b_num b) L ltac:(lia) ltac:(lia)) as Hle.
  destruct (N.eq_dec (b_num B / L) (b_num b / L)) as [E|E]; [rewrite E in HkB; lia | lia].
Qed.
End Order.
