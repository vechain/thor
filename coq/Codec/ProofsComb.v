(* Codec/ProofsComb.v — correctness of the codec combinators and primitive codecs:
   sound    : dec b = Some (x, r) -> b = enc x ++ r /\ wfp x      (what is accepted is exactly the encoding of what it yields)
   complete : wfp x -> dec (enc x ++ r) = Some (x, r)            (every well-formed value round-trips, whatever follows) *)
From Coq Require Import List NArith ZArith Bool Lia.
From Coq Require Import ZifyN ZifyNat ZifyBool.
From Verif Require Import Codec.Model Codec.ProofsRLP.
Import ListNotations.
Open Scope N_scope.

Definition sound {A} (c : codec A) : Prop := forall b x r, dec c b = Some (x, r) -> b = enc c x ++ r /\ wfp c x.
Definition complete {A} (c : codec A) : Prop := forall x r, wfp c x -> dec c (enc c x ++ r) = Some (x, r).
Definition codec_ok {A} (c : codec A) : Prop := sound c /\ complete c.
Definition nonempty {A} (c : codec A) : Prop := forall x, wfp c x -> enc c x <> [].

Lemma codec_inj {A} (c : codec A) x y : codec_ok c -> wfp c x -> wfp c y -> enc c x = enc c y -> x = y.
Proof.
  intros [_ Hc] Hx Hy E. pose proof (Hc x [] Hx) as H1. pose proof (Hc y [] Hy) as H2. rewrite E in H1. congruence.
Qed.
Lemma codec_inj_app {A} (c : codec A) x y r r' : codec_ok c -> wfp c x -> wfp c y -> enc c x ++ r = enc c y ++ r' -> x = y /\ r = r'.
Proof.
  intros [_ Hc] Hx Hy E. pose proof (Hc x r Hx) as H1. pose proof (Hc y r' Hy) as H2. rewrite E in H1.
  rewrite H1 in H2. inversion H2. tauto.
Qed.

Lemma dec_exact_sound {A} (c : codec A) b x : sound c -> dec_exact c b = Some x -> b = enc c x /\ wfp c x.
Proof.
  intros Hs. unfold dec_exact. destruct (dec c b) as [[y [|? ?]]|] eqn:E; try discriminate.
  intros H. inversion H; subst. apply Hs in E. rewrite app_nil_r in E. exact E.
Qed.
Lemma dec_exact_enc {A} (c : codec A) b x : codec_ok c -> dec_exact c b = Some x -> b = enc c x.
Proof. intros [S _] H. exact (proj1 (dec_exact_sound c b x S H)). Qed.
Lemma dec_exact_complete {A} (c : codec A) x : complete c -> wfp c x -> dec_exact c (enc c x) = Some x.
Proof. intros Hc Hx. unfold dec_exact. specialize (Hc x [] Hx). rewrite app_nil_r in Hc. rewrite Hc. reflexivity. Qed.

(* completeness when r follows; a codec that may encode to nothing (the header extension) has it only for r = [] *)
Definition complete_at {A} (c : codec A) (r : bytes) : Prop := forall x, wfp c x -> dec c (enc c x ++ r) = Some (x, r).

Lemma cpair_sound {A B} (ca : codec A) (cb : codec B) : sound ca -> sound cb -> sound (cpair ca cb).
Proof.
  intros Sa Sb b [x y] r. cbn [dec cpair enc wfp fst snd].
  destruct (dec ca b) as [[x' r1]|] eqn:E1; [|discriminate].
  destruct (dec cb r1) as [[y' r2]|] eqn:E2; [|discriminate].
  intros H. inversion H; subst. apply Sa in E1. apply Sb in E2. destruct E1 as [-> Wx]. destruct E2 as [-> Wy].
  rewrite app_assoc. tauto.
Qed.
Lemma cpair_complete_at {A B} (ca : codec A) (cb : codec B) r : complete ca -> complete_at cb r -> complete_at (cpair ca cb) r.
Proof.
  intros Ca Cb [x y] [Wx Wy]. cbn [dec cpair enc wfp fst snd] in *. rewrite <- app_assoc, (Ca x _ Wx), (Cb y Wy). reflexivity.
Qed.
Lemma cpair_ok {A B} (ca : codec A) (cb : codec B) : codec_ok ca -> codec_ok cb -> codec_ok (cpair ca cb).
Proof.
  intros [Sa Ca] [Sb Cb]. split; [apply cpair_sound; assumption|].
  intros x r. apply cpair_complete_at; [exact Ca|]. intros y. apply Cb.
Qed.
Lemma cpair_nonempty_l {A B} (ca : codec A) (cb : codec B) : nonempty ca -> nonempty (cpair ca cb).
Proof. intros H [x y] [Wx _] E. cbn in E. apply app_eq_nil in E. destruct E as [E _]. exact (H x Wx E). Qed.

Lemma cpmap_ok {A B} (f : A -> option B) (g : B -> A) (c : codec A) :
  (forall a y, wfp c a -> f a = Some y -> g y = a) -> codec_ok c -> codec_ok (cpmap f g c).
Proof.
  intros Hfg [S C]. split.
  - intros b y r. cbn [dec cpmap enc wfp].
    destruct (dec c b) as [[a r1]|] eqn:E1; [|discriminate]. destruct (f a) as [y'|] eqn:E2; [|discriminate].
    intros H. inversion H; subst. apply S in E1. destruct E1 as [-> Wa]. rewrite (Hfg a y Wa E2). tauto.
  - intros y r [Wy Fy]. cbn [dec cpmap enc wfp] in *. rewrite (C _ _ Wy), Fy. reflexivity.
Qed.
Lemma cpmap_nonempty {A B} (f : A -> option B) (g : B -> A) (c : codec A) : nonempty c -> nonempty (cpmap f g c).
Proof. intros H y [Wy _]. cbn. apply H. exact Wy. Qed.
Lemma cmap_ok {A B} (f : A -> B) (g : B -> A) (c : codec A) : (forall a, g (f a) = a) -> codec_ok c -> codec_ok (cmap f g c).
Proof. intros H. apply cpmap_ok. intros a y _ E. inversion E; subst. apply H. Qed.

Lemma enc_list_head p : enc_list p = enc_head KList p ++ p.
Proof. reflexivity. Qed.
Lemma enc_list_nonempty p : enc_list p <> [].
Proof. unfold enc_list. destruct (enc_len_first 192 (lenN p)) as (h & t & -> & _). discriminate. Qed.

Lemma shead_list p r : lenN p < two64 -> shead (enc_list p ++ r) = Some (KList, p, r).
Proof. intros H. rewrite enc_list_head, <- app_assoc. apply shead_complete. exact H. Qed.
Lemma shead_list_end p : lenN p < two64 -> shead (enc_list p) = Some (KList, p, []).
Proof. intros H. rewrite <- (app_nil_r (enc_list p)). apply shead_list, H. Qed.

Lemma cwrap_sound {A} (c : codec A) : sound c -> sound (cwrap c).
Proof.
  intros S b x r. cbn [dec cwrap enc wfp].
  destruct (shead b) as [[[k p] r1]|] eqn:E; [|discriminate]. destruct k; try discriminate.
  destruct (dec c p) as [[x' [|? ?]]|] eqn:E2; try discriminate.
  intros H. inversion H; subst. apply shead_sound in E. destruct E as [-> Hk]. apply S in E2. destruct E2 as [E2 Wx].
  rewrite app_nil_r in E2. subst p. rewrite enc_list_head, <- app_assoc. cbn [hok] in Hk. unfold two64 in Hk. tauto.
Qed.
(* the payload of a list is followed by nothing *)
Lemma cwrap_complete {A} (c : codec A) : complete_at c [] -> complete (cwrap c).
Proof.
  intros C x r [Wx Hl]. cbn [dec cwrap enc wfp] in *. rewrite shead_list by exact Hl.
  specialize (C x Wx). rewrite app_nil_r in C. rewrite C. reflexivity.
Qed.
Lemma cwrap_ok {A} (c : codec A) : codec_ok c -> codec_ok (cwrap c).
Proof. intros [S C]. split; [apply cwrap_sound, S|]. apply cwrap_complete. intros x. apply C. Qed.
Lemma cwrap_nonempty {A} (c : codec A) : nonempty (cwrap c).
Proof. intros x _. apply enc_list_nonempty. Qed.

Lemma dec_elems_step {A} (d : parser A) g p : p <> [] ->
  dec_elems d (S g) p = match d p with
                        | Some (x, p') => match dec_elems d g p' with Some l => Some (x :: l) | None => None end
                        | None => None end.
Proof. destruct p; [congruence|reflexivity]. Qed.

Lemma dec_elems_sound {A} (c : codec A) : sound c ->
  forall g p l, dec_elems (dec c) g p = Some l -> p = concat (map (enc c) l) /\ Forall (wfp c) l.
Proof.
  intros S. induction g as [|g IH]; intros p l H.
  - destruct p; [|discriminate]. inversion H; subst. split; [reflexivity|constructor].
  - destruct p as [|b0 p0]; [inversion H; subst; split; [reflexivity|constructor]|].
    rewrite dec_elems_step in H by discriminate.
    destruct (dec c (b0 :: p0)) as [[x p']|] eqn:E; [|discriminate].
    destruct (dec_elems (dec c) g p') as [l'|] eqn:E2; [|discriminate].
    inversion H; subst. apply S in E. destruct E as [E Wx]. apply IH in E2. destruct E2 as [-> Wl].
    cbn [map concat]. split; [exact E|constructor; assumption].
Qed.
Lemma dec_elems_complete {A} (c : codec A) : complete c -> nonempty c ->
  forall l, Forall (wfp c) l -> forall g, (length (concat (map (enc c) l)) <= g)%nat ->
  dec_elems (dec c) g (concat (map (enc c) l)) = Some l.
Proof.
  intros C NE. induction l as [|x l IH]; intros W g Hg.
  - destruct g; reflexivity.
  - inversion W as [|? ? Wx Wl]; subst. cbn [map concat] in *.
    assert (Hne : enc c x <> []) by (apply NE; exact Wx).
    rewrite app_length in Hg. destruct (enc c x) as [|e0 ex] eqn:Ex; [congruence|].
    destruct g as [|g]; [cbn in Hg; lia|].
    rewrite dec_elems_step by discriminate. rewrite <- Ex, (C x _ Wx), IH; [reflexivity|exact Wl|].
    cbn [length] in Hg. lia.
Qed.

Lemma cslice_ok {A} (c : codec A) : codec_ok c -> nonempty c -> codec_ok (cslice c).
Proof.
  intros [S C] NE. split.
  - intros b l r. cbn [dec cslice enc wfp].
    destruct (shead b) as [[[k p] r1]|] eqn:E; [|discriminate]. destruct k; try discriminate.
    destruct (dec_elems (dec c) (length p) p) as [l'|] eqn:E2; [|discriminate].
    intros H. inversion H; subst. apply shead_sound in E. destruct E as [-> Hk].
    apply (dec_elems_sound c S) in E2. destruct E2 as [E2 Wl]. cbn [hok] in Hk. subst p. unfold two64 in Hk.
    rewrite enc_list_head, <- app_assoc. tauto.
  - intros l r [Wl Hl]. cbn [dec cslice enc wfp] in *.
    rewrite shead_list by exact Hl. rewrite (dec_elems_complete c C NE l Wl); [reflexivity|lia].
Qed.
Lemma cslice_nonempty {A} (c : codec A) : nonempty (cslice c).
Proof. intros x _. apply enc_list_nonempty. Qed.

Lemma single_low_true c : single_low c = true -> exists x, c = [x] /\ x < 128.
Proof. destruct c as [|x [|? ?]]; try discriminate. cbn. intros H. exists x. split; [reflexivity|lia]. Qed.
Lemma enc_str_high c : single_low c = false -> enc_str c = enc_head KStr c ++ c.
Proof.
  destruct c as [|x [|y t]]; try reflexivity. cbn [single_low enc_str]. intros H. rewrite H. reflexivity.
Qed.
Lemma enc_str_low x : x < 128 -> enc_str [x] = [x].
Proof. intros H. cbn. destruct (x <? 128) eqn:E; [reflexivity|lia]. Qed.

Lemma shead_str s r : lenN s < two64 -> shead (enc_str s ++ r) = Some (if single_low s then KByte else KStr, s, r).
Proof.
  intros H. destruct (single_low s) eqn:Es.
  - apply single_low_true in Es. destruct Es as [y [-> Hy]]. rewrite enc_str_low by exact Hy.
    cbn [app shead]. destruct (y <? 128) eqn:E; [reflexivity|lia].
  - rewrite enc_str_high, <- app_assoc by exact Es. apply (shead_complete KStr). exact H.
Qed.
Lemma enc_str_nonempty s : enc_str s <> [].
Proof.
  destruct (single_low s) eqn:Es.
  - apply single_low_true in Es. destruct Es as [y [-> Hy]]. rewrite enc_str_low by exact Hy. discriminate.
  - rewrite enc_str_high by exact Es. intros E. apply app_eq_nil in E.
    exact (enc_head_nonempty KStr s ltac:(discriminate) (proj1 E)).
Qed.

Lemma c_bytes_ok : codec_ok c_bytes.
Proof.
  split.
  - intros b x r. cbn [dec c_bytes enc wfp].
    destruct (shead b) as [[[k c] r1]|] eqn:E; [|discriminate]. apply shead_sound in E. destruct E as [-> Hk].
    destruct k; try discriminate.
    + intros H. inversion H; subst. destruct Hk as [y [-> Hy]]. rewrite enc_str_low by exact Hy.
      split; [reflexivity|]. cbn. unfold two64. lia.
    + destruct (single_low c) eqn:Es; [discriminate|]. intros H. inversion H; subst.
      rewrite enc_str_high by exact Es. rewrite <- app_assoc. split; [reflexivity|exact Hk].
  - intros x r Hx. cbn [dec c_bytes enc wfp] in *. rewrite shead_str by exact Hx. destruct (single_low x); reflexivity.
Qed.
Lemma c_bytes_nonempty : nonempty c_bytes.
Proof. intros x _. apply enc_str_nonempty. Qed.

Lemma c_uint_ok n : codec_ok (c_uint n).
Proof.
  apply cpmap_ok; [|apply c_bytes_ok]. intros a y _. destruct (canon_int a) eqn:E; [|discriminate].
  destruct (lenN a <=? n); [|discriminate]. cbn. intros H. inversion H. apply be_bytes_be_val. exact E.
Qed.
Lemma c_big_ok : codec_ok c_big.
Proof.
  apply cpmap_ok; [|apply c_bytes_ok]. intros a y _. destruct (canon_int a) eqn:E; [|discriminate].
  intros H. inversion H. apply be_bytes_be_val. exact E.
Qed.
Lemma c_bool_ok : codec_ok c_bool.
Proof.
  apply cpmap_ok; [|apply c_uint_ok]. intros a y _. destruct (a =? 0) eqn:E0.
  - intros H. inversion H. lia.
  - destruct (a =? 1) eqn:E1; [|discriminate]. intros H. inversion H. lia.
Qed.

(* readable sufficient conditions for the integer codecs *)
Lemma c_uint_wf k n : k <= 8 -> n < 256 ^ k -> wfp (c_uint k) n.
Proof.
  intros Hk Hn. cbn [wfp c_uint cpmap c_bytes]. pose proof (be_bytes_len n k Hn) as Hl. split.
  - unfold two64 in *. lia.
  - rewrite be_bytes_canon, be_val_be_bytes. destruct (lenN (be_bytes n) <=? k) eqn:E; [reflexivity|lia].
Qed.
Lemma c_uint_wf_inv k n : wfp (c_uint k) n -> n < 256 ^ k.
Proof.
  cbn [wfp c_uint cpmap c_bytes]. intros [_ H]. destruct (canon_int (be_bytes n)) eqn:Ec; [|discriminate].
  destruct (lenN (be_bytes n) <=? k) eqn:E; [|discriminate]. cbn in H.
  unfold canon_int in Ec. apply andb_prop in Ec. destruct Ec as [Hok _].
  pose proof (be_val_bound _ Hok) as Hb. rewrite be_val_be_bytes in Hb.
  assert (256 ^ lenN (be_bytes n) <= 256 ^ k) by (apply N.pow_le_mono_r; lia). lia.
Qed.
Lemma c_big_wf n : n < 2 ^ 256 -> wfp c_big n.
Proof.
  intros Hn. cbn [wfp c_big cpmap c_bytes]. assert (Hl : lenN (be_bytes n) <= 32) by (apply be_bytes_len; exact Hn). split.
  - unfold two64. lia.
  - rewrite be_bytes_canon, be_val_be_bytes. reflexivity.
Qed.
Lemma c_bool_wf b : wfp c_bool b.
Proof.
  cbn [wfp c_bool cpmap]. split; [apply c_uint_wf; destruct b; cbn; lia|]. destruct b; reflexivity.
Qed.

Lemma shead_fixed n (a r : bytes) : lenN a = n -> n < 56 -> shead ((128 + n) :: a ++ r) = Some (KStr, a, r).
Proof.
  intros <- Hn. change ((128 + lenN a) :: a ++ r) with ([128 + lenN a] ++ a ++ r).
  replace [128 + lenN a] with (enc_head KStr a); [apply shead_complete; cbn [hok]; unfold two64; lia|].
  cbn [enc_head]. unfold enc_len. destruct (lenN a <? 56) eqn:E; [reflexivity|lia].
Qed.

Lemma c_fixed_ok n : n < 56 -> codec_ok (c_fixed n).
Proof.
  intros Hn. split.
  - intros b x r. cbn [dec c_fixed enc wfp].
    destruct (shead b) as [[[k c] r1]|] eqn:E; [|discriminate]. apply shead_sound in E. destruct E as [-> Hk].
    destruct k; try discriminate. destruct (lenN c =? n) eqn:El; [|discriminate].
    intros H. inversion H; subst. cbn [enc_head]. unfold enc_len. destruct (lenN x <? 56) eqn:E56; [|lia].
    cbn [app]. split; [f_equal; f_equal; lia|lia].
  - intros x r Hx. cbn [dec c_fixed enc wfp app] in *. rewrite shead_fixed by lia.
    destruct (lenN x =? n) eqn:El; [reflexivity|lia].
Qed.
Lemma c_fixed_nonempty n : nonempty (c_fixed n).
Proof. intros x _ E. cbn [enc c_fixed] in E. discriminate. Qed.

Lemma c_raw_ok : codec_ok c_raw.
Proof.
  split.
  - intros b x r. cbn [dec c_raw enc wfp].
    destruct (shead b) as [[[k c] r1]|] eqn:E; [|discriminate]. intros H. inversion H; subst.
    apply shead_sound in E. destruct E as [-> Hk]. split; [rewrite <- app_assoc; reflexivity|].
    exists k, c. pose proof (shead_complete k c [] Hk) as Hc. rewrite app_nil_r in Hc. exact Hc.
  - intros x r [k [c Hx]]. cbn [dec c_raw enc wfp]. rewrite (shead_app _ _ _ _ r Hx). cbn [app].
    apply shead_sound in Hx. destruct Hx as [Hx _]. rewrite app_nil_r in Hx. rewrite <- Hx. reflexivity.
Qed.
Lemma c_raw_nonempty : nonempty c_raw.
Proof. intros x [k [c H]] E. cbn [enc c_raw] in E. subst. cbn in H. discriminate. Qed.

Lemma c_nilable_ok n : 2 <= n < 56 -> codec_ok (c_nilable n).
Proof.
  intros Hn. destruct (c_fixed_ok n (proj2 Hn)) as [Sf Cf]. split.
  - (* the two empty forms are nil; everything else is left to c_fixed *)
    assert (Hf : forall b x r, match dec (c_fixed n) b with Some (a, r) => Some (Ptr a, r) | None => None end = Some (x, r) ->
                 b = enc (c_nilable n) x ++ r /\ wfp (c_nilable n) x).
    { intros b x r. destruct (dec (c_fixed n) b) as [[a r2]|] eqn:E2; [|discriminate].
      intros H. inversion H; subst. apply Sf in E2. exact E2. }
    intros b x r. cbn [dec c_nilable]. destruct (shead b) as [[[[] [|? ?]] r1]|] eqn:E; try apply Hf;
      intros H; inversion H; subst; apply shead_sound in E; destruct E as [-> _]; (split; [reflexivity|exact I]).
  - intros x r Hx. cbn [dec c_nilable enc wfp] in *. destruct x as [| |a].
    + change ([128] ++ r) with (enc_head KStr [] ++ [] ++ r). rewrite shead_complete by (cbn; unfold two64; lia). reflexivity.
    + change ([192] ++ r) with (enc_head KList [] ++ [] ++ r). rewrite shead_complete by (cbn; unfold two64; lia). reflexivity.
    + pose proof (Cf a r Hx) as Hd. cbn [enc c_fixed] in *. cbn [app] in *.
      rewrite shead_fixed by (cbn [wfp c_fixed] in Hx; lia). destruct a as [|a0 at']; [cbn in Hx; lia|]. rewrite Hd. reflexivity.
Qed.
