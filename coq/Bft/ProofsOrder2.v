(* Bft/ProofsOrder2.v — the characterisation of finalized (ProofsOrder.fin_char) is kept by every import into a
   consistent repository (commit_block_fin_spec says what CommitBlock does to finalized, exactly). *)
From Coq Require Import List NArith ZArith Bool Lia.
From Coq Require Import ZifyN ZifyNat ZifyBool.
From Verif Require Import Common.Util Bft.Tree Bft.Model Bft.Quorum Bft.ProofsTally Bft.ProofsChain Bft.ProofsSearch
  Bft.ProofsSuffix Bft.ProofsNode Bft.ProofsFinal Bft.ProofsCommit Bft.ProofsFind Bft.ProofsLive2 Bft.ProofsVote
  Bft.ProofsMonotone Bft.ProofsTree2 Bft.ProofsOrder.
Import ListNotations.
Open Scope N_scope.

Section Order2.
Variable c : cfg.
Hypothesis HL : 0 < c_L c.
Notation L := (c_L c).

(* what CommitBlock does to finalized, exactly *)
Lemma commit_block_fin_spec r e b a :
  wf_repo r -> find_blk r (b_id b) = Some b ->
  qs_ok c r (if storepoint L (b_num b) =? b_num b then (b_id b, s_q (compute_state c r (e_qs e) b)) :: e_qs e else e_qs e) ->
  compute_state c r (e_qs e) b = state_pure c (chain_of r (b_id b)) ->
  idnum (e_fin e) = a * L ->
  let e' := fst (commit_block true c r e b false) in
  (finalizing c r b /\ a * L < checkpoint L (b_num b) /\
   exists m y, block_at r (b_id b) ((a + m) * L) = Some y /\ b_num y = (a + m) * L /\
               q_epoch c r (b_id b) (a + m) = quality_pure c (chain_of r (b_id b)) - 1 /\
               (forall k, k < m -> q_epoch c r (b_id b) (a + k) < quality_pure c (chain_of r (b_id b)) - 1) /\
               e_fin e' = b_id y) \/
  ((~ finalizing c r b \/ checkpoint L (b_num b) <= a * L) /\ e_fin e' = e_fin e).
Proof.
  intros Hwf Hb Hqs Hcs Hfin. cbv zeta. destruct (find_blk_id _ _ _ Hb) as [_ Hbin].
  unfold commit_block. destruct (storepoint L (b_num b) =? b_num b) eqn:Esp.
  2:{ right. split; [|reflexivity]. left. intros [_ [H _]]. apply N.eqb_neq in Esp. contradiction. }
  apply N.eqb_eq in Esp. rewrite Hcs in Hqs |- *.
  set (C := chain_of r (b_id b)) in *. fold (quality_pure c C) in Hqs |- *. set (Q := quality_pure c C) in *.
  destruct (s_comm (state_pure c C)) eqn:Ecomm; cbn [andb].
  2:{ right. split; [|reflexivity]. left. intros [_ [_ [H _]]]. fold C in H. rewrite Ecomm in H. discriminate. }
  destruct (1 <? Q) eqn:EQ; cbn [andb].
  2:{ right. split; [|reflexivity]. left. intros [_ [_ [_ H]]]. fold C in H. fold Q in H. apply N.ltb_ge in EQ. lia. }
  apply N.ltb_lt in EQ. cbn [negb orb].
  destruct (idnum (e_fin e) <? checkpoint L (b_num b)) eqn:Eg.
  2:{ right. split; [|reflexivity]. right. apply N.ltb_ge in Eg. rewrite <- Hfin. exact Eg. }
  apply N.ltb_lt in Eg. left.
  assert (Hfz : finalizing c r b) by (unfold finalizing; fold C; fold Q; tauto).
  split; [exact Hfz|]. split; [rewrite <- Hfin; exact Eg|].
  pose proof (storepoint_form L HL _ Esp) as Hkb. set (kb := b_num b / L) in *.
  assert (Hcpb : checkpoint L (b_num b) = kb * L) by reflexivity.
  assert (Hak : a < kb) by (rewrite Hcpb, Hfin in Eg; nia).
  assert (Hj : s_just (state_pure c C) = true) by (unfold state_pure in *; apply committed_implies_justified_lemma; exact Ecomm).
  destruct (find_cp_committed c HL r _ (e_fin e) (b_id b) b a kb Hwf Hqs Hb Hfin Hkb Hak Hj)
    as [m [y [Hfc [_ [Hy [Hyn [Hqm Hmin]]]]]]].
  fold C in Hfc, Hqm, Hmin. fold Q in Hfc, Hqm, Hmin. exists m, y. rewrite Hfc. cbn. tauto.
Qed.

Lemma fin_char_fresh b r fin : wf_repo (b :: r) -> ~ finalizing c (b :: r) b -> fin_char c r fin -> fin_char c (b :: r) fin.
Proof.
  intros Hwf Hnb [[Hno [g [Hg [Hz ->]]]] | [B [j [y [HB [Hmax [[Hq Hmin] [Hy [Hyn ->]]]]]]]]].
  - left. split.
    + intros B HB. pose proof (proj1 HB) as Hin. destruct Hin as [<-|Hin]; [exact (Hnb HB)|].
      apply (Hno B). apply (finalizing_fresh c b r B Hwf Hin). exact HB.
    + exists g. split; [right; exact Hg | tauto].
  - right. pose proof (proj1 HB) as HBin. pose proof (fresh_ne b r B Hwf HBin) as Hne.
    exists B, j, y. split; [apply (finalizing_fresh c b r B Hwf HBin); exact HB|]. split.
    + intros B' HB'. pose proof (proj1 HB') as Hin. destruct Hin as [<-|Hin]; [contradiction (Hnb HB')|].
      apply Hmax. apply (finalizing_fresh c b r B' Hwf Hin). exact HB'.
    + unfold first_epoch, q_epoch, block_at. rewrite (chain_of_fresh b r (b_id B) Hne). tauto.
Qed.

Theorem add_and_commit_fin_char nd b :
  inv c nd -> fin_char c (n_repo nd) (e_fin (n_eng nd)) ->
  known (n_repo nd) (b_id b) = false -> known (n_repo nd) (b_parent b) = true -> valid_child (n_repo nd) b ->
  consistent c (b :: n_repo nd) ->
  let nd' := fst (add_and_commit true c nd b false) in
  fin_char c (n_repo nd') (e_fin (n_eng nd')).
Proof.
  intros Hi Hfc Hfresh Hpk Hvc Hcons. cbv zeta.
  pose proof (inv_wf c _ Hi) as Hwf. pose proof (inv_qs c _ Hi) as Hqs.
  destruct (child_setup c HL _ _ b Hwf Hqs Hfresh Hpk Hvc) as [p [_ [_ [Hwf' [Hfb [_ Hcs]]]]]].
  set (r := n_repo nd) in *. set (e := n_eng nd) in *.
  (* finalized's number is a multiple of L *)
  assert (Hfa : exists a, idnum (e_fin e) = a * L /\
                 (forall B j y, finalizing c r B -> block_at r (b_id B) (j * L) = Some y -> e_fin e = b_id y -> b_num y = j * L -> a = j)).
  { destruct Hfc as [[_ [g [_ [Hz ->]]]] | [B [j [y [_ [_ [_ [_ [Hyn ->]]]]]]]]].
    - exists 0. split; [exact Hz|]. intros B j y _ _ E Hy. change (idnum (b_id g)) with (b_num g) in *.
      assert (b_num y = 0) by (rewrite <- Hz; unfold b_num; rewrite E; reflexivity). nia.
    - exists j. split; [exact Hyn|]. intros B' j' y' _ _ E Hy'. assert (b_num y' = b_num y) by (unfold b_num; rewrite E; reflexivity). nia. }
  destruct Hfa as [a [Hfa Hfa_j]].
  pose proof (commit_block_fin_spec (b :: r) e b a Hwf' Hfb (child_qs c _ _ b Hwf' Hqs Hcs) Hcs Hfa) as Hspec.
  cbv zeta in Hspec. unfold add_and_commit. fold r e.
  destruct (commit_block true c (b :: r) e b false) as [e' err]. cbn [fst n_repo n_eng] in *.
  destruct Hspec as [[Hfz [Hguard [m [y [Hy [Hyn [Hqm [Hmin Hfin']]]]]]]] | [Hnot Hsame]].
  - (* b finalizes *)
    rewrite Hfin'. right. exists b, (a + m), y. split; [exact Hfz|].
    destruct Hfc as [[Hno [g [_ [Hz Hfg]]]] | [B [j [y0 [HB [HmaxB [[HqB HminB] [Hy0 [Hy0n Hfy0]]]]]]]]].
    + split.
      * intros B' HB'. pose proof (proj1 HB') as Hin. destruct Hin as [<-|Hin]; [lia|].
        exfalso. apply (Hno B'). apply (finalizing_fresh c b r B' Hwf' Hin). exact HB'.
      * split; [|tauto]. split; [exact Hqm|]. intros k Hk.
        assert (a = 0). { rewrite Hfg in Hfa. change (idnum (b_id g)) with (b_num g) in Hfa. nia. }
        subst a. destruct (N.lt_ge_cases k 0); [lia|]. replace k with (0 + k) by lia. apply Hmin. lia.
    + (* the previous highest finalizing block B is on b's chain, in an earlier epoch *)
      pose proof (proj1 HB) as HBin.
      destruct (prev_finalizing_below c HL b r B Hwf' Hcons Hfz HB) as [Hanc [Hnum HkBkb]].
      assert (Haj : a = j) by (apply (Hfa_j B j y0 HB Hy0 Hfy0 Hy0n)). subst a.
      pose proof (block_at_epoch_le c HL r B j y0 Hwf HBin Hy0) as HjkB.
      split.
      * intros B2 HB2. pose proof (proj1 HB2) as Hin. destruct Hin as [<-|Hin]; [lia|].
        pose proof (HmaxB B2 (proj1 (finalizing_fresh c b r B2 Hwf' Hin) HB2)). lia.
      * split; [|tauto]. split; [exact Hqm|]. intros k Hk.
        destruct (N.lt_ge_cases k j) as [Hlt|Hge]; [|replace k with (j + (k - j)) by lia; apply Hmin; lia].
        (* below j the qualities are those of B's chain, and B's quality is at most b's *)
        rewrite <- (q_epoch_ancestor c HL (b :: r) b B k (b_num B / L) Hwf' (or_introl eq_refl) (or_intror HBin) Hanc
                      (storepoint_form L HL _ (proj1 (proj2 HB))) ltac:(lia)).
        apply (has_block_iff_in (b :: r) b B Hwf' (or_introl eq_refl) (or_intror HBin)) in Hanc.
        pose proof (qual_ancestor c HL (b :: r) B b Hwf' (or_introl eq_refl) Hanc) as HQle.
        pose proof (HminB k Hlt) as H1. unfold qual, q_epoch in *.
        rewrite (chain_of_fresh b r (b_id B) (fresh_ne b r B Hwf' HBin)) in *. lia.
  - (* finalized unchanged *)
    rewrite Hsame. apply fin_char_fresh; [exact Hwf' | | exact Hfc]. destruct Hnot as [Hnot|Hg]; [exact Hnot|].
    (* the guard refused: then b does not finalize, since an earlier finalizing block lies in an earlier epoch *)
    intros Hfz. change (checkpoint L (b_num b)) with (b_num b / L * L) in Hg.
    destruct Hfc as [[_ [g [_ [Hz Hfg]]]] | [B [j [y0 [HB [HmaxB [_ [Hy0 [Hy0n Hfy0]]]]]]]]].
    + (* finalized = genesis, a = 0: then b lies in epoch 0 where quality <= 1 *)
      assert (a = 0). { rewrite Hfg in Hfa. change (idnum (b_id g)) with (b_num g) in Hfa. nia. }
      subst a. assert (Hk0 : b_num b / L = 0) by nia.
      destruct Hfz as [_ [_ [_ HQ]]]. destruct (chain_of_known (b :: r) Hwf' _ _ Hfb) as [tb [Htb Hgb]].
      pose proof (quality_head c (chain_of (b :: r) (b_id b))) as Hqh.
      rewrite (epoch0_pq c HL (chain_of (b :: r) (b_id b)) ltac:(rewrite Htb; exact Hgb) b tb Htb
                 (proj1 (div_zero_lt L HL _) Hk0)) in Hqh.
      destruct (s_just _) in Hqh; lia.
    + destruct (prev_finalizing_below c HL b r B Hwf' Hcons Hfz HB) as [_ [_ HkBkb]].
      assert (Haj : a = j) by (apply (Hfa_j B j y0 HB Hy0 Hfy0 Hy0n)). subst a.
      pose proof (block_at_epoch_le c HL r B j y0 Hwf (proj1 HB) Hy0) as HjkB. nia.
Qed.
End Order2.
