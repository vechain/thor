(* Store/ProofsPrune.v — the chain-history argument for pruning.

   One trie `name`; its canonical roots newest first (`chain`), each with the logical trie it resolved to when committed.
   Invariant (Inv): every live canonical root resolves to its trie; the nodes it follows are well-formed blobs, their
   versions do not increase downwards, and those at or above the pruned mark P are in the hist space; consecutive roots are
   `linked`: a node followed from a root is either written by that root's own commit or followed from its parent.
   Steps: a canonical commit (abstract here: its entries satisfy the link condition — ProofsLink.v proves hasher.store
   does), any other commit at a version that is fresh in the hist space (forks, other tries), and a pruner round
   (checkpoint of the last root below target through the version-filtered iterator, then partition delete).
   Result: the invariant is preserved by all three, so after any number of rounds every live root still resolves
   to exactly the trie committed. *)
From Coq Require Import List NArith Bool Arith Lia.
From Verif Require Import Trie.Model Store.Model Store.Proofs Store.ProofsCommit Store.ProofsReach.
Import ListNotations.
Open Scope N_scope.

Section PP.
  Variable V : Type.
  Notation snode := (snode V).
  Notation node := (node V).
  Notation store := (store V).
  Notation getter := (getter V).

  Lemma optn_eqb_eq a b : optn_eqb a b = true <-> a = b.
  Proof.
    destruct a, b; cbn; try (split; [discriminate|intros E; discriminate]); try tauto.
    rewrite N.eqb_eq. split; [intros ->; auto|intros E; inversion E; auto].
  Qed.

  Lemma dedup_find_app (l old : list (option N * N * list nat * snode)) pt name q b :
    (forall pt' q' b', In (pt', name, q', b') l -> pt' = pt -> q' = q -> b' = b) ->
    ((exists b', In (pt, name, q, b') l) \/ dedup_find V old pt name q = Some b) ->
    dedup_find V (l ++ old) pt name q = Some b.
  Proof.
    induction l as [|[[[pt' n'] q'] b'] l IH]; intros H1 H2; cbn.
    - destruct H2 as [[b' []]|H2]; auto.
    - destruct (optn_eqb pt pt' && (name =? n') && path_eqb q q') eqn:M.
      + apply andb_true_iff in M. destruct M as [M Mq]. apply andb_true_iff in M. destruct M as [Mp Mn].
        apply optn_eqb_eq in Mp. apply N.eqb_eq in Mn. apply path_eqb_eq in Mq. subst.
        f_equal. apply (H1 pt' q' b'); auto. left; auto.
      + apply IH.
        * intros pt0 q0 b0 I. apply H1. right; auto.
        * destruct H2 as [[b0 [E|I]]|H2]; auto.
          -- exfalso. inversion E; subst.
             assert (X : optn_eqb pt pt = true) by (apply optn_eqb_eq; auto).
             rewrite X, N.eqb_refl, path_eqb_refl in M. discriminate.
          -- left. eauto.
  Qed.

  Lemma dedup_find_checkpoint (s : store) name' nodes pt name q b :
    (forall q' w' b', name' = name -> In (q', w', b') nodes -> dptn V s (fst w') = pt -> q' = q -> b' = b) ->
    ((name' = name /\ exists w' b', In (q, w', b') nodes /\ dptn V s (fst w') = pt) \/
     dedup_find V (dedup V s) pt name q = Some b) ->
    dedup_find V (dedup V (checkpoint V s name' nodes)) pt name q = Some b.
  Proof.
    intros H1 H2. unfold checkpoint. cbn [dedup]. apply dedup_find_app.
    - intros pt' q' b' I Ept Eq. apply in_map_iff in I. destruct I as [[[q0 w0] b0] [E I]].
      cbn in E. inversion E; subst. apply in_rev in I. eapply H1; eauto.
    - destruct H2 as [[En [w' [b' [I Ept]]]]|H2]; auto.
      left. exists b'. apply in_map_iff. exists (q, w', b'). cbn. subst. split; auto. apply -> in_rev. exact I.
  Qed.

  Lemma dptn_checkpoint (s : store) name nodes m : dptn V (checkpoint V s name nodes) m = dptn V s m.
  Proof. reflexivity. Qed.

  Lemma dedup_find_checkpoints (cps : list (N * list (list nat * ver * snode))) : forall (s : store) pt name q b,
    (forall nodes q' w' b', In (name, nodes) cps -> In (q', w', b') nodes -> dptn V s (fst w') = pt -> q' = q -> b' = b) ->
    ((exists nodes w' b', In (name, nodes) cps /\ In (q, w', b') nodes /\ dptn V s (fst w') = pt) \/
     dedup_find V (dedup V s) pt name q = Some b) ->
    dedup_find V (dedup V (checkpoints V s cps)) pt name q = Some b.
  Proof.
    induction cps as [|[name' nodes] cps IH]; intros s pt name q b H1 H2.
    - cbn. destruct H2 as [[nodes [w' [b' [[] _]]]]|H2]; auto.
    - change (checkpoints V s ((name', nodes) :: cps)) with (checkpoints V (checkpoint V s name' nodes) cps).
      assert (Hd : dedup_find V (dedup V (checkpoint V s name' nodes)) pt name q = Some b ->
                   dedup_find V (dedup V (checkpoints V (checkpoint V s name' nodes) cps)) pt name q = Some b).
      { intros Hd. apply IH; auto. intros nodes0 q' w' b' I I' Ept Eq. eapply (H1 nodes0); eauto. right; auto. }
      destruct H2 as [[nodes0 [w' [b' [[E|I] [I' Ept]]]]]|H2].
      + inversion E; subst. apply Hd. apply dedup_find_checkpoint.
        * intros q' w0 b0 _ I0 Ept0 Eq. eapply (H1 nodes0); eauto. left; auto.
        * left. split; auto. eauto.
      + apply IH.
        * intros nodes1 q' w0 b0 I0 I1 Ept0 Eq. eapply (H1 nodes1); eauto. right; auto.
        * left. exists nodes0, w', b'. auto.
      + apply Hd. apply dedup_find_checkpoint; auto.
        intros q' w0 b0 En I0 Ept0 Eq. subst name'. eapply (H1 nodes); eauto. left; auto.
  Qed.

  Definition hist_fresh (s : store) (name : N) (v : ver) : Prop := forall p, hist_find V (hist V s) name p v = None.

  Lemma commit_other_agrees (s : store) name' v' es name q w :
    name' <> name \/ w <> v' ->
    sget V (commit V s name' v' es) name q w = sget V s name q w /\
    hist_find V (hist V (commit V s name' v' es)) name q w = hist_find V (hist V s) name q w.
  Proof.
    intros H.
    assert (E : (name =? name') && ver_eqb w v' = false).
    { destruct H as [H|H].
      - replace (name =? name') with false; auto. symmetry. apply N.eqb_neq. congruence.
      - rewrite ver_eqb_false by auto. apply andb_false_r. }
    split; [apply sget_commit_other; auto|]. unfold commit. cbn [hist]. apply hist_find_app_other; auto.
  Qed.

  Lemma hist_find_commit (s : store) name v es q :
    hist_find V (hist V (commit V s name v es)) name q v =
    match lookup V q es with Some b => Some b | None => hist_find V (hist V s) name q v end.
  Proof.
    unfold commit. cbn [hist]. induction es as [|[p b] es IH]; cbn [map app hist_find lookup fst snd]; auto.
    rewrite N.eqb_refl. cbn [andb]. rewrite ver_eqb_refl.
    rewrite andb_true_r. destruct (path_eqb q p); auto.
  Qed.

  (* resolving root v through g loads the standalone node (q, w) with blob b *)
  Definition RR (g : getter) (v : ver) q w b : Prop := Reach V g [] (SRef v) q w b.

  (* roots newest first: a node a root follows was written by its own commit or is followed from its parent, whose
     major version is smaller; of the oldest root only the version bound is kept *)
  Fixpoint linked (g : getter) (vs : list ver) : Prop :=
    match vs with
    | [] => True
    | v :: rest =>
      match rest with
      | [] => forall q w b, RR g v q w b -> w = v \/ fst w < fst v
      | v' :: _ => fst v' < fst v /\ forall q w b, RR g v q w b -> w = v \/ RR g v' q w b
      end /\ linked g rest
    end.

  Lemma linked_bound g : forall rest v, linked g (v :: rest) -> forall q w b, RR g v q w b -> w = v \/ fst w < fst v.
  Proof.
    induction rest as [|v' rest IH]; intros v [H1 H2] q w b R.
    - exact (H1 q w b R).
    - destruct H1 as [Hlt Hst]. destruct (Hst q w b R) as [E|R']; auto.
      right. destruct (IH v' H2 q w b R') as [E|L]; [subst; auto|lia].
  Qed.

  Lemma linked_tail g : forall a b, linked g (a ++ b) -> linked g b.
  Proof. induction a as [|x a IH]; intros b H; auto. destruct H as [_ H]. auto. Qed.

  Lemma linked_descend g T : forall newer vi older, linked g (newer ++ vi :: older) ->
    Forall (fun v => T <= fst v) newer ->
    forall v, In v newer -> forall q w b, RR g v q w b -> fst w < T -> RR g vi q w b.
  Proof.
    induction newer as [|v0 newer IH]; intros vi older HL HF v Hin q w b R Hw; [destruct Hin|].
    inversion HF as [|x l Hv0 HF']; subst.
    destruct Hin as [->|Hin]; [|eapply IH; eauto; apply (linked_tail g [v0]); exact HL].
    destruct newer as [|v1 newer].
    - cbn in HL. destruct HL as [[_ Hst] _]. destruct (Hst q w b R) as [E|R']; auto. subst. lia.
    - cbn [app] in HL. destruct HL as [[_ Hst] HL']. destruct (Hst q w b R) as [E|R']; [subst; lia|].
      eapply (IH vi older); eauto. left; auto.
  Qed.

  Lemma linked_keep_anchor g : forall newer vi older, linked g (newer ++ vi :: older) -> linked g (newer ++ [vi]).
  Proof.
    induction newer as [|v0 newer IH]; intros vi older HL.
    - cbn. split; auto. apply (linked_bound g older vi). exact HL.
    - destruct HL as [H1 H2]. specialize (IH vi older H2). split; auto.
      destruct newer; exact H1.
  Qed.

  Lemma linked_drop_anchor g : forall newer vi older, linked g (newer ++ vi :: older) -> linked g newer.
  Proof.
    induction newer as [|v0 newer IH]; intros vi older HL; [exact I|].
    destruct HL as [H1 H2]. specialize (IH vi older H2). split; auto.
    destruct newer as [|v1 newer]; [|exact H1].
    cbn in H1. destruct H1 as [Hlt Hst]. intros q w b R. destruct (Hst q w b R) as [E|R']; auto.
    right. destruct (linked_bound g older vi H2 q w b R') as [E|L]; [subst; auto|lia].
  Qed.

  Lemma linked_ext g g' : forall vs,
    (forall v, In v vs -> forall q w b, RR g' v q w b <-> RR g v q w b) -> linked g vs -> linked g' vs.
  Proof.
    induction vs as [|v rest IH]; intros HE HL; [exact I|].
    destruct HL as [H1 H2]. split; [|apply IH; auto; intros; apply HE; right; auto].
    destruct rest as [|v' rest].
    - intros q w b R. apply (H1 q w b). apply HE; auto. left; auto.
    - destruct H1 as [Hlt Hst]. split; auto. intros q w b R.
      destruct (Hst q w b) as [E|R']; [apply HE; auto; left; auto|auto|].
      right. apply HE; auto. right; left; auto.
  Qed.

  Definition root_ok (s : store) (name P : N) (vt : ver * node) : Prop :=
    Res V (sget V s name) [] (SRef (fst vt)) (snd vt) /\
    (forall q w b, RR (sget V s name) (fst vt) q w b -> blob_ok V b) /\
    (forall q w b q1 w1 b1, RR (sget V s name) (fst vt) q w b -> Reach V (sget V s name) q b q1 w1 b1 -> fst w1 <= fst w) /\
    (forall q w b, RR (sget V s name) (fst vt) q w b -> P <= fst w -> hist_find V (hist V s) name q w = Some b).

  Definition Inv (s : store) (name : N) (chain : list (ver * node)) (P : N) : Prop :=
    0 < hf V s /\ Forall (root_ok s name P) chain /\ linked (sget V s name) (map fst chain).

  (* a store that answers every followed reference of a root identically keeps the root *)
  Lemma root_ok_transfer (s s' : store) name P P' vt :
    root_ok s name P vt ->
    (forall q w b, RR (sget V s name) (fst vt) q w b -> sget V s' name q w = Some b) ->
    (forall q w b, RR (sget V s name) (fst vt) q w b -> P' <= fst w -> hist_find V (hist V s') name q w = Some b) ->
    root_ok s' name P' vt /\ (forall q w b, RR (sget V s' name) (fst vt) q w b <-> RR (sget V s name) (fst vt) q w b).
  Proof.
    intros [HR [Hb [Hm Hh]]] Hag Hh'.
    destruct (resolution_transfer V (sget V s name) (sget V s' name) [] (SRef (fst vt)) (snd vt) HR Hag) as [T1 [T2 T3]].
    split; [|exact T2].
    split; [exact T1|split; [|split]].
    - intros q w b R. apply (Hb q w b). apply T2; auto.
    - intros q w b q1 w1 b1 R R1. apply T2 in R. apply (Hm q w b q1 w1 b1 R). apply (T3 q w b q1 w1 b1 R). exact R1.
    - intros q w b R HP. apply Hh'; auto. apply T2; auto.
  Qed.

  Lemma Inv_transfer (s s' : store) name chain chain' P P' :
    Inv s name chain P -> 0 < hf V s' ->
    (forall vt, In vt chain' -> In vt chain) ->
    (forall vt, In vt chain' -> forall q w b, RR (sget V s name) (fst vt) q w b -> sget V s' name q w = Some b) ->
    (forall vt, In vt chain' -> forall q w b, RR (sget V s name) (fst vt) q w b -> P' <= fst w ->
                hist_find V (hist V s') name q w = Some b) ->
    linked (sget V s name) (map fst chain') ->
    Inv s' name chain' P'.
  Proof.
    intros [Hf [HF HL]] Hf' Hsub Hag Hh HL'.
    rewrite Forall_forall in HF.
    split; [auto|split].
    - apply Forall_forall. intros vt I.
      destruct (root_ok_transfer s s' name P P' vt (HF vt (Hsub vt I)) (Hag vt I) (Hh vt I)); auto.
    - apply (linked_ext (sget V s name)); auto.
      intros v I. apply in_map_iff in I. destruct I as [vt [<- I]].
      destruct (root_ok_transfer s s' name P P' vt (HF vt (Hsub vt I)) (Hag vt I) (Hh vt I)); auto.
  Qed.

  (* ---- a commit at a version that is fresh in the hist space and not below the pruned mark (forks of this trie), or of
     another trie, preserves the invariant *)
  Lemma followed_not_fresh (s : store) name chain P v' :
    Inv s name chain P -> hist_fresh s name v' -> P <= fst v' ->
    forall vt, In vt chain -> forall q w b, RR (sget V s name) (fst vt) q w b -> w <> v'.
  Proof.
    intros [_ [HF _]] Hfr HP vt I q w b R E. subst w.
    rewrite Forall_forall in HF. destruct (HF vt I) as [_ [_ [_ Hh]]].
    specialize (Hh q v' b R HP). rewrite (Hfr q) in Hh. discriminate.
  Qed.

  (* a root of the chain after such a commit: still good, and it follows the same nodes *)
  Lemma other_commit_root (s : store) name chain P name' v' es :
    Inv s name chain P -> name' <> name \/ (hist_fresh s name v' /\ P <= fst v') ->
    forall vt, In vt chain ->
    root_ok (commit V s name' v' es) name P vt /\
    (forall q w b, RR (sget V (commit V s name' v' es) name) (fst vt) q w b <-> RR (sget V s name) (fst vt) q w b).
  Proof.
    intros HI Hc vt I.
    assert (Hne : forall q w b, RR (sget V s name) (fst vt) q w b -> name' <> name \/ w <> v').
    { intros q w b R. destruct Hc as [Hc|[Hfr HP]]; auto. right. eapply followed_not_fresh; eauto. }
    destruct HI as [_ [HF _]]. rewrite Forall_forall in HF.
    apply (root_ok_transfer s _ name P P vt (HF vt I)).
    - intros q w b R. destruct (commit_other_agrees s name' v' es name q w (Hne q w b R)) as [E _].
      rewrite E. eapply Reach_get; eauto.
    - intros q w b R HP. destruct (commit_other_agrees s name' v' es name q w (Hne q w b R)) as [_ E].
      rewrite E. destruct (HF vt I) as [_ [_ [_ Hh]]]. auto.
  Qed.

  Theorem Inv_other_commit (s : store) name chain P name' v' es :
    Inv s name chain P -> name' <> name \/ (hist_fresh s name v' /\ P <= fst v') ->
    Inv (commit V s name' v' es) name chain P.
  Proof.
    intros HI Hc. pose proof HI as [Hf [_ HL]]. split; [exact Hf|split].
    - apply Forall_forall. intros vt I. apply (other_commit_root s name chain P name' v' es HI Hc vt I).
    - apply (linked_ext (sget V s name)); auto.
      intros v I. apply in_map_iff in I. destruct I as [vt [<- I]].
      apply (other_commit_root s name chain P name' v' es HI Hc vt I).
  Qed.

  (* ---- a canonical commit: the new root's followed nodes are its own entries or nodes of the parent root *)
  Definition link_cond (s : store) name (chain : list (ver * node)) newv es : Prop :=
    forall q w b, RR (sget V (commit V s name newv es) name) newv q w b ->
      (w = newv /\ lookup V q es = Some b /\ blob_ok V b) \/
      (w <> newv /\ match chain with [] => False | vt :: _ => RR (sget V s name) (fst vt) q w b end).

  Theorem Inv_canonical_commit (s : store) name chain P newv es t :
    Inv s name chain P -> hist_fresh s name newv -> P <= fst newv ->
    match chain with [] => True | vt :: _ => fst (fst vt) < fst newv end ->
    link_cond s name chain newv es ->
    Res V (sget V (commit V s name newv es) name) [] (SRef newv) t ->
    Inv (commit V s name newv es) name ((newv, t) :: chain) P.
  Proof.
    intros HI Hfr HP Hlt Hlink HR.
    set (s' := commit V s name newv es) in *.
    assert (HI' : Inv s' name chain P) by (apply Inv_other_commit; auto).
    pose proof HI as [Hf [HF HL]]. pose proof HI' as [Hf' [HF' HL']].
    rewrite Forall_forall in HF, HF'.
    assert (Hsame : forall vt, In vt chain -> forall q w b, RR (sget V s' name) (fst vt) q w b <-> RR (sget V s name) (fst vt) q w b)
      by (intros vt I; apply (other_commit_root s name chain P name newv es HI (or_intror (conj Hfr HP)) vt I)).
    assert (Hbound : forall q w b, RR (sget V s' name) newv q w b -> w = newv \/ fst w < fst newv).
    { intros q w b R. destruct (Hlink q w b R) as [[E _]|[_ Ho]]; auto.
      destruct chain as [|vt chain]; [contradiction|].
      right. destruct (linked_bound (sget V s name) (map fst chain) (fst vt) HL q w b Ho) as [E|L]; [subst; auto|lia]. }
    split; [auto|split].
    - constructor; [|apply Forall_forall; auto].
      split; [exact HR|split; [|split]]; cbn [fst snd].
      + intros q w b R. destruct (Hlink q w b R) as [[_ [_ Hb]]|[_ Ho]]; auto.
        destruct chain as [|vt chain]; [contradiction|].
        destruct (HF vt (or_introl eq_refl)) as [_ [Hb _]]. eauto.
      + intros q w b q1 w1 b1 R R1.
        destruct (Hlink q w b R) as [[E _]|[Hn Ho]].
        * subst w. destruct (Hbound q1 w1 b1 (Reach_trans V _ _ _ _ _ _ R _ _ _ R1)) as [E|L]; [subst; lia|lia].
        * destruct chain as [|vt chain]; [contradiction|].
          destruct (HF' vt (or_introl eq_refl)) as [_ [_ [Hm _]]].
          apply (Hm q w b q1 w1 b1); auto. apply Hsame; auto. left; auto.
      + intros q w b R HPw. destruct (Hlink q w b R) as [[E [Hl _]]|[Hn Ho]].
        * subst w. unfold s'. rewrite hist_find_commit, Hl. reflexivity.
        * destruct chain as [|vt chain]; [contradiction|].
          destruct (HF' vt (or_introl eq_refl)) as [_ [_ [_ Hh]]]. apply Hh; auto. apply Hsame; auto. left; auto.
    - cbn [map linked fst]. split; [|exact HL'].
      destruct chain as [|vt chain]; cbn [map].
      + intros q w b R. exact (Hbound q w b R).
      + split; [exact Hlt|]. intros q w b R. destruct (Hlink q w b R) as [[E _]|[_ Ho]]; auto.
        right. apply Hsame; auto. left; auto.
  Qed.

  Lemma root_ref_is_root g v w b : (forall q0 w0 b0, RR g v q0 w0 b0 -> blob_ok V b0) -> RR g v [] w b -> w = v.
  Proof.
    intros Hb R. unfold RR in *. inversion R as [| |p0 w0 b0 Hg|p0 w0 b0 q0 w1 b1 Hg R0]; subst; auto.
    exfalso. destruct (Hb [] v b0 (Reach_here V g [] v b0 Hg)) as [Hi Hk].
    pose proof (Reach_longer V g [] b0 [] w b Hi Hk R0). cbn in H. lia.
  Qed.

  Lemma aligned_below_outside (s : store) base target w :
    0 < hf V s -> base mod hf V s = 0 -> fst w < base -> in_deleted V s base target w = false.
  Proof.
    intros Hf Ha Hw. unfold in_deleted. apply andb_false_iff. left. apply N.leb_gt.
    apply N.div_lt_upper_bound; [lia|].
    rewrite (N.div_mod base (hf V s)) in Hw by lia. rewrite Ha, N.add_0_r in Hw. exact Hw.
  Qed.

  (* the checkpoints of this trie in the round: all of them are the iterator's report `nodes`, and it is there unless empty *)
  Definition cps_for (name : N) (cps : list (N * list (list nat * ver * snode))) (nodes : list (list nat * ver * snode)) : Prop :=
    (forall nodes', In (name, nodes') cps -> nodes' = nodes) /\ (nodes <> [] -> In (name, nodes) cps).

  (* the roots that stay readable after a round: those at or above the target, and the checkpointed root (anchor) of a
     storage trie; the anchor of the account / index trie is read from the hist space only (root_only), which the
     round has deleted *)
  Definition live_after (name : N) (newer : list (ver * node)) (anchor : ver * node) : list (ver * node) :=
    newer ++ (if root_only name then [] else [anchor]).

  Lemma live_after_sub name newer anchor older vt :
    In vt (live_after name newer anchor) -> In vt (newer ++ anchor :: older).
  Proof.
    unfold live_after. intros Hin. apply in_app_or in Hin. apply in_or_app.
    destruct Hin as [I|I]; auto. right. destruct (root_only name); [destruct I|destruct I as [<-|[]]; left; auto].
  Qed.

  Lemma prune_agrees (s : store) name P base target cps newer anchor older f nodes :
    Inv s name (newer ++ anchor :: older) P ->
    P <= base -> base <= target -> base mod hf V s = 0 ->
    Forall (fun vt => target <= fst (fst vt)) newer ->
    iter_nodes V f (sget V s name) (base, 0) [] (SRef (fst anchor)) = Some nodes ->
    cps_for name cps nodes ->
    forall vt, In vt (live_after name newer anchor) ->
    forall q w b, RR (sget V s name) (fst vt) q w b -> sget V (prune V s cps base target) name q w = Some b.
  Proof.
    intros [Hf [HF HL]] HPb Hbt Hab Hnew Hit [Hc1 Hc2] vt Hin q w b R.
    rewrite Forall_forall in HF.
    pose proof (live_after_sub _ _ _ older _ Hin) as Ivt.
    assert (Ianc : In anchor (newer ++ anchor :: older)) by (apply in_or_app; right; left; auto).
    destruct (HF vt Ivt) as [_ [Hbv [_ Hhv]]].
    destruct (HF anchor Ianc) as [_ [Hba [Hma _]]].
    pose proof (Reach_get V _ _ _ _ _ _ R) as Hg.
    rewrite sget_prune.
    destruct (N.le_gt_cases target (fst w)) as [Hw|Hw].
    { (* written at or above the target: still in hist *)
      rewrite recent_outside by auto. rewrite (Hhv q w b R) by lia. reflexivity. }
    (* below the target: a node of the anchor root *)
    assert (Ra : RR (sget V s name) (fst anchor) q w b).
    { unfold live_after in Hin. apply in_app_or in Hin. destruct Hin as [I|I].
      - rewrite map_app in HL. cbn [map] in HL.
        apply (linked_descend (sget V s name) target (map fst newer) (fst anchor) (map fst older) HL) with (v := fst vt); auto.
        + apply Forall_forall. intros v Iv. apply in_map_iff in Iv. destruct Iv as [x [<- Ix]].
          rewrite Forall_forall in Hnew. auto.
        + apply in_map; auto.
      - destruct (root_only name); [destruct I|destruct I as [<-|[]]; exact R]. }
    destruct (if in_deleted V s base target w then None else hist_find V (hist V s) name q w) as [b'|] eqn:Eh.
    { (* still served from hist *)
      destruct (in_deleted V s base target w); [discriminate|].
      unfold sget in Hg. rewrite Eh in Hg. exact Hg. }
    assert (Hnr : is_root q && root_only name = false).
    { destruct q; [|reflexivity]. cbn [is_root andb].
      destruct (root_only name) eqn:Ero; auto. exfalso.
      unfold live_after in Hin. rewrite Ero, app_nil_r in Hin.
      pose proof (root_ref_is_root _ _ _ _ Hbv R) as E. subst w.
      rewrite Forall_forall in Hnew. specialize (Hnew vt Hin). cbn beta in Hnew. unfold ver in *. lia. }
    rewrite Hnr.
    (* a node this round checkpoints at q is the anchor's node at q *)
    assert (Hcp : forall nodes' w' b', In (name, nodes') cps -> In (q, w', b') nodes' ->
                  b' = b /\ w' = w /\ ver_ltb w' (base, 0) = false).
    { intros nodes' w' b' I I'. rewrite (Hc1 nodes' I) in I'.
      apply (iter_nodes_spec V _ _ _ _ _ _ Hit) in I'. apply ReachMin_Reach in I'. destruct I' as [R' Hlt].
      destruct (Reach_functional V _ _ _ _ _ _ Ra Hba eq_refl w' b' R'); auto. }
    destruct (N.le_gt_cases base (fst w)) as [Hbw|Hbw].
    - (* in [base, target): copied by the checkpoint *)
      assert (RM : ReachMin V (sget V s name) (base, 0) [] (SRef (fst anchor)) q w b).
      { apply Reach_ReachMin; auto. intros q0 w0 b0 R0 R1. eapply Hma; eauto. }
      assert (Inod : In (q, w, b) nodes) by (apply (iter_nodes_spec V _ _ _ _ _ _ Hit); auto).
      apply dedup_find_checkpoints.
      + intros nodes' q' w' b' I I' _ ->. apply (Hcp nodes' w' b' I I').
      + left. exists nodes, w, b. split; [|split]; auto. apply Hc2. intros E. rewrite E in Inod. destruct Inod.
    - (* older than base: already in the deduped space, and this round does not write its path *)
      assert (Hd : in_deleted V s base target w = false) by (apply aligned_below_outside; auto).
      rewrite Hd in Eh. unfold sget in Hg. rewrite Eh, Hnr in Hg.
      apply dedup_find_checkpoints; auto.
      intros nodes' q' w' b' I I' _ ->. exfalso. destruct (Hcp nodes' w' b' I I') as (_ & -> & Hlt).
      apply ver_ltb_base in Hlt. lia.
  Qed.

  Theorem Inv_prune (s : store) name P base target cps newer anchor older f nodes :
    Inv s name (newer ++ anchor :: older) P ->
    P <= base -> base <= target -> base mod hf V s = 0 ->
    Forall (fun vt => target <= fst (fst vt)) newer ->
    iter_nodes V f (sget V s name) (base, 0) [] (SRef (fst anchor)) = Some nodes ->
    cps_for name cps nodes ->
    Inv (prune V s cps base target) name (live_after name newer anchor) target.
  Proof.
    intros HI HPb Hbt Hab Hnew Hit Hcps.
    pose proof HI as [Hf [HF HL]]. rewrite Forall_forall in HF.
    pose proof (live_after_sub name newer anchor older) as Hsub.
    apply (Inv_transfer s (prune V s cps base target) name (newer ++ anchor :: older) (live_after name newer anchor) P target); auto.
    - rewrite hf_prune; auto.
    - intros vt Hin q w b R. eapply prune_agrees; eauto.
    - intros vt Hin q w b R Hw.
      rewrite prune_keeps_hist_outside by (apply recent_outside; auto).
      destruct (HF vt (Hsub vt Hin)) as [_ [_ [_ Hh]]]. apply Hh; auto. lia.
    - rewrite map_app in HL. cbn [map] in HL. unfold live_after. rewrite map_app.
      destruct (root_only name); cbn [map].
      + rewrite app_nil_r. eapply linked_drop_anchor; eauto.
      + eapply linked_keep_anchor; eauto.
  Qed.
End PP.
