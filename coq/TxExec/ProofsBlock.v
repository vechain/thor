(* TxExec/ProofsBlock.v — the VET / VTHO totals over a whole block flow (Adopt*, then DistributeRewards if PoS is active),
   EXACT: including what self-destructs to self destroy; nothing is destroyed when no clause self-destructs to self
   (burned_by_none, tx_burned_none, flow_burned_none). *)
From Coq Require Import ZArith List Bool Lia.
From Verif Require Import Ledger.Model Ledger.Proofs TxExec.Model TxExec.Proofs TxExec.ProofsEffects.
Import ListNotations.
Open Scope Z_scope.

Section Block.
  Variables W O : Type.
  Variable clause_result : env -> txn -> nat -> Z -> state W -> cres W O.
  Variable write_credit : Z -> Z -> Z -> W -> W.

  Definition sum_reward (rcs : list (receipt O)) : Z := fold_right (fun rc a => r_reward O rc + a) 0 rcs.
  Definition sum_paid (rcs : list (receipt O)) : Z := fold_right (fun rc a => r_paid O rc + a) 0 rcs.
  Lemma sum_reward_app a b : sum_reward (a ++ b) = sum_reward a + sum_reward b.
  Proof. apply fold_right_add_app. Qed.
  Lemma sum_paid_app a b : sum_paid (a ++ b) = sum_paid a + sum_paid b.
  Proof. apply fold_right_add_app. Qed.

  (* what the adopted transactions of a flow burn by self-destructs to self: sum of tx_burned, each on the state the flow had
     when it adopted that transaction (specification companion of adopt_all) *)
  Fixpoint flow_burned (e : env) (used : Z) (txs : list (txn * credit_info)) (st : state W) : Z * Z :=
    match txs with
    | [] => (0, 0)
    | (t, ci) :: rest =>
      match adopt W O clause_result write_credit e used t ci st with
      | Rejected _ _ st' => flow_burned e used rest st'
      | Adopted _ _ st' rc =>
        let b := tx_burned W O clause_result e t ci st in
        let r := flow_burned e (used + r_gas_used O rc) rest st' in (fst b + fst r, snd b + snd r)
      end
    end.

  (* P holds for every transaction the flow adopts, on the state the flow has when it adopts it (specification companion) *)
  Fixpoint flow_forall (P : txn -> credit_info -> state W -> Prop) (e : env) (used : Z) (txs : list (txn * credit_info)) (st : state W) : Prop :=
    match txs with
    | [] => True
    | (t, ci) :: rest =>
      match adopt W O clause_result write_credit e used t ci st with
      | Rejected _ _ st' => flow_forall P e used rest st'
      | Adopted _ _ st' rc => P t ci st /\ flow_forall P e (used + r_gas_used O rc) rest st'
      end
    end.
  (* the primitives of the clauses executed by the adopted transactions are of the clause kinds and inside dom — dom is the
     union of what the block's transactions touch (effs_ok_mono: a per-transaction set may be enlarged) *)
  Definition flow_ops_ok (dom : list Z) (e : env) := flow_forall (fun t ci st => tx_ops_ok W O clause_result dom e t ci st) e.
  Definition flow_no_self (e : env) := flow_forall (fun t ci st => tx_no_self W O clause_result e t ci st) e.

  (* enough: P of every listed transaction on every state *)
  Lemma flow_forall_in (P : txn -> credit_info -> state W -> Prop) e txs :
    (forall t ci st, In (t, ci) txs -> P t ci st) -> forall used st, flow_forall P e used txs st.
  Proof.
    induction txs as [|[t ci] rest IH]; intros G used st; cbn; [exact I|].
    assert (R : forall used st, flow_forall P e used rest st) by (apply IH; intros; apply G; right; assumption).
    destruct (adopt _ _ _ _ _ _ _ _ _); [apply R|split; [apply G; left; reflexivity|apply R]].
  Qed.

  Lemma flow_forall_global (P : txn -> credit_info -> state W -> Prop) e txs : (forall t ci st, P t ci st) -> forall used st, flow_forall P e used txs st.
  Proof. intros G. apply flow_forall_in. intros; apply G. Qed.

  Lemma adopt_all_totals e dom :
    let T := e_time e in let S := e_stop e in
    NoDup dom -> In (e_benef e) dom ->
    forall txs used st rcs used' st' rcs',
    flow_ops_ok dom e used txs st ->
    adopt_all W O clause_result write_credit e used txs st rcs = (used', st', rcs') ->
    Forall (fun rc => In (r_payer O rc) dom) rcs' ->
    exists new, rcs' = rcs ++ new /\
      sum_eng T S dom (l_acc (fst st')) =
        sum_eng T S dom (l_acc (fst st)) + sum_reward new - sum_paid new - snd (flow_burned e used txs st) /\
      sum_bal dom (l_acc (fst st')) = sum_bal dom (l_acc (fst st)) - fst (flow_burned e used txs st).
  Proof.
    intros T S ND HB. induction txs as [|[t ci] rest IH]; intros used st rcs used' st' rcs' N H HP; cbn in H.
    - inversion H; subst. exists []. rewrite app_nil_r. cbn. repeat split; lia.
    - unfold flow_ops_ok in N. cbn [flow_burned flow_forall] in *. destruct (adopt _ _ _ _ _ _ _ _ _) as [s1|s1 rc] eqn:EA.
      + apply adopt_rejected_unchanged_lemma in EA. subst s1. eapply IH; eauto.
      + destruct N as [N N'].
        destruct (IH _ _ _ _ _ _ N' H HP) as [new [E1 [E2 E3]]].
        assert (HIn : In (r_payer O rc) dom).
        { rewrite Forall_forall in HP. apply HP. rewrite E1. apply in_or_app. left. apply in_or_app. right. left. reflexivity. }
        apply adopt_adopted in EA. destruct EA as [_ EX].
        pose proof (tx_totals_exact_lemma W O clause_result write_credit e t ci st s1 rc dom N ND HIn HB EX) as [D1 D2].
        exists (rc :: new). rewrite <- app_assoc in E1. split; [exact E1|].
        change (rc :: new) with ([rc] ++ new). rewrite sum_reward_app, sum_paid_app. cbn.
        fold T S in D1. split; lia.
  Qed.

  (* a whole block: the adopted transactions, then (PoS active) the staking reward *)
  Definition block_flow (e : env) (txs : list (txn * credit_info)) (st : state W)
             (staking : option (Z * Z * Z * bool)) (deleg : Z) : Z * state W * list (receipt O) :=
    let '(used, st1, rcs) := adopt_all W O clause_result write_credit e 0 txs st [] in
    match staking with
    | None => (used, st1, rcs)
    | Some (reward, perc, _, has_delegations) =>
      (used, (distribute (e_time e) (e_stop e) (fst st1) (e_benef e) deleg reward perc has_delegations, snd st1), rcs)
    end.

  Theorem block_totals_exact_lemma e dom txs st staking deleg used st' rcs :
    let T := e_time e in let S := e_stop e in
    flow_ops_ok dom e 0 txs st -> NoDup dom -> In (e_benef e) dom ->
    (match staking with Some _ => In deleg dom | None => True end) ->
    block_flow e txs st staking deleg = (used, st', rcs) ->
    Forall (fun rc => In (r_payer O rc) dom) rcs ->
    sum_eng T S dom (l_acc (fst st')) =
      sum_eng T S dom (l_acc (fst st)) + sum_reward rcs - sum_paid rcs
      + (match staking with Some (reward, _, _, _) => reward | None => 0 end) - snd (flow_burned e 0 txs st) /\
    sum_bal dom (l_acc (fst st')) = sum_bal dom (l_acc (fst st)) - fst (flow_burned e 0 txs st).
  Proof.
    intros T S N ND HB HD. unfold block_flow.
    destruct (adopt_all _ _ _ _ _ _ _ _ _) as [[u s1] rs] eqn:EA.
    destruct staking as [[[[reward perc] x] hd]|]; intros H HP; inversion H; subst; clear H.
    - destruct (adopt_all_totals e dom ND HB _ _ _ _ _ _ _ N EA HP) as [new [E1 [E2 E3]]]. cbn in E1. subst new.
      cbn [fst]. fold T S. rewrite distribute_eng, distribute_bal by assumption. fold T S in E2. split; lia.
    - destruct (adopt_all_totals e dom ND HB _ _ _ _ _ _ _ N EA HP) as [new [E1 [E2 E3]]]. cbn in E1. subst new.
      fold T S in E2. split; lia.
  Qed.

  (* when no executed clause performs a self-destruct to self nothing is burned *)
  Definition no_self_destruct_to_self : Prop :=
    forall e t i g st o, In o (cr_ops _ _ (clause_result e t i g st)) -> self_destruct_to_self o = false.

  Lemma burned_by_none T S effs : effs_no_self W O effs -> burned_by W O T S effs = (0, 0).
  Proof.
    induction effs as [|p t IH]; intros H; [reflexivity|]. rewrite burned_by_cons.
    rewrite IH by (intros q o Hq; apply H; right; exact Hq).
    rewrite burned_none by (intros o Ho; apply (H p o); [left; reflexivity|exact Ho]). reflexivity.
  Qed.

  Lemma tx_burned_none e t ci st : tx_no_self W O clause_result e t ci st -> tx_burned W O clause_result e t ci st = (0, 0).
  Proof. intros NS. unfold tx_burned. destruct (any_error _ _ _); [reflexivity|]. apply burned_by_none. exact NS. Qed.

  Lemma no_self_tx : no_self_destruct_to_self -> forall e t ci st, tx_no_self W O clause_result e t ci st.
  Proof.
    intros G e t ci st p o Hp Ho. destruct (tx_effects_in W O clause_result _ _ _ _ _ Hp) as [j [g [s E]]]. rewrite E in Ho. exact (G e t j g s o Ho).
  Qed.

  Lemma flow_burned_none e txs : forall used st, flow_no_self e used txs st -> flow_burned e used txs st = (0, 0).
  Proof.
    induction txs as [|[t ci] rest IH]; intros used st NS; [reflexivity|]. unfold flow_no_self in NS. cbn [flow_burned flow_forall] in *.
    destruct (adopt _ _ _ _ _ _ _ _ _); [apply IH; exact NS|]. destruct NS as [N1 N2].
    rewrite tx_burned_none by exact N1. rewrite IH by exact N2. reflexivity.
  Qed.
End Block.
