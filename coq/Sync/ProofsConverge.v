(* Sync/ProofsConverge.v — sync_converges: ancestor search + download from an honest peer (any batch cuts) +
   import through the node's own select ends with the peer's head as best block. *)
From Coq Require Import List NArith ZArith Bool Lia ZifyN ZifyNat ZifyBool.
From Verif Require Import Common.Util Sync.Model Sync.Proofs Sync.ProofsDownload.
Import ListNotations.
Open Scope N_scope.

Section Converge.
  Variable Blk : Type.
  Variable bid parent num : Blk -> N.
  Variable valid : Blk -> bool.
  Variable better : Blk -> Blk -> bool.
  Hypothesis better_asym : forall x y, better x y = true -> better y x = false.
  Hypothesis better_cotrans : forall x y z, better x z = true -> better x y = true \/ better y z = true.
  Hypothesis bid_inj : forall x y, bid x = bid y -> x = y.

  (* a chain by height: element n+1 names element n as its parent *)
  Definition chain_linked (c : list Blk) : Prop :=
    forall n x y, nth_error c n = Some y -> nth_error c (S n) = Some x -> parent x = bid y.

  Variables lc rc : list Blk.      (* local best chain, remote best chain, index = height *)
  Hypothesis lc_linked : chain_linked lc.
  Hypothesis rc_linked : chain_linked rc.

  Definition same_at (n : N) : bool :=
    match nth_error lc (N.to_nat n), nth_error rc (N.to_nat n) with
    | Some x, Some y => bid x =? bid y
    | _, _ => false
    end.

  Lemma same_at_pred n : same_at (N.succ n) = true -> same_at n = true.
  Proof.
    unfold same_at. rewrite N2Nat.inj_succ.
    destruct (nth_error lc (S (N.to_nat n))) as [x|] eqn:E1; [|discriminate].
    destruct (nth_error rc (S (N.to_nat n))) as [y|] eqn:E2; [|discriminate].
    intro H. apply N.eqb_eq in H. apply bid_inj in H. subst y.
    destruct (nth_error lc (N.to_nat n)) as [x'|] eqn:E3.
    2:{ apply nth_error_None in E3. assert (S (N.to_nat n) < length lc)%nat by (apply nth_error_Some; congruence). lia. }
    destruct (nth_error rc (N.to_nat n)) as [y'|] eqn:E4.
    2:{ apply nth_error_None in E4. assert (S (N.to_nat n) < length rc)%nat by (apply nth_error_Some; congruence). lia. }
    apply N.eqb_eq. rewrite <- (lc_linked _ _ _ E3 E1). rewrite <- (rc_linked _ _ _ E4 E2). auto.
  Qed.

  Lemma same_at_monotone : monotone same_at.
  Proof.
    intros n m Hle. replace n with (m + (n - m)) by lia. generalize (n - m). clear Hle n.
    intro d. induction d as [|d IH] using N.peano_ind.
    - rewrite N.add_0_r. auto.
    - intro H. apply IH. apply same_at_pred. replace (N.succ (m + d)) with (m + N.succ d) by lia. auto.
  Qed.

  Variable st : node Blk.
  Hypothesis st_max : best_max Blk better st.
  Hypothesis lc_known : forall b, In b lc -> In b (store Blk st).
  Hypothesis same_genesis : same_at 0 = true.
  Hypothesis lc_nonempty : lc <> [].
  Let head := N.of_nat (length lc - 1).
  Hypothesis head_small : head < 2147483648.

  Hypothesis rc_numbers : forall n b, nth_error rc n = Some b -> num b = N.of_nat n.
  Hypothesis rc_short : N.of_nat (length rc) < 4294967296.
  Hypothesis rc_valid : forall b, In b rc -> valid b = true.
  Variable cut : N -> nat.
  Hypothesis cut_pos : forall n, (1 <= cut n <= max_batch)%nat.

  Variable h : Blk.                (* the peer's head *)
  Hypothesis h_last : nth_error rc (length rc - 1) = Some h.
  Hypothesis h_preferred : better h (best Blk st) = true.
  Hypothesis h_top : forall b, In b rc -> b <> h -> better h b = true.

  Lemma linked_chain : forall l prev (k : N -> bool),
      k (bid prev) = true ->
      (forall b, In b l -> valid b = true) ->
      (forall n x y, nth_error (prev :: l) n = Some y -> nth_error (prev :: l) (S n) = Some x -> parent x = bid y) ->
      linked Blk bid parent valid k l.
  Proof.
    induction l as [|b t IH]; intros prev k Hk Hv Hl; cbn [linked]; auto.
    split; [|split].
    - rewrite (Hl 0%nat b prev eq_refl eq_refl). auto.
    - apply Hv. left; auto.
    - apply (IH b).
      + rewrite N.eqb_refl. auto.
      + intros x Hx. apply Hv. right; auto.
      + intros n x y H1 H2. apply (Hl (S n) x y); auto.
  Qed.

  Theorem sync_converges_thm : forall fuel fuel2,
      (ancestor_fuel head <= fuel)%nat -> (length rc < fuel2)%nat ->
      exists a l st',
        find_common_ancestor (fun n => Some (same_at n)) head fuel = Anc a /\
        is_last same_at head a /\
        download_stream Blk Blk (fun b => Some (num b)) (fun b => Some b) (honest_peer Blk rc cut) (a + 1) fuel2
          = (l, DlDone) /\
        import_all Blk bid parent valid better st l = (st', true) /\
        best Blk st' = h.
  Proof.
    intros fuel fuel2 Hf Hf2.
    destruct (ancestor_correct_all same_at head fuel same_at_monotone same_genesis head_small Hf) as [a [Ha1 Ha2]].
    assert (Hdl := download_honest Blk num rc rc_numbers rc_short cut cut_pos fuel2 (a + 1)).
    pose proof Ha2 as [A1 [A2 A3]].
    (* rc[a] exists and is in the local store; rc splits there *)
    unfold same_at in A2.
    destruct (nth_error lc (N.to_nat a)) as [x|] eqn:Ex; [|discriminate].
    destruct (nth_error rc (N.to_nat a)) as [y|] eqn:Ey; [|discriminate].
    apply N.eqb_eq in A2. apply bid_inj in A2. subst y.
    assert (Hxs : In x (store Blk st)) by (apply lc_known; eapply nth_error_In; eauto).
    destruct (nth_error_split rc (N.to_nat a) Ey) as [low [l [Hsplit Hlen]]].
    assert (Hnth : forall n, nth_error rc (N.to_nat a + n) = nth_error (x :: l) n).
    { intros n. rewrite Hsplit, nth_error_app2, Hlen by lia. f_equal. lia. }
    assert (El : skipn (N.to_nat (a + 1)) rc = l).
    { rewrite Hsplit, skipn_app, skipn_all2, Hlen by lia. replace (N.to_nat (a + 1) - N.to_nat a)%nat with 1%nat by lia. reflexivity. }
    (* every block of the remote chain below height a is the local one, hence stored *)
    assert (Hlow : forall b, In b low -> In b (store Blk st)).
    { intros b Hb. apply In_nth_error in Hb. destruct Hb as [n Hn].
      assert (Hlt : (n < N.to_nat a)%nat) by (rewrite <- Hlen; apply nth_error_Some; congruence).
      assert (Hs : same_at (N.of_nat n) = true).
      { apply (same_at_monotone a); [lia|]. unfold same_at. rewrite Ex, Ey. apply N.eqb_refl. }
      unfold same_at in Hs. rewrite Nat2N.id, Hsplit, nth_error_app1, Hn in Hs by lia.
      destruct (nth_error lc n) as [z|] eqn:Ez; [|discriminate].
      apply N.eqb_eq in Hs. apply bid_inj in Hs. subst z. apply lc_known. eapply nth_error_In; eauto. }
    assert (Hl : linked Blk bid parent valid (known Blk bid st) l).
    { apply (linked_chain l x).
      - apply known_in. exists x. auto.
      - intros b Hb. apply rc_valid. rewrite Hsplit. apply in_or_app. right. right. auto.
      - intros n x0 y0 H1 H2. apply (rc_linked (N.to_nat a + n)%nat x0 y0); [|rewrite <- Nat.add_succ_r]; rewrite Hnth; assumption. }
    (* the head is in the stream (otherwise it would be stored, contradicting maximality of best) *)
    assert (Hh : In h l).
    { assert (Hin : In h rc) by (eapply nth_error_In; eauto).
      rewrite Hsplit in Hin. apply in_app_or in Hin. destruct Hin as [Hin|[Hin|Hin]]; auto.
      - apply Hlow in Hin. rewrite (st_max _ Hin) in h_preferred. discriminate.
      - subst x. rewrite (st_max _ Hxs) in h_preferred. discriminate. }
    destruct (import_reaches_head Blk bid parent valid better better_asym better_cotrans bid_inj l st h
                                  st_max Hl Hh h_preferred) as [st' [I1 [I2 _]]].
    { intros b Hb Hne. apply h_top; auto. rewrite Hsplit. apply in_or_app. right. right. auto. }
    exists a, l, st'. split_and; auto.
    rewrite <- El. apply Hdl; lia.
  Qed.
End Converge.
