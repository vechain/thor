(* Validation/RuleCheck.v — an executable mirror of the catalogue, SOUND for it (rule_b i = true -> rule_holds i).
   Used only to establish, on concrete blocks, "every rule except i holds" by computation (the non-vacuity Examples of
   Properties/C02.v); that the remaining rule fails follows from the verdict of process (exactly_one_rule_fails_by_check). *)
From Coq Require Import List NArith ZArith Bool.
From Verif Require Import Common.Util Sched.Model BaseFee.Model Header.Rules Header.Proofs Validation.Body Validation.Catalogue
     Validation.ProofsRules.
Import ListNotations.
Open Scope N_scope.

Fixpoint nodupb (l : list N) : bool :=
  match l with [] => true | x :: t => negb (existsb (N.eqb x) t) && nodupb t end.

Lemma nodupb_sound l : nodupb l = true -> NoDup l.
Proof.
  induction l as [|x t IH]; cbn [nodupb]; intros H; [constructor|].
  apply andb_true_iff in H. destruct H as [H1 H2]. constructor; [|apply IH; exact H2].
  intros C. apply negb_true_iff in H1. assert (X : existsb (N.eqb x) t = true).
  { apply existsb_exists. exists x. split; [exact C | apply N.eqb_refl]. }
  congruence.
Qed.

Lemma forallb_Forall {A} (f : A -> bool) (P : A -> Prop) l :
  (forall x, f x = true -> P x) -> forallb f l = true -> Forall P l.
Proof.
  intros H. induction l as [|x t IH]; cbn [forallb]; intros E; [constructor|].
  apply andb_true_iff in E. destruct E. constructor; auto.
Qed.

Section RuleCheck.
  Variable State : Type.
  Variable exec : bctx -> State -> txn -> option (State * receipt).
  Variable apply_updates : bool -> N -> State -> list (N * bool) -> State.
  Variable rewards : bctx -> State -> option State.
  Variable sanity : State -> bool.
  Variable root_of_state : State -> N.
  Variable root_of_receipts : list receipt -> N.
  Variable root_of_txs : list txn -> N.
  Variable has_tx : N -> N -> bool.
  Variable find_meta : N -> option bool.
  Variable cfg : config.
  Variable pv : pview.
  Variable parent : header.
  Variable st0 : State.
  Variable b : block.
  Variable now : N.

  Notation rule_holds := (rule_holds State exec apply_updates rewards sanity root_of_state root_of_receipts root_of_txs has_tx find_meta cfg pv parent st0 b now).
  Notation run := (run State exec).

  Let h := b_header b.
  Let txs := b_txs b.
  Let num := h_number parent + 1.
  Let T := c_interval cfg.
  Let kind := kind_of cfg pv num.
  Let ctx := ctx_of_header parent h.

  Definition prop_mep : option proposer :=
    match h_signer h with Some s => find_me s (props (pv_cands pv)) | None => None end.

  Definition us_of (mep : proposer) := sched_updates kind (pv_hash pv) (h_time parent) T (pv_cands pv) mep (pv_total pv) (h_time h).

  Definition run_res : option (option (State * list receipt)) :=
    match prop_mep with
    | Some mep => Some (run ctx (apply_updates (pv_pos pv) num st0 (fst (us_of mep))) txs)
    | None => None
    end.

  Definition dep_ruleb (earlier : list (N * bool)) (t : txn) : bool :=
    match t_dep t with
    | None => true
    | Some d => match lookup d earlier with
                | Some rv => negb rv
                | None => match find_meta d with Some rv => negb rv | None => false end
                end
    end.
  Fixpoint deps_okb (earlier : list (N * bool)) (l : list txn) (rs : list receipt) : bool :=
    match l, rs with
    | t :: l', r :: rs' => dep_ruleb earlier t && deps_okb ((t_id t, r_reverted r) :: earlier) l' rs'
    | _, _ => true
    end.

  Definition on_run (f : State -> list receipt -> bool) : bool :=
    match run_res with Some (Some (stf, rs)) => f stf rs | _ => true end.

  Definition rule_b (i : N) : bool :=
    match i with
    | 1 => h_time parent <? h_time h
    | 2 => (h_time h - h_time parent) mod T =? 0
    | 3 => h_time h <=? now + T
    | 4 => h_gas_used h <=? h_gas_limit h
    | 5 => h_total_score parent <? h_total_score h
    | 6 => (gas_limit_floor <=? h_gas_limit h) &&
           (h_gas_limit h <=? h_gas_limit parent + h_gas_limit parent / gas_limit_bound_divisor) &&
           (h_gas_limit parent <=? h_gas_limit h + h_gas_limit parent / gas_limit_bound_divisor)
    | 7 => if num <? c_vip214 cfg then (fst (h_alpha h) =? 0) && (h_sig_len h =? 65) else true
    | 8 => if c_vip214 cfg <=? num then
             (h_sig_len h =? 146) &&
             match h_beta parent with
             | Some pb => bytes_eqb (h_alpha h) (if fst pb =? 0 then (32, h_state_root parent) else pb)
             | None => false
             end &&
             match h_beta h with Some _ => true | None => false end
           else true
    | 9 => if num <? c_finality cfg then negb (h_com h) else true
    | 10 => if num <? c_galactica cfg then match h_base_fee h with None => true | Some _ => false end else true
    | 11 => if c_galactica cfg <=? num then
              match h_base_fee h with
              | Some bf => negb (base_fee_nil_deref cfg parent) &&
                           match expected_base_fee cfg parent with BfFee e => (Z.of_N bf =? e)%Z | _ => false end
              | None => false
              end
            else true
    | 12 => h_features h =? (if c_vip191 cfg <=? num then 1 else 0)
    | 20 => match prop_mep with Some _ => true | None => false end
    | 21 => match prop_mep with
            | Some mep => match slot_owner kind (pv_hash pv) (h_time parent) T (pv_cands pv) (p_addr mep) (h_time h) with
                          | Some o => o =? p_addr mep
                          | None => false
                          end
            | None => true
            end
    | 22 => match prop_mep with
            | Some mep => h_total_score h =? wrap64 (h_total_score parent + snd (us_of mep))
            | None => true
            end
    | 23 => if pv_pos pv then
              match h_signer h with
              | Some s => match leader_beneficiary s (pv_cands pv) with Some bnf => h_beneficiary h =? bnf | None => true end
              | None => true
              end
            else true
    | 30 => h_txs_root h =? root_of_txs txs
    | 31 => forallb (fun t => t_origin_ok t && t_delegator_ok t) txs
    | 32 => if c_blocklist cfg <=? num then forallb (fun t => negb (t_origin_blocked t) && negb (t_delegator_blocked t)) txs else true
    | 33 => forallb (fun t => t_chain_tag t =? c_chain_tag cfg) txs
    | 34 => forallb (fun t => t_ref t <=? num) txs
    | 35 => forallb (fun t => num <=? t_ref t + t_exp t) txs
    | 36 => if num <? c_galactica cfg then forallb (fun t => t_type t =? 0) txs else true
    | 37 => forallb (fun t => (N.land (t_features t) (h_features h) =? t_features t) && negb (t_unused t)) txs
    | 40 => nodupb (map t_id txs) && forallb (fun t => negb (has_tx (t_id t) (t_ref t))) txs
    | 41 => match run_res with Some None => false | _ => true end
    | 42 => on_run (fun _ rs => deps_okb [] txs rs)
    | 43 => on_run (fun _ rs => h_gas_used h =? total_gas rs)
    | 44 => on_run (fun _ rs => receipts_root_ok b (root_of_receipts rs))
    | 45 => if pv_pos pv then on_run (fun stf _ => sanity stf) else true
    | 46 => if pv_pos pv then on_run (fun stf _ => match rewards ctx stf with Some _ => true | None => false end) else true
    | 47 => on_run (fun stf _ => h_state_root h =?
                                 root_of_state (if pv_pos pv then match rewards ctx stf with Some s => s | None => stf end else stf))
    | _ => true
    end.

  Lemma prop_mep_iff mep : Catalogue.the_proposer pv b mep <-> prop_mep = Some mep.
  Proof.
    unfold prop_mep, Catalogue.the_proposer. fold h. split.
    - intros (s & Hs & Hf). rewrite Hs. exact Hf.
    - destruct (h_signer h) as [s|]; [|discriminate]. intros Hf. exists s. auto.
  Qed.

  Lemma on_run_sound (f : State -> list receipt -> bool) (P : State -> list receipt -> Prop) :
    (forall stf rs, f stf rs = true -> P stf rs) -> on_run f = true ->
    forall stf rs, the_run State exec apply_updates cfg pv parent st0 b stf rs -> P stf rs.
  Proof.
    intros Hf Ho stf rs (mep & TP & Hr). apply prop_mep_iff in TP. unfold on_run, run_res in Ho. rewrite TP in Ho.
    unfold start_state, updates_and_score in Hr. unfold us_of, txs, ctx, kind, T, num, h in *.
    rewrite Hr in Ho. apply Hf. exact Ho.
  Qed.

  Lemma dep_ruleb_sound e t : dep_ruleb e t = true -> dep_rule find_meta e t.
  Proof.
    unfold dep_ruleb, dep_rule. destruct (t_dep t) as [d|]; [|auto].
    destruct (lookup d e) as [[|]|]; cbn; try discriminate; auto.
    destruct (find_meta d) as [[|]|]; cbn; try discriminate; auto.
  Qed.

  Lemma deps_okb_sound l : forall e rs, deps_okb e l rs = true -> deps_ok find_meta e l rs.
  Proof.
    induction l as [|t l IH]; intros e rs; [destruct rs; cbn; auto|].
    destruct rs as [|r rs]; cbn [deps_okb Catalogue.deps_ok]; [auto|].
    intros H. apply andb_true_iff in H. destruct H as [H1 H2]. split; [apply dep_ruleb_sound; exact H1 | apply IH; exact H2].
  Qed.

  Definition rule_ids : list N :=
    [1;2;3;4;5;6;7;8;9;10;11;12;20;21;22;23;30;31;32;33;34;35;36;37;40;41;42;43;44;45;46;47].

  Theorem rule_b_sound i : rule_b i = true -> rule_holds i.
  Proof.
    revert i. apply (by_rule_list (fun i => rule_b i = true -> rule_holds i) rule_ids); [|intros i E _; exact (off_catalogue _ _ _ _ _ _ _ _ _ _ _ _ _ _ _ _ i E)].
    repeat apply Forall_cons; [..|apply Forall_nil]; cbn [rule_b Catalogue.rule_holds]; fold h num T kind ctx;
      try (intros H; first [apply N.ltb_lt | apply N.eqb_eq | apply N.leb_le]; exact H).
    (* rules 1, 2, 3, 4, 5, 12 and 30 are single comparisons and are closed by the line above *)
    - (* 6 *) intros H. apply andb_true_iff in H. destruct H as [H H3]. apply andb_true_iff in H. destruct H as [H1 H2].
      apply N.leb_le in H1, H2, H3. auto.
    - (* 7 *) intros H Hlt. apply N.ltb_lt in Hlt. rewrite Hlt in H.
      apply andb_true_iff in H. destruct H as [H1 H2]. apply N.eqb_eq in H1, H2. auto.
    - (* 8 *) intros H Hle. apply N.leb_le in Hle. rewrite Hle in H.
      apply andb_true_iff in H. destruct H as [H H3]. apply andb_true_iff in H. destruct H as [H1 H2]. apply N.eqb_eq in H1.
      split; [exact H1|]. split.
      + destruct (h_beta parent) as [pb|]; [|discriminate]. exists pb. split; [reflexivity|]. apply bytes_eqb_eq. exact H2.
      + destruct (h_beta h); [discriminate | discriminate H3].
    - (* 9 *) intros H Hlt. apply N.ltb_lt in Hlt. rewrite Hlt in H. apply negb_true_iff. exact H.
    - (* 10 *) intros H Hlt. apply N.ltb_lt in Hlt. rewrite Hlt in H. destruct (h_base_fee h); [discriminate H | reflexivity].
    - (* 11 *) intros H Hle. apply N.leb_le in Hle. rewrite Hle in H.
      destruct (h_base_fee h) as [bf|]; [|discriminate H]. exists bf. split; [reflexivity|].
      apply andb_true_iff in H. destruct H as [H1 H2]. apply negb_true_iff in H1. split; [exact H1|].
      destruct (expected_base_fee cfg parent) as [|e|]; try discriminate. apply Z.eqb_eq in H2. subst e. reflexivity.
    - (* 20 *) destruct prop_mep as [mep|] eqn:E; [|discriminate]. intros _. exists mep. apply prop_mep_iff. exact E.
    - (* 21 *) intros H mep TP. apply prop_mep_iff in TP. rewrite TP in H.
      destruct (slot_owner _ _ _ _ _ _ _) as [o|]; [|discriminate]. apply N.eqb_eq in H. congruence.
    - (* 22 *) intros H mep TP. apply prop_mep_iff in TP. rewrite TP in H. apply N.eqb_eq. exact H.
    - (* 23 *) intros H Hpos s bnf Hs Hl. rewrite Hpos, Hs, Hl in H. apply N.eqb_eq. exact H.
    - (* 31 *) apply forallb_Forall. intros t H. apply andb_true_iff in H. exact H.
    - (* 32 *) intros H Hle. apply N.leb_le in Hle. rewrite Hle in H. revert H.
      apply forallb_Forall. intros t H. apply andb_true_iff in H. destruct H as [H1 H2]. apply negb_true_iff in H1, H2. auto.
    - (* 33 *) apply forallb_Forall. intros t H. apply N.eqb_eq. exact H.
    - (* 34 *) apply forallb_Forall. intros t H. apply N.leb_le. exact H.
    - (* 35 *) apply forallb_Forall. intros t H. apply N.leb_le. exact H.
    - (* 36 *) intros H Hlt. apply N.ltb_lt in Hlt. rewrite Hlt in H. revert H.
      apply forallb_Forall. intros t H. apply N.eqb_eq. exact H.
    - (* 37 *) apply forallb_Forall. intros t H. apply andb_true_iff in H. destruct H as [H1 H2].
      apply N.eqb_eq in H1. apply negb_true_iff in H2. auto.
    - (* 40 *) intros H. apply andb_true_iff in H. destruct H as [H1 H2]. split; [apply nodupb_sound; exact H1|].
      revert H2. apply forallb_Forall. intros t H. apply negb_true_iff. exact H.
    - (* 41 *) intros H mep TP. apply prop_mep_iff in TP. unfold run_res in H. rewrite TP in H.
      destruct (run _ _ _) as [[stf rs]|] eqn:Er in H; [exists stf, rs; exact Er | discriminate H].
    - (* 42 *) apply on_run_sound. intros stf rs. apply deps_okb_sound.
    - (* 43 *) apply on_run_sound. intros stf rs H. apply N.eqb_eq. exact H.
    - (* 44 *) apply on_run_sound. intros stf rs H. apply receipts_root_ok_iff. exact H.
    - (* 45 *) intros H Hpos. rewrite Hpos in H. revert H. apply on_run_sound. auto.
    - (* 46 *) intros H Hpos. rewrite Hpos in H. revert H. apply on_run_sound.
      intros stf rs H. destruct (rewards ctx stf); [discriminate | discriminate].
    - (* 47 *) apply on_run_sound. intros stf rs H. apply N.eqb_eq. exact H.
  Qed.

  Theorem others_hold_by_check i :
    forallb (fun j => (j =? i) || rule_b j) rule_ids = true -> forall j, j <> i -> rule_holds j.
  Proof.
    intros H. apply (by_rule_list (fun j => j <> i -> rule_holds j) rule_ids);
      [|intros j E _; exact (off_catalogue _ _ _ _ _ _ _ _ _ _ _ _ _ _ _ _ j E)].
    apply Forall_forall. intros j Hin Hj. rewrite forallb_forall in H. specialize (H j Hin).
    apply orb_true_iff in H. destruct H as [H|H]; [apply N.eqb_eq in H; contradiction | exact (rule_b_sound j H)].
  Qed.

  (* "exactly rule i fails", by two computations: the check of the other rules and the verdict of process *)
  Theorem exactly_one_rule_fails_by_check i v :
    0 < c_interval cfg -> wf_gas parent b ->
    forallb (fun j => (j =? i) || rule_b j) rule_ids = true ->
    process State exec apply_updates rewards sanity root_of_state root_of_receipts root_of_txs has_tx find_meta cfg pv parent st0 b now
      = Rejected State v ->
    ~ rule_holds i /\ (forall j, j <> i -> rule_holds j).
  Proof.
    intros HT W Hc Hp. pose proof (others_hold_by_check i Hc) as Ho. split; [|exact Ho].
    intros Hi. assert (A : forall j, rule_holds j) by (intros j; destruct (N.eq_dec j i) as [->|Hj]; [exact Hi | exact (Ho j Hj)]).
    apply (accept_iff_rules_lemma State exec apply_updates rewards sanity root_of_state root_of_receipts root_of_txs has_tx find_meta
             cfg pv parent st0 b now HT W) in A.
    destruct A as (st & rcs & A). congruence.
  Qed.
End RuleCheck.
