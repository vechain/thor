(* Staker/ProofsCustody.v — custody: what a validation holds (locked + queued + cooldown + withdrawable) changes only by what
   its endorser pays in (AddValidation, IncreaseStake) and is paid out (WithdrawStake); a delegation's stake only by
   AddDelegation / WithdrawDelegation.  Per-operation lemmas for the user operations. *)
From Coq Require Import List NArith Bool Lia.
From Coq Require Import ZifyBool.
From Verif Require Import Common.Util Staker.Model Staker.Base Staker.Lists Staker.Inv Staker.RList Staker.Inv2
  Staker.ProofsStep Staker.ProofsUser Staker.ProofsUser2 Staker.ProofsHist Staker.Held Staker.ProofsEpoch Staker.ProofsAll
  Staker.Footprint.
Import ListNotations.
Open Scope N_scope.

Opaque e18 two64.

Definition paid_in (c : cfg) (s : st) (o : op) (a : N) : N :=
  match o with
  | OAddValidation a' _ _ vet | OIncrease a' _ vet => if (a' =? a) && (fst (answer c s o) =? 0) then vet else 0
  | _ => 0
  end.
Definition paid_out (c : cfg) (s : st) (o : op) (a : N) : N :=
  match o with OWithdraw a' _ => if a' =? a then snd (answer c s o) else 0 | _ => 0 end.

Definition deleg_in (c : cfg) (s : st) (o : op) (id : N) : N :=
  match o with
  | OAddDeleg _ vet _ => if (fst (answer c s o) =? 0) && (snd (answer c s o) =? id) then vet else 0
  | _ => 0
  end.
Definition deleg_out (c : cfg) (s : st) (o : op) (id : N) : N :=
  match o with OWithdrawDeleg id' => if id' =? id then snd (answer c s o) else 0 | _ => 0 end.

Lemma money_only_held s s' : money_only s s' -> forall b, held_by s' b = held_by s b.
Proof. intros [q [wd [cd [e [b ->]]]]]. apply held_by_vals. reflexivity. Qed.
Lemma money_only_dels s s' : money_only s s' -> dels s' = dels s.
Proof. intros [q [wd [cd [e [b ->]]]]]. reflexivity. Qed.

Lemma add_validation_held c a e p vet s s' x :
  add_validation c a e p vet (pay_in (vet * e18) s) = Ok (s', x) ->
  forall b, held_by s' b = held_by s b + (if a =? b then vet else 0).
Proof.
  intros H b. unfold add_validation in H.
  bstep H u1 G1. bstep H u2 G2. bstep H u3 G3. bstep H u4 G4. bstep H u5 G5. bstep H s1 Hadd. bstep H u6 G6.
  inversion H; subst s' x; clear H. gfacts.
  assert (Hnone : getv s a = None).
  { change (getv (pay_in (vet * e18) s) a) with (getv s a) in G4. destruct (getv s a); [discriminate|reflexivity]. }
  destruct (ll_add_held _ _ _ _ _ Hadd) as [Ho Ha].
  change (held_by (add_queued vet s1) b) with (held_by s1 b).
  destruct (a =? b) eqn:E.
  - apply N.eqb_eq in E. subst b. rewrite Ha. unfold held_by. rewrite Hnone. unfold held. cbn. lia.
  - apply N.eqb_neq in E. rewrite Ho by auto. change (held_by (pay_in (vet * e18) s) b) with (held_by s b). lia.
Qed.

Lemma increase_stake_held a e vet s s' x :
  increase_stake a e vet (pay_in (vet * e18) s) = Ok (s', x) ->
  forall b, held_by s' b = held_by s b + (if a =? b then vet else 0).
Proof.
  intros H b. unfold increase_stake in H.
  bstep H v Hv. apply get_or_revert_ok in Hv. change (getv s a = Some v) in Hv.
  bstep H u1 G1. bstep H u2 G2. bstep H u3 G3. bstep H u4 G4. bstep H u5 G5. bstep H u6 G6.
  inversion H; subst s' x; clear H.
  change (held_by (add_queued vet (rl_add a (setv a (set_queued (v_queued v + vet) v) (pay_in (vet * e18) s)))) b)
    with (held_by (rl_add a (setv a (set_queued (v_queued v + vet) v) (pay_in (vet * e18) s))) b).
  rewrite (held_by_ren_only _ _ (rl_add_only a _)). rewrite held_by_setv.
  destruct (a =? b) eqn:E.
  - apply N.eqb_eq in E. subst b. unfold held_by. rewrite Hv. unfold held. cbn. lia.
  - change (held_by (pay_in (vet * e18) s) b) with (held_by s b). lia.
Qed.

Lemma withdraw_stake_held c a e s s1 x s2 la lq :
  withdraw_stake c a e s = Ok (s1, x) -> pay_out x s1 = Ok s2 -> WF s la lq ->
  forall b, held_by s2 b + (if a =? b then x else 0) = held_by s b.
Proof.
  intros H Hpay Hwf b. destruct (withdraw_stake_shape _ _ _ _ _ _ _ H Hpay) as [v [sb [Hv [M Hsh]]]].
  destruct (withdraw_stake_amount c a e s s1 x v H Hv) as [Ex _]. rewrite (money_only_held _ _ M). clear M H Hpay.
  destruct (v_status v =? StatusQueued) eqn:Est.
  - apply N.eqb_eq in Est. destruct Hsh as [s1' [e1 [Hrm ->]]]. change (held_by (set_agg a agg0 s1') b) with (held_by s1' b).
    set (v1 := set_status StatusExit (set_amounts (v_locked v) (v_punlock v) 0 (v_cooldown v) 0 (v_weight v) v)) in *.
    assert (Hin : In a lq) by (apply (wf_st _ _ _ Hwf a v Hv); auto).
    destruct (WF_remove false s la lq a v1 s1' e1 v Hwf Hrm Hv Hin eq_refl eq_refl eq_refl)
      as [l1 [l2 [El [Hwf1 [Hlo [Hga [Hce [Hco [Hsum _]]]]]]]]].
    destruct (ll_remove_held _ _ _ _ _ _ Hrm) as [Ho _].
    destruct (a =? b) eqn:E.
    + apply N.eqb_eq in E. subst b. unfold held_by. rewrite Hga, Hv, (core_held _ _ Hce), Ex. unfold held. cbn. lia.
    + apply N.eqb_neq in E. rewrite Ho by auto. lia.
  - subst sb. rewrite held_by_setv. destruct (a =? b) eqn:E; [|lia].
    apply N.eqb_eq in E. subst b. unfold held_by. rewrite Hv, Ex. unfold held. cbn. destruct (cooldown_ended c v (blk s)); cbn; lia.
Qed.

(* every operation but a block, AddValidation, IncreaseStake and WithdrawStake leaves what each validation holds *)
Lemma other_op_held c o s s' x :
  run_op c o s = Ok (s', x) ->
  match o with OBlock | OAddValidation _ _ _ _ | OIncrease _ _ _ | OWithdraw _ _ => False | _ => True end ->
  forall b, held_by s' b = held_by s b.
Proof.
  intros E Ho b. destruct o; try contradiction; cbn [run_op] in E.
  - bstep E u G. unfold decrease_stake in E.
    bstep E u0 G0. bstep E v Hv. apply get_or_revert_ok in Hv.
    bstep E u1 G1. bstep E u2 G2. bstep E u3 G3. bstep E u4 G4. bstep E u5 G5. bstep E u6 G6. bstep E u7 G7.
    inversion E; subst s' x; clear E.
    rewrite (held_by_ren_only _ _ (rl_add_only a _)). apply held_by_setv_same_held with (v := v); auto.
  - unfold signal_exit in E.
    bstep E v Hv. bstep E u1 G1. bstep E u2 G2. bstep E u3 G3. bstep E cur Hc. bstep E s1 Hs. inversion E; subst s' x; clear E.
    apply svc_signal_exit_shape in Hs; [|discriminate]. destruct Hs as [v2 [eb [cur2 [Hv2 [_ ->]]]]].
    rewrite (held_by_setv_same_held a v2 _ (w_exits (upd (exits s) eb a) s)); auto.
  - unfold set_online in E. bstep E v Hv. unfold get_existing in Hv. apply of_opt_ok in Hv.
    inversion E; subst s' x; clear E. apply held_by_setv_same_held with (v := v); auto.
  - unfold set_beneficiary in E. bstep E v Hv. apply get_or_revert_ok in Hv.
    bstep E u1 G1. bstep E u2 G2. inversion E; subst s' x; clear E. apply held_by_setv_same_held with (v := v); auto.
  - bstep E u G. unfold add_delegation in E.
    bstep E u1 G1. bstep E u2 G2. bstep E v Hv. bstep E u3 G3. bstep E u4 G4. bstep E u5 G5. bstep E cur Hc. bstep E s2 Hp. bstep E u6 G6.
    inversion E; subst s' x; clear E.
    unfold aggs_add_pending in Hp. bstep Hp pw Hpw. destruct pw as [pv pw]. inversion Hp; subst s2; clear Hp.
    destruct (v_status v =? StatusActive); [rewrite (held_by_ren_only _ _ (rl_add_only a _))|]; reflexivity.
  - unfold signal_delegation_exit in E. destruct (get (dels s) id) as [d|]; [|discriminate].
    bstep E u1 G1. bstep E u2 G2. bstep E v Hv. bstep E stt Hst. bstep E u3 G3. bstep E en Hen. bstep E u4 G4. bstep E cur Hc.
    bstep E s2 Hp. inversion E; subst s' x; clear E.
    unfold aggs_signal_exit in Hp. bstep Hp ew Hew. destruct ew as [ev ew]. inversion Hp; subst s2; clear Hp.
    destruct (v_status v =? StatusActive); [rewrite (held_by_ren_only _ _ (rl_add_only _ _))|]; reflexivity.
  - bstep E r Hr. destruct r as [s1 y]. bstep E s2 Hpay. inversion E; subst s2 y; clear E.
    unfold withdraw_delegation in Hr. destruct (get (dels s) id) as [d|]; [|discriminate].
    bstep Hr v Hv. bstep Hr stt Hst. bstep Hr fi Hfi. bstep Hr u1 G1. bstep Hr sb Hb. bstep Hr u2 G2.
    inversion Hr; subst s1 x; clear Hr. rewrite (money_only_held _ _ (mo_pay_out _ _ _ Hpay)).
    destruct (negb stt && negb (v_status v =? StatusExit)).
    + bstep Hb sa Ha. unfold aggs_sub_pending in Ha. bstep Ha pw Hpw. destruct pw as [pv pw]. inversion Ha; subst sa; clear Ha.
      rewrite (money_only_held _ _ (mo_remove_queued _ _ _ Hb)). reflexivity.
    + rewrite (money_only_held _ _ (mo_remove_withdrawable _ _ _ Hb)). reflexivity.
  - unfold increase_reward in E. bstep E v Hv. bstep E cur Hc. inversion E; subst. reflexivity.
  - inversion E; subst. reflexivity.
  - inversion E; subst. reflexivity.
Qed.

Lemma stake_of_dels s s' : dels s' = dels s -> forall id, stake_of s' id = stake_of s id.
Proof. intros E id. unfold stake_of. rewrite E. reflexivity. Qed.

Lemma add_delegation_stake a vet mult s s' x :
  add_delegation a vet mult (pay_in (vet * e18) s) = Ok (s', x) -> Inv1 s ->
  x = del_ctr s + 1 /\ forall id, stake_of s' id = stake_of s id + (if x =? id then vet else 0).
Proof.
  intros H [_ _ _ _ _ _ I7]. unfold add_delegation in H.
  bstep H u1 G1. bstep H u2 G2. bstep H v Hv. bstep H u3 G3. bstep H u4 G4. bstep H u5 G5. bstep H cur Hc. bstep H s2 Hp. bstep H u6 G6.
  inversion H; subst s' x; clear H.
  unfold aggs_add_pending in Hp. bstep Hp pw Hpw. destruct pw as [pv pw]. inversion Hp; subst s2; clear Hp.
  split; [reflexivity|]. intros id.
  assert (E : forall sf, dels sf = upd (dels s) (del_ctr s + 1) (mkD a vet mult None (cur + 1)) ->
              stake_of sf id = stake_of s id + (if del_ctr s + 1 =? id then vet else 0)).
  { intros sf Ed. unfold stake_of. rewrite Ed, get_upd. change (del_ctr (pay_in (vet * e18) s)) with (del_ctr s).
    destruct (del_ctr s + 1 =? id) eqn:E.
    - apply N.eqb_eq in E. subst id. destruct (get (dels s) (del_ctr s + 1)) as [d|] eqn:Eg; [apply I7 in Eg; lia|]. cbn. lia.
    - lia. }
  apply E. destruct (v_status v =? StatusActive); [rewrite (rl_add_only a _)|]; reflexivity.
Qed.

Lemma signal_delegation_exit_stake id s s' x :
  signal_delegation_exit id s = Ok (s', x) -> forall i, stake_of s' i = stake_of s i.
Proof.
  intros H i. unfold signal_delegation_exit in H. destruct (get (dels s) id) as [d|] eqn:Ed; [|discriminate].
  bstep H u1 G1. bstep H u2 G2. bstep H v Hv. bstep H stt Hst. bstep H u3 G3. bstep H en Hen. bstep H u4 G4. bstep H cur Hc.
  bstep H s2 Hp. inversion H; subst s' x; clear H.
  unfold aggs_signal_exit in Hp. bstep Hp ew Hew. destruct ew as [ev ew]. inversion Hp; subst s2; clear Hp.
  assert (E : forall sf, dels sf = upd (dels s) id (mkD (d_val d) (d_stake d) (d_mult d) (Some cur) (d_first d)) -> stake_of sf i = stake_of s i).
  { intros sf Ef. unfold stake_of. rewrite Ef, get_upd. destruct (id =? i) eqn:E; auto. apply N.eqb_eq in E. subst i. rewrite Ed. reflexivity. }
  apply E. destruct (v_status v =? StatusActive); [rewrite (rl_add_only _ _)|]; reflexivity.
Qed.

Lemma withdraw_delegation_stake id s s1 x s2 :
  withdraw_delegation id s = Ok (s1, x) -> pay_out x s1 = Ok s2 ->
  forall i, stake_of s2 i + (if id =? i then x else 0) = stake_of s i.
Proof.
  intros H Hpay i. unfold withdraw_delegation in H. destruct (get (dels s) id) as [d|] eqn:Ed; [|discriminate].
  bstep H v Hv. bstep H stt Hst. bstep H fi Hfi. bstep H u1 G1. bstep H sb Hb. bstep H u2 G2.
  inversion H; subst s1 x; clear H.
  assert (E : dels s2 = upd (dels s) id (mkD (d_val d) 0 (d_mult d) (d_last d) (d_first d))).
  { rewrite (money_only_dels _ _ (mo_pay_out _ _ _ Hpay)).
    destruct (negb stt && negb (v_status v =? StatusExit)).
    - bstep Hb sa Ha. unfold aggs_sub_pending in Ha. bstep Ha pw Hpw. destruct pw as [pv pw]. inversion Ha; subst sa; clear Ha.
      rewrite (money_only_dels _ _ (mo_remove_queued _ _ _ Hb)). reflexivity.
    - rewrite (money_only_dels _ _ (mo_remove_withdrawable _ _ _ Hb)). reflexivity. }
  unfold stake_of. rewrite E, get_upd. destruct (id =? i) eqn:Ei; [|lia]. apply N.eqb_eq in Ei. subst i. rewrite Ed. cbn. lia.
Qed.

Lemma block_dels c s : dels (step c s OBlock) = dels s.
Proof. apply (proj1 (block_quiet c s)). Qed.

Lemma answer_ok c s o s' x : run_op c o s = Ok (s', x) -> answer c s o = (0, x) /\ step c s o = s'.
Proof. intros E. unfold answer, step. rewrite E. auto. Qed.
Lemma answer_fail c s o : (forall r, run_op c o s <> Ok r) -> snd (answer c s o) = 0 /\ (fst (answer c s o) =? 0) = false /\ step c s o = s.
Proof. intros H. unfold answer, step. destruct (run_op c o s) as [[s' x]| |]; [exfalso; apply (H (s', x)); auto|auto|auto]. Qed.

Theorem custody_step c s o a : FullInv s ->
  held_by (step c s o) a + paid_out c s o a = held_by s a + paid_in c s o a.
Proof.
  intros [la [lq HF]]. destruct (run_op c o s) as [[s' x]| |] eqn:E.
  - destruct (answer_ok _ _ _ _ _ E) as [Ea Es]. rewrite Es.
    destruct o; cbn [paid_in paid_out]; rewrite ?Ea; cbn [fst snd N.eqb andb];
      try (rewrite (other_op_held c _ s s' x E I a); lia); cbn [run_op] in E.
    + rewrite <- Es. destruct (block_step_Full c s la lq HF) as [_ [_ [_ [_ [Hh _]]]]]. rewrite Hh. lia.
    + bstep E u G. rewrite (add_validation_held _ _ _ _ _ _ _ _ E a). rewrite andb_true_r. lia.
    + bstep E u G. rewrite (increase_stake_held _ _ _ _ _ _ E a). rewrite andb_true_r. lia.
    + bstep E r Hr. destruct r as [s1 y]. bstep E s2 Hp. inversion E; subst s2 y.
      pose proof (withdraw_stake_held _ _ _ _ _ _ _ _ _ Hr Hp (f_wf _ _ _ HF) a). lia.
  - assert (F : forall r, run_op c o s <> Ok r) by (intros r; rewrite E; discriminate).
    destruct (answer_fail _ _ _ F) as [A1 [A2 A3]]. rewrite A3.
    destruct o; cbn [paid_in paid_out]; rewrite ?A1, ?A2, ?andb_false_r; try lia. destruct (a0 =? a); lia.
  - assert (F : forall r, run_op c o s <> Ok r) by (intros r; rewrite E; discriminate).
    destruct (answer_fail _ _ _ F) as [A1 [A2 A3]]. rewrite A3.
    destruct o; cbn [paid_in paid_out]; rewrite ?A1, ?A2, ?andb_false_r; try lia. destruct (a0 =? a); lia.
Qed.

Theorem custody_step_deleg c s o id : FullInv s ->
  stake_of (step c s o) id + deleg_out c s o id = stake_of s id + deleg_in c s o id.
Proof.
  intros [la [lq HF]]. destruct (run_op c o s) as [[s' x]| |] eqn:E.
  - destruct (answer_ok _ _ _ _ _ E) as [Ea Es]. rewrite Es.
    assert (Same : dels s' = dels s -> stake_of s' id = stake_of s id) by (intros Ed; apply stake_of_dels; auto).
    destruct o; cbn [deleg_in deleg_out]; rewrite ?Ea; cbn [fst snd N.eqb andb];
      try (rewrite Same; [lia|apply (user_op_quiet c _ s s' x E I)]); cbn [run_op] in E.
    + rewrite <- Es. rewrite (stake_of_dels _ _ (block_dels c s)). lia.
    + bstep E u G. destruct (add_delegation_stake _ _ _ _ _ _ E (f_1 _ _ _ HF)) as [Ex Hs]. rewrite (Hs id). lia.
    + rewrite (signal_delegation_exit_stake _ _ _ _ E id). lia.
    + bstep E r Hr. destruct r as [s1 y]. bstep E s2 Hp. inversion E; subst s2 y. pose proof (withdraw_delegation_stake _ _ _ _ _ Hr Hp id). lia.
  - assert (F : forall r, run_op c o s <> Ok r) by (intros r; rewrite E; discriminate).
    destruct (answer_fail _ _ _ F) as [A1 [A2 A3]]. rewrite A3.
    destruct o; cbn [deleg_in deleg_out]; rewrite ?A1, ?A2; cbn [andb]; try lia. destruct (id0 =? id); lia.
  - assert (F : forall r, run_op c o s <> Ok r) by (intros r; rewrite E; discriminate).
    destruct (answer_fail _ _ _ F) as [A1 [A2 A3]]. rewrite A3.
    destruct o; cbn [deleg_in deleg_out]; rewrite ?A1, ?A2; cbn [andb]; try lia. destruct (id0 =? id); lia.
Qed.

Fixpoint total (f : cfg -> st -> op -> N -> N) (c : cfg) (s : st) (ops : list op) (a : N) : N :=
  match ops with [] => 0 | o :: t => f c s o a + total f c (step c s o) t a end.

Theorem custody_validation_hist c s ops a : FullInv s ->
  held_by (run c s ops) a + total paid_out c s ops a = held_by s a + total paid_in c s ops a.
Proof.
  revert s. induction ops as [|o t IH]; intros s HF; cbn [run fold_left total]; [lia|].
  pose proof (custody_step c s o a HF) as S1. pose proof (IH (step c s o) (step_FullInv c s o HF)) as S2.
  unfold run in S2. lia.
Qed.

Theorem custody_delegation_hist c s ops id : FullInv s ->
  stake_of (run c s ops) id + total deleg_out c s ops id = stake_of s id + total deleg_in c s ops id.
Proof.
  revert s. induction ops as [|o t IH]; intros s HF; cbn [run fold_left total]; [lia|].
  pose proof (custody_step_deleg c s o id HF) as S1. pose proof (IH (step c s o) (step_FullInv c s o HF)) as S2.
  unfold run in S2. lia.
Qed.

Lemma money_only_getv s s' : money_only s s' -> forall b, getv s' b = getv s b.
Proof. intros [q [wd [cd [e [b ->]]]]]. reflexivity. Qed.
Lemma money_only_blk s s' : money_only s s' -> blk s' = blk s.
Proof. intros [q [wd [cd [e [b ->]]]]]. reflexivity. Qed.

(* the record of the validation after a successful WithdrawStake: queued and withdrawable emptied, the cooldown bucket emptied
   if it was due; a validation that was still queued is now Exit *)
Lemma withdraw_stake_record c a e s s1 x s2 la lq v :
  withdraw_stake c a e s = Ok (s1, x) -> pay_out x s1 = Ok s2 -> WF s la lq -> getv s a = Some v ->
  blk s2 = blk s /\ exists v2, getv s2 a = Some v2 /\ v_endorser v2 = v_endorser v /\ v_exit v2 = v_exit v /\
    v_queued v2 = 0 /\ v_withdrawable v2 = 0 /\
    (if v_status v =? StatusQueued then v_status v2 = StatusExit /\ v_cooldown v2 = v_cooldown v
     else v_status v2 = v_status v /\ v_cooldown v2 = if cooldown_ended c v (blk s) then 0 else v_cooldown v).
Proof.
  intros H Hpay Hwf Hv. destruct (withdraw_stake_shape _ _ _ _ _ _ _ H Hpay) as [v0 [sb [Hv0 [M Hsh]]]].
  assert (v0 = v) by congruence. subst v0. rewrite (money_only_blk _ _ M), (money_only_getv _ _ M). clear M H Hpay.
  destruct (v_status v =? StatusQueued) eqn:Est.
  - apply N.eqb_eq in Est. destruct Hsh as [s1' [e1 [Hrm ->]]].
    set (v1 := set_status StatusExit (set_amounts (v_locked v) (v_punlock v) 0 (v_cooldown v) 0 (v_weight v) v)) in *.
    assert (Hin : In a lq) by (apply (wf_st _ _ _ Hwf a v Hv); auto).
    destruct (WF_remove false s la lq a v1 s1' e1 v Hwf Hrm Hv Hin eq_refl eq_refl eq_refl)
      as [l1 [l2 [El [Hwf1 [Hlo [Hga [Hce [Hco [Hsum _]]]]]]]]].
    split; [cbn; rewrite Hlo; reflexivity|]. exists e1. split; [exact Hga|]. inversion Hce. repeat split; auto.
  - subst sb. split; [reflexivity|]. eexists. split; [apply getv_setv_same|]. cbn. repeat split; auto.
Qed.

Theorem second_withdraw_pays_zero c a e s s1 x s2 s3 y la lq :
  Full s la lq ->
  withdraw_stake c a e s = Ok (s1, x) -> pay_out x s1 = Ok s2 -> withdraw_stake c a e s2 = Ok (s3, y) -> y = 0.
Proof.
  intros HF H1 Hp H2.
  assert (Hv : exists v, getv s a = Some v).
  { unfold withdraw_stake in H1. bstep H1 v Hv. apply get_or_revert_ok in Hv. eauto. }
  destruct Hv as [v Hv].
  destruct (withdraw_stake_record c a e s s1 x s2 la lq v H1 Hp (f_wf _ _ _ HF) Hv) as [Eb [v2 [Hv2 [Ee [Ex [Eq [Ew Est]]]]]]].
  destruct (withdraw_stake_amount c a e s2 s3 y v2 H2 Hv2) as [Ey _]. rewrite Ey, Eq, Ew. cbn [N.add].
  destruct (v_status v =? StatusQueued) eqn:Es.
  - destruct Est as [Es2 Ec2]. apply N.eqb_eq in Es.
    assert (C0 : v_cooldown v = 0) by (apply (j_cd _ (f_2 _ _ _ HF) a v Hv); rewrite Es; discriminate).
    rewrite Ec2, C0. destruct (negb (v_status v2 =? StatusQueued) && cooldown_ended c v2 (blk s2)); reflexivity.
  - destruct Est as [Es2 Ec2]. rewrite Es2, Es. cbn [negb andb].
    unfold cooldown_ended in *. rewrite Ex, Eb. rewrite Ec2. destruct (v_exit v) as [eb|]; [|reflexivity].
    destruct (eb + c_cooldown c <=? blk s); reflexivity.
Qed.
