(* LogDB/ProofsCanon.v — after every import history the tables are exactly what writing the blocks of the canonical
   chain, oldest first, into empty tables produces (C15, first sentence). *)
From Coq Require Import List NArith Bool Lia ZifyN ZifyNat ZifyBool.
From Verif Require Import Chain.Model Chain.Proofs Chain.ProofsWalk Chain.ProofsSys Chain.ProofsPath LogDB.Model LogDB.Proofs.
Import ListNotations.
Open Scope N_scope.

Definition two35 : N := 34359738368.

(* the tables the canonical chain prescribes: its blocks written oldest first into empty tables; the argument is
   the path newest first, as is_path gives it *)
Fixpoint rows_of_path (r : repo) (path_desc : list N) : option logdb :=
  match path_desc with
  | [] => Some empty_db
  | id :: older => match rows_of_path r older, get_block r id with
                   | Some db, Some (_, b) => write_block b db
                   | _, _ => None
                   end
  end.

(* import histories: any valid AddBlock calls; a block that becomes best first goes through writeLogs against the
   previous best, as Node.commitBlock does *)
Inductive imported (g gp tag : N) : repo -> logdb -> Prop :=
| imp_init : imported g gp tag (init_repo g gp tag) empty_db
| imp_side r db b conf r' : imported g gp tag r db -> valid_add r b conf -> add_block r b conf false = Some r' ->
                            imported g gp tag r' db
| imp_best r db b conf r' db' : imported g gp tag r db -> valid_add r b conf ->
                                write_logs r db b (r_best r) = Some db' -> add_block r b conf true = Some r' ->
                                imported g gp tag r' db'.

Lemma imported_reachable g gp tag r db : imported g gp tag r db -> reachable g gp tag (fun _ _ _ => True) r.
Proof. induction 1; [constructor | eapply reach_add; eauto | eapply reach_add; eauto]. Qed.

(* d' is d plus INSERT OR IGNOREs of rows whose keys lie in [lo, hi) *)
Inductive ext (lo hi : N) : logdb -> logdb -> Prop :=
| ext_refl d : ext lo hi d d
| ext_ev d d' x : ext lo hi d d' -> lo <= er_seq x < hi ->
                  ext lo hi d (mkDB (ins_ev x (db_events d')) (db_transfers d'))
| ext_tr d d' x : ext lo hi d d' -> lo <= tr_seq x < hi ->
                  ext lo hi d (mkDB (db_events d') (ins_tr x (db_transfers d'))).

Lemma ext_trans lo hi a b c : ext lo hi a b -> ext lo hi b c -> ext lo hi a c.
Proof. intros H1 H2. induction H2; [exact H1 | apply ext_ev; auto | apply ext_tr; auto]. Qed.

Lemma ext_truncate lo hi d d' n : ext lo hi d d' -> n * two35 <= lo -> truncate n d' = truncate n d.
Proof.
  intros H Hn. unfold truncate. destruct (seq_of n 0 0) as [s|] eqn:E; [|reflexivity].
  apply seq_of_inv in E. destruct E as [_ Es]. unfold two35 in Hn. f_equal.
  induction H as [d|d d' x H IH Hx|d d' x H IH Hx]; [reflexivity| |]; cbn [db_events db_transfers].
  - rewrite (filter_ins er_seq ins_ev ins_ev_eq) by lia. exact IH.
  - rewrite (filter_ins tr_seq ins_tr ins_tr_eq) by lia. exact IH.
Qed.

Definition below (hi : N) (d : logdb) : Prop :=
  (forall x, In x (db_events d) -> er_seq x < hi) /\ (forall x, In x (db_transfers d) -> tr_seq x < hi).

Lemma ext_below lo hi hi' d d' : ext lo hi d d' -> hi <= hi' -> below hi' d -> below hi' d'.
Proof.
  intros H Hh B. induction H as [d|d d' x H IH Hx|d d' x H IH Hx]; [exact B| |]; destruct (IH B) as [B1 B2]; split; cbn [db_events db_transfers]; auto.
  - intros y Hy. apply ins_ev_in_weak in Hy. destruct Hy as [->|Hy]; [lia | apply B1; exact Hy].
  - intros y Hy. apply ins_tr_in_weak in Hy. destruct Hy as [->|Hy]; [lia | apply B2; exact Hy].
Qed.

Lemma seq_in_block b t l s : seq_of b t l = Some s -> b * two35 <= s < (b + 1) * two35.
Proof.
  intros E. apply seq_of_inv in E. destruct E as [[_ [Ht Hl]] ->]. unfold max_txi, max_logi, two35 in *. lia.
Qed.

Definition put (es : list evrow) (ts : list trrow) (d : logdb) : logdb :=
  mkDB (puts ins_ev es (db_events d)) (puts ins_tr ts (db_transfers d)).

Lemma put_app es1 es2 ts1 ts2 d : put es2 ts2 (put es1 ts1 d) = put (es1 ++ es2) (ts1 ++ ts2) d.
Proof. unfold put, puts. cbn [db_events db_transfers]. rewrite !fold_left_app. reflexivity. Qed.

Lemma ext_put lo hi es ts : Forall (fun x => lo <= er_seq x < hi) es -> Forall (fun x => lo <= tr_seq x < hi) ts ->
  forall d, ext lo hi d (put es ts d).
Proof.
  intros Fe Ft. induction Fe as [|x es Hx _ IH].
  - induction Ft as [|x ts Hx _ IH]; intros d; [destruct d; apply ext_refl|].
    eapply ext_trans; [|apply (IH (mkDB (db_events d) (ins_tr x (db_transfers d))))]. apply ext_tr; [apply ext_refl | exact Hx].
  - intros d. eapply ext_trans; [|apply (IH (mkDB (ins_ev x (db_events d)) (db_transfers d)))]. apply ext_ev; [apply ext_refl | exact Hx].
Qed.

(* Write, level by level: whether it succeeds does not depend on the tables; when it does, it inserts the prescribed rows,
   whose keys lie in the block's range, and advances the two counters *)
Section WritePut.
  Variables bid bnum btime : N.
  Let ev_in (x : evrow) := bnum * two35 <= er_seq x < (bnum + 1) * two35.
  Let tr_in (x : trrow) := bnum * two35 <= tr_seq x < (bnum + 1) * two35.

  Lemma write_events_put txid origin txi clause evs : forall ec, exists ok : bool,
    (ok = true -> Forall ev_in (spec_events bid bnum btime txid origin txi clause ec evs)) /\
    (bnum <= max_block -> txi <= max_txi -> ec + lenN evs <= max_logi + 1 -> ok = true) /\
    forall d tc, write_events bid bnum btime txid origin txi clause evs (d, ec, tc) =
      if ok then Some (put (spec_events bid bnum btime txid origin txi clause ec evs) [] d, ec + lenN evs, tc) else None.
  Proof.
    unfold lenN. induction evs as [|e evs IH]; intros ec; cbn [write_events spec_events length].
    - exists true. split; [constructor|]. split; [reflexivity|]. intros [es ts] tc. rewrite N.add_0_r. reflexivity.
    - destruct (IH (ec + 1)) as [ok [F [B E]]]. destruct (seq_of bnum txi ec) as [s|] eqn:Es.
      2:{ exists false. split; [discriminate|]. split; [|reflexivity]. intros Hb Ht Hc.
          rewrite seq_of_some in Es by (unfold seq_ok; lia). discriminate. }
      pose proof (seq_in_block _ _ _ _ Es) as Hs. rewrite (proj2 (seq_of_inv _ _ _ _ Es)) in *. exists ok. split; [|split].
      + intros H. constructor; [exact Hs | exact (F H)].
      + intros Hb Ht Hc. apply B; lia.
      + intros d tc. rewrite E. destruct ok; [|reflexivity]. replace (ec + 1 + N.of_nat (length evs)) with (ec + N.of_nat (S (length evs))) by lia. reflexivity.
  Qed.

  Lemma write_transfers_put txid origin txi clause trs : forall tc, exists ok : bool,
    (ok = true -> Forall tr_in (spec_transfers bid bnum btime txid origin txi clause tc trs)) /\
    (bnum <= max_block -> txi <= max_txi -> tc + lenN trs <= max_logi + 1 -> ok = true) /\
    forall d ec, write_transfers bid bnum btime txid origin txi clause trs (d, ec, tc) =
      if ok then Some (put [] (spec_transfers bid bnum btime txid origin txi clause tc trs) d, ec, tc + lenN trs) else None.
  Proof.
    unfold lenN. induction trs as [|t trs IH]; intros tc; cbn [write_transfers spec_transfers length].
    - exists true. split; [constructor|]. split; [reflexivity|]. intros [es ts] ec. rewrite N.add_0_r. reflexivity.
    - destruct (IH (tc + 1)) as [ok [F [B E]]]. destruct (seq_of bnum txi tc) as [s|] eqn:Es.
      2:{ exists false. split; [discriminate|]. split; [|reflexivity]. intros Hb Ht Hc.
          rewrite seq_of_some in Es by (unfold seq_ok; lia). discriminate. }
      pose proof (seq_in_block _ _ _ _ Es) as Hs. rewrite (proj2 (seq_of_inv _ _ _ _ Es)) in *. exists ok. split; [|split].
      + intros H. constructor; [exact Hs | exact (F H)].
      + intros Hb Ht Hc. apply B; lia.
      + intros d ec. rewrite E. destruct ok; [|reflexivity]. replace (tc + 1 + N.of_nat (length trs)) with (tc + N.of_nat (S (length trs))) by lia. reflexivity.
  Qed.

  Lemma write_outputs_put txid origin txi outs : forall clause ec tc, exists ok : bool,
    (ok = true -> Forall ev_in (spec_outputs_ev bid bnum btime txid origin txi clause ec outs) /\
                  Forall tr_in (spec_outputs_tr bid bnum btime txid origin txi clause tc outs)) /\
    (bnum <= max_block -> txi <= max_txi -> ec + count_ev outs <= max_logi + 1 -> tc + count_tr outs <= max_logi + 1 -> ok = true) /\
    forall d, write_outputs bid bnum btime txid origin txi clause outs (d, ec, tc) =
      if ok then Some (put (spec_outputs_ev bid bnum btime txid origin txi clause ec outs)
                           (spec_outputs_tr bid bnum btime txid origin txi clause tc outs) d, ec + count_ev outs, tc + count_tr outs)
      else None.
  Proof.
    induction outs as [|[evs trs] outs IH]; intros clause ec tc; cbn [write_outputs spec_outputs_ev spec_outputs_tr count_ev count_tr].
    - exists true. split; [split; constructor|]. split; [reflexivity|]. intros [es ts]. rewrite !N.add_0_r. reflexivity.
    - destruct (write_events_put txid origin txi clause evs ec) as [o1 [F1 [B1 E1]]].
      destruct (write_transfers_put txid origin txi clause trs tc) as [o2 [F2 [B2 E2]]].
      destruct (IH (clause + 1) (ec + lenN evs) (tc + lenN trs)) as [o3 [F3 [B3 E3]]].
      exists (o1 && o2 && o3). split; [|split].
      2:{ intros Hb Ht He Hc. rewrite B1, B2, B3 by lia. reflexivity. }
      + intros H. apply andb_true_iff in H. destruct H as [H H3]. apply andb_true_iff in H. destruct H as [H1 H2].
        destruct (F3 H3). split; apply Forall_app; split; auto.
      + intros d. rewrite E1. destruct o1; [|reflexivity]. rewrite E2. destruct o2; [|reflexivity]. rewrite E3.
        destruct o3; [|reflexivity]. cbn [andb]. rewrite !put_app, !N.add_assoc. reflexivity.
  Qed.

  Lemma write_receipts_put rcs : forall txs txi ec tc, exists ok : bool,
    (ok = true -> Forall ev_in (spec_receipts_ev bid bnum btime txs rcs txi ec) /\ Forall tr_in (spec_receipts_tr bid bnum btime txs rcs txi tc)) /\
    forall d, option_map (fun st => fst (fst st)) (write_receipts bid bnum btime txs rcs txi (d, ec, tc)) =
      if ok then Some (put (spec_receipts_ev bid bnum btime txs rcs txi ec) (spec_receipts_tr bid bnum btime txs rcs txi tc) d) else None.
  Proof.
    induction rcs as [|rc rcs IH]; intros txs txi ec tc; cbn [write_receipts spec_receipts_ev spec_receipts_tr].
    - exists true. split; [split; constructor|]. intros [es ts]. reflexivity.
    - unfold tx_ident. destruct (match txs with t :: _ => (tx_id t, tx_origin t) | [] => (0, 0) end) as [txid origin]. cbn [fst snd].
      destruct (write_outputs_put txid origin txi (rc_outs rc) 0 ec tc) as [o1 [F1 [_ E1]]].
      destruct (IH (tl txs) (txi + 1) (ec + count_ev (rc_outs rc)) (tc + count_tr (rc_outs rc))) as [o2 [F2 E2]].
      exists (o1 && o2). split.
      + intros H. apply andb_true_iff in H. destruct H as [H1 H2]. destruct (F1 H1), (F2 H2). split; apply Forall_app; split; assumption.
      + intros d. rewrite E1. destruct o1; [|reflexivity]. rewrite E2. destruct o2; [|reflexivity]. rewrite put_app. reflexivity.
  Qed.
End WritePut.

Lemma write_block_put b : exists ok : bool,
  (ok = true -> Forall (fun x => num_of (b_id b) * two35 <= er_seq x < (num_of (b_id b) + 1) * two35) (block_events b) /\
                Forall (fun x => num_of (b_id b) * two35 <= tr_seq x < (num_of (b_id b) + 1) * two35) (block_transfers b)) /\
  forall d, write_block b d = if ok then Some (put (block_events b) (block_transfers b) d) else None.
Proof.
  destruct (write_receipts_put (b_id b) (num_of (b_id b)) (b_time b) (b_rcs b) (b_txs b) 0 0 0) as [ok [F E]].
  exists ok. split; [exact F|]. intros d. rewrite <- E. unfold write_block.
  destruct (write_receipts (b_id b) (num_of (b_id b)) (b_time b) (b_txs b) (b_rcs b) 0 (d, 0, 0)) as [[[d1 e1] t1]|]; reflexivity.
Qed.

Lemma write_block_some b d d' : write_block b d = Some d' ->
  d' = put (block_events b) (block_transfers b) d /\
  Forall (fun x => num_of (b_id b) * two35 <= er_seq x < (num_of (b_id b) + 1) * two35) (block_events b) /\
  Forall (fun x => num_of (b_id b) * two35 <= tr_seq x < (num_of (b_id b) + 1) * two35) (block_transfers b).
Proof.
  destruct (write_block_put b) as [[|] [F E]]; rewrite E; [|discriminate]. intros H. injection H as <-. split; [reflexivity | exact (F eq_refl)].
Qed.

Lemma write_block_ext b d d' : write_block b d = Some d' ->
  ext (num_of (b_id b) * two35) ((num_of (b_id b) + 1) * two35) d d'.
Proof. intros H. destruct (write_block_some _ _ _ H) as [-> [Fe Ft]]. apply ext_put; assumption. Qed.

Section Rows.
  Variable r : repo.
  Hypothesis WB : wf_body r.

  Lemma get_block_id_eq id s b : get_block r id = Some (s, b) -> b_id b = id.
  Proof.
    unfold get_block. destruct (get_summary r id) as [s'|] eqn:Hs; [|discriminate].
    destruct (WB id s' Hs) as [b' [B1 [B2 _]]]. rewrite B1. intros E. injection E as _ <-. exact B2.
  Qed.

  (* rows of blocks below height n stay below n * 2^35 *)
  Lemma rows_below st : forall d n, rows_of_path r st = Some d -> (forall a, In a st -> num_of a < n) -> below (n * two35) d.
  Proof.
    induction st as [|x st IH]; intros d n H Hn; cbn [rows_of_path] in H.
    - injection H as <-. split; intros y [].
    - destruct (rows_of_path r st) as [d0|] eqn:E0; [|discriminate].
      destruct (get_block r x) as [[s bx]|] eqn:Eb; [|discriminate].
      pose proof (get_block_id_eq _ _ _ Eb) as Eid.
      apply write_block_ext in H. rewrite Eid in H.
      eapply ext_below; [exact H | | apply (IH d0 n eq_refl); intros a Ha; apply Hn; right; exact Ha].
      pose proof (Hn x (or_introl eq_refl)). unfold two35. lia.
  Qed.

  (* truncating at n forgets the blocks at heights >= n *)
  Lemma rows_truncate pre : forall suf d n, rows_of_path r (pre ++ suf) = Some d -> (forall a, In a pre -> n <= num_of a) ->
    exists ds, rows_of_path r suf = Some ds /\ truncate n d = truncate n ds.
  Proof.
    induction pre as [|x pre IH]; intros suf d n H Hn; cbn [app] in H.
    - exists d. auto.
    - cbn [rows_of_path] in H.
      destruct (rows_of_path r (pre ++ suf)) as [d0|] eqn:E0; [|discriminate].
      destruct (get_block r x) as [[s bx]|] eqn:Eb; [|discriminate].
      pose proof (get_block_id_eq _ _ _ Eb) as Eid. apply write_block_ext in H. rewrite Eid in H.
      destruct (IH suf d0 n E0) as [ds [E1 E2]]; [intros a Ha; apply Hn; right; exact Ha|].
      exists ds. split; [exact E1|]. rewrite <- E2. eapply ext_truncate; [exact H|].
      pose proof (Hn x (or_introl eq_refl)). unfold two35. lia.
  Qed.

  Lemma truncate_below n d d1 : truncate n d = Some d1 -> below (n * two35) d -> d1 = d.
  Proof.
    unfold truncate. destruct (seq_of n 0 0) as [s|] eqn:E; [|discriminate]. intros H [B1 B2]. injection H as <-.
    apply seq_of_inv in E. destruct E as [_ ->]. unfold two35 in *. destruct d as [es ts]. cbn [db_events db_transfers] in *.
    f_equal; apply filter_id; intros x Hx; apply N.ltb_lt; [specialize (B1 x Hx) | specialize (B2 x Hx)]; lia.
  Qed.

  Lemma rows_truncated pre suf d n d1 : rows_of_path r (pre ++ suf) = Some d ->
    (forall a, In a pre -> n <= num_of a) -> (forall a, In a suf -> num_of a < n) ->
    truncate n d = Some d1 -> rows_of_path r suf = Some d1.
  Proof.
    intros H Hpre Hsuf T. destruct (rows_truncate pre suf d n H Hpre) as [ds [E1 E2]]. rewrite E2 in T. rewrite E1. f_equal.
    symmetry. apply (truncate_below n ds d1 T), (rows_below suf ds n E1 Hsuf).
  Qed.

  (* writing a list of blocks, oldest first, on top of the rows of a path *)
  Lemma rows_write_ids l : forall suf d d2, rows_of_path r suf = Some d -> write_ids r l d = Some d2 ->
    rows_of_path r (rev l ++ suf) = Some d2.
  Proof.
    induction l as [|x l IH]; intros suf d d2 Hs Hw; cbn [write_ids] in Hw.
    - injection Hw as <-. exact Hs.
    - destruct (get_block r x) as [[s bx]|] eqn:Eb; [|discriminate].
      destruct (write_block bx d) as [d'|] eqn:Ew; [|discriminate].
      cbn [rev]. rewrite <- app_assoc. cbn [app]. apply (IH (x :: suf) d' d2); [|exact Hw].
      cbn [rows_of_path]. rewrite Hs, Eb. exact Ew.
  Qed.
End Rows.

Lemma rows_of_path_old g gp r r' b conf best st :
  wf g gp r -> valid_add r b conf -> add_block r b conf best = Some r' ->
  (forall a, In a st -> stored r a) -> rows_of_path r' st = rows_of_path r st.
Proof.
  intros W V A. induction st as [|x st IH]; intros Hs; [reflexivity|]. cbn [rows_of_path].
  rewrite IH by (intros a Ha; apply Hs; right; exact Ha).
  destruct (Hs x (or_introl eq_refl)) as [s Hx]. rewrite (get_block_old g gp r r' b conf best x s W V A Hx). reflexivity.
Qed.

Section Canon.
  Variables g gp tag : N.
  Hypothesis Hg : num_of g = 0.

  (* one writeLogs: from the rows of the old best path to the rows of the new block's path *)
  Lemma write_logs_canonical r db nb db' st_o st_p :
    wf g gp r -> wf_body r ->
    is_path r (r_best r) st_o -> is_path r (b_parent nb) st_p ->
    rows_of_path r st_o = Some db -> write_logs r db nb (r_best r) = Some db' ->
    exists dp, rows_of_path r st_p = Some dp /\ write_block nb dp = Some db'.
  Proof.
    intros W WB Po Pp Hrows Hw.
    destruct (exclude_is_prefix g gp r W (r_best r) (b_parent nb) st_o st_p Po Pp) as [pre_o [pre_p [suf [Eo [Ep [Xo Xp]]]]]].
    subst st_o st_p. unfold write_logs in Hw. rewrite Xo, Xp in Hw.
    (* after the optional truncate the table is the rows of the common path *)
    assert (Hcommon : forall db1, match rev pre_o with [] => Some db | f :: _ => truncate (num_of f) db end = Some db1 ->
                                  rows_of_path r suf = Some db1).
    { intros db1 H1. destruct (rev pre_o) as [|f rest] eqn:Er.
      - injection H1 as <-. assert (pre_o = []) by (destruct pre_o; [reflexivity | apply (f_equal (@length N)) in Er; rewrite rev_length in Er; discriminate]).
        subst pre_o. exact Hrows.
      - pose proof (path_desc g gp r W _ _ Po) as D.
        assert (A : asc (rev pre_o)) by (apply desc_rev_asc; eapply desc_app_l; eauto). rewrite Er in A.
        inversion A as [|? ? _ Ff]; subst. rewrite Forall_forall in Ff.
        assert (Hin : forall a, In a pre_o -> num_of f <= num_of a).
        { intros a Ha. apply in_rev in Ha. rewrite Er in Ha. destruct Ha as [<-|Ha]; [lia|]. pose proof (Ff a Ha). lia. }
        assert (Hf : In f pre_o) by (apply in_rev; rewrite Er; left; reflexivity).
        apply (rows_truncated r WB pre_o suf db (num_of f) db1 Hrows Hin); [|exact H1]. intros a Ha. eapply desc_app_lt; eauto. }
    destruct (match rev pre_o with [] => Some db | f :: _ => truncate (num_of f) db end) as [db1|] eqn:E1; [|discriminate].
    destruct (write_ids r (rev pre_p) db1) as [db2|] eqn:E2; [|discriminate].
    exists db2. split; [|exact Hw]. rewrite <- (rev_involutive pre_p).
    eapply rows_write_ids; [apply Hcommon; reflexivity | exact E2].
  Qed.

  (* C15: after every import history the tables are the rows of the canonical chain *)
  Theorem logdb_tracks_canonical_lemma r db : imported g gp tag r db ->
    forall st, is_path r (r_best r) st -> rows_of_path r st = Some db.
  Proof.
    induction 1 as [|r db b conf r' I IH V A|r db b conf r' db' I IH V Hw A]; intros st Pst.
    - (* genesis *)
      assert (E : st = [g]).
      { eapply path_unique; [exact Pst|]. change (r_best (init_repo g gp tag)) with (r_gen (init_repo g gp tag)). constructor. }
      subst st. cbn [rows_of_path]. unfold get_block, get_summary, init_repo. cbn [r_sums afind r_body]. rewrite N.eqb_refl.
      cbn [s_conf afind2]. unfold eq2. cbn [fst snd]. rewrite Hg. cbn. reflexivity.
    - (* a block that does not become best: same best, same path, same rows *)
      pose proof (imported_reachable _ _ _ _ _ I) as R. pose proof (reachable_wf _ _ _ _ _ Hg R) as W.
      assert (Eb : r_best r' = r_best r) by (rewrite (add_best r r' b conf false A); reflexivity).
      rewrite Eb in Pst. destruct (path_exists g gp r W (r_best r) (w_best _ _ _ W)) as [st0 P0].
      assert (st = st0) by (eapply path_unique; [exact Pst | eapply path_mono; eauto]). subst st0.
      rewrite (rows_of_path_old g gp r r' b conf false st W V A); [apply IH; exact P0|].
      intros a Ha. apply (path_members g gp r W _ _ P0) in Ha. apply (anc_stored _ _ _ Ha).
    - (* a block that becomes best *)
      pose proof (imported_reachable _ _ _ _ _ I) as R. pose proof (reachable_wf _ _ _ _ _ Hg R) as W.
      pose proof (reachable_wf_body _ _ _ _ _ Hg R) as WB.
      assert (Eb : r_best r' = b_id b) by (rewrite (add_best r r' b conf true A); reflexivity).
      rewrite Eb in Pst.
      destruct (add_parent _ _ _ _ _ A) as [ps [Hps _]].
      destruct (path_exists g gp r W (r_best r) (w_best _ _ _ W)) as [st_o Po].
      destruct (path_exists g gp r W (b_parent b) (ex_intro _ ps Hps)) as [st_p Pp].
      destruct (write_logs_canonical r db b db' st_o st_p W WB Po Pp (IH _ Po) Hw) as [dp [Hdp Hfin]].
      assert (Est : st = b_id b :: st_p).
      { eapply path_unique; [exact Pst|]. eapply path_step.
        - rewrite (add_summary _ _ _ _ _ A), N.eqb_refl. reflexivity.
        - rewrite (add_gen r r' b conf true A), (w_gen _ _ _ W). apply (add_ne_g g gp r b conf W V).
        - cbn [s_parent]. eapply path_mono; eauto. }
      subst st. cbn [rows_of_path].
      rewrite (rows_of_path_old g gp r r' b conf true st_p W V A), Hdp, (get_block_new r r' b conf true A); [exact Hfin|].
      intros a Ha. apply (path_members g gp r W _ _ Pp) in Ha. apply (anc_stored _ _ _ Ha).
  Qed.
End Canon.
