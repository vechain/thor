(* Codec/ProofsRoot.v — "the transactions and receipts roots commit to the ordered contents": the tree trie.DeriveRoot
   builds (keys rlp(i), values MarshalBinary(item_i)) determines the ordered list.  Trie half: Trie/DeriveRoot.v
   (derive_root_injective_bytes, from the canonical-trie theorem of C06); codec half: the keys are byte strings, injective. *)
From Coq Require Import List NArith ZArith Bool Lia.
From Coq Require Import ZifyN ZifyNat ZifyBool.
From Verif Require Import Codec.Model Codec.ProofsRLP Codec.ProofsComb Codec.ProofsObjects Codec.ProofsTop
  Codec.ProofsNorm Codec.ProofsAcc Codec.ProofsBind.
From Verif Require Import Trie.Model Trie.DeriveRoot.
Import ListNotations.
Open Scope N_scope.

Fixpoint bytes_eqb (a b : bytes) : bool :=
  match a, b with [], [] => true | x :: a', y :: b' => (x =? y) && bytes_eqb a' b' | _, _ => false end.
Lemma bytes_eqb_sound a : forall b, bytes_eqb a b = true -> a = b.
Proof.
  induction a as [|x a IH]; intros [|y b] H; try discriminate; [reflexivity|].
  cbn in H. apply andb_prop in H. destruct H as [H1 H2]. f_equal; [lia|apply IH; exact H2].
Qed.

Definition root_key (i : nat) : bytes := enc (c_uint 8) (N.of_nat i).                     (* drlp.AppendUint(key[:0], uint64(i)) *)
(* the tree DeriveRoot builds from the values EncodeIndex(0..n-1); the root is the hash of this tree *)
Definition go_derive_tree (vals : list bytes) : node bytes :=
  derive_root bytes bytes_eqb (fun i => key_of_bytes (root_key i)) vals.

(* a total injective extension of root_key (indices >= 2^64 are never used for a Go slice) *)
Definition root_key' (i : nat) : bytes := if N.of_nat i <? u64max1 then root_key i else 0 :: 0 :: repeat 1 i.

Lemma is_bytes_okb c : bytes_okb c = true -> is_bytes c.
Proof.
  unfold is_bytes, bytes_okb. induction c as [|x c IH]; intros H; [constructor|]. cbn in H. apply andb_prop in H.
  destruct H as [H1 H2]. constructor; [lia|apply IH; exact H2].
Qed.
Lemma root_key_bytes i : N.of_nat i < u64max1 -> is_bytes (root_key i).
Proof.
  intros Hi. unfold root_key. cbn [enc c_uint cpmap c_bytes].
  assert (Hok : bytes_okb (be_bytes (N.of_nat i)) = true).
  { pose proof (be_bytes_canon (N.of_nat i)) as Hc. unfold canon_int in Hc. apply andb_prop in Hc. tauto. }
  assert (Hl : lenN (be_bytes (N.of_nat i)) <= 8) by (apply be_bytes_len; change (256 ^ 8) with u64max1; exact Hi).
  generalize dependent (be_bytes (N.of_nat i)). intros c Hok Hl.
  pose proof (is_bytes_okb c Hok) as Hb. destruct (single_low c) eqn:Es.
  - apply single_low_true in Es. destruct Es as [x [-> Hx]]. rewrite enc_str_low by exact Hx. exact Hb.
  - rewrite enc_str_high by exact Es. cbn [enc_head]. unfold enc_len. destruct (lenN c <? 56) eqn:E; [|lia].
    constructor; [lia|exact Hb].
Qed.
Lemma enc_str_not_00 c r : enc_str c = 0 :: 0 :: r -> False.
Proof.
  destruct (single_low c) eqn:Es.
  - apply single_low_true in Es. destruct Es as [x [-> Hx]]. rewrite enc_str_low by exact Hx. discriminate.
  - rewrite enc_str_high by exact Es. cbn [enc_head]. destruct (enc_len_first 128 (lenN c)) as (h & t & -> & Hh).
    intros H. inversion H. lia.
Qed.
Lemma root_key'_bytes i : is_bytes (root_key' i).
Proof.
  unfold root_key'. destruct (N.of_nat i <? u64max1) eqn:E; [apply root_key_bytes; lia|].
  constructor; [lia|]. constructor; [lia|]. unfold is_bytes. apply Forall_forall. intros x Hx. apply repeat_spec in Hx. lia.
Qed.
Lemma root_key'_inj i j : root_key' i = root_key' j -> i = j.
Proof.
  unfold root_key'. destruct (N.of_nat i <? u64max1) eqn:Ei; destruct (N.of_nat j <? u64max1) eqn:Ej; intros E.
  - unfold root_key in E. apply (codec_inj (c_uint 8) _ _ (c_uint_ok 8)) in E; [lia|apply uint8_wf; lia|apply uint8_wf; lia].
  - exfalso. unfold root_key in E. cbn [enc c_uint cpmap c_bytes] in E. exact (enc_str_not_00 _ _ E).
  - exfalso. unfold root_key in E. cbn [enc c_uint cpmap c_bytes] in E. symmetry in E. exact (enc_str_not_00 _ _ E).
  - apply (f_equal (@length N)) in E. cbn [length] in E. rewrite !repeat_length in E. lia.
Qed.

Lemma derive_from_ext (k1 k2 : nat -> list nat) items : forall i t,
  (forall j, (i <= j < i + length items)%nat -> k1 j = k2 j) ->
  derive_from bytes bytes_eqb k1 i items t = derive_from bytes bytes_eqb k2 i items t.
Proof.
  induction items as [|x r IH]; intros i t Hk; [reflexivity|]. cbn [derive_from]. rewrite (Hk i) by (cbn [length]; lia).
  apply IH. intros j Hj. apply Hk. cbn [length]. lia.
Qed.

Theorem derive_tree_injective_l vals1 vals2 : lenN vals1 < u64max1 -> lenN vals2 < u64max1 ->
  go_derive_tree vals1 = go_derive_tree vals2 -> vals1 = vals2.
Proof.
  intros H1 H2 E. unfold go_derive_tree, derive_root in E.
  assert (X : forall vals, lenN vals < u64max1 ->
            derive_from bytes bytes_eqb (fun i => key_of_bytes (root_key i)) 0 vals (@Nil bytes) =
            derive_from bytes bytes_eqb (fun i => key_of_bytes (root_key' i)) 0 vals (@Nil bytes)).
  { intros vals Hv. apply derive_from_ext. intros j Hj. unfold root_key'. unfold lenN in Hv.
    destruct (N.of_nat j <? u64max1) eqn:Ej; [reflexivity|lia]. }
  rewrite (X vals1 H1), (X vals2 H2) in E.
  exact (derive_root_injective_bytes bytes bytes_eqb bytes_eqb_sound root_key' root_key'_bytes root_key'_inj vals1 vals2 E).
Qed.

Theorem txs_root_tree_binds_l l1 l2 : Forall (wfp c_tx) l1 -> Forall (wfp c_tx) l2 -> lenN l1 < u64max1 -> lenN l2 < u64max1 ->
  go_derive_tree (map go_marshal_tx l1) = go_derive_tree (map go_marshal_tx l2) -> map norm_tx l1 = map norm_tx l2.
Proof.
  intros W1 W2 H1 H2 E. apply derive_tree_injective_l in E; try (unfold lenN in *; rewrite map_length; assumption).
  revert l2 W2 H2 E. clear H1. induction l1 as [|a l1 IH]; intros [|b l2] W2 H2 E; try reflexivity; try discriminate.
  inversion W1; inversion W2; subst. cbn [map] in *. inversion E as [[E1 E2]]. f_equal.
  - apply go_marshal_injective_l; assumption.
  - apply IH; try assumption. rewrite lenN_cons in H2. lia.
Qed.
Theorem receipts_root_tree_binds_l l1 l2 : Forall wf_rbin l1 -> Forall wf_rbin l2 -> lenN l1 < u64max1 -> lenN l2 < u64max1 ->
  go_derive_tree (map go_marshal_receipt l1) = go_derive_tree (map go_marshal_receipt l2) -> l1 = l2.
Proof.
  intros W1 W2 H1 H2 E. apply derive_tree_injective_l in E; try (unfold lenN in *; rewrite map_length; assumption).
  exact (receipts_values_determine_l l1 l2 W1 W2 E).
Qed.
