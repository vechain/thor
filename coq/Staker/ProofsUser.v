(* Staker/ProofsUser.v — every user operation preserves list well-formedness and the VET accounting, and leaves
   the active set, its weights and the total weight untouched. *)
From Coq Require Import List NArith Bool Lia.
From Coq Require Import ZifyBool.
From Verif Require Import Common.Util Staker.Model Staker.Base Staker.Lists Staker.Inv.
Import ListNotations.
Open Scope N_scope.

Opaque e18 two64.

(* replace a renewal-list operation by an abstract state that differs only in the renewal list *)
Ltac abstract_rl :=
  repeat match goal with
  | |- context [rl_add ?k ?s] =>
    let r := fresh "r" in let Er := fresh "Er" in
    generalize (rl_add_only k s); generalize (rl_add k s); intros r Er; unfold ren_only in Er
  | |- context [rl_remove ?k ?s] =>
    let r := fresh "r" in let Er := fresh "Er" in
    generalize (rl_remove_only k s); generalize (rl_remove k s); intros r Er; unfold ren_only in Er
  end.

Definition user_ok (s s' : st) (la lq : list N) : Prop :=
  exists lq', WF s' la lq' /\ Inv1 s' /\ keeps_active s s' la /\ InvA s'.

(* the common case: one record rewritten with the same pointers, status and weight; aggregations' locked part,
   list statistics and total weight untouched *)
Lemma user_ok_setv s s' a v v' la lq :
  WF s la lq -> InvA s -> Inv1 s' -> getv s a = Some v ->
  v_prev v' = v_prev v -> v_next v' = v_next v -> v_status v' = v_status v -> v_weight v' = v_weight v ->
  vals s' = upd (vals s) a v' -> act s' = act s -> que s' = que s -> g_lw s' = g_lw s ->
  (forall b, a_lv (get_agg s' b) = a_lv (get_agg s b)) -> user_ok s s' la lq.
Proof.
  intros Hwf Ha Hi Hv E1 E2 E3 E4 Ev Eac Eq Ew Eag. exists lq.
  assert (K : links_status_kept s s').
  { apply (kept_trans _ (setv a v' s)); [apply kept_setv with (v := v); auto|]. apply kept_same_vals. rewrite Ev. reflexivity. }
  split; [eapply WF_frame; eauto|]. split; auto. split.
  - split; auto. intros b vb _ Hb. unfold getv in *. rewrite Ev, get_upd. destruct (a =? b) eqn:E.
    + apply N.eqb_eq in E; subst b. rewrite Hv in Hb. inversion Hb; subst. eauto.
    + eauto.
  - eapply InvA_frame; eauto.
Qed.

Lemma user_ok_same_vals s s' la lq :
  WF s la lq -> InvA s -> Inv1 s' -> vals s' = vals s -> act s' = act s -> que s' = que s -> g_lw s' = g_lw s ->
  (forall b, a_lv (get_agg s' b) = a_lv (get_agg s b)) -> user_ok s s' la lq.
Proof.
  intros Hwf Ha Hi Ev Eac Eq Ew Eag. exists lq. assert (K : links_status_kept s s') by (apply kept_same_vals; auto).
  split; [eapply WF_frame; eauto|]. split; auto. split.
  - split; auto. intros b vb _ Hb. unfold getv in *. rewrite Ev. eauto.
  - eapply InvA_frame; eauto.
Qed.

Lemma user_ok_ren s s1 s2 la lq : user_ok s s1 la lq -> ren_only s1 s2 -> user_ok s s2 la lq.
Proof.
  intros [lq' [W [I [K A]]]] R. exists lq'. split; [apply (WF_ren_only s1); auto|]. split; [apply (Inv1_ren_only s1); auto|].
  split; [apply (keeps_trans _ s1); [exact K|apply keeps_ren_only, R]|].
  apply (InvA_frame s1); auto; [apply kept_same_vals|intros a]; rewrite R; reflexivity.
Qed.

Lemma get_or_revert_ok s a v : get_or_revert s a = Ok v -> getv s a = Some v.
Proof. unfold get_or_revert. destruct (getv s a); intros H; inversion H; auto. Qed.

Lemma pay_in_Inv1_pre wei s : getv (pay_in wei s) = getv s.
Proof. reflexivity. Qed.

Lemma increase_stake_ok a e vet s s' x la lq :
  increase_stake a e vet (pay_in (vet * e18) s) = Ok (s', x) -> WF s la lq -> Inv1 s -> InvA s -> user_ok s s' la lq.
Proof.
  intros H Hwf [I1 I2 I3 I4 I5 I6 I7] HA. unfold increase_stake in H.
  bstep H v Hv. apply get_or_revert_ok in Hv. change (getv s a = Some v) in Hv.
  bstep H u1 G1. bstep H u2 G2. bstep H u3 G3. bstep H u4 G4. bstep H u5 G5. bstep H u6 G6.
  inversion H; subst s' x; clear H. apply cbc_ok in G6. clear G1 G2 G3 G4 G5.
  revert G6. abstract_rl. intros G6. set (v' := set_queued (v_queued v + vet) v) in *.
  rewrite Er. apply (user_ok_setv s _ a v v'); auto.
  pose proof (sum_setv v_locked a v v' s Hv) as S1. pose proof (sum_setv v_queued a v v' s Hv) as S2.
  pose proof (sum_setv v_cooldown a v v' s Hv) as S3. pose proof (sum_setv v_withdrawable a v v' s Hv) as S4.
  constructor; cbn in *; try lia. auto.
Qed.

Lemma WF_setv_gen s s' a v v' la lq :
  WF s la lq -> getv s a = Some v ->
  v_prev v' = v_prev v -> v_next v' = v_next v -> v_status v' = v_status v ->
  vals s' = upd (vals s) a v' -> act s' = act s -> que s' = que s -> WF s' la lq.
Proof.
  intros Hwf Hv E1 E2 E3 Ev Ea Eq. eapply WF_frame; eauto.
  apply (kept_trans _ (setv a v' s)); [apply kept_setv with (v := v); auto|].
  apply kept_same_vals. rewrite Ev. reflexivity.
Qed.

Lemma WF_same_vals s s' la lq :
  WF s la lq -> vals s' = vals s -> act s' = act s -> que s' = que s -> WF s' la lq.
Proof. intros Hwf Ev Ea Eq. eapply WF_frame; eauto. apply kept_same_vals; auto. Qed.

Lemma keeps_setv_gen s s' a v v' la :
  getv s a = Some v -> v_weight v' = v_weight v -> vals s' = upd (vals s) a v' -> g_lw s' = g_lw s ->
  keeps_active s s' la.
Proof.
  intros Hv Ew Ev Eg. split; auto. intros b vb _ Hb. unfold getv in *. rewrite Ev, get_upd.
  destruct (a =? b) eqn:E.
  - apply N.eqb_eq in E; subst b. rewrite Hv in Hb. inversion Hb; subst. eauto.
  - eauto.
Qed.

Lemma keeps_same_vals s s' la : vals s' = vals s -> g_lw s' = g_lw s -> keeps_active s s' la.
Proof. intros Ev Eg. split; auto. intros b vb _ Hb. unfold getv in *. rewrite Ev. eauto. Qed.

(* accounting with an amount x that has left the counters but not yet the contract (between the native call and
   the transfer of a withdrawal) *)
Record Inv1x (x : N) (s : st) : Prop := mkInv1x {
  x_lv : g_lv s = sumf v_locked (vals s) + sumf a_lv (aggs s);
  x_q : g_q s = sumf v_queued (vals s) + sumf a_pv (aggs s);
  x_cd : g_cd s = sumf v_cooldown (vals s);
  x_wd : g_wd s + sumf a_lv (aggs s) + sumf a_pv (aggs s) = sumf v_withdrawable (vals s) + sumf d_stake (dels s);
  x_eff : eff s = (g_lv s + g_q s + g_wd s + g_cd s + x) * e18;
  x_bal : eff s <= bal s;
  x_ctr : forall id d, get (dels s) id = Some d -> id <= del_ctr s }.

Lemma pay_out_Inv1 x s s2 : Inv1x x s -> pay_out x s = Ok s2 ->
  Inv1 s2 /\ vals s2 = vals s /\ act s2 = act s /\ que s2 = que s /\ g_lw s2 = g_lw s.
Proof.
  intros [H1 H2 H3 H4 H5 H6 H7] H. unfold pay_out in H. bstep H u1 G1. bstep H u2 G2. inversion H; subst s2; clear H.
  gfacts. split; [|cbn; auto]. constructor; cbn; auto; try lia.
Qed.

Lemma decrease_stake_ok a e vet s s' x la lq :
  decrease_stake a e vet s = Ok (s', x) -> WF s la lq -> Inv1 s -> InvA s -> user_ok s s' la lq.
Proof.
  intros H Hwf [I1 I2 I3 I4 I5 I6 I7] HA. unfold decrease_stake in H.
  bstep H u0 G0. bstep H v Hv. apply get_or_revert_ok in Hv.
  bstep H u1 G1. bstep H u2 G2. bstep H u3 G3. bstep H u4 G4. bstep H u5 G5. bstep H u6 G6. bstep H u7 G7.
  inversion H; subst s' x; clear H. clear G0 G1 G2 G3 G4 G5 G6 G7.
  abstract_rl. set (v' := set_punlock (v_punlock v + vet) v) in *.
  rewrite Er. apply (user_ok_setv s _ a v v'); auto.
  pose proof (sum_setv v_locked a v v' s Hv) as S1. pose proof (sum_setv v_queued a v v' s Hv) as S2.
  pose proof (sum_setv v_cooldown a v v' s Hv) as S3. pose proof (sum_setv v_withdrawable a v v' s Hv) as S4.
  constructor; cbn in *; try lia. auto.
Qed.

Lemma find_exit_block_free c s m t eb : find_exit_block c s m t = Some eb -> get_exit s eb = 0.
Proof.
  revert m. induction t as [|t IH]; intros m H; cbn in H; [discriminate|].
  destruct (get_exit s m =? 0) eqn:E; [inversion H; subst; apply N.eqb_eq; auto|eauto].
Qed.

Lemma svc_signal_exit_shape c a cb mb mt on s s1 :
  svc_signal_exit c a cb mb mt on s = Ok s1 -> on <> Ok s1 ->
  exists v eb cur, getv s a = Some v /\ get_exit s eb = 0 /\
    s1 = setv a (set_completed cur (set_exit (Some eb) v)) (w_exits (upd (exits s) eb a) s).
Proof.
  unfold svc_signal_exit. intros H Hon. bstep H v Hv. unfold get_existing in Hv. apply of_opt_ok in Hv.
  destruct (find_exit_block c s mb mt) as [eb|] eqn:Ef; [|congruence].
  bstep H cur Hc. inversion H; subst. exists v, eb, cur. split; auto. split; auto. eapply find_exit_block_free; eauto.
Qed.

Lemma signal_exit_shape_ok s s1 a v eb cur la lq :
  getv s a = Some v -> s1 = setv a (set_completed cur (set_exit (Some eb) v)) (w_exits (upd (exits s) eb a) s) ->
  WF s la lq -> Inv1 s -> InvA s -> user_ok s s1 la lq.
Proof.
  intros Hv -> Hwf [I1 I2 I3 I4 I5 I6 I7] HA. set (v' := set_completed cur (set_exit (Some eb) v)).
  apply (user_ok_setv s _ a v v'); auto.
  pose proof (sum_setv v_locked a v v' s Hv) as S1. pose proof (sum_setv v_queued a v v' s Hv) as S2.
  pose proof (sum_setv v_cooldown a v v' s Hv) as S3. pose proof (sum_setv v_withdrawable a v v' s Hv) as S4.
  constructor; cbn in *; try lia. auto.
Qed.

Lemma signal_exit_ok c a e s s' x la lq :
  signal_exit c a e s = Ok (s', x) -> WF s la lq -> Inv1 s -> InvA s -> user_ok s s' la lq.
Proof.
  intros H Hwf Hi HA. unfold signal_exit in H.
  bstep H v Hv. bstep H u1 G1. bstep H u2 G2. bstep H u3 G3. bstep H cur Hc. bstep H s1 Hs. inversion H; subst s' x; clear H.
  apply svc_signal_exit_shape in Hs; [|discriminate]. destruct Hs as [v2 [eb [cur2 [Hv2 [_ ->]]]]].
  eapply signal_exit_shape_ok; eauto.
Qed.

Lemma simple_setv_ok s a v v' la lq :
  getv s a = Some v -> core v' = core (set_offline (v_offline v') (set_benef (v_benef v') v)) ->
  v_prev v' = v_prev v -> v_next v' = v_next v ->
  WF s la lq -> Inv1 s -> InvA s -> user_ok s (setv a v' s) la lq.
Proof.
  intros Hv Ec E1 E2 Hwf [I1 I2 I3 I4 I5 I6 I7] HA. inversion Ec.
  apply (user_ok_setv s _ a v v'); auto.
  pose proof (sum_setv v_locked a v v' s Hv) as S1. pose proof (sum_setv v_queued a v v' s Hv) as S2.
  pose proof (sum_setv v_cooldown a v v' s Hv) as S3. pose proof (sum_setv v_withdrawable a v v' s Hv) as S4.
  constructor; cbn in *; try lia. auto.
Qed.

Lemma set_online_ok a on s s' x la lq :
  set_online a on s = Ok (s', x) -> WF s la lq -> Inv1 s -> InvA s -> user_ok s s' la lq.
Proof.
  intros H Hwf Hi HA. unfold set_online in H. bstep H v Hv. unfold get_existing in Hv. apply of_opt_ok in Hv.
  inversion H; subst s' x; clear H. apply simple_setv_ok with (v := v); auto.
Qed.

Lemma set_beneficiary_ok a e b s s' x la lq :
  set_beneficiary a e b s = Ok (s', x) -> WF s la lq -> Inv1 s -> InvA s -> user_ok s s' la lq.
Proof.
  intros H Hwf Hi HA. unfold set_beneficiary in H. bstep H v Hv. apply get_or_revert_ok in Hv.
  bstep H u1 G1. bstep H u2 G2. inversion H; subst s' x; clear H. apply simple_setv_ok with (v := v); auto.
Qed.

Lemma increase_reward_ok a amt s s' x la lq :
  increase_reward a amt s = Ok (s', x) -> WF s la lq -> Inv1 s -> InvA s -> user_ok s s' la lq.
Proof.
  intros H Hwf [I1 I2 I3 I4 I5 I6 I7] HA. unfold increase_reward in H. bstep H v Hv. bstep H cur Hc.
  inversion H; subst s' x; clear H. apply user_ok_same_vals; auto. constructor; cbn; auto.
Qed.

Lemma w_glob_id s : w_glob (g_lv s) (g_lw s) (g_q s) (g_wd s) (g_cd s) s = s.
Proof. destruct s; reflexivity. Qed.

(* a counter update f that is skipped for the amount 0, where it would change nothing: g is its effect, P its guard *)
Lemma cond_glob (f : N -> st -> res st) (g : N -> st -> st) (P : N -> st -> Prop) x s s' :
  (forall t t', f x t = Ok t' -> t' = g x t /\ P x t) -> g 0 s = s -> P 0 s ->
  (if 0 <? x then f x s else Ok s) = Ok s' -> s' = g x s /\ P x s.
Proof.
  intros Hf G0 P0 H. destruct (0 <? x) eqn:E; [eauto|].
  inversion H; subst. apply N.ltb_ge, N.le_0_r in E. subst x. rewrite G0. auto.
Qed.

Lemma cond_remove_wd x s s' : (if 0 <? x then remove_withdrawable x s else Ok s) = Ok s' ->
  s' = w_glob (g_lv s) (g_lw s) (g_q s) (g_wd s - x) (g_cd s) s /\ x <= g_wd s.
Proof.
  apply (cond_glob remove_withdrawable (fun y t => w_glob (g_lv t) (g_lw t) (g_q t) (g_wd t - y) (g_cd t) t) (fun y t => y <= g_wd t)).
  - unfold remove_withdrawable. intros t t' H. bstep H y Hy. inversion H; subst. gfacts. subst. auto.
  - rewrite N.sub_0_r. apply w_glob_id.
  - apply N.le_0_l.
Qed.
Lemma cond_remove_q x s s' : (if 0 <? x then remove_queued x s else Ok s) = Ok s' ->
  s' = w_glob (g_lv s) (g_lw s) (g_q s - x) (g_wd s) (g_cd s) s /\ x <= g_q s.
Proof.
  apply (cond_glob remove_queued (fun y t => w_glob (g_lv t) (g_lw t) (g_q t - y) (g_wd t) (g_cd t) t) (fun y t => y <= g_q t)).
  - unfold remove_queued. intros t t' H. bstep H y Hy. inversion H; subst. gfacts. subst. auto.
  - rewrite N.sub_0_r. apply w_glob_id.
  - apply N.le_0_l.
Qed.
Lemma cond_remove_cd x s s' : (if 0 <? x then remove_cooldown x s else Ok s) = Ok s' ->
  s' = w_glob (g_lv s) (g_lw s) (g_q s) (g_wd s) (g_cd s - x) s /\ x <= g_cd s.
Proof.
  apply (cond_glob remove_cooldown (fun y t => w_glob (g_lv t) (g_lw t) (g_q t) (g_wd t) (g_cd t - y) t) (fun y t => y <= g_cd t)).
  - unfold remove_cooldown. intros t t' H. bstep H y Hy. inversion H; subst. gfacts. subst. auto.
  - rewrite N.sub_0_r. apply w_glob_id.
  - apply N.le_0_l.
Qed.
Lemma cond_add_wd x s s' : (if 0 <? x then add_withdrawable x s else Ok s) = Ok s' ->
  s' = w_glob (g_lv s) (g_lw s) (g_q s) (g_wd s + x) (g_cd s) s.
Proof.
  intros H. apply (cond_glob add_withdrawable (fun y t => w_glob (g_lv t) (g_lw t) (g_q t) (g_wd t + y) (g_cd t) t) (fun _ _ => True)) in H; [apply H| |rewrite N.add_0_r; apply w_glob_id|exact I].
  unfold add_withdrawable. intros t t' E. bstep E y Hy. inversion E; subst. gfacts. subst. auto.
Qed.
Lemma cond_add_cd x s s' : (if 0 <? x then add_cooldown x s else Ok s) = Ok s' ->
  s' = w_glob (g_lv s) (g_lw s) (g_q s) (g_wd s) (g_cd s + x) s.
Proof.
  intros H. apply (cond_glob add_cooldown (fun y t => w_glob (g_lv t) (g_lw t) (g_q t) (g_wd t) (g_cd t + y) t) (fun _ _ => True)) in H; [apply H| |rewrite N.add_0_r; apply w_glob_id|exact I].
  unfold add_cooldown. intros t t' E. bstep E y Hy. inversion E; subst. gfacts. subst. auto.
Qed.

Lemma core_sums (P : (validation -> N) -> Prop) : (forall f, core_fun f -> P f) ->
  P v_locked /\ P v_queued /\ P v_cooldown /\ P v_withdrawable /\ P v_weight.
Proof. intros H. repeat split; apply H; intros v v' E; inversion E; auto. Qed.

Lemma withdraw_stake_ok c a e s s1 x s2 la lq :
  withdraw_stake c a e s = Ok (s1, x) -> pay_out x s1 = Ok s2 -> WF s la lq -> Inv1 s -> InvA s -> user_ok s s2 la lq.
Proof.
  intros H Hpay Hwf Hi HA. pose proof Hi as [I1 I2 I3 I4 I5 I6 I7]. unfold withdraw_stake in H.
  bstep H v Hv. apply get_or_revert_ok in Hv. bstep H u1 G1.
  bstep H r Hr. destruct r as [[[sa wd] q] cd].
  bstep H sb Hb. bstep H sc Hc. bstep H sd Hd. bstep H se He. bstep H t1 Ht1. bstep H tot Htot. bstep H u2 Hcb.
  inversion H; subst s1 x; clear H. gfacts. clear Hcb G1.
  repeat match goal with H : ?t = _ + _ |- _ => is_var t; subst t end.
  apply cond_remove_wd in Hc as [-> Lc]. apply cond_remove_q in Hd as [-> Ld]. apply cond_remove_cd in He as [-> Le].
  unfold svc_withdraw_stake in Hr. destruct (v_status v =? StatusQueued) eqn:Est.
  - (* still queued: leave the queue, release the pending delegations *)
    apply N.eqb_eq in Est. bstep Hr r1 Hrm. destruct r1 as [s1' e1]. inversion Hr; subst sa wd q cd; clear Hr.
    set (v1 := set_status StatusExit (set_amounts (v_locked v) (v_punlock v) 0 (v_cooldown v) 0 (v_weight v) v)) in *.
    assert (Hin : In a lq) by (apply (wf_st _ _ _ Hwf a v Hv); auto).
    destruct (WF_remove false s la lq a v1 s1' e1 v Hwf Hrm Hv Hin eq_refl eq_refl eq_refl)
      as [l1 [l2 [El [Hwf1 [Hlo [Hga [Hce [Hco [Hsum _]]]]]]]]].
    destruct (lists_only_ex _ _ Hlo) as [vs1 [a1 [q1 Es1]]]. subst s1'. set (s1' := w_vals vs1 (w_act a1 (w_que q1 s))) in *.
    destruct (core_sums _ Hsum) as [S1 [S2 [S3 [S4 _]]]]. cbn beta in S1, S2, S3, S4.
    cbn [v1 v_locked v_queued v_cooldown v_withdrawable set_status set_amounts] in S1, S2, S3, S4.
    unfold aggs_exit in Hb. cbn [e_qdec] in Hb.
    pose proof (sum_set_agg a_lv a agg0 s1' eq_refl) as A1. pose proof (sum_set_agg a_pv a agg0 s1' eq_refl) as A2.
    cbn [a_lv a_pv agg0] in A1, A2.
    assert (A0 : a_lv (get_agg s1' a) = 0).
    { change (get_agg s1' a) with (get_agg s a). apply HA. intros v2 Hv2. rewrite Hv in Hv2. inversion Hv2; subst v2. rewrite Est. discriminate. }
    assert (Hsb : exists p, sb = w_glob (g_lv s) (g_lw s) (g_q s - p) (g_wd s + p) (g_cd s) (set_agg a agg0 s1') /\
                            p = a_pv (get_agg s1' a) /\ p <= g_q s).
    { exists (a_pv (get_agg s1' a)). destruct (0 <? a_pv (get_agg s1' a)) eqn:Ep.
      - bstep Hb s1b Hq. unfold remove_queued in Hq. bstep Hq y Hy. inversion Hq; subst s1b; clear Hq.
        unfold add_withdrawable in Hb. bstep Hb z Hz. inversion Hb; subst sb; clear Hb. gfacts. subst.
        split; [reflexivity|split; [reflexivity|]].
        match goal with H : a_pv (get_agg s1' a) <= _ |- _ => exact H end.
      - inversion Hb; subst sb. apply N.ltb_ge in Ep. assert (E0 : a_pv (get_agg s1' a) = 0) by lia. rewrite E0.
        rewrite N.sub_0_r, N.add_0_r. split; [|split; auto; lia].
        exact (eq_sym (w_glob_id (set_agg a agg0 s1'))). }
    destruct Hsb as [p [-> [Ep Lp]]].
    assert (Egs : aggs s1' = aggs s) by reflexivity.
    assert (Eds : dels s1' = dels s /\ del_ctr s1' = del_ctr s /\ eff s1' = eff s /\ bal s1' = bal s) by (repeat split).
    destruct Eds as [Ed1 [Ed2 [Ed3 Ed4]]].
    set (s1 := w_glob _ _ _ _ _ (w_glob _ _ _ _ _ (w_glob _ _ _ _ _ (w_glob _ _ _ _ _ (set_agg a agg0 s1'))))) in *.
    assert (X : Inv1x (v_withdrawable v + v_queued v + 0) s1).
    { clear - I1 I2 I3 I4 I5 I6 I7 Egs Ed1 Ed2 Ed3 Ed4 S1 S2 S3 S4 A1 A2 A0 Ep Lp Lc Ld Le.
      unfold s1. constructor; cbn in *; rewrite ?Egs, ?Ed1, ?Ed2, ?Ed3, ?Ed4 in *; try lia; [rewrite I5; f_equal; lia|auto]. }
    destruct (pay_out_Inv1 _ _ _ X Hpay) as [Hi2 [Ev2 [Ea2 [Eq2 Ew2]]]].
    exists (l1 ++ l2). split; [|split; [auto|split]].
    + apply (WF_same_vals s1'); auto.
    + split.
      * intros b vb Hb' Hvb. assert (b <> a).
        { intros ->. destruct (wf_st _ _ _ Hwf a v Hv) as [[S1' _] _]. rewrite (S1' Hb') in Est. discriminate. }
        destruct (Hco b vb H Hvb) as [v' [Hv' Ec]]. exists v'. split; [|inversion Ec; auto].
        unfold getv in *. rewrite Ev2. exact Hv'.
      * rewrite Ew2. unfold s1. cbn. reflexivity.
    + assert (Egg : forall b, get_agg s2 b = get_agg (set_agg a agg0 s1') b).
      { intros b. unfold get_agg. unfold pay_out in Hpay. bstep Hpay u3 G3. bstep Hpay u4 G4. inversion Hpay; subst s2. reflexivity. }
      intros b Hb'. rewrite Egg. unfold get_agg, set_agg; cbn. rewrite get_upd. destruct (a =? b) eqn:Eab; [reflexivity|].
      apply N.eqb_neq in Eab. apply HA. intros vb Hvb.
      destruct (Hco b vb (fun E => Eab (eq_sym E)) Hvb) as [v' [Hv' Ec]]. rewrite <- (core_status _ _ Ec).
      apply (Hb' v'). unfold getv in *. rewrite Ev2. exact Hv'.
  - (* active or exited *)
    inversion Hr; subst sa wd q cd; clear Hr. inversion Hb; subst sb; clear Hb.
    set (v1 := set_amounts (v_locked v) (v_punlock v) 0 (if cooldown_ended c v (blk s) then 0 else v_cooldown v) 0 (v_weight v) v) in *.
    pose proof (sum_setv v_locked a v v1 s Hv) as S1. pose proof (sum_setv v_queued a v v1 s Hv) as S2.
    pose proof (sum_setv v_cooldown a v v1 s Hv) as S3. pose proof (sum_setv v_withdrawable a v v1 s Hv) as S4.
    set (s1 := w_glob _ _ _ _ _ (w_glob _ _ _ _ _ (w_glob _ _ _ _ _ (setv a v1 s)))) in *.
    assert (X : Inv1x (v_withdrawable v + v_queued v + (if cooldown_ended c v (blk s) then v_cooldown v else 0)) s1).
    { clear - I1 I2 I3 I4 I5 I6 I7 S1 S2 S3 S4 Lc Ld Le.
      unfold s1. constructor; cbn in *; destruct (cooldown_ended c v (blk s)); cbn in *; try lia; auto; rewrite I5; f_equal; lia. }
    destruct (pay_out_Inv1 _ _ _ X Hpay) as [Hi2 [Ev2 [Ea2 [Eq2 Ew2]]]].
    apply (user_ok_setv s _ a v v1); auto.
    intros b. unfold pay_out in Hpay. bstep Hpay u3 G3. bstep Hpay u4 G4. inversion Hpay; subst s2. reflexivity.
Qed.

Lemma WF_pay_in wei s la lq : WF s la lq -> WF (pay_in wei s) la lq.
Proof. intros H. apply (WF_same_vals s); auto. Qed.

Lemma add_validation_ok c a e p vet s s' x la lq :
  add_validation c a e p vet (pay_in (vet * e18) s) = Ok (s', x) -> WF s la lq -> Inv1 s -> InvA s -> user_ok s s' la lq.
Proof.
  intros H Hwf [I1 I2 I3 I4 I5 I6 I7] HA. unfold add_validation in H.
  bstep H u1 G1. bstep H u2 G2. bstep H u3 G3. bstep H u4 G4. bstep H u5 G5. bstep H s1 Hadd. bstep H u6 G6.
  inversion H; subst s' x; clear H. gfacts. clear G1 G2 G3 G5 G6.
  assert (Hnone : getv (pay_in (vet * e18) s) a = None).
  { change (getv (pay_in (vet * e18) s) a) with (getv s a) in *. destruct (getv s a); [discriminate|reflexivity]. }
  set (e0 := mkV e None p 0 StatusQueued 0 None None 0 0 vet 0 0 0 None None) in *.
  destruct (WF_add_new _ la lq a e0 s1 (WF_pay_in _ _ _ _ Hwf) Hnone Hadd eq_refl eq_refl) as [Hwf1 [Hlo [Hco [Hno Hsum]]]].
  destruct (core_sums _ Hsum) as [S1 [S2 [S3 [S4 _]]]]. cbn beta in S1, S2, S3, S4.
  cbn [e0 v_locked v_queued v_cooldown v_withdrawable] in S1, S2, S3, S4.
  destruct (lists_only_ex _ _ Hlo) as [vs1 [a1 [q1 Es1]]]. subst s1. set (s1 := w_vals vs1 (w_act a1 (w_que q1 (pay_in (vet * e18) s)))) in *.
  exists (lq ++ [a]). split; [|split; [|split]].
  - apply (WF_same_vals s1); auto.
  - constructor; cbn in *; try lia. auto.
  - split; [|reflexivity].
    intros b vb Hin Hb. assert (b <> a).
    { intros ->. change (getv (pay_in (vet * e18) s) a) with (getv s a) in Hnone. congruence. }
    destruct (Hco b vb H Hb) as [v' [Hv' Ec]]. exists v'. split; [exact Hv'|inversion Ec; auto].
  - intros b Hb. change (get_agg (add_queued vet s1) b) with (get_agg s1 b).
    change (get_agg s1 b) with (get_agg s b).
    apply HA. intros v Hv. destruct (N.eq_dec b a) as [->|Hne].
    + change (getv (pay_in (vet * e18) s) a) with (getv s a) in Hnone. congruence.
    + destruct (Hco b v Hne Hv) as [v' [Hv' Ec]]. rewrite <- (core_status _ _ Ec). apply (Hb v'). exact Hv'.
Qed.

Lemma get_agg_w_glob a b c d e s x : get_agg (w_glob a b c d e s) x = get_agg s x.
Proof. reflexivity. Qed.

Lemma add_delegation_ok a vet mult s s' x la lq :
  add_delegation a vet mult (pay_in (vet * e18) s) = Ok (s', x) -> WF s la lq -> Inv1 s -> InvA s -> user_ok s s' la lq.
Proof.
  intros H Hwf [I1 I2 I3 I4 I5 I6 I7] HA. unfold add_delegation in H.
  bstep H u1 G1. bstep H u2 G2. bstep H v Hv. apply get_or_revert_ok in Hv. change (getv s a = Some v) in Hv.
  bstep H u3 G3. bstep H u4 G4. bstep H u5 G5. bstep H cur Hc. bstep H s2 Hp. bstep H u6 G6.
  inversion H; subst s' x; clear H. clear G1 G2 G3 G4 G5 G6 Hc.
  unfold aggs_add_pending in Hp. bstep Hp pw Hpw. destruct pw as [pv pw]. inversion Hp; subst s2; clear Hp.
  apply ws_add_ok in Hpw. cbn [fst snd] in Hpw. destruct Hpw as [Epv Epw].
  set (id := del_ctr (pay_in (vet * e18) s) + 1) in *. change (del_ctr (pay_in (vet * e18) s)) with (del_ctr s) in id.
  set (sd := w_dels (upd (dels (pay_in (vet * e18) s)) id (mkD a vet mult None (cur + 1))) id (pay_in (vet * e18) s)) in *.
  set (ag := mkA (a_lv (get_agg sd a)) (a_lw (get_agg sd a)) pv pw (a_ev (get_agg sd a)) (a_ew (get_agg sd a))) in *.
  assert (Hfresh : get (dels s) id = None).
  { destruct (get (dels s) id) as [d|] eqn:E; auto. apply I7 in E. unfold id in E. lia. }
  pose proof (sumf_upd_none d_stake (dels s) id (mkD a vet mult None (cur + 1)) Hfresh) as SD. cbn [d_stake] in SD.
  pose proof (sum_set_agg a_lv a ag sd eq_refl) as A1. pose proof (sum_set_agg a_pv a ag sd eq_refl) as A2.
  cbn [ag a_lv a_pv] in A1, A2.
  assert (Hfin : user_ok s (add_queued vet (set_agg a ag sd)) la lq).
  { apply user_ok_same_vals; auto.
    - constructor; cbn in *; try lia.
      intros id' d'. rewrite get_upd. destruct (id =? id') eqn:Ei.
      + apply N.eqb_eq in Ei. subst id'. intros _. lia.
      + intros Hd. apply I7 in Hd. unfold id. lia.
    - intros b. change (get_agg (add_queued vet (set_agg a ag sd)) b) with (get_agg (set_agg a ag sd) b).
      rewrite get_agg_set_agg. destruct (a =? b) eqn:Eab; [apply N.eqb_eq in Eab; subst b|]; reflexivity. }
  destruct (v_status v =? StatusActive); [apply (user_ok_ren _ _ _ _ _ Hfin), rl_add_only|exact Hfin].
Qed.

Lemma signal_delegation_exit_ok id s s' x la lq :
  signal_delegation_exit id s = Ok (s', x) -> WF s la lq -> Inv1 s -> InvA s -> user_ok s s' la lq.
Proof.
  intros H Hwf [I1 I2 I3 I4 I5 I6 I7] HA. unfold signal_delegation_exit in H.
  destruct (get (dels s) id) as [d|] eqn:Ed; [|discriminate].
  bstep H u1 G1. bstep H u2 G2. bstep H v Hv. bstep H stt Hst. bstep H u3 G3. bstep H en Hen. bstep H u4 G4. bstep H cur Hc.
  bstep H s2 Hp. inversion H; subst s' x; clear H.
  unfold aggs_signal_exit in Hp. bstep Hp ew Hew. destruct ew as [ev ew]. inversion Hp; subst s2; clear Hp.
  set (d' := mkD (d_val d) (d_stake d) (d_mult d) (Some cur) (d_first d)) in *.
  set (sd := w_dels (upd (dels s) id d') (del_ctr s) s) in *.
  set (ag := mkA (a_lv (get_agg sd (d_val d))) (a_lw (get_agg sd (d_val d))) (a_pv (get_agg sd (d_val d))) (a_pw (get_agg sd (d_val d))) ev ew) in *.
  pose proof (sumf_upd_some d_stake (dels s) id d' d Ed) as SD. cbn [d' d_stake] in SD.
  pose proof (sum_set_agg a_lv (d_val d) ag sd eq_refl) as A1. pose proof (sum_set_agg a_pv (d_val d) ag sd eq_refl) as A2.
  cbn [ag a_lv a_pv] in A1, A2.
  assert (Hfin : user_ok s (set_agg (d_val d) ag sd) la lq).
  { apply user_ok_same_vals; auto.
    - constructor; cbn in *; try lia.
      intros id' dd. rewrite get_upd. destruct (id =? id') eqn:Ei.
      + apply N.eqb_eq in Ei. subst id'. intros _. apply (I7 id d Ed).
      + apply I7.
    - intros b. rewrite get_agg_set_agg. destruct (d_val d =? b) eqn:Eab; [apply N.eqb_eq in Eab; subst b|]; reflexivity. }
  destruct (v_status v =? StatusActive); [apply (user_ok_ren _ _ _ _ _ Hfin), rl_add_only|exact Hfin].
Qed.

Lemma withdraw_delegation_ok id s s1 x s2 la lq :
  withdraw_delegation id s = Ok (s1, x) -> pay_out x s1 = Ok s2 -> WF s la lq -> Inv1 s -> InvA s -> user_ok s s2 la lq.
Proof.
  intros H Hpay Hwf [I1 I2 I3 I4 I5 I6 I7] HA. unfold withdraw_delegation in H.
  destruct (get (dels s) id) as [d|] eqn:Ed; [|discriminate].
  bstep H v Hv. bstep H stt Hst. bstep H fi Hfi. bstep H u1 G1. bstep H sb Hb. bstep H u2 G2.
  inversion H; subst s1 x; clear H. clear G1 G2.
  set (d' := mkD (d_val d) 0 (d_mult d) (d_last d) (d_first d)) in *.
  set (sd := w_dels (upd (dels s) id d') (del_ctr s) s) in *.
  pose proof (sumf_upd_some d_stake (dels s) id d' d Ed) as SD. cbn [d' d_stake] in SD.
  assert (Hctr : forall id' dd, get (upd (dels s) id d') id' = Some dd -> id' <= del_ctr s).
  { intros id' dd. rewrite get_upd. destruct (id =? id') eqn:Ei.
    - apply N.eqb_eq in Ei. subst id'. intros _. apply (I7 id d Ed).
    - apply I7. }
  assert (X : Inv1x (d_stake d) sb /\ vals sb = vals s /\ act sb = act s /\ que sb = que s /\ g_lw sb = g_lw s /\
              forall b, a_lv (get_agg sb b) = a_lv (get_agg s b)).
  { destruct (negb stt && negb (v_status v =? StatusExit)).
    - bstep Hb sa Ha. unfold aggs_sub_pending in Ha. bstep Ha pw Hpw. destruct pw as [pv pw]. inversion Ha; subst sa; clear Ha.
      apply ws_sub_ok in Hpw. cbn [fst snd] in Hpw. destruct Hpw as [Epv [Epw [Lpv Lpw]]].
      unfold remove_queued in Hb. bstep Hb q Hq. inversion Hb; subst sb; clear Hb. gfacts.
      set (ag := mkA (a_lv (get_agg sd (d_val d))) (a_lw (get_agg sd (d_val d))) pv pw (a_ev (get_agg sd (d_val d))) (a_ew (get_agg sd (d_val d)))) in *.
      pose proof (sum_set_agg a_lv (d_val d) ag sd eq_refl) as A1. pose proof (sum_set_agg a_pv (d_val d) ag sd eq_refl) as A2.
      cbn [ag a_lv a_pv] in A1, A2.
      split; [|split; [reflexivity|split; [reflexivity|split; [reflexivity|split; [reflexivity|]]]]].
      + constructor; cbn in *; try lia; auto. rewrite I5. f_equal. lia.
      + intros b. rewrite get_agg_w_glob, get_agg_set_agg.
        destruct (d_val d =? b) eqn:Eab; [apply N.eqb_eq in Eab; subst b|]; reflexivity.
    - unfold remove_withdrawable in Hb. bstep Hb y Hy. inversion Hb; subst sb; clear Hb. gfacts.
      split; [|split; [reflexivity|split; [reflexivity|split; [reflexivity|split; [reflexivity|reflexivity]]]]].
      constructor; cbn in *; try lia; auto. rewrite I5. f_equal. lia. }
  destruct X as [X [Ev [Ea [Eq [Ew Eag]]]]].
  destruct (pay_out_Inv1 _ _ _ X Hpay) as [Hi2 [Ev2 [Ea2 [Eq2 Ew2]]]].
  apply user_ok_same_vals; auto; try congruence.
  intros b. rewrite <- Eag. unfold pay_out in Hpay. bstep Hpay u3 G3. bstep Hpay u4 G4. inversion Hpay; subst s2. reflexivity.
Qed.
