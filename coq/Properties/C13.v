(* Properties/C13.v — C13: a crash at any point of block import leaves a consistent, resumable node.
   Statements closed by [exact]; hypotheses: [wf_cfg] (genesis has number 0, epoch length > 0), [Inv] of the initial
   store (proved for every genesis store: genesis_inv), [wf_hist] (the trie-layer premise on the node sets: wf_blk, Crash/ProofsImport.v, along the run, Crash/ProofsCrash.v). *)
From Coq Require Import List NArith Bool.
From Verif Require Import Crash.Model Crash.ProofsStore Crash.ProofsInv Crash.ProofsImport Crash.ProofsCrash Crash.Examples
  Crash.ProofsEqv Crash.ProofsShape Crash.ProofsResumeAll Crash.ProofsOrphans Crash.ProofsResume
  Crash.ProofsFinalized Crash.ProofsQuality Crash.ProofsCatchUp Crash.ExamplesCatchUp Crash.ProofsDual.
(* the log-database part is stated over wp-chain's repository model and wp-chain's log-db model: qualified names, no Import
   (Chain.Model and Crash.Model both define blk, summary, stored, ...) *)
From Verif Require Chain.Model Chain.Proofs Chain.ProofsWalk Chain.Examples LogDB.Model LogDB.ProofsCanon LogDB.ProofsSync
  Crash.LogCrash Crash.ExamplesLog.
(* the bridge to wp-bft's model (coq/Bft): qualified names as well (Bft.Tree and Crash.Model both define blk, b_id, ...) *)
From Verif Require Compose.CrashBft Compose.CrashBftExamples Compose.CrashBftFork.
Import ListNotations.
Open Scope N_scope.

(* every batch of every import keeps "visible => complete": stated for every prefix of the writes of one import *)
Theorem import_keeps_visible_complete c s b :
  wf_cfg c -> Inv c s -> wf_blk s b -> all_prefixes (Inv c) s (import_batches c s b).
Proof. exact (import_all_prefixes c s b). Qed.

(* ... hence for every history and EVERY cut position *)
Theorem every_cut_satisfies_invariant c s0 hist k :
  wf_cfg c -> Inv c s0 -> wf_hist c s0 hist -> Inv c (crash c s0 hist k).
Proof. exact (crash_inv c s0 hist k). Qed.

(* after restart (with or without the F6 repair in NewEngine) the best block's summary, transactions, receipts, index
   nodes, state nodes and all ancestors are present, the finalized block is stored.
   NOTE: the model's [restart] is total where the code is not: bft.NewEngine returns an error (the node does not start) when
   the CommitBlock it re-runs for an interrupted head fails (computeState / findCheckpointByQuality error).  In the model a
   failing search is [find_checkpoint = None] and the repair then writes the quality record alone; no lemma excludes that
   branch for the interrupted head, so "restart succeeds" is proved of the model's restart, on the real code it is what the
   harness observes at every cut (restart-fails is a finding class). *)
Theorem crash_consistent c rep s0 hist k :
  wf_cfg c -> Inv c s0 -> wf_hist c s0 hist ->
  exists s' best fin, restart c rep (crash c s0 hist k) = Some (s', best, fin) /\
                      readable s' best = true /\ stored s' fin = true /\ Inv c s'.
Proof. exact (ProofsCrash.crash_consistent c rep s0 hist k). Qed.

(* a second crash, during the restart repair of a head (at most one batch since the F13 repair): the invariant holds after
   any prefix of it and the next start succeeds again *)
Theorem crash_during_repair_is_consistent c rep s id j : wf_cfg c -> Inv c s ->
  let s1 := apply_writes s (firstn j (repair_one c s id)) in
  Inv c s1 /\
  exists s' best fin, restart c rep s1 = Some (s', best, fin) /\ Inv c s' /\ readable s' best = true /\ stored s' fin = true.
Proof. exact (ProofsCrash.crash_during_repair_is_consistent c rep s id j). Qed.

(* quality / finalized records found after a cut refer to blocks that are stored and complete (they are written last) *)
Theorem bft_records_after_block c s0 hist k :
  wf_cfg c -> Inv c s0 -> wf_hist c s0 hist ->
  let s := crash c s0 hist k in
  (forall id, has s (KQuality id) = true -> stored s id = true /\ readable s id = true) /\
  (forall f, get_id s KFinalized = Some f -> stored s f = true /\ readable s f = true).
Proof. exact (bft_records_refer_to_stored_blocks c s0 hist k). Qed.

Theorem genesis_store_invariant L g :
  num_of (b_id g) = 0 -> b_skeep g = [] -> b_ikeep g = [] -> Inv (mkCfg L (b_id g)) (genesis_store g).
Proof. exact (genesis_inv L g). Qed.

(* ---- the resume clause.
   [resume_converges_statement rep] (Crash/ProofsResume.v): for every history, every cut and the import it interrupts,
   restart + resuming the stream from the interrupted block ends with the same best block and the same tallies as the
   uninterrupted run.  For the code BEFORE the F6 repair (rep = false) the faithful model refutes it: *)
Theorem resume_quality_refuted : ~ resume_converges_statement false.
Proof. exact ProofsResume.resume_quality_refuted. Qed.

(* the witness is the cut between the block bulk and the quality record of a store-point block ... *)
Example f6_witness_is_that_cut :
  cut_in_import ex_cfg ex_s0 ex_hist f6_cut 2 /\
  stored (crash ex_cfg ex_s0 ex_hist f6_cut) (bid 3 3) = true /\
  has (crash ex_cfg ex_s0 ex_hist f6_cut) (KQuality (bid 3 3)) = false /\
  has (crash ex_cfg ex_s0 ex_hist (S f6_cut)) (KQuality (bid 3 3)) = true.
Proof. exact f6_cut_position. Qed.

(* ... and in the example history (25 writes, 26 cut positions) the unrepaired restart diverges at exactly the four cuts of
   that class and nowhere else (a checked instance, not a theorem over all histories) *)
Example without_repair_exactly_the_f6_cuts_diverge :
  filter (fun k =>
    negb match resume ex_cfg false (crash ex_cfg ex_s0 ex_hist k) (skipn (import_of_cut ex_cfg ex_s0 ex_hist k) ex_hist) with
         | Some s' => same_outcome ex_cfg false s' (run ex_cfg ex_s0 ex_hist)
         | None => false
         end) (seq 0 (S (length (writes_of ex_cfg ex_s0 ex_hist)))) = [3; 10; 17; 24]%nat.
Proof. exact resume_diverges_exactly_at_f6_cuts. Qed.

(* ---- with both repairs (F6: NewEngine commits an interrupted store-point head again; F13: CommitBlock writes the quality
   record and the finalized record in ONE batch) — the code as it is now: for EVERY history and EVERY cut, no exception.
   Hypotheses: wf_cfg2 (epoch length > 1), Inv2 of the initial store (Inv + every stored store-point block has its quality
   record + every chain-head entry names a stored block; proved for every genesis store), wf_hist.
   [cut_in_import k i]: the cut k lies inside (or at the start of) the import of block i.  After restart and resumption of the
   stream from block i the store is EQUIVALENT (same value under every key: stored set, best pointer, quality records,
   finalized record) to the uninterrupted run's.  No premise about which blocks the stream contains (forks below the
   finalized block, refused blocks, duplicates: all allowed). *)
Theorem resume_converges c s0 hist k i :
  wf_cfg2 c -> Inv2 c s0 -> wf_hist c s0 hist -> cut_in_import c s0 hist k i ->
  exists r, resume c true (crash c s0 hist k) (skipn i hist) = Some r /\ eqv r (run c s0 hist).
Proof. exact (ProofsResumeAll.resume_converges c s0 hist k i). Qed.

(* equivalence spelled out: same best block, finalized block, stored set and quality records (vote tallies) *)
Theorem resume_converges_observations c s0 hist k i :
  wf_cfg2 c -> Inv2 c s0 -> wf_hist c s0 hist -> cut_in_import c s0 hist k i ->
  exists r, resume c true (crash c s0 hist k) (skipn i hist) = Some r /\
    get_id r KBest = get_id (run c s0 hist) KBest /\ finalized c r = finalized c (run c s0 hist) /\
    (forall id, stored r id = stored (run c s0 hist) id) /\ (forall id, get_quality r id = get_quality (run c s0 hist) id).
Proof. exact (ProofsResumeAll.resume_converges_observations c s0 hist k i). Qed.

(* REMARK (restates the shape of the model's commit_steps, which is tied to the code by the write-sequence comparison of the
   harness): the commit of the bft engine is at most ONE batch, so there is no cut between the quality and the finalized record *)
Theorem bft_commit_is_one_batch c s id parent just comm :
  let cw := writes_of_steps (commit_steps c s id parent just comm) in
  cw = [] \/
  (exists q, cw = [[Put (KQuality id) (VNum q)]] /\ is_storepoint (c_L c) (num_of id) = true) \/
  (exists q f, cw = [[Put (KQuality id) (VNum q); Put KFinalized (VId f)]] /\ is_storepoint (c_L c) (num_of id) = true).
Proof. exact (commit_shape c s id parent just comm). Qed.

(* ---- finding F13 (the code before /repo 38d50ce wrote the two records separately).  [split_window] is the image a stop
   between the two writes left: the cut before a commit batch plus that batch's quality record alone.  The resume clause at
   such an image is refuted: blocks 1..5 of the example history (block 5 finalizes block 2), then a sibling of block 2 — the
   uninterrupted node refuses it (errBFTRejected), the node restarted from the image still holds genesis as finalized and
   stores it.  (On the real code, with a longer fork that wins Select, best and finalized diverge as well:
   corpus/C13/f13-fork-below-pending-checkpoint.json.)  Under the repaired code the same stream converges at every cut. *)
Theorem f13_split_write_refuted : ~ resume_converges_split_statement.
Proof. exact ExamplesCatchUp.f13_split_write_refuted. Qed.

Example f13_witness :
  cut_in_import ex_cfg ex_s0 ex_hist_fork 17 4 /\
  nth_error (writes_of ex_cfg ex_s0 ex_hist_fork) 17 = Some [Put (KQuality (bid 5 5)) (VNum 3); Put KFinalized (VId (bid 2 2))] /\
  no_bft_reject ex_cfg ex_s0 ex_hist_fork = false /\
  stored (run ex_cfg ex_s0 ex_hist_fork) (bid 2 9) = false /\
  finalized ex_cfg (run ex_cfg ex_s0 ex_hist_fork) = bid 2 2 /\
  finalized ex_cfg (split_window ex_cfg ex_s0 ex_hist_fork 17 (bid 5 5) 3) = bid 0 7 /\
  option_map (fun r => stored r (bid 2 9))
    (resume ex_cfg true (split_window ex_cfg ex_s0 ex_hist_fork 17 (bid 5 5) 3) (skipn 4 ex_hist_fork)) = Some true.
Proof. exact ex_fork_facts. Qed.

Example f13_stream_converges_with_the_repair :
  wf_hist ex_cfg ex_s0 ex_hist_fork /\
  forallb (fun k =>
    match resume ex_cfg true (crash ex_cfg ex_s0 ex_hist_fork k) (skipn (import_of_cut ex_cfg ex_s0 ex_hist_fork k) ex_hist_fork) with
    | Some s' => same_outcome ex_cfg true s' (run ex_cfg ex_s0 ex_hist_fork) && negb (stored s' (bid 2 9))
    | None => false
    end) (seq 0 (S (length (writes_of ex_cfg ex_s0 ex_hist_fork)))) = true /\
  length (writes_of ex_cfg ex_s0 ex_hist_fork) = 18%nat.
Proof. exact (conj ex_fork_wf_hist ex_fork_converges). Qed.

(* a block that is stored is a no-op when delivered again; the DECISIONS of the import path (known / parent missing /
   rejected / conflicts / fork choice / quality / finalized) read chain and bft keys only: the model issues the same steps on
   stores that agree outside the trie-node / code spaces.  (By construction for block execution: its results are data of the
   block here; that re-execution over leftovers gives the same results is checked on the real code only.) *)
Theorem redelivered_known_block_is_noop c s b : stored s (b_id b) = true -> import_batches c s b = [].
Proof. exact (known_is_noop c s b). Qed.
Theorem import_decisions_read_only_chain_keys s s' c b : eqv_na s s' -> import_steps c s b = import_steps c s' b.
Proof. exact (na_import_steps s s' c b). Qed.

(* the uninterrupted run keeps the extended invariant; every genesis store has it *)
Theorem run_keeps_inv2 c l s : wf_cfg2 c -> Inv2 c s -> wf_hist c s l -> Inv2 c (run c s l).
Proof. exact (run_inv2 c l s). Qed.
Theorem genesis_store_inv2 L g : 1 < L -> num_of (b_id g) = 0 -> b_skeep g = [] -> b_ikeep g = [] ->
  Inv2 (mkCfg L (b_id g)) (genesis_store g).
Proof. exact (genesis_inv2 L g). Qed.

Example resume_hypotheses_met : wf_cfg2 ex_cfg /\ Inv2 ex_cfg ex_s0 /\ wf_hist ex_cfg ex_s0 ex_hist /\ cut_in_import ex_cfg ex_s0 ex_hist f6_cut 2.
Proof. exact (conj ex_wf_cfg2 (conj ex_inv2 (conj ex_wf_hist (proj1 f6_cut_position)))). Qed.

(* the example history, cut by cut: same best block, tallies and finalized block at every one of its 26 cuts *)
Example with_repair_every_cut_of_the_example_converges :
  (forallb (fun k =>
    match resume ex_cfg true (crash ex_cfg ex_s0 ex_hist k) (skipn (import_of_cut ex_cfg ex_s0 ex_hist k) ex_hist) with
    | Some s' => same_outcome ex_cfg true s' (run ex_cfg ex_s0 ex_hist)
    | None => false
    end) (seq 0 (S (length (writes_of ex_cfg ex_s0 ex_hist))))) = true /\
  length (writes_of ex_cfg ex_s0 ex_hist) = 25%nat.
Proof. exact resume_converges_on_example. Qed.

(* ---- qualities along a chain and nodes whose finalized record lags (what the code before the F13 repair could at best
   converge to; kept as general facts about the model: InvQ = the quality recurrence + the finalized block is the first block
   of an epoch; Lag r u = r and u agree under every key but the finalized record and r's finalized block is u's or an
   ancestor of it). *)
(* one import on a lagging and an up-to-date store: the relation is kept, and the import that moves the up-to-date node's
   finalized block makes the stores equivalent *)
Theorem lagging_import_step c r u b : wf_cfg2 c -> Inv2 c u -> InvQ c u -> wf_blk u b -> Lag c r u ->
  bft_rejected c u b = false ->
  Lag c (run1 c r b) (run1 c u b) /\
  (finalized c (run1 c u b) <> finalized c u -> eqv (run1 c r b) (run1 c u b)).
Proof. exact (lag_step c r u b). Qed.

(* findCheckpointByQuality over a chain whose records obey the recurrence: the first block of the least epoch, from the
   finalized one on, whose store-point quality reaches the target, provided it equals the target (sort.Search is correct
   because the qualities never decrease along a chain) *)
Theorem find_checkpoint_is_least_epoch c s head E t fin e0 f :
  wf_cfg c -> Inv c s -> Qrec c s -> stored s head = true -> num_of head = E * c_L c + c_L c - 1 ->
  num_of fin = e0 * c_L c -> e0 <= E ->
  (find_checkpoint c s t fin head = Some f <->
   exists e, e0 <= e <= E /\ Qe c s head e = t /\ (forall e', e0 <= e' < e -> Qe c s head e' < t) /\
             anc s head (e * c_L c) = Some f).
Proof. exact (fun Hc I Q Hs HE => find_checkpoint_spec c s head E Hc I Q Hs HE t fin e0 f). Qed.

Theorem run_keeps_invq c l s : wf_cfg2 c -> Inv2 c s -> InvQ c s -> wf_hist c s l -> InvQ c (run c s l).
Proof. exact (run_invq c l s). Qed.
Theorem genesis_store_invq L g : 1 < L -> num_of (b_id g) = 0 -> InvQ (mkCfg L (b_id g)) (genesis_store g).
Proof. exact (genesis_invq L g). Qed.

Example invq_and_lag_not_vacuous :
  InvQ ex_cfg ex_s0 /\ InvQ ex_cfg (run ex_cfg ex_s0 ex_hist) /\
  Lag ex_cfg (split_window ex_cfg ex_s0 ex_hist 17 (bid 5 5) 3) (run ex_cfg ex_s0 (firstn 5 ex_hist)).
Proof. exact ex_invq_lag. Qed.

(* ---- the log database (the node's second store; anchors cmd/thor/sync_logdb.go, logdb/logdb.go).
   Key-value level — REMARKS, not independent theorems: [dual_steps] DEFINES the combined sequence of atomic commits of
   one import as the main database's batches with the log database's single transaction inserted after the state commit, for
   a block that becomes best only; the four statements below read that definition back (what ties it to the code is the
   harness's observer of the log tables at every main-database write: class log-commit-position).  The content is in the
   block-level theorems further down. *)
Theorem main_db_sees_the_same_writes c s b : mains (dual_steps c s b) = import_batches c s b.
Proof. exact (dual_mains c s b). Qed.

(* at EVERY cut of the combined sequence: a block that is visible in the main database and became best has its log commit
   behind it; the log commit never precedes the end of the block's state commit; a side block has no log commit *)
Theorem visible_best_block_is_logged c s b j :
  becomes_best c s b = true ->
  stored (apply_writes s (mains (firstn j (dual_steps c s b)))) (b_id b) = true -> In WLog (firstn j (dual_steps c s b)).
Proof. exact (ProofsDual.visible_best_block_is_logged c s b j). Qed.
Theorem log_commit_follows_state_commit c s b j :
  becomes_best c s b = true -> In WLog (firstn j (dual_steps c s b)) ->
  exists rest, mains (firstn j (dual_steps c s b)) = state_batches b (conf_of s b) ++ rest.
Proof. exact (ProofsDual.log_commit_follows_state_commit c s b j). Qed.
Theorem side_block_has_no_log_commit c s b : becomes_best c s b = false -> ~ In WLog (dual_steps c s b).
Proof. exact (ProofsDual.side_block_has_no_log_commit c s b). Qed.

(* Block level (Crash/LogCrash.v: node = wp-chain's repository + wp-chain's log tables; an import = [log transaction;]
   AddBlock; lcut = a crash after j of these updates; lrestart = syncLogDB at start, LogDB/Model.v sync_logdb).
   Scope: tables as [imported] builds them from [empty_db] (no rows for the genesis block: a genesis with receipts is outside),
   and conditional on sync_logdb returning Some (no totality lemma).
   For EVERY import history (LogDB.ProofsCanon.imported: any valid AddBlock calls, best blocks through writeLogs), EVERY
   next block and EVERY cut: if the start-up re-sync returns, the node is in a state of the uninterrupted run — the one
   before the import or the one after it — and its log tables are exactly the logs of the canonical chain of the
   repository found on disk (no row missing, none duplicated, none of an abandoned branch).  Uses
   sync_reestablishes_canonical (LogDB/ProofsSync.v, wp-chain) for a block stored beside the best chain, and the fact that
   syncLogDB reads the best block's chain only. *)
Theorem log_crash_then_resync g gp tag r db b conf best j n' n'' :
  Chain.Model.num_of g = 0 ->
  LogDB.ProofsCanon.imported g gp tag r db -> Chain.Proofs.valid_add r b conf ->
  LogCrash.lcut (LogCrash.mkNode r db) b conf best j = Some n' -> LogCrash.lrestart n' = Some n'' ->
  LogDB.ProofsCanon.imported g gp tag (LogCrash.n_repo n'') (LogCrash.n_log n'') /\ LogCrash.log_canonical n'' /\
  (n'' = LogCrash.mkNode r db \/
   exists l, LogCrash.import_lsteps (LogCrash.mkNode r db) b conf best = Some l /\
             n'' = fold_left LogCrash.do_lstep l (LogCrash.mkNode r db)).
Proof. exact (fun Hg => LogCrash.log_crash_resync g gp tag Hg r db b conf best j n' n''). Qed.

(* the cut the re-sync exists for: log transaction committed, AddBlock not done — the tables come back to the ones before *)
Theorem resync_after_log_commit g gp tag r db b conf db' d :
  Chain.Model.num_of g = 0 ->
  LogDB.ProofsCanon.imported g gp tag r db -> Chain.Proofs.valid_add r b conf ->
  LogDB.Model.write_logs r db b (Chain.Model.r_best r) = Some db' ->
  (exists r', Chain.Model.add_block r b conf true = Some r') ->
  LogDB.Model.sync_logdb r db' = Some d -> d = db.
Proof. exact (fun Hg => LogCrash.sync_after_log_commit g gp tag Hg r db b conf db' d). Qed.

(* non-vacuity (wp-chain's example history): the import of block (3,1) reorganises from (2,1) to its sibling (2,2); after
   the log commit the tables hold the sibling branch's rows while the repository's best block still is (2,1); the re-sync
   restores the tables of (2,1); after AddBlock the re-sync changes nothing *)
Example log_crash_example :
  LogDB.ProofsCanon.imported Chain.Examples.ex_g Chain.Examples.ex_gp Chain.Examples.ex_tag Chain.Examples.ex_r3 ExamplesLog.lx_db2 /\
  Chain.Proofs.valid_add Chain.Examples.ex_r3 Chain.Examples.ex_b3' 0 /\
  LogCrash.lcut (LogCrash.mkNode Chain.Examples.ex_r3 ExamplesLog.lx_db2) Chain.Examples.ex_b3' 0 true 1
    = Some (LogCrash.mkNode Chain.Examples.ex_r3 ExamplesLog.lx_db4) /\
  map LogDB.Model.er_block (LogDB.Model.db_events ExamplesLog.lx_db2) = [Chain.Examples.bid 2 1] /\
  map LogDB.Model.er_block (LogDB.Model.db_events ExamplesLog.lx_db4) = [Chain.Examples.bid 2 2; Chain.Examples.bid 2 2] /\
  Chain.Model.r_best Chain.Examples.ex_r3 = Chain.Examples.bid 2 1 /\
  LogCrash.lrestart (LogCrash.mkNode Chain.Examples.ex_r3 ExamplesLog.lx_db4)
    = Some (LogCrash.mkNode Chain.Examples.ex_r3 ExamplesLog.lx_db2) /\
  LogCrash.lcut (LogCrash.mkNode Chain.Examples.ex_r3 ExamplesLog.lx_db2) Chain.Examples.ex_b3' 0 true 2
    = Some (LogCrash.mkNode Chain.Examples.ex_r4 ExamplesLog.lx_db4) /\
  LogCrash.lrestart (LogCrash.mkNode Chain.Examples.ex_r4 ExamplesLog.lx_db4)
    = Some (LogCrash.mkNode Chain.Examples.ex_r4 ExamplesLog.lx_db4).
Proof. exact (conj ExamplesLog.lx_imported (conj ExamplesLog.lx_valid ExamplesLog.lx_cut)). Qed.

(* non-vacuity of the key-value statements: block 3 of the example history becomes best; the log commit is the second of
   its five combined steps (account batch, LOG, index batch, block bulk, quality + finalized) *)
Example dual_example :
  let s := run ex_cfg ex_s0 (firstn 2 ex_hist) in
  becomes_best ex_cfg s (ex_blk 3 []) = true /\
  map (fun x => match x with WLog => true | WMain _ => false end) (dual_steps ex_cfg s (ex_blk 3 [])) = [false; true; false; false; false] /\
  stored (apply_writes s (mains (firstn 4 (dual_steps ex_cfg s (ex_blk 3 []))))) (bid 3 3) = true /\
  stored (apply_writes s (mains (firstn 3 (dual_steps ex_cfg s (ex_blk 3 []))))) (bid 3 3) = false.
Proof. exact ex_dual. Qed.

(* ---- value consistency and orphans_harmless.
   [key_ver k] is the (number, conflicts) version a key is stamped with (trie nodes, transactions, receipts, tx-index entries).
   Inv3 = FreshInv (a stored block's conflicts number is below ScanConflicts of its height) + VerInv (every node a stored root
   reaches carries the version of a stored block); it holds for every genesis store and at EVERY cut of every history. *)
Theorem every_cut_satisfies_inv3 c s0 hist k : wf_cfg c -> Inv c s0 -> Inv3 s0 -> wf_hist c s0 hist -> Inv3 (crash c s0 hist k).
Proof. exact (crash_inv3 c s0 hist k). Qed.

(* no import — complete or cut anywhere — writes a key stamped with the version of a stored block *)
Theorem import_never_rewrites_stored_version c s b j k v :
  FreshInv s -> key_ver k = Some v -> stored_ver s v ->
  get (apply_writes s (firstn j (import_batches c s b))) k = get s k.
Proof. exact (ProofsOrphans.import_never_rewrites_stored_version c s b j k v). Qed.

(* ... so everything a stored block wrote keeps its value over any number of further imports *)
Theorem run_keeps_stored_data c l s k v : wf_cfg c -> Inv c s -> Inv3 s -> wf_hist c s l ->
  key_ver k = Some v -> stored_ver s v -> get (run c s l) k = get s k.
Proof. exact (ProofsOrphans.run_keeps_stored_data c l s k v). Qed.

(* ... and after a crash at ANY cut, whatever block comes next (the interrupted one or another block that is given the same
   version as the leftovers) and however far its import gets: what a committed root resolves to does not change *)
Theorem reimport_after_crash_keeps_stored_data c s0 hist k b' j key v :
  wf_cfg c -> Inv c s0 -> Inv3 s0 -> wf_hist c s0 hist ->
  let s' := crash c s0 hist k in
  key_ver key = Some v -> stored_ver s' v ->
  get (apply_writes s' (firstn j (import_batches c s' b'))) key = get s' key.
Proof. exact (ProofsOrphans.reimport_after_crash_keeps_stored_data c s0 hist k b' j key v). Qed.

(* orphans_harmless: a versioned key written by an import whose block is not stored is reachable from no stored root *)
Theorem orphans_unreachable c s b j w o :
  Inv3 s -> In w (firstn j (import_batches c s b)) -> In o w -> stored s (b_id b) = false ->
  forall x sm, get_summary s x = Some sm -> key_ver (op_key o) <> None -> ~ In (op_key o) (s_sreach sm ++ s_ireach sm).
Proof. exact (ProofsOrphans.orphans_unreachable c s b j w o). Qed.

(* the tx index: at every cut each transaction of each stored block has its tx-index entry, and the (number, conflicts) in
   the entry's key identifies exactly one stored block — the block holding the transaction *)
Theorem tx_index_points_to_its_block c s0 hist k : wf_cfg c -> Inv c s0 -> Inv3 s0 -> Inv4 s0 -> wf_hist c s0 hist ->
  let s := crash c s0 hist k in
  forall x sm t, get_summary s x = Some sm -> In t (s_txs sm) ->
    has s (KTxMeta t (num_of x) (s_conf sm)) = true /\
    (forall y sy, get_summary s y = Some sy -> num_of y = num_of x -> s_conf sy = s_conf sm -> y = x).
Proof. exact (ProofsOrphans.tx_index_points_to_its_block c s0 hist k). Qed.

Theorem genesis_store_inv4 g : b_txs g = [] -> Inv4 (genesis_store g).
Proof. exact (genesis_inv4 g). Qed.

Theorem genesis_store_inv3 g : b_skeep g = [] -> b_ikeep g = [] -> Inv3 (genesis_store g).
Proof. exact (genesis_inv3 g). Qed.

Example orphan_exists_in_example :
  Inv3 ex_s0 /\ Inv4 ex_s0 /\
  has (crash ex_cfg ex_s0 ex_hist 9) (KNode 0 31 3 0) = true /\ stored (crash ex_cfg ex_s0 ex_hist 9) (bid 3 3) = false /\
  stored (crash ex_cfg ex_s0 ex_hist 9) (bid 2 2) = true.
Proof. exact (conj ex_inv3 (conj ex_inv4 ex_orphan)). Qed.

(* non-vacuity: a concrete genesis and a seven-block history over three committed epochs meet the hypotheses *)
Example hypotheses_met : wf_cfg ex_cfg /\ Inv ex_cfg ex_s0 /\ wf_hist ex_cfg ex_s0 ex_hist.
Proof. exact (conj ex_wf_cfg (conj ex_inv0 ex_wf_hist)). Qed.

Example history_not_trivial :
  get_id (run ex_cfg ex_s0 ex_hist) KBest = Some (bid 7 7) /\
  finalized ex_cfg (run ex_cfg ex_s0 ex_hist) = bid 4 4 /\
  map snd (tallies ex_cfg (run ex_cfg ex_s0 ex_hist)) = [4; 3; 2; 1].
Proof. exact ex_run_facts. Qed.

(* ================================================================ (* composition *) C13/C20 <-> C03/C04
   The crash model (key-value write log, justified/committed flags of a round as DATA) and wp-bft's model (coq/Bft: block list,
   vote tally from signers and COM bits, compressed ids) connected by a simulation (Compose/CrashBft.v).
   Parameters of the bridge: the Bft configuration [bc] with the same epoch length; an id translation [tr] on a domain [D]
   that keeps the block number and the order (hence injective; instance: CrashBft.tr_small / CrashBft.small, and what the C04
   harness does when it compresses ids); signer [sg] and COM bit [cm] of a block id (data the crash model does not carry).
   The coupling hypothesis (CrashBft.flags_ok / flags_are_tallies; per imported block CrashBft.blk_flags_ok inside blk_ok /
   hist_ok): the flags the crash side carries ARE Bft.Model.compute_state's for that block over the stored blocks. *)
Section Composition.
Variable c : cfg.
Variable bc : CrashBft.BM.cfg.
Hypothesis HcL : CrashBft.BM.c_L bc = c_L c.
Variable tr : N -> N.
Variable D : N -> Prop.
Hypothesis tr_num : forall a, D a -> CrashBft.BT.idnum (tr a) = num_of a.
Hypothesis tr_lt : forall a b, D a -> D b -> (tr a <? tr b) = (a <? b).
Variables (sg : N -> N) (cm : N -> bool) (master : N).

Local Notation ablk := (CrashBft.ablk tr sg cm).
Local Notation asum := (CrashBft.asum tr sg cm).
Local Notation abs := (CrashBft.abs c tr sg cm master).
Local Notation refines := (CrashBft.refines c tr D sg cm).
Local Notation view := (CrashBft.view c tr D sg cm).
Local Notation flags_ok := (CrashBft.flags_ok bc tr sg cm).
Local Notation flags_are_tallies := (CrashBft.flags_are_tallies c bc tr sg cm master).
Local Notation blk_ok := (CrashBft.blk_ok bc tr D sg cm).
Local Notation hist_ok := (CrashBft.hist_ok c bc tr D sg cm).
Local Notation sim := (CrashBft.sim c bc tr D sg cm).
Local Notation bft_import_all := (CrashBft.BN.import_all bc true).

(* the decision functions of the two models agree on related states: the parent-link walk with fuel and block_at on the
   structural chain; computeState's quality; findCheckpointByQuality (the two sort.Search definitions differ only when the
   fuel runs out, which it never does with the fuel both callers pass: bsearch_agree, pure arithmetic) *)
Theorem ancestor_walk_is_block_at s R qs id n : view s R qs -> D id ->
  option_map tr (anc s id n) = option_map CrashBft.BT.b_id (CrashBft.BT.block_at R (tr id) n).
Proof. intros V. exact (CrashBft.anc_block_at c bc HcL tr D tr_num tr_lt sg cm master s R qs V id n). Qed.

Theorem quality_of_is_compute_state s R qs id parent score just : view s R qs -> wf_cfg c -> D id -> D parent ->
  (num_of id = 0 \/ (stored s parent = true /\ num_of parent + 1 = num_of id)) ->
  just = CrashBft.BM.s_just (CrashBft.BM.compute_state bc R qs (CrashBft.ablk_of tr sg cm id parent score)) ->
  quality_of c s parent (num_of id) just =
  Some (CrashBft.BM.s_q (CrashBft.BM.compute_state bc R qs (CrashBft.ablk_of tr sg cm id parent score))).
Proof. intros V Hc. exact (CrashBft.quality_agree c bc HcL tr D tr_num tr_lt sg cm master s R qs V Hc id parent score just). Qed.

Theorem search_definitions_agree (f : N -> option bool) (g : N -> CrashBft.BM.res bool) :
  (forall h, CrashBft.rel_res eq (f h) (g h)) ->
  forall fuel i j, (N.to_nat (j - i) < fuel)%nat ->
  CrashBft.rel_res eq (bsearch fuel f i j) (CrashBft.BM.bsearch fuel g i j).
Proof. exact (CrashBft.bsearch_agree f g). Qed.

Theorem find_checkpoint_is_find_cp s R qs t fin head : view s R qs -> D fin -> D head ->
  CrashBft.rel_res (fun a b => b = tr a) (find_checkpoint c s t fin head) (CrashBft.BM.find_cp bc R qs t (tr fin) (tr head)).
Proof. intros V. exact (CrashBft.find_agree c bc HcL tr D tr_num tr_lt sg cm master s R qs V t fin head). Qed.

(* ONE IMPORT.  Node.processBlock on a store against Bft.Model.import on a node that refines it: the new store refines the
   new node (same stored blocks, same best block, same finalized block, same quality records), the coupling is kept, and
   the outcome classes agree (stored / known / parent missing / refused by Accepts; "too far ahead" is "parent missing") *)
Theorem crash_import_is_bft_import s nd b : wf_cfg c -> refines s nd -> flags_ok s nd -> blk_ok s nd b ->
  let s' := run1 c s b in
  let r := CrashBft.BM.import true bc nd (ablk b) in
  refines s' (fst r) /\ flags_ok s' (fst r) /\
  CrashBft.bft_class (snd r) = CrashBft.crash_class (CrashBft.crash_code c s b) /\
  CrashBft.BN.valid_child (CrashBft.BM.n_repo nd) (ablk b) /\
  CrashBft.crash_code c s b <> 6 /\
  CrashBft.BM.n_repo (fst r) = if CrashBft.crash_code c s b =? 0 then ablk b :: CrashBft.BM.n_repo nd else CrashBft.BM.n_repo nd.
Proof. exact (CrashBft.import_sim c bc HcL tr D tr_num tr_lt sg cm master s nd b). Qed.

(* RESTART of a store no import of which was cut = Bft.Model.restart (a crash image is covered by the resume theorems) *)
Theorem crash_restart_is_bft_restart s nd : wf_cfg c -> refines s nd -> Qinv c s -> Hinv s ->
  exists best, restart c true s = Some (s, best, finalized c s) /\
    refines s (CrashBft.BM.restart nd) /\ CrashBft.BM.n_best (CrashBft.BM.restart nd) = tr best /\
    CrashBft.BM.e_fin (CrashBft.BM.n_eng (CrashBft.BM.restart nd)) = tr (finalized c s).
Proof. exact (CrashBft.restart_sim c tr D sg cm s nd). Qed.

(* RESTART ON A CRASH IMAGE.  After a crash at ANY cut k of a history (i = index of the interrupted import), NewRepository +
   NewEngine with the F6 repair bring up a node that refines Bft.Model.restart of the Bft node that imported the first i
   blocks (the cut precedes the block bulk) or the first i + 1 (the cut follows it: the repair re-runs the pending
   CommitBlock).  Genesis stores satisfy the premise sim (genesis_is_bft_init). *)
Theorem crash_restart_is_bft_node s0 nd0 hist k i :
  wf_cfg2 c -> Inv2 c s0 -> wf_hist c s0 hist -> cut_in_import c s0 hist k i ->
  sim s0 nd0 -> hist_ok s0 nd0 hist ->
  let img := crash c s0 hist k in
  exists best, restart c true img = Some (restart_store c true img, best, finalized c (restart_store c true img)) /\
    (refines (restart_store c true img) (CrashBft.BM.restart (bft_import_all nd0 (map ablk (firstn i hist)))) \/
     refines (restart_store c true img) (CrashBft.BM.restart (bft_import_all nd0 (map ablk (firstn (S i) hist))))).
Proof. exact (CrashBft.crash_restart_sim c bc HcL tr D tr_num tr_lt sg cm master s0 nd0 hist k i). Qed.

Theorem genesis_is_bft_init g : wf_cfg c -> c_g c = b_id g -> b_skeep g = [] -> b_ikeep g = [] ->
  b_just g = false -> b_comm g = false -> D (b_id g) ->
  sim (genesis_store g) (CrashBft.BM.init_node (ablk g) master).
Proof. exact (CrashBft.genesis_sim c bc HcL tr D tr_num tr_lt sg cm master g). Qed.

(* from a genesis store *)
Section FromGenesis.
Variable g : blk.
Hypothesis Hc2 : wf_cfg2 c.
Hypothesis Hg : c_g c = b_id g.
Hypothesis Hk : b_skeep g = [].
Hypothesis Hi : b_ikeep g = [].
Hypothesis Hj : b_just g = false.
Hypothesis Hcm : b_comm g = false.
Hypothesis Hd : D (b_id g).
Local Notation gnode := (CrashBft.gnode tr sg cm master g).

(* the abstraction function along the uninterrupted run: abs of the store after the history refines it, satisfies the
   coupling, and is the Bft node after the same imports (same repository list, best, finalized, same record under every id) *)
Theorem abs_of_run_is_bft_run hist : hist_ok (genesis_store g) gnode hist ->
  let s := run c (genesis_store g) hist in
  let nd := bft_import_all gnode (map ablk hist) in
  refines s (abs s) /\ flags_are_tallies s /\
  CrashBft.BM.n_repo (abs s) = CrashBft.BM.n_repo nd /\ CrashBft.BM.n_best (abs s) = CrashBft.BM.n_best nd /\
  CrashBft.BM.e_fin (CrashBft.BM.n_eng (abs s)) = CrashBft.BM.e_fin (CrashBft.BM.n_eng nd) /\
  (forall i, D i -> CrashBft.BM.get_q (CrashBft.BM.e_qs (CrashBft.BM.n_eng (abs s))) (tr i) =
                    CrashBft.BM.get_q (CrashBft.BM.e_qs (CrashBft.BM.n_eng nd)) (tr i)).
Proof. exact (CrashBft.abs_of_run_is_bft_run c bc HcL tr D tr_num tr_lt sg cm master g Hc2 Hg Hk Hi Hj Hcm Hd hist). Qed.

(* CRASH + RESTART + RESUME.  After a crash at ANY cut of ANY import, restart (with the F6 repair) and resumption of the
   stream, the node is in the simulation relation with the Bft node that imported the same blocks without interruption:
   "tallies and finalized after crash+restart+resume are those of the Bft model on the same stored set" *)
Theorem resumed_node_is_bft_run hist k i :
  wf_hist c (genesis_store g) hist -> cut_in_import c (genesis_store g) hist k i -> hist_ok (genesis_store g) gnode hist ->
  let nd := bft_import_all gnode (map ablk hist) in
  exists r, resume c true (crash c (genesis_store g) hist k) (skipn i hist) = Some r /\
    sim r nd /\
    (exists best, get_id r KBest = Some best /\ CrashBft.BM.n_best nd = tr best) /\
    CrashBft.BM.e_fin (CrashBft.BM.n_eng nd) = tr (finalized c r) /\
    (forall id, D id -> CrashBft.BT.known (CrashBft.BM.n_repo nd) (tr id) = stored r id) /\
    (forall id, D id -> CrashBft.BM.get_q (CrashBft.BM.e_qs (CrashBft.BM.n_eng nd)) (tr id) = get_quality r id).
Proof. exact (CrashBft.resumed_is_bft_run c bc HcL tr D tr_num tr_lt sg cm master g Hc2 Hg Hk Hi Hj Hcm Hd hist k i). Qed.

(* C04 stored_quality_is_from_scratch, on every resumed node: the quality the node computes for a stored block from the
   records it finds after the crash — and the record itself at a store point — is the quality recomputed from the
   definitions (state_pure: no records, no caches) over the blocks it stores *)
Theorem stored_quality_is_from_scratch_after_resume hist k i :
  wf_hist c (genesis_store g) hist -> cut_in_import c (genesis_store g) hist k i -> hist_ok (genesis_store g) gnode hist ->
  let nd := bft_import_all gnode (map ablk hist) in
  exists r, resume c true (crash c (genesis_store g) hist k) (skipn i hist) = Some r /\
    forall id sm, get_summary r id = Some sm ->
      quality_of c r (s_parent sm) (num_of id) (s_just sm) =
        Some (CrashBft.BC.quality_pure bc (CrashBft.BT.chain_of (CrashBft.BM.n_repo nd) (tr id))) /\
      (is_storepoint (c_L c) (num_of id) = true ->
       get_quality r id = CrashBft.BC.quality_pure bc (CrashBft.BT.chain_of (CrashBft.BM.n_repo nd) (tr id))).
Proof. exact (CrashBft.resumed_quality_from_scratch c bc HcL tr D tr_num tr_lt sg cm master g Hc2 Hg Hk Hi Hj Hcm Hd hist k i). Qed.

(* C03 finalized_monotone, on every resumed node: along the history every finalized value of the Bft node has its
   predecessor on its chain (Bft.ProofsMonotone.monotone_from), these values are the crash model's finalized blocks after
   each import, and the resumed node holds the last of them *)
Theorem finalized_monotone_after_resume hist k i :
  wf_hist c (genesis_store g) hist -> cut_in_import c (genesis_store g) hist k i -> hist_ok (genesis_store g) gnode hist ->
  exists r, resume c true (crash c (genesis_store g) hist k) (skipn i hist) = Some r /\
    CrashBft.BMo.monotone_from (tr (b_id g)) (CrashBft.BMo.fin_trace bc true gnode (map ablk hist)) /\
    map snd (CrashBft.BMo.fin_trace bc true gnode (map ablk hist)) = map tr (CrashBft.cfin_trace c (genesis_store g) hist) /\
    finalized c r = last (CrashBft.cfin_trace c (genesis_store g) hist) (b_id g).
Proof. exact (CrashBft.resumed_finalized_monotone c bc HcL tr D tr_num tr_lt sg cm master g Hc2 Hg Hk Hi Hj Hcm Hd hist k i). Qed.

(* C04 finalized_is_function_of_set / import_set_order_independent, on resumed nodes: two nodes run two histories (any
   orders, duplicates, refused blocks) over a consistent block tree, each crashes at any cut, restarts and resumes; each
   one's finalized block is fin_char of the set it stores, and if they hold the same blocks (same id, parent, total score)
   they hold the same best block, the same finalized block and the same quality records *)
Theorem finalized_is_function_of_set_after_resume U h1 k1 i1 h2 k2 i2 :
  CrashBft.BO3.tree_consistent bc U -> In (ablk g) U ->
  (forall b, In b h1 \/ In b h2 -> In (ablk b) U) ->
  wf_hist c (genesis_store g) h1 -> cut_in_import c (genesis_store g) h1 k1 i1 -> hist_ok (genesis_store g) gnode h1 ->
  wf_hist c (genesis_store g) h2 -> cut_in_import c (genesis_store g) h2 k2 i2 -> hist_ok (genesis_store g) gnode h2 ->
  exists r1 r2,
    resume c true (crash c (genesis_store g) h1 k1) (skipn i1 h1) = Some r1 /\
    resume c true (crash c (genesis_store g) h2 k2) (skipn i2 h2) = Some r2 /\
    CrashBft.BO.fin_char bc (CrashBft.BM.n_repo (bft_import_all gnode (map ablk h1))) (tr (finalized c r1)) /\
    CrashBft.BO.fin_char bc (CrashBft.BM.n_repo (bft_import_all gnode (map ablk h2))) (tr (finalized c r2)) /\
    ((forall id, option_map (asum id) (get_summary r1 id) = option_map (asum id) (get_summary r2 id)) ->
     get_id r1 KBest = get_id r2 KBest /\ finalized c r1 = finalized c r2 /\
     (forall id, stored r1 id = true -> is_storepoint (c_L c) (num_of id) = true -> get_quality r1 id = get_quality r2 id)).
Proof.
  exact (CrashBft.resumed_function_of_set c bc HcL tr D tr_num tr_lt sg cm master g Hc2 Hg Hk Hi Hj Hcm Hd U h1 k1 i1 h2 k2 i2).
Qed.
End FromGenesis.
End Composition.

(* the premises of hist_ok stated once for a history: ids in the domain and numbered after their parents, Crash's trie-layer
   premise wf_hist, and the coupling along the Bft run *)
Theorem bridge_premises_from_static_ones c bc tr D sg cm l s nd :
  CrashBft.ids_ok D l -> wf_hist c s l -> CrashBft.flags_hist bc tr sg cm nd l -> CrashBft.hist_ok c bc tr D sg cm s nd l.
Proof. exact (CrashBft.hist_ok_intro c bc tr D sg cm l s nd). Qed.

(* non-vacuity: an id translation exists on ids with small low bits ... *)
Example id_bridge_instance :
  (forall a, CrashBft.small a -> CrashBft.BT.idnum (CrashBft.tr_small a) = num_of a) /\
  (forall a b, CrashBft.small a -> CrashBft.small b -> (CrashBft.tr_small a <? CrashBft.tr_small b) = (a <? b)).
Proof. exact (conj CrashBft.tr_small_num CrashBft.tr_small_lt). Qed.

(* ... every hypothesis of the theorems above holds of the example history (DEGENERATE: one signer, COM votes, one proposer
   slot, threshold 0, linear chain; the forked three-signer instance follows below) ... *)
Example bridge_hypotheses_met :
  CrashBft.BM.c_L CrashBftExamples.xbc = c_L ex_cfg /\
  (forall a, CrashBft.small a -> CrashBft.BT.idnum (CrashBft.tr_small a) = num_of a) /\
  (forall a b, CrashBft.small a -> CrashBft.small b -> (CrashBft.tr_small a <? CrashBft.tr_small b) = (a <? b)) /\
  wf_cfg2 ex_cfg /\ c_g ex_cfg = b_id ex_gen /\ b_skeep ex_gen = [] /\ b_ikeep ex_gen = [] /\
  b_just ex_gen = false /\ b_comm ex_gen = false /\ CrashBft.small (b_id ex_gen) /\
  wf_hist ex_cfg ex_s0 ex_hist /\
  CrashBft.hist_ok ex_cfg CrashBftExamples.xbc CrashBft.tr_small CrashBft.small CrashBftExamples.xsg CrashBftExamples.xcm
                   ex_s0 CrashBftExamples.xnode ex_hist.
Proof. exact CrashBftExamples.ex_bridge_hypotheses. Qed.

(* ... the coupling is CHECKED (vm_compute of the Bft tally against the stored flags) for the genesis store, the store after
   the history and the store resumed after the F6 cut ... *)
Example flags_are_tallies_on_example :
  CrashBft.flags_are_tallies ex_cfg CrashBftExamples.xbc CrashBft.tr_small CrashBftExamples.xsg CrashBftExamples.xcm
                             CrashBftExamples.xmaster ex_s0 /\
  CrashBft.flags_are_tallies ex_cfg CrashBftExamples.xbc CrashBft.tr_small CrashBftExamples.xsg CrashBftExamples.xcm
                             CrashBftExamples.xmaster (run ex_cfg ex_s0 ex_hist) /\
  match resume ex_cfg true (crash ex_cfg ex_s0 ex_hist f6_cut) (skipn 2 ex_hist) with
  | Some r => CrashBft.flags_are_tallies ex_cfg CrashBftExamples.xbc CrashBft.tr_small CrashBftExamples.xsg CrashBftExamples.xcm
                                         CrashBftExamples.xmaster r
  | None => False
  end.
Proof. exact CrashBftExamples.ex_flags_are_tallies. Qed.

(* ... the abstraction of the final store is the Bft node after the seven imports (best = block 7, finalized = block 4,
   quality records 1 2 3 4), the store resumed after the F6 cut abstracts to the same node, and the example tree is consistent *)
Example abs_on_example :
  CrashBft.BM.n_repo (CrashBftExamples.xabs (run ex_cfg ex_s0 ex_hist)) = CrashBft.BM.n_repo CrashBftExamples.xrun /\
  CrashBft.BM.n_best (CrashBftExamples.xabs (run ex_cfg ex_s0 ex_hist)) = CrashBft.BM.n_best CrashBftExamples.xrun /\
  CrashBft.BM.e_fin (CrashBft.BM.n_eng (CrashBftExamples.xabs (run ex_cfg ex_s0 ex_hist))) =
    CrashBft.BM.e_fin (CrashBft.BM.n_eng CrashBftExamples.xrun) /\
  length (CrashBft.BM.n_repo CrashBftExamples.xrun) = 8%nat /\
  CrashBft.BM.n_best CrashBftExamples.xrun = CrashBft.tr_small (bid 7 7) /\
  CrashBft.BM.e_fin (CrashBft.BM.n_eng CrashBftExamples.xrun) = CrashBft.tr_small (bid 4 4) /\
  map (fun k => CrashBft.BM.get_q (CrashBft.BM.e_qs (CrashBft.BM.n_eng CrashBftExamples.xrun)) (CrashBft.tr_small (bid k k))) [1; 3; 5; 7]
    = [1; 2; 3; 4] /\
  map (fun k => get_quality (run ex_cfg ex_s0 ex_hist) (bid k k)) [1; 3; 5; 7] = [1; 2; 3; 4].
Proof. exact CrashBftExamples.ex_abs_is_bft_run. Qed.

Example resumed_abs_on_example :
  cut_in_import ex_cfg ex_s0 ex_hist f6_cut 2 /\
  option_map (fun r => (CrashBft.BM.n_repo (CrashBftExamples.xabs r), CrashBft.BM.n_best (CrashBftExamples.xabs r),
                        CrashBft.BM.e_fin (CrashBft.BM.n_eng (CrashBftExamples.xabs r))))
    (resume ex_cfg true (crash ex_cfg ex_s0 ex_hist f6_cut) (skipn 2 ex_hist)) =
  Some (CrashBft.BM.n_repo CrashBftExamples.xrun, CrashBft.BM.n_best CrashBftExamples.xrun,
        CrashBft.BM.e_fin (CrashBft.BM.n_eng CrashBftExamples.xrun)).
Proof. exact CrashBftExamples.ex_resumed_abs. Qed.

Example consistent_tree_on_example :
  CrashBft.BO3.tree_consistent CrashBftExamples.xbc (CrashBft.BM.n_repo CrashBftExamples.xrun) /\
  In (CrashBft.ablk CrashBft.tr_small CrashBftExamples.xsg CrashBftExamples.xcm ex_gen) (CrashBft.BM.n_repo CrashBftExamples.xrun) /\
  (forall b, In b ex_hist ->
     In (CrashBft.ablk CrashBft.tr_small CrashBftExamples.xsg CrashBftExamples.xcm b) (CrashBft.BM.n_repo CrashBftExamples.xrun)).
Proof. exact CrashBftExamples.ex_tree. Qed.

(* a second, non-degenerate instance of the bridge (Compose/CrashBftFork.v): epoch length 4, three proposer slots (a round is
   justified by 3 distinct signers, committed by 3 COM votes), one non-COM vote, and a fork whose round is not justified.
   The crash-side flags are the Bft tally at import time (the coupling premise); the flags differ from block to block ... *)
Example fork_bridge_flags :
  map (fun b => (num_of (b_id b), b_just b, b_comm b)) CrashBftFork.fhist =
  [ (1, false, false); (2, false, false); (3, true, false);
    (4, false, false); (5, false, false); (6, true, true); (7, true, true);
    (6, false, false); (7, false, false);
    (8, false, false); (9, false, false); (10, true, true); (11, true, true) ].
Proof. exact CrashBftFork.fhist_flags. Qed.

(* ... every hypothesis of the bridge theorems holds of it ... *)
Example fork_bridge_hypotheses_met :
  CrashBft.BM.c_L CrashBftFork.fbc = c_L CrashBftFork.fcfg /\ wf_cfg2 CrashBftFork.fcfg /\
  c_g CrashBftFork.fcfg = b_id ex_gen /\ CrashBft.small (b_id ex_gen) /\
  wf_hist CrashBftFork.fcfg CrashBftFork.fs0 CrashBftFork.fhist /\
  CrashBft.hist_ok CrashBftFork.fcfg CrashBftFork.fbc CrashBft.tr_small CrashBft.small CrashBftFork.fsg CrashBftFork.fcm
                   CrashBftFork.fs0 CrashBftFork.fnode CrashBftFork.fhist.
Proof. exact CrashBftFork.f_bridge_hypotheses. Qed.

(* ... the derived coupling is checked on the final store and on the store resumed after the F6-window cut of the SIDE store
   point 7' ... *)
Example fork_flags_are_tallies :
  CrashBft.flags_are_tallies CrashBftFork.fcfg CrashBftFork.fbc CrashBft.tr_small CrashBftFork.fsg CrashBftFork.fcm
                             CrashBftFork.fmaster (run CrashBftFork.fcfg CrashBftFork.fs0 CrashBftFork.fhist) /\
  cut_in_import CrashBftFork.fcfg CrashBftFork.fs0 CrashBftFork.fhist CrashBftFork.f_cut 8 /\
  stored (crash CrashBftFork.fcfg CrashBftFork.fs0 CrashBftFork.fhist CrashBftFork.f_cut) (bid 7 7) = true /\
  has (crash CrashBftFork.fcfg CrashBftFork.fs0 CrashBftFork.fhist CrashBftFork.f_cut) (KQuality (bid 7 7)) = false /\
  match resume CrashBftFork.fcfg true (crash CrashBftFork.fcfg CrashBftFork.fs0 CrashBftFork.fhist CrashBftFork.f_cut)
               (skipn 8 CrashBftFork.fhist) with
  | Some r => CrashBft.flags_are_tallies CrashBftFork.fcfg CrashBftFork.fbc CrashBft.tr_small CrashBftFork.fsg CrashBftFork.fcm
                                         CrashBftFork.fmaster r
  | None => False
  end.
Proof. exact CrashBftFork.f_flags_are_tallies. Qed.

(* ... the abstraction of the crash store (final and resumed) is the Bft node that imported the thirteen blocks: 14 stored
   blocks, best = block 11, finalized = block 4, quality records 1, 2, 1 (side branch), 3 ... *)
Example fork_abs_is_bft_run :
  CrashBft.BM.n_repo (CrashBftFork.fabs (run CrashBftFork.fcfg CrashBftFork.fs0 CrashBftFork.fhist)) = CrashBft.BM.n_repo CrashBftFork.frun /\
  CrashBft.BM.n_best (CrashBftFork.fabs (run CrashBftFork.fcfg CrashBftFork.fs0 CrashBftFork.fhist)) = CrashBft.BM.n_best CrashBftFork.frun /\
  CrashBft.BM.e_fin (CrashBft.BM.n_eng (CrashBftFork.fabs (run CrashBftFork.fcfg CrashBftFork.fs0 CrashBftFork.fhist))) =
    CrashBft.BM.e_fin (CrashBft.BM.n_eng CrashBftFork.frun) /\
  length (CrashBft.BM.n_repo CrashBftFork.frun) = 14%nat /\
  CrashBft.BM.n_best CrashBftFork.frun = CrashBft.tr_small (bid 11 3) /\
  CrashBft.BM.e_fin (CrashBft.BM.n_eng CrashBftFork.frun) = CrashBft.tr_small (bid 4 0) /\
  map (fun id => CrashBft.BM.get_q (CrashBft.BM.e_qs (CrashBft.BM.n_eng CrashBftFork.frun)) (CrashBft.tr_small id))
      [bid 3 1; bid 7 3; bid 7 7; bid 11 3] = [1; 2; 1; 3] /\
  map (fun id => get_quality (run CrashBftFork.fcfg CrashBftFork.fs0 CrashBftFork.fhist) id) [bid 3 1; bid 7 3; bid 7 7; bid 11 3] = [1; 2; 1; 3] /\
  option_map (fun r => (CrashBft.BM.n_repo (CrashBftFork.fabs r), CrashBft.BM.n_best (CrashBftFork.fabs r),
                        CrashBft.BM.e_fin (CrashBft.BM.n_eng (CrashBftFork.fabs r))))
    (resume CrashBftFork.fcfg true (crash CrashBftFork.fcfg CrashBftFork.fs0 CrashBftFork.fhist CrashBftFork.f_cut) (skipn 8 CrashBftFork.fhist)) =
  Some (CrashBft.BM.n_repo CrashBftFork.frun, CrashBft.BM.n_best CrashBftFork.frun, CrashBft.BM.e_fin (CrashBft.BM.n_eng CrashBftFork.frun)).
Proof. exact CrashBftFork.f_abs_is_bft_run. Qed.

(* ... and a theorem of the FromGenesis section (resumed_node_is_bft_run) APPLIED to it *)
Example fork_resumed_node_is_bft_run :
  exists r, resume CrashBftFork.fcfg true (crash CrashBftFork.fcfg CrashBftFork.fs0 CrashBftFork.fhist CrashBftFork.f_cut)
                   (skipn 8 CrashBftFork.fhist) = Some r /\
    (exists best, get_id r KBest = Some best /\ CrashBft.BM.n_best CrashBftFork.frun = CrashBft.tr_small best) /\
    CrashBft.BM.e_fin (CrashBft.BM.n_eng CrashBftFork.frun) = CrashBft.tr_small (finalized CrashBftFork.fcfg r) /\
    (forall id, CrashBft.small id -> CrashBft.BT.known (CrashBft.BM.n_repo CrashBftFork.frun) (CrashBft.tr_small id) = stored r id) /\
    (forall id, CrashBft.small id ->
       CrashBft.BM.get_q (CrashBft.BM.e_qs (CrashBft.BM.n_eng CrashBftFork.frun)) (CrashBft.tr_small id) = get_quality r id).
Proof. exact CrashBftFork.f_resumed_is_bft_run. Qed.

Print Assumptions import_keeps_visible_complete.
Print Assumptions every_cut_satisfies_invariant.
Print Assumptions crash_consistent.
Print Assumptions crash_during_repair_is_consistent.
Print Assumptions fork_bridge_flags.
Print Assumptions fork_bridge_hypotheses_met.
Print Assumptions fork_flags_are_tallies.
Print Assumptions fork_abs_is_bft_run.
Print Assumptions fork_resumed_node_is_bft_run.
Print Assumptions bft_records_after_block.
Print Assumptions genesis_store_invariant.
Print Assumptions resume_quality_refuted.
Print Assumptions f6_witness_is_that_cut.
Print Assumptions without_repair_exactly_the_f6_cuts_diverge.
Print Assumptions with_repair_every_cut_of_the_example_converges.
Print Assumptions resume_converges.
Print Assumptions bft_commit_is_one_batch.
Print Assumptions f13_split_write_refuted.
Print Assumptions f13_witness.
Print Assumptions f13_stream_converges_with_the_repair.
Print Assumptions invq_and_lag_not_vacuous.
Print Assumptions resume_converges_observations.
Print Assumptions redelivered_known_block_is_noop.
Print Assumptions import_decisions_read_only_chain_keys.
Print Assumptions run_keeps_inv2.
Print Assumptions genesis_store_inv2.
Print Assumptions resume_hypotheses_met.
Print Assumptions lagging_import_step.
Print Assumptions find_checkpoint_is_least_epoch.
Print Assumptions run_keeps_invq.
Print Assumptions genesis_store_invq.
Print Assumptions main_db_sees_the_same_writes.
Print Assumptions visible_best_block_is_logged.
Print Assumptions log_commit_follows_state_commit.
Print Assumptions side_block_has_no_log_commit.
Print Assumptions log_crash_then_resync.
Print Assumptions resync_after_log_commit.
Print Assumptions log_crash_example.
Print Assumptions dual_example.
Print Assumptions every_cut_satisfies_inv3.
Print Assumptions import_never_rewrites_stored_version.
Print Assumptions run_keeps_stored_data.
Print Assumptions reimport_after_crash_keeps_stored_data.
Print Assumptions orphans_unreachable.
Print Assumptions tx_index_points_to_its_block.
Print Assumptions genesis_store_inv4.
Print Assumptions genesis_store_inv3.
Print Assumptions orphan_exists_in_example.
Print Assumptions hypotheses_met.
Print Assumptions history_not_trivial.
Print Assumptions ancestor_walk_is_block_at.
Print Assumptions quality_of_is_compute_state.
Print Assumptions search_definitions_agree.
Print Assumptions find_checkpoint_is_find_cp.
Print Assumptions crash_import_is_bft_import.
Print Assumptions crash_restart_is_bft_restart.
Print Assumptions crash_restart_is_bft_node.
Print Assumptions genesis_is_bft_init.
Print Assumptions abs_of_run_is_bft_run.
Print Assumptions resumed_node_is_bft_run.
Print Assumptions stored_quality_is_from_scratch_after_resume.
Print Assumptions finalized_monotone_after_resume.
Print Assumptions finalized_is_function_of_set_after_resume.
Print Assumptions bridge_premises_from_static_ones.
Print Assumptions id_bridge_instance.
Print Assumptions bridge_hypotheses_met.
Print Assumptions flags_are_tallies_on_example.
Print Assumptions abs_on_example.
Print Assumptions resumed_abs_on_example.
Print Assumptions consistent_tree_on_example.
