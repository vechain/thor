(* Crash/ProofsImport.v — every prefix of the writes of an import preserves the invariant:
   the block bulk (the batch that makes a block visible) comes after everything it refers to. *)
From Coq Require Import List NArith Bool Lia.
From Verif Require Import Crash.Model Crash.ProofsStore Crash.ProofsInv.
Import ListNotations.
Open Scope N_scope.

Lemma writes_of_steps_app l1 l2 : writes_of_steps (l1 ++ l2) = writes_of_steps l1 ++ writes_of_steps l2.
Proof. unfold writes_of_steps. apply flat_map_app. Qed.

Lemma writes_of_steps_map ws : writes_of_steps (map SWrite ws) = ws.
Proof. induction ws; simpl; auto. f_equal; auto. Qed.

Lemma enum_from_map {A B} (f : A -> B) l : forall n i x,
  In (i, x) (enum_from n (map f l)) -> exists y, In (i, y) (enum_from n l) /\ x = f y.
Proof.
  induction l as [|a l IH]; intros n i x H; simpl in *; [tauto|].
  destruct H as [H|H].
  - inversion H; subst. exists a; auto.
  - destruct (IH _ _ _ H) as (y & Hy & ->). exists y; auto.
Qed.

Section Bulk.
  Variables (b : blk) (conf : N) (ab : bool).
  Local Notation id := (b_id b).
  Local Notation sm := (summary_of b conf).
  Local Notation bulk := (block_bulk b conf ab).

  Lemma in_bulk o : In o bulk ->
    (exists i t p, o = Put (KTxFilter p) (VBlob 0) \/ o = Put (KTxMeta (t_id t) (num_of id) conf) (VBlob (t_meta t)) \/
                   o = Put (KTx (num_of id) conf i) (VBlob (t_blob t)) \/ o = Put (KReceipt (num_of id) conf i) (VBlob (t_rcpt t)))
    \/ o = Del (KHead (b_parent b)) \/ o = Put (KHead id) (VBlob 0) \/ o = Put (KSummary id) (VSum sm)
    \/ (ab = true /\ o = Put KBest (VId id)).
  Proof.
    unfold block_bulk. intro H.
    apply in_app_or in H. destruct H as [H|H].
    { apply in_flat_map in H. destruct H as ([i t] & _ & H). left. exists i, t. simpl in H.
      destruct H as [<-|H]; [eexists; left; reflexivity|]. exists 0. destruct H as [<-|[<-|[]]]; auto. }
    apply in_app_or in H. destruct H as [H|H].
    { apply in_map_iff in H. destruct H as ([i t] & <- & _). left. exists i, t, 0. auto. }
    apply in_app_or in H. destruct H as [H|H].
    { simpl in H. destruct H as [<-|[<-|[<-|[]]]]; auto. }
    destruct ab; simpl in H; [destruct H as [<-|[]]; auto 6|destruct H].
  Qed.

  Lemma bulk_keys o : In o bulk ->
    match op_key o with
    | KTxFilter _ | KTxMeta _ _ _ | KTx _ _ _ | KReceipt _ _ _ | KHead _ => True
    | KBest => ab = true
    | KSummary i => i = id
    | _ => False
    end.
  Proof.
    intro H. destruct (in_bulk o H) as [(i & t & p & [->|[->|[->| ->]]])|[->|[->|[->|[E ->]]]]]; simpl; auto.
  Qed.

  Lemma bulk_nd : nd_batch bulk.
  Proof.
    intros o H. destruct (in_bulk o H) as [(i & t & p & [->|[->|[->| ->]]])|[->|[->|[->|[_ ->]]]]]; reflexivity.
  Qed.

  Lemma bulk_split : exists A, bulk = A ++ Put (KSummary id) (VSum sm) :: (if ab then [Put KBest (VId id)] else []).
  Proof.
    unfold block_bulk.
    match goal with |- exists A, ?X ++ ?Y ++ [?d; ?h; ?S] ++ ?T0 = _ => exists (X ++ Y ++ [d; h]) end.
    repeat rewrite <- app_assoc. reflexivity.
  Qed.

  Lemma bulk_summary s i :
    get_summary (apply_batch s bulk) i = if N.eq_dec i id then Some sm else get_summary s i.
  Proof.
    destruct (N.eq_dec i id) as [->|Hne].
    - destruct bulk_split as (A & E). rewrite E. unfold get_summary.
      rewrite get_put_last; auto. intros o Ho. destruct ab; [destruct Ho as [<-|[]]; discriminate|destruct Ho].
    - apply get_summary_frame. intros o Ho E. pose proof (bulk_keys o Ho) as K. rewrite E in K. congruence.
  Qed.

  Lemma bulk_stored_mono s p : stored s p = true -> stored (apply_batch s bulk) p = true.
  Proof. unfold stored. rewrite bulk_summary. destruct (N.eq_dec p id); auto. Qed.

  Lemma bulk_stored_b s : stored (apply_batch s bulk) id = true.
  Proof. unfold stored. rewrite bulk_summary. destruct (N.eq_dec id id); congruence. Qed.

  Lemma bulk_best s :
    get_id (apply_batch s bulk) KBest = if ab then Some id else get_id s KBest.
  Proof.
    destruct bulk_split as (A & E). pose proof bulk_keys as K. destruct ab.
    - rewrite E. unfold get_id. change (A ++ ?x :: [?y]) with (A ++ [x] ++ [y]). rewrite app_assoc, get_put_last; auto.
    - apply get_id_frame. intros o Ho E2. specialize (K o Ho). rewrite E2 in K. discriminate.
  Qed.

  Lemma bulk_other_frame s k :
    match k with KQuality _ | KFinalized | KNode _ _ _ _ | KCode _ => True | _ => False end ->
    get (apply_batch s bulk) k = get s k.
  Proof.
    intro Hk. apply get_frame. intros o Ho E. pose proof (bulk_keys o Ho) as K. rewrite E in K.
    destruct k; auto.
  Qed.

  Lemma bulk_txs s it : In it (enum_from 0 (s_txs sm)) ->
    has (apply_batch s bulk) (KTx (num_of id) (s_conf sm) (fst it)) = true /\
    has (apply_batch s bulk) (KReceipt (num_of id) (s_conf sm) (fst it)) = true.
  Proof.
    intro H. destruct it as [i x]. simpl in H. unfold summary_of in H. simpl in H.
    destruct (enum_from_map _ _ _ _ _ H) as (y & Hy & _). simpl.
    split.
    - eapply has_put_in with (v := VBlob (t_blob y)).
      + unfold block_bulk. apply in_or_app. left. apply in_flat_map. exists (i, y). split; auto.
        simpl. right; right; left. reflexivity.
      + apply nd_no_del; auto. apply bulk_nd.
    - eapply has_put_in with (v := VBlob (t_rcpt y)).
      + unfold block_bulk. apply in_or_app. right. apply in_or_app. left.
        apply in_map_iff. exists (i, y). split; auto.
      + apply nd_no_del; auto. apply bulk_nd.
  Qed.

  (* the batch that makes the block visible establishes the invariant when everything it refers to is already there
     (a best pointer is not asked of the store before the genesis block's own bulk) *)
  Lemma bulk_inv c s :
    (ab = true \/ exists x, get_id s KBest = Some x /\ stored s x = true) ->
    (forall i smi, get_summary s i = Some smi -> ok_block c s i smi) ->
    (forall i, has s (KQuality i) = true -> stored s i = true) ->
    (forall f, get_id s KFinalized = Some f -> stored s f = true) ->
    (forall k, In k (s_sreach sm) -> is_node k = true /\ has s k = true) ->
    (forall k, In k (s_ireach sm) -> is_node k = true /\ has s k = true) ->
    (id = c_g c /\ num_of id = 0) \/ (stored s (b_parent b) = true /\ num_of (b_parent b) + 1 = num_of id) ->
    Inv c (apply_batch s bulk).
  Proof.
    intros Ib Ibl Iq If Hsr Hir Hp.
    assert (M : forall k, is_head k = false -> has s k = true -> has (apply_batch s bulk) k = true)
      by (intros; apply has_mono; auto; apply bulk_nd).
    assert (Mn : forall k, is_node k = true /\ has s k = true -> is_node k = true /\ has (apply_batch s bulk) k = true)
      by (intros k [Hk Hh]; split; auto; apply M; auto; destruct k; simpl in *; congruence).
    pose proof (bulk_stored_b s) as Hid. pose proof (bulk_stored_mono s) as Sm.
    constructor.
    - rewrite bulk_best. destruct ab; [exists id; auto|].
      destruct Ib as [Ib|(x & H1 & H2)]; [discriminate|]. exists x; auto.
    - intros i smi H. rewrite bulk_summary in H. destruct (N.eq_dec i id) as [->|Hne].
      + inversion H; subst smi. split; [apply bulk_txs|]. split; [|split]; auto.
        destruct Hp as [Hp|[Hp Hn]]; auto using bulk_stored_mono.
      + eapply ok_block_mono; [exact M|apply bulk_stored_mono|apply Ibl; auto].
    - intros i H. apply bulk_stored_mono. apply Iq. unfold has in *. rewrite bulk_other_frame in H; simpl; auto.
    - intros f H. apply bulk_stored_mono. apply If. unfold get_id in *. rewrite bulk_other_frame in H; simpl; auto.
  Qed.
End Bulk.

(* ---- the trie commits: every new node of the block is there before the block bulk *)

Lemma in_node_ops_put cls maj min l k :
  In k (map op_key (node_ops cls maj min l)) -> exists v, In (Put k v) (node_ops cls maj min l).
Proof.
  intro H. apply in_map_iff in H. destruct H as (o & <- & Ho). unfold node_ops in *.
  apply in_map_iff in Ho. destruct Ho as (p & <- & Hp). simpl. exists (VBlob (snd p)).
  apply in_map_iff. exists p; auto.
Qed.

Lemma node_ops_is_node cls maj min l k : In k (map op_key (node_ops cls maj min l)) -> is_node k = true.
Proof.
  intro H. apply in_map_iff in H. destruct H as (o & <- & Ho). unfold node_ops in Ho.
  apply in_map_iff in Ho. destruct Ho as (p & <- & _). reflexivity.
Qed.

Lemma node_head k : is_node k = true -> is_head k = false.
Proof. destruct k; simpl; congruence. Qed.

Lemma pre_aux b conf w : In w (state_batches b conf ++ [index_batch b conf]) -> aux_batch w.
Proof. intro Hw. apply in_app_or in Hw. destruct Hw as [Hw|[<-|[]]]; [eapply state_batches_aux; eauto|apply index_batch_aux]. Qed.

(* what the roots of the new block reach: nodes written by its own trie commits, and kept nodes of older versions *)
Lemma summary_reach b conf k : In k (s_sreach (summary_of b conf)) \/ In k (s_ireach (summary_of b conf)) ->
  (exists cls l, In (node_ops cls (num_of (b_id b)) conf l) (state_batches b conf ++ [index_batch b conf]) /\
                 In k (map op_key (node_ops cls (num_of (b_id b)) conf l)))
  \/ In k (b_skeep b) \/ In k (b_ikeep b).
Proof.
  cbn [summary_of s_sreach s_ireach]. intros [Hk|Hk]; apply in_app_or in Hk; destruct Hk as [Hk|Hk]; auto; left.
  - rewrite map_app in Hk. apply in_app_or in Hk. destruct Hk as [Hk|Hk].
    + rewrite concat_map in Hk. apply in_concat in Hk. destruct Hk as (ks & Hks & Hk).
      apply in_map_iff in Hks. destruct Hks as (w & <- & Hw). apply in_map_iff in Hw. destruct Hw as (l & <- & Hl).
      exists 1, l. split; auto. unfold state_batches. apply in_or_app. left. apply in_or_app. right. apply in_or_app. left. apply in_map; auto.
    + exists 0, (b_account b). split; auto. unfold state_batches. apply in_or_app. left. apply in_or_app. right. apply in_or_app. right. left; auto.
  - exists 2, (b_index b). split; auto. apply in_or_app. right. left; auto.
Qed.

Lemma new_nodes_has s b conf k :
  (forall k, In k (b_skeep b) \/ In k (b_ikeep b) -> is_node k = true /\ has s k = true) ->
  In k (s_sreach (summary_of b conf)) \/ In k (s_ireach (summary_of b conf)) ->
  is_node k = true /\ has (apply_writes s (state_batches b conf ++ [index_batch b conf])) k = true.
Proof.
  intros Hold Hk.
  assert (Hnd : forall w, In w (state_batches b conf ++ [index_batch b conf]) -> nd_batch w) by (intros; eapply aux_nd, pre_aux; eauto).
  destruct (summary_reach b conf k Hk) as [(cls & l & Hw & Hn)|Hkeep].
  - pose proof (node_ops_is_node _ _ _ _ _ Hn) as Hnode. split; auto.
    destruct (in_node_ops_put _ _ _ _ _ Hn) as (v & Hv). eapply has_put_in_writes; eauto using node_head.
  - destruct (Hold k Hkeep) as [Hnode Hh]. split; auto. apply has_mono_writes; auto using node_head.
Qed.

(* ---- bft commit *)

Lemma find_checkpoint_some c s t fin head f : find_checkpoint c s t fin head = Some f ->
  exists idx, anc s head (num_of fin + idx * c_L c) = Some f.
Proof.
  unfold find_checkpoint. destruct (num_of head <? num_of fin); [discriminate|].
  match goal with |- match ?X with _ => _ end = _ -> _ => destruct X as [idx|]; [|discriminate] end.
  match goal with |- (if ?X then _ else _) = _ -> _ => destruct X; [discriminate|] end.
  match goal with |- match ?X with _ => _ end = _ -> _ => destruct X as [x|]; [|discriminate] end.
  destruct (x =? t); [|discriminate]. eauto.
Qed.

Lemma find_checkpoint_stored c s t fin head f : find_checkpoint c s t fin head = Some f -> stored s f = true.
Proof. intro H. destruct (find_checkpoint_some _ _ _ _ _ _ H) as (idx & Ha). apply anc_stored in Ha. tauto. Qed.

(* nothing, the quality record alone, or the quality record and the finalized record in ONE batch, then the publication *)
Lemma commit_steps_cases c s id parent just comm :
  (commit_steps c s id parent just comm = [] /\
   (is_storepoint (c_L c) (num_of id) = false \/ quality_of c s parent (num_of id) just = None)) \/
  exists q, is_storepoint (c_L c) (num_of id) = true /\ quality_of c s parent (num_of id) just = Some q /\
    (commit_steps c s id parent just comm = [SWrite [Put (KQuality id) (VNum q)]] \/
     exists f, find_checkpoint c (apply_batch s [Put (KQuality id) (VNum q)]) (q - 1) (finalized c s) id = Some f /\
       commit_steps c s id parent just comm = [SWrite [Put (KQuality id) (VNum q); Put KFinalized (VId f)]; SPubFin f]).
Proof.
  unfold commit_steps. destruct (is_storepoint (c_L c) (num_of id)); [|auto].
  destruct (quality_of c s parent (num_of id) just) as [q|]; [|auto].
  right. exists q. split; auto. split; auto.
  destruct (comm && (1 <? q) && (num_of (finalized c s) <? checkpoint (c_L c) (num_of id))); [|auto].
  destruct (find_checkpoint c _ (q - 1) (finalized c s) id) as [f|]; eauto.
Qed.

(* the same as an equation on the writes *)
Lemma commit_unfold c s id parent just comm :
  writes_of_steps (commit_steps c s id parent just comm) =
  if is_storepoint (c_L c) (num_of id) then
    match quality_of c s parent (num_of id) just with
    | None => []
    | Some q =>
      if comm && (1 <? q) && (num_of (finalized c s) <? checkpoint (c_L c) (num_of id)) then
        match find_checkpoint c (apply_batch s [Put (KQuality id) (VNum q)]) (q - 1) (finalized c s) id with
        | Some f => [[Put (KQuality id) (VNum q); Put KFinalized (VId f)]]
        | None => [[Put (KQuality id) (VNum q)]]
        end
      else [[Put (KQuality id) (VNum q)]]
    end
  else [].
Proof.
  unfold commit_steps. destruct (is_storepoint _ _); auto. destruct (quality_of _ _ _ _ _) as [q|]; auto.
  destruct (comm && (1 <? q) && _); auto. destruct (find_checkpoint _ _ _ _ _); auto.
Qed.

Lemma commit_all_prefixes c s id parent just comm :
  Inv c s -> stored s id = true ->
  all_prefixes (Inv c) s (writes_of_steps (commit_steps c s id parent just comm)).
Proof.
  intros Hi Hs. pose proof (fun v => quality_put_inv c s id v Hi Hs) as I1.
  destruct (commit_steps_cases c s id parent just comm) as [[-> _]|(q & _ & _ & [->|(f & Ef & ->)])];
    cbn [writes_of_steps flat_map app all_prefixes]; auto.
  split; [exact Hi|]. split; [|exact I].
  apply (finalized_put_inv c (apply_batch s [Put (KQuality id) (VNum q)])); auto.
  eapply find_checkpoint_stored; eauto.
Qed.

(* what the trie layer guarantees about a commit (C06/C12): a node of an older version that the new root still
   reaches was reachable from the parent's root *)
Definition wf_blk (s : store) (b : blk) : Prop :=
  forall psm, get_summary s (b_parent b) = Some psm ->
    (forall k, In k (b_skeep b) -> In k (s_sreach psm)) /\ (forall k, In k (b_ikeep b) -> In k (s_ireach psm)).

Definition import_ok (c : cfg) (s : store) (b : blk) : bool :=
  negb (max_num s + 1 <? num_of (b_id b)) && negb ((0 <? scan_conflicts s (num_of (b_id b))) && stored s (b_id b))
  && stored s (b_parent b) && (num_of (b_parent b) + 1 =? num_of (b_id b)) && accepts c s (b_parent b).

Lemma import_steps_eq c s b :
  import_steps c s b =
  if import_ok c s b then
    let conf := scan_conflicts s (num_of (b_id b)) in
    match select c s b with
    | None => map SWrite (state_batches b conf)
    | Some ab =>
        map SWrite (state_batches b conf) ++ [SWrite (index_batch b conf); SWrite (block_bulk b conf ab)]
        ++ (if ab then [SPubBest (b_id b)] else [])
        ++ commit_steps c (apply_writes s (state_batches b conf ++ [index_batch b conf; block_bulk b conf ab]))
                        (b_id b) (b_parent b) (b_just b) (b_comm b)
    end
  else [].
Proof.
  unfold import_steps, import_ok.
  destruct (max_num s + 1 <? num_of (b_id b)); [reflexivity|].
  destruct ((0 <? scan_conflicts s (num_of (b_id b))) && stored s (b_id b)); [reflexivity|].
  destruct (stored s (b_parent b)); [|reflexivity].
  destruct (num_of (b_parent b) + 1 =? num_of (b_id b)); [|reflexivity].
  destruct (accepts c s (b_parent b)); [|reflexivity].
  cbn [negb andb]. destruct (select c s b) as [ab|]; [|reflexivity].
  rewrite !writes_of_steps_app, writes_of_steps_map, <- !app_assoc. destruct ab; reflexivity.
Qed.

Lemma import_batches_eq c s b :
  import_batches c s b =
  if import_ok c s b then
    let conf := scan_conflicts s (num_of (b_id b)) in
    match select c s b with
    | None => state_batches b conf
    | Some ab =>
        let pre := state_batches b conf ++ [index_batch b conf; block_bulk b conf ab] in
        pre ++ writes_of_steps (commit_steps c (apply_writes s pre) (b_id b) (b_parent b) (b_just b) (b_comm b))
    end
  else [].
Proof.
  unfold import_batches. rewrite import_steps_eq. destruct (import_ok c s b); [|reflexivity]. cbv zeta.
  destruct (select c s b) as [ab|]; [|apply writes_of_steps_map].
  rewrite !writes_of_steps_app, writes_of_steps_map, <- app_assoc. destruct ab; reflexivity.
Qed.

(* the phases of an import that goes through: trie commits, block bulk (s3), at most one bft batch *)
Lemma import_prefixes_ind (P : store -> Prop) c s b :
  P s -> (forall s' w, P s' -> aux_batch w -> P (apply_batch s' w)) ->
  (forall ab, import_ok c s b = true -> select c s b = Some ab ->
     let conf := scan_conflicts s (num_of (b_id b)) in
     let s3 := apply_writes s (state_batches b conf ++ [index_batch b conf; block_bulk b conf ab]) in
     P (apply_writes s (state_batches b conf ++ [index_batch b conf])) ->
     P s3 /\ all_prefixes P s3 (writes_of_steps (commit_steps c s3 (b_id b) (b_parent b) (b_just b) (b_comm b)))) ->
  all_prefixes P s (import_batches c s b).
Proof.
  intros P0 Paux Pmain. rewrite import_batches_eq.
  destruct (import_ok c s b); [|simpl; auto]. cbv zeta. set (conf := scan_conflicts s (num_of (b_id b))) in *.
  assert (Aaux : forall ws, (forall w, In w ws -> aux_batch w) -> all_prefixes P s ws) by (intros; apply all_prefixes_step; auto).
  destruct (select c s b) as [ab|]; [|apply Aaux, state_batches_aux].
  pose proof (Aaux _ (pre_aux b conf)) as A2.
  destruct (Pmain ab eq_refl eq_refl (all_prefixes_last _ _ _ A2)) as [P3 Pc].
  change (state_batches b conf ++ [index_batch b conf; block_bulk b conf ab])
    with (state_batches b conf ++ [index_batch b conf] ++ [block_bulk b conf ab]) in *.
  rewrite app_assoc in *. apply all_prefixes_app; [apply all_prefixes_app; auto|exact Pc].
  rewrite apply_writes_app in P3. simpl. auto using (all_prefixes_last _ _ _ A2).
Qed.

Theorem import_all_prefixes c s b :
  wf_cfg c -> Inv c s -> wf_blk s b -> all_prefixes (Inv c) s (import_batches c s b).
Proof.
  intros Hc I Hwf. apply import_prefixes_ind; auto using aux_batch_inv.
  intros ab G _ conf s3 I2. unfold import_ok in G. repeat (apply andb_prop in G as [G ?]).
  assert (Hp : stored s (b_parent b) = true) by assumption.
  assert (Hn : num_of (b_parent b) + 1 = num_of (b_id b)) by (apply N.eqb_eq; assumption).
  apply stored_iff in Hp as (psm & Eps). destruct (Hwf psm Eps) as [Wk Wi].
  destruct (inv_blocks c s I _ _ Eps) as (_ & Ps & Pi & _).
  (* a kept node was reachable from the parent's roots, and the parent is complete *)
  assert (Hold : forall k, In k (b_skeep b) \/ In k (b_ikeep b) -> is_node k = true /\ has s k = true)
    by (intros k [Hk|Hk]; [apply Ps, Wk, Hk|apply Pi, Wi, Hk]).
  pose proof (fun k => new_nodes_has s b conf k Hold) as Hnew.
  assert (E3 : s3 = apply_batch (apply_writes s (state_batches b conf ++ [index_batch b conf])) (block_bulk b conf ab))
    by apply apply_writes_snoc2.
  assert (I3 : Inv c s3).
  { rewrite E3. apply bulk_inv; try (intros k Hk; apply Hnew; auto);
      auto using (inv_best c _ I2), (inv_blocks c _ I2), (inv_quality c _ I2), (inv_fin c _ I2).
    right. split; auto. rewrite aux_writes_stored by apply pre_aux. eapply get_summary_stored; eauto. }
  split; auto. apply commit_all_prefixes; auto. rewrite E3. apply bulk_stored_b.
Qed.
