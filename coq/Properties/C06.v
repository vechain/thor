(* Properties/C06.v — the statements, each proved by one call into Trie/ and State/, then examples that meet their premises.
   Parts 2 (stacked map) and 3 (state layer) are introduced where they start.  "World state is exactly the Merkle commitment of its logical content."
   Part 1 (trie): the tree trie.go builds is a function of the key/value content alone.
   V is the leaf type ((value, metadata) pairs); veqb is insert's bytes.Equal test (any sound test).
   Keys are hex keys closed by the terminator (vkey) — what keybytesToHex produces for every byte key. *)
From Coq Require Import List Arith Bool Lia.
From Coq Require Import NArith.
From Verif Require Import Trie.Model Trie.Keys Trie.ProofsWf Trie.ProofsMap Trie.ProofsCanon Trie.Theorems Trie.ProofsProj.
From Verif Require Import State.StackedMap State.ProofsSM State.Model State.ProofsStage State.ProofsState State.ProofsJournal State.ProofsReplay State.ProofsCommit State.ExamplesContent.
Import ListNotations.

Section C06_trie.
  Variable V : Type.
  Variable veqb : V -> V -> bool.
  Hypothesis veqb_sound : forall a b, veqb a b = true -> a = b.

  (* the shape invariant (no Short under Short, no empty Short key, >= 2 children in every Full node, values
     only under the terminator) holds for the empty trie and is preserved by Update with a value or with
     the empty value (delete) *)
  Theorem trie_wf_preserved t k ov :
    wfc V t -> vkey k -> wfc V (trie_update V veqb t k ov).
  Proof. exact (update_wf_root V veqb t k ov). Qed.

  (* Get after Update is finite-map semantics, for all terminated keys (fixed-length or not) *)
  Theorem trie_refines_map t k ov k' :
    wfc V t -> vkey k -> vkey k' ->
    trie_get V (trie_update V veqb t k ov) k' = if vkey_eq_dec k k' then ov else trie_get V t k'.
  Proof. exact (get_update V veqb veqb_sound t k ov k'). Qed.

  (* two well-formed tries with the same content are the same tree *)
  Theorem trie_canonical t1 t2 :
    wfc V t1 -> wfc V t2 -> (forall k, vkey k -> trie_get V t1 k = trie_get V t2 k) -> t1 = t2.
  Proof. exact (canonical_get V t1 t2). Qed.

  (* any two operation histories (any order, any repeated, overwritten or undone work) that denote the same
     plain map produce the same tree; hence every function of the tree — in particular the Merkle root
     H (encode t) for whatever hash H — agrees *)
  Theorem root_depends_only_on_content (R : Type) (root : node V -> R) ops1 ops2 :
    valid_ops V ops1 -> valid_ops V ops2 ->
    (forall k, vkey k -> denote V ops1 (fun _ => None) k = denote V ops2 (fun _ => None) k) ->
    root (run V veqb ops1 Nil) = root (run V veqb ops2 Nil).
  Proof.
    intros V1 V2 Heq. f_equal.
    apply (run_canonical V veqb veqb_sound ops1 ops2 Nil Nil); auto; try (left; reflexivity).
  Qed.

  (* reading a whole history back: last write wins *)
  Theorem trie_history_refines_map ops k' :
    valid_ops V ops -> vkey k' ->
    trie_get V (run V veqb ops Nil) k' = denote V ops (fun _ => None) k'.
  Proof.
    intros Hv Hk. rewrite (run_refines_map V veqb veqb_sound ops Nil k'); auto. left; reflexivity.
  Qed.

End C06_trie.

(* metadata does not reach the root: the consensus encoding of a value node is its value alone (node.go
   valueNode.encodeConsensus), so the root is a function of the tree with the leaves projected (map_node f; f = fst drops
   the metadata).  The projection keeps the shape invariant and commutes with Get; hence two well-formed tries whose
   contents agree after the projection have the same projected tree, whatever their metadata. *)
Section C06_projection.
  Variables A B : Type.
  Variable f : A -> B.

  Theorem projection_keeps_wf t : wfc A t -> wfc B (map_node f t).
  Proof. exact (map_node_wfc A B f t). Qed.

  Theorem projection_commutes_with_get t k : trie_get B (map_node f t) k = option_map f (trie_get A t k).
  Proof. exact (trie_get_map_node A B f t k). Qed.

  Theorem root_ignores_metadata (R : Type) (root : node B -> R) t1 t2 :
    wfc A t1 -> wfc A t2 ->
    (forall k, vkey k -> option_map f (trie_get A t1 k) = option_map f (trie_get A t2 k)) ->
    root (map_node f t1) = root (map_node f t2).
  Proof. intros H1 H2 H. f_equal. exact (canonical_projection A B f t1 t2 H1 H2 H). Qed.
End C06_projection.

(* Part 2 (journal / revisions): the stacked map with its per-key revision stacks (stackedmap.go) behaves as a
   plain stack of maps, and PopTo restores precisely the earlier contents.  K, Vv are the key/value types
   (state.go: addresses, code keys, storage keys with barrier, barrier keys); src is the getter of the base. *)
Section C06_stackedmap.
  Variables K Vv : Type.
  Variable keqb : K -> K -> bool.
  Hypothesis keqb_spec : forall a b, keqb a b = true <-> a = b.
  Variable src : K -> Vv.

  (* Get after any history of Push / Put / PopTo(d >= 1) from a fresh map equals lookup in the plain stack of
     maps the same history denotes: the topmost level holding the key, else the source *)
  Theorem stackedmap_refines_stack_of_maps (ops : list (smop K Vv)) k :
    pops_ok K Vv ops ->
    sm_get K Vv keqb src (sm_run K Vv keqb ops (sm_new K Vv)) k =
    aget K Vv keqb src (a_run K Vv keqb ops [new_level K Vv]) k.
  Proof. exact (stackedmap_refines_lemma K Vv keqb keqb_spec src ops k). Qed.

  (* RevertTo(NewCheckpoint()) after any operations — puts, nested checkpoints, reverts to revisions above the
     checkpoint — reads exactly as before the checkpoint, for every key *)
  Theorem revert_restores (sm : StackedMap.smap K Vv) (ops : list (smop K Vv)) k :
    inv K Vv keqb sm -> above K Vv (length (stack sm)) ops ->
    sm_get K Vv keqb src (sm_pop_to K Vv keqb (snd (sm_push K Vv sm)) (sm_run K Vv keqb ops (fst (sm_push K Vv sm)))) k =
    sm_get K Vv keqb src sm k.
  Proof. exact (revert_restores_lemma K Vv keqb keqb_spec src sm ops k). Qed.

  (* the invariant is established by New and kept by every operation, so it holds in every reachable map *)
  Theorem stackedmap_inv_reachable (ops : list (smop K Vv)) :
    pops_ok K Vv ops -> inv K Vv keqb (sm_run K Vv keqb ops (sm_new K Vv)).
  (* src is a parameter of this part as a whole, also where it is not read *)
  Proof using keqb_spec src. intros P. exact (proj1 (run_refines K Vv keqb keqb_spec ops (sm_new K Vv) (inv_new K Vv keqb) P)). Qed.
End C06_stackedmap.

(* Part 3 (state layer, State/Model.v): state.State over the stacked map and the tries. *)
Section C06_state.
  Variable hk hs : N -> list nat.                      (* secure keys (Blake2b) of addresses / storage keys, as hex keys *)
  Variable trimkey : N -> bytes.
  Hypothesis hk_valid : forall a, vkey (hk a).
  Hypothesis hk_inj : forall a b, hk a = hk b -> a = b.
  Hypothesis hs_valid : forall k, vkey (hs k).
  Hypothesis hs_inj : forall a b, hs a = hs b -> a = b.

  (* state_refines_map: after ANY history of SetBalance / SetEnergy / SetMaster / SetCode / SetStorage / SetRawStorage /
     Delete (storage barrier) / NewCheckpoint / RevertTo(n >= 1) on a state opened on any base, the account record,
     the code and every raw storage slot read what the plain record map `a_step` computes for the same history
     (setters update the top snapshot, Delete empties account, code and storage, NewCheckpoint copies the top,
     RevertTo(n) keeps the first n snapshots).  Balance, energy, master, code hash, Exists are fields of the record. *)
  Theorem state_refines_map base codes ops :
    Forall state_op ops ->
    let s := run_state hk hs ops (open base codes) in
    let x := last (run_abs ops [abs0 hk hs base codes]) dflt in
    forall a,
      get_account hk hs s a = x_acc x a /\
      get_code hk hs s a = x_code x a /\
      forall k, get_raw_storage hk hs s a k = x_stor x a k.
  Proof. exact (state_refines_map_lemma hk hs base codes ops). Qed.

  (* the driver of the correspondence run executes exactly these steps on its current state *)
  Theorem world_runs_state_ops ops w :
    Forall state_op ops -> w_cur (fold_left (step hk hs trimkey) ops w) = run_state hk hs ops (w_cur w).
  Proof. intros H. exact (world_run_cur hk hs trimkey ops w H). Qed.

  Theorem stage_wf_preserved s major minor :
    wfc aleaf (st_base s) -> wfc aleaf (stage hk hs trimkey s major minor).
  Proof. exact (stage_wf hk hs trimkey hk_valid s major minor). Qed.

  (* stage_root_canonical: the staged accounts trie is THE canonical trie of its content: any well-formed trie
     with the same leaves is the same tree, so the root is a function of the staged content alone ... *)
  Theorem stage_root_canonical s major minor t :
    wfc aleaf (st_base s) -> wfc aleaf t ->
    (forall k, vkey k -> trie_get aleaf t k = trie_get aleaf (stage hk hs trimkey s major minor) k) ->
    t = stage hk hs trimkey s major minor.
  Proof. intros Hb Ht Heq. apply canonical_get; auto. apply (stage_wf hk hs trimkey hk_valid); auto. Qed.

  (* ... and that content is what reopen_reads_back states, with the normal form
     spelled out — reopen_reads_back: for every state reached by state operations from a
     legal base (well-formed tries, no empty account stored; Nil is one, and Stage re-establishes it), the state
     re-opened on the committed root reads, for every address: the empty account with empty storage if the account
     is empty at Stage (empty accounts are dropped with their storage: account.go IsEmpty/saveAccount), and otherwise
     the same balance, energy, block time, master and code hash and the same raw value in every storage slot
     (the storage root is the new storage trie; it is explicit whenever storage was written). *)
  Theorem reopen_reads_back base codes ops major minor a :
    base_ok hk base -> Forall state_op ops ->
    let s := run_state hk hs ops (open base codes) in
    let s' := commit_reopen hk hs trimkey s major minor in
    let x := get_account hk hs s a in
    let y := get_account hk hs s' a in
    (is_empty x = true -> y = empty_account /\ forall k, get_raw_storage hk hs s' a k = []) /\
    (is_empty x = false -> same_fields y x /\ forall k, get_raw_storage hk hs s' a k = get_raw_storage hk hs s a k).
  Proof.
    intros Hb Hops.
    destruct (reachable_good hk hs base codes ops Hops) as [A D].
    apply (reopen_reads_back_lemma hk hs trimkey hk_valid hk_inj hs_valid hs_inj _ major minor A).
    rewrite D. exact Hb.
  Qed.

  (* the state root is computed from the consensus view (State/Model.v cview: account fields and the consensus view of
     the storage trie; StorageID / versions / key preimages are metadata): two well-formed accounts tries — e.g. two
     staged tries — whose leaves agree in the consensus view have the same consensus view, hence the same root for any
     root function, even when their metadata differ (Example stage_order_changes_metadata_only: the order of the first
     storage writes of two accounts changes the StorageIDs and leaves the consensus view alone) *)
  Theorem stage_root_ignores_metadata (R : Type) (root : node caccount -> R) (t1 t2 : atrie) :
    wfc aleaf t1 -> wfc aleaf t2 ->
    (forall k, vkey k -> option_map cview_leaf (trie_get aleaf t1 k) = option_map cview_leaf (trie_get aleaf t2 k)) ->
    root (cview t1) = root (cview t2).
  Proof. intros H1 H2 H. f_equal. exact (canonical_projection aleaf caccount cview_leaf t1 t2 H1 H2 H). Qed.

  (* the explicit storage root: for an account that is not empty at Stage, the committed leaf names a storage trie
     whenever a storage slot of the account was written in this block under its current barrier — even if every written
     value is empty, in which case the named trie may be the empty one (Example explicit_empty_storage_root) — and
     otherwise exactly when the account record named one already; a named storage trie is well formed and holds exactly
     the account's storage as the state reads it *)
  Theorem staged_storage_root base codes ops major minor a :
    base_ok hk base -> Forall state_op ops ->
    let s := run_state hk hs ops (open base codes) in
    let s' := commit_reopen hk hs trimkey s major minor in
    let x := get_account hk hs s a in
    let y := get_account hk hs s' a in
    is_empty x = false ->
    (stor_written s a -> exists st, a_sroot y = Some st) /\
    (~ stor_written s a -> a_sroot y = a_sroot x) /\
    (forall st, a_sroot y = Some st ->
       wfc sleaf st /\ forall k, raw_of (trie_get sleaf st (hs k)) = get_raw_storage hk hs s a k).
  Proof.
    intros Hb Hops.
    destruct (reachable_good hk hs base codes ops Hops) as [A D].
    apply (staged_sroot_lemma hk hs trimkey hk_valid hk_inj hs_valid hs_inj _ major minor A).
    rewrite D. exact Hb.
  Qed.

  (* state_root_depends_only_on_content: two histories of state operations on the same legal base holding secure keys
     only (the parent block's state; Nil is one, and Stage re-establishes both premises: stage_reestablishes_base,
     stage_keeps_secure_base) that end with the same logical content — for every address the same balance, energy, block
     time, master and code hash and the same raw value in every storage slot — and whose committed leaves name a storage
     trie for the same addresses (by staged_storage_root that is: storage written in the block under the current barrier,
     or a root carried over; it is part of the content because the code makes the root explicit, possibly empty, on a
     write) commit to the same consensus view of the accounts trie, hence to the same state root for any root function:
     whatever the order of the operations, whatever was overwritten, reverted, or deleted and re-created on the way, and
     whatever the two versions.  StorageIDs and versions do depend on order and version: they are metadata. *)
  Theorem state_root_depends_only_on_content (R : Type) (root : node caccount -> R) base codes ops1 ops2 ma1 mi1 ma2 mi2 :
    base_ok hk base -> secure_base hk hs base -> Forall state_op ops1 -> Forall state_op ops2 ->
    let s1 := run_state hk hs ops1 (open base codes) in
    let s2 := run_state hk hs ops2 (open base codes) in
    (forall a, same_fields (get_account hk hs s1 a) (get_account hk hs s2 a) /\
               (forall k, get_raw_storage hk hs s1 a k = get_raw_storage hk hs s2 a k) /\
               (a_sroot (get_account hk hs (commit_reopen hk hs trimkey s1 ma1 mi1) a) = None <->
                a_sroot (get_account hk hs (commit_reopen hk hs trimkey s2 ma2 mi2) a) = None)) ->
    root (cview (stage hk hs trimkey s1 ma1 mi1)) = root (cview (stage hk hs trimkey s2 ma2 mi2)).
  Proof.
    intros Hb Hsec H1 H2 s1 s2 Hc. f_equal.
    exact (state_root_content_lemma hk hs trimkey hk_valid hk_inj hs_valid hs_inj base codes ops1 ops2 ma1 mi1 ma2 mi2 Hb Hsec H1 H2 Hc).
  Qed.

  (* the same with the flag stated on the states BEFORE Stage (named_storage: the account is not empty and a slot was
     written in the block under the current barrier, or the record names a storage trie already); named_storage_flag is
     the equivalence with the committed leaf.  Both histories start from the same base and code store by design: the
     statement is about one block built on one parent state. *)
  Theorem named_storage_flag base codes ops major minor a :
    base_ok hk base -> Forall state_op ops ->
    let s := run_state hk hs ops (open base codes) in
    a_sroot (get_account hk hs (commit_reopen hk hs trimkey s major minor) a) = None <-> ~ named_storage hk hs s a.
  Proof.
    intros Hb Hops.
    destruct (reachable_good hk hs base codes ops Hops) as [A D].
    apply (named_storage_spec hk hs trimkey hk_valid hk_inj hs_valid hs_inj _ major minor A). rewrite D. exact Hb.
  Qed.

  Theorem state_root_depends_only_on_content_pre (R : Type) (root : node caccount -> R) base codes ops1 ops2 ma1 mi1 ma2 mi2 :
    base_ok hk base -> secure_base hk hs base -> Forall state_op ops1 -> Forall state_op ops2 ->
    let s1 := run_state hk hs ops1 (open base codes) in
    let s2 := run_state hk hs ops2 (open base codes) in
    (forall a, same_fields (get_account hk hs s1 a) (get_account hk hs s2 a) /\
               (forall k, get_raw_storage hk hs s1 a k = get_raw_storage hk hs s2 a k) /\
               (named_storage hk hs s1 a <-> named_storage hk hs s2 a)) ->
    root (cview (stage hk hs trimkey s1 ma1 mi1)) = root (cview (stage hk hs trimkey s2 ma2 mi2)).
  Proof.
    intros Hb Hsec H1 H2 s1 s2 Hc. f_equal.
    exact (state_root_content_pre_lemma hk hs trimkey hk_valid hk_inj hs_valid hs_inj base codes ops1 ops2 ma1 mi1 ma2 mi2 Hb Hsec H1 H2 Hc).
  Qed.

  (* stage_root_ignores_metadata at staged tries (any two states on well-formed bases, any versions) *)
  Theorem staged_roots_ignore_metadata (R : Type) (root : node caccount -> R) s1 s2 ma1 mi1 ma2 mi2 :
    wfc aleaf (st_base s1) -> wfc aleaf (st_base s2) ->
    (forall k, vkey k -> option_map cview_leaf (trie_get aleaf (stage hk hs trimkey s1 ma1 mi1) k) =
                         option_map cview_leaf (trie_get aleaf (stage hk hs trimkey s2 ma2 mi2) k)) ->
    root (cview (stage hk hs trimkey s1 ma1 mi1)) = root (cview (stage hk hs trimkey s2 ma2 mi2)).
  Proof.
    intros W1 W2 H. apply stage_root_ignores_metadata; auto; apply (stage_wf hk hs trimkey hk_valid); auto.
  Qed.

  (* the staged trie holds secure keys only and its storage tries no empty value: `secure_base` is inductive over chains *)
  Theorem stage_keeps_secure_base base codes ops major minor :
    base_ok hk base -> secure_base hk hs base -> Forall state_op ops ->
    secure_base hk hs (stage hk hs trimkey (run_state hk hs ops (open base codes)) major minor).
  Proof.
    intros Hb Hsec Hops.
    destruct (reachable_good hk hs base codes ops Hops) as [A D].
    apply (stage_secure hk hs trimkey hk_valid hk_inj hs_valid _ major minor A); rewrite D; auto.
  Qed.

  (* the committed trie is a legal base again, so the two theorems above apply along whole chains of blocks *)
  Theorem stage_reestablishes_base base codes ops major minor :
    base_ok hk base -> Forall state_op ops ->
    base_ok hk (stage hk hs trimkey (run_state hk hs ops (open base codes)) major minor).
  Proof.
    intros Hb Hops.
    destruct (reachable_good hk hs base codes ops Hops) as [A D].
    apply (stage_base_ok hk hs trimkey hk_valid hk_inj hs_valid _ major minor A).
    rewrite D. exact Hb.
  Qed.
End C06_state.

(* ---- non-vacuity: concrete keys / histories meeting the hypotheses ---- *)
Open Scope nat_scope.
Example vkey_example : vkey (terminate [1; 2; 10]) /\ vkey (terminate [1; 2]) /\ vkey (terminate []).
Proof. repeat split; apply vkey_terminate; repeat constructor. Qed.

Definition ex_ops1 : list (Theorems.op nat) :=
  [(terminate [1; 2; 3], Some 7); (terminate [1; 2; 4], Some 8); (terminate [1; 2], Some 9); (terminate [1; 2; 3], None)].
Definition ex_ops2 : list (Theorems.op nat) :=
  [(terminate [1; 2], Some 1); (terminate [1; 2; 4], Some 8); (terminate [1; 2], Some 9)].

Example sm_history_ok :
  pops_ok nat nat [SPut nat nat 1 10; SPush nat nat; SPut nat nat 1 11; SPush nat nat; SPut nat nat 2 5; SPopTo nat nat 2; SPopTo nat nat 1] /\
  above nat nat 1 [SPut nat nat 1 11; SPush nat nat; SPut nat nat 2 5; SPopTo nat nat 2] /\
  inv nat nat Nat.eqb (sm_new nat nat).
Proof. repeat split; repeat constructor; auto; try discriminate. Qed.

Example hk_example : vkey (terminate [3; 15; 0; 7]) /\ wfc aleaf Nil /\ (forall hk, base_ok hk Nil) /\
  Forall state_op [OBal 1%N 5%N; OCp; OSto 1%N 2%N [7%N]; ODel 1%N; ORev 1%nat; ORaw 1%N 2%N [1%N]].
Proof.
  split; [apply vkey_terminate; repeat constructor|]. split; [left; reflexivity|]. split; [intros; apply base_ok_nil|].
  repeat constructor.
Qed.

(* the key hypotheses are satisfiable (the real instance is keybytesToHex (Blake2b x): valid for every byte string,
   see Trie/DeriveRoot.v key_of_bytes_valid; injectivity is collision-freeness of Blake2b) *)
Example key_hyps_example :
  let hk := fun a : N => terminate (repeat 1 (N.to_nat a)) in
  (forall a, vkey (hk a)) /\ (forall a b, hk a = hk b -> a = b).
Proof.
  split; [exact xhk_valid|exact xhk_inj].
Qed.

Example ops_valid : valid_ops nat ex_ops1 /\ valid_ops nat ex_ops2.
Proof. split; repeat constructor. Qed.

(* the two histories differ as lists, denote the same map, and indeed build the same non-trivial tree *)
Example ops_same_tree :
  run nat Nat.eqb ex_ops1 Nil = run nat Nat.eqb ex_ops2 Nil /\
  run nat Nat.eqb ex_ops1 Nil =
    Short [1; 2] (Full [Nil; Nil; Nil; Nil; Short [16] (Value 8); Nil; Nil; Nil; Nil; Nil; Nil; Nil; Nil; Nil; Nil; Nil; Value 9]).
Proof. split; vm_compute; reflexivity. Qed.

(* concrete keys and histories for the state examples (State/ExamplesContent.v): unary secure keys, the same two accounts and
   storage slots written in two orders on the empty state; the premises of state_root_depends_only_on_content hold for them *)
Example state_content_premises :
  (forall a, vkey (xhk a)) /\ (forall a b, xhk a = xhk b -> a = b) /\ (forall k, vkey (xhs k)) /\ (forall a b, xhs a = xhs b -> a = b) /\
  base_ok xhk Nil /\ secure_base xhk xhs Nil /\ Forall state_op xops1 /\ Forall state_op xops2 /\
  forall a,
    same_fields (get_account xhk xhs xst1 a) (get_account xhk xhs xst2 a) /\
    (forall k, get_raw_storage xhk xhs xst1 a k = get_raw_storage xhk xhs xst2 a k) /\
    (a_sroot (get_account xhk xhs (commit_reopen xhk xhs xtrim xst1 1%N 0%N) a) = None <->
     a_sroot (get_account xhk xhs (commit_reopen xhk xhs xtrim xst2 1%N 0%N) a) = None).
Proof.
  split; [exact xhk_valid|]. split; [exact xhk_inj|]. split; [exact xhs_valid|]. split; [exact xhs_inj|].
  split; [apply base_ok_nil|]. split; [apply secure_base_nil|].
  split; [repeat constructor|]. split; [repeat constructor|].
  exact state_content_premise.
Qed.

(* the same accounts and storage written in two orders: the staged tries differ (StorageID carries the creation count)
   and their consensus views are equal *)
Example stage_order_changes_metadata_only :
  stage xhk xhs xtrim xst1 1%N 0%N <> stage xhk xhs xtrim xst2 1%N 0%N /\
  cview (stage xhk xhs xtrim xst1 1%N 0%N) = cview (stage xhk xhs xtrim xst2 1%N 0%N).
Proof. split; [vm_compute; discriminate|vm_compute; reflexivity]. Qed.

(* a storage write of the empty value to a fresh account: the committed leaf names the empty storage trie explicitly *)
Example explicit_empty_storage_root :
  let s := run_state xhk xhs [OBal 1%N 5%N; ORaw 1%N 2%N []] (open Nil []) in
  a_sroot (get_account xhk xhs (commit_reopen xhk xhs xtrim s 1%N 0%N) 1%N) = Some Nil /\
  a_sroot (get_account xhk xhs s 1%N) = None /\
  stor_written s 1%N.
Proof.
  split; [vm_compute; reflexivity|]. split; [vm_compute; reflexivity|].
  exists 2%N, []. vm_compute. reflexivity.
Qed.

Print Assumptions trie_wf_preserved.
Print Assumptions trie_refines_map.
Print Assumptions trie_canonical.
Print Assumptions root_depends_only_on_content.
Print Assumptions trie_history_refines_map.
Print Assumptions stackedmap_refines_stack_of_maps.
Print Assumptions revert_restores.
Print Assumptions stackedmap_inv_reachable.
Print Assumptions state_refines_map.
Print Assumptions world_runs_state_ops.
Print Assumptions stage_wf_preserved.
Print Assumptions stage_root_canonical.
Print Assumptions reopen_reads_back.
Print Assumptions stage_reestablishes_base.
Print Assumptions root_ignores_metadata.
Print Assumptions projection_keeps_wf.
Print Assumptions projection_commutes_with_get.
Print Assumptions stage_root_ignores_metadata.
Print Assumptions staged_storage_root.
Print Assumptions state_root_depends_only_on_content.
Print Assumptions stage_keeps_secure_base.
Print Assumptions named_storage_flag.
Print Assumptions state_root_depends_only_on_content_pre.
Print Assumptions staged_roots_ignore_metadata.
