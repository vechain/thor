(* State/ProofsStage.v — the staged accounts trie is well formed (hence, by canonical_get, the canonical trie of its content);
   a state re-opened on it reads the staged leaves. *)
From Coq Require Import List NArith Bool Arith Lia.
From Verif Require Import Trie.Model Trie.Keys Trie.ProofsWf Trie.Theorems State.StackedMap State.Model.
Import ListNotations.

Section STG.
  Variable hk hs : N -> list nat.
  Variable trimkey : N -> bytes.
  Hypothesis hk_valid : forall a, vkey (hk a).

  Lemma never_sound {A} (a b : A) : never a b = true -> a = b.
  Proof. discriminate. Qed.

  Lemma stage_account_wf major minor t c : wfc aleaf t -> wfc aleaf (stage_account hk hs trimkey major minor t c).
  Proof.
    intros H. unfold stage_account.
    destruct (if negb (is_empty (c_data c)) then _ else _) as [data meta].
    destruct (is_empty data); apply update_wf_root; auto.
  Qed.

  Lemma fold_stage_wf major minor chs : forall t, wfc aleaf t ->
    wfc aleaf (fold_left (stage_account hk hs trimkey major minor) chs t).
  Proof. induction chs; cbn; intros; auto. apply IHchs. apply stage_account_wf; auto. Qed.

  Theorem stage_wf s major minor : wfc aleaf (st_base s) -> wfc aleaf (stage hk hs trimkey s major minor).
  Proof. intros H. unfold stage. apply fold_stage_wf; auto. Qed.

  Theorem reopen_reads s major minor a :
    get_account hk hs (commit_reopen hk hs trimkey s major minor) a =
    match trie_get aleaf (stage hk hs trimkey s major minor) (hk a) with
    | Some (acc, _) => acc
    | None => empty_account
    end.
  Proof.
    unfold get_account, sget, commit_reopen, open, sm_get, sm_new. cbn -[trie_get stage].
    unfold load_account. destruct (trie_get aleaf _ (hk a)) as [[acc [m|]]|]; reflexivity.
  Qed.
End STG.
