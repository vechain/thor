(* Crash/ProofsOrphans.v — versions are fresh: every key an import stamps with a (number, conflicts) version carries a
   version no stored block has. Hence (value consistency) everything a stored block wrote under its version — trie nodes,
   transactions, receipts, tx-index entries — is never written again by any later import, interrupted import or resumed
   import, and (orphans_harmless) what an interrupted import left behind is reachable from no stored root. *)
From Coq Require Import List NArith Bool Lia Permutation.
From Verif Require Import Crash.Model Crash.ProofsStore Crash.ProofsInv Crash.ProofsImport Crash.ProofsCrash
  Crash.ProofsEqv Crash.ProofsShape Crash.ProofsResumeAll.
Import ListNotations.
Open Scope N_scope.

(* the (number, conflicts) version a key is stamped with *)
Definition key_ver (k : key) : option (N * N) :=
  match k with
  | KNode _ _ maj min => Some (maj, min)
  | KTx n c _ => Some (n, c)
  | KReceipt n c _ => Some (n, c)
  | KTxMeta _ n c => Some (n, c)
  | _ => None
  end.

(* a stored block's conflicts number is below the number of stored blocks at its height *)
Definition FreshInv (s : store) : Prop :=
  forall x sm, get_summary s x = Some sm -> s_conf sm < scan_conflicts s (num_of x).

(* every node a stored block's roots reach is stamped with the version of a stored block *)
Definition stored_ver (s : store) (v : N * N) : Prop :=
  exists x sm, get_summary s x = Some sm /\ v = (num_of x, s_conf sm).
Definition VerInv (s : store) : Prop :=
  forall x sm, get_summary s x = Some sm ->
  forall k, In k (s_sreach sm ++ s_ireach sm) -> exists v, key_ver k = Some v /\ stored_ver s v.

(* ---- every versioned key an import writes carries the import's own version *)

Lemma node_ops_ver cls maj min l o : In o (node_ops cls maj min l) -> key_ver (op_key o) = Some (maj, min).
Proof. unfold node_ops. intro H. apply in_map_iff in H. destruct H as (pr & <- & _). reflexivity. Qed.

Lemma import_ops_version c s b w o v :
  In w (import_batches c s b) -> In o w -> key_ver (op_key o) = Some v ->
  v = (num_of (b_id b), conf_of s b).
Proof.
  intros Hw Ho Hv.
  assert (Hsb : forall w, In w (state_batches b (conf_of s b)) -> forall o, In o w -> forall v, key_ver (op_key o) = Some v -> v = (num_of (b_id b), conf_of s b)).
  { clear. intros w Hw o Ho v Hv. unfold state_batches in Hw. apply in_app_or in Hw. destruct Hw as [Hw|Hw].
    - destruct (b_codes b); [destruct Hw|]. destruct Hw as [<-|[]]. apply in_map_iff in Ho. destruct Ho as (pr & <- & _). discriminate.
    - apply in_app_or in Hw. destruct Hw as [Hw|[<-|[]]].
      + apply in_map_iff in Hw. destruct Hw as (l & <- & _). rewrite (node_ops_ver _ _ _ _ _ Ho) in Hv. congruence.
      + rewrite (node_ops_ver _ _ _ _ _ Ho) in Hv. congruence. }
  destruct (import_cases c s b) as [E|[[_ E]|(ab & M & E)]]; rewrite E in Hw.
  - destruct Hw.
  - eapply Hsb; eauto.
  - apply in_app_or in Hw. destruct Hw as [Hw|Hw].
    + unfold pre_writes in Hw. apply in_app_or in Hw. destruct Hw as [Hw|[<-|[<-|[]]]].
      * eapply Hsb; eauto.
      * unfold index_batch in Ho. rewrite (node_ops_ver _ _ _ _ _ Ho) in Hv. congruence.
      * destruct (in_bulk _ _ _ _ Ho) as [(i & t & p & [->|[->|[->| ->]]])|[->|[->|[->|[_ ->]]]]]; simpl in Hv; congruence.
    + unfold commit_writes in Hw. destruct (commit_writes_keys _ _ _ _ _ _ _ _ Hw Ho) as [X|X]; rewrite X in Hv; discriminate.
Qed.

(* ---- ScanConflicts after the block bulk: one more at the block's height *)

Definition stored_at (s : store) (n : N) : list N := filter (fun id => stored s id && (num_of id =? n)) (summary_ids s).

Lemma scan_after_bulk c s b ab n : main_case c s b ab ->
  scan_conflicts (apply_writes s (pre_writes s b ab)) n = scan_conflicts s n + (if n =? num_of (b_id b) then 1 else 0).
Proof.
  (* the stored ids at height n after the bulk are those before it, and the new block if n is its number *)
  intro M. pose proof (main_not_stored c s b ab M) as Hn.
  set (s3 := apply_writes s (pre_writes s b ab)).
  assert (P : Permutation (stored_at s3 n) ((if n =? num_of (b_id b) then [b_id b] else []) ++ stored_at s n)).
  { apply NoDup_Permutation.
    - apply NoDup_filter, summary_ids_nodup.
    - destruct (n =? num_of (b_id b)) eqn:En; simpl; [|apply NoDup_filter, summary_ids_nodup].
      constructor; [|apply NoDup_filter, summary_ids_nodup].
      unfold stored_at. rewrite filter_In. intros [_ H]. rewrite Hn in H. discriminate.
    - intro x. unfold stored_at. rewrite in_app_iff, !filter_In. split.
      + intros [_ H]. apply andb_true_iff in H. destruct H as [Hs Hx].
        destruct (s3_stored s b ab x Hs) as [->|Hold].
        * left. rewrite N.eqb_sym, Hx. left; auto.
        * right. split; [apply stored_in_ids; auto|]. rewrite Hold, Hx. auto.
      + intros [H|[_ H]].
        * destruct (n =? num_of (b_id b)) eqn:En; [|destruct H]. destruct H as [<-|[]].
          assert (Hs : stored s3 (b_id b) = true) by apply s3_stored_b.
          split; [apply stored_in_ids; auto|]. rewrite Hs, N.eqb_sym, En. auto.
        * apply andb_true_iff in H. destruct H as [Hs Hx].
          assert (Hs3 : stored s3 x = true) by (apply s3_stored_mono; auto).
          split; [apply stored_in_ids; auto|]. rewrite Hs3, Hx. auto. }
  unfold scan_conflicts. fold (stored_at s3 n). fold (stored_at s n). rewrite (Permutation_length P), app_length.
  destruct (n =? num_of (b_id b)); simpl; lia.
Qed.

(* ---- the two invariants hold after every prefix of every import *)

Definition Inv3 (s : store) : Prop := FreshInv s /\ VerInv s.

(* both invariants only look at the summaries *)
Definition eqv_sum (s s' : store) : Prop := forall id, get_summary s id = get_summary s' id.

Lemma Inv3_sum s s' : eqv_sum s s' -> Inv3 s -> Inv3 s'.
Proof.
  intros E [F V]. split.
  - intros x sm H. rewrite <- E in H. rewrite <- (scan_conflicts_ext s s' _ (ext_stored s s' E)). auto.
  - intros x sm H k Hk. rewrite <- E in H. destruct (V x sm H k Hk) as (v & Hv & (y & ysm & Hy & Ey)).
    exists v. split; auto. exists y, ysm. rewrite <- E. auto.
Qed.

Lemma stored_ver_mono s s' v : keeps_summaries s s' -> stored_ver s v -> stored_ver s' v.
Proof. intros K (x & sm & H & E). exists x, sm. split; auto. Qed.

Theorem import_prefixes_inv3 c s b : wf_cfg c -> Inv c s -> Inv3 s -> wf_blk s b ->
  all_prefixes Inv3 s (import_batches c s b).
Proof.
  intros Hc I [F V] Hwf. apply import_prefixes_ind; [split; auto| |].
  - intros s' w I3 Ha. eapply Inv3_sum; [|exact I3]. intro id. symmetry. apply get_summary_frame.
    apply aux_key_ne; auto; discriminate.
  - intros ab G Sel conf s3' _. assert (M : main_case c s b ab) by (apply main_case_ok; auto).
    change (Inv3 (apply_writes s (pre_writes s b ab)) /\
            all_prefixes Inv3 (apply_writes s (pre_writes s b ab)) (commit_writes c s b ab)). clear conf s3'.
    set (s3 := apply_writes s (pre_writes s b ab)).
    pose proof (s3_keeps s b ab (main_not_stored c s b ab M)) as K. fold s3 in K.
    assert (F3 : FreshInv s3).
    { intros x sm H. unfold s3 in *. rewrite (scan_after_bulk c s b ab _ M). rewrite s3_summary in H.
      destruct (N.eq_dec x (b_id b)) as [->|Hne].
      - inversion H; subst sm. cbn [s_conf summary_of]. rewrite N.eqb_refl. unfold conf_of. lia.
      - specialize (F x sm H). destruct (num_of x =? num_of (b_id b)); lia. }
    assert (V3 : VerInv s3).
    { intros x sm H k Hk. unfold s3 in H. rewrite s3_summary in H. destruct (N.eq_dec x (b_id b)) as [->|Hne].
      - inversion H; subst sm. clear H.
        assert (Hb : stored_ver s3 (num_of (b_id b), conf_of s b)).
        { exists (b_id b), (summary_of b (conf_of s b)). split; auto. unfold s3. rewrite s3_summary.
          destruct (N.eq_dec (b_id b) (b_id b)); congruence. }
        destruct M as (_ & _ & Mp & _). unfold stored in Mp. destruct (get_summary s (b_parent b)) as [psm|] eqn:Ep; [|discriminate].
        destruct (Hwf psm Ep) as [Wk Wi].
        apply in_app_or in Hk. destruct (summary_reach b (conf_of s b) k Hk) as [(cls & l & _ & Hn)|Hkeep].
        + exists (num_of (b_id b), conf_of s b). split; auto.
          apply in_map_iff in Hn. destruct Hn as (o & <- & Ho). eapply node_ops_ver; eauto.
        + destruct (V _ _ Ep k) as (v & Hv & Hs); [apply in_or_app; destruct Hkeep; auto|].
          exists v. split; auto. eapply stored_ver_mono; eauto.
      - destruct (V x sm H k Hk) as (v & Hv & Hs). exists v. split; auto. eapply stored_ver_mono; eauto. }
    split; [split; auto|]. apply all_prefixes_step; [split; auto|]. intros s' w I3 Hw.
    eapply Inv3_sum; [|exact I3]. intro id. symmetry. apply get_summary_frame. intros o Ho. eapply commit_no_summary; eauto.
Qed.

(* ---- value consistency: what a stored block wrote under its version is never written again *)

Theorem import_never_rewrites_stored_version c s b j k v :
  FreshInv s -> key_ver k = Some v -> stored_ver s v ->
  get (apply_writes s (firstn j (import_batches c s b))) k = get s k.
Proof.
  intros F Hk (x & sm & Hx & Ev). apply get_frame_writes. intros w o Hw Ho E.
  apply in_firstn in Hw. rewrite <- E in Hk.
  pose proof (import_ops_version c s b w o v Hw Ho Hk) as Hv. rewrite Ev in Hv. inversion Hv as [[Hn Hc]].
  specialize (F x sm Hx). unfold conf_of in Hc. rewrite <- Hn in Hc. lia.
Qed.

Corollary run1_keeps_stored_data c s b k v : FreshInv s -> key_ver k = Some v -> stored_ver s v -> get (run1 c s b) k = get s k.
Proof.
  intros F Hk Hs. unfold run1.
  rewrite <- (firstn_all (import_batches c s b)). apply import_never_rewrites_stored_version with (v := v); auto.
Qed.

(* over any number of further imports *)
Theorem run_keeps_stored_data c l : forall s k v, wf_cfg c -> Inv c s -> Inv3 s -> wf_hist c s l ->
  key_ver k = Some v -> stored_ver s v -> get (run c s l) k = get s k.
Proof.
  induction l as [|b r IH]; intros s k v Hc I I3 Hw Hk Hs; simpl; auto.
  destruct Hw as [Hb Hr].
  assert (I1 : Inv c (run1 c s b)) by (apply run1_inv; auto).
  assert (I31 : Inv3 (run1 c s b)) by (unfold run1; apply all_prefixes_last; apply import_prefixes_inv3; auto).
  rewrite (IH (run1 c s b) k v); auto.
  - apply run1_keeps_stored_data with (v := v); auto. apply I3.
  - eapply stored_ver_mono; [|exact Hs]. apply run1_keeps.
Qed.

Theorem history_prefixes_inv3 c l : forall s, wf_cfg c -> Inv c s -> Inv3 s -> wf_hist c s l ->
  all_prefixes Inv3 s (writes_of c s l).
Proof.
  induction l as [|b r IH]; intros s Hc I I3 Hw; simpl; auto.
  destruct Hw as [Hb Hr]. apply all_prefixes_app; [apply import_prefixes_inv3; auto|].
  apply IH; auto.
  - apply run1_inv; auto.
  - apply all_prefixes_last. apply import_prefixes_inv3; auto.
Qed.

Theorem crash_inv3 c s0 hist k : wf_cfg c -> Inv c s0 -> Inv3 s0 -> wf_hist c s0 hist -> Inv3 (crash c s0 hist k).
Proof. intros. unfold crash. apply all_prefixes_firstn. apply history_prefixes_inv3; auto. Qed.

(* after a crash at ANY cut, whatever block is delivered next (the interrupted one again, or another block that gets
   the same (number, conflicts) version) and however far its import gets, no key stamped with a stored block's version
   changes: what a committed root resolves to stays what it was *)
Theorem reimport_after_crash_keeps_stored_data c s0 hist k b' j key v :
  wf_cfg c -> Inv c s0 -> Inv3 s0 -> wf_hist c s0 hist ->
  let s' := crash c s0 hist k in
  key_ver key = Some v -> stored_ver s' v ->
  get (apply_writes s' (firstn j (import_batches c s' b'))) key = get s' key.
Proof.
  intros Hc I I3 Hw s' Hk Hs. apply import_never_rewrites_stored_version with (v := v); auto.
  apply (crash_inv3 c s0 hist k Hc I I3 Hw).
Qed.

(* ---- orphans_harmless: what an interrupted import wrote (before its block bulk) is reachable from no stored root *)

Theorem orphans_unreachable c s b j w o :
  Inv3 s -> In w (firstn j (import_batches c s b)) -> In o w -> stored s (b_id b) = false ->
  forall x sm, get_summary s x = Some sm -> key_ver (op_key o) <> None -> ~ In (op_key o) (s_sreach sm ++ s_ireach sm).
Proof.
  intros [F V] Hw Ho Hnb x sm Hx Hkv Hin. apply in_firstn in Hw.
  destruct (V x sm Hx _ Hin) as (v & Hv & (y & ysm & Hy & Ev)).
  pose proof (import_ops_version c s b w o v Hw Ho Hv) as E. rewrite Ev in E. inversion E as [[Hn Hc]].
  specialize (F y ysm Hy). unfold conf_of in Hc. rewrite <- Hn in Hc. lia.
Qed.

Lemma genesis_inv3 g : b_skeep g = [] -> b_ikeep g = [] -> Inv3 (genesis_store g).
Proof.
  intros Hk Hi. pose proof (genesis_get_summary g) as Hst.
  assert (Hg : get_summary (genesis_store g) (b_id g) = Some (summary_of g 0)).
  { rewrite genesis_store_pre, s3_summary. destruct (N.eq_dec (b_id g) (b_id g)) as [_|X]; [reflexivity|exfalso; apply X; reflexivity]. }
  split.
  - intros x sm H. destruct (Hst x sm H) as [-> ->]. cbn [s_conf summary_of].
    apply (scan_conflicts_pos _ (b_id g)). unfold stored. rewrite Hg. auto.
  - intros x sm H k Hin. destruct (Hst x sm H) as [-> ->].
    exists (num_of (b_id g), 0). split; [|exists (b_id g), (summary_of g 0); split; auto].
    apply in_app_or in Hin. destruct (summary_reach g 0 k Hin) as [(cls & l & _ & Hn)|Hkeep].
    + apply in_map_iff in Hn. destruct Hn as (o & <- & Ho). eapply node_ops_ver; eauto.
    + rewrite Hk, Hi in Hkeep. destruct Hkeep as [[]|[]].
Qed.

(* ---- the tx index points to the block holding the transaction; versions identify stored blocks *)

(* every transaction of a stored block has its tx-index entry, keyed by the block's own (number, conflicts) *)
Definition MetaInv (s : store) : Prop :=
  forall x sm, get_summary s x = Some sm -> forall t, In t (s_txs sm) -> has s (KTxMeta t (num_of x) (s_conf sm)) = true.
(* two stored blocks never share a version *)
Definition UniqueVer (s : store) : Prop :=
  forall x y sx sy, get_summary s x = Some sx -> get_summary s y = Some sy ->
    num_of x = num_of y -> s_conf sx = s_conf sy -> x = y.
Definition Inv4 (s : store) : Prop := MetaInv s /\ UniqueVer s.

Lemma Inv4_step s w : Inv4 s -> nd_batch w -> (forall o, In o w -> forall i, op_key o <> KSummary i) -> Inv4 (apply_batch s w).
Proof.
  intros [Mi U] Hnd Hk.
  assert (S : forall id, get_summary (apply_batch s w) id = get_summary s id) by (intro id; apply get_summary_frame; intros o Ho; apply Hk; auto).
  split.
  - intros x sm H t Ht. rewrite S in H. apply has_mono; auto.
  - intros x y sx sy Hx Hy. rewrite S in Hx, Hy. eauto.
Qed.

Theorem import_prefixes_inv4 c s b : FreshInv s -> Inv4 s -> all_prefixes Inv4 s (import_batches c s b).
Proof.
  intros F [Mi U]. apply import_prefixes_ind; [split; auto| |].
  - intros s' w I4 Ha. apply Inv4_step; auto using aux_nd. intros o Ho i. apply (aux_key_ne w (KSummary i)); auto; discriminate.
  - intros ab G Sel conf s3' _. assert (M : main_case c s b ab) by (apply main_case_ok; auto).
    change (Inv4 (apply_writes s (pre_writes s b ab)) /\
            all_prefixes Inv4 (apply_writes s (pre_writes s b ab)) (commit_writes c s b ab)). clear conf s3'.
    set (s3 := apply_writes s (pre_writes s b ab)).
    assert (I43 : Inv4 s3).
    { split.
      - intros x sm H t Ht. unfold s3 in H. rewrite s3_summary in H. destruct (N.eq_dec x (b_id b)) as [->|Hne].
        + inversion H; subst sm. cbn [s_txs s_conf summary_of] in *. apply in_map_iff in Ht. destruct Ht as (td & <- & Htd).
          unfold s3. rewrite s3_eq. assert (exists i, In (i, td) (enum_from 0 (b_txs b))) as (i & Hi).
          { clear - Htd. generalize 0. induction (b_txs b) as [|a l IH]; intro n; [destruct Htd|]. destruct Htd as [->|Htd].
            - exists n. left; auto.
            - destruct (IH Htd (n + 1)) as (i & Hi). exists i. right; auto. }
          eapply has_put_in with (v := VBlob (t_meta td)).
          * unfold block_bulk. apply in_or_app. left. apply in_flat_map. exists (i, td). split; auto. simpl. right; left. reflexivity.
          * apply nd_no_del; auto. apply bulk_nd.
        + apply s3_mono; auto.
      - intros x y sx sy Hx Hy Hn Hc. unfold s3 in Hx, Hy. rewrite s3_summary in Hx, Hy.
        destruct (N.eq_dec x (b_id b)) as [->|Hnx]; destruct (N.eq_dec y (b_id b)) as [->|Hny]; auto.
        + inversion Hx; subst sx. cbn [s_conf summary_of] in Hc. specialize (F y sy Hy). unfold conf_of in Hc. rewrite Hn in Hc. lia.
        + inversion Hy; subst sy. cbn [s_conf summary_of] in Hc. specialize (F x sx Hx). unfold conf_of in Hc. rewrite <- Hn in Hc. lia.
        + eapply U; eauto. }
    split; auto. apply all_prefixes_step; auto. intros s' w I4 Hw. apply Inv4_step; auto.
    + eapply commit_nd; eauto.
    + intros o Ho i. eapply commit_no_summary; eauto.
Qed.

Theorem history_prefixes_inv4 c l : forall s, wf_cfg c -> Inv c s -> Inv3 s -> Inv4 s -> wf_hist c s l ->
  all_prefixes Inv4 s (writes_of c s l).
Proof.
  induction l as [|b r IH]; intros s Hc I I3 I4 Hw; simpl; auto.
  destruct Hw as [Hb Hr]. apply all_prefixes_app; [apply import_prefixes_inv4; auto; apply I3|].
  apply IH; auto.
  - apply run1_inv; auto.
  - apply all_prefixes_last. apply import_prefixes_inv3; auto.
  - apply all_prefixes_last. apply import_prefixes_inv4; auto. apply I3.
Qed.

(* at every cut: each transaction of each stored block has its tx-index entry, and the (number, conflicts) in that entry's key
   identifies exactly one stored block — the one holding the transaction *)
Theorem tx_index_points_to_its_block c s0 hist k : wf_cfg c -> Inv c s0 -> Inv3 s0 -> Inv4 s0 -> wf_hist c s0 hist ->
  let s := crash c s0 hist k in
  forall x sm t, get_summary s x = Some sm -> In t (s_txs sm) ->
    has s (KTxMeta t (num_of x) (s_conf sm)) = true /\
    (forall y sy, get_summary s y = Some sy -> num_of y = num_of x -> s_conf sy = s_conf sm -> y = x).
Proof.
  intros Hc I I3 I4 Hw s x sm t Hx Ht.
  assert (I4s : Inv4 s) by (unfold s, crash; apply all_prefixes_firstn; apply history_prefixes_inv4; auto).
  destruct I4s as [Mi U]. split; [eapply Mi; eauto|]. intros y sy Hy Hn Hcf. eapply U; eauto.
Qed.

(* the genesis block has no transactions (NewRepository refuses one that has) *)
Lemma genesis_inv4 g : b_txs g = [] -> Inv4 (genesis_store g).
Proof.
  intro Ht. pose proof (genesis_get_summary g) as Hst.
  split.
  - intros x sm H t Hin. destruct (Hst x sm H) as [-> ->]. cbn [s_txs summary_of] in Hin. rewrite Ht in Hin. destruct Hin.
  - intros x y sx sy Hx Hy _ _. destruct (Hst x sx Hx) as [-> _]. destruct (Hst y sy Hy) as [-> _]. reflexivity.
Qed.
