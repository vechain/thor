(* Bft/ProofsOrder4.v — the value Justified() computes is a function of (stored set, best, finalized): two engines over
   the same set of blocks with equal best and finalized, whose one-entry cache is empty (e.g. after a restart), return
   the same answer.  (For a warm cache see ProofsJustified: the entry is keyed by store point and finalized.) *)
From Coq Require Import List NArith ZArith Bool Lia.
From Coq Require Import ZifyN ZifyNat ZifyBool.
From Verif Require Import Common.Util Bft.Tree Bft.Model Bft.Quorum Bft.ProofsTally Bft.ProofsChain Bft.ProofsNode
  Bft.ProofsFinal Bft.ProofsCommit Bft.ProofsOrder.
Import ListNotations.
Open Scope N_scope.

Lemma bsearch_ext f g : (forall k, f k = g k) -> forall fuel i j, bsearch fuel f i j = bsearch fuel g i j.
Proof.
  intros H. induction fuel as [|fuel IH]; intros i j; [reflexivity|]. cbn [bsearch].
  destruct (i <? j); [|reflexivity]. rewrite H. destruct (g ((i + j) / 2)) as [[|]|e]; [apply IH | apply IH | reflexivity].
Qed.

(* findCheckpointByQuality reads the chain of head and the records at store points, nothing else *)
Lemma find_cp_ext c r1 r2 qs1 qs2 target fin head :
  chain_of r1 head = chain_of r2 head ->
  (forall m, quality_at r1 qs1 head (storepoint (c_L c) m) = quality_at r2 qs2 head (storepoint (c_L c) m)) ->
  find_cp c r1 qs1 target fin head = find_cp c r2 qs2 target fin head.
Proof.
  intros Hch Hq. unfold find_cp. destruct (idnum head <? idnum fin); [reflexivity|].
  rewrite (bsearch_ext _ (fun i => match quality_at r2 qs2 head (storepoint (c_L c) (idnum fin + i * c_L c)) with
                                   | Ok q => Ok (target <=? q) | Err e => Err e end)) by (intros k; rewrite Hq; reflexivity).
  destruct (bsearch _ _ _ _) as [num|e]; [|reflexivity].
  destruct (num =? _); [reflexivity|]. rewrite Hq. unfold block_at. rewrite Hch. reflexivity.
Qed.

Section Order4.
Variable c : cfg.
Hypothesis HL : 0 < c_L c.
Notation L := (c_L c).

Lemma storepoint_idem n : storepoint L (storepoint L n) = storepoint L n.
Proof. unfold storepoint at 2. unfold checkpoint. apply storepoint_store. exact HL. Qed.

Lemma quality_at_set_eq r1 r2 qs1 qs2 head m :
  wf_repo r1 -> wf_repo r2 -> (forall x, In x r1 <-> In x r2) -> qs_ok c r1 qs1 -> qs_ok c r2 qs2 ->
  quality_at r1 qs1 head (storepoint L m) = quality_at r2 qs2 head (storepoint L m).
Proof.
  intros W1 W2 Hset Q1 Q2. unfold quality_at, block_at. rewrite (chain_of_set_eq r1 r2 head W1 W2 Hset).
  destruct (at_num (chain_of r2 head) (storepoint L m)) as [x|] eqn:E; [|reflexivity].
  unfold at_num in E. destruct (find_some _ _ E) as [Hin Hn]. apply N.eqb_eq in Hn.
  pose proof (chain_incl _ _ _ Hin) as Hin2. pose proof (proj2 (Hset x) Hin2) as Hin1.
  assert (Hsp : storepoint L (b_num x) = b_num x) by (rewrite Hn; apply storepoint_idem).
  rewrite (Q1 x Hin1 Hsp), (Q2 x Hin2 Hsp). unfold qual. rewrite (chain_of_set_eq r1 r2 (b_id x) W1 W2 Hset). reflexivity.
Qed.

Lemma find_cp_set_eq r1 r2 qs1 qs2 target fin head :
  wf_repo r1 -> wf_repo r2 -> (forall x, In x r1 <-> In x r2) -> qs_ok c r1 qs1 -> qs_ok c r2 qs2 ->
  find_cp c r1 qs1 target fin head = find_cp c r2 qs2 target fin head.
Proof.
  intros W1 W2 Hset Q1 Q2. apply find_cp_ext; [exact (chain_of_set_eq r1 r2 head W1 W2 Hset)|].
  intros m. exact (quality_at_set_eq r1 r2 qs1 qs2 head m W1 W2 Hset Q1 Q2).
Qed.

Theorem justified_set_eq r1 r2 e1 e2 best :
  wf_repo r1 -> wf_repo r2 -> (forall x, In x r1 <-> In x r2) -> qs_ok c r1 (e_qs e1) -> qs_ok c r2 (e_qs e2) ->
  e_fin e1 = e_fin e2 -> e_jc e1 = None -> e_jc e2 = None ->
  snd (justified c r1 e1 best) = snd (justified c r2 e2 best).
Proof.
  intros W1 W2 Hset Q1 Q2 Hfin J1 J2. unfold justified, justified_gen. rewrite J1, J2, Hfin.
  destruct (b_num best <? L - 1); [reflexivity|].
  set (conc := if b_num best <? storepoint L (b_num best) then checkpoint L (b_num best) - L else checkpoint L (b_num best)).
  unfold block_at. rewrite (chain_of_set_eq r1 r2 (b_id best) W1 W2 Hset).
  destruct (at_num (chain_of r2 (b_id best)) (storepoint L conc)) as [sb|] eqn:E; [|reflexivity].
  unfold at_num in E. destruct (find_some _ _ E) as [Hin Hn]. apply N.eqb_eq in Hn.
  pose proof (chain_incl _ _ _ Hin) as Hin2. pose proof (proj2 (Hset sb) Hin2) as Hin1.
  assert (Hsp : storepoint L (b_num sb) = b_num sb) by (rewrite Hn; apply storepoint_idem).
  assert (Hq : get_q (e_qs e1) (b_id sb) = get_q (e_qs e2) (b_id sb)).
  { rewrite (Q1 sb Hin1 Hsp), (Q2 sb Hin2 Hsp). unfold qual. rewrite (chain_of_set_eq r1 r2 (b_id sb) W1 W2 Hset). reflexivity. }
  rewrite Hq. destruct (get_q (e_qs e2) (b_id sb) =? 0); [reflexivity|].
  rewrite (find_cp_set_eq r1 r2 (e_qs e1) (e_qs e2) _ (e_fin e2) (b_id sb) W1 W2 Hset Q1 Q2).
  destruct (find_cp c r2 (e_qs e2) _ _ _); reflexivity.
Qed.
End Order4.
