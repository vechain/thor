(* Compose/TxIdBind.v — C09 <-> C11: the premise "a tx id determines the tx" (U_inj) of C09's chain-level theorems
   discharged by C11's id binding.

     C09  Chain/ProofsChainInv.v   accepted_chain_ok / accepted_paths_agree (Properties/C09.v accepted_chain_inv,
                                   has_tx_paths_agree_on_accepted) are stated for an ABSTRACT universe U of transaction records
                                   (id, chain tag, block-ref number, expiration, depends-on, origin) with the premise
                                   U_inj : forall t1 t2, U t1 -> U t2 -> tx_id t1 = tx_id t2 -> t1 = t2.
     C11  Codec/ProofsBind.v       for the transactions the real decoders return (wfp c_tx t), with Blake2b an opaque function H
                                   and its collision-freeness the NAMED hypothesis H_inj: equal SigningHash() preimages =>
                                   equal signed parts (go_signing_injective_l); Transaction.ID() = H(H(signing bytes) ++ origin).

   Here C09's universe is INSTANTIATED: U H := the records `view H t o` of the decodable transactions t with a 20-byte origin o,
     tx_id     := code (go_tx_id H t (Some o))        (the id bytes as a number, `code` an injection bytes -> N, proved injective)
     tx_tag    := t_chain_tag t                       tx_ref := t_block_ref t / 2^32   (BlockRef.Number(): the first four of its 8 bytes)
     tx_exp    := t_expiration t                      tx_dep := the DependsOn pointer (nil in either wire form -> None)
     tx_origin := code o
   every field but the id being a projection of C11's signed part and the origin.  U_inj for it follows from H_inj
   (view_id_binds, c11_universe_inj), and C09's theorems are restated with U_inj REPLACED by H_inj
   (accepted_chain_inv_c11, has_tx_paths_agree_on_accepted_c11; included_once_c11 in C11's terms).  What is left assumed is
   C11's one hypothesis about the hash.  With no hypothesis on H, view_id_extract gives the binding or an explicit collision;
   section OnPreimages repeats the theorems (…_on) with collision-freeness asked only of the strings hashed for a set S of
   (transaction, origin) pairs.

   Why `code` and not the big-endian value of the 32 id bytes: H is an opaque function bytes -> bytes whose outputs are not
   constrained to 32 bytes (C11 states H_inj for all byte strings; adding "H returns 32 bytes" would make H_inj
   unsatisfiable by counting), so the number standing for an id must be injective on ALL byte strings.  C09's model
   compares ids only for equality / order of index keys, so any injection serves. *)
From Coq Require Import List NArith Bool Lia.
From Coq Require Import ZifyN ZifyNat ZifyBool.
From Verif Require Import Codec.Model Codec.ProofsRLP Codec.ProofsComb Codec.ProofsObjects Codec.ProofsTop
  Codec.ProofsSign Codec.ProofsNorm Codec.ProofsAcc Codec.ProofsBind.
From Verif Require Chain.Model Chain.Proofs Chain.ProofsWalk Chain.ProofsSys Chain.ProofsTx Chain.ProofsAccept
  Chain.ProofsChainInv Chain.ProofsChainDep.
Import ListNotations.
Open Scope N_scope.

Module CM := Verif.Chain.Model.
Module CP := Verif.Chain.Proofs.
Module CI := Verif.Chain.ProofsChainInv.

(* [] -> 0,  x :: r -> 2^x * (2 * code r + 1): a positive number is a power of two times an odd number in one way *)
Fixpoint code (l : list N) : N :=
  match l with [] => 0 | x :: r => 2 ^ x * (2 * code r + 1) end.

Lemma pow2_odd_lt x y a b : x < y -> 2 ^ x * (2 * a + 1) = 2 ^ y * (2 * b + 1) -> False.
Proof.
  intros Hlt E. replace y with (x + N.succ (y - x - 1)) in E by lia.
  rewrite N.pow_add_r, N.pow_succ_r', <- N.mul_assoc in E.
  apply N.mul_cancel_l in E; [|apply N.pow_nonzero; discriminate].
  set (k := 2 ^ (y - x - 1)) in *. nia.
Qed.

Lemma pow2_odd_inj x y a b : 2 ^ x * (2 * a + 1) = 2 ^ y * (2 * b + 1) -> x = y /\ a = b.
Proof.
  intros E. destruct (N.lt_trichotomy x y) as [L|[->|L]].
  - exfalso. exact (pow2_odd_lt x y a b L E).
  - split; [reflexivity|]. apply N.mul_cancel_l in E; [lia | apply N.pow_nonzero; discriminate].
  - exfalso. exact (pow2_odd_lt y x b a L (eq_sym E)).
Qed.

Lemma code_cons_pos x r : code (x :: r) <> 0.
Proof. cbn [code]. pose proof (N.pow_nonzero 2 x ltac:(discriminate)). nia. Qed.

Theorem code_inj : forall l1 l2, code l1 = code l2 -> l1 = l2.
Proof.
  induction l1 as [|x r IH]; intros [|y s] E.
  - reflexivity.
  - exfalso. exact (code_cons_pos y s (eq_sym E)).
  - exfalso. exact (code_cons_pos x r E).
  - cbn [code] in E. apply pow2_odd_inj in E. destruct E as [-> E]. f_equal. apply IH. exact E.
Qed.

Definition dep_of (v : nilable) : option N := match v with Ptr a => Some (code a) | _ => None end.

Lemma dep_of_norm v : dep_of (norm_nil v) = dep_of v.
Proof. destruct v; reflexivity. Qed.

Definition ref_number (block_ref : N) : N := block_ref / 2 ^ 32.

Definition collision_in (H : bytes -> bytes) (P : bytes -> Prop) : Prop := exists a b, P a /\ P b /\ a <> b /\ H a = H b.

Section View.
  Variable H : bytes -> bytes.                                   (* Blake2b-256, opaque *)

  Definition view (t : tx) (o : bytes) : CM.txrec :=
    CM.mkTx (code (go_tx_id H t (Some o))) (t_chain_tag t) (ref_number (t_block_ref t)) (t_expiration t)
            (dep_of (t_depends t)) (code o).

  (* C09's universe: the records of the decodable transactions whose signature recovers to a 20-byte address *)
  Definition c11_universe (tr : CM.txrec) : Prop :=
    exists t o, wfp c_tx t /\ length o = 20%nat /\ tr = view t o.

  (* everything the real decoder returns is in it *)
  Lemma decoded_in_universe b t o : go_decode_tx b = Some t -> length o = 20%nat -> c11_universe (view t o).
  Proof. intros D Ho. exists t, o. split; [exact (proj2 (tx_decode_sound_l b t D)) | auto]. Qed.

  (* the fields C09 reads are projections of C11's signed part *)
  Lemma view_of_signed_part t1 t2 o : signed_part t1 = signed_part t2 ->
    CM.tx_tag (view t1 o) = CM.tx_tag (view t2 o) /\ CM.tx_ref (view t1 o) = CM.tx_ref (view t2 o) /\
    CM.tx_exp (view t1 o) = CM.tx_exp (view t2 o) /\ CM.tx_dep (view t1 o) = CM.tx_dep (view t2 o).
  Proof.
    intros E. unfold signed_part, strip_sig, norm_tx in E. injection E as _ E1 E2 E3 _ _ _ _ _ E4 _ _.
    cbn [view CM.tx_tag CM.tx_ref CM.tx_exp CM.tx_dep]. rewrite E1, E2, E3.
    rewrite <- (dep_of_norm (t_depends t1)), <- (dep_of_norm (t_depends t2)), E4. auto.
  Qed.

  Lemma view_eq t1 t2 o : signed_part t1 = signed_part t2 -> CM.tx_id (view t1 o) = CM.tx_id (view t2 o) ->
    view t1 o = view t2 o.
  Proof.
    intros Sp E. destruct (view_of_signed_part t1 t2 o Sp) as (A & B & C & D).
    cbn [view CM.tx_tag CM.tx_ref CM.tx_exp CM.tx_dep CM.tx_id] in *. unfold view. rewrite E, A, B, C, D. reflexivity.
  Qed.

  (* collision extraction (no hypothesis on H): two records of decodable transactions with one id either agree in every
     signed field and the origin, or an explicit collision of H among the strings hashed for them is exhibited *)
  Theorem view_id_extract t1 t2 o1 o2 : wfp c_tx t1 -> wfp c_tx t2 -> length o1 = length o2 ->
    CM.tx_id (view t1 o1) = CM.tx_id (view t2 o2) ->
    (signed_part t1 = signed_part t2 /\ o1 = o2 /\ view t1 o1 = view t2 o2) \/
    collision_in H (fun a => a = go_signing_tx t1 \/ a = go_signing_tx t2 \/
                           a = go_tx_signing_hash H t1 ++ o1 \/ a = go_tx_signing_hash H t2 ++ o2).
  Proof.
    intros W1 W2 Hl E. pose proof E as E0. cbn [view CM.tx_id] in E. apply code_inj in E. cbn [go_tx_id] in E.
    destruct (list_eq_dec N.eq_dec (go_tx_signing_hash H t1 ++ o1) (go_tx_signing_hash H t2 ++ o2)) as [e|n].
    2:{ right. exists (go_tx_signing_hash H t1 ++ o1), (go_tx_signing_hash H t2 ++ o2). auto 10. }
    apply app_inj_len in e; [|exact Hl]. destruct e as [e ->]. unfold go_tx_signing_hash in e.
    destruct (list_eq_dec N.eq_dec (go_signing_tx t1) (go_signing_tx t2)) as [e'|n].
    2:{ right. exists (go_signing_tx t1), (go_signing_tx t2). auto 10. }
    left. pose proof (go_signing_injective_l t1 t2 W1 W2 e') as Sp. split; [exact Sp|]. split; [reflexivity|].
    exact (view_eq t1 t2 o2 Sp E0).
  Qed.

  Hypothesis H_inj : forall a b, H a = H b -> a = b.             (* C11's named hypothesis *)

  (* equal ids => equal signed parts, equal origins, equal C09 records: an injective H has no collision to exhibit *)
  Lemma view_id_all t1 t2 o1 o2 : wfp c_tx t1 -> wfp c_tx t2 -> length o1 = length o2 ->
    CM.tx_id (view t1 o1) = CM.tx_id (view t2 o2) -> signed_part t1 = signed_part t2 /\ o1 = o2 /\ view t1 o1 = view t2 o2.
  Proof.
    intros W1 W2 Hl E. destruct (view_id_extract t1 t2 o1 o2 W1 W2 Hl E) as [X|(a & b & _ & _ & Hne & Hab)]; [exact X|].
    contradiction Hne. exact (H_inj a b Hab).
  Qed.

  (* (C11: tx_id_binds_l, contrapositive, plus the origin) *)
  Theorem view_id_binds t1 t2 o1 o2 : wfp c_tx t1 -> wfp c_tx t2 -> length o1 = length o2 ->
    CM.tx_id (view t1 o1) = CM.tx_id (view t2 o2) -> signed_part t1 = signed_part t2 /\ o1 = o2.
  Proof. intros W1 W2 Hl E. destruct (view_id_all t1 t2 o1 o2 W1 W2 Hl E) as (Sp & O & _). auto. Qed.

  (* stated on C11's id bytes: equal Transaction.ID()s => same signed part, same origin, same C09 record *)
  Theorem id_binds_record t1 t2 o1 o2 : wfp c_tx t1 -> wfp c_tx t2 -> length o1 = length o2 ->
    go_tx_id H t1 (Some o1) = go_tx_id H t2 (Some o2) ->
    signed_part t1 = signed_part t2 /\ o1 = o2 /\ view t1 o1 = view t2 o2.
  Proof.
    intros W1 W2 Hl E. apply (view_id_all t1 t2 o1 o2 W1 W2 Hl). unfold view. cbn [CM.tx_id]. f_equal. exact E.
  Qed.

  (* U_inj, for C09's universe instantiated with C11's transactions *)
  Theorem c11_universe_inj : forall t1 t2, c11_universe t1 -> c11_universe t2 -> CM.tx_id t1 = CM.tx_id t2 -> t1 = t2.
  Proof.
    intros r1 r2 (t1 & o1 & W1 & L1 & ->) (t2 & o2 & W2 & L2 & ->) E.
    apply (view_id_all t1 t2 o1 o2 W1 W2); [congruence | exact E].
  Qed.

  Section Chain.
    Variables g gp tag : N.
    Hypothesis Hg : CM.num_of g = 0.
    Hypothesis Hgp : CM.num_of gp = CM.max_u32.

    (* accepted_chain_inv: on every history all of whose blocks passed `validate` and consist of (records of) decodable
       transactions, every stored chain, from any head, carries only such transactions, each with the chain tag and at a height
       inside [ref, ref + expiration]; no id twice on a chain, in two blocks or in one *)
    Theorem accepted_chain_inv_c11 r : CP.reachable g gp tag (CI.accepted c11_universe) r -> forall h, CP.stored r h ->
      (forall a t, CP.anc r h a -> CI.tx_in r a t ->
         c11_universe t /\ CM.tx_tag t = tag /\ CM.tx_ref t <= CM.num_of a /\ CM.num_of a <= CM.tx_ref t + CM.tx_exp t) /\
      (forall a1 t1 a2 t2, CP.anc r h a1 -> CP.anc r h a2 -> CI.tx_in r a1 t1 -> CI.tx_in r a2 t2 ->
         CM.tx_id t1 = CM.tx_id t2 -> a1 = a2) /\
      (forall a s b, CP.anc r h a -> CM.get_block r a = Some (s, b) -> NoDup (map CM.tx_id (CM.b_txs b))).
    Proof. intros R h Sh. exact (CI.accepted_chain_ok g gp tag c11_universe c11_universe_inj Hg Hgp r R h Sh). Qed.

    (* ... in C11's terms: two inclusions, on one chain, of transactions with the same id sit in the same block, and they are
       the same transaction up to the signature: same signed fields, same origin *)
    Theorem included_once_c11 r : CP.reachable g gp tag (CI.accepted c11_universe) r -> forall h, CP.stored r h ->
      forall a1 a2 t1 o1 t2 o2, CP.anc r h a1 -> CP.anc r h a2 -> wfp c_tx t1 -> wfp c_tx t2 -> length o1 = length o2 ->
        CI.tx_in r a1 (view t1 o1) -> CI.tx_in r a2 (view t2 o2) ->
        go_tx_id H t1 (Some o1) = go_tx_id H t2 (Some o2) -> a1 = a2 /\ signed_part t1 = signed_part t2 /\ o1 = o2.
    Proof.
      intros R h Sh a1 a2 t1 o1 t2 o2 A1 A2 W1 W2 Hl I1 I2 E.
      assert (E' : CM.tx_id (view t1 o1) = CM.tx_id (view t2 o2)) by (unfold view; cbn [CM.tx_id]; f_equal; exact E).
      split; [|exact (view_id_binds t1 t2 o1 o2 W1 W2 Hl E')].
      destruct (accepted_chain_inv_c11 r R h Sh) as [_ [P2 _]]. exact (P2 a1 _ a2 _ A1 A2 I1 I2 E').
    Qed.

    (* has_tx_paths_agree_on_accepted: for every head and every decodable transaction, HasTransaction with the tx's own block
       ref, the indexed lookup and the recent-window walk all answer "the tx is on this head's chain" *)
    Theorem has_tx_paths_agree_on_accepted_c11 r : CP.reachable g gp tag (CI.accepted c11_universe) r ->
      forall h t o, CP.stored r h -> wfp c_tx t -> length o = 20%nat ->
        let x := view t o in
        exists v, CM.has_transaction r h (CM.tx_id x) (CM.tx_ref x) = CM.Ok v /\ CM.has_tx_indexed r h (CM.tx_id x) = CM.Ok v /\
                  (CM.tx_ref x <= CM.num_of h -> CM.num_of h - CM.tx_ref x < 100 ->
                   CM.recent_walk r (CM.tx_id x) (CM.tx_ref x) 102 h = CM.Ok v) /\
                  (v = true <-> exists a, Chain.ProofsTx.incl_on r h (CM.tx_id x) a).
    Proof.
      intros R h t o Sh W Ho x.
      apply (CI.accepted_paths_agree g gp tag c11_universe c11_universe_inj Hg Hgp r R h x Sh).
      exists t, o. auto.
    Qed.
  End Chain.
End View.

(* H_inj above quantifies over all byte strings (C11's form), which no function with 32-byte outputs satisfies.  Nothing in the
   argument needs that much: for ANY set S of (transaction, origin) pairs — say, those a node ever decodes — it is enough that H
   is collision-free on the strings actually hashed for S: the SigningHash() preimages and the ID() preimages
   signing hash ++ origin.  C09's universe is then the records of S; a finite S makes the hypothesis satisfiable by a function
   that is not injective (TxIdBindExamples: a truncating H). *)
Section OnPreimages.
  Variable H : bytes -> bytes.
  Variable S : tx -> bytes -> Prop.

  Definition hashed (a : bytes) : Prop :=
    exists t o, S t o /\ (a = go_signing_tx t \/ a = go_tx_signing_hash H t ++ o).
  Definition c11_universe_on (tr : CM.txrec) : Prop :=
    exists t o, S t o /\ wfp c_tx t /\ length o = 20%nat /\ tr = view H t o.

  Lemma universe_on_sub tr : c11_universe_on tr -> c11_universe H tr.
  Proof. intros (t & o & _ & W & L & E). exists t, o. auto. Qed.

  Hypothesis H_inj_on : forall a b, hashed a -> hashed b -> H a = H b -> a = b.

  (* the four strings of view_id_extract are hashed for S: a collision among them is excluded *)
  Lemma view_id_all_on t1 t2 o1 o2 : S t1 o1 -> S t2 o2 -> wfp c_tx t1 -> wfp c_tx t2 -> length o1 = length o2 ->
    CM.tx_id (view H t1 o1) = CM.tx_id (view H t2 o2) ->
    signed_part t1 = signed_part t2 /\ o1 = o2 /\ view H t1 o1 = view H t2 o2.
  Proof.
    intros S1 S2 W1 W2 Hl E. destruct (view_id_extract H t1 t2 o1 o2 W1 W2 Hl E) as [X|(a & b & Pa & Pb & Hne & Hab)]; [exact X|].
    assert (Hh : forall x, x = go_signing_tx t1 \/ x = go_signing_tx t2 \/
                           x = go_tx_signing_hash H t1 ++ o1 \/ x = go_tx_signing_hash H t2 ++ o2 -> hashed x).
    { intros x [-> | [-> | [-> | ->]]]; [exists t1, o1 | exists t2, o2 | exists t1, o1 | exists t2, o2]; auto. }
    contradiction Hne. exact (H_inj_on a b (Hh a Pa) (Hh b Pb) Hab).
  Qed.

  Theorem view_id_binds_on t1 t2 o1 o2 : S t1 o1 -> S t2 o2 -> wfp c_tx t1 -> wfp c_tx t2 -> length o1 = length o2 ->
    CM.tx_id (view H t1 o1) = CM.tx_id (view H t2 o2) -> signed_part t1 = signed_part t2 /\ o1 = o2.
  Proof. intros S1 S2 W1 W2 Hl E. destruct (view_id_all_on t1 t2 o1 o2 S1 S2 W1 W2 Hl E) as (Sp & O & _). auto. Qed.

  Theorem c11_universe_on_inj : forall t1 t2, c11_universe_on t1 -> c11_universe_on t2 -> CM.tx_id t1 = CM.tx_id t2 -> t1 = t2.
  Proof.
    intros r1 r2 (t1 & o1 & S1 & W1 & L1 & ->) (t2 & o2 & S2 & W2 & L2 & ->) E.
    apply (view_id_all_on t1 t2 o1 o2 S1 S2 W1 W2); [congruence | exact E].
  Qed.

  Section ChainOn.
    Variables g gp tag : N.
    Hypothesis Hg : CM.num_of g = 0.
    Hypothesis Hgp : CM.num_of gp = CM.max_u32.

    Theorem accepted_chain_inv_c11_on r : CP.reachable g gp tag (CI.accepted c11_universe_on) r -> forall h, CP.stored r h ->
      (forall a t, CP.anc r h a -> CI.tx_in r a t ->
         c11_universe_on t /\ CM.tx_tag t = tag /\ CM.tx_ref t <= CM.num_of a /\ CM.num_of a <= CM.tx_ref t + CM.tx_exp t) /\
      (forall a1 t1 a2 t2, CP.anc r h a1 -> CP.anc r h a2 -> CI.tx_in r a1 t1 -> CI.tx_in r a2 t2 ->
         CM.tx_id t1 = CM.tx_id t2 -> a1 = a2) /\
      (forall a s b, CP.anc r h a -> CM.get_block r a = Some (s, b) -> NoDup (map CM.tx_id (CM.b_txs b))).
    Proof. intros R h Sh. exact (CI.accepted_chain_ok g gp tag c11_universe_on c11_universe_on_inj Hg Hgp r R h Sh). Qed.

    Theorem has_tx_paths_agree_on_accepted_c11_on r : CP.reachable g gp tag (CI.accepted c11_universe_on) r ->
      forall h t o, CP.stored r h -> S t o -> wfp c_tx t -> length o = 20%nat ->
        let x := view H t o in
        exists v, CM.has_transaction r h (CM.tx_id x) (CM.tx_ref x) = CM.Ok v /\ CM.has_tx_indexed r h (CM.tx_id x) = CM.Ok v /\
                  (CM.tx_ref x <= CM.num_of h -> CM.num_of h - CM.tx_ref x < 100 ->
                   CM.recent_walk r (CM.tx_id x) (CM.tx_ref x) 102 h = CM.Ok v) /\
                  (v = true <-> exists a, Chain.ProofsTx.incl_on r h (CM.tx_id x) a).
    Proof.
      intros R h t o Sh St W Ho x.
      apply (CI.accepted_paths_agree g gp tag c11_universe_on c11_universe_on_inj Hg Hgp r R h x Sh).
      exists t, o. auto.
    Qed.
  End ChainOn.
End OnPreimages.

