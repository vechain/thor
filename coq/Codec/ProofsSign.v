(* Codec/ProofsSign.v — every decodable object has a well-formed signing tuple (so the injectivity theorems apply
   to everything the decoders can return). *)
From Coq Require Import List NArith ZArith Bool Lia.
From Coq Require Import ZifyN ZifyNat ZifyBool.
From Verif Require Import Codec.Model Codec.ProofsRLP Codec.ProofsComb Codec.ProofsObjects.
Import ListNotations.
Open Scope N_scope.

Lemma header_sign_wf h : wfp c_header h -> wfp (cwrap header_sign_fields) (header_sign_tuple h).
Proof.
  intros [[W Hl] _]. unfold c_header, c_header_gen in *.
  cbn [wfp enc cpair cwrap header_fields header_sign_fields header_sign_tuple fst snd] in *.
  rewrite !lenN_app in *. split; [tauto|lia].
Qed.
Lemma tx_sign_wf t : wfp c_tx t ->
  if t_dyn t then wfp (cwrap dyn_sign_fields) (dyn_sign_tuple t) else wfp (cwrap legacy_sign_fields) (legacy_sign_tuple t).
Proof.
  cbn [wfp c_tx]. destruct (t_dyn t); [intros [[[W Hl] _] _]|intros [[W Hl] _]];
    cbn [wfp enc cpair cwrap legacy_fields legacy_sign_fields legacy_sign_tuple dyn_fields dyn_sign_fields dyn_sign_tuple fst snd] in *;
    rewrite !lenN_app in *; (split; [tauto|lia]).
Qed.
