(* Properties/C03.v — the statements of C03, each proved by citing the theorem of Bft/Proofs*.v that establishes it.  "Finality is safe; on a single node finalized only moves forward along its own
   ancestry; with all validators honest and timely delivery finality keeps advancing."  Model: Bft/Model.v. *)
From Coq Require Import List NArith Bool Lia.
From Verif Require Import Common.Util Bft.Tree Bft.Model Bft.Quorum Bft.ProofsTally Bft.ProofsChain Bft.ProofsNode
  Bft.Safety Bft.ProofsWitness Bft.ProofsFinal Bft.ProofsMonotone Bft.ProofsCommit
  Bft.ProofsFind Bft.ProofsLive Bft.ProofsLive2 Bft.ProofsVote Bft.ProofsSuffix Bft.ProofsSafety
  Bft.ProofsOrder Bft.ProofsTree2 Bft.ProofsCasts Bft.ProofsRun Bft.ProofsLink Bft.ProofsGap Bft.ProofsWitness2 Bft.SchedScore Bft.ProofsMonotone2 Bft.ProofsSync Bft.ProofsFork Bft.ProofsJustified.
Import ListNotations.
Open Scope N_scope.

(* 1. quorum intersection for exactly the thresholds of Summarize.  Vote-count mode: among at most n candidate
      signers, two signer sets of more than n*2/3 (integer division) share more than (n-1)/3 members, hence a member
      outside any Byzantine set of fewer than n/3. *)
Theorem quorum_intersection_count (n : N) (u a b : list N) :
  NoDup a -> NoDup b -> incl a u -> incl b u -> N.of_nat (length u) <= n ->
  n * 2 / 3 < N.of_nat (length a) -> n * 2 / 3 < N.of_nat (length b) ->
  (n - 1) / 3 < N.of_nat (length (inter a b)).
Proof. exact (quorum_intersection_count_lemma n u a b). Qed.

Theorem quorum_honest_count (n : N) (u a b byz : list N) :
  NoDup a -> NoDup b -> NoDup byz -> incl a u -> incl b u -> N.of_nat (length u) <= n ->
  3 * N.of_nat (length byz) < n ->
  n * 2 / 3 < N.of_nat (length a) -> n * 2 / 3 < N.of_nat (length b) ->
  exists x, In x a /\ In x b /\ ~ In x byz.
Proof. exact (quorum_honest_member_count n u a b byz). Qed.

(* Weight mode: two sets each weighing more than total*2/3 share more than a third of the total weight, hence a member
   outside any Byzantine set weighing less than a third. *)
Theorem quorum_intersection_weight (w : N -> N) (total : N) (u a b : list N) :
  NoDup u -> NoDup a -> NoDup b -> incl a u -> incl b u -> sumw w u <= total ->
  total * 2 / 3 < sumw w a -> total * 2 / 3 < sumw w b ->
  total < 3 * sumw w (inter a b).
Proof. exact (quorum_intersection_weight_lemma w total u a b). Qed.

Theorem quorum_honest_weight (w : N -> N) (total : N) (u a b byz : list N) :
  NoDup u -> NoDup a -> NoDup b -> NoDup byz -> incl a u -> incl b u -> incl byz u -> sumw w u <= total ->
  3 * sumw w byz < total ->
  total * 2 / 3 < sumw w a -> total * 2 / 3 < sumw w b ->
  exists x, In x a /\ In x b /\ ~ In x byz.
Proof. exact (quorum_honest_member_weight w total u a b byz). Qed.

Example quorum_example : (* n = 4: threshold 2, two sets of three share two members *)
  NoDup [1;2;3] /\ 4 * 2 / 3 < N.of_nat (length [1;2;3]) /\ inter [1;2;3] [2;3;4] = [2;3].
Proof. split; [repeat constructor; cbn; intuition discriminate | split; vm_compute; reflexivity]. Qed.

(* 2. protocol facts used by every safety argument: a committed epoch is justified; quality never decreases along a
      chain and grows by at most one per block; justification is monotone in the set of votes *)
Theorem committed_implies_justified c pq seg :
  s_comm (summarize (tally c pq seg)) = true -> s_just (summarize (tally c pq seg)) = true.
Proof. exact (committed_implies_justified_lemma c pq seg). Qed.

Theorem quality_monotone c b t : 0 < c_L c -> grounded (b :: t) ->
  quality_pure c t <= quality_pure c (b :: t) <= quality_pure c t + 1.
Proof. intros HL. exact (quality_step c HL b t). Qed.

Theorem justified_monotone c pq seg1 seg2 :
  incl (map (vote_of c) seg1) (map (vote_of c) seg2) ->
  s_just (summarize (tally c pq seg1)) = true -> s_just (summarize (tally c pq seg2)) = true.
Proof. exact (justified_monotone_lemma c pq seg1 seg2). Qed.

(* 3. single node: along any import history the node's records equal the definitions and its fork choice is the
      maximum of the total order (so what it votes on is a function of what it stores) *)
Theorem import_history_invariants c guard g master bs : 0 < c_L c -> b_num g = 0 ->
  (forall nd b, inv c nd -> In b bs -> valid_child (n_repo nd) b) ->
  inv c (import_all c guard (init_node g master) bs).
Proof. intros HL Hg Hv. apply import_all_inv; [exact HL | apply init_inv; exact Hg | exact Hv]. Qed.

(* 3b. the single-node clause.  One import step (any block, any guard variant): the new finalized checkpoint has the old
       one on its chain (descendant-or-equal), finalized stays a stored block, and a block that gets stored by this
       step has the finalized checkpoint of that moment on its chain (anything else is refused by Accepts). *)
Theorem finalized_monotone_step c guard nd b : 0 < c_L c -> inv c nd -> fin_ok nd -> valid_child (n_repo nd) b ->
  let nd' := fst (import guard c nd b) in
  has_block (n_repo nd') (e_fin (n_eng nd')) (e_fin (n_eng nd)) = true /\ fin_ok nd' /\
  (known (n_repo nd) (b_id b) = false -> known (n_repo nd') (b_id b) = true ->
   has_block (n_repo nd') (b_id b) (e_fin (n_eng nd)) = true).
Proof. intros HL. exact (import_monotone c HL guard nd b). Qed.

(* along any import history from genesis: every finalized value has its predecessor on its chain *)
Theorem finalized_monotone c guard g master bs : 0 < c_L c -> b_num g = 0 ->
  (forall nd b, inv c nd -> In b bs -> valid_child (n_repo nd) b) ->
  monotone_from (b_id g) (fin_trace c guard (init_node g master) bs).
Proof.
  intros HL Hg Hv.
  exact (finalized_monotone_lemma c HL guard bs (init_node g master) (init_inv c g master Hg) (init_fin_ok g master) Hv).
Qed.

(* ... and no such import fails in CommitBlock (C04's commit_block_total seen from C03: a block descending from
   finalized is importable) *)
Theorem accepted_block_imports_without_error : commit_block_total_statement true.
Proof. exact commit_block_total_lemma. Qed.

Theorem finalized_moves_forward guard c r e b packing :
  let e' := fst (commit_block guard c r e b packing) in
  e_fin e' = e_fin e \/
  exists x, In x (chain_of r (b_id b)) /\ e_fin e' = b_id x /\ idnum (e_fin e) <= b_num x.
Proof. exact (commit_block_finalized guard c r e b packing). Qed.

(* 3b'. own proposals (proposeAndCommit has no Accepts test).  A proposal on a best block that descends from finalized keeps
        finalized on its own ancestry and the new block descends from it (finalized_monotone_own_proposal).  Without that
        premise it does not, and the premise is NOT an invariant of an honest node: single_node_monotonicity_refuted is a valid
        run with ONE Byzantine validator of four (the F4 history until 18Y, then node 0 imports 10X, 11X - the import finalizes 4X
        while its best block stays 18Y - and packs the store point 19Y itself, which finalizes 12Y) in which one honest node's
        finalized checkpoint moves genesis -> 4X -> 12Y, 12Y conflicting with 4X.  Replayed on the real packer / scheduler /
        consensus / engine (bftsim F4RealOwnProposal): known finding F17, a consequence of the F4 root cause (it needs two
        conflicting committed branches).  own_proposal_off_finalized_branch_not_monotone is a smaller witness of the same
        step with three Byzantine validators.  The NUMBER of finalized never decreases in any case (finalized_moves_forward).
        So the single-node clause is proved for all histories of imports and restarts, proved for own proposals under the premise
        "best descends from finalized", and REFUTED for own proposals without it, inside the property's quantifier (f < n/3). *)
Theorem finalized_monotone_own_proposal c nd b : 0 < c_L c -> inv c nd -> fin_ok nd -> honest_ok c nd b = true ->
  known (n_repo nd) (b_id b) = false -> has_block (n_repo nd) (n_best nd) (e_fin (n_eng nd)) = true ->
  let nd' := fst (fst (propose true c nd b)) in
  has_block (n_repo nd') (e_fin (n_eng nd')) (e_fin (n_eng nd)) = true /\
  has_block (n_repo nd') (b_id b) (e_fin (n_eng nd)) = true /\ fin_ok nd'.
Proof. intros HL. exact (propose_monotone c HL nd b). Qed.

Theorem own_proposal_off_finalized_branch_not_monotone :
  honest_ok cfg4 pm_node w15 = true /\ e_fin (n_eng pm_node) = b_id (sb 4 2 false) /\
  let nd' := fst (fst (propose true cfg4 pm_node w15)) in
  e_fin (n_eng nd') = b_id (wb 8 2 false) /\ has_block (n_repo nd') (e_fin (n_eng nd')) (e_fin (n_eng pm_node)) = false /\
  has_block (n_repo pm_node) (n_best pm_node) (e_fin (n_eng pm_node)) = false.
Proof. exact propose_not_monotone_witness. Qed.

Theorem single_node_monotonicity_refuted :
  valid_run_b true cfg4 [4] f4_world [gen] f17_run = true /\
  (exists nd, nth_error (world_after cfg4 f4_world f17_prefix) 0 = Some nd /\
              e_fin (n_eng nd) = b_id x4 /\ n_best nd = b_id y18 /\
              has_block (n_repo nd) (n_best nd) (e_fin (n_eng nd)) = false /\ honest_ok cfg4 nd y19own = true) /\
  (exists nd', nth_error (world_after cfg4 f4_world f17_run) 0 = Some nd' /\ e_fin (n_eng nd') = b_id y12 /\
               has_block (n_repo nd') (e_fin (n_eng nd')) (b_id x4) = false) /\
  conflict (seen_after [gen] f17_run) (b_id x4) (b_id y12) = true.
Proof. exact f17_witness. Qed.

Example finalized_monotone_example : (* the F1 tree: finalized moves genesis -> a4 along the import history *)
  monotone_from (b_id gen) (fin_trace cfg4 true (init_node gen 1) f1_blocks) /\
  In (b_id (a 4)) (map snd (fin_trace cfg4 true (init_node gen 1) f1_blocks)).
Proof. split; [vm_compute; repeat split; reflexivity | apply mem_In; vm_compute; reflexivity]. Qed.

(* 3c. liveness (third sentence).
   (i)  On a node that has seen only one chain (every stored block lies on the chain of every later one), whatever it
        voted before and whether its votes record is live or rebuilt after a restart, ShouldVote answers COM exactly
        when the new block is past the first round and the parent's quality is positive.
   (ii) honest_chain = every block carries that bit.  On such a chain an epoch in which more than two thirds (count or
        weight, as Summarize selects) signed is justified, and if the chain already held a justified epoch when it
        began, all its votes are COM and it is committed.
   (iii) CommitBlock of its last block then moves finalized to the checkpoint of the previous epoch (when that epoch was
        itself the first to reach its quality: it was justified, or it is finalized's own epoch). *)
Theorem honest_vote_on_one_chain c r e p a : 0 < c_L c ->
  grounded r -> wf_repo r -> qs_ok c r (e_qs e) -> In p r ->
  match e_casts e with Some ca => casts_stored r ca | None => True end ->
  idnum (e_fin e) = a * c_L c ->
  (s_just (state_pure c (chain_of r (b_id p))) = false -> c_L c <= b_num p -> a * c_L c + c_L c <= checkpoint (c_L c) (b_num p)) ->
  snd (should_vote c r e (b_id p)) =
  Ok (negb ((b_num p + 1) / c_L c =? 0) && (0 <? quality_pure c (chain_of r (b_id p)))).
Proof. intros HL. exact (should_vote_linear c HL r e p a). Qed.

Theorem quorum_is_justified c pq seg :
  (if thr_weight c =? 0 then thr_votes c <? N.of_nat (length (signers seg))
   else thr_weight c <? sumw (weight_of c) (signers seg)) = true <->
  s_just (summarize (tally c pq seg)) = true.
Proof. split; [exact (quorum_justifies c pq seg) | exact (justified_needs_quorum c pq seg)]. Qed.

Theorem linear_liveness c ch b t kb : 0 < c_L c ->
  grounded ch -> ch = b :: t -> honest_chain c ch -> b_num b = kb * c_L c + c_L c - 1 -> 1 <= kb ->
  (if thr_weight c =? 0 then thr_votes c <? N.of_nat (length (signers (snd (epoch_info c ch))))
   else thr_weight c <? sumw (weight_of c) (signers (snd (epoch_info c ch)))) = true ->
  1 <= quality_pure c (suffix_at (kb * c_L c - 1) ch) ->
  s_just (state_pure c ch) = true /\ s_comm (state_pure c ch) = true /\
  quality_pure c ch = quality_pure c (suffix_at (kb * c_L c - 1) ch) + 1.
Proof. intros HL. exact (epoch_committed c HL ch b t kb). Qed.

Theorem finalized_advances_at_store_point c r e b a kb : 0 < c_L c ->
  wf_repo r -> find_blk r (b_id b) = Some b ->
  qs_ok c r ((b_id b, s_q (compute_state c r (e_qs e) b)) :: e_qs e) ->
  compute_state c r (e_qs e) b = state_pure c (chain_of r (b_id b)) ->
  idnum (e_fin e) = a * c_L c -> b_num b = kb * c_L c + c_L c - 1 -> a < kb ->
  s_comm (state_pure c (chain_of r (b_id b))) = true -> 1 < quality_pure c (chain_of r (b_id b)) ->
  (kb - 1 = a \/ (2 <= kb /\ q_epoch c r (b_id b) (kb - 2) < q_epoch c r (b_id b) (kb - 1))) ->
  exists y, block_at r (b_id b) ((kb - 1) * c_L c) = Some y /\ b_num y = (kb - 1) * c_L c /\
            e_fin (fst (commit_block true c r e b false)) = b_id y.
Proof. intros HL. exact (commit_finalizes c HL r e b a kb). Qed.

(* 3d. the liveness sentence over multi-node runs.  sync_run n ps = rounds "node i proposes b (on its own best block, with
       its own ShouldVote bit), then b is delivered to every node"; all validators honest (Byzantine set empty).
       (i)   at the end every node stores exactly the one global chain, its best block is the head, and every block carries
             the COM bit of the com rule (honest_chain) - so the hypotheses of linear_liveness hold by construction;
       (ii)  every closed epoch kb >= 1 of that chain with a quorum of signers is justified, and committed once the chain
             held a justified epoch;
       (iii) when the block closing epoch kb >= 2 has been delivered after two such epochs, EVERY node's finalized
             checkpoint is the first block of epoch kb - 1: finality keeps advancing. *)
Theorem timely_honest_run_single_chain c g masters ps : 0 < c_L c -> b_num g = 0 -> NoDup masters ->
  let evs := sync_run (length masters) ps in
  let tree := seen_after [g] evs in
  valid_run_b true c [] (map (init_node g) masters) [g] evs = true -> known tree (b_parent g) = false ->
  grounded tree /\ honest_chain c tree /\
  forall i nd, nth_error (world_after c (map (init_node g) masters) evs) i = Some nd ->
    n_repo nd = tree /\ exists p t, tree = p :: t /\ n_best nd = b_id p.
Proof. intros HL Hg Hn. exact (sync_run_one_chain c HL g Hg masters Hn ps). Qed.

Theorem timely_honest_run_epochs_commit c g masters ps l1 b t kb : 0 < c_L c -> b_num g = 0 -> NoDup masters ->
  let evs := sync_run (length masters) ps in
  let tree := seen_after [g] evs in
  valid_run_b true c [] (map (init_node g) masters) [g] evs = true -> known tree (b_parent g) = false ->
  tree = l1 ++ b :: t -> b_num b = kb * c_L c + c_L c - 1 -> 1 <= kb ->
  (if thr_weight c =? 0 then thr_votes c <? N.of_nat (length (signers (snd (epoch_info c (b :: t)))))
   else thr_weight c <? sumw (weight_of c) (signers (snd (epoch_info c (b :: t))))) = true ->
  1 <= quality_pure c (suffix_at (kb * c_L c - 1) (b :: t)) ->
  s_just (state_pure c (b :: t)) = true /\ s_comm (state_pure c (b :: t)) = true /\
  quality_pure c (b :: t) = quality_pure c (suffix_at (kb * c_L c - 1) (b :: t)) + 1.
Proof. intros HL Hg Hn. exact (sync_run_epochs_commit c HL g Hg masters Hn ps l1 b t kb). Qed.

Theorem timely_honest_run_finality_advances c g masters ps i b kb : 0 < c_L c -> b_num g = 0 -> NoDup masters ->
  let evs := sync_run (length masters) (ps ++ [(i, b)]) in
  let tree := seen_after [g] evs in
  valid_run_b true c [] (map (init_node g) masters) [g] evs = true -> known tree (b_parent g) = false ->
  b_num b = kb * c_L c + c_L c - 1 -> 2 <= kb ->
  (if thr_weight c =? 0 then thr_votes c <? N.of_nat (length (signers (snd (epoch_info c tree))))
   else thr_weight c <? sumw (weight_of c) (signers (snd (epoch_info c tree)))) = true ->
  (if thr_weight c =? 0 then thr_votes c <? N.of_nat (length (signers (snd (epoch_info c (suffix_at (kb * c_L c - 1) tree)))))
   else thr_weight c <? sumw (weight_of c) (signers (snd (epoch_info c (suffix_at (kb * c_L c - 1) tree))))) = true ->
  1 <= quality_pure c (suffix_at ((kb - 1) * c_L c - 1) tree) ->
  exists y, block_at tree (b_id b) ((kb - 1) * c_L c) = Some y /\ b_num y = (kb - 1) * c_L c /\
    forall j nd, nth_error (world_after c (map (init_node g) masters) evs) j = Some nd -> e_fin (n_eng nd) = b_id y.
Proof. intros HL Hg Hn. exact (sync_run_finality_advances c HL g Hg masters Hn ps i b kb). Qed.

(* non-vacuity: four validators, L = 4, eleven rounds (signers rotate, scores 1..11, blocks 1..3 non-COM, 4..11 COM): the run
   is valid, every hypothesis of (iii) holds with kb = 2, and all four nodes finalize block 4 *)
Definition lb (k : N) : blk := mkB (mkid k 1) (mkid (k - 1) 1) (k mod 4 + 1) (3 <? k) k.
Definition live_ps : list (nat * blk) := map (fun k => (N.to_nat (k mod 4), lb k)) [1;2;3;4;5;6;7;8;9;10].
Definition live_run : list event := sync_run 4 (live_ps ++ [(3%nat, lb 11)]).
Example timely_run_example :
  let tree := seen_after [gen] live_run in
  valid_run_b true cfg4 [] (map (init_node gen) [1;2;3;4]) [gen] live_run = true /\ known tree (b_parent gen) = false /\
  b_num (lb 11) = 2 * 4 + 4 - 1 /\
  (thr_votes cfg4 <? N.of_nat (length (signers (snd (epoch_info cfg4 tree))))) = true /\
  (thr_votes cfg4 <? N.of_nat (length (signers (snd (epoch_info cfg4 (suffix_at (2 * 4 - 1) tree)))))) = true /\
  1 <= quality_pure cfg4 (suffix_at ((2 - 1) * 4 - 1) tree) /\
  map (fun nd => e_fin (n_eng nd)) (world_after cfg4 (map (init_node gen) [1;2;3;4]) live_run) = [b_id (lb 4); b_id (lb 4); b_id (lb 4); b_id (lb 4)].
Proof. cbv zeta. vm_compute. repeat split; try reflexivity; discriminate. Qed.

(* 4. general safety (first sentence).  The statement over all valid runs (every honest block proposed by its signer on its
      own best block with the engine's COM bit, fewer than a third Byzantine) is REFUTED: in the model (4e), with
      scheduler-conformant scores (4e), and on the real code at node level (known finding F4, harness/internal/bftsim/f4real.go).
      The `quality >= headQuality-1` window of ShouldVote forgets an own conflicting COM vote once the head quality is two
      ahead.  What is proved instead: the node/world invariants along every valid run (4b), the run-level lock fact (4c), and
      the exact shape every conflicting pair of finalized checkpoints must have (4d) - equal qualities are safe, a later vote
      in the lower epoch is safe, the one open shape is the F4 shape.  Lemma A and "Lemma B" below are single-state facts
      (B merely restates ShouldVote's own test; the lock fact proper is 4b/4c).  bft_safety_under_premise stays a Prop. *)
Theorem node_invariants_along_events c guard nd : 0 < c_L c -> inv c nd ->
  (forall b, valid_child (n_repo nd) b -> inv c (fst (import guard c nd b))) /\
  (forall b, valid_child (n_repo nd) b -> known (n_repo nd) (b_id b) = false -> known (n_repo nd) (b_parent b) = true ->
             inv c (fst (fst (propose guard c nd b)))) /\
  inv c (restart nd).
Proof.
  intros HL Hi. split; [intros b Hv; exact (import_inv c HL guard nd b Hi Hv)|].
  split; [intros b Hv Hf Hp; exact (propose_inv c HL guard nd b Hi Hv Hf Hp) | exact (restart_inv c nd Hi)].
Qed.

Theorem lemma_A_head_quality_monotone c nd x : 0 < c_L c -> inv c nd -> In x (n_repo nd) ->
  qual c (n_repo nd) x <= qual c (n_repo nd) (best_blk nd).
Proof. intros HL. exact (head_quality_monotone c HL nd x). Qed.

Theorem lemma_B_com_lock c r e parent e' :
  should_vote c r e parent = (e', Ok true) ->
  exists p recent ca,
    find_blk r parent = Some p /\ e_casts e' = Some ca /\
    0 < s_q (compute_state c r (e_qs e) p) /\ (idnum parent + 1) / c_L c <> 0 /\
    (forall cp q, In (cp, q) ca -> idnum (e_fin e) <= idnum cp -> s_q (compute_state c r (e_qs e) p) - 1 <= q ->
       has_block r cp recent = true \/ has_block r recent cp = true).
Proof. exact (should_vote_com_inv c r e parent e'). Qed.

Theorem same_quality_commit_exclusive_partial c pq1 pq2 seg1 seg2 (u byz : list N) :
  thr_weight c = 0 -> incl (signers seg1) u -> incl (signers seg2) u -> N.of_nat (length u) <= c_mbp c -> c_pos c = false ->
  NoDup byz -> 3 * N.of_nat (length byz) < c_mbp c ->
  s_comm (summarize (tally c pq1 seg1)) = true -> s_comm (summarize (tally c pq2 seg2)) = true ->
  exists h, ~ In h byz /\
    (exists x, In x seg1 /\ b_signer x = h) /\ (forall x, In x seg1 -> b_signer x = h -> b_com x = true) /\
    (exists x, In x seg2 /\ b_signer x = h) /\ (forall x, In x seg2 -> b_signer x = h -> b_com x = true).
Proof. intros Hp. exact (double_commit_honest_voter c Hp pq1 pq2 seg1 seg2 u byz). Qed.

(* 4a. same_quality_commit_exclusive ("two committed epochs of equal quality have non-conflicting
       checkpoints") is FALSE of the vote rule as coded: sibling epochs under one justified checkpoint may both be voted COM
       by the same honest validators (each checkpoint descends from the most recent justified one) and both commit.  What is
       safe is what they FINALIZE (4d). *)
Theorem same_quality_commit_exclusive_refuted : ~ same_quality_commit_exclusive_statement true.
Proof. exact same_quality_commit_exclusive_refuted_lemma. Qed.

Example sibling_epochs_both_committed :
  valid_run_b true cfg4 [4] f4_world [gen] sib_run = true /\
  state_pure cfg4 (chain_of (seen_after [gen] sib_run) (b_id sx7)) = mkS 2 true true /\
  state_pure cfg4 (chain_of (seen_after [gen] sib_run) (b_id sy7)) = mkS 2 true true /\
  conflict (seen_after [gen] sib_run) (b_id sx4) (b_id sy4) = true.
Proof. destruct sib_committed as [_ [_ [A [B [_ [_ C]]]]]]. split; [exact sib_valid | tauto]. Qed.

(* 4b. invariants of every node at every moment of every valid run (any prefix `pre` of the run): the node invariants,
       finalized is a stored checkpoint, the votes record (live, Mark-overwritten, or rebuilt by newCasts after a restart)
       has distinct keys, no quality above the best block's and COVERS every own block at or above the finalized number
       (casts_ok); the repository is part of the global tree; every block signed by the node's master is stored there. *)
Theorem run_node_invariants c g byz masters pre post i nd : 0 < c_L c -> b_num g = 0 ->
  (forall m, In m masters -> ~ In m byz) -> NoDup masters ->
  valid_run_b true c byz (map (init_node g) masters) [g] (pre ++ post) = true ->
  known (seen_after [g] (pre ++ post)) (b_parent g) = false ->
  nth_error (world_after c (map (init_node g) masters) pre) i = Some nd ->
  node_good c nd /\ incl (n_repo nd) (seen_after [g] pre) /\
  (forall x, In x (seen_after [g] pre) -> b_signer x = e_master (n_eng nd) -> In x (n_repo nd)).
Proof.
  intros HL Hg Hd Hn Hv Hr Hnth.
  destruct (world_prefix c HL g Hg byz masters Hd Hn pre post Hv Hr) as [Hw _].
  destruct (wg_nodes c g byz masters _ _ Hw i nd Hnth) as [A [B [_ C]]]. tauto.
Qed.

(* 4c. the run-level link behind Lemma B: when an honest validator
       proposes a COM block b on p, every earlier own block x at or above its finalized number whose quality is inside the
       window (quality p - 1 <= quality x) has its checkpoint on one chain with p's most recent justified checkpoint rb. *)
Theorem later_com_vote_sees_earlier_votes c g byz masters pre i b post nd : 0 < c_L c -> b_num g = 0 ->
  (forall m, In m masters -> ~ In m byz) -> NoDup masters ->
  let evs := pre ++ EPropose i b :: post in
  let tree := seen_after [g] evs in
  valid_run_b true c byz (map (init_node g) masters) [g] evs = true -> known tree (b_parent g) = false ->
  b_com b = true -> nth_error (world_after c (map (init_node g) masters) pre) i = Some nd ->
  wf_repo tree /\ b_signer b = e_master (n_eng nd) /\
  exists p rb, In p tree /\ b_id p = b_parent b /\ In b tree /\ recent_spec c tree p rb /\
    forall x, In x (seen_after [g] pre) -> b_signer x = b_signer b -> idnum (e_fin (n_eng nd)) <= b_num x ->
      qual c tree p - 1 <= qual c tree x ->
      exists cpx, cp_of c tree x = Some cpx /\ comparable tree cpx rb.
Proof. intros HL Hg Hd Hn. exact (com_vote_link_run c HL g Hg byz masters Hd Hn pre i b post nd). Qed.

(* 4d. TREE-LEVEL statements (about pairs (B, y) of the global tree, not about a node's e_fin: a node's finalized is such a y
       whenever CommitBlock moved it during an IMPORT - commit_block_fin_spec, single step - but no run-level lemma ties every
       element of all_fins to one, and after an own proposal off the finalized branch (F17) it need not be one).
       Two committed epochs in one valid run, fewer than a third Byzantine (vote-count mode), under the explicit premise
       votes_visible_b (at every honest proposal, no own vote inside the quality window lies below the proposer's finalized
       number: the finalized filter of ShouldVote hides nothing the window would show).  B finalizing = committed store
       point of quality > 1; y = the checkpoint CommitBlock finalizes from B (first epoch of B's chain whose store point
       carries quality Q_B - 1).
       (i)   if y1 and y2 conflict, an honest validator voted COM in both epochs and its later COM vote was cast on a head
             whose quality exceeds the earlier vote's by at least two (the earlier vote had left the window);
       (ii)  equal qualities: never conflicting (gap 0);
       (iii) any gap: the forgotten vote is the one in the lower epoch and was cast first (a later vote in the lower epoch
             is a closed case); gap exactly one: it was cast before its epoch was justified and the later vote was cast
             after the other epoch was justified - the one remaining shape. *)
Theorem conflicting_commits_need_forgotten_vote c g byz masters evs B1 B2 j1 j2 y1 y2 : 0 < c_L c -> b_num g = 0 ->
  (forall m, In m masters -> ~ In m byz) -> NoDup masters -> c_pos c = false -> NoDup byz ->
  3 * N.of_nat (length byz) < c_mbp c -> N.of_nat (length masters + length byz) <= c_mbp c ->
  let tree := seen_after [g] evs in
  valid_run_b true c byz (map (init_node g) masters) [g] evs = true -> known tree (b_parent g) = false ->
  votes_visible_b c (map (init_node g) masters) evs = true ->
  finalizing c tree B1 -> finalizing c tree B2 ->
  first_epoch c tree B1 j1 -> block_at tree (b_id B1) (j1 * c_L c) = Some y1 ->
  first_epoch c tree B2 j2 -> block_at tree (b_id B2) (j2 * c_L c) = Some y2 ->
  conflict tree (b_id y1) (b_id y2) = true ->
  exists x1 x2, In x1 (seg c tree B1) /\ In x2 (seg c tree B2) /\ b_signer x1 = b_signer x2 /\ ~ In (b_signer x1) byz /\
    b_com x1 = true /\ b_com x2 = true /\
    ((before g evs x1 x2 /\ forgotten c tree x1 x2) \/ (before g evs x2 x1 /\ forgotten c tree x2 x1)).
Proof.
  intros HL Hg Hd Hn Hp Hb H3 Hs. cbv zeta. intros Hv Hr Hvis.
  exact (conflicting_commits_forgotten_vote c HL g Hg byz masters Hd Hn evs Hp Hb H3 Hs Hv Hr Hvis B1 B2 j1 j2 y1 y2).
Qed.

Theorem same_quality_commits_finalize_one_chain c g byz masters evs B1 B2 j1 j2 y1 y2 : 0 < c_L c -> b_num g = 0 ->
  (forall m, In m masters -> ~ In m byz) -> NoDup masters -> c_pos c = false -> NoDup byz ->
  3 * N.of_nat (length byz) < c_mbp c -> N.of_nat (length masters + length byz) <= c_mbp c ->
  let tree := seen_after [g] evs in
  valid_run_b true c byz (map (init_node g) masters) [g] evs = true -> known tree (b_parent g) = false ->
  votes_visible_b c (map (init_node g) masters) evs = true ->
  finalizing c tree B1 -> finalizing c tree B2 ->
  first_epoch c tree B1 j1 -> block_at tree (b_id B1) (j1 * c_L c) = Some y1 ->
  first_epoch c tree B2 j2 -> block_at tree (b_id B2) (j2 * c_L c) = Some y2 ->
  Qof c tree B1 = Qof c tree B2 -> conflict tree (b_id y1) (b_id y2) = false.
Proof.
  intros HL Hg Hd Hn Hp Hb H3 Hs. cbv zeta. intros Hv Hr Hvis.
  exact (same_quality_commits_safe c HL g Hg byz masters Hd Hn evs Hp Hb H3 Hs Hv Hr Hvis B1 B2 j1 j2 y1 y2).
Qed.

Theorem conflicting_commits_shape c g byz masters evs B1 B2 j1 j2 y1 y2 : 0 < c_L c -> b_num g = 0 ->
  (forall m, In m masters -> ~ In m byz) -> NoDup masters -> c_pos c = false -> NoDup byz ->
  3 * N.of_nat (length byz) < c_mbp c -> N.of_nat (length masters + length byz) <= c_mbp c ->
  let tree := seen_after [g] evs in
  valid_run_b true c byz (map (init_node g) masters) [g] evs = true -> known tree (b_parent g) = false ->
  votes_visible_b c (map (init_node g) masters) evs = true ->
  finalizing c tree B1 -> finalizing c tree B2 ->
  first_epoch c tree B1 j1 -> block_at tree (b_id B1) (j1 * c_L c) = Some y1 ->
  first_epoch c tree B2 j2 -> block_at tree (b_id B2) (j2 * c_L c) = Some y2 ->
  conflict tree (b_id y1) (b_id y2) = true -> Qof c tree B1 <= Qof c tree B2 ->
  exists x1 x2 p2, In x1 (seg c tree B1) /\ In x2 (seg c tree B2) /\ b_signer x1 = b_signer x2 /\ ~ In (b_signer x1) byz /\
    b_com x1 = true /\ b_com x2 = true /\ before g evs x1 x2 /\
    In p2 tree /\ b_id p2 = b_parent x2 /\ qual c tree x1 + 2 <= qual c tree p2 /\
    (Qof c tree B2 = Qof c tree B1 + 1 -> qual c tree x1 = Qof c tree B1 - 1 /\ qual c tree p2 = Qof c tree B2).
Proof.
  intros HL Hg Hd Hn Hp Hb H3 Hs. cbv zeta. intros Hv Hr Hvis.
  exact (Verif.Bft.ProofsGap.conflicting_commits_shape c HL g Hg byz masters Hd Hn evs Hp Hb H3 Hs Hv Hr Hvis B1 B2 j1 j2 y1 y2).
Qed.

(* non-vacuity: the sibling run satisfies every hypothesis of (ii) (two committed epochs of quality 2, both finalize
   genesis); the F4 run satisfies every hypothesis of (i)/(iii) including the conflict (4X from 11X of quality 3, 12Y from
   19Y of quality 5: gap two) *)
Example same_quality_instance :
  let t := seen_after [gen] sib_run in
  valid_run_b true cfg4 [4] f4_world [gen] sib_run = true /\ known t (b_parent gen) = false /\
  votes_visible_b cfg4 f4_world sib_run = true /\
  finalizing cfg4 t sx7 /\ finalizing cfg4 t sy7 /\ Qof cfg4 t sx7 = Qof cfg4 t sy7 /\
  first_epoch cfg4 t sx7 0 /\ block_at t (b_id sx7) (0 * 4) = Some gen /\
  first_epoch cfg4 t sy7 0 /\ block_at t (b_id sy7) (0 * 4) = Some gen.
Proof. cbv zeta. split; [exact sib_valid|]. split; [exact sib_root|]. split; [exact sib_visible | exact sib_gap0_instance]. Qed.

Example f4_is_the_open_shape :
  let t := seen_after [gen] f4_run in
  valid_run_b true cfg4 [4] f4_world [gen] f4_run = true /\ known t (b_parent gen) = false /\
  votes_visible_b cfg4 f4_world f4_run = true /\
  finalizing cfg4 t x11 /\ finalizing cfg4 t y19 /\ Qof cfg4 t x11 = 3 /\ Qof cfg4 t y19 = 5 /\
  first_epoch cfg4 t x11 1 /\ block_at t (b_id x11) (1 * 4) = Some x4 /\
  first_epoch cfg4 t y19 3 /\ block_at t (b_id y19) (3 * 4) = Some y12 /\
  conflict t (b_id x4) (b_id y12) = true.
Proof.
  cbv zeta. split; [exact (f4_valid true)|]. split; [exact f4_root|]. split; [exact f4_visible|].
  destruct f4_gap_instance as [A [B [C [D [E [F [G H]]]]]]]. repeat (split; [assumption|]). exact f4_conflict.
Qed.

(* 4e. general safety.  Without a fork-choice premise the statement over all valid runs is REFUTED in the model (F4) - also
       when every block's total score obeys the PoA scheduler's score rule (scheduler/poa_v2.go: candidates = active
       validators + signer sorted by a hash that is data of the run; increment = n - pos, or 1 after a full round;
       f4s_run).  The F4 runs lie outside the premise "no equal-quality move off the last own vote"; safety under that
       premise stays a Prop (bft_safety_under_premise): what is left is the shape (iii) above plus discharging
       votes_visible_b. *)
Definition bft_safety_without_premise := bft_safety_statement true.
Definition bft_safety_under_premise := bft_safety_under_premise_statement true.

Theorem bft_safety_without_premise_refuted : ~ bft_safety_statement true.
Proof. exact (bft_safety_refuted_lemma true). Qed.

Theorem f4_run_outside_premise : valid_run_b true cfg4 [4] f4_world [gen] f4_run = true /\ no_tie_switch_b true cfg4 f4_world f4_run = false.
Proof. split; [exact (f4_valid true) | exact (f4_breaks_premise true)]. Qed.

Example f4_end_state : In (b_id x4) (all_fins true cfg4 f4_world f4_run) /\ In (b_id y12) (all_fins true cfg4 f4_world f4_run) /\
                       conflict (seen_after [gen] f4_run) (b_id x4) (b_id y12) = true.
Proof. destruct (f4_fins true) as [A B]. split; [exact A | split; [exact B | exact f4_conflict]]. Qed.

(* the same history with scheduler-conformant scores: valid, every score obeys the rule, honest validators still make the
   two equal-quality moves (Select prefers the higher total score), two honest nodes finalize conflicting checkpoints *)
Theorem safety_fails_with_scheduler_scores :
  valid_run_b true cfg4 [4] f4_world [gen] f4s_run = true /\
  scores_ok f4_rank [1;2;3;4] (seen_after [gen] f4s_run) = true /\
  no_tie_switch_b true cfg4 f4_world f4s_run = false /\
  In (b_id x4) (all_fins true cfg4 f4_world f4s_run) /\ In (b_id sy12') (all_fins true cfg4 f4_world f4s_run) /\
  conflict (seen_after [gen] f4s_run) (b_id x4) (b_id sy12') = true.
Proof.
  split; [exact f4s_valid|]. split; [exact f4s_scores|]. split; [exact f4s_breaks_premise|].
  destruct f4s_fins as [A B]. split; [exact A|]. split; [exact B | exact f4s_conflict].
Qed.

(* how the oracle's observed runs relate to the plain transition system of the theorems: `step` (what `run` / `run_f 0` iterate) is
   the plain step followed by the two observation calls Justified() and ShouldVote(best) on the node that moved; these leave
   repository, best block, finalized, quality records and master untouched (they may fill the one-entry cache and create the
   votes record, which is why the observed and the plain run are not literally equal). *)
Theorem observed_step_is_plain_step_on_core_state guard c w ev :
  map core (fst (Verif.Bft.Model.step guard c w ev)) = map core (step_plain guard c w ev).
Proof. exact (step_is_plain_step_then_observation guard c w ev). Qed.

(* The FINALITY fork height.  The oracle runs `run_f F` (Bft/Model.v, second half): the engine and the node with
   forkConfig.FINALITY = F as the code uses it (zero state below F, no walk below F, first round counted from F / L, the
   checkpoint search starts at getCheckPoint(F), the node consults Select / CommitBlock / ShouldVote only at or after F);
   the correspondence run draws F = 0, aligned and unaligned values.  Every theorem of this file is about FINALITY = 0,
   which is exactly the F = 0 instance of what the oracle runs: *)
Theorem oracle_run_at_finality_0_is_the_verified_model guard c w evs : run_f 0 guard c w evs = run guard c w evs.
Proof. exact (run_f0 guard c evs w). Qed.

Print Assumptions quorum_intersection_count.
Print Assumptions quorum_honest_count.
Print Assumptions quorum_intersection_weight.
Print Assumptions quorum_honest_weight.
Print Assumptions committed_implies_justified.
Print Assumptions quality_monotone.
Print Assumptions justified_monotone.
Print Assumptions import_history_invariants.
Print Assumptions finalized_monotone_step.
Print Assumptions finalized_monotone.
Print Assumptions accepted_block_imports_without_error.
Print Assumptions finalized_moves_forward.
Print Assumptions honest_vote_on_one_chain.
Print Assumptions quorum_is_justified.
Print Assumptions linear_liveness.
Print Assumptions finalized_advances_at_store_point.
Print Assumptions finalized_monotone_own_proposal.
Print Assumptions own_proposal_off_finalized_branch_not_monotone.
Print Assumptions single_node_monotonicity_refuted.
Print Assumptions timely_honest_run_single_chain.
Print Assumptions timely_honest_run_epochs_commit.
Print Assumptions timely_honest_run_finality_advances.
Print Assumptions node_invariants_along_events.
Print Assumptions lemma_A_head_quality_monotone.
Print Assumptions lemma_B_com_lock.
Print Assumptions same_quality_commit_exclusive_partial.
Print Assumptions same_quality_commit_exclusive_refuted.
Print Assumptions run_node_invariants.
Print Assumptions later_com_vote_sees_earlier_votes.
Print Assumptions conflicting_commits_need_forgotten_vote.
Print Assumptions same_quality_commits_finalize_one_chain.
Print Assumptions conflicting_commits_shape.
Print Assumptions bft_safety_without_premise_refuted.
Print Assumptions f4_run_outside_premise.
Print Assumptions safety_fails_with_scheduler_scores.
Print Assumptions oracle_run_at_finality_0_is_the_verified_model.
Print Assumptions observed_step_is_plain_step_on_core_state.
