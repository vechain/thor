(* Chain/ProofsAccept.v — what a block that passes the body / verify rules guarantees (C09, first sentence:
   the induction step over an accepted chain for at-most-once, chain tag and validity window). *)
From Coq Require Import List NArith Bool Lia ZifyN ZifyNat ZifyBool.
From Verif Require Import Chain.Model Chain.Proofs Chain.ProofsWalk Chain.ProofsTx.
Import ListNotations.
Open Scope N_scope.

Lemma body_rule_ok tag num t : body_rule tag num t = V_ok ->
  tx_tag t = tag /\ tx_ref t <= num /\ num <= tx_ref t + tx_exp t.
Proof.
  unfold body_rule. destruct (N.eqb_spec (tx_tag t) tag); cbn [negb]; [|discriminate].
  destruct (N.ltb_spec num (tx_ref t)); [discriminate|]. destruct (N.ltb_spec (tx_ref t + tx_exp t) num); [discriminate|]. auto.
Qed.

Lemma body_rules_ok tag num txs : body_rules tag num txs = V_ok -> forall t, In t txs -> body_rule tag num t = V_ok.
Proof.
  induction txs as [|t0 x IH]; intros H t Hin; [destruct Hin|]. cbn [body_rules] in H.
  destruct (body_rule tag num t0) eqn:E; try discriminate. destruct Hin as [<-|Hin]; [exact E | apply IH; auto].
Qed.

(* every tx that survives the verify loop was neither processed earlier in the block nor found by HasTransaction
   on the parent's chain *)
Lemma verify_loop_ok r p : forall txs processed revs,
  verify_loop r p processed txs revs = V_ok ->
  NoDup (map tx_id txs) /\
  forall t, In t txs -> afind (tx_id t) processed = None /\ has_transaction r p (tx_id t) (tx_ref t) = Ok false.
Proof.
  induction txs as [|t0 x IH]; intros processed revs H; [split; [constructor | intros t []]|].
  cbn [verify_loop] in H.
  destruct (afind (tx_id t0) processed) eqn:Ep; [discriminate|].
  destruct (has_transaction r p (tx_id t0) (tx_ref t0)) as [[|]| |] eqn:Eh; try discriminate.
  match type of H with (match ?d with _ => _ end) = _ => destruct d eqn:Ed; try discriminate end.
  apply IH in H. destruct H as [ND Hall].
  assert (Hnot : ~ In (tx_id t0) (map tx_id x)).
  { intros Hin. apply in_map_iff in Hin. destruct Hin as [t [Et Hin]]. destruct (Hall t Hin) as [F _].
    rewrite Et in F. cbn [afind] in F. rewrite N.eqb_refl in F. discriminate. }
  split; [constructor; assumption|]. intros t [<-|Hin]; [auto|].
  destruct (Hall t Hin) as [F1 F2]. split; [|exact F2]. cbn [afind] in F1. destruct (tx_id t0 =? tx_id t); [discriminate | exact F1].
Qed.

Section Accept.
  Variables (g gp : N) (r : repo).
  Hypothesis W : wf g gp r.
  Hypothesis WB : wf_body r.
  Hypothesis WT : wf_txi r.
  Hypothesis CI : conf_inj r.
  Hypothesis Hgp : num_of gp = max_u32.

  (* induction step of accepted_chain_ok (ProofsChainInv) for "at most once, with the tag, inside the window":
     if the parent's chain respects the window rule for the ids of b's txs, then an accepted b repeats no id
     of its own, carries none that is already on the parent's chain, and every tx has the tag and is in its window *)
  Lemma accepted_block_step b :
    stored r (b_parent b) -> validate r b = V_ok ->
    (forall t a, In t (b_txs b) -> incl_on r (b_parent b) (tx_id t) a -> tx_ref t <= num_of a) ->
    NoDup (map tx_id (b_txs b)) /\
    (forall t, In t (b_txs b) ->
       (forall a, ~ incl_on r (b_parent b) (tx_id t) a) /\
       tx_tag t = r_tag r /\ tx_ref t <= num_of (b_id b) /\ num_of (b_id b) <= tx_ref t + tx_exp t).
  Proof.
    intros Sp Hv Hwin. unfold validate in Hv.
    destruct (body_rules (r_tag r) (num_of (b_id b)) (b_txs b)) eqn:Eb; try discriminate.
    apply verify_loop_ok in Hv. destruct Hv as [ND Hall]. split; [exact ND|].
    intros t Hin. destruct (Hall t Hin) as [_ Hh]. split.
    - destruct (has_tx_paths_agree_lemma g gp r W WB WT CI Hgp (b_parent b) (tx_id t) (tx_ref t) Sp)
        as [v [Ev [_ [_ Hiff]]]]; [intros a Ha; eapply Hwin; eauto|].
      rewrite Ev in Hh. injection Hh as ->. intros a Ha. assert (false = true) by (apply Hiff; eauto). discriminate.
    - apply body_rule_ok. eapply body_rules_ok; eauto.
  Qed.
End Accept.
