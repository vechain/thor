(* Crash/ProofsFinalized.v — the finalized block only moves forward along the chain: after every import the finalized
   block descends from (or is) the one before the import; hence over any number of imports (finalized_monotone), and at
   step level: every finalized pointer the importer publishes descends from the one published before (fin_steps), so a
   reader's successive observations never go backwards (finalized_observations_monotone). *)
From Coq Require Import List NArith Bool Lia.
From Verif Require Import Crash.Model Crash.ProofsStore Crash.ProofsInv Crash.ProofsImport Crash.ProofsCrash
  Crash.ProofsEqv Crash.ProofsShape Crash.ProofsResumeAll.
Import ListNotations.
Open Scope N_scope.

Lemma finalized_stored c s : wf_cfg c -> Inv c s -> stored s (finalized c s) = true.
Proof.
  intros Hc I. unfold finalized. destruct (get_id s KFinalized) as [f|] eqn:E; [eapply inv_fin; eauto|].
  destruct (inv_best c s I) as (b & _ & Hb). destruct (anc_total c s b 0 Hc I Hb) as (a & Ha); [lia|].
  assert (a = c_g c) by (eapply ancestor_genesis; eauto). subst. apply anc_stored in Ha. tauto.
Qed.

Lemma num0_is_genesis c s id : Inv c s -> stored s id = true -> num_of id = 0 -> id = c_g c.
Proof.
  intros I Hs H0. apply stored_iff in Hs as (sm & E).
  destruct (inv_blocks c s I id sm E) as (_ & _ & _ & [[H _]|[_ Hn]]); auto. lia.
Qed.

Definition desc (s : store) (a b : N) : Prop := anc s b (num_of a) = Some a.   (* b is a or descends from a *)

Lemma desc_mono s s' a b : keeps_summaries s s' -> desc s a b -> desc s' a b.
Proof. intros K H. unfold desc in *. eapply anc_mono; eauto. Qed.

Lemma desc_stored s a b : desc s a b -> stored s b = true.
Proof. intro H. apply anc_summary in H as (sm & E). eapply get_summary_stored; eauto. Qed.

Lemma desc_trans c s x y z : wf_cfg c -> Inv c s -> desc s x y -> desc s y z -> desc s x z.
Proof.
  intros Hc I Hxy Hyz. unfold desc in *.
  pose proof (ancestor_le _ _ _ _ _ Hxy) as L1. pose proof (ancestor_le _ _ _ _ _ Hyz) as L2.
  destruct (anc_total c s z (num_of x) Hc I (desc_stored _ _ _ Hyz)) as (a & Ha); [lia|].
  rewrite Ha. f_equal.
  pose proof (anc_compose c s z (num_of y) (num_of x) y a I Hyz L1 Ha) as X. rewrite Hxy in X. inversion X. auto.
Qed.

Lemma desc_refl s x : stored s x = true -> desc s x x.
Proof. intro H. apply stored_iff in H as (sm & E). unfold desc. eapply anc_self; eauto. Qed.

(* bft.Engine.Accepts: the finalized block is an ancestor of the accepted parent *)
Lemma accepts_anc c s p : wf_cfg c -> Inv c s -> stored s p = true -> accepts c s p = true ->
  anc s p (num_of (finalized c s)) = Some (finalized c s).
Proof.
  intros Hc I Hp Ha. unfold accepts in Ha. set (F := finalized c s) in *.
  destruct (num_of F =? 0) eqn:E0.
  - apply N.eqb_eq in E0. assert (F = c_g c) by (apply (num0_is_genesis c s F I (finalized_stored c s Hc I) E0)).
    destruct (anc_total c s p 0 Hc I Hp) as (a & Ha0); [lia|].
    assert (a = c_g c) by (eapply ancestor_genesis; eauto). rewrite E0. congruence.
  - destruct (anc s p (num_of F)) as [a|]; [|discriminate]. apply N.eqb_eq in Ha. congruence.
Qed.

(* ... hence of the imported block, in every later store of the import *)
Lemma new_block_desc c s b ab s' : wf_cfg c -> Inv c s -> main_case c s b ab -> Inv c s' ->
  keeps_summaries (apply_writes s (pre_writes s b ab)) s' -> desc s' (finalized c s) (b_id b).
Proof.
  intros Hc I M I' K. pose proof (main_not_stored c s b ab M) as Hn. destruct M as (_ & _ & Mp & Mn & Ma & _).
  pose proof (accepts_anc c s (b_parent b) Hc I Mp Ma) as Ap. pose proof (ancestor_le _ _ _ _ _ Ap) as Lp.
  assert (Eb : get_summary s' (b_id b) = Some (summary_of b (conf_of s b))).
  { apply K. rewrite s3_summary. destruct (N.eq_dec (b_id b) (b_id b)); congruence. }
  unfold desc. rewrite (anc_step c s' (b_id b) _ _ I' Eb) by lia. cbn [summary_of s_parent].
  eapply anc_mono; [|exact Ap]. intros i sm Ei. apply K, s3_keeps; auto.
Qed.

(* C20 / C13: after every import the finalized block is the old one or a descendant of it *)
Theorem finalized_moves_forward c s b : wf_cfg c -> Inv c s -> wf_blk s b ->
  let s' := run1 c s b in
  anc s' (finalized c s') (num_of (finalized c s)) = Some (finalized c s).
Proof.
  intros Hc I Hwf s'.
  assert (I' : Inv c s') by (apply run1_inv; auto).
  assert (Same : finalized c s' = finalized c s -> desc s' (finalized c s) (finalized c s')).
  { intro E. rewrite E. apply desc_refl. rewrite <- E. apply finalized_stored; auto. }
  unfold s' in *. clear s'.
  destruct (run1_eq_cases c s b) as [E|[E|(ab & M & E)]]; rewrite E in *.
  - apply Same. reflexivity.
  - apply Same, aux_writes_finalized, state_batches_aux.
  - pose proof (s3_finalized c s b ab) as F3. unfold commit_writes in *.
    set (s3 := apply_writes s (pre_writes s b ab)) in *.
    destruct (commit_steps_cases c s3 (b_id b) (b_parent b) (b_just b) (b_comm b)) as [[Ec _]|(q & _ & _ & [Ec|(f & Hfc & Ec)])];
      rewrite Ec in *; cbn [writes_of_steps flat_map app apply_writes fold_left] in *; [apply Same; exact F3..|].
    (* the finalized record is written: f was found on the chain of the new block, from the old finalized block on *)
    change (apply_batch s3 [Put (KQuality (b_id b)) (VNum q); Put KFinalized (VId f)])
      with (apply_batch (apply_batch s3 [Put (KQuality (b_id b)) (VNum q)]) [Put KFinalized (VId f)]) in *.
    set (s4 := apply_batch s3 [Put (KQuality (b_id b)) (VNum q)]) in *. rewrite finalized_put.
    assert (K4 : keeps_summaries s4 (apply_batch s4 [Put KFinalized (VId f)])) by (apply keeps_put; discriminate).
    assert (K3 : keeps_summaries s3 s4) by (apply keeps_put; discriminate).
    rewrite F3 in Hfc. destruct (find_checkpoint_some _ _ _ _ _ _ Hfc) as (idx & Ham).
    eapply (anc_compose c _ (b_id b) (num_of (finalized c s) + idx * c_L c) (num_of (finalized c s)) _ _ I'); eauto using anc_mono; [lia|].
    apply (new_block_desc c s b ab); [assumption..|]. intros i sm Ei. apply K4, K3, Ei.
Qed.

Lemma run_keeps c l : forall s, keeps_summaries s (run c s l).
Proof.
  induction l as [|b r IH]; intros s id sm H; simpl; auto.
  apply IH. apply run1_keeps. auto.
Qed.

(* ... hence over any number of imports *)
Theorem finalized_monotone_run c l : forall s, wf_cfg c -> Inv c s -> wf_hist c s l ->
  anc (run c s l) (finalized c (run c s l)) (num_of (finalized c s)) = Some (finalized c s).
Proof.
  induction l as [|b r IH]; intros s Hc I Hw.
  - apply desc_refl, finalized_stored; auto.
  - destruct Hw as [Hb Hr]. cbn [run fold_left].
    assert (I1 : Inv c (run1 c s b)) by (apply run1_inv; auto).
    pose proof (IH (run1 c s b) Hc I1 Hr) as H2. pose proof (finalized_moves_forward c s b Hc I Hb) as H1. cbn zeta in H1.
    fold (run c (run1 c s b) r) in *.
    assert (If : Inv c (run c (run1 c s b) r)) by (apply run_inv; auto).
    pose proof (ancestor_le _ _ _ _ _ H1) as Hle.
    (* lift the first step to the final store: summaries are kept by every import *)
    assert (H1' : anc (run c (run1 c s b) r) (finalized c (run1 c s b)) (num_of (finalized c s)) = Some (finalized c s))
      by (eapply anc_mono; [apply run_keeps|exact H1]).
    destruct (anc_total c _ (finalized c (run c (run1 c s b) r)) (num_of (finalized c s)) Hc If) as (a & Ha).
    + apply finalized_stored; auto.
    + pose proof (ancestor_le _ _ _ _ _ H2). lia.
    + rewrite Ha. f_equal.
      pose proof (anc_compose c _ _ _ _ _ _ If H2 Hle Ha) as X. rewrite H1' in X. inversion X. auto.
Qed.

(* the same between any two points of a run: the finalized block after i+j imports descends from the one after i imports *)
Corollary finalized_monotone c s0 l1 l2 : wf_cfg c -> Inv c s0 -> wf_hist c s0 (l1 ++ l2) ->
  let s1 := run c s0 l1 in let s2 := run c s0 (l1 ++ l2) in
  anc s2 (finalized c s2) (num_of (finalized c s1)) = Some (finalized c s1).
Proof.
  intros Hc I Hw s1 s2. destruct (wf_hist_app c l1 s0 l2 Hw) as [H1 H2].
  unfold s2. rewrite run_app. apply finalized_monotone_run; auto. apply run_inv; auto.
Qed.

(* a step list is good from store s and published finalized block fin: every write keeps the summaries and the invariant,
   the published best block is stored, every published finalized block descends from the one published before *)
Fixpoint fin_steps (c : cfg) (s : store) (fin : N) (l : list step) : Prop :=
  match l with
  | [] => True
  | SWrite w :: r => keeps_summaries s (apply_batch s w) /\ Inv c (apply_batch s w) /\ fin_steps c (apply_batch s w) fin r
  | SPubBest id :: r => stored s id = true /\ fin_steps c s fin r
  | SPubFin f :: r => desc s fin f /\ fin_steps c s f r
  end.

Lemma fin_steps_keep c l : forall s f k, fin_steps c s f l ->
  keeps_summaries s (apply_writes s (writes_of_steps (firstn k l))).
Proof.
  induction l as [|x l IH]; intros s f k H; destruct k; simpl; try (intros id sm E; exact E).
  destruct x as [w|i|g]; simpl in *.
  - destruct H as (K & _ & Hr). intros id sm E. apply (IH (apply_batch s w) f k Hr). apply K. auto.
  - apply (IH s f k (proj2 H)).
  - apply (IH s g k (proj2 H)).
Qed.

Lemma do_steps_store y l : y_store (do_steps y l) = apply_writes (y_store y) (writes_of_steps l).
Proof.
  revert y. induction l as [|x l IH]; intro y; simpl; auto.
  unfold do_steps in *. simpl. rewrite IH. destruct x; simpl; auto.
Qed.

(* from the start of a good step list: whatever is published later descends from what was published at the start *)
Lemma fin_steps_from_start c l : wf_cfg c -> forall y, Inv c (y_store y) -> stored (y_store y) (y_fin y) = true ->
  fin_steps c (y_store y) (y_fin y) l ->
  forall k, let y' := do_steps y (firstn k l) in
    desc (y_store y') (y_fin y) (y_fin y') /\ Inv c (y_store y') /\ stored (y_store y') (y_fin y') = true /\
    fin_steps c (y_store y') (y_fin y') (skipn k l).
Proof.
  intro Hc. induction l as [|x l IH]; intros y I Hs Hf k.
  - destruct k; simpl; (split; [apply desc_refl; auto|split; [auto|split; auto]]).
  - destruct k; [simpl; (split; [apply desc_refl; auto|split; [auto|split; auto]])|].
    cbn [firstn skipn]. unfold do_steps. cbn [fold_left]. fold (do_steps (do_step y x) (firstn k l)).
    destruct x as [w|id|f]; simpl in Hf.
    + destruct Hf as (K & I1 & Hr).
      destruct (IH (do_step y (SWrite w)) I1 (keeps_stored _ _ _ K Hs) Hr k) as (D & I2 & S2 & F2). simpl in *. auto.
    + destruct (IH (do_step y (SPubBest id)) I Hs (proj2 Hf) k) as (D & I2 & S2 & F2). simpl in *. auto.
    + destruct Hf as (D0 & Hr).
      destruct (IH (do_step y (SPubFin f)) I (desc_stored _ _ _ D0) Hr k) as (D & I2 & S2 & F2). simpl in *.
      split; [|split; [auto|split; auto]].
      (* y_fin y -> f -> later *)
      eapply desc_trans; eauto.
      (* lift D0 to the later store: every write of the list keeps summaries *)
      eapply desc_mono; [|exact D0]. rewrite do_steps_store. simpl. eapply fin_steps_keep; eauto.
Qed.

(* C20: successive observations of the finalized pointer never go backwards *)
Theorem fin_observations_ordered c l y k1 k2 :
  wf_cfg c -> Inv c (y_store y) -> stored (y_store y) (y_fin y) = true -> fin_steps c (y_store y) (y_fin y) l -> (k1 <= k2)%nat ->
  let y1 := do_steps y (firstn k1 l) in let y2 := do_steps y (firstn k2 l) in
  desc (y_store y2) (y_fin y1) (y_fin y2).
Proof.
  intros Hc I Hs Hf Hk y1 y2.
  destruct (fin_steps_from_start c l Hc y I Hs Hf k1) as (_ & I1 & S1 & F1). fold y1 in I1, S1, F1.
  assert (E2 : y2 = do_steps y1 (firstn (k2 - k1) (skipn k1 l))).
  { unfold y2, y1, do_steps. rewrite <- fold_left_app. f_equal.
    replace k2 with (k1 + (k2 - k1))%nat at 1 by lia. rewrite firstn_plus. reflexivity. }
  rewrite E2. apply (fin_steps_from_start c (skipn k1 l) Hc y1 I1 S1 F1 (k2 - k1)).
Qed.

Lemma keeps_aux s w : aux_batch w -> keeps_summaries s (apply_batch s w).
Proof. intro Ha. apply keeps_frame. intros o Ho i. apply aux_key_ne with (w := w); auto; discriminate. Qed.

Lemma fin_steps_aux c ws : forall s f r, Inv c s -> (forall w, In w ws -> aux_batch w) ->
  fin_steps c (apply_writes s ws) f r -> fin_steps c s f (map SWrite ws ++ r).
Proof.
  induction ws as [|w t IH]; intros s f r I Ha Hr; simpl; auto.
  assert (Hw : aux_batch w) by (apply Ha; left; auto).
  split; [apply keeps_aux; auto|]. split; [apply aux_batch_inv; auto|].
  apply IH; auto. { apply aux_batch_inv; auto. } intros; apply Ha; right; auto.
Qed.

Theorem import_fin_steps c s b r : wf_cfg c -> Inv c s -> wf_blk s b ->
  fin_steps c (run1 c s b) (finalized c (run1 c s b)) r ->
  fin_steps c s (finalized c s) (import_steps c s b ++ r).
Proof.
  intros Hc I Hwf Hr.
  pose proof (finalized_moves_forward c s b Hc I Hwf) as FM. cbn zeta in FM.
  assert (I' : Inv c (run1 c s b)) by (apply run1_inv; auto).
  destruct (import_steps_cases c s b) as [E|[[_ E]|(ab & M & E)]]; rewrite E.
  - unfold run1, import_batches in Hr. rewrite E in Hr. exact Hr.
  - unfold run1, import_batches in Hr. rewrite E, writes_of_steps_map in Hr. apply fin_steps_aux; auto; try apply state_batches_aux.
    rewrite <- (aux_writes_finalized c s _ (state_batches_aux b (conf_of s b))). exact Hr.
  - clear E. pose proof (main_case_inv3 c s b ab Hc I Hwf M) as I3.
    pose proof (s3_finalized c s b ab) as F3. pose proof (s3_keeps s b ab (main_not_stored c s b ab M)) as K3.
    pose proof (s3_stored_b s b ab) as Hb3.
    assert (Er : run1 c s b = apply_writes (apply_writes s (pre_writes s b ab)) (commit_writes c s b ab))
      by (unfold run1; rewrite (main_case_batches c s b ab M); apply apply_writes_app).
    rewrite Er in *. clear Er. unfold commit_writes in *. set (s3 := apply_writes s (pre_writes s b ab)) in *.
    (* the trie commits, then the block bulk *)
    rewrite <- app_assoc. apply fin_steps_aux; auto; [apply s2_aux|]. cbn [app fin_steps]. rewrite <- (s3_eq s b ab). fold s3.
    split; [|split; [exact I3|]].
    { intros i sm Ei. apply K3. revert Ei. unfold get_summary. rewrite s2_na; auto. }
    assert (Hpub : forall l, fin_steps c s3 (finalized c s) l -> fin_steps c s3 (finalized c s) ((if ab then [SPubBest (b_id b)] else []) ++ l))
      by (intros l Hl; destruct ab; simpl; auto).
    rewrite <- app_assoc. apply Hpub.
    (* the bft commit *)
    destruct (commit_steps_cases c s3 (b_id b) (b_parent b) (b_just b) (b_comm b)) as [[Ec _]|(q & _ & _ & [Ec|(f & _ & Ec)])];
      rewrite Ec in *; cbn [writes_of_steps flat_map app apply_writes fold_left fin_steps] in *.
    + rewrite <- F3. exact Hr.
    + split; [apply keeps_put; discriminate|]. split; [exact I'|]. rewrite <- F3. exact Hr.
    + assert (Ef : finalized c (apply_batch s3 [Put (KQuality (b_id b)) (VNum q); Put KFinalized (VId f)]) = f) by reflexivity.
      rewrite Ef in *. split; [apply keeps_frame; intros o [<-|[<-|[]]]; discriminate|]. split; [exact I'|]. split; [exact FM|exact Hr].
Qed.

Theorem history_fin_steps c l : forall s, wf_cfg c -> Inv c s -> wf_hist c s l ->
  fin_steps c s (finalized c s) (steps_of c s l).
Proof.
  induction l as [|b r IH]; intros s Hc I Hw; simpl; auto.
  destruct Hw as [Hb Hr]. apply import_fin_steps; auto. apply IH; auto.
  apply run1_inv; auto.
Qed.

(* C20: for every history and any two points k1 <= k2 of any interleaving, the finalized block a reader observes at the
   later point is the earlier one or a descendant of it (in the store of the later point) *)
Theorem finalized_observations_monotone c s0 hist b0 k1 k2 :
  wf_cfg c -> Inv c s0 -> wf_hist c s0 hist -> (k1 <= k2)%nat ->
  let y0 := mkSys s0 b0 (finalized c s0) in
  let y1 := do_steps y0 (firstn k1 (steps_of c s0 hist)) in
  let y2 := do_steps y0 (firstn k2 (steps_of c s0 hist)) in
  anc (y_store y2) (y_fin y2) (num_of (y_fin y1)) = Some (y_fin y1).
Proof.
  intros Hc I Hw Hk y0 y1 y2.
  apply (fin_observations_ordered c (steps_of c s0 hist) y0 k1 k2 Hc); auto.
  - simpl. apply finalized_stored; auto.
  - simpl. apply history_fin_steps; auto.
Qed.
