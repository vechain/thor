(* Trie/ProofsCanon.v — canonicity: two well-formed tries with the same content are the same tree. *)
From Coq Require Import List Arith Bool Lia.
From Verif Require Import Trie.Model Trie.Keys Trie.ProofsWf Trie.ProofsMap.
Import ListNotations.

Section CANON.
  Variable V : Type.

  Notation node := (node V).
  Notation child := (child V).
  Notation wf := (wf V).
  Notation wfc := (wfc V).
  Notation lookup := (lookup V).

  (* a used slot of a full node holds a key, if the used slots below 16 do *)
  Lemma slot_witness cs j : length cs = 17 ->
    (forall i, i < 16 -> child cs i <> Nil -> exists k, vkey k /\ lookup (child cs i) k <> None) ->
    (child cs 16 = Nil \/ exists v, child cs 16 = Value v) -> child cs j <> Nil ->
    exists r, vkey (j :: r) /\ lookup (Full cs) (j :: r) <> None.
  Proof.
    intros Hlen Hch H16 Nj. destruct (Nat.lt_ge_cases j 16) as [Lj|Lj].
    - destruct (Hch j Lj Nj) as [r [Kr Lr]].
      exists r; split; [constructor; auto|]. rewrite lookup_full; auto.
    - destruct (Nat.eq_dec j 16) as [->|Na].
      + destruct H16 as [Q|[v Q]]; [congruence|]. exists []; split; [constructor|].
        rewrite lookup_full, Q. discriminate.
      + exfalso; apply Nj; apply child_beyond; lia.
  Qed.

  (* every well-formed (non-nil) subtrie holds at least one key *)
  Lemma wf_nonempty n : wf n -> exists k, vkey k /\ lookup n k <> None.
  Proof.
    induction 1 as [k v Hk | k cs Hne Hnb Hfull IH | cs Hlen Hch IH H16 Htwo].
    - exists k; split; auto. rewrite lookup_leaf by auto. destruct (vkey_eq_dec k k); congruence.
    - destruct IH as [r [Kr Lr]]. exists (k ++ r); split; [apply vkey_app; auto|].
      rewrite lookup_short_app; auto.
    - destruct Htwo as (a & _ & _ & A & _). destruct (slot_witness cs a Hlen IH H16 A) as (r & K & L). eauto.
  Qed.

  Lemma wfc_empty n : wfc n -> (forall k, vkey k -> lookup n k = None) -> n = Nil.
  Proof. intros [->|W] H; auto. destruct (wf_nonempty _ W) as (k & K & L). destruct L; auto. Qed.

  Lemma full_slot_witness cs j : wf (Full cs) -> child cs j <> Nil ->
    exists r, vkey (j :: r) /\ lookup (Full cs) (j :: r) <> None.
  Proof.
    intros H. inversion H as [| |cs' Hlen Hch H16 Htwo]; subst.
    apply slot_witness; auto. intros i Li Ni. apply wf_nonempty; auto.
  Qed.

  Lemma full_two_keys cs : wf (Full cs) ->
    exists a ra b rb, a <> b /\ vkey (a :: ra) /\ vkey (b :: rb) /\
                      lookup (Full cs) (a :: ra) <> None /\ lookup (Full cs) (b :: rb) <> None.
  Proof.
    intros H. inversion H as [| |cs' Hlen Hch H16 Htwo]; subst.
    destruct Htwo as [a [b [N [A B]]]].
    destruct (full_slot_witness cs a H A) as [ra [Ka La]].
    destruct (full_slot_witness cs b H B) as [rb [Kb Lb]].
    exists a, ra, b, rb; auto 10.
  Qed.

  Lemma short_some_prefix k c key : lookup (Short k c) key <> None -> exists x, key = k ++ x.
  Proof.
    intros H. destruct (Nat.eq_dec (prefix_len k key) (length k)) as [E|E].
    - exists (skipn (length k) key). apply prefix_len_full; auto.
    - rewrite lookup_short_not_prefix in H by auto. congruence.
  Qed.

  Lemma prefix_of_fork (p : list nat) : forall q x y a ra b rb,
    p ++ x = q ++ a :: ra -> p ++ y = q ++ b :: rb -> a <> b -> exists t, q = p ++ t.
  Proof.
    induction p as [|h p IH]; intros q x y a ra b rb E1 E2 N.
    - exists q; auto.
    - destruct q as [|h' q]; cbn in *.
      + inversion E1; inversion E2; subst. congruence.
      + inversion E1; inversion E2; subst.
        destruct (IH q x y a ra b rb) as [t ->]; auto. exists t; auto.
  Qed.

  (* the keys below a short node share their first nibble, those of a full node do not *)
  Lemma short_vs_full k c cs : k <> [] -> wf (Full cs) ->
    (forall key, vkey key -> lookup (Short k c) key = lookup (Full cs) key) -> False.
  Proof.
    intros Hne W Heq. destruct (full_two_keys cs W) as (a & ra & b & rb & N & Ka & Kb & A & B).
    rewrite <- Heq in A, B by auto.
    apply short_some_prefix in A. apply short_some_prefix in B.
    destruct A as [x A], B as [y B]. destruct k; [congruence|]. cbn in *. congruence.
  Qed.

  (* a leaf holds one key, an extension two *)
  Lemma leaf_vs_ext k1 v1 k2 cs2 : vkey k1 -> nibs k2 -> wf (Full cs2) ->
    (forall key, vkey key -> lookup (Short k1 (Value v1)) key = lookup (Short k2 (Full cs2)) key) -> False.
  Proof.
    intros Hk1 Hnb2 W Heq. destruct (full_two_keys cs2 W) as (a & ra & b & rb & N & Ka & Kb & La & Lb).
    assert (A : lookup (Short k1 (Value v1)) (k2 ++ a :: ra) <> None)
      by (rewrite Heq by (apply vkey_app; auto); rewrite lookup_short_app; auto).
    assert (B : lookup (Short k1 (Value v1)) (k2 ++ b :: rb) <> None)
      by (rewrite Heq by (apply vkey_app; auto); rewrite lookup_short_app; auto).
    rewrite lookup_leaf in A, B by (auto; apply vkey_app; auto).
    destruct (vkey_eq_dec k1 (k2 ++ a :: ra)) as [E1|]; try congruence.
    destruct (vkey_eq_dec k1 (k2 ++ b :: rb)) as [E2|]; try congruence.
    rewrite E1 in E2. apply app_inv_head in E2. congruence.
  Qed.

  (* an extension that holds the keys of another node Short k2 c2 has a key that extends k2 *)
  Lemma ext_key_prefix k1 cs1 k2 c2 :
    wf (Full cs1) -> nibs k1 ->
    (forall k, vkey k -> lookup (Short k1 (Full cs1)) k = lookup (Short k2 c2) k) ->
    exists t, k1 = k2 ++ t.
  Proof.
    intros H1 N1 Heq.
    destruct (full_two_keys cs1 H1) as [a [ra [b [rb [N [Ka [Kb [La Lb]]]]]]]].
    assert (A : lookup (Short k2 c2) (k1 ++ a :: ra) <> None).
    { rewrite <- Heq by (apply vkey_app; auto). rewrite lookup_short_app; auto. }
    assert (B : lookup (Short k2 c2) (k1 ++ b :: rb) <> None).
    { rewrite <- Heq by (apply vkey_app; auto). rewrite lookup_short_app; auto. }
    apply short_some_prefix in A. apply short_some_prefix in B.
    destruct A as [x A], B as [y B].
    eapply (prefix_of_fork k2 k1 x y a ra b rb); eauto.
  Qed.

  Theorem canonical : forall n1, wf n1 -> forall n2, wf n2 ->
    (forall k, vkey k -> lookup n1 k = lookup n2 k) -> n1 = n2.
  Proof.
    induction 1 as [k1 v1 Hk1 | k1 cs1 Hne1 Hnb1 Hfull1 IH | cs1 Hlen1 Hch1 IH H161 Htwo1];
      intros n2 Hn2 Heq.
    - (* leaf *)
      inversion Hn2 as [k2 v2 Hk2 | k2 cs2 Hne2 Hnb2 Hfull2 | cs2 Hlen2 Hch2 H162 Htwo2]; subst.
      + pose proof (Heq k1 Hk1) as E. rewrite !lookup_leaf in E by auto.
        destruct (vkey_eq_dec k1 k1); try congruence. destruct (vkey_eq_dec k2 k1); congruence.
      + destruct (leaf_vs_ext k1 v1 k2 cs2); auto.
      + destruct (short_vs_full k1 (Value v1) cs2); auto. apply vkey_nonempty; auto.
    - (* extension *)
      inversion Hn2 as [k2 v2 Hk2 | k2 cs2 Hne2 Hnb2 Hfull2 | cs2 Hlen2 Hch2 H162 Htwo2]; subst.
      + destruct (leaf_vs_ext k2 v2 k1 cs1); auto. intros; symmetry; auto.
      + destruct (ext_key_prefix k1 cs1 k2 (Full cs2) Hfull1 Hnb1 Heq) as [t1 E1].
        destruct (ext_key_prefix k2 cs2 k1 (Full cs1) Hfull2 Hnb2 (fun k Hk => eq_sym (Heq k Hk))) as [t2 E2].
        assert (T2 : t2 = []).
        { apply (f_equal (@length nat)) in E1 as L1. apply (f_equal (@length nat)) in E2 as L2.
          rewrite app_length in L1, L2. destruct t2; auto. cbn in *; lia. }
        subst t2. rewrite app_nil_r in E2. subst k2. f_equal. apply IH; auto.
        intros r Kr. pose proof (Heq (k1 ++ r) (vkey_app _ _ Hnb1 Kr)) as E.
        rewrite !lookup_short_app in E; auto.
      + destruct (short_vs_full k1 (Full cs1) cs2); auto.
    - (* full *)
      assert (Hn1 : wf (Full cs1)) by (constructor; auto).
      inversion Hn2 as [k2 v2 Hk2 | k2 cs2 Hne2 Hnb2 Hfull2 | cs2 Hlen2 Hch2 H162 Htwo2]; subst.
      + destruct (short_vs_full k2 (Value v2) cs1); auto; [apply vkey_nonempty; auto|intros; symmetry; auto].
      + destruct (short_vs_full k2 (Full cs2) cs1); auto. intros; symmetry; auto.
      + f_equal. apply children_ext; [congruence|]. intros i.
        destruct (Nat.lt_ge_cases i 16) as [Li|Li].
        * assert (E : forall r, vkey r -> lookup (child cs1 i) r = lookup (child cs2 i) r).
          { intros r Kr. pose proof (Heq (i :: r) (vk_cons _ _ Li Kr)) as E. rewrite !lookup_full in E; auto. }
          destruct (wf_full_child _ _ _ Hn1 Li) as [Q1|W1], (wf_full_child _ _ _ Hn2 Li) as [Q2|W2].
          -- congruence.
          -- rewrite Q1 in *. symmetry. apply wfc_empty; [right; auto|]. intros; rewrite <- E; auto.
          -- rewrite Q2 in *. apply wfc_empty; [right; auto|]. intros; rewrite E; auto.
          -- apply IH; auto. apply wf_not_nil; auto.
        * destruct (Nat.eq_dec i 16) as [->|Ni].
          -- pose proof (Heq [16] vk_end) as E. rewrite !lookup_full in E.
             destruct H161 as [Q1|[w1 Q1]], H162 as [Q2|[w2 Q2]]; rewrite Q1, Q2 in *; cbn in E; congruence.
          -- rewrite !child_beyond by lia. reflexivity.
  Qed.

  Corollary canonical_root t1 t2 : wfc t1 -> wfc t2 ->
    (forall k, vkey k -> lookup t1 k = lookup t2 k) -> t1 = t2.
  Proof.
    intros [->|H1] [->|H2] Heq; auto.
    - symmetry. apply wfc_empty; [right; auto|]. intros; rewrite <- Heq; auto.
    - apply wfc_empty; [right; auto|]. intros; rewrite Heq; auto.
    - apply canonical; auto.
  Qed.
End CANON.
