(* Codec/ProofsNorm.v — normalisation (0xc0 -> 0x80 in rlp:"nil" positions) preserves well-formedness and encoded
   length; hence the re-encoding of a decoded object equals the input IFF no nil position held 0xc0. *)
From Coq Require Import List NArith ZArith Bool Lia.
From Coq Require Import ZifyN ZifyNat ZifyBool.
From Verif Require Import Codec.Model Codec.ProofsRLP Codec.ProofsComb Codec.ProofsObjects Codec.ProofsTop.
Import ListNotations.
Open Scope N_scope.

(* n is a length-preserving normaliser of codec c *)
Definition lp {A} (c : codec A) (n : A -> A) : Prop :=
  forall x, wfp c x -> wfp c (n x) /\ lenN (enc c (n x)) = lenN (enc c x).

Definition nid {A} (x : A) : A := x.
Definition npair {A B} (na : A -> A) (nb : B -> B) (p : A * B) : A * B := (na (fst p), nb (snd p)).
Lemma lp_id {A} (c : codec A) : lp c nid.
Proof. intros x W. split; [exact W|reflexivity]. Qed.
Lemma lp_pair {A B} (ca : codec A) (cb : codec B) na nb :
  lp ca na -> lp cb nb -> lp (cpair ca cb) (npair na nb).
Proof.
  intros Ha Hb [x y] [Wx Wy]. unfold npair. cbn [wfp enc cpair fst snd] in *. destruct (Ha x Wx) as [W1 L1]. destruct (Hb y Wy) as [W2 L2].
  split; [tauto|]. rewrite !lenN_app. lia.
Qed.
Lemma lp_wrap {A} (c : codec A) n : lp c n -> lp (cwrap c) n.
Proof.
  intros H x [W Hl]. cbn [wfp enc cwrap] in *. destruct (H x W) as [W1 L1]. split.
  - split; [exact W1|]. rewrite L1. exact Hl.
  - unfold enc_list. rewrite !lenN_app, L1. reflexivity.
Qed.
Lemma lp_concat {A} (c : codec A) n l : lp c n -> Forall (wfp c) l ->
  Forall (wfp c) (map n l) /\ lenN (concat (map (enc c) (map n l))) = lenN (concat (map (enc c) l)).
Proof.
  intros H. induction l as [|x l IH]; intros W; [split; [constructor|reflexivity]|].
  inversion W as [|? ? Wx Wl]; subst. destruct (IH Wl) as [W1 L1]. destruct (H x Wx) as [W2 L2]. cbn [map concat]. split.
  - constructor; assumption.
  - rewrite !lenN_app. lia.
Qed.
Lemma lp_slice {A} (c : codec A) n : lp c n -> lp (cslice c) (map n).
Proof.
  intros H l [W Hl]. cbn [wfp enc cslice] in *. destruct (lp_concat c n l H W) as [W1 L1]. split.
  - split; [exact W1|]. rewrite L1. exact Hl.
  - unfold enc_list. rewrite !lenN_app, L1. reflexivity.
Qed.
Lemma lp_pmap {A B} (f : A -> option B) (g : B -> A) (c : codec A) n n' :
  lp c n -> (forall y, wfp (cpmap f g c) y -> g (n' y) = n (g y) /\ f (n (g y)) = Some (n' y)) -> lp (cpmap f g c) n'.
Proof.
  intros H Hc y W. destruct (Hc y W) as [E1 E2]. destruct W as [W F]. cbn [wfp enc cpmap] in *. destruct (H _ W) as [W1 L1].
  rewrite E1. split; [split; [exact W1|exact E2]|exact L1].
Qed.

Lemma lp_nil n : lp (c_nilable n) norm_nil.
Proof. intros [| |a] W; cbn in *; split; try exact I; try reflexivity; exact W. Qed.

Lemma lp_clause : lp c_clause norm_clause.
Proof.
  unfold c_clause, cmap.
  apply (lp_pmap _ _ _ (npair norm_nil (npair nid nid))).
  - apply lp_wrap. apply lp_pair; [apply lp_nil|]. apply lp_pair; apply lp_id.
  - intros y _. split; reflexivity.
Qed.
Lemma lp_clauses : lp c_clauses (map norm_clause).
Proof.
  intros l [W Hl]. destruct (lp_slice c_clause norm_clause lp_clause l W) as [W1 L1]. cbn [wfp enc c_clauses] in *.
  split; [split; [exact W1|]|exact L1]. unfold lenN in *. rewrite map_length. exact Hl.
Qed.

(* the field tuples are normalised position by position: the clauses and DependsOn hold the nil positions *)
Definition norm_legacy_tuple : N * (N * (N * (list clause * (N * (N * (nilable * (N * (reserved * bytes)))))))) -> _ :=
  npair nid (npair nid (npair nid (npair (map norm_clause) (npair nid (npair nid (npair norm_nil (npair nid (npair nid nid)))))))).
Definition norm_dyn_tuple : N * (N * (N * (list clause * (N * (N * (N * (nilable * (N * (reserved * bytes))))))))) -> _ :=
  npair nid (npair nid (npair nid (npair (map norm_clause) (npair nid (npair nid (npair nid (npair norm_nil (npair nid (npair nid nid))))))))).

Lemma lp_legacy : lp c_legacy norm_tx.
Proof.
  unfold c_legacy, cmap. apply (lp_pmap _ _ _ norm_legacy_tuple).
  - apply lp_wrap. unfold legacy_fields, norm_legacy_tuple.
    repeat (apply lp_pair; [first [apply lp_id|apply lp_clauses|apply lp_nil]|]). apply lp_id.
  - intros t [_ H]. destruct t as [dy ct br ex cl gpc pr fe gas dep no res sg]. cbn in H. inversion H; subst.
    split; reflexivity.
Qed.
Lemma lp_dyn : lp c_dyn norm_tx.
Proof.
  unfold c_dyn, cmap. apply (lp_pmap _ _ _ norm_dyn_tuple).
  - apply lp_wrap. unfold dyn_fields, norm_dyn_tuple.
    repeat (apply lp_pair; [first [apply lp_id|apply lp_clauses|apply lp_nil]|]). apply lp_id.
  - intros t [_ H]. destruct t as [dy ct br ex cl gpc pr fe gas dep no res sg]. cbn in H. inversion H; subst.
    split; reflexivity.
Qed.

Lemma norm_tx_dyn t : t_dyn (norm_tx t) = t_dyn t.
Proof. reflexivity. Qed.

Lemma enc_str_len_cons (a b : bytes) x : lenN a = lenN b -> a <> [] -> b <> [] -> lenN (enc_str (x :: a)) = lenN (enc_str (x :: b)).
Proof.
  intros H Ha Hb. rewrite !enc_str_high by (apply typed_str_shape; assumption). cbn [enc_head].
  rewrite !lenN_app, !(lenN_cons x), H. reflexivity.
Qed.

Lemma lp_tx : lp c_tx norm_tx.
Proof.
  intros t. cbn [wfp enc c_tx]. rewrite norm_tx_dyn. destruct (t_dyn t).
  - intros [W Hl]. destruct (lp_dyn t W) as [W1 L1]. split; [split; [exact W1|rewrite L1; exact Hl]|].
    apply enc_str_len_cons; [exact L1|apply c_dyn_nonempty; exact W1|apply c_dyn_nonempty; exact W].
  - intros W. exact (lp_legacy t W).
Qed.
Lemma lp_block : lp c_block norm_block.
Proof.
  unfold c_block, cmap. apply (lp_pmap _ _ _ (npair nid (map norm_tx))).
  - apply lp_wrap. apply lp_pair; [apply lp_id|apply lp_slice, lp_tx].
  - intros [h txs] _. split; reflexivity.
Qed.

Theorem tx_decode_canonical_iff_l b t : go_decode_tx b = Some t -> (go_reencode_tx t = b <-> tx_has_nil_list t = false).
Proof.
  intros H. split.
  - intros E. apply tx_decode_sound_l in H. destruct H as [-> W]. unfold go_reencode_tx in E.
    apply norm_tx_iff. apply (codec_inj c_tx _ _ c_tx_ok); [apply lp_tx; exact W|exact W|exact E].
  - intros Hq. exact (proj1 (tx_decode_canonical_except_l b t H Hq)).
Qed.
Theorem block_decode_canonical_iff_l bs b : go_decode_block bs = Some b -> (go_reencode_block b = bs <-> block_has_nil_list b = false).
Proof.
  intros H. split.
  - intros E. apply (dec_exact_sound _ _ _ (proj1 c_block_ok)) in H. destruct H as [-> W]. unfold go_reencode_block in E.
    apply norm_block_iff. apply (codec_inj c_block _ _ c_block_ok); [apply lp_block; exact W|exact W|exact E].
  - intros Hq. exact (proj1 (block_decode_canonical_except_l bs b H Hq)).
Qed.
Theorem tx_unmarshal_canonical_iff_l b t : tx_unmarshal b = Some t -> (go_marshal_tx t = b <-> tx_has_nil_list t = false).
Proof.
  intros H. apply tx_unmarshal_sound_l in H. destruct H as [-> W]. unfold go_marshal_tx, tx_marshal. rewrite norm_tx_dyn. split.
  - intros E. apply norm_tx_iff. destruct (t_dyn t).
    + inversion E as [E1]. apply (codec_inj c_dyn _ _ c_dyn_ok); [apply lp_dyn; exact W|exact W|exact E1].
    + apply (codec_inj c_legacy _ _ c_legacy_ok); [apply lp_legacy; exact W|exact W|exact E].
  - intros Hq. rewrite (proj2 (norm_tx_iff t) Hq). reflexivity.
Qed.
(* the length never changes: Size() computed from the input equals the length of the canonical encoding, F2 or not *)
Theorem tx_reencode_length_l b t : go_decode_tx b = Some t -> lenN (go_reencode_tx t) = lenN b /\ lenN (go_marshal_tx t) = lenN (tx_marshal t).
Proof.
  intros H. apply tx_decode_sound_l in H. destruct H as [-> W]. split; [exact (proj2 (lp_tx t W))|].
  unfold go_marshal_tx, tx_marshal. rewrite norm_tx_dyn. cbn [wfp c_tx] in W. destruct (t_dyn t).
  - destruct W as [W _]. rewrite !lenN_cons, (proj2 (lp_dyn t W)). reflexivity.
  - exact (proj2 (lp_legacy t W)).
Qed.
Theorem block_reencode_length_l bs b : go_decode_block bs = Some b -> lenN (go_reencode_block b) = lenN bs.
Proof. intros H. apply (dec_exact_sound _ _ _ (proj1 c_block_ok)) in H. destruct H as [-> W]. exact (proj2 (lp_block b W)). Qed.
