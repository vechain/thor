(* Trie/DeriveRoot.v — trie.DeriveRoot commits to the ordered list (used by C11: txs root / receipts root).
   DeriveRoot inserts item i under key(i) = rlp(i) into an empty trie.  If the key function is injective and its
   images are terminated hex keys (any byte string is, see key_of_bytes), the resulting tree determines the list:
   equal trees (equal roots, for a collision-free hash of the tree) come from equal lists.
   Items are the non-empty encodings EncodeIndex(i) (Update with an empty value would delete). *)
From Coq Require Import List Arith NArith Bool Lia.
From Verif Require Import Trie.Model Trie.Keys Trie.ProofsWf Trie.ProofsMap Trie.ProofsCanon Trie.Theorems.
Import ListNotations.

Section Derive.
  Variable V : Type.
  Variable veqb : V -> V -> bool.
  Hypothesis veqb_sound : forall a b, veqb a b = true -> a = b.
  Variable keyf : nat -> list nat.                      (* index -> hex key of rlp(index), terminated *)
  Hypothesis keyf_valid : forall i, vkey (keyf i).
  Hypothesis keyf_inj : forall i j, keyf i = keyf j -> i = j.

  Fixpoint derive_from (i : nat) (items : list V) (t : node V) : node V :=
    match items with
    | [] => t
    | x :: r => derive_from (S i) r (trie_insert V veqb t (keyf i) x)
    end.
  Definition derive_root (items : list V) : node V := derive_from 0 items Nil.

  Lemma derive_from_wf items : forall i t, wfc V t -> wfc V (derive_from i items t).
  Proof. induction items; cbn; intros; auto. apply IHitems. apply insert_wf_root; auto. Qed.

  (* items i, i+1, .. answer at their own keys; every other key reads the trie the derivation started from *)
  Lemma derive_from_get items : forall i t j, wfc V t ->
    trie_get V (derive_from i items t) (keyf j) =
    match (if i <=? j then nth_error items (j - i) else None) with
    | Some x => Some x
    | None => trie_get V t (keyf j)
    end.
  Proof.
    induction items as [|x r IH]; cbn [derive_from]; intros i t j Ht.
    - destruct (i <=? j); [destruct (j - i)|]; reflexivity.
    - rewrite IH by (apply insert_wf_root; auto).
      rewrite (get_insert V veqb veqb_sound) by auto.
      destruct (Nat.eq_dec i j) as [->|N].
      + replace (S j <=? j) with false by (symmetry; apply Nat.leb_gt; lia).
        rewrite Nat.leb_refl, Nat.sub_diag. cbn [nth_error]. destruct (vkey_eq_dec (keyf j) (keyf j)); congruence.
      + destruct (vkey_eq_dec (keyf i) (keyf j)) as [E|_]; [apply keyf_inj in E; congruence|].
        destruct (S i <=? j) eqn:A.
        * apply Nat.leb_le in A. replace (i <=? j) with true by (symmetry; apply Nat.leb_le; lia).
          replace (j - i) with (S (j - S i)) by lia. reflexivity.
        * apply Nat.leb_gt in A. replace (i <=? j) with false by (symmetry; apply Nat.leb_gt; lia). reflexivity.
  Qed.

  Lemma derive_root_get items j : trie_get V (derive_root items) (keyf j) = nth_error items j.
  Proof.
    unfold derive_root. rewrite derive_from_get by (left; reflexivity).
    cbn [Nat.leb]. rewrite Nat.sub_0_r. destruct (nth_error items j); reflexivity.
  Qed.

  Lemma nth_error_ext {A} (l1 l2 : list A) : (forall j, nth_error l1 j = nth_error l2 j) -> l1 = l2.
  Proof.
    revert l2; induction l1 as [|x l1 IH]; destruct l2 as [|y l2]; intros H; auto.
    - specialize (H 0); discriminate.
    - specialize (H 0); discriminate.
    - f_equal. { specialize (H 0); cbn in H; congruence. } apply IH. intros j. apply (H (S j)).
  Qed.

  (* the derived tree (hence its root) commits to the ordered list *)
  Theorem derive_root_injective items1 items2 : derive_root items1 = derive_root items2 -> items1 = items2.
  Proof.
    intros E. apply nth_error_ext. intros j. rewrite <- !derive_root_get. rewrite E. reflexivity.
  Qed.

  (* and it is well formed, so it is THE canonical trie of {key(i) -> item i} *)
  Theorem derive_root_wf items : wfc V (derive_root items).
  Proof. apply derive_from_wf. left; reflexivity. Qed.
End Derive.

Definition nibbles_of_byte (b : N) : list nat := [N.to_nat (b / 16); N.to_nat (b mod 16)].
(* encoding.go keybytesToHex *)
Definition key_of_bytes (bs : list N) : list nat := terminate (flat_map nibbles_of_byte bs).

Definition is_bytes (bs : list N) : Prop := Forall (fun b => (b < 256)%N) bs.

Lemma key_of_bytes_valid bs : is_bytes bs -> vkey (key_of_bytes bs).
Proof.
  intros H. apply vkey_terminate. induction H; cbn; [constructor|].
  constructor; [|constructor; auto].
  - assert ((x / 16 < 16)%N) by (apply N.div_lt_upper_bound; lia). lia.
  - assert ((x mod 16 < 16)%N) by (apply N.mod_lt; lia). lia.
Qed.

Lemma key_of_bytes_inj a : forall b, is_bytes a -> is_bytes b -> key_of_bytes a = key_of_bytes b -> a = b.
Proof.
  unfold key_of_bytes, terminate.
  induction a as [|x a IH]; intros b Ha Hb E.
  - destruct b as [|y b]; auto. cbn in E. inversion Hb; subst.
    assert ((y / 16 < 16)%N) by (apply N.div_lt_upper_bound; lia). injection E as E _. lia.
  - destruct b as [|y b]; cbn in E.
    + inversion Ha; subst. assert ((x / 16 < 16)%N) by (apply N.div_lt_upper_bound; lia). injection E as E _. lia.
    + inversion Ha; inversion Hb; subst. injection E as E1 E2 E3.
      f_equal; [|apply IH; auto].
      apply N2Nat.inj in E1. apply N2Nat.inj in E2.
      rewrite (N.div_mod x 16), (N.div_mod y 16) by lia. congruence.
Qed.

(* DeriveRoot with byte keys: any injective index encoding into byte strings (rlp(i) in particular) *)
Theorem derive_root_injective_bytes (V : Type) (veqb : V -> V -> bool)
  (veqb_sound : forall a b, veqb a b = true -> a = b)
  (keyb : nat -> list N)
  (keyb_bytes : forall i, is_bytes (keyb i))
  (keyb_inj : forall i j, keyb i = keyb j -> i = j)
  (items1 items2 : list V) :
  derive_root V veqb (fun i => key_of_bytes (keyb i)) items1 = derive_root V veqb (fun i => key_of_bytes (keyb i)) items2 ->
  items1 = items2.
Proof.
  apply (derive_root_injective V veqb veqb_sound (fun i => key_of_bytes (keyb i))).
  - intros i. apply key_of_bytes_valid; auto.
  - intros i j E. apply keyb_inj. apply key_of_bytes_inj in E; auto.
Qed.
