(* Store/ExamplesWork.v — a concrete history of the account trie (name 0) given ONLY by lists of handle operations
   (Trie.Get / Trie.Update on hex keys) per block: four blocks, a pruner round [0,2) checkpointing block 1, and a fifth
   block whose operations run on the pruned store (its handle loads nodes from the deduped space).  Non-vacuity witness
   of OpsHistory and of the theorems of Store/ProofsWork.v; the working tries, their flags and what hasher.store writes
   are all computed by the transcriptions (WorkTrie.v w_get / w_insert / w_delete, Model.v wstore).
   Second half: the same first two blocks through block_from with the node tree each commit returns kept as the next
   handle (muxdb's root-node cache), as a witness of OpsHistoryC. *)
From Coq Require Import List NArith Bool Arith Lia.
From Verif Require Import Trie.Model Trie.Keys Trie.ProofsWf Trie.Theorems
  Store.Model Store.Proofs Store.ProofsCommit Store.ProofsReach Store.ProofsPrune Store.ProofsLink
  Store.ExamplesPrune Store.WorkTrie Store.ProofsWork Store.ProofsDirty.
Import ListNotations.

Definition bigF : wnode nat -> bool := fun _ => false.       (* no full node below the root has a hash: all embedded *)

Definition ka : list nat := [1; 1; 16]%nat.
Definition kb : list nat := [1; 2; 16]%nat.
Definition kc : list nat := [3; 16]%nat.
Definition kd : list nat := [1; 3; 16]%nat.
Definition ke : list nat := [3; 4; 16]%nat.
Definition kf : list nat := [5; 1; 16]%nat.          (* a subtree written by block 0 and not touched before block 4 *)
Definition kg : list nat := [5; 2; 16]%nat.

Definition yops0 : list (hop nat) :=
  [HUpd ka (Some 10%nat); HUpd kb (Some 20%nat); HUpd kc (Some 1%nat); HUpd kf (Some 7%nat); HUpd kg (Some 8%nat)].
Definition yops1 : list (hop nat) := [HGet ka; HUpd kc (Some 2%nat); HUpd kc (Some 2%nat)].          (* the second update is a no-op *)
Definition yops2 : list (hop nat) := [HUpd ka None; HUpd kd (Some 30%nat); HGet kc].                 (* a delete below the branch *)
Definition yops3 : list (hop nat) := [HUpd kc None; HUpd ke (Some 5%nat); HGet kb].                  (* collapses / splits at the root *)
Definition yops4 : list (hop nat) := [HGet kf; HUpd kg None; HUpd ka (Some 11%nat)].                 (* on the pruned store *)

Definition ys0 : store nat := mkStore nat [] [] 2%N None.

Definition yc0 : list (ver * node nat) := [].
Definition yt0 := lrun Nat.eqb yops0 (head_trie nat yc0).
Definition ys1 := commit_ops nat Nat.eqb ys0 0 yc0 v0 bigT false yops0.
Definition yc1 := (v0, yt0) :: yc0.
Definition yt1 := lrun Nat.eqb yops1 (head_trie nat yc1).
Definition ys2 := commit_ops nat Nat.eqb ys1 0 yc1 v1 bigF false yops1.
Definition yc2 := (v1, yt1) :: yc1.
Definition yt2 := lrun Nat.eqb yops2 (head_trie nat yc2).
Definition ys3 := commit_ops nat Nat.eqb ys2 0 yc2 v2 bigT false yops2.
Definition yc3 := (v2, yt2) :: yc2.
Definition yt3 := lrun Nat.eqb yops3 (head_trie nat yc3).
Definition ys4 := commit_ops nat Nat.eqb ys3 0 yc3 v3 bigF false yops3.
Definition yc4 := (v3, yt3) :: yc3.

Definition ynodes : list (list nat * ver * snode nat) :=
  Eval vm_compute in match checkpoint_nodes nat 12 ys4 0 v1 0 with Some l => l | None => [] end.
Definition ycps : list (N * list (list nat * ver * snode nat)) := [(0%N, ynodes)].
Definition ys5 := prune nat ys4 ycps 0 2.
Definition yc5 := [(v3, yt3); (v2, yt2)].
Definition yt4 := lrun Nat.eqb yops4 (head_trie nat yc5).
Definition ys6 := commit_ops nat Nat.eqb ys5 0 yc5 v4 bigT false yops4.
Definition yc6 := (v4, yt4) :: yc5.

Lemma nat_eqb_sound : forall a b : nat, Nat.eqb a b = true -> a = b.
Proof. intros a b. apply Nat.eqb_eq. Qed.

Ltac valid_tac := unfold hop_valid; cbn; repeat (constructor; try lia).

(* one block of operations on a concrete store: freshness, version order, valid keys, a non-empty result *)
Ltac block_tac s c P v big ops H :=
  apply (OH_block nat Nat.eqb 0 s c P v big false ops H);
  [ fresh_tac | cbn; lia | first [exact I|cbn; lia] | valid_tac | vm_compute; discriminate ].

Lemma yH1 : OpsHistory nat Nat.eqb 0 ys1 yc1 0.
Proof.
  block_tac ys0 yc0 0%N v0 bigT yops0 (OH_init nat Nat.eqb 0 ys0 0%N eq_refl).
Qed.

Lemma yH2 : OpsHistory nat Nat.eqb 0 ys2 yc2 0.
Proof.
  block_tac ys1 yc1 0%N v1 bigF yops1 yH1.
Qed.

Lemma yH3 : OpsHistory nat Nat.eqb 0 ys3 yc3 0.
Proof.
  block_tac ys2 yc2 0%N v2 bigT yops2 yH2.
Qed.

Lemma yH4 : OpsHistory nat Nat.eqb 0 ys4 yc4 0.
Proof.
  block_tac ys3 yc3 0%N v3 bigF yops3 yH3.
Qed.

(* the round [0,2): blocks 2 and 3 stay live *)
Lemma yH5 : OpsHistory nat Nat.eqb 0 ys5 yc5 2.
Proof.
  round_tac (OH_prune nat Nat.eqb 0 ys4 [(v3, yt3); (v2, yt2)] (v1, yt1) [(v0, yt0)] 0%N 0%N 2%N ycps 12 ynodes). exact yH4.
Qed.

(* block 4: its operations run on the pruned store *)
Lemma yH6 : OpsHistory nat Nat.eqb 0 ys6 yc6 2.
Proof.
  block_tac ys5 yc5 2%N v4 bigT yops4 yH5.
Qed.

(* what was computed: the tries, what the commits wrote, what the handle of block 4 loaded *)
Example y_tries :
  trie_get nat yt0 ka = Some 10%nat /\ trie_get nat yt1 kc = Some 2%nat /\
  trie_get nat yt2 ka = None /\ trie_get nat yt2 kd = Some 30%nat /\ trie_get nat yt3 kc = None /\ trie_get nat yt3 ke = Some 5%nat /\
  trie_get nat yt4 ka = Some 11%nat /\ trie_get nat yt4 kg = None /\ trie_get nat yt4 kf = Some 7%nat.
Proof. repeat split; vm_compute; reflexivity. Qed.

(* hist keys written per block: block 0 writes the root and both branches (every full node stored); block 1 only the root
   (the branches are referenced); block 2 the root and the rewritten branch *)
Example y_written :
  map (fun e => (snd (fst (fst e)), snd (fst e))) (hist nat ys3) =
  [([], v2); ([1%nat], v2); ([], v1); ([], v0); ([1%nat], v0); ([5%nat], v0)].
Proof. vm_compute. reflexivity. Qed.

Example y_reads_after :
  open_root nat 12 ys6 0 v4 = Some yt4 /\ open_root nat 12 ys6 0 v3 = Some yt3 /\ open_root nat 12 ys6 0 v2 = Some yt2 /\
  open_root nat 12 ys6 0 v1 = None.
Proof. repeat split; vm_compute; reflexivity. Qed.

(* the handle of block 4: its operations load the branch at path [5] written by block 0, which after the round only the
   deduped space holds, and collapse it (the delete leaves one leaf, which is embedded in the new root) *)
Example y_handle4_loaded :
  hist_find nat (hist nat ys5) 0 [5%nat] v0 = None /\ sget nat ys5 0 [5%nat] v0 <> None /\
  (exists w, wt_run nat Nat.eqb (sget nat ys5 0) yops4 (head_handle nat yc5) = Some w /\ w <> WNil).
Proof.
  split; [vm_compute; reflexivity|split; [vm_compute; discriminate|]].
  eexists. split; [vm_compute; reflexivity|discriminate].
Qed.

(* two different operation lists with the same content give the same tree *)
Definition yopsA : list (hop nat) := [HUpd ka (Some 1%nat); HUpd kb (Some 2%nat)].
Definition yopsB : list (hop nat) := [HUpd kb (Some 2%nat); HUpd kc (Some 9%nat); HUpd ka (Some 5%nat); HUpd kc None; HUpd ka (Some 1%nat)].
Example y_same_tree : lrun Nat.eqb yopsA Nil = lrun Nat.eqb yopsB Nil.
Proof. vm_compute. reflexivity. Qed.

(* a client that keeps the node tree its commit returned (muxdb's root-node cache) instead of re-opening a reference:
   blocks 0 and 1 again through block_from; the stores are the same as with reference handles *)
Definition ykept0 := block_from nat Nat.eqb ys0 0 WNil v0 bigT false yops0.
Definition ykept1 :=
  match ykept0 with
  | Some (w, s) => block_from nat Nat.eqb s 0 w v1 bigF false yops1
  | None => None
  end.
Example y_kept_handle_same_stores :
  (match ykept0 with Some (_, s) => s = ys1 | None => False end) /\
  (match ykept1 with Some (w, s) => s = ys2 /\ enc_child nat w = SRef v1 | None => False end).
Proof. split; vm_compute; auto. Qed.

(* a delete that reports `true` on a handle opened as a reference: the result is dirty along the key *)
Example y_delete_dirty :
  exists w', w_delete nat (sget nat ys2 0) 4 (WRef v1) [] ka = Some (true, w') /\ Spine nat w' ka.
Proof.
  eexists. split; [vm_compute; reflexivity|].
  eapply (delete_spine nat (sget nat ys2 0) 4 (WRef v1) [] ka). vm_compute. reflexivity.
Qed.
(* and one that reports `false` (the key is absent): the root reference is replaced by the clean node it resolved to *)
Example y_delete_clean :
  exists w', w_delete nat (sget nat ys2 0) 4 (WRef v1) [] kd = Some (false, w') /\
             w_resolve_ref nat (sget nat ys2 0) [] v1 = Some w' /\ dirty_paths nat [] w' = [].
Proof. eexists. split; [vm_compute; reflexivity|split; vm_compute; reflexivity]. Qed.

(* the same two blocks as a history with the root-node cache: block 0 from the empty trie leaves its tree, block 1 starts
   from it; then a commit of another trie (name 7), which leaves the kept tree in place, and block 2 from the kept tree *)
Definition ykw1 : wnode nat := Eval vm_compute in match ykept0 with Some (w, _) => w | None => WNil end.
Definition ykw2 : wnode nat := Eval vm_compute in match ykept1 with Some (w, _) => w | None => WNil end.
Definition ys2' : store nat := commit nat ys2 7 (9, 9)%N [([], SShort [16%nat] (SValue 1%nat))].
Definition ykept2 := block_from nat Nat.eqb ys2' 0 ykw2 v2 bigT false yops2.
Definition ykw3 : wnode nat := Eval vm_compute in match ykept2 with Some (w, _) => w | None => WNil end.
Definition ys3' : store nat := Eval vm_compute in match ykept2 with Some (_, s) => s | None => ys2' end.

(* one block of OpsHistoryC c, leaving the history before it and where the start handle comes from *)
Ltac cblock_tac c :=
  apply c; [ | | fresh_tac | cbn; lia | first [exact I|cbn; lia] | valid_tac | vm_compute; discriminate | vm_compute; reflexivity ].

Lemma yC2 : OpsHistoryC nat Nat.eqb 0 ys2 yc2 0 (Some ykw2).
Proof.
  cblock_tac (OC_block nat Nat.eqb 0 ys1 yc1 0%N (Some ykw1) v1 bigF false yops1 ykw1 ykw2 ys2); [|right; reflexivity].
  cblock_tac (OC_block nat Nat.eqb 0 ys0 yc0 0%N None v0 bigT false yops0 WNil ykw1 ys1); [|left; reflexivity].
  apply OC_init. reflexivity.
Qed.

Lemma yC3 : OpsHistoryC nat Nat.eqb 0 ys3' yc3 0 (Some ykw3).
Proof.
  cblock_tac (OC_block nat Nat.eqb 0 ys2' yc2 0%N (Some ykw2) v2 bigT false yops2 ykw2 ykw3 ys3'); [|right; reflexivity].
  apply OC_other; [exact yC2|left; discriminate].
Qed.

Example y_cache_reads : open_root nat 12 ys3' 0 v2 = Some yt2 /\ open_root nat 12 ys3' 0 v1 = Some yt1 /\ ykw2 <> WRef v1.
Proof. repeat split; try (vm_compute; reflexivity). discriminate. Qed.
