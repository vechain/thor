(* Chain/ProofsHeads.v — the heads store holds exactly the branch tips (stored blocks without stored children);
   ScanHeads(from) lists the tips at heights >= from; GetConflicts(n) lists the stored blocks of height n (C14). *)
From Coq Require Import List NArith Bool Lia ZifyN ZifyNat ZifyBool.
From Verif Require Import Chain.Model Chain.Proofs Chain.ProofsWalk Chain.ProofsSys.
Import ListNotations.
Open Scope N_scope.

Lemma insert_asc_in x l y : In y (insert_asc x l) <-> y = x \/ In y l.
Proof.
  induction l as [|h t IH]; cbn [insert_asc In]; [intuition congruence|].
  destruct (N.eqb_spec x h) as [->|]; [cbn [In]; intuition congruence|].
  destruct (x <? h); cbn [In]; [intuition congruence|]. rewrite IH. intuition congruence.
Qed.

Definition is_tip (r : repo) (h : N) : Prop :=
  stored r h /\ forall c s, get_summary r c = Some s -> c <> r_gen r -> s_parent s <> h.

Definition heads_ok (r : repo) : Prop := forall h, In h (r_heads r) <-> is_tip r h.

Lemma heads_ok_init g gp tag : heads_ok (init_repo g gp tag).
Proof.
  intros h. cbn [r_heads init_repo In]. unfold is_tip, stored, get_summary. cbn [r_sums init_repo afind r_gen]. split.
  - intros [<-|[]]. rewrite N.eqb_refl. split; [eauto|]. intros c s. destruct (N.eqb_spec g c); [intros _ Hc; congruence | discriminate].
  - intros [[s Hs] _]. destruct (N.eqb_spec g h); [auto | discriminate].
Qed.

Lemma heads_ok_add g gp r r' b conf best :
  wf g gp r -> num_of gp = max_u32 -> heads_ok r -> valid_add r b conf -> add_block r b conf best = Some r' -> heads_ok r'.
Proof.
  intros W Hgp HO V A h.
  destruct (add_parent _ _ _ _ _ A) as [ps [Hps Er']].
  assert (Eh : r_heads r' = insert_asc (b_id b) (filter (fun x => negb (x =? b_parent b)) (r_heads r))) by (rewrite Er'; reflexivity).
  pose proof (add_gen r r' b conf best A) as Eg.
  assert (Fresh : ~ stored r (b_id b)) by (apply (add_new_not_stored r b conf V)).
  rewrite Eh, insert_asc_in, filter_In, negb_true_iff, N.eqb_neq, (HO h). unfold is_tip, stored. rewrite Eg.
  split.
  - intros [->|[[[s Hs] Hc] Hne]].
    + split; [rewrite (add_summary _ _ _ _ _ A), N.eqb_refl; eauto|].
      intros c s. rewrite (add_summary _ _ _ _ _ A). destruct (N.eqb_spec (b_id b) c) as [E|NE].
      * intros E' _. injection E' as <-. cbn [s_parent]. intros E2. apply Fresh. rewrite <- E2. exists ps. exact Hps.
      * intros Hs Hg E2. apply Fresh. rewrite (w_gen _ _ _ W) in Hg. destruct (w_par _ _ _ W _ _ Hs Hg) as [pp [Hpp _]].
        rewrite <- E2. exists pp. exact Hpp.
    + split; [exists s; eapply add_summary_old; eauto|].
      intros c sc. rewrite (add_summary _ _ _ _ _ A). destruct (N.eqb_spec (b_id b) c) as [E|NE].
      * intros E' _. injection E' as <-. cbn [s_parent]. congruence.
      * apply Hc.
  - intros [[s Hs] Hc]. rewrite (add_summary _ _ _ _ _ A) in Hs. destruct (N.eqb_spec (b_id b) h) as [E|NE]; [left; congruence|].
    right. split; [split; [eauto|]|].
    + intros c sc Hsc Hg. apply (Hc c sc); [eapply add_summary_old; eauto | exact Hg].
    + intros E. apply (Hc (b_id b) (mkS (b_id b) (b_parent b) (map tx_id (b_txs b)) conf)).
      * rewrite (add_summary _ _ _ _ _ A), N.eqb_refl. reflexivity.
      * rewrite (w_gen _ _ _ W). apply (add_ne_g g gp r b conf W V).
      * cbn [s_parent]. congruence.
Qed.

Lemma reachable_heads_ok g gp tag adm r : num_of g = 0 -> num_of gp = max_u32 -> reachable g gp tag adm r -> heads_ok r.
Proof.
  intros Hg Hgp H. induction H.
  - apply heads_ok_init.
  - eapply heads_ok_add; eauto. eapply reachable_wf; eauto.
Qed.

Lemma scan_heads_spec r from h : heads_ok r -> (In h (scan_heads r from) <-> is_tip r h /\ from <= num_of h).
Proof. intros HO. unfold scan_heads. rewrite <- in_rev, filter_In, N.leb_le, (HO h). tauto. Qed.

Lemma get_conflicts_spec r n id : In id (get_conflicts r n) <-> stored r id /\ num_of id = n.
Proof.
  unfold get_conflicts, stored, get_summary.
  induction (r_sums r) as [|[k v] l IH]; cbn [filter map fold_right afind fst].
  - split; [intros [] | intros [[s Hs] _]; discriminate].
  - destruct (N.eqb_spec (num_of k) n) as [E|NE]; cbn [map fold_right].
    + rewrite insert_asc_in, IH. cbn [fst]. destruct (N.eqb_spec k id) as [->|Nk].
      * split; [intros _; split; [eauto | exact E] | intros _; left; reflexivity].
      * split; [intros [->|H]; [congruence | exact H] | intros H; right; exact H].
    + rewrite IH. destruct (N.eqb_spec k id) as [->|Nk]; [|tauto].
      split; [intros [_ H]; congruence | intros [_ H]; congruence].
Qed.
