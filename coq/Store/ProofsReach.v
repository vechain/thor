(* Store/ProofsReach.v — which stored nodes a resolution follows (Reach), independent of what they resolve to:
   transfer of a resolution between two stores that agree on the followed references, one node per path,
   the specification of the version-filtered iterator (Store/Model.v iter_nodes = trie/iterator.go with minVer),
   and two consequences for expand: a commit at a fresh version does not disturb resolvable roots, a cache that only
   holds what the store holds is invisible. *)
From Coq Require Import List NArith Bool Arith Lia.
From Verif Require Import Trie.Model Store.Model Store.Proofs Store.ProofsCommit.
Import ListNotations.

Section PR.
  Variable V : Type.
  Notation snode := (snode V).
  Notation node := (node V).
  Notation getter := (getter V).

  (* Reach g p n q w b: resolving the stored node n (sitting at path p) through g loads the standalone node (q, w),
     whose blob is b *)
  Inductive Reach (g : getter) : list nat -> snode -> list nat -> ver -> snode -> Prop :=
  | Reach_short p k c q w b : Reach g (p ++ k) c q w b -> Reach g p (SShort k c) q w b
  | Reach_full p cs i c q w b : nth_error cs i = Some c -> Reach g (p ++ [i]) c q w b -> Reach g p (SFull cs) q w b
  | Reach_here p w b : g p w = Some b -> Reach g p (SRef w) p w b
  | Reach_below p w b q w' b' : g p w = Some b -> Reach g p b q w' b' -> Reach g p (SRef w) q w' b'.

  Lemma Reach_get g p n q w b : Reach g p n q w b -> g q w = Some b.
  Proof. induction 1; auto. Qed.

  Lemma Reach_prefix g p n q w b : Reach g p n q w b -> exists r, q = p ++ r.
  Proof.
    induction 1.
    - destruct IHReach as [r ->]. exists (k ++ r). rewrite app_assoc. reflexivity.
    - destruct IHReach as [r ->]. exists ([i] ++ r). rewrite app_assoc. reflexivity.
    - exists []. rewrite app_nil_r. reflexivity.
    - auto.
  Qed.

  Lemma Reach_trans g p n q w b : Reach g p n q w b ->
    forall q1 w1 b1, Reach g q b q1 w1 b1 -> Reach g p n q1 w1 b1.
  Proof.
    induction 1; intros q1 w1 b1 H1.
    - apply Reach_short; auto.
    - eapply Reach_full; eauto.
    - eapply Reach_below; eauto.
    - eapply Reach_below; eauto.
  Qed.

  Lemma ResL_nth g p i cs cs' : ResL V g p i cs cs' ->
    forall j c, nth_error cs j = Some c -> exists c', Res V g (p ++ [i + j]%nat) c c'.
  Proof.
    induction 1; intros j c0 Hj.
    - destruct j; discriminate.
    - destruct j as [|j]; cbn in Hj.
      + inversion Hj; subst. rewrite Nat.add_0_r. eauto.
      + destruct (IHResL j c0 Hj) as [c1 Hc1]. exists c1. rewrite Nat.add_succ_r. exact Hc1.
  Qed.

  (* the node a followed reference loads resolves too *)
  Lemma Res_sub g p n q w b : Reach g p n q w b -> forall t, Res V g p n t -> exists t', Res V g q b t'.
  Proof.
    induction 1; intros t Ht.
    - inversion Ht; subst. eauto.
    - inversion Ht as [| | |p0 cs0 cs' HL|]; subst.
      destruct (ResL_nth g p 0 cs cs' HL i c H) as [c' Hc']. cbn in Hc'. eauto.
    - inversion Ht as [| | | |p0 v0 b0 t0 Hg Hr]; subst. rewrite H in Hg. inversion Hg; subst. eauto.
    - inversion Ht as [| | | |p0 v0 b0 t0 Hg Hr]; subst. rewrite H in Hg. inversion Hg; subst. eauto.
  Qed.

  (* a resolution all of whose followed references satisfy ok is a conditioned resolution *)
  Lemma Res_ResC (ok : list nat -> ver -> snode -> Prop) g : forall p n t, Res V g p n t ->
    (forall q w b, Reach g p n q w b -> ok q w b) -> ResC V ok g p n t.
  Proof.
    apply (Res_mut V g
      (fun p n t _ => (forall q w b, Reach g p n q w b -> ok q w b) -> ResC V ok g p n t)
      (fun p i cs cs' _ => (forall j c q w b, nth_error cs j = Some c -> Reach g (p ++ [i + j]%nat) c q w b -> ok q w b) ->
                           ResCL V ok g p i cs cs')).
    - intros; constructor.
    - intros; constructor.
    - intros p k c c' _ IH H. constructor. apply IH. intros q w b R. apply H. apply Reach_short; auto.
    - intros p cs cs' _ IH H. constructor. apply IH. intros j c q w b Hj R. apply H. eapply Reach_full; eauto.
    - intros p v b t Hg _ IH H. eapply ResC_ref; eauto.
      + apply H. apply Reach_here; auto.
      + apply IH. intros q w b0 R. apply H. eapply Reach_below; eauto.
    - intros; constructor.
    - intros p i c c' t t' _ IHc _ IHt H. constructor.
      + apply IHc. intros q w b R. apply (H 0%nat c q w b); [reflexivity|]. rewrite Nat.add_0_r. exact R.
      + apply IHt. intros j c0 q w b Hj R. apply (H (S j) c0 q w b); [exact Hj|]. rewrite Nat.add_succ_r. exact R.
  Qed.

  Lemma Reach_into g g' p n q w b : Reach g p n q w b ->
    (forall q0 w0 b0, Reach g p n q0 w0 b0 -> g' q0 w0 = Some b0) -> Reach g' p n q w b.
  Proof.
    induction 1; intros Hag.
    - apply Reach_short. apply IHReach. intros; apply Hag; apply Reach_short; auto.
    - eapply Reach_full; eauto. apply IHReach. intros; apply Hag; eapply Reach_full; eauto.
    - apply Reach_here. apply Hag. apply Reach_here; auto.
    - eapply Reach_below.
      + apply Hag. apply Reach_here; eauto.
      + apply IHReach. intros; apply Hag; eapply Reach_below; eauto.
  Qed.

  Lemma Reach_back g g' p n q w b : Reach g' p n q w b -> forall t, Res V g p n t ->
    (forall q0 w0 b0, Reach g p n q0 w0 b0 -> g' q0 w0 = Some b0) -> Reach g p n q w b.
  Proof.
    induction 1; intros t Ht Hag.
    - inversion Ht; subst. apply Reach_short. eapply IHReach; eauto. intros; apply Hag; apply Reach_short; auto.
    - inversion Ht as [| | |p0 cs0 cs' HL|]; subst.
      destruct (ResL_nth g p 0 cs cs' HL i c H) as [c' Hc']. cbn in Hc'.
      eapply Reach_full; eauto. eapply IHReach; eauto. intros; apply Hag; eapply Reach_full; eauto.
    - inversion Ht as [| | | |p0 v0 b0 t0 Hg Hr]; subst.
      assert (E : g' p w = Some b0) by (apply Hag; apply Reach_here; auto).
      rewrite H in E. inversion E; subst. apply Reach_here; auto.
    - inversion Ht as [| | | |p0 v0 b0 t0 Hg Hr]; subst.
      assert (E : g' p w = Some b0) by (apply Hag; apply Reach_here; auto).
      rewrite H in E. inversion E; subst. eapply Reach_below; eauto.
      eapply IHReach; eauto. intros; apply Hag; eapply Reach_below; eauto.
  Qed.

  (* the transfer principle: a root that resolves through g, and whose followed references g' answers identically,
     resolves to the same trie through g', follows the same references, and so does every node below *)
  Theorem resolution_transfer g g' p n t :
    Res V g p n t -> (forall q w b, Reach g p n q w b -> g' q w = Some b) ->
    Res V g' p n t /\
    (forall q w b, Reach g' p n q w b <-> Reach g p n q w b) /\
    (forall q w b q1 w1 b1, Reach g p n q w b -> (Reach g' q b q1 w1 b1 <-> Reach g q b q1 w1 b1)).
  Proof.
    intros HR Hag. split; [|split].
    - apply (ResC_transfer V (fun q w b => g' q w = Some b) g g'); [auto|].
      apply Res_ResC; auto.
    - intros q w b. split; intros R.
      + eapply Reach_back; eauto.
      + eapply Reach_into; eauto.
    - intros q w b q1 w1 b1 R.
      destruct (Res_sub g p n q w b R t HR) as [t' Ht'].
      assert (Hag' : forall q0 w0 b0, Reach g q b q0 w0 b0 -> g' q0 w0 = Some b0).
      { intros q0 w0 b0 R0. apply Hag. eapply Reach_trans; eauto. }
      split; intros R1.
      + eapply Reach_back; eauto.
      + eapply Reach_into; eauto.
  Qed.

  Fixpoint wfk (n : snode) : bool :=
    match n with
    | SShort k c => negb (is_root k) && wfk c
    | SFull cs => forallb wfk cs
    | _ => true
    end.
  Definition is_inner_s (n : snode) : Prop := match n with SShort _ _ | SFull _ => True | _ => False end.
  (* a stored blob: a short or full node, no empty key inside *)
  Definition blob_ok (b : snode) : Prop := is_inner_s b /\ wfk b = true.

  Lemma wfk_nth cs i c : forallb wfk cs = true -> nth_error cs i = Some c -> wfk c = true.
  Proof. intros H Hi. rewrite forallb_forall in H. apply H. eapply nth_error_In; eauto. Qed.

  Lemma Reach_longer g p n q w b : is_inner_s n -> wfk n = true -> Reach g p n q w b -> (length p < length q)%nat.
  Proof.
    intros Hi Hw R. destruct n; cbn in Hi; try contradiction.
    - inversion R as [p0 k0 c0 q0 w0 b0 R0| | |]; subst. destruct (Reach_prefix _ _ _ _ _ _ R0) as [r ->].
      cbn in Hw. apply andb_true_iff in Hw. destruct Hw as [Hk _]. destruct k; [discriminate|].
      rewrite !app_length. cbn. lia.
    - inversion R as [|p0 cs0 i c0 q0 w0 b0 Hn R0| |]; subst. destruct (Reach_prefix _ _ _ _ _ _ R0) as [r ->].
      rewrite !app_length. cbn. lia.
  Qed.

  Lemma Reach_functional g p n q w b : Reach g p n q w b ->
    (forall q0 w0 b0, Reach g p n q0 w0 b0 -> blob_ok b0) -> wfk n = true ->
    forall w' b', Reach g p n q w' b' -> w' = w /\ b' = b.
  Proof.
    induction 1; intros Hok Hw w2 b2 R2.
    - inversion R2; subst. cbn in Hw. apply andb_true_iff in Hw. destruct Hw as [_ Hw].
      apply IHReach; auto. intros; eapply Hok; apply Reach_short; eauto.
    - inversion R2 as [|p0 cs0 i0 c0 q0 w0 b0 Hn0 R0| |]; subst.
      destruct (Reach_prefix _ _ _ _ _ _ H0) as [r Er]. destruct (Reach_prefix _ _ _ _ _ _ R0) as [r0 Er0].
      rewrite Er in Er0. rewrite <- !app_assoc in Er0. apply app_inv_head in Er0. cbn in Er0. inversion Er0; subst i0.
      rewrite H in Hn0. inversion Hn0; subst c0.
      apply IHReach; auto.
      + intros; eapply Hok; eapply Reach_full; eauto.
      + cbn in Hw. eapply wfk_nth; eauto.
    - inversion R2 as [| |p0 w0 b0 Hg0|p0 w0 b0 q0 w1 b1 Hg0 R0]; subst.
      + rewrite H in Hg0. inversion Hg0; auto.
      + exfalso. rewrite H in Hg0. inversion Hg0; subst b0.
        destruct (Hok p w b (Reach_here g p w b H)) as [Hi Hk].
        pose proof (Reach_longer g p b p w2 b2 Hi Hk R0). lia.
    - destruct (Hok p w b (Reach_here g p w b H)) as [Hi Hk].
      inversion R2 as [| |p0 w0 b0 Hg0|p0 w0 b0 q0 w1 b1 Hg0 R0]; subst.
      + exfalso. pose proof (Reach_longer g q b q w' b' Hi Hk H0). lia.
      + rewrite H in Hg0. inversion Hg0; subst b0.
        apply IHReach; auto. intros; eapply Hok; eapply Reach_below; eauto.
  Qed.

  Inductive ReachMin (g : getter) (min : ver) : list nat -> snode -> list nat -> ver -> snode -> Prop :=
  | ReachMin_short p k c q w b : ReachMin g min (p ++ k) c q w b -> ReachMin g min p (SShort k c) q w b
  | ReachMin_full p cs i c q w b : nth_error cs i = Some c -> ReachMin g min (p ++ [i]) c q w b ->
      ReachMin g min p (SFull cs) q w b
  | ReachMin_here p w b : ver_ltb w min = false -> g p w = Some b -> ReachMin g min p (SRef w) p w b
  | ReachMin_below p w b q w' b' : ver_ltb w min = false -> g p w = Some b -> ReachMin g min p b q w' b' ->
      ReachMin g min p (SRef w) q w' b'.

  Lemma ReachMin_Reach g min p n q w b : ReachMin g min p n q w b -> Reach g p n q w b /\ ver_ltb w min = false.
  Proof.
    induction 1.
    - destruct IHReachMin. split; auto. apply Reach_short; auto.
    - destruct IHReachMin. split; auto. eapply Reach_full; eauto.
    - split; auto. apply Reach_here; auto.
    - destruct IHReachMin. split; auto. eapply Reach_below; eauto.
  Qed.

  (* what the iterator reports is exactly what is reachable through nodes that all pass the filter *)
  Lemma iter_nodes_spec g min : forall f p n l, iter_nodes V f g min p n = Some l ->
    forall q w b, In (q, w, b) l <-> ReachMin g min p n q w b.
  Proof.
    induction f; intros p n l H q w b; cbn in H; [discriminate|].
    destruct n.
    - inversion H; subst. split; [intros Hin; inversion Hin|intros R; inversion R].
    - inversion H; subst. split; [intros Hin; inversion Hin|intros R; inversion R].
    - rewrite (IHf _ _ _ H). split; intros R; [apply ReachMin_short; auto|inversion R; auto].
    - assert (G : forall cs i l,
        (fix go (l : list snode) (i : nat) : option (list (list nat * ver * snode)) :=
           match l with [] => Some [] | c :: t =>
             match iter_nodes V f g min (p ++ [i]) c, go t (S i) with Some a, Some b => Some (a ++ b) | _, _ => None end end) cs i = Some l ->
        (In (q, w, b) l <-> exists j c, nth_error cs j = Some c /\ ReachMin g min (p ++ [i + j]%nat) c q w b)).
      { intros cs0. induction cs0 as [|c cs0 IHcs]; intros i l0 Hl.
        - inversion Hl; subst. split; [intros Hin; inversion Hin|intros [j [c [Hj _]]]; destruct j; discriminate].
        - destruct (iter_nodes V f g min (p ++ [i]) c) as [a|] eqn:Ea; [|discriminate].
          match type of Hl with match ?X with _ => _ end = _ => destruct X as [b0|] eqn:Eb; [|discriminate] end.
          inversion Hl; subst l0. rewrite in_app_iff, (IHf _ _ _ Ea), (IHcs _ _ Eb). split.
          + intros [R|[j [c0 [Hj R]]]].
            * exists 0%nat, c. rewrite Nat.add_0_r. auto.
            * exists (S j), c0. rewrite Nat.add_succ_r. auto.
          + intros [j [c0 [Hj R]]]. destruct j as [|j]; cbn in Hj.
            * inversion Hj; subst. rewrite Nat.add_0_r in R. auto.
            * right. exists j, c0. rewrite Nat.add_succ_r in R. auto. }
      rewrite (G _ _ _ H). split.
      + intros [j [c [Hj R]]]. cbn in R. eapply ReachMin_full; eauto.
      + intros R. inversion R; subst. exists i, c. auto.
    - destruct (ver_ltb v min) eqn:Elt.
      + inversion H; subst. split; [intros Hin; inversion Hin|]. intros R. inversion R; subst; congruence.
      + destruct (g p v) as [b0|] eqn:Eg; [|discriminate].
        destruct (iter_nodes V f g min p b0) as [r|] eqn:Er; [|discriminate].
        inversion H; subst l. cbn [In]. rewrite (IHf _ _ _ Er). split.
        * intros [E|R]; [inversion E; subst; apply ReachMin_here; auto|eapply ReachMin_below; eauto].
        * intros R. inversion R; subst.
          -- left. congruence.
          -- right. congruence.
  Qed.

  (* a followed node is reported if it and every node on the way to it pass the filter *)
  Lemma Reach_ReachMin_when g min p n q w b : Reach g p n q w b ->
    (forall q0 w0 b0, Reach g p n q0 w0 b0 -> Reach g q0 b0 q w b -> ver_ltb w0 min = false) ->
    ver_ltb w min = false -> ReachMin g min p n q w b.
  Proof.
    induction 1; intros Hpass Hw.
    - apply ReachMin_short. apply IHReach; auto. intros; eapply Hpass; eauto. apply Reach_short; eauto.
    - eapply ReachMin_full; eauto. apply IHReach; auto. intros; eapply Hpass; eauto. eapply Reach_full; eauto.
    - apply ReachMin_here; auto.
    - eapply ReachMin_below; eauto.
      + apply (Hpass p w b); [apply Reach_here; auto|auto].
      + apply IHReach; auto. intros; eapply Hpass; eauto. eapply Reach_below; eauto.
  Qed.

  (* versions do not increase along a path from the root (every node on the way to (q,w) is at least as recent):
     then a node that passes the filter is reported *)
  Lemma Reach_ReachMin g base p n q w b : Reach g p n q w b ->
    (forall q0 w0 b0, Reach g p n q0 w0 b0 -> Reach g q0 b0 q w b -> (fst w <= fst w0)%N) ->
    (base <= fst w)%N -> ReachMin g (base, 0%N) p n q w b.
  Proof.
    intros R Hmono Hb. apply Reach_ReachMin_when; auto; [|apply ver_ltb_base; auto].
    intros q0 w0 b0 R0 R1. apply ver_ltb_base. specialize (Hmono _ _ _ R0 R1). lia.
  Qed.

  (* ---- resolution is a function, and the fuel-based expand computes it ---- *)
  Lemma Res_fun g : forall p n t, Res V g p n t -> forall t', Res V g p n t' -> t = t'.
  Proof.
    apply (Res_mut V g (fun p n t _ => forall t', Res V g p n t' -> t = t')
                       (fun p i cs cs' _ => forall cs'', ResL V g p i cs cs'' -> cs' = cs'')).
    - intros p t' H. inversion H; auto.
    - intros p v t' H. inversion H; auto.
    - intros p k c c' _ IH t' H. inversion H; subst. f_equal. auto.
    - intros p cs cs' _ IH t' H. inversion H; subst. f_equal. auto.
    - intros p v b t Hg _ IH t' H. inversion H as [| | | |p0 v0 b0 t0 Hg0 Hr0]; subst.
      rewrite Hg in Hg0. inversion Hg0; subst. auto.
    - intros p i cs'' H. inversion H; auto.
    - intros p i c c' t t' _ IHc _ IHt cs'' H. inversion H; subst. f_equal; auto.
  Qed.

  Lemma Res_expand g : forall p n t, Res V g p n t -> exists f0, forall f, (f0 <= f)%nat -> expand V f g p n = Some t.
  Proof.
    apply (Res_mut V g
      (fun p n t _ => exists f0, forall f, (f0 <= f)%nat -> expand V f g p n = Some t)
      (fun p i cs cs' _ => exists f0, forall f, (f0 <= f)%nat -> expand_list V f g p cs i = Some cs')).
    - intros p. exists 1%nat. intros f Hf. destruct f; [lia|reflexivity].
    - intros p v. exists 1%nat. intros f Hf. destruct f; [lia|reflexivity].
    - intros p k c c' _ [f0 IH]. exists (S f0). intros f Hf. destruct f as [|f]; [lia|].
      cbn. rewrite IH by lia. reflexivity.
    - intros p cs cs' _ [f0 IH]. exists (S f0). intros f Hf. destruct f as [|f]; [lia|].
      rewrite expand_S_full, IH by lia. reflexivity.
    - intros p v b t Hg _ [f0 IH]. exists (S f0). intros f Hf. destruct f as [|f]; [lia|].
      cbn. rewrite Hg. apply IH. lia.
    - intros p i. exists 0%nat. intros f _. reflexivity.
    - intros p i c c' t t' _ [f1 IHc] _ [f2 IHt]. exists (Nat.max f1 f2). intros f Hf.
      rewrite expand_list_cons, IHc, IHt by lia. reflexivity.
  Qed.

  (* same fuel: a getter that answers the followed references identically gives the same expansion *)
  Lemma expand_agree : forall f (g g' : getter) p n t, expand V f g p n = Some t ->
    (forall q w b, Reach g p n q w b -> g' q w = Some b) -> expand V f g' p n = Some t.
  Proof.
    induction f; intros g g' p n t H Hag; [discriminate|].
    destruct n; auto.
    - cbn in *. destruct (expand V f g (p ++ k) n) eqn:E; [|discriminate].
      rewrite (IHf g g' _ _ _ E); auto. intros; apply Hag; apply Reach_short; auto.
    - rewrite expand_S_full in *.
      destruct (expand_list V f g p cs 0%nat) as [l|] eqn:E; [|discriminate].
      replace (expand_list V f g' p cs 0%nat) with (Some l); auto. symmetry.
      assert (Hl : forall j c q w b, nth_error cs j = Some c -> Reach g (p ++ [0 + j]%nat) c q w b -> g' q w = Some b)
        by (intros j c q w b Hj R; apply Hag; eapply Reach_full; eauto).
      clear H Hag. revert l E Hl. generalize 0%nat.
      induction cs as [|a cs IHl]; intros i r Hr Hl; auto. rewrite expand_list_cons in *.
      destruct (expand V f g (p ++ [i]) a) eqn:E; [|discriminate].
      destruct (expand_list V f g p cs (S i)) eqn:E2; [|discriminate].
      rewrite (IHf g g' _ _ _ E), (IHl (S i) l); auto.
      + intros j c q w b Hj R. apply (Hl (S j) c q w b Hj). rewrite Nat.add_succ_r. exact R.
      + intros q w b R. apply (Hl 0%nat a q w b eq_refl). rewrite Nat.add_0_r. exact R.
    - cbn in *. destruct (g p v) eqn:E; [|discriminate].
      rewrite (Hag p v s); [|apply Reach_here; auto].
      apply (IHf g g'); auto. intros; apply Hag; eapply Reach_below; eauto.
  Qed.

  Lemma expand_ext f (g1 g2 : getter) p n :
    (forall p v, g2 p v = g1 p v) -> expand V f g2 p n = expand V f g1 p n.
  Proof.
    intros H. destruct (expand V f g1 p n) eqn:E1.
    - apply (expand_agree f g1); auto. intros q w b R. rewrite H. eapply Reach_get; eauto.
    - destruct (expand V f g2 p n) eqn:E2; auto.
      rewrite (expand_agree f g2 g1 p n n0 E2) in E1; [discriminate|].
      intros q w b R. rewrite <- H. eapply Reach_get; eauto.
  Qed.

  (* Committing version v of trie `name` never changes what a resolvable root (name', v') resolves to, provided
     v is fresh for `name` (nothing in the store answers for (name, _, v) before the commit). *)
  Theorem commit_preserves_roots_lemma f (s : store V) name v es name' v' t :
    (forall p, sget V s name p v = None) ->
    open_root V f s name' v' = Some t ->
    open_root V f (commit V s name v es) name' v' = Some t.
  Proof.
    intros Hfresh H. apply (expand_agree f (sget V s name')); auto.
    intros q w b R. apply Reach_get in R. rewrite sget_commit_other; auto.
    destruct (N.eqb_spec name' name) as [->|]; auto. cbn.
    destruct (ver_eqb w v) eqn:E; auto. apply ver_eqb_eq in E; subst. rewrite Hfresh in R. discriminate.
  Qed.

  Theorem resolve_independent_of_cache_lemma f cache get p n :
    cache_coherent V cache get -> expand V f (cached_get V cache get) p n = expand V f get p n.
  Proof. intros H. apply expand_ext. apply cached_get_same; auto. Qed.
End PR.
