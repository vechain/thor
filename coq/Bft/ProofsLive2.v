(* Bft/ProofsLive2.v — liveness on one chain of honest blocks.
   honest_chain: every block's COM bit is what ShouldVote answers on a node that has seen only this chain
   (ProofsVote.should_vote_linear): COM iff not in the first round and the parent's quality is positive.
   Then: an epoch with a quorum of distinct signers is justified; if the chain already held a justified epoch when the
   epoch began, all its votes are COM and it is committed; CommitBlock of its last block moves finalized to the
   checkpoint of the previous epoch when that one was justified too. *)
From Coq Require Import List NArith ZArith Bool Lia.
From Coq Require Import ZifyN ZifyNat ZifyBool.
From Verif Require Import Common.Util Bft.Tree Bft.Model Bft.Quorum Bft.ProofsTally Bft.ProofsChain Bft.ProofsSearch
  Bft.ProofsSuffix Bft.ProofsNode Bft.ProofsFinal Bft.ProofsCommit Bft.ProofsFind Bft.ProofsLive.
Import ListNotations.
Open Scope N_scope.

Section Live2.
Variable c : cfg.
Hypothesis HL : 0 < c_L c.
Notation L := (c_L c).

Definition com_rule (x : blk) (parent_chain : list blk) : bool :=
  negb (b_num x / L =? 0) && (0 <? quality_pure c parent_chain).

Fixpoint honest_chain (ch : list blk) : Prop :=
  match ch with
  | [] => True
  | x :: t => (0 < b_num x -> b_com x = com_rule x t) /\ honest_chain t
  end.

(* the segment of the head's epoch, structurally *)
Lemma epoch_segment_in ch : grounded ch -> forall x, In x (snd (epoch_info c ch)) ->
  exists l1 t, ch = l1 ++ x :: t /\ 0 < b_num x /\
               (forall hd tl, ch = hd :: tl -> checkpoint L (b_num x) = checkpoint L (b_num hd)).
Proof.
  induction ch as [|b t IH]; intros Hg x Hin; [destruct Hin|].
  cbn [epoch_info] in Hin. destruct (b_num b =? 0) eqn:E0; [destruct Hin|]. apply N.eqb_neq in E0.
  destruct (is_checkpoint L (b_num b)) eqn:Ecp; cbn [snd] in Hin.
  - destruct Hin as [<-|[]]. exists [], t. split; [reflexivity|]. split; [lia|]. intros hd tl E. inversion E; subst. reflexivity.
  - destruct Hin as [<-|Hin].
    + exists [], t. split; [reflexivity|]. split; [lia|]. intros hd tl E. inversion E; subst. reflexivity.
    + destruct t as [|p t']; [destruct Hin|].
      pose proof Hg as Hg0. cbn in Hg. destruct Hg as [_ [Hn Hgt]].
      destruct (IH Hgt x Hin) as [l1 [t2 [E [Hpos Hcp]]]].
      exists (b :: l1), t2. split; [cbn; rewrite E; reflexivity|]. split; [exact Hpos|].
      intros hd tl E2. inversion E2; subst hd tl. rewrite (Hcp p t' eq_refl).
      rewrite Hn in Ecp |- *. symmetry. apply checkpoint_succ_same; assumption.
Qed.

Lemma honest_chain_app l1 : forall ch, honest_chain (l1 ++ ch) -> honest_chain ch.
Proof. induction l1 as [|y l1 IH]; intros ch H; [exact H|]. cbn in H. apply IH. tauto. Qed.

(* C03, third sentence, on the chain: the head b closes epoch kb >= 1 *)
Theorem epoch_committed ch b t kb :
  grounded ch -> ch = b :: t -> honest_chain ch -> b_num b = kb * L + L - 1 -> 1 <= kb ->
  (* more than two thirds (count or weight) signed in this epoch *)
  (if thr_weight c =? 0 then thr_votes c <? N.of_nat (length (signers (snd (epoch_info c ch))))
   else thr_weight c <? sumw (weight_of c) (signers (snd (epoch_info c ch)))) = true ->
  (* the chain already held a justified epoch when this one began *)
  1 <= quality_pure c (suffix_at (kb * L - 1) ch) ->
  s_just (state_pure c ch) = true /\ s_comm (state_pure c ch) = true /\
  quality_pure c ch = quality_pure c (suffix_at (kb * L - 1) ch) + 1.
Proof.
  intros Hg E Hh Hnum Hkb Hquorum Hprev.
  assert (Hj : s_just (state_pure c ch) = true) by (unfold state_pure; apply quorum_justifies; exact Hquorum).
  assert (Hcp : checkpoint L (b_num b) = kb * L) by (rewrite Hnum; apply checkpoint_store; exact HL).
  split; [exact Hj|]. split.
  - unfold state_pure in *. rewrite all_com_committed; [exact Hj|].
    intros x Hin. destruct (epoch_segment_in ch Hg x Hin) as [l1 [t2 [Esplit [Hpos Hsame]]]].
    pose proof (honest_chain_app l1 (x :: t2) ltac:(rewrite <- Esplit; exact Hh)) as [Hx _].
    rewrite (Hx Hpos). unfold com_rule.
    pose proof (Hsame b t E) as Hcx. rewrite Hcp in Hcx.
    assert (Hxge : kb * L <= b_num x) by (rewrite <- Hcx; apply checkpoint_le; exact HL).
    assert (Hd : (b_num x / L =? 0) = false).
    { apply N.eqb_neq. intros Hz. apply (div_zero_lt _ HL) in Hz. nia. }
    rewrite Hd. cbn [negb andb]. apply N.ltb_lt.
    (* the parent chain t2 contains the previous epoch's store point as a suffix *)
    assert (Hgx : grounded (x :: t2)). { apply (grounded_app l1); [rewrite <- Esplit; exact Hg | discriminate]. }
    destruct t2 as [|p t3]; [cbn in Hgx; lia|].
    pose proof Hgx as Hgx0. cbn in Hgx. destruct Hgx as [_ [Hnx Hgp]].
    assert (Hsuf : suffix_at (kb * L - 1) ch = suffix_at (kb * L - 1) (p :: t3)).
    { rewrite Esplit. change (l1 ++ x :: p :: t3) with (l1 ++ [x] ++ p :: t3). rewrite app_assoc.
      apply suffix_at_skip; [rewrite <- app_assoc; cbn [app]; rewrite <- Esplit; exact Hg | lia]. }
    rewrite Hsuf in Hprev.
    destruct (suffix_at_split (p :: t3) (kb * L - 1)) as [l0 Hs0].
    assert (Hne : suffix_at (kb * L - 1) (p :: t3) <> []).
    { destruct (suffix_at_exists (p :: t3) Hgp p t3 eq_refl (kb * L - 1)) as [z [l4 [Hz _]]]; [nia|]. rewrite Hz. discriminate. }
    pose proof (quality_suffix c HL l0 _ ltac:(rewrite <- Hs0; exact Hgp) Hne) as Hmono. rewrite <- Hs0 in Hmono. lia.
  - destruct (quality_epoch_step c HL ch b t Hg E) as [_ Hstep]; [rewrite Hcp; nia|]. rewrite Hcp in Hstep. exact (Hstep Hj).
Qed.
End Live2.

Section Finalize.
Variable c : cfg.
Hypothesis HL : 0 < c_L c.
Notation L := (c_L c).

(* CommitBlock of the last block of a committed epoch kb moves finalized to the checkpoint of epoch kb-1 when that
   epoch was the first to reach its quality (it was justified, or it is finalized's own epoch) *)
Theorem commit_finalizes r e b a kb :
  wf_repo r -> find_blk r (b_id b) = Some b ->
  qs_ok c r ((b_id b, s_q (compute_state c r (e_qs e) b)) :: e_qs e) ->
  compute_state c r (e_qs e) b = state_pure c (chain_of r (b_id b)) ->
  idnum (e_fin e) = a * L -> b_num b = kb * L + L - 1 -> a < kb ->
  s_comm (state_pure c (chain_of r (b_id b))) = true -> 1 < quality_pure c (chain_of r (b_id b)) ->
  (kb - 1 = a \/ (2 <= kb /\ q_epoch c r (b_id b) (kb - 2) < q_epoch c r (b_id b) (kb - 1))) ->
  exists y, block_at r (b_id b) ((kb - 1) * L) = Some y /\ b_num y = (kb - 1) * L /\
            e_fin (fst (commit_block true c r e b false)) = b_id y.
Proof.
  intros Hwf Hb Hqs Hcs Hfin Hnum Hak Hcomm HQ Hprev.
  assert (Hj : s_just (state_pure c (chain_of r (b_id b))) = true).
  { unfold state_pure in *. apply committed_implies_justified_lemma. exact Hcomm. }
  destruct (find_cp_committed c HL r _ (e_fin e) (b_id b) b a kb Hwf Hqs Hb Hfin Hnum Hak Hj)
    as [m [y [Hfc [Hamk [Hy [Hyn [Hqm _]]]]]]].
  (* the first epoch carrying quality Q-1 is kb-1 *)
  assert (Ham : a + m = kb - 1).
  { destruct Hprev as [Hp|[Hk2 Hp]]; [lia|]. destruct (N.eq_dec (a + m) (kb - 1)) as [E1|E1]; [exact E1|]. exfalso.
    pose proof (q_epoch_mono c HL r (b_id b) b kb Hwf Hb Hnum (a + m) (kb - 2) ltac:(lia) ltac:(lia)).
    pose proof (q_epoch_closing c HL r (b_id b) b kb Hwf Hb Hnum ltac:(lia) Hj). lia. }
  rewrite Ham in Hy, Hyn. exists y. split; [exact Hy|]. split; [exact Hyn|].
  unfold commit_block.
  assert (Esp : (storepoint L (b_num b) =? b_num b) = true) by (apply N.eqb_eq; rewrite Hnum; apply storepoint_store; exact HL).
  assert (E1 : (1 <? quality_pure c (chain_of r (b_id b))) = true) by (apply N.ltb_lt; exact HQ).
  assert (E2 : (idnum (e_fin e) <? checkpoint L (b_num b)) = true).
  { apply N.ltb_lt. rewrite Hfin, Hnum, (checkpoint_store L HL). nia. }
  rewrite Esp, Hcs. fold (quality_pure c (chain_of r (b_id b))). rewrite Hcomm, E1, E2.
  cbn [negb orb andb]. rewrite Hcs in Hfc. fold (quality_pure c (chain_of r (b_id b))) in Hfc.
  rewrite Hfc. reflexivity.
Qed.
End Finalize.
