(* Bft/ProofsFinal.v — where finalized can move: CommitBlock either leaves it or sets it to a block found on the
   committed block's own chain at a number >= the previous finalized number (part of the single-node clause of C03). *)
From Coq Require Import List NArith ZArith Bool Lia.
From Verif Require Import Common.Util Bft.Tree Bft.Model.
Import ListNotations.
Open Scope N_scope.

Lemma find_cp_ok2 c r qs target fin head id : find_cp c r qs target fin head = Ok id ->
  exists m x sp, block_at r head (idnum fin + m * c_L c) = Some x /\ id = b_id x /\
                 block_at r head (storepoint (c_L c) (idnum fin + m * c_L c)) = Some sp /\ get_q qs (b_id sp) = target.
Proof.
  unfold find_cp. destruct (idnum head <? idnum fin); [discriminate|].
  destruct (bsearch _ _ _ _) as [num|e]; [|discriminate].
  destruct (num =? _); [discriminate|].
  unfold quality_at. destruct (block_at r head (storepoint (c_L c) (idnum fin + num * c_L c))) as [sp|] eqn:Es; [|discriminate].
  destruct (negb (get_q qs (b_id sp) =? target)) eqn:Eq; [discriminate|]. apply negb_false_iff, N.eqb_eq in Eq.
  destruct (block_at r head (idnum fin + num * c_L c)) as [x|] eqn:E; [|discriminate].
  intros H. inversion H. exists num, x, sp. tauto.
Qed.

Lemma find_cp_ok c r qs target fin head id : find_cp c r qs target fin head = Ok id ->
  exists m x, block_at r head (idnum fin + m * c_L c) = Some x /\ id = b_id x.
Proof. intros H. destruct (find_cp_ok2 _ _ _ _ _ _ _ H) as [m [x [_ [Hx [Hid _]]]]]. exists m, x. tauto. Qed.

Lemma block_at_num r head n x : block_at r head n = Some x -> b_num x = n /\ In x (chain_of r head).
Proof.
  unfold block_at, at_num. intros H. destruct (find_some _ _ H) as [Hin E]. apply N.eqb_eq in E. tauto.
Qed.

(* CommitBlock with isPacking = true in terms of the import path *)
Lemma commit_block_packing c guard r e b :
  commit_block guard c r e b true =
  let '(e1, err) := commit_block guard c r e b false in
  if negb (err =? 0) then (e1, err) else
  match e_casts e1 with
  | None => (e1, 9)
  | Some ca => match block_at r (b_id b) (checkpoint (c_L c) (b_num b)) with
               | None => (e1, 4)
               | Some cpb => (mkE (e_master e1) (e_fin e1) (e_qs e1) (Some (mark ca (b_id cpb) (s_q (compute_state c r (e_qs e) b)))) (e_jc e1), 0)
               end
  end.
Proof.
  unfold commit_block.
  destruct (if storepoint (c_L c) (b_num b) =? b_num b then _ else _) as [e1 err].
  destruct (err =? 0) eqn:E; cbn [negb]; [|rewrite E; reflexivity]. cbn [N.eqb negb]. reflexivity.
Qed.

(* the engine CommitBlock leaves on the import path, whatever it returns *)
Lemma commit_block_import guard c r e b :
  let e' := fst (commit_block guard c r e b false) in
  e_master e' = e_master e /\ e_casts e' = e_casts e /\ e_jc e' = e_jc e /\
  e_qs e' = (if storepoint (c_L c) (b_num b) =? b_num b
             then (b_id b, s_q (compute_state c r (e_qs e) b)) :: e_qs e else e_qs e) /\
  (e_fin e' = e_fin e \/
   exists m x, block_at r (b_id b) (idnum (e_fin e) + m * c_L c) = Some x /\ e_fin e' = b_id x).
Proof.
  unfold commit_block. destruct (storepoint (c_L c) (b_num b) =? b_num b); [|cbn; tauto].
  destruct (s_comm _ && (1 <? s_q _) && _); [|cbn; tauto].
  destruct (find_cp _ _ _ _ _ _) as [id|code] eqn:Ef; [|destruct (code =? 0); cbn; tauto].
  cbn. repeat split. right. exact (find_cp_ok _ _ _ _ _ _ _ Ef).
Qed.

(* ... and when packing, where only the votes record differs *)
Lemma commit_block_fields guard c r e b packing :
  let e' := fst (commit_block guard c r e b packing) in
  e_master e' = e_master e /\ e_jc e' = e_jc e /\
  e_qs e' = (if storepoint (c_L c) (b_num b) =? b_num b
             then (b_id b, s_q (compute_state c r (e_qs e) b)) :: e_qs e else e_qs e) /\
  (e_fin e' = e_fin e \/
   exists m x, block_at r (b_id b) (idnum (e_fin e) + m * c_L c) = Some x /\ e_fin e' = b_id x).
Proof.
  cbv zeta. destruct (commit_block_import guard c r e b) as [Hm [_ [Hj [Hq Hf]]]]. destruct packing; [|tauto].
  rewrite commit_block_packing. destruct (commit_block guard c r e b false) as [e1 err]. cbn [fst] in *.
  destruct (negb (err =? 0)); [tauto|]. destruct (e_casts e1); [destruct (block_at _ _ _)|]; cbn; tauto.
Qed.

Theorem commit_block_finalized guard c r e b packing :
  let e' := fst (commit_block guard c r e b packing) in
  e_fin e' = e_fin e \/
  exists x, In x (chain_of r (b_id b)) /\ e_fin e' = b_id x /\ idnum (e_fin e) <= b_num x.
Proof.
  destruct (commit_block_fields guard c r e b packing) as [_ [_ [_ [H|[m [x [Hx Hid]]]]]]]; [left; exact H|].
  right. destruct (block_at_num _ _ _ _ Hx) as [Hn Hin]. exists x. split; [exact Hin | split; [exact Hid | lia]].
Qed.

(* the accepted path, either flavour: what add_and_commit does to the node *)
Lemma add_and_commit_node guard c nd b packing :
  let nd' := fst (add_and_commit guard c nd b packing) in
  n_repo nd' = b :: n_repo nd /\ e_master (n_eng nd') = e_master (n_eng nd) /\
  (n_best nd' = n_best nd \/ n_best nd' = b_id b).
Proof.
  unfold add_and_commit. cbv zeta.
  pose proof (commit_block_fields guard c (b :: n_repo nd) (n_eng nd) b packing) as [Hm _]. cbv zeta in Hm.
  destruct (commit_block guard c (b :: n_repo nd) (n_eng nd) b packing) as [e1 err]. cbn [fst n_repo n_eng n_best] in *.
  split; [reflexivity|]. split; [exact Hm|]. destruct (select _ _ _ _ _); tauto.
Qed.

Lemma import_known guard c nd b : known (n_repo nd) (b_id b) = true -> import guard c nd b = (nd, 1).
Proof. intros H. unfold import. rewrite H. reflexivity. Qed.

(* import either refuses (known block, parent missing, rejected by Accepts) and leaves the node alone, or is
   add_and_commit of a fresh accepted child *)
Lemma import_cases guard c nd b :
  (exists k, import guard c nd b = (nd, k) /\ 1 <= k <= 3) \/
  (known (n_repo nd) (b_id b) = false /\ known (n_repo nd) (b_parent b) = true /\
   accepts (n_repo nd) (n_eng nd) (b_parent b) = true /\ import guard c nd b = add_and_commit guard c nd b false).
Proof.
  unfold import. destruct (known (n_repo nd) (b_id b)); [left; exists 1; split; [reflexivity | lia]|].
  destruct (known (n_repo nd) (b_parent b)); cbn [negb]; [|left; exists 2; split; [reflexivity | lia]].
  destruct (accepts _ _ _); cbn [negb]; [right; tauto | left; exists 3; split; [reflexivity | lia]].
Qed.
