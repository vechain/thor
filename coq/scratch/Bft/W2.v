From Coq Require Import List NArith Bool Lia.
From Verif Require Import Common.Util Bft.Tree Bft.Model Bft.Quorum Bft.Safety Bft.ProofsWitness Bft.ProofsChain Bft.ProofsFind Bft.ProofsSafety Bft.ProofsRun Bft.ProofsLink Bft.ProofsGap.
Import ListNotations.
Open Scope N_scope.
Definition t4 := Eval vm_compute in seen_after [gen] f4_run.
Time Eval vm_compute in (map (q_epoch cfg4 t4 (b_id x11)) [0;1;2], map (q_epoch cfg4 t4 (b_id y19)) [0;1;2;3;4]).
