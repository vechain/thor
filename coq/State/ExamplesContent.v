(* State/ExamplesContent.v — a concrete instance of the premises of state_root_depends_only_on_content: the same two accounts
   and storage slots written in two different orders on the empty state, with unary secure keys. *)
From Coq Require Import List Arith Bool Lia NArith.
From Verif Require Import Trie.Model Trie.Keys Trie.ProofsWf Trie.Theorems State.StackedMap State.Model State.ProofsState State.ProofsStage State.ProofsJournal State.ProofsReplay State.ProofsCommit.
Import ListNotations.

Definition xhk (a : N) : list nat := terminate (repeat 1%nat (N.to_nat a)).
Definition xhs (k : N) : list nat := terminate (repeat 2%nat (N.to_nat k)).
Definition xtrim (k : N) : bytes := [k].
Definition xops1 := [OBal 1%N 5%N; OBal 3%N 7%N; ORaw 1%N 2%N [5%N]; ORaw 3%N 4%N [6%N]].
Definition xops2 := [OBal 3%N 7%N; ORaw 3%N 4%N [6%N]; OBal 1%N 5%N; ORaw 1%N 2%N [5%N]].
Definition xst1 := run_state xhk xhs xops1 (open Nil []).
Definition xst2 := run_state xhk xhs xops2 (open Nil []).

(* unary keys of one digit are valid and distinct for distinct lengths *)
Lemma unary_valid d n : (d < 16)%nat -> vkey (terminate (repeat d n)).
Proof. intros H. apply vkey_terminate. unfold nibs. induction n; cbn; constructor; auto. Qed.
Lemma unary_inj d a b : terminate (repeat d (N.to_nat a)) = terminate (repeat d (N.to_nat b)) -> a = b.
Proof.
  intros E. unfold terminate in E. apply app_inv_tail in E.
  apply (f_equal (@length nat)) in E. rewrite !repeat_length in E. apply N2Nat.inj; auto.
Qed.

Lemma xhk_valid : forall a, vkey (xhk a).
Proof. intros a. apply unary_valid. lia. Qed.
Lemma xhk_inj : forall a b, xhk a = xhk b -> a = b.
Proof. exact (unary_inj 1). Qed.
Lemma xhs_valid : forall a, vkey (xhs a).
Proof. intros a. apply unary_valid. lia. Qed.
Lemma xhs_inj : forall a b, xhs a = xhs b -> a = b.
Proof. exact (unary_inj 2). Qed.

(* case3 k: k = 0, 1, ..., 7, or a binary number of more than three digits (left symbolic) *)
Ltac casepos p n :=
  match n with
  | O => idtac
  | S ?m => let q := fresh "q" in destruct p as [q|q|]; [casepos q m|casepos q m|]
  end.
Ltac case3 k := let q := fresh "q" in destruct k as [|q]; [|casepos q 3%nat].

Example state_content_premise : forall a,
  same_fields (get_account xhk xhs xst1 a) (get_account xhk xhs xst2 a) /\
  (forall k, get_raw_storage xhk xhs xst1 a k = get_raw_storage xhk xhs xst2 a k) /\
  (a_sroot (get_account xhk xhs (commit_reopen xhk xhs xtrim xst1 1%N 0%N) a) = None <->
   a_sroot (get_account xhk xhs (commit_reopen xhk xhs xtrim xst2 1%N 0%N) a) = None).
Proof.
  assert (O1 : Forall state_op xops1) by (repeat constructor).
  assert (O2 : Forall state_op xops2) by (repeat constructor).
  intros a.
  assert (Other : (a <> 1 -> a <> 3 ->
            a_sroot (get_account xhk xhs (commit_reopen xhk xhs xtrim xst1 1%N 0%N) a) = None /\
            a_sroot (get_account xhk xhs (commit_reopen xhk xhs xtrim xst2 1%N 0%N) a) = None)%N).
  { intros H1 H3.
    assert (E1 : is_empty (get_account xhk xhs xst1 a) = true) by (case3 a; try (vm_compute; reflexivity); congruence).
    assert (E2 : is_empty (get_account xhk xhs xst2 a) = true) by (case3 a; try (vm_compute; reflexivity); congruence).
    destruct (reachable_good xhk xhs Nil [] xops1 O1) as [A1 D1].
    destruct (reopen_reads_back_lemma xhk xhs xtrim xhk_valid xhk_inj xhs_valid xhs_inj _ 1%N 0%N A1 ltac:(rewrite D1; apply base_ok_nil) a) as [R1 _].
    destruct (reachable_good xhk xhs Nil [] xops2 O2) as [A2 D2].
    destruct (reopen_reads_back_lemma xhk xhs xtrim xhk_valid xhk_inj xhs_valid xhs_inj _ 1%N 0%N A2 ltac:(rewrite D2; apply base_ok_nil) a) as [R2 _].
    destruct (R1 E1) as [Y1 _]. destruct (R2 E2) as [Y2 _].
    unfold xst1, xst2, xops1, xops2 in *. rewrite Y1, Y2. split; reflexivity. }
  split; [|split].
  - case3 a; vm_compute; repeat split; reflexivity.
  - intros k. case3 a; case3 k; vm_compute; reflexivity.
  - destruct (N.eq_dec a 1) as [->|N1]; [vm_compute; split; discriminate|].
    destruct (N.eq_dec a 3) as [->|N3]; [vm_compute; split; discriminate|].
    destruct (Other N1 N3) as [X1 X2]. rewrite X1, X2. tauto.
Qed.
