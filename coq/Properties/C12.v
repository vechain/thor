(* Properties/C12.v — statements only.  "Committed tries stay readable across versions, restarts and pruning."
   The store model is Store/Model.v (hist / deduped key spaces, reader order, commit, checkpoint, partition delete);
   the logical trie a root resolves to is `open_root`.  That a committed hash is the canonical Merkle-Patricia root
   of the resolved content is C06's trie_canonical (Properties/C06.v), restated here as root_is_mpt. *)
From Coq Require Import List NArith Bool Arith Lia.
From Verif Require Import Trie.Model Trie.Keys Trie.ProofsWf Trie.Theorems Store.Model Store.Proofs Store.ProofsCommit
  Store.ProofsReach Store.ProofsPrune Store.ProofsLink Store.ProofsTie Store.ExamplesPrune
  Store.WorkTrie Store.ProofsWork Store.ProofsDirty Store.ExamplesWork Store.ProofsCompose Store.ExamplesCompose.
Import ListNotations.
Open Scope N_scope.

Section C12.
  Variable V : Type.

  (* committing version v of a trie never changes what any resolvable root (name', v') resolves to — for every
     set of written nodes, every other trie and every other version of the same trie — provided v is fresh for
     that trie (nothing answers for (name, _, v) before the commit: versions are (block number, conflicts), unique) *)
  (* NOTE on the premise: `sget` falls through to the deduped space, whose key carries no version (and no partition in
     production), so once a pruner round has checkpointed a node of the trie the premise is false for every v
     (Example ex_old_freshness_fails).  This form is the statement for stores that have not been pruned;
     commit_preserves_roots_any below needs no freshness at all and is the one that applies after pruning. *)
  Theorem commit_preserves_roots f (s : store V) name v es name' v' t :
    (forall p, sget V s name p v = None) ->
    open_root V f s name' v' = Some t ->
    open_root V f (commit V s name v es) name' v' = Some t.
  Proof. exact (commit_preserves_roots_lemma V f s name v es name' v' t). Qed.

  (* any store, pruned or not: a commit of (name, v) changes the reader only at version v of trie name; a root that
     follows no node of that version — every root of another trie, every root of this trie whose followed nodes have other
     versions — resolves to the same trie with the same fuel.  (The premise is exact: a root that does follow a node at
     (name, q, v) with q among the written paths reads the new blob.)  On histories the premise holds for every live
     canonical root (live_roots_follow_no_fresh_version below; Example ex_commit_any_premise on a pruned store) and for
     those only: nothing is claimed for dead-fork roots or directly opened pruned storage roots. *)
  Theorem commit_preserves_roots_any f (s : store V) name v es name' v' t :
    open_root V f s name' v' = Some t ->
    name' <> name \/ (forall q w b, Reach V (sget V s name') [] (SRef v') q w b -> w <> v) ->
    open_root V f (commit V s name v es) name' v' = Some t.
  Proof. exact (ProofsLink.commit_preserves_roots_any V f s name v es name' v' t). Qed.

  (* a cache that only holds what the store holds (filled from reads and commits) is invisible *)
  Theorem resolve_independent_of_cache f cache (s : store V) name v :
    cache_coherent V cache (sget V s name) ->
    expand V f (cached_get V cache (sget V s name)) [] (SRef v) = open_root V f s name v.
  Proof. intros H. exact (resolve_independent_of_cache_lemma V f cache (sget V s name) [] (SRef v) H). Qed.

  (* ---- what a commit writes (hasher.store, transcribed as Store/Model.v wstore) ----
     A handle holds a working trie n (nodes with dirty/clean flags, references) that is coherent with the store (every
     clean node's blob in the store is its encoding) and denotes the logical trie t.  Trie.Commit(newVer) at a fresh
     version: the root written by hasher.store — standalone nodes are the root, full nodes with a hash (`big`), every
     node when hashes are skipped; short nodes below the root stay embedded; clean subtrees are referenced, not
     rewritten — read back through the store resolves to exactly t, and the handle with its new flags still denotes
     t and is coherent with the new store (so the next commit starts from the same invariant).  For every choice of
     `big` (which full nodes are large enough to be hashed) and both hashed and hash-skipped tries.
     The freshness premise is the unpruned-store form (see the NOTE at commit_preserves_roots); commit_reads_back_any
     below is the form that also applies to pruned stores. *)
  Theorem commit_reads_back (s : store V) name newv big skip n t :
    (forall p, sget V s name p newv = None) ->
    Coh V (sget V s name) [] n -> WRes V (sget V s name) [] n t -> is_inner V n ->
    let n' := fst (wstore V big skip newv [] n) in
    let s' := commit V s name newv (snd (wstore V big skip newv [] n)) in
    Res V (sget V s' name) [] (SRef newv) t /\ Coh V (sget V s' name) [] n' /\ WRes V (sget V s' name) [] n' t.
  Proof. exact (commit_reads_back_lemma V s name newv big skip n t). Qed.

  (* commit_reads_back for any store, pruned or not (its freshness premise above is false on a pruned store): `Old` is any
     set of stored nodes that contains every clean node and reference of the working trie (WTop), is closed under what
     resolving them follows, resolves, and contains no node of version newv.  Then the committed root reads back, the
     handle stays coherent, and every node the new root follows is an entry of the commit (a well-formed blob) or in Old.
     With Old = the nodes of the head root this is commit_links_to_parent. *)
  Theorem commit_reads_back_any (s : store V) name newv big skip n t (Old : list nat -> ver -> snode V -> Prop) :
    (forall q w b, Old q w b -> w <> newv /\ sget V s name q w = Some b) ->
    (forall q w b q1 w1 b1, Old q w b -> Reach V (sget V s name) q b q1 w1 b1 -> Old q1 w1 b1) ->
    (forall q w b, Old q w b -> exists t', Res V (sget V s name) q b t') ->
    (forall q w r, WTop V [] n q w r -> exists b, Old q w b) ->
    Coh V (sget V s name) [] n -> WRes V (sget V s name) [] n t -> is_inner V n ->
    let es := snd (wstore V big skip newv [] n) in
    let n' := fst (wstore V big skip newv [] n) in
    let g' := sget V (commit V s name newv es) name in
    Res V g' [] (SRef newv) t /\ Coh V g' [] n' /\ WRes V g' [] n' t /\
    (forall q w b, Reach V g' [] (SRef newv) q w b ->
       (w = newv /\ lookup V q es = Some b /\ blob_ok V b) \/ Old q w b).
  Proof. exact (wstore_general V s name newv big skip n t Old). Qed.

  (* the fuel-based open_root and the resolution relation agree *)
  Theorem open_root_resolves f (s : store V) name v t :
    open_root V f s name v = Some t -> Res V (sget V s name) [] (SRef v) t.
  Proof. exact (expand_Res V f (sget V s name) [] (SRef v) t). Qed.

  (* ---- pruning ---- *)
  (* The life of one trie (`History name s chain P`, Store/ProofsLink.v): canonical commits — hasher.store (wstore) at a
     version fresh in the hist space, major above the head's, on a working trie all of whose clean nodes and references
     are nodes of the head root (`derived`: the handle was opened at the head root and edited) —, any other commit (another
     trie; a fork of this one at a fresh version not below the pruned mark P), and pruner rounds [base, target) with
     HistPtnFactor | base, HistPtnFactor | target, P <= base <= target, whose checkpoint of this trie is what the
     version-filtered iterator (iter_nodes, minVer = (base,0)) reports on the newest canonical root below target.
     `chain` lists the live canonical roots, newest first, with the trie each commit denoted; after a round:
     the roots at or above target and — for a storage trie, whose root may be fetched from the deduped space — the
     checkpointed root itself (live_after). *)

  (* prune_preserves_recent, one round: every live root resolves, for every sufficient fuel, to the trie its commit
     denoted both before and after checkpoint + delete *)
  Theorem prune_preserves_recent name (s : store V) newer anchor older P base target cps f nodes v t :
    History V name s (newer ++ anchor :: older) P ->
    P <= base -> base <= target -> base mod hf V s = 0 -> target mod hf V s = 0 ->
    Forall (fun vt => target <= fst (fst vt)) newer -> fst (fst anchor) < target ->
    checkpoint_nodes V f s name (fst anchor) base = Some nodes ->
    cps_for V name cps nodes ->
    In (v, t) (live_after V name newer anchor) ->
    exists f0, forall f', (f0 <= f')%nat ->
      open_root V f' s name v = Some t /\ open_root V f' (prune V s cps base target) name v = Some t.
  Proof. exact (prune_round_preserves_open V name s newer anchor older P base target cps f nodes v t). Qed.

  (* prune_preserves_recent over whole histories (any number of rounds, commits and forks in between): every live
     canonical root resolves to exactly the trie its commit denoted *)
  Theorem prune_preserves_recent_rounds name (s : store V) chain P v t :
    History V name s chain P -> In (v, t) chain ->
    Res V (sget V s name) [] (SRef v) t /\ exists f0, forall f, (f0 <= f)%nat -> open_root V f s name v = Some t.
  Proof.
    intros H I. split; [exact (history_roots_resolve V name s chain P v t H I)|exact (history_roots_open V name s chain P v t H I)].
  Qed.

  (* the invariant behind it (Store/ProofsPrune.v Inv): every live root resolves; the nodes it follows are well-formed
     blobs whose versions do not increase downwards, those at or above P are in the hist space; a node followed from a
     root was written by that root's commit or is followed from its parent *)
  Theorem history_invariant name (s : store V) chain P : History V name s chain P -> Inv V s name chain P.
  Proof. exact (History_Inv V name s chain P). Qed.

  (* the version-filtered iterator (trie/iterator.go with minVer, Store/Model.v iter_nodes): it reports exactly the
     standalone nodes reachable from the start through nodes none of which compares below min *)
  Theorem checkpoint_iterator_spec (g : list nat -> ver -> option (snode V)) min f p n l :
    iter_nodes V f g min p n = Some l ->
    forall q w b, In (q, w, b) l <-> ReachMin V g min p n q w b.
  Proof. exact (iter_nodes_spec V g min f p n l). Qed.

  (* what hasher.store writes links the new root to its parent: a node the new root follows is one of the commit's own
     entries (a well-formed blob) or a node the parent root follows; and the new root reads back — with freshness
     required in the hist space only (valid after pruner rounds, unlike commit_reads_back's premise) *)
  Theorem commit_links_to_parent (s : store V) name chain P newv big skip n t :
    Inv V s name chain P -> hist_fresh V s name newv -> P <= fst newv ->
    match chain with [] => True | vt :: _ => fst (fst vt) < fst newv end ->
    Coh V (sget V s name) [] n -> WRes V (sget V s name) [] n t -> is_inner V n ->
    derived V (sget V s name) chain n ->
    let es := snd (wstore V big skip newv [] n) in
    link_cond V s name chain newv es /\ Res V (sget V (commit V s name newv es) name) [] (SRef newv) t.
  Proof. exact (wstore_links V s name chain P newv big skip n t). Qed.

  (* commit_preserves_roots after pruning (the premise of commit_preserves_roots — the reader is silent at the new
     version — no longer holds once the deduped space answers for a path): any commit of another trie, or of this trie at
     a version fresh in the hist space and not below the pruned mark, keeps the invariant, hence every live root *)
  Theorem commit_preserves_roots_pruned (s : store V) name chain P name' v' es :
    Inv V s name chain P -> name' <> name \/ (hist_fresh V s name v' /\ P <= fst v') ->
    Inv V (commit V s name' v' es) name chain P.
  Proof. exact (Inv_other_commit V s name chain P name' v' es). Qed.

  (* the reader after a round, exactly: hist unless in a deleted partition; else (unless an account/index root) the
     deduped space after the checkpoints; and the condition under which a deduped key answers b after the checkpoints:
     every checkpointed node under that key carries b, and either one does or the key answered b before.  In a history
     the checkpoint writes the node the checkpointed root has at a path, which is the node every later root has there
     whenever that node is older than the target (history_invariant) — that is why overwriting the key is harmless. *)
  Theorem reader_after_round (s : store V) cps base target name q w :
    sget V (prune V s cps base target) name q w =
    match (if in_deleted V s base target w then None else hist_find V (hist V s) name q w) with
    | Some b => Some b
    | None => if is_root q && root_only name then None
              else dedup_find V (dedup V (checkpoints V s cps)) (dptn V s (fst w)) name q
    end.
  Proof. exact (sget_prune V s cps base target name q w). Qed.

  Theorem deduped_key_after_checkpoints cps (s : store V) pt name q b :
    (forall nodes q' w' b', In (name, nodes) cps -> In (q', w', b') nodes -> dptn V s (fst w') = pt -> q' = q -> b' = b) ->
    ((exists nodes w' b', In (name, nodes) cps /\ In (q, w', b') nodes /\ dptn V s (fst w') = pt) \/
     dedup_find V (dedup V s) pt name q = Some b) ->
    dedup_find V (dedup V (checkpoints V s cps)) pt name q = Some b.
  Proof. exact (dedup_find_checkpoints V cps s pt name q b). Qed.

  (* caches: a cache that agrees with the store on the nodes a root follows is invisible for that root; a cache filled
     before a round (coherent with the store then; the real node cache is not flushed by the pruner and may keep deleted
     hist nodes) is invisible for every live root after the round *)
  Theorem cache_invisible_on_followed f (cache g : list nat -> ver -> option (snode V)) p n t :
    expand V f g p n = Some t ->
    (forall q w b b', Reach V g p n q w b -> cache q w = Some b' -> b' = b) ->
    expand V f (cached_get V cache g) p n = Some t.
  Proof. exact (ProofsLink.cache_invisible_on_followed V f cache g p n t). Qed.

  Theorem cache_survives_round name (s : store V) newer anchor older P base target cps f nodes cache v t :
    History V name s (newer ++ anchor :: older) P ->
    P <= base -> base <= target -> base mod hf V s = 0 -> target mod hf V s = 0 ->
    Forall (fun vt => target <= fst (fst vt)) newer -> fst (fst anchor) < target ->
    checkpoint_nodes V f s name (fst anchor) base = Some nodes ->
    cps_for V name cps nodes ->
    cache_coherent V cache (sget V s name) ->
    In (v, t) (live_after V name newer anchor) ->
    Res V (cached_get V cache (sget V (prune V s cps base target) name)) [] (SRef v) t.
  Proof. exact (ProofsLink.cache_survives_round V name s newer anchor older P base target cps f nodes cache v t). Qed.

  (* ---- what the correspondence harness evaluates on the recorded writes of the real code ----
     link_check (extracted; run on the decoded hist puts of every real Trie.Commit of the tie stream) answering 0 is the
     link condition towards the parent root, every entry being followed from the new root; so a checked commit on a state
     satisfying the invariant keeps it.  prune_round (extracted; compared put by put / delete by delete with a real pruner
     round) is the round of the History theorems. *)
  Theorem link_check_sound (veqb : V -> V -> bool) f (s : store V) name newv es parent :
    (forall a b, veqb a b = true -> a = b) ->
    link_check V veqb f s name newv es parent = 0 ->
    (forall q w b, RR V (sget V (commit V s name newv es) name) newv q w b ->
       (w = newv /\ lookup V q es = Some b /\ blob_ok V b) \/
       (w <> newv /\ match parent with Some vp => RR V (sget V s name) vp q w b | None => False end)) /\
    (forall q b, In (q, b) es -> RR V (sget V (commit V s name newv es) name) newv q newv b).
  Proof. intros Hv. exact (ProofsTie.link_check_sound V veqb Hv f s name newv es parent). Qed.

  Theorem checked_commit_keeps_invariant (veqb : V -> V -> bool) f (s : store V) name chain P newv es t :
    (forall a b, veqb a b = true -> a = b) ->
    Inv V s name chain P -> hist_fresh V s name newv -> P <= fst newv ->
    match chain with [] => True | vt :: _ => fst (fst vt) < fst newv end ->
    link_check V veqb f s name newv es (match chain with [] => None | vt :: _ => Some (fst vt) end) = 0 ->
    Res V (sget V (commit V s name newv es) name) [] (SRef newv) t ->
    Inv V (commit V s name newv es) name ((newv, t) :: chain) P.
  Proof. intros Hv. exact (ProofsTie.checked_commit_keeps_invariant V veqb Hv f s name chain P newv es t). Qed.

  Theorem prune_round_is_prune f (s : store V) tries base target s' cps :
    prune_round V f s tries base target = Some (s', cps) ->
    s' = prune V s cps base target /\
    (forall name nodes, In (name, nodes) cps -> exists v, In (name, v) tries /\ checkpoint_nodes V f s name v base = Some nodes).
  Proof. exact (ProofsTie.prune_round_is_prune V f s tries base target s' cps). Qed.

  (* proved, conditional on the reachability lemma: if every reference followed while resolving a root survives the
     round — its node is stored at a version outside the deleted partitions, or the deduped space holds exactly its
     blob under its path after the checkpoints (and it is not an account/index root) — the root resolves to the
     same trie after checkpoint + delete.  (One round from an unpruned store; prune_preserves_recent above discharges
     the premise from the history of the chain and covers repeated rounds.) *)
  Theorem prune_preserves_recent_cond (s : store V) cps base target name p n t :
    ResC V (survives V s cps base target name) (sget V s name) p n t ->
    Res V (sget V (prune V s cps base target) name) p n t.
  Proof. exact (prune_preserves_resolution V s cps base target name p n t). Qed.

  (* with an aligned target, every node written at a version >= target is still served from the hist space,
     unchanged (whatever was checkpointed) *)
  Theorem prune_preserves_recent_partial (s : store V) cps base target name p v :
    0 < hf V s -> target mod hf V s = 0 -> target <= fst v ->
    hist_find V (hist V (prune V s cps base target)) name p v = hist_find V (hist V s) name p v.
  Proof.
    intros Hf Ha Hv. apply prune_keeps_hist_outside. apply recent_outside; auto.
  Qed.

  (* ---- never silently different ----
     account and index tries: a root in the deleted partitions fails; the deduped space is never consulted for it *)
  Theorem pruned_root_fails_partial (s : store V) cps base target name v :
    root_only name = true -> in_deleted V s base target v = true ->
    sget V (prune V s cps base target) name [] v = None.
  Proof. exact (pruned_root_fails V s cps base target name v). Qed.

  (* ... and it stays failed: neither a further round nor a commit of another trie / version brings it back *)
  Theorem pruned_root_stays_failed_prune (s : store V) cps base target name v :
    root_only name = true -> sget V s name [] v = None -> sget V (prune V s cps base target) name [] v = None.
  Proof. exact (failed_root_prune V s cps base target name v). Qed.
  Theorem pruned_root_stays_failed_commit (s : store V) name' v' es name v :
    sget V s name [] v = None -> name' <> name \/ v <> v' -> sget V (commit V s name' v' es) name [] v = None.
  Proof. exact (failed_root_commit V s name' v' es name v). Qed.

  (* storage below the target: a storage trie is only opened through the account trie of its block; that read fails
     whatever the deduped space holds for the storage trie *)
  Theorem pruned_state_fails_partial f (s : store V) cps base target acc_ver sname sver :
    in_deleted V s base target acc_ver = true ->
    read_through_account V f (prune V s cps base target) acc_ver sname sver = None.
  Proof. exact (pruned_state_fails V f s cps base target acc_ver sname sver). Qed.

  (* the committed hash is the canonical root of the resolved content: two well-formed tries with the same
     content are the same tree (so any hash of the tree is a function of the key/value set) *)
  Theorem root_is_mpt (t1 t2 : node V) :
    wfc V t1 -> wfc V t2 -> (forall k, vkey k -> trie_get V t1 k = trie_get V t2 k) -> t1 = t2.
  Proof. exact (canonical_get V t1 t2). Qed.

  (* ---- scope: every theorem above is PER TRIE (one `name`).  Composition for a state read ----
     One store, the accounts trie (name 0) and a storage trie, each with its own History, pruned by the same round.  If the
     account root is live after the round and the storage root the leaf names is live after the round in the storage
     trie's history (live_after keeps the checkpointed root of a storage trie for this), the read "account root, then
     storage root" answers the same trie before and after.  That the storage root named by a leaf of a live account root is
     a live root of the storage trie's history is a PREMISE (it relates state.go to the store; not derived). *)
  Theorem state_read_preserved (s : store V) sname
      newerA anchorA olderA newerS anchorS olderS P base target cps fA nodesA fS nodesS av at_ sv st :
    History V 0 s (newerA ++ anchorA :: olderA) P ->
    History V sname s (newerS ++ anchorS :: olderS) P ->
    P <= base -> base <= target -> base mod hf V s = 0 -> target mod hf V s = 0 ->
    Forall (fun vt => target <= fst (fst vt)) newerA -> fst (fst anchorA) < target ->
    Forall (fun vt => target <= fst (fst vt)) newerS -> fst (fst anchorS) < target ->
    checkpoint_nodes V fA s 0 (fst anchorA) base = Some nodesA -> cps_for V 0 cps nodesA ->
    checkpoint_nodes V fS s sname (fst anchorS) base = Some nodesS -> cps_for V sname cps nodesS ->
    In (av, at_) (live_after V 0 newerA anchorA) ->
    In (sv, st) (live_after V sname newerS anchorS) ->
    exists f0, forall f, (f0 <= f)%nat ->
      read_through_account V f s av sname sv = Some st /\
      read_through_account V f (prune V s cps base target) av sname sv = Some st.
  Proof.
    exact (ProofsCompose.state_read_preserved V s sname newerA anchorA olderA newerS anchorS olderS P base target cps fA nodesA fS nodesS av at_ sv st).
  Qed.

  (* the executable round gives the checkpoint premise (cps_for) for every trie handed to it once *)
  Theorem prune_round_cps_for f (s : store V) tries base target s' cps name v :
    prune_round V f s tries base target = Some (s', cps) ->
    NoDup (map fst tries) -> In (name, v) tries ->
    exists nodes, checkpoint_nodes V f s name v base = Some nodes /\ cps_for V name cps nodes.
  Proof. exact (ProofsCompose.prune_round_cps_for V f s tries base target s' cps name v). Qed.

  (* the premise of commit_preserves_roots_any for the live canonical roots of a trie: they follow no node of a version
     that is fresh in the hist space and not below the pruned mark.  (For other roots — dead forks, pruned storage roots
     opened directly — nothing is claimed after pruning.) *)
  Theorem live_roots_follow_no_fresh_version (s : store V) name chain P v' :
    Inv V s name chain P -> hist_fresh V s name v' -> P <= fst v' ->
    forall vt, In vt chain -> forall q w b, RR V (sget V s name) (fst vt) q w b -> w <> v'.
  Proof. exact (followed_not_fresh V s name chain P v'). Qed.
End C12.

(* ---- the working-trie side of trie.go (Store/WorkTrie.v: tryGet / insert / delete over trees whose untouched subtrees are
   references loaded lazily through the reader, with dirty flags) and histories given as lists of operations ----
   `Good g Old p n t`: the working trie n at path p denotes t through the reader g, is coherent with it (every clean node's
   blob is its encoding), and every clean node and reference of n is in Old — any set of stored nodes the reader answers,
   closed under what resolving them follows, made of well-formed full / short blobs. *)
Section C12_ops.
  Variable V : Type.
  Variable veqb : V -> V -> bool.
  Hypothesis veqb_sound : forall a b, veqb a b = true -> a = b.

  (* Trie.Update on a handle refines C06's trie_update: it never fails (no MissingNodeError), the new root denotes
     trie_update of what the old one denoted — for every key and every trie, no well-formedness needed —, the handle
     stays coherent, and every clean node / reference of the result is still in Old (created nodes are dirty, retained
     subtrees keep their absolute paths) *)
  Theorem worktrie_update_refines (g : getter V) (Old : list nat -> ver -> snode V -> Prop) w key ov t :
    (forall q w b, Old q w b -> g q w = Some b) ->
    (forall q w b q1 w1 b1, Old q w b -> Reach V g q b q1 w1 b1 -> Old q1 w1 b1) ->
    (forall q w b, Old q w b -> blob_ok V b) ->
    Good V g Old [] w t ->
    exists w', wt_update V veqb g w key ov = Some w' /\ Good V g Old [] w' (trie_update V veqb t key ov).
  Proof. intros H1 H2 H3. exact (wt_update_refines V veqb veqb_sound g Old H1 H2 H3 w key ov t). Qed.

  (* Trie.Get returns C06's trie_get and only replaces references by the (clean) nodes they load *)
  Theorem worktrie_get_refines (g : getter V) (Old : list nat -> ver -> snode V -> Prop) w key t :
    (forall q w b, Old q w b -> g q w = Some b) ->
    (forall q w b q1 w1 b1, Old q w b -> Reach V g q b q1 w1 b1 -> Old q1 w1 b1) ->
    (forall q w b, Old q w b -> blob_ok V b) ->
    Good V g Old [] w t ->
    exists val w', wt_get V g w key = Some (val, w') /\ val = trie_get V t key /\ Good V g Old [] w' t.
  Proof. intros H1 H2 H3. exact (wt_get_refines V g Old H1 H2 H3 w key t). Qed.

  (* the recursion itself, with the dirty flag it reports: w_insert / w_delete answer exactly (dirty, node) of C06's
     insert / delete at every fuel; when nothing changed (`false`) the old node is kept — or, if it was a reference,
     the node it resolved to *)
  Theorem worktrie_insert_refines (g : getter V) (Old : list nat -> ver -> snode V -> Prop) f n p key v t :
    (forall q w b, Old q w b -> g q w = Some b) ->
    (forall q w b q1 w1 b1, Old q w b -> Reach V g q b q1 w1 b1 -> Old q1 w1 b1) ->
    (forall q w b, Old q w b -> blob_ok V b) ->
    Good V g Old p n t ->
    exists d n', w_insert V veqb g f n p key (WValue v) = Some (d, n') /\
      Good V g Old p n' (snd (insert V veqb f t key (Value v))) /\ fst (insert V veqb f t key (Value v)) = d /\
      (d = false -> n' = n \/ exists w, n = WRef w /\ w_resolve_ref V g p w = Some n').
  Proof. intros H1 H2 H3. exact (w_insert_ok V veqb veqb_sound g Old H1 H2 H3 f n p key v t). Qed.

  Theorem worktrie_delete_refines (g : getter V) (Old : list nat -> ver -> snode V -> Prop) f n p key t :
    (forall q w b, Old q w b -> g q w = Some b) ->
    (forall q w b q1 w1 b1, Old q w b -> Reach V g q b q1 w1 b1 -> Old q1 w1 b1) ->
    (forall q w b, Old q w b -> blob_ok V b) ->
    Good V g Old p n t ->
    exists d n', w_delete V g f n p key = Some (d, n') /\
      Good V g Old p n' (snd (delete V f t key)) /\ fst (delete V f t key) = d /\
      (d = true -> not_ref V n') /\
      (d = false -> n' = n \/ exists w, n = WRef w /\ w_resolve_ref V g p w = Some n').
  Proof. intros H1 H2 H3. exact (w_delete_ok V g Old H1 H2 H3 f n p key t). Qed.

  (* `derived` discharged: on any state satisfying the chain invariant, the handle opened at the head root and driven by
     ANY list of reads / updates / deletes exists (no operation fails), denotes what the operations give on the head's
     trie, is coherent with the store, and all its clean nodes and references are nodes of the head root *)
  Theorem handle_derived_from_ops (s : store V) name chain P ops :
    Inv V s name chain P ->
    exists w, wt_run V veqb (sget V s name) ops (head_handle V chain) = Some w /\
      WRes V (sget V s name) [] w (lrun veqb ops (head_trie V chain)) /\ Coh V (sget V s name) [] w /\
      derived V (sget V s name) chain w.
  Proof. intros HI. exact (handle_from_ops V veqb veqb_sound s name chain P HI ops). Qed.

  (* the canonical commit step with its working-trie premises (Coh, WRes, is_inner, derived) gone: operations on valid
     keys that leave a non-empty trie, then Trie.Commit (root resolved, hasher.store) — commit_ops computes the store *)
  Theorem ops_commit_step name (s : store V) chain P newv big skip ops :
    History V name s chain P -> all_wfc V chain ->
    hist_fresh V s name newv -> P <= fst newv ->
    match chain with [] => True | vt :: _ => fst (fst vt) < fst newv end ->
    Forall (hop_valid V) ops -> lrun veqb ops (head_trie V chain) <> Nil ->
    History V name (commit_ops V veqb s name chain newv big skip ops)
            ((newv, lrun veqb ops (head_trie V chain)) :: chain) P /\
    wfc V (lrun veqb ops (head_trie V chain)).
  Proof. exact (commit_ops_step V veqb veqb_sound name s chain P newv big skip ops). Qed.

  (* OpsHistory: History with every canonical commit given by its operation list (no hypothesis about a working trie):
     it is a History, and every trie of its chain is well-formed *)
  Theorem ops_history_is_history name (s : store V) chain P :
    OpsHistory V veqb name s chain P -> History V name s chain P /\ all_wfc V chain.
  Proof. exact (ops_history_sound V veqb veqb_sound name s chain P). Qed.

  (* prune_preserves_recent_rounds over histories given as operation lists *)
  Theorem prune_preserves_recent_rounds_from_ops name (s : store V) chain P v t :
    OpsHistory V veqb name s chain P -> In (v, t) chain ->
    Res V (sget V s name) [] (SRef v) t /\
    (exists f0, forall f, (f0 <= f)%nat -> open_root V f s name v = Some t) /\ wfc V t.
  Proof. exact (ops_history_roots_open V veqb veqb_sound name s chain P v t). Qed.

  Theorem prune_preserves_recent_from_ops name (s : store V) newer anchor older P base target cps f nodes v t :
    OpsHistory V veqb name s (newer ++ anchor :: older) P ->
    P <= base -> base <= target -> base mod hf V s = 0 -> target mod hf V s = 0 ->
    Forall (fun vt => target <= fst (fst vt)) newer -> fst (fst anchor) < target ->
    checkpoint_nodes V f s name (fst anchor) base = Some nodes ->
    cps_for V name cps nodes ->
    In (v, t) (live_after V name newer anchor) ->
    exists f0, forall f', (f0 <= f')%nat ->
      open_root V f' s name v = Some t /\ open_root V f' (prune V s cps base target) name v = Some t.
  Proof. exact (ops_prune_round_preserves V veqb veqb_sound name s newer anchor older P base target cps f nodes v t). Qed.

  (* root_is_mpt with its wfc premises discharged from the histories: two live roots with the same content resolve to
     the same tree *)
  Theorem root_is_mpt_from_ops name (s : store V) chain P v t name' (s' : store V) chain' P' v' t' :
    OpsHistory V veqb name s chain P -> In (v, t) chain ->
    OpsHistory V veqb name' s' chain' P' -> In (v', t') chain' ->
    (forall k, vkey k -> trie_get V t k = trie_get V t' k) ->
    t = t' /\ Res V (sget V s name) [] (SRef v) t /\ Res V (sget V s' name') [] (SRef v') t.
  Proof. exact (ops_history_canonical V veqb veqb_sound name s chain P v t name' s' chain' P' v' t'). Qed.
  (* which nodes are dirty: when Trie.Update changes the root, every full / short node of the new root met along the
     updated key is dirty and no reference is left on that walk — hasher.store, which descends through dirty nodes only,
     reaches and rewrites every node on the modified path.  (When insert / delete report `false` the old node is kept:
     last conjunct of worktrie_insert_refines / worktrie_delete_refines.)  Purely structural, no premise. *)
  Theorem update_dirty_on_path (g : getter V) w key ov d w' :
    (match ov with
     | Some v => w_insert V veqb g (S (length key)) w [] key (WValue v)
     | None => w_delete V g (S (length key)) w [] key
     end) = Some (d, w') -> d = true -> Spine V w' key.
  Proof. exact (update_spine V veqb g w key ov d w'). Qed.

  Theorem insert_dirty_on_path (g : getter V) f n p key v n' :
    w_insert V veqb g f n p key (WValue v) = Some (true, n') -> Spine V n' key.
  Proof. exact (insert_spine V veqb g f n p key v n'). Qed.

  Theorem delete_dirty_on_path (g : getter V) f n p key n' :
    w_delete V g f n p key = Some (true, n') -> Spine V n' key.
  Proof. exact (delete_spine V g f n p key n'). Qed.

  (* the node tree a canonical commit returns (what muxdb's root-node cache keeps, trie.FromRootNode) is itself a Good
     handle for the new head: coherent with the new store, denoting the committed trie, all its clean nodes and references
     nodes of the new root *)
  Theorem committed_handle_derived name (s : store V) chain P newv big skip n t :
    History V name s chain P -> hist_fresh V s name newv -> P <= fst newv ->
    match chain with [] => True | vt :: _ => fst (fst vt) < fst newv end ->
    Coh V (sget V s name) [] n -> WRes V (sget V s name) [] n t -> is_inner V n ->
    derived V (sget V s name) chain n ->
    let s' := commit V s name newv (snd (wstore V big skip newv [] n)) in
    Good V (sget V s' name) (head_old V (sget V s' name) ((newv, t) :: chain)) [] (fst (wstore V big skip newv [] n)) t.
  Proof. exact (committed_handle_good V name s chain P newv big skip n t). Qed.

  (* one block from ANY Good start handle (a reference to the head root or a kept node tree): never fails, is a canonical
     commit step, leaves a well-formed trie, and returns a handle that is Good for the new head — so a client may keep
     its handle over any number of its own consecutive blocks *)
  Theorem block_from_handle_step name (s : store V) chain P w0 newv big skip ops :
    History V name s chain P -> all_wfc V chain ->
    Good V (sget V s name) (head_old V (sget V s name) chain) [] w0 (head_trie V chain) ->
    hist_fresh V s name newv -> P <= fst newv ->
    match chain with [] => True | vt :: _ => fst (fst vt) < fst newv end ->
    Forall (hop_valid V) ops -> lrun veqb ops (head_trie V chain) <> Nil ->
    exists w' s', block_from V veqb s name w0 newv big skip ops = Some (w', s') /\
      History V name s' ((newv, lrun veqb ops (head_trie V chain)) :: chain) P /\
      wfc V (lrun veqb ops (head_trie V chain)) /\
      Good V (sget V s' name) (head_old V (sget V s' name) ((newv, lrun veqb ops (head_trie V chain)) :: chain)) [] w'
           (lrun veqb ops (head_trie V chain)).
  Proof. exact (block_from_step V veqb veqb_sound name s chain P w0 newv big skip ops). Qed.
  (* OpsHistoryC: OpsHistory with muxdb's root-node cache — a block starts from a reference to the head root or from the
     node tree kept for it; a commit leaves its own tree; commits of other tries / forks and pruner rounds that keep the
     head leave the kept tree in place; it may be dropped at any time.  It is a History, every trie is well formed, and the
     kept tree is always a Good handle for the head (coherent, denoting the head's trie, derived). *)
  Theorem ops_history_with_root_cache name (s : store V) chain P cache :
    OpsHistoryC V veqb name s chain P cache ->
    History V name s chain P /\ all_wfc V chain /\ cache_good V s name chain cache.
  Proof. exact (ops_history_cache_sound V veqb veqb_sound name s chain P cache). Qed.
End C12_ops.

(* ---- non-vacuity ---- *)
Definition ex_store : store nat :=
  mkStore nat [(0, [], (3, 0), SShort [1%nat; 16%nat] (SValue 7%nat)); (0, [], (2, 0), SFull (repeat SNil 17))] [] 4 None.

Example ex_fresh : forall p, sget nat ex_store 0 p (5, 0) = None.
Proof. intros p. destruct p; reflexivity. Qed.

Example ex_open : open_root nat 5 ex_store 0 (3, 0) = Some (Short [1%nat; 16%nat] (Value 7%nat)).
Proof. vm_compute. reflexivity. Qed.

(* a working trie coherent with ex_store: the root loaded from version (3,0); committing it at the fresh version (5,0) *)
Definition ex_w : wnode nat := WShort [1%nat; 16%nat] (WValue 7%nat) (Clean (3, 0)).
Example ex_coh : Coh nat (sget nat ex_store 0) [] ex_w /\ WRes nat (sget nat ex_store 0) [] ex_w (Short [1%nat; 16%nat] (Value 7%nat)) /\ is_inner nat ex_w.
Proof.
  split; [|split; [|exact I]].
  - constructor; [discriminate|constructor|]. intros v E. inversion E; subst. reflexivity.
  - repeat constructor.
Qed.

Example ex_aligned : 0 < hf nat ex_store /\ 8 mod hf nat ex_store = 0.
Proof. split; vm_compute; reflexivity. Qed.

Example ex_deleted : root_only 0 = true /\ in_deleted nat ex_store 0 4 (3, 0) = true.
Proof. split; vm_compute; reflexivity. Qed.

(* never_silently_different over ALL roots of a trie (canonical or not) is refuted in the model — finding F8: a block
   at or above the target on a fork that left the canonical chain below block target-1 keeps its hist root, follows a
   reference whose hist node was deleted, and is answered from the deduped space with the canonical node of that path
   (Store/ExamplesPrune.v: block 2' = version (2,1), round [0,2)).  Canonical live roots: prune_preserves_recent;
   account/index roots in deleted partitions: pruned_root_fails_partial. *)
Theorem prune_dead_fork_refuted : ~ never_silently_different_statement nat.
Proof. exact never_silently_different_refuted. Qed.

(* non-vacuity of the History theorems: four canonical blocks, a two-block dead fork, HistPtnFactor 2, round [0,2)
   (checkpoint of block 1: two nodes), then blocks 4, 5 and a second round [2,4) *)
Example ex_history_round1 : History nat 0 xs7 [(v3, xt3); (v2, xt2)] 2.
Proof. exact xH7. Qed.
Example ex_history_round2 : History nat 0 xs10 [(v5, xt5); (v4, xt4)] 4.
Proof. exact xH10. Qed.
Example ex_round1_reads : open_root nat 10 xs7 0 v2 = Some xt2 /\ hist_find nat (hist nat xs7) 0 [1%nat] v0 = None.
Proof. exact x_block2_after. Qed.
Example ex_round2_reads : map (fun e => fst e) xnodes2 = [([], v3); ([1%nat], v3)] /\
  open_root nat 10 xs10 0 v4 = Some xt4 /\ open_root nat 10 xs10 0 v5 = Some xt5 /\
  open_root nat 10 xs10 0 v2 = None /\ open_root nat 10 xs10 0 w2 = None.
Proof. exact x_round2. Qed.
Example ex_dead_fork : open_root nat 10 xs6 0 w2 = Some xtf2 /\ open_root nat 10 xs7 0 w2 = Some xtf2' /\ xtf2 <> xtf2'.
Proof. exact (conj x_fork_before (conj x_fork_after x_fork_differs)). Qed.

Example ex_old_freshness_fails : sget nat xs7 0 [1%nat] v4 <> None.
Proof. exact x_old_freshness_fails. Qed.
Example ex_commit_any_premise : forall q w b, Reach nat (sget nat xs7 0) [] (SRef v3) q w b -> w <> v4.
Proof. exact x_commit_any_premise. Qed.
Example ex_commit_after_prune : open_root nat 10 xs8 0 v3 = Some xt3 /\ Res nat (sget nat xs8 0) [] (SRef v4) xt4.
Proof. exact x_commit_after_prune. Qed.
Example ex_survives : ResC nat (survives nat xs6 xcps 0 2 0) (sget nat xs6 0) [] (SRef v2) xt2.
Proof. exact x_survives. Qed.
Example ex_link_check : link_check nat Nat.eqb 10 xs5 0 v3 (snd (wstore nat bigT false v3 [] xn3)) (Some v2) = 0.
Proof. vm_compute. reflexivity. Qed.

(* non-vacuity of the operation-list theorems (Store/ExamplesWork.v): five blocks given only by Get / Update lists — block 1
   ends with a no-op update, block 2 deletes below a referenced branch, block 3 collapses and splits at the root —, a round
   [0,2) after block 3, and block 4 whose operations load a node that only the deduped space still holds *)
Example ex_ops_history : OpsHistory nat Nat.eqb 0 ys4 yc4 0.
Proof. exact yH4. Qed.
Example ex_ops_history_pruned : OpsHistory nat Nat.eqb 0 ys6 yc6 2.
Proof. exact yH6. Qed.
Example ex_ops_reads :
  open_root nat 12 ys6 0 v4 = Some yt4 /\ open_root nat 12 ys6 0 v3 = Some yt3 /\ open_root nat 12 ys6 0 v2 = Some yt2 /\
  open_root nat 12 ys6 0 v1 = None.
Proof. exact y_reads_after. Qed.
Example ex_ops_content :
  trie_get nat yt0 ka = Some 10%nat /\ trie_get nat yt1 kc = Some 2%nat /\
  trie_get nat yt2 ka = None /\ trie_get nat yt2 kd = Some 30%nat /\ trie_get nat yt3 kc = None /\ trie_get nat yt3 ke = Some 5%nat /\
  trie_get nat yt4 ka = Some 11%nat /\ trie_get nat yt4 kg = None /\ trie_get nat yt4 kf = Some 7%nat.
Proof. exact y_tries. Qed.
Example ex_ops_loads_deduped :
  hist_find nat (hist nat ys5) 0 [5%nat] v0 = None /\ sget nat ys5 0 [5%nat] v0 <> None /\
  (exists w, wt_run nat Nat.eqb (sget nat ys5 0) yops4 (head_handle nat yc5) = Some w /\ w <> WNil).
Proof. exact y_handle4_loaded. Qed.
Example ex_ops_good_start : Good nat (sget nat ys5 0) (head_old nat (sget nat ys5 0) yc5) [] (head_handle nat yc5) (head_trie nat yc5).
Proof.
  apply (head_handle_good nat ys5 0 yc5 2).
  apply (History_Inv nat 0 ys5 yc5 2). apply (ops_history_sound nat Nat.eqb nat_eqb_sound 0 ys5 yc5 2). exact yH5.
Qed.
Example ex_kept_handle_same_stores :
  (match ykept0 with Some (_, s) => s = ys1 | None => False end) /\
  (match ykept1 with Some (w, s) => s = ys2 /\ enc_child nat w = SRef v1 | None => False end).
Proof. exact y_kept_handle_same_stores. Qed.
Example ex_delete_dirty :
  exists w', w_delete nat (sget nat ys2 0) 4 (WRef v1) [] ka = Some (true, w') /\ Spine nat w' ka.
Proof. exact y_delete_dirty. Qed.
Example ex_delete_clean :
  exists w', w_delete nat (sget nat ys2 0) 4 (WRef v1) [] kd = Some (false, w') /\
             w_resolve_ref nat (sget nat ys2 0) [] v1 = Some w' /\ dirty_paths nat [] w' = [].
Proof. exact y_delete_clean. Qed.
Example ex_ops_history_root_cache : OpsHistoryC nat Nat.eqb 0 ys3' yc3 0 (Some ykw3).
Proof. exact yC3. Qed.
Example ex_root_cache_reads : open_root nat 12 ys3' 0 v2 = Some yt2 /\ open_root nat 12 ys3' 0 v1 = Some yt1 /\ ykw2 <> WRef v1.
Proof. exact y_cache_reads. Qed.

(* a storage trie (name 2) next to the accounts trie in one store with deduped partition factor 1, three blocks, round
   [0,2) through the executable prune_round (Store/ExamplesCompose.v): both histories, the checkpoint premise from
   prune_round_cps_for, a state read through the account root after the round, a non-empty cache *)
Example ex_two_tries : History nat 0 zs6 zchain 0 /\ History nat 2 zs6 zchain 0.
Proof. exact (conj zH0 zH2). Qed.
Example ex_cps_for : exists nodesA nodesS,
  checkpoint_nodes nat 10 zs6 0 v1 0 = Some nodesA /\ cps_for nat 0 zcps nodesA /\
  checkpoint_nodes nat 10 zs6 2 v1 0 = Some nodesS /\ cps_for nat 2 zcps nodesS.
Proof. exact z_cps_for. Qed.
Example ex_state_read : exists f0, forall f, (f0 <= f)%nat ->
  read_through_account nat f zs6 v2 2 v1 = Some xt1 /\
  read_through_account nat f (prune nat zs6 zcps 0 2) v2 2 v1 = Some xt1.
Proof. exact z_state_read. Qed.
Example ex_storage_root_from_deduped :
  open_root nat 10 zs7 2 v1 = Some xt1 /\ open_root nat 10 zs7 0 v1 = None /\
  hist_find nat (hist nat zs7) 2 [] v1 = None /\ read_through_account nat 10 zs7 v2 2 v1 = Some xt1.
Proof. exact z_reads_computed. Qed.
Example ex_nonempty_cache : (exists b, zcache [1%nat] v0 = Some b) /\ cache_coherent nat zcache (sget nat zs6 0) /\
  Res nat (cached_get nat zcache (sget nat (prune nat zs6 zcps 0 2) 0)) [] (SRef v2) xt2.
Proof. exact z_cache. Qed.

Print Assumptions commit_preserves_roots.
Print Assumptions resolve_independent_of_cache.
Print Assumptions commit_reads_back.
Print Assumptions open_root_resolves.
Print Assumptions prune_preserves_recent.
Print Assumptions prune_preserves_recent_rounds.
Print Assumptions history_invariant.
Print Assumptions checkpoint_iterator_spec.
Print Assumptions commit_links_to_parent.
Print Assumptions commit_preserves_roots_pruned.
Print Assumptions commit_preserves_roots_any.
Print Assumptions commit_reads_back_any.
Print Assumptions reader_after_round.
Print Assumptions deduped_key_after_checkpoints.
Print Assumptions cache_invisible_on_followed.
Print Assumptions cache_survives_round.
Print Assumptions link_check_sound.
Print Assumptions checked_commit_keeps_invariant.
Print Assumptions prune_round_is_prune.
Print Assumptions prune_preserves_recent_cond.
Print Assumptions prune_preserves_recent_partial.
Print Assumptions pruned_root_fails_partial.
Print Assumptions pruned_root_stays_failed_prune.
Print Assumptions pruned_root_stays_failed_commit.
Print Assumptions pruned_state_fails_partial.
Print Assumptions root_is_mpt.
Print Assumptions prune_dead_fork_refuted.
Print Assumptions ex_history_round2.
Print Assumptions worktrie_update_refines.
Print Assumptions worktrie_get_refines.
Print Assumptions worktrie_insert_refines.
Print Assumptions worktrie_delete_refines.
Print Assumptions handle_derived_from_ops.
Print Assumptions ops_commit_step.
Print Assumptions ops_history_is_history.
Print Assumptions prune_preserves_recent_rounds_from_ops.
Print Assumptions prune_preserves_recent_from_ops.
Print Assumptions root_is_mpt_from_ops.
Print Assumptions ex_ops_history_pruned.
Print Assumptions update_dirty_on_path.
Print Assumptions insert_dirty_on_path.
Print Assumptions delete_dirty_on_path.
Print Assumptions committed_handle_derived.
Print Assumptions block_from_handle_step.
Print Assumptions ops_history_with_root_cache.
Print Assumptions state_read_preserved.
Print Assumptions prune_round_cps_for.
Print Assumptions live_roots_follow_no_fresh_version.
Print Assumptions ex_state_read.
