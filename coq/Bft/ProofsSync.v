(* Bft/ProofsSync.v — the liveness sentence of C03 assembled over multi-node runs: all validators honest, every proposal
   delivered to every node before the next one ("timely").  Then at every moment every node stores exactly the one global
   chain with its head as best block, every block carries the COM bit of the com rule (honest_chain), so by the
   chain-level theorems every epoch with a quorum of signers is justified and, once a justified epoch exists, committed;
   and when an epoch kb >= 2 closes after two such epochs every node's finalized checkpoint is the first block of epoch
   kb - 1. *)
From Coq Require Import List NArith ZArith Bool Lia.
From Coq Require Import ZifyN ZifyNat ZifyBool.
From Verif Require Import Common.Util Bft.Tree Bft.Model Bft.Quorum Bft.ProofsTally Bft.ProofsChain Bft.ProofsSuffix
  Bft.ProofsNode Bft.ProofsFinal Bft.ProofsMonotone Bft.ProofsCommit Bft.ProofsFind Bft.ProofsLive Bft.ProofsLive2
  Bft.ProofsOrder Bft.ProofsOrder2 Bft.ProofsVote Bft.Safety Bft.ProofsSafety Bft.ProofsTree2 Bft.ProofsCasts Bft.ProofsRun
  Bft.ProofsMonotone2.
Import ListNotations.
Open Scope N_scope.

Section SyncNode.
Variable c : cfg.
Hypothesis HL : 0 < c_L c.
Notation L := (c_L c).

(* the node stores exactly the chain `ch` (head first), its best block is the head, and its finalized checkpoint lies at
   least one epoch below the head's epoch (or is still in epoch 0) *)
Definition on_chain (ch : repo) (nd : node) : Prop :=
  n_repo nd = ch /\ (exists p t, ch = p :: t /\ n_best nd = b_id p /\
    (idnum (e_fin (n_eng nd)) / L = 0 \/ idnum (e_fin (n_eng nd)) / L + 1 <= b_num p / L)).

(* the next block of the one chain is a fresh valid child on a node that stores the chain below it *)
Lemma on_chain_child nd b p t : wf_repo (p :: t) -> n_repo nd = p :: t -> grounded (b :: p :: t) ->
  known (p :: t) (b_id b) = false ->
  known (n_repo nd) (b_id b) = false /\ known (n_repo nd) (b_parent b) = true /\ valid_child (n_repo nd) b /\
  chain_of (b :: p :: t) (b_id b) = b :: p :: t.
Proof.
  intros Hwf Hrepo Hg Hfresh. pose proof (grounded_chain_self (b :: p :: t) Hg) as Hself.
  cbn in Hg. destruct Hg as [Hpar [Hnum _]]. rewrite Hrepo.
  assert (Hp : find_blk (p :: t) (b_parent b) = Some p) by (rewrite Hpar; apply find_blk_head).
  split; [exact Hfresh|]. split; [apply known_find; exists p; exact Hp|]. split; [|exact Hself].
  intros q Hq. rewrite Hp in Hq. inversion Hq; subst q. exact Hnum.
Qed.

(* storing a block that extends the head with a higher total score *)
Theorem add_and_commit_on_chain nd b p t (packing : bool) :
  node_good c nd -> on_chain (p :: t) nd -> grounded (b :: p :: t) -> known (p :: t) (b_id b) = false ->
  b_score p < b_score b ->
  on_chain (b :: p :: t) (fst (add_and_commit true c nd b packing)).
Proof.
  intros Hgood [Hrepo [p0 [t0 [E0 [Hbest Hfin]]]]] Hg Hfresh Hsc. inversion E0; subst p0 t0. clear E0.
  assert (HL0 : L <> 0) by lia.
  pose proof Hgood as [Hi Hfc Hfs Hroot Hca]. pose proof (inv_wf c _ Hi) as Hwf. pose proof (inv_qs c _ Hi) as Hqs.
  destruct (on_chain_child nd b p t ltac:(rewrite <- Hrepo; exact Hwf) Hrepo Hg Hfresh) as [Hfr [Hpk [Hvc Hself]]].
  destruct (child_setup c HL _ _ b Hwf Hqs Hfr Hpk Hvc) as [p' [_ [_ [Hwf' [Hfb [Hcs Hcs']]]]]].
  pose proof (add_and_commit_shape c nd b packing) as [Hrepo' _]. cbv zeta in Hrepo'.
  destruct (add_and_commit_packing_same c nd b) as [_ [Eb Ef]]. cbv zeta in Eb, Ef.
  assert (Hsame : n_best (fst (add_and_commit true c nd b packing)) = n_best (fst (add_and_commit true c nd b false)) /\
                  e_fin (n_eng (fst (add_and_commit true c nd b packing))) = e_fin (n_eng (fst (add_and_commit true c nd b false)))).
  { destruct packing; [split; assumption | split; reflexivity]. }
  destruct Hsame as [Sb Sf].
  split; [rewrite Hrepo', Hrepo; reflexivity|]. exists b, (p :: t). split; [reflexivity|]. rewrite Sb, Sf.
  rewrite Hrepo in *. rewrite Hself in Hcs.
  pose proof Hg as Hg0. cbn in Hg. destruct Hg as [Hpar [Hnum Hgt]].
  assert (Hpin : In p (p :: t)) by (left; reflexivity).
  (* quality of the new block and of the head *)
  assert (Hqp : s_q (compute_state c (p :: t) (e_qs (n_eng nd)) p) = quality_pure c (p :: t)).
  { rewrite (compute_state_stored c HL (p :: t) _ p Hwf Hqs Hpin). unfold qual. rewrite (grounded_chain_self (p :: t) Hgt). reflexivity. }
  pose proof (quality_step c HL b (p :: t) Hg0) as Hstep.
  assert (Hbb : best_blk nd = p) by (unfold best_blk; rewrite Hrepo, Hbest, find_blk_head; reflexivity).
  unfold add_and_commit. rewrite Hrepo. set (e := n_eng nd) in *.
  assert (Hsel : select c (p :: t) e (best_blk nd) b = true).
  { unfold select. rewrite Hbb, Hcs, Hqp. fold (quality_pure c (b :: p :: t)).
    destruct (quality_pure c (b :: p :: t) =? quality_pure c (p :: t)) eqn:Eq; cbn [negb].
    - unfold better_than. apply orb_true_iff. left. apply N.ltb_lt. exact Hsc.
    - apply N.eqb_neq in Eq. apply N.ltb_lt. lia. }
  rewrite Hsel.
  pose proof (is_checkpoint_mul L HL _ Hfc) as Hfa. fold e in Hfa. set (a := idnum (e_fin e) / L) in *.
  pose proof (commit_block_fin_spec c HL (b :: p :: t) e b a Hwf' Hfb (child_qs c _ _ b Hwf' Hqs Hcs') Hcs' Hfa) as Hspec.
  cbv zeta in Hspec. destruct (commit_block true c (b :: p :: t) e b false) as [e' err]. cbn [fst snd n_repo n_eng n_best] in *.
  split; [reflexivity|].
  assert (Hkb : b_num p / L <= b_num b / L) by (rewrite Hnum; apply N.div_le_mono; lia).
  destruct Hspec as [[Hfz [Hguard [m [y [Hy [Hyn [Hqm [Hmin Hfin']]]]]]]] | [_ Hsamef]].
  - right. rewrite Hfin'. change (idnum (b_id y)) with (b_num y). rewrite Hyn, (N.div_mul _ _ HL0).
    pose proof (storepoint_form L HL _ (proj1 (proj2 Hfz))) as Hkbn.
    (* y lies on b's chain, and not in b's own epoch, whose quality is one more *)
    destruct (block_at_num _ _ _ _ Hy) as [_ Hyin].
    pose proof (N.div_le_mono _ _ L HL0 (chain_num_le (b :: p :: t) b y Hwf' (or_introl eq_refl) Hyin)) as Ham.
    rewrite Hyn, (N.div_mul _ _ HL0) in Ham.
    destruct (N.eq_dec (a + m) (b_num b / L)) as [E|E]; [|lia]. exfalso.
    rewrite E, (q_epoch_head c (b :: p :: t) (b_id b) b _ Hwf' Hfb Hkbn) in Hqm. destruct Hfz as [_ [_ [_ HQ]]]. lia.
  - rewrite Hsamef. destruct Hfin as [H|H]; [left; exact H | right; lia].
Qed.

Lemma import_unfold_on_chain nd b p t : node_good c nd -> on_chain (p :: t) nd -> grounded (b :: p :: t) ->
  known (p :: t) (b_id b) = false -> import true c nd b = add_and_commit true c nd b false.
Proof.
  intros Hgood Hon Hg0 Hfresh. pose proof Hon as [Hrepo _].
  pose proof (inv_wf c _ (ng_inv c nd Hgood)) as Hwf. rewrite Hrepo in Hwf.
  destruct (ng_finst c nd Hgood) as [f Hf]. rewrite Hrepo in Hf.
  pose proof Hg0 as Hg1. cbn in Hg1. destruct Hg1 as [Hpar [Hnum Hgt]].
  unfold import. rewrite Hrepo, Hfresh, Hpar, (known_in (p :: t) p ltac:(left; reflexivity)). cbn [negb].
  assert (Hacc : accepts (p :: t) (n_eng nd) (b_id p) = true).
  { unfold accepts. destruct (negb (idnum (e_fin (n_eng nd)) =? 0)); [|reflexivity].
    destruct (find_blk_id _ _ _ Hf) as [Hid Hin]. rewrite <- Hid.
    apply (linear_has_block (p :: t) p f Hgt Hwf ltac:(left; reflexivity) Hin).
    destruct Hin as [<-|Hin]; [lia | pose proof (grounded_nums p t Hgt f Hin); lia]. }
  rewrite Hacc. reflexivity.
Qed.

Theorem import_on_chain nd b p t : node_good c nd -> on_chain (p :: t) nd -> grounded (b :: p :: t) ->
  known (p :: t) (b_id b) = false -> b_score p < b_score b -> on_chain (b :: p :: t) (fst (import true c nd b)).
Proof.
  intros Hgood Hon Hg Hfresh Hsc. rewrite (import_unfold_on_chain nd b p t Hgood Hon Hg Hfresh).
  apply add_and_commit_on_chain; assumption.
Qed.

Lemma propose_as_commit nd b p t : node_good c nd -> on_chain (p :: t) nd -> honest_ok c nd b = true ->
  exists nd1, node_good c nd1 /\ on_chain (p :: t) nd1 /\ fst (fst (propose true c nd b)) = fst (add_and_commit true c nd1 b true).
Proof.
  intros Hgood [Hrepo Hon] Hok. destruct (propose_split c HL nd b Hgood Hok) as [e1 [Hg1 [Hf1 [_ [_ [_ [_ E]]]]]]].
  exists (mkN (n_repo nd) (n_best nd) e1). split; [exact Hg1|]. split; [|rewrite E; reflexivity].
  unfold on_chain. cbn [n_repo n_best n_eng]. rewrite Hf1. split; assumption.
Qed.
Theorem propose_on_chain nd b p t : node_good c nd -> on_chain (p :: t) nd -> grounded (p :: t) ->
  honest_ok c nd b = true -> known (p :: t) (b_id b) = false -> root_free (b :: p :: t) ->
  on_chain (b :: p :: t) (fst (fst (propose true c nd b))) /\ grounded (b :: p :: t) /\ b_score p < b_score b /\
  (0 < b_num b -> b_com b = com_rule c b (p :: t)).
Proof.
  intros Hgood Hon Hgt Hok Hfresh Hroot'. pose proof Hon as [Hrepo [p0 [t0 [E0 [Hbest Hfin]]]]]. inversion E0; subst p0 t0. clear E0.
  pose proof Hgood as [Hi Hfc Hfs Hroot Hca]. pose proof (inv_wf c _ Hi) as Hwf. pose proof (inv_qs c _ Hi) as Hqs.
  destruct (honest_ok_facts c nd b Hok) as [Hs [Hpar [Hnum [v [Hv Hvc]]]]].
  assert (Hbb : best_blk nd = p).
  { unfold best_blk. rewrite Hrepo, Hbest, find_blk_head. reflexivity. }
  rewrite Hbb in Hnum.
  assert (Hg' : grounded (b :: p :: t)) by (cbn [grounded]; split; [rewrite Hpar; exact Hbest | split; [exact Hnum | exact Hgt]]).
  assert (Hsc : b_score p < b_score b).
  { unfold honest_ok in Hok. repeat (apply andb_prop in Hok; destruct Hok as [Hok ?]). rewrite Hbb in *. apply N.ltb_lt. assumption. }
  split; [|split; [exact Hg' | split; [exact Hsc|]]].
  - destruct (propose_as_commit nd b p t Hgood Hon Hok) as [nd1 [Hg1 [Hon1 E]]]. rewrite E.
    exact (add_and_commit_on_chain nd1 b p t true Hg1 Hon1 Hg' Hfresh Hsc).
  - (* the COM bit is the com rule *)
    intros Hpos. rewrite Hrepo in *.
    pose proof (should_vote_linear c HL (p :: t) (n_eng nd) p (idnum (e_fin (n_eng nd)) / L) Hgt Hwf Hqs ltac:(left; reflexivity)) as Hlin.
    rewrite (grounded_chain_self (p :: t) Hgt) in Hlin. rewrite Hpar, Hbest in Hv. rewrite Hlin in Hv.
    + inversion Hv. rewrite <- Hvc, <- H0. unfold com_rule. rewrite Hnum. reflexivity.
    + unfold casts_ok in Hca. rewrite Hrepo in Hca. destruct (e_casts (n_eng nd)); [exact (ci_stored c _ _ _ _ _ Hca) | exact I].
    + exact (is_checkpoint_mul L HL _ Hfc).
    + intros _ Hge. unfold checkpoint. assert (1 <= b_num p / L) by (apply N.div_le_lower_bound; lia).
      destruct Hfin as [H0|H0]; [rewrite H0; nia | nia].
Qed.
End SyncNode.

Definition round (n : nat) (i : nat) (b : blk) : list event := EPropose i b :: map (fun j => EImport j b) (seq 0 n).
Fixpoint sync_run (n : nat) (ps : list (nat * blk)) : list event :=
  match ps with [] => [] | (i, b) :: t => round n i b ++ sync_run n t end.

Section SyncRun.
Variable c : cfg.
Hypothesis HL : 0 < c_L c.
Notation L := (c_L c).
Variable g : blk.
Hypothesis Hg : b_num g = 0.
Variable masters : list N.
Hypothesis Hnd : NoDup masters.
Notation W0 := (map (init_node g) masters).
Notation WG := (world_good c g [] masters).

Lemma no_byz : forall m, In m masters -> ~ In m (@nil N).
Proof. intros m _ []. Qed.

Record sync_inv (w : list node) (seen : repo) : Prop := mkSI {
  si_world : WG w seen;
  si_grounded : grounded seen;
  si_honest : honest_chain c seen;
  si_nodes : forall i nd, nth_error w i = Some nd -> on_chain c seen nd }.

Lemma grounded_cons_inv seen : grounded seen -> exists p t, seen = p :: t.
Proof. destruct seen as [|p t]; [intros []|]. intros _. exists p, t. reflexivity. Qed.

Lemma known_false_not_in r b : wf_repo r -> known r (b_id b) = false -> ~ In b r.
Proof. intros _ H Hin. rewrite (known_in r b Hin) in H. discriminate. Qed.

(* what delivering b to the distinct nodes js leaves at each index *)
Lemma deliver_nth b js : NoDup js -> forall w k,
  nth_error (world_after c w (map (fun j => EImport j b) js)) k =
  match nth_error w k with
  | Some nd => Some (if existsb (Nat.eqb k) js then fst (import true c nd b) else nd)
  | None => None end.
Proof.
  unfold world_after. induction js as [|j js IH]; intros Hnd' w k.
  - cbn. destruct (nth_error w k); reflexivity.
  - inversion Hnd' as [|? ? Hj Hjs]; subst. cbn [map fold_left existsb]. rewrite (IH Hjs). cbn [step_plain].
    destruct (nth_error w j) as [ndj|] eqn:Ej.
    + rewrite nth_error_set_nth, Ej. destruct (Nat.eqb j k) eqn:Ejk.
      * apply Nat.eqb_eq in Ejk. subst k. rewrite Ej, Nat.eqb_refl. cbn [orb].
        destruct (existsb (Nat.eqb j) js) eqn:E; [|reflexivity].
        apply existsb_exists in E. destruct E as [x [Hx E]]. apply Nat.eqb_eq in E. subst x. contradiction.
      * rewrite (Nat.eqb_sym k j), Ejk. reflexivity.
    + destruct (Nat.eqb k j) eqn:Ekj; [|reflexivity]. apply Nat.eqb_eq in Ekj. subst k. rewrite Ej. reflexivity.
Qed.

(* delivering a stored block keeps the world good and the global tree as it is *)
Lemma deliver_world b p t js : forall w rest,
  WG w (b :: p :: t) ->
  valid_run_b true c [] w (b :: p :: t) (map (fun j => EImport j b) js ++ rest) = true ->
  known (seen_after (b :: p :: t) (map (fun j => EImport j b) js ++ rest)) (b_parent g) = false ->
  let w' := world_after c w (map (fun j => EImport j b) js) in
  WG w' (b :: p :: t) /\ valid_run_b true c [] w' (b :: p :: t) rest = true /\
  seen_after (b :: p :: t) (map (fun j => EImport j b) js ++ rest) = seen_after (b :: p :: t) rest.
Proof.
  induction js as [|j js IH]; intros w rest Hw Hv Hroot; cbv zeta; [split; [exact Hw | split; [exact Hv | reflexivity]]|].
  cbn [map app] in Hv, Hroot |- *. rewrite (valid_run_cons c []) in Hv. apply andb_prop in Hv. destruct Hv as [Hok Hv].
  assert (Hseen : snd (ev_check c [] w (b :: p :: t) (EImport j b)) = b :: p :: t) by (cbn [ev_check]; rewrite find_blk_head; reflexivity).
  rewrite Hseen in Hv. rewrite (seen_after_cons c [] (b :: p :: t) (EImport j b) _ w), Hseen in Hroot |- *.
  assert (Hw' : WG (step_plain true c w (EImport j b)) (b :: p :: t)).
  { rewrite <- Hseen. apply (world_step c HL g [] masters no_byz Hnd w (b :: p :: t) (EImport j b) Hw Hok). rewrite Hseen.
    exact (unknown_incl _ _ _ (seen_after_incl _ _) Hroot). }
  exact (IH _ rest Hw' Hv Hroot).
Qed.

Lemma length_set_nth {A} (l : list A) i x : length (set_nth l i x) = length l.
Proof. revert i. induction l as [|a l IH]; intros [|i]; cbn; try reflexivity. rewrite IH. reflexivity. Qed.

Lemma step_plain_length w ev : length (step_plain true c w ev) = length w.
Proof. destruct ev as [i b|i b|i]; cbn [step_plain]; destruct (nth_error w i); try reflexivity; apply length_set_nth. Qed.

Lemma world_after_length evs : forall w, length (world_after c w evs) = length w.
Proof. induction evs as [|ev t IH]; intros w; [reflexivity|]. cbn [world_after fold_left]. fold (world_after c (step_plain true c w ev) t). rewrite IH. apply step_plain_length. Qed.

Lemma world_after_app a : forall w b', world_after c w (a ++ b') = world_after c (world_after c w a) b'.
Proof. intros w b'. unfold world_after. apply fold_left_app. Qed.

(* one round: node i proposes b on its best block, then b is delivered to every node *)
Theorem round_step n i b w seen rest : sync_inv w seen -> length w = n ->
  valid_run_b true c [] w seen (round n i b ++ rest) = true ->
  known (seen_after seen (round n i b ++ rest)) (b_parent g) = false ->
  let w' := world_after c w (round n i b) in
  sync_inv w' (b :: seen) /\ valid_run_b true c [] w' (b :: seen) rest = true /\
  seen_after seen (round n i b ++ rest) = seen_after (b :: seen) rest /\
  exists ndi, nth_error w i = Some ndi /\ honest_ok c ndi b = true /\
    forall j nd', nth_error w' j = Some nd' -> exists nd, nth_error w j = Some nd /\
      nd' = fst (import true c (if Nat.eqb i j then fst (fst (propose true c nd b)) else nd) b).
Proof.
  intros [Hw Hgr Hhon Hnodes] Hlen Hv Hroot. cbv zeta.
  destruct (grounded_cons_inv seen Hgr) as [p [t Es]]. subst seen.
  unfold round in *. cbn [app] in Hv, Hroot. rewrite (valid_run_cons c []) in Hv. apply andb_prop in Hv. destruct Hv as [Hok Hv].
  cbn [ev_check fst snd] in Hok, Hv. rewrite (seen_after_cons c [] (p :: t) (EPropose i b) _ w) in Hroot. cbn [ev_check snd] in Hroot.
  destruct (nth_error w i) as [ndi|] eqn:Ei; [|discriminate].
  apply andb_prop in Hok. destruct Hok as [Hok Hhonest]. apply andb_prop in Hok. destruct Hok as [_ Hfresh]. apply negb_true_iff in Hfresh.
  assert (Hok' : fst (ev_check c [] w (p :: t) (EPropose i b)) = true) by (cbn [ev_check fst]; rewrite Ei, Hfresh, Hhonest; reflexivity).
  assert (Hw1 : WG (step_plain true c w (EPropose i b)) (b :: p :: t)).
  { apply (world_step c HL g [] masters no_byz Hnd w (p :: t) (EPropose i b) Hw Hok'). cbn [ev_check snd].
    exact (unknown_incl _ _ _ (seen_after_incl _ _) Hroot). }
  destruct (wg_nodes c g [] masters _ _ Hw i ndi Ei) as [Hgoodi _].
  assert (Hrf : root_free (b :: p :: t)).
  { apply (root_free_sub g (b :: p :: t)); [exact (wg_wf c g [] masters _ _ Hw1) | exact (wg_last c g [] masters _ _ Hw1) | exact (wg_root c g [] masters _ _ Hw1) | intros x Hx; exact Hx]. }
  destruct (propose_on_chain c HL ndi b p t Hgoodi (Hnodes i ndi Ei) Hgr Hhonest Hfresh Hrf) as [Honi [Hgr' [Hsc Hcom]]].
  set (w1 := step_plain true c w (EPropose i b)) in *.
  assert (Hw1n : forall j, nth_error w1 j = if Nat.eqb i j then Some (fst (fst (propose true c ndi b))) else nth_error w j).
  { intros j. unfold w1. cbn [step_plain]. rewrite Ei, nth_error_set_nth, Ei. reflexivity. }
  assert (Hon1 : forall j nd, nth_error w1 j = Some nd -> on_chain c (b :: p :: t) nd \/ on_chain c (p :: t) nd).
  { intros j nd Hj. rewrite Hw1n in Hj. destruct (Nat.eqb i j); [inversion Hj; subst nd; left; exact Honi | right; exact (Hnodes j nd Hj)]. }
  destruct (deliver_world b p t (seq 0 n) w1 rest Hw1 Hv Hroot) as [A [D E]].
  cbn [world_after fold_left]. fold w1. fold (world_after c w1 (map (fun j => EImport j b) (seq 0 n))).
  assert (Hall : forall j nd', nth_error (world_after c w1 (map (fun j => EImport j b) (seq 0 n))) j = Some nd' ->
            exists nd1, nth_error w1 j = Some nd1 /\ nd' = fst (import true c nd1 b)).
  { intros j nd' Hj. rewrite (deliver_nth b (seq 0 n) (seq_NoDup n 0)) in Hj.
    destruct (nth_error w1 j) as [nd1|] eqn:E1; [|discriminate]. exists nd1. split; [reflexivity|].
    assert (Hin : existsb (Nat.eqb j) (seq 0 n) = true).
    { apply existsb_exists. exists j. split; [|apply Nat.eqb_refl]. apply in_seq. split; [lia|]. cbn. rewrite <- Hlen.
      rewrite <- (step_plain_length w (EPropose i b)). apply nth_error_Some. fold w1. rewrite E1. discriminate. }
    rewrite Hin in Hj. inversion Hj. reflexivity. }
  split; [|split; [exact D | split]].
  - constructor; [exact A | exact Hgr' | cbn [honest_chain]; split; [exact Hcom | exact Hhon] |].
    intros j nd Hj. destruct (Hall j nd Hj) as [nd1 [E1 ->]]. destruct (Hon1 j nd1 E1) as [Hb|Ho].
    + rewrite import_known; [exact Hb|]. rewrite (proj1 Hb). apply known_in. left. reflexivity.
    + apply import_on_chain; try assumption. exact (proj1 (wg_nodes c g [] masters _ _ Hw1 j nd1 E1)).
  - cbn [app]. rewrite (seen_after_cons c [] (p :: t) (EPropose i b) _ w). cbn [ev_check snd]. exact E.
  - exists ndi. split; [reflexivity|]. split; [exact Hhonest|]. intros j nd' Hj. destruct (Hall j nd' Hj) as [nd1 [E1 ->]].
    rewrite Hw1n in E1. destruct (Nat.eqb i j) eqn:Eij.
    + apply Nat.eqb_eq in Eij. subst j. exists ndi. split; [exact Ei|]. inversion E1. reflexivity.
    + exists nd1. split; [exact E1 | reflexivity].
Qed.

Lemma init_sync : known [g] (b_parent g) = false -> sync_inv W0 [g].
Proof.
  intros Hk. constructor.
  - apply (init_world c HL g Hg [] masters); [tauto | exact Hk].
  - exact Hg.
  - cbn. split; [intros H; lia | exact I].
  - intros i nd Hn. apply nth_error_In in Hn. apply in_map_iff in Hn. destruct Hn as [m [<- _]].
    split; [reflexivity|]. exists g, []. split; [reflexivity|]. split; [reflexivity|]. left. cbn.
    change (idnum (b_id g)) with (b_num g). rewrite Hg. apply N.div_0_l. lia.
Qed.

(* every moment between rounds of an all-honest timely run: one chain everywhere, head = best, COM bits by the rule *)
Theorem sync_run_inv ps : forall w seen, sync_inv w seen -> length w = length masters ->
  valid_run_b true c [] w seen (sync_run (length masters) ps) = true ->
  known (seen_after seen (sync_run (length masters) ps)) (b_parent g) = false ->
  sync_inv (world_after c w (sync_run (length masters) ps)) (seen_after seen (sync_run (length masters) ps)).
Proof.
  induction ps as [|[i b] ps IH]; intros w seen Hs Hlen Hv Hroot; [exact Hs|].
  cbn [sync_run] in *. destruct (round_step (length masters) i b w seen _ Hs Hlen Hv Hroot) as [A [B [C _]]].
  rewrite world_after_app, C. apply IH; [exact A | rewrite world_after_length; exact Hlen | exact B | rewrite <- C; exact Hroot].
Qed.
End SyncRun.

Section SyncTheorems.
Variable c : cfg.
Hypothesis HL : 0 < c_L c.
Notation L := (c_L c).
Variable g : blk.
Hypothesis Hg : b_num g = 0.
Variable masters : list N.
Hypothesis Hnd : NoDup masters.
Notation W0 := (map (init_node g) masters).

Theorem sync_run_one_chain ps :
  let evs := sync_run (length masters) ps in
  let tree := seen_after [g] evs in
  valid_run_b true c [] W0 [g] evs = true -> known tree (b_parent g) = false ->
  grounded tree /\ honest_chain c tree /\
  forall i nd, nth_error (world_after c W0 evs) i = Some nd ->
    n_repo nd = tree /\ exists p t, tree = p :: t /\ n_best nd = b_id p.
Proof.
  cbv zeta. intros Hv Hroot.
  pose proof (unknown_incl _ _ _ (seen_after_incl _ [g]) Hroot) as Hk.
  destruct (sync_run_inv c HL g Hg masters Hnd ps W0 [g] (init_sync c HL g Hg masters Hk) ltac:(apply map_length) Hv Hroot) as [_ Hgr Hhon Hnodes].
  split; [exact Hgr|]. split; [exact Hhon|]. intros i nd Hn. destruct (Hnodes i nd Hn) as [Hr [p [t [E [Hb _]]]]].
  split; [exact Hr|]. exists p, t. tauto.
Qed.

(* on that chain every closed epoch kb >= 1 with a quorum of signers is justified, and committed when the chain already
   held a justified epoch *)
Theorem sync_run_epochs_commit ps l1 b t kb :
  let evs := sync_run (length masters) ps in
  let tree := seen_after [g] evs in
  valid_run_b true c [] W0 [g] evs = true -> known tree (b_parent g) = false ->
  tree = l1 ++ b :: t -> b_num b = kb * L + L - 1 -> 1 <= kb ->
  (if thr_weight c =? 0 then thr_votes c <? N.of_nat (length (signers (snd (epoch_info c (b :: t)))))
   else thr_weight c <? sumw (weight_of c) (signers (snd (epoch_info c (b :: t))))) = true ->
  1 <= quality_pure c (suffix_at (kb * L - 1) (b :: t)) ->
  s_just (state_pure c (b :: t)) = true /\ s_comm (state_pure c (b :: t)) = true /\
  quality_pure c (b :: t) = quality_pure c (suffix_at (kb * L - 1) (b :: t)) + 1.
Proof.
  cbv zeta. intros Hv Hroot E Hnum Hkb Hq Hprev.
  destruct (sync_run_one_chain ps Hv Hroot) as [Hgr [Hhon _]]. rewrite E in Hgr, Hhon.
  apply (epoch_committed c HL (b :: t) b t kb); try assumption; try reflexivity.
  - apply (grounded_app l1); [exact Hgr | discriminate].
  - exact (honest_chain_app c l1 _ Hhon).
Qed.
End SyncTheorems.

Section SyncFinal.
Variable c : cfg.
Hypothesis HL : 0 < c_L c.
Notation L := (c_L c).

(* storing the block that closes epoch kb on a node that holds the chain below it: finalized becomes the first block of
   epoch kb - 1 when epochs kb - 1 and kb are committed as the chain-level theorem describes *)
Lemma commit_fin_on_chain nd b p t (packing : bool) kb :
  node_good c nd -> on_chain c (p :: t) nd -> grounded (b :: p :: t) -> known (p :: t) (b_id b) = false ->
  b_num b = kb * L + L - 1 -> 2 <= kb ->
  s_comm (state_pure c (b :: p :: t)) = true -> 1 < quality_pure c (b :: p :: t) ->
  quality_pure c (suffix_at ((kb - 2) * L + L - 1) (b :: p :: t)) < quality_pure c (suffix_at ((kb - 1) * L + L - 1) (b :: p :: t)) ->
  exists y, block_at (b :: p :: t) (b_id b) ((kb - 1) * L) = Some y /\ b_num y = (kb - 1) * L /\
            e_fin (n_eng (fst (add_and_commit true c nd b packing))) = b_id y.
Proof.
  intros Hgood [Hrepo [p0 [t0 [E0 [Hbest Hfin]]]]] Hg Hfresh Hnumb Hkb Hcomm HQ Hprev. inversion E0; subst p0 t0. clear E0.
  pose proof Hgood as [Hi Hfc Hfs Hroot Hca]. pose proof (inv_wf c _ Hi) as Hwf. pose proof (inv_qs c _ Hi) as Hqs.
  destruct (on_chain_child nd b p t ltac:(rewrite <- Hrepo; exact Hwf) Hrepo Hg Hfresh) as [Hfr [Hpk [Hvc Hself]]].
  destruct (child_setup c HL _ _ b Hwf Hqs Hfr Hpk Hvc) as [p' [_ [_ [Hwf' [Hfb [_ Hcs']]]]]].
  destruct (add_and_commit_packing_same c nd b) as [_ [_ Ef]]. cbv zeta in Ef.
  assert (Sf : e_fin (n_eng (fst (add_and_commit true c nd b packing))) = e_fin (n_eng (fst (add_and_commit true c nd b false)))).
  { destruct packing; [exact Ef | reflexivity]. }
  rewrite Sf. unfold add_and_commit. rewrite Hrepo in *. set (e := n_eng nd) in *.
  cbn in Hg. destruct Hg as [_ [Hnum _]].
  pose proof (is_checkpoint_mul L HL _ Hfc) as Hfa. fold e in Hfa. set (a := idnum (e_fin e) / L) in *.
  pose proof (child_qs c _ _ b Hwf' Hqs Hcs') as Hqs'.
  assert (Hsp : (storepoint L (b_num b) =? b_num b) = true) by (apply N.eqb_eq; rewrite Hnumb; apply storepoint_store; exact HL).
  rewrite Hsp in Hqs'.
  assert (Hak : a < kb).
  { assert (b_num p / L < kb + 1). { assert (b_num p = kb * L + L - 2) by lia. apply N.div_lt_upper_bound; [lia|]. nia. }
    destruct Hfin as [H0|H0]; fold e in H0; fold a in H0; lia. }
  pose proof (commit_finalizes c HL (b :: p :: t) e b a kb Hwf' Hfb Hqs' Hcs' Hfa Hnumb Hak) as Hcf.
  destruct (commit_block true c (b :: p :: t) e b false) as [e' err]. cbn [fst snd n_repo n_eng] in *.
  apply Hcf; rewrite ?Hself; try assumption.
  right. split; [exact Hkb|]. unfold q_epoch. rewrite Hself. exact Hprev.
Qed.

End SyncFinal.

Section SyncFinal2.
Variable c : cfg.
Hypothesis HL : 0 < c_L c.
Notation L := (c_L c).
Variable g : blk.
Hypothesis Hg : b_num g = 0.
Variable masters : list N.
Hypothesis Hnd : NoDup masters.
Notation W0 := (map (init_node g) masters).

Lemma sync_run_app n a : forall b', sync_run n (a ++ b') = sync_run n a ++ sync_run n b'.
Proof. induction a as [|[i b] a IH]; intros b'; [reflexivity|]. cbn [app sync_run]. rewrite IH, app_assoc. reflexivity. Qed.

(* when the block closing epoch kb >= 2 has been delivered, after two consecutive epochs with a quorum of signers on a
   chain that already held a justified epoch, every node's finalized checkpoint is the first block of epoch kb - 1 *)
Theorem sync_run_finality_advances ps i b kb :
  let evs := sync_run (length masters) (ps ++ [(i, b)]) in
  let tree := seen_after [g] evs in
  valid_run_b true c [] W0 [g] evs = true -> known tree (b_parent g) = false ->
  b_num b = kb * L + L - 1 -> 2 <= kb ->
  (if thr_weight c =? 0 then thr_votes c <? N.of_nat (length (signers (snd (epoch_info c tree))))
   else thr_weight c <? sumw (weight_of c) (signers (snd (epoch_info c tree)))) = true ->
  (if thr_weight c =? 0 then thr_votes c <? N.of_nat (length (signers (snd (epoch_info c (suffix_at (kb * L - 1) tree)))))
   else thr_weight c <? sumw (weight_of c) (signers (snd (epoch_info c (suffix_at (kb * L - 1) tree))))) = true ->
  1 <= quality_pure c (suffix_at ((kb - 1) * L - 1) tree) ->
  exists y, block_at tree (b_id b) ((kb - 1) * L) = Some y /\ b_num y = (kb - 1) * L /\
    forall j nd, nth_error (world_after c W0 evs) j = Some nd -> e_fin (n_eng nd) = b_id y.
Proof.
  cbv zeta. rewrite sync_run_app. cbn [sync_run]. rewrite app_nil_r.
  set (evs0 := sync_run (length masters) ps). intros Hv Hroot Hnumb Hkb Hq1 Hq0 Hjust.
  rewrite (valid_run_app c [] evs0) in Hv. apply andb_prop in Hv. destruct Hv as [Hv0 Hv1].
  rewrite seen_after_app in Hroot, Hq1, Hq0, Hjust |- *. fold evs0 in Hq1, Hq0, Hjust.
  pose proof (unknown_incl _ _ _ (seen_after_incl _ _) Hroot) as Hroot0.
  pose proof (unknown_incl _ _ _ (seen_after_incl evs0 [g]) Hroot0) as Hk.
  pose proof (sync_run_inv c HL g Hg masters Hnd ps W0 [g] (init_sync c HL g Hg masters Hk) ltac:(apply map_length) Hv0 Hroot0) as Hs0.
  fold evs0 in Hs0. set (w0 := world_after c W0 evs0) in *. set (seen0 := seen_after [g] evs0) in *.
  rewrite <- (app_nil_r (round (length masters) i b)) in Hv1, Hroot.
  destruct (round_step c HL g Hg masters Hnd (length masters) i b w0 seen0 [] Hs0
              ltac:(unfold w0; rewrite world_after_length; apply map_length) Hv1 Hroot) as [Hs1 [_ [Eseen [ndi [Ei [Hhonest Htrack]]]]]].
  rewrite app_nil_r in Eseen. cbn [seen_after] in Eseen. rewrite world_after_app. rewrite Eseen.
  rewrite Eseen in Hq1, Hq0, Hjust.
  pose proof Hs0 as [Hw0 Hgr0 Hhon0 Hnodes0]. pose proof Hs1 as [Hw1 Hgr1 Hhon1 _].
  destruct (grounded_cons_inv seen0 Hgr0) as [p [t Es]]. rewrite Es in *.
  pose proof (wg_wf c g [] masters _ _ Hw1) as Hwf1.
  assert (Hfresh : known (p :: t) (b_id b) = false) by (cbn in Hwf1; tauto).
  (* chain-level facts *)
  set (tree := b :: p :: t) in *.
  destruct (suffix_at_exists tree Hgr1 b (p :: t) eq_refl (kb * L - 1) ltac:(lia)) as [b' [t' [Hs' Hb'n]]].
  destruct (suffix_at_split tree (kb * L - 1)) as [l1 Hsplit]. rewrite Hs' in Hsplit.
  assert (Hgr' : grounded (b' :: t')) by (apply (grounded_app l1); [rewrite <- Hsplit; exact Hgr1 | discriminate]).
  assert (Hhon' : honest_chain c (b' :: t')) by (apply (honest_chain_app c l1); rewrite <- Hsplit; exact Hhon1).
  assert (Hcomp : suffix_at ((kb - 1) * L - 1) (b' :: t') = suffix_at ((kb - 1) * L - 1) tree).
  { rewrite <- Hs'. apply (suffix_at_comp tree Hgr1 b (p :: t) eq_refl); nia. }
  rewrite Hs' in Hq0.
  destruct (epoch_committed c HL (b' :: t') b' t' (kb - 1) Hgr' eq_refl Hhon' ltac:(nia) ltac:(lia) Hq0 ltac:(rewrite Hcomp; exact Hjust))
    as [_ [_ HQ']].
  rewrite Hcomp in HQ'.
  destruct (epoch_committed c HL tree b (p :: t) kb Hgr1 eq_refl Hhon1 Hnumb ltac:(lia) Hq1 ltac:(rewrite Hs'; lia)) as [_ [Hcomm HQ]].
  rewrite Hs' in HQ.
  assert (Hprevq : quality_pure c (suffix_at ((kb - 2) * L + L - 1) tree) < quality_pure c (suffix_at ((kb - 1) * L + L - 1) tree)).
  { replace ((kb - 2) * L + L - 1) with ((kb - 1) * L - 1) by nia. replace ((kb - 1) * L + L - 1) with (kb * L - 1) by nia. rewrite Hs'. lia. }
  assert (HQ1 : 1 < quality_pure c tree) by lia.
  (* the proposer's node decides y *)
  destruct (wg_nodes c g [] masters _ _ Hw0 i ndi Ei) as [Hgoodi _].
  destruct (propose_as_commit c HL ndi b p t Hgoodi (Hnodes0 i ndi Ei) Hhonest) as [nd1 [Hg1 [Ho1 Eprop]]].
  destruct (commit_fin_on_chain c HL nd1 b p t true kb Hg1 Ho1 Hgr1 Hfresh Hnumb Hkb Hcomm HQ1 Hprevq) as [y [Hy [Hyn Hfy]]].
  exists y. split; [exact Hy|]. split; [exact Hyn|].
  intros j nd' Hj. destruct (Htrack j nd' Hj) as [nd [Hnj ->]].
  destruct (wg_nodes c g [] masters _ _ Hw0 j nd Hnj) as [Hgoodj _].
  destruct (Nat.eqb i j) eqn:Eij.
  - apply Nat.eqb_eq in Eij. subst j. rewrite Ei in Hnj. inversion Hnj; subst nd.
    destruct (propose_good c HL ndi b Hgoodi Hhonest) as [_ [Hrepo' _]].
    + destruct (Hnodes0 i ndi Ei) as [Hr _]. rewrite Hr. exact Hfresh.
    + apply (root_free_sub g tree); [exact Hwf1 | exact (wg_last c g [] masters _ _ Hw1) | exact (wg_root c g [] masters _ _ Hw1)|].
      destruct (Hnodes0 i ndi Ei) as [Hr _]. rewrite Hr. intros x Hx. exact Hx.
    + cbv zeta in Hrepo'. rewrite import_known by (rewrite Hrepo'; apply known_in; left; reflexivity). cbn [fst].
      rewrite Eprop. exact Hfy.
  - rewrite (import_unfold_on_chain c HL nd b p t Hgoodj (Hnodes0 j nd Hnj) Hgr1 Hfresh).
    destruct (commit_fin_on_chain c HL nd b p t false kb Hgoodj (Hnodes0 j nd Hnj) Hgr1 Hfresh Hnumb Hkb Hcomm HQ1 Hprevq) as [y' [Hy' [_ Hfy']]].
    rewrite Hy in Hy'. inversion Hy'; subst y'. exact Hfy'.
Qed.
End SyncFinal2.
