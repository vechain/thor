(* Bft/ProofsOrder3.v — import_set_order_independent: histories of imports and restarts of one node over a consistent
   tree keep `finalized = the function of the stored set` (ProofsOrder.fin_char); two nodes that end up storing the same
   set of blocks — whatever the arrival orders, duplicates, refused blocks, restarts — hold the same best block and the
   same finalized checkpoint. *)
From Coq Require Import List NArith ZArith Bool Lia.
From Coq Require Import ZifyN ZifyNat ZifyBool.
From Verif Require Import Common.Util Bft.Tree Bft.Model Bft.Quorum Bft.ProofsTally Bft.ProofsChain Bft.ProofsNode
  Bft.ProofsFinal Bft.ProofsSafety Bft.ProofsOrder Bft.ProofsOrder2 Bft.ProofsSuffix.
Import ListNotations.
Open Scope N_scope.

Section Order3.
Variable c : cfg.
Hypothesis HL : 0 < c_L c.

(* a tree (set of blocks) is consistent when in every well-formed repository drawn from it all finalizing blocks lie on
   one chain (whether a block finalizes depends only on its own ancestry) *)
Definition tree_consistent (U : list blk) : Prop :=
  forall r, wf_repo r -> incl r U -> consistent c r.

(* one node, a history of deliveries (Some b) and restarts (None) *)
Fixpoint run_node (nd : node) (h : list (option blk)) : node :=
  match h with
  | [] => nd
  | Some b :: t => run_node (fst (import true c nd b)) t
  | None :: t => run_node (restart nd) t
  end.

Definition node_ok (U : list blk) (nd : node) : Prop :=
  inv c nd /\ fin_char c (n_repo nd) (e_fin (n_eng nd)) /\ incl (n_repo nd) U.

Lemma import_ok_step U nd b : tree_consistent U -> In b U -> node_ok U nd -> valid_child (n_repo nd) b ->
  node_ok U (fst (import true c nd b)).
Proof.
  intros HU HbU [Hi [Hfc Hsub]] Hvc. pose proof (import_inv c HL true nd b Hi Hvc) as Hi'.
  split; [exact Hi'|]. destruct (import_cases true c nd b) as [[k [E _]]|[Ek [Ep [_ E]]]]; rewrite E in *; [split; assumption|].
  assert (Hsub' : incl (b :: n_repo nd) U) by (intros x [<-|Hx]; [exact HbU | exact (Hsub x Hx)]).
  pose proof (proj1 (add_and_commit_node true c nd b false)) as Hrepo.
  split.
  - apply (add_and_commit_fin_char c HL nd b Hi Hfc Ek Ep Hvc). apply HU; [|exact Hsub'].
    rewrite <- Hrepo. exact (inv_wf c _ Hi').
  - rewrite Hrepo. exact Hsub'.
Qed.

Lemma restart_ok U nd : node_ok U nd -> node_ok U (restart nd).
Proof. intros [Hi [Hfc Hsub]]. split; [apply restart_inv; exact Hi | split; assumption]. Qed.

Lemma init_ok U g master : b_num g = 0 -> In g U -> node_ok U (init_node g master).
Proof.
  intros Hg HgU. split; [apply init_inv; assumption|]. split.
  - left. split.
    + intros B [HB [_ [_ HQ]]]. cbn in HB. destruct HB as [<-|[]]. cbn [n_repo init_node] in HQ.
      rewrite chain_of_head in HQ. unfold quality_pure in HQ. rewrite (state_pure_genesis c g _ Hg) in HQ. cbn in HQ. lia.
    + exists g. split; [left; reflexivity | split; [exact Hg | reflexivity]].
  - intros x [<-|[]]. exact HgU.
Qed.

Theorem run_node_ok U h : tree_consistent U -> forall nd, node_ok U nd ->
  (forall b, In (Some b) h -> In b U) ->
  (forall nd' b, inv c nd' -> In (Some b) h -> valid_child (n_repo nd') b) ->
  node_ok U (run_node nd h).
Proof.
  intros HU. induction h as [|[b|] t IH]; intros nd Hok HinU Hv; [exact Hok| |].
  - cbn [run_node]. apply IH.
    + apply import_ok_step; [exact HU | apply HinU; left; reflexivity | exact Hok | apply Hv; [exact (proj1 Hok) | left; reflexivity]].
    + intros b' Hb'. apply HinU. right. exact Hb'.
    + intros nd' b' Hi' Hb'. apply Hv; [exact Hi' | right; exact Hb'].
  - cbn [run_node]. apply IH.
    + apply restart_ok. exact Hok.
    + intros b' Hb'. apply HinU. right. exact Hb'.
    + intros nd' b' Hi' Hb'. apply Hv; [exact Hi' | right; exact Hb'].
Qed.

(* C04, first sentence, for consistent trees *)
Theorem import_set_order_independent_lemma U g m1 m2 h1 h2 :
  tree_consistent U -> b_num g = 0 -> In g U ->
  (forall b, In (Some b) h1 \/ In (Some b) h2 -> In b U) ->
  (forall nd b, inv c nd -> In (Some b) h1 \/ In (Some b) h2 -> valid_child (n_repo nd) b) ->
  let n1 := run_node (init_node g m1) h1 in
  let n2 := run_node (init_node g m2) h2 in
  (forall x, In x (n_repo n1) <-> In x (n_repo n2)) ->
  n_best n1 = n_best n2 /\ e_fin (n_eng n1) = e_fin (n_eng n2).
Proof.
  intros HU Hg HgU HinU Hv n1 n2 Hset.
  assert (O1 : node_ok U n1).
  { apply run_node_ok; [exact HU | apply init_ok; assumption | intros b Hb; apply HinU; left; exact Hb |
                        intros nd b Hi Hb; apply Hv; [exact Hi | left; exact Hb]]. }
  assert (O2 : node_ok U n2).
  { apply run_node_ok; [exact HU | apply init_ok; assumption | intros b Hb; apply HinU; right; exact Hb |
                        intros nd b Hi Hb; apply Hv; [exact Hi | right; exact Hb]]. }
  destruct O1 as [I1 [F1 S1]]. destruct O2 as [I2 [F2 S2]].
  pose proof (inv_wf c _ I1) as W1. pose proof (inv_wf c _ I2) as W2.
  split.
  - apply (same_repo_same_best c HL n1 n2 I1 I2 Hset). intros x Hx. unfold qual.
    rewrite (chain_of_set_eq _ _ (b_id x) W1 W2 Hset). reflexivity.
  - apply (fin_char_unique c HL (n_repo n1) (n_repo n2) _ _ W1 W2 Hset); [apply HU; assumption | exact F1 | exact F2].
Qed.

(* a single chain is a consistent tree (non-vacuity of tree_consistent; forks that never finalize, or finalize only on
   one branch, are consistent as well) *)
Lemma grounded_num_inj U : grounded U -> forall x y, In x U -> In y U -> b_num x = b_num y -> x = y.
Proof.
  induction U as [|h t IH]; intros Hg x y Hx Hy Hn; [destruct Hx|].
  destruct Hx as [<-|Hx], Hy as [<-|Hy]; try reflexivity.
  - pose proof (grounded_nums h t Hg y Hy). lia.
  - pose proof (grounded_nums h t Hg x Hx). lia.
  - destruct t as [|p t']; [destruct Hx|]. exact (IH (grounded_tail _ _ _ Hg) x y Hx Hy Hn).
Qed.

Theorem single_chain_consistent U : grounded U -> tree_consistent U.
Proof.
  intros HgU r Hwf Hsub B1 B2 [H1 _] [H2 _].
  assert (Hcase : forall X Y, In X r -> In Y r -> b_num Y <= b_num X -> has_block r (b_id X) (b_id Y) = true).
  { intros X Y HX HY Hle.
    destruct (chain_at r (b_id X) X (b_num Y) Hwf (chain_of_stored r X Hwf HX) Hle) as [_ [z [_ [_ [Hz [_ [Hb [_ [Hzin _]]]]]]]]].
    unfold has_block, chain_has. change (idnum (b_id Y)) with (b_num Y). fold (block_at r (b_id X) (b_num Y)). rewrite Hb.
    rewrite (grounded_num_inj U HgU z Y (Hsub z Hzin) (Hsub Y HY) Hz). apply N.eqb_refl. }
  destruct (N.le_ge_cases (b_num B2) (b_num B1)) as [H|H]; [left | right]; apply Hcase; assumption.
Qed.
End Order3.
