(* Compose/TxIdBindExamples.v — non-vacuity of Compose/TxIdBind.v: an injective toy hash (the identity, as in C11's
   ex_id_binding), two decodable transactions (one legacy, one dynamic-fee) with 20-byte origins, and a fork history
       g - b1[xa] - b2[xb]
                 \ b2'[xb]          (the same transaction re-included on the sibling)
   every block of which passes C09's `validate` and consists of records of decodable transactions: all premises of
   accepted_chain_inv_c11 / has_tx_paths_agree_on_accepted_c11 hold, with H_inj PROVED for the instance.  Then x_Ht, a
   truncating hash that is not injective but collision-free on the strings hashed for the two transactions (the …_on
   theorems apply), and x_H0, a constant hash, for which view_id_extract exhibits the collision. *)
From Coq Require Import List NArith Bool Lia.
From Verif Require Import Codec.Model Codec.ProofsRLP Codec.ProofsComb Codec.ProofsObjects Codec.ProofsTop Codec.ProofsBind.
From Verif Require Chain.Model Chain.Proofs Chain.ProofsTx Chain.ProofsChainInv Chain.Examples.
From Verif Require Import Compose.TxIdBind.
Import ListNotations.
Open Scope N_scope.

Module CE := Verif.Chain.Examples.

Definition x_H (b : bytes) : bytes := b.
Lemma x_H_inj : forall a b, x_H a = x_H b -> a = b.
Proof. intros a b E. exact E. Qed.

(* chain tag 7; block ref 0x00000001_00000000 (number 1); expiration 10 resp. 32 *)
Definition x_clause := mkClause (Ptr (repeat 7 20)) 1000 [1; 2; 3].
Definition x_ta := mkTx false 7 4294967296 10 [x_clause] 128 0 0 21000 NilStr 12345678 (mkRes 1 []) (repeat 9 65).
Definition x_tb := mkTx true 7 4294967296 32 [x_clause; mkClause NilStr 0 [96]] 0 7 1000000 50000 NilList 255 (mkRes 0 []) (repeat 8 65).
(* a third decodable transaction, with a DependsOn pointer, not on the chain *)
Definition x_tc := mkTx true 7 8589934592 32 [x_clause] 0 7 1000000 50000 (Ptr (repeat 3 32)) 256 (mkRes 0 []) (repeat 8 65).
Definition x_oa : bytes := repeat 17 20.
Definition x_ob : bytes := repeat 18 20.

Example x_wf : wfp c_tx x_ta /\ wfp c_tx x_tb /\ wfp c_tx x_tc.
Proof.
  split; [|split].
  - apply (tx_decode_sound_l (enc c_tx x_ta)). vm_compute. reflexivity.
  - apply (tx_decode_sound_l (enc c_tx x_tb)). vm_compute. reflexivity.
  - apply (tx_decode_sound_l (enc c_tx x_tc)). vm_compute. reflexivity.
Qed.

Definition x_va := view x_H x_ta x_oa.
Definition x_vb := view x_H x_tb x_ob.
Definition x_vc := view x_H x_tc x_oa.

(* what C09 reads off them *)
Example x_fields :
  (CM.tx_tag x_va, CM.tx_ref x_va, CM.tx_exp x_va, CM.tx_dep x_va) = (7, 1, 10, None) /\
  (CM.tx_tag x_vb, CM.tx_ref x_vb, CM.tx_exp x_vb, CM.tx_dep x_vb) = (7, 1, 32, None) /\
  (CM.tx_tag x_vc, CM.tx_ref x_vc, CM.tx_exp x_vc) = (7, 2, 32) /\ CM.tx_dep x_vc = Some (code (repeat 3 32)) /\
  CM.tx_id x_va <> CM.tx_id x_vb.
Proof. vm_compute. repeat split; discriminate. Qed.

Example x_in_universe : c11_universe x_H x_va /\ c11_universe x_H x_vb /\ c11_universe x_H x_vc.
Proof.
  destruct x_wf as (Wa & Wb & Wc).
  split; [|split]; [exists x_ta, x_oa | exists x_tb, x_ob | exists x_tc, x_oa]; auto.
Qed.

(* the history *)
Definition x_rc := CM.mkRc false [].
Definition x_b1 := CM.mkB (CE.bid 1 1) CE.ex_g 10 [x_va] [x_rc].
Definition x_b2 := CM.mkB (CE.bid 2 1) (CE.bid 1 1) 20 [x_vb] [x_rc].
Definition x_b2' := CM.mkB (CE.bid 2 2) (CE.bid 1 1) 20 [x_vb] [x_rc].
Definition x_r0 := CM.init_repo CE.ex_g CE.ex_gp 7.
Definition x_r1 := CE.step_or x_r0 x_b1 0 true.
Definition x_r2 := CE.step_or x_r1 x_b2 0 true.
Definition x_r3 := CE.step_or x_r2 x_b2' 1 false.

Example x_history : CP.reachable CE.ex_g CE.ex_gp 7 (CI.accepted (c11_universe x_H)) x_r3.
Proof.
  destruct x_in_universe as (Ua & Ub & _).
  apply (CP.reach_add _ _ _ _ x_r2 x_b2' 1 false); [| vm_compute; repeat split | | vm_compute; reflexivity].
  apply (CP.reach_add _ _ _ _ x_r1 x_b2 0 true); [| vm_compute; repeat split | | vm_compute; reflexivity].
  apply (CP.reach_add _ _ _ _ x_r0 x_b1 0 true); [| vm_compute; repeat split | | vm_compute; reflexivity].
  - apply CP.reach_init.
  - split; [vm_compute; reflexivity|]. intros t [<-|[]]. exact Ua.
  - split; [vm_compute; reflexivity|]. intros t [<-|[]]. exact Ub.
  - split; [vm_compute; reflexivity|]. intros t [<-|[]]. exact Ub.
Qed.

(* the rules bite on this history: re-including xa, or xb on its own branch, is refused; xc (dependency unknown) is refused *)
Example x_rejects :
  CM.validate x_r3 (CM.mkB (CE.bid 3 1) (CE.bid 2 1) 30 [x_va] [x_rc]) = CM.V_exists /\
  CM.validate x_r3 (CM.mkB (CE.bid 3 1) (CE.bid 2 2) 30 [x_vb] [x_rc]) = CM.V_exists /\
  CM.validate x_r3 (CM.mkB (CE.bid 3 1) (CE.bid 2 1) 30 [x_vc] [x_rc]) = CM.V_depbroken.
Proof. vm_compute. repeat split. Qed.

(* the composed theorems on the instance: every premise discharged *)
Example x_chain_inv : forall h, CP.stored x_r3 h ->
  (forall a t, CP.anc x_r3 h a -> CI.tx_in x_r3 a t ->
     c11_universe x_H t /\ CM.tx_tag t = 7 /\ CM.tx_ref t <= CM.num_of a /\ CM.num_of a <= CM.tx_ref t + CM.tx_exp t) /\
  (forall a1 t1 a2 t2, CP.anc x_r3 h a1 -> CP.anc x_r3 h a2 -> CI.tx_in x_r3 a1 t1 -> CI.tx_in x_r3 a2 t2 ->
     CM.tx_id t1 = CM.tx_id t2 -> a1 = a2) /\
  (forall a s b, CP.anc x_r3 h a -> CM.get_block x_r3 a = Some (s, b) -> NoDup (map CM.tx_id (CM.b_txs b))).
Proof.
  exact (accepted_chain_inv_c11 x_H x_H_inj CE.ex_g CE.ex_gp 7 CE.ex_g_num CE.ex_gp_num x_r3 x_history).
Qed.

(* xb is found from both sibling heads, xa from both too (it sits below the fork), xc from none — by every path *)
Example x_paths :
  CM.has_transaction x_r3 (CE.bid 2 1) (CM.tx_id x_vb) (CM.tx_ref x_vb) = CM.Ok true /\
  CM.has_transaction x_r3 (CE.bid 2 2) (CM.tx_id x_vb) (CM.tx_ref x_vb) = CM.Ok true /\
  CM.has_transaction x_r3 (CE.bid 1 1) (CM.tx_id x_vb) (CM.tx_ref x_vb) = CM.Ok false /\
  CM.has_tx_indexed x_r3 (CE.bid 2 2) (CM.tx_id x_va) = CM.Ok true /\
  CM.has_tx_indexed x_r3 (CE.bid 2 2) (CM.tx_id x_vc) = CM.Ok false.
Proof. vm_compute. repeat split. Qed.

Example x_paths_agree : forall h, CP.stored x_r3 h ->
  exists v, CM.has_transaction x_r3 h (CM.tx_id x_vc) (CM.tx_ref x_vc) = CM.Ok v /\ CM.has_tx_indexed x_r3 h (CM.tx_id x_vc) = CM.Ok v /\
            (CM.tx_ref x_vc <= CM.num_of h -> CM.num_of h - CM.tx_ref x_vc < 100 ->
             CM.recent_walk x_r3 (CM.tx_id x_vc) (CM.tx_ref x_vc) 102 h = CM.Ok v) /\
            (v = true <-> exists a, Chain.ProofsTx.incl_on x_r3 h (CM.tx_id x_vc) a).
Proof.
  intros h Sh.
  exact (has_tx_paths_agree_on_accepted_c11 x_H x_H_inj CE.ex_g CE.ex_gp 7 CE.ex_g_num CE.ex_gp_num x_r3 x_history
           h x_tc x_oa Sh (proj2 (proj2 x_wf)) eq_refl).
Qed.

(* view_id_binds is not vacuous either way: different signed parts, different ids *)
Example x_binding : signed_part x_ta <> signed_part x_tb /\ CM.tx_id x_va <> CM.tx_id x_vb.
Proof.
  assert (D : signed_part x_ta <> signed_part x_tb) by (vm_compute; discriminate).
  split; [exact D|]. intros E. apply D.
  destruct x_wf as (Wa & Wb & _). exact (proj1 (view_id_binds x_H x_H_inj x_ta x_tb x_oa x_ob Wa Wb eq_refl E)).
Qed.

(* a hash that is NOT injective (it keeps the first 200 bytes) but is collision-free on the six strings hashed for the three
   transactions above: the premises of the `_on` theorems are met by a function no global H_inj holds for *)
Definition x_Ht (b : bytes) : bytes := firstn 200 b.
Example x_Ht_collides : exists a b, a <> b /\ x_Ht a = x_Ht b.
Proof. exists (repeat 0 200 ++ [1]), (repeat 0 200 ++ [2]). split; [vm_compute; discriminate | vm_compute; reflexivity]. Qed.

Definition x_S (t : tx) (o : bytes) : Prop := (t = x_ta /\ o = x_oa) \/ (t = x_tb /\ o = x_ob) \/ (t = x_tc /\ o = x_oa).

Lemma x_Ht_fix a : hashed x_Ht x_S a -> x_Ht a = a.
Proof.
  intros (t & o & [[-> ->]|[[-> ->]|[-> ->]]] & [->| ->]); vm_compute; reflexivity.
Qed.
Example x_Ht_inj_on : forall a b, hashed x_Ht x_S a -> hashed x_Ht x_S b -> x_Ht a = x_Ht b -> a = b.
Proof. intros a b Ha Hb E. rewrite (x_Ht_fix a Ha), (x_Ht_fix b Hb) in E. exact E. Qed.

Definition x_wa := view x_Ht x_ta x_oa.
Definition x_wb := view x_Ht x_tb x_ob.
Definition x_c1 := CM.mkB (CE.bid 1 1) CE.ex_g 10 [x_wa] [x_rc].
Definition x_c2 := CM.mkB (CE.bid 2 1) (CE.bid 1 1) 20 [x_wb] [x_rc].
Definition x_c2' := CM.mkB (CE.bid 2 2) (CE.bid 1 1) 20 [x_wb] [x_rc].
Definition x_q1 := CE.step_or x_r0 x_c1 0 true.
Definition x_q2 := CE.step_or x_q1 x_c2 0 true.
Definition x_q3 := CE.step_or x_q2 x_c2' 1 false.

Example x_history_on : CP.reachable CE.ex_g CE.ex_gp 7 (CI.accepted (c11_universe_on x_Ht x_S)) x_q3.
Proof.
  destruct x_wf as (Wa & Wb & _).
  assert (Ua : c11_universe_on x_Ht x_S x_wa) by (exists x_ta, x_oa; unfold x_S; auto 10).
  assert (Ub : c11_universe_on x_Ht x_S x_wb) by (exists x_tb, x_ob; unfold x_S; auto 10).
  apply (CP.reach_add _ _ _ _ x_q2 x_c2' 1 false); [| vm_compute; repeat split | | vm_compute; reflexivity].
  apply (CP.reach_add _ _ _ _ x_q1 x_c2 0 true); [| vm_compute; repeat split | | vm_compute; reflexivity].
  apply (CP.reach_add _ _ _ _ x_r0 x_c1 0 true); [| vm_compute; repeat split | | vm_compute; reflexivity].
  - apply CP.reach_init.
  - split; [vm_compute; reflexivity|]. intros t [<-|[]]. exact Ua.
  - split; [vm_compute; reflexivity|]. intros t [<-|[]]. exact Ub.
  - split; [vm_compute; reflexivity|]. intros t [<-|[]]. exact Ub.
Qed.

Example x_chain_inv_on : forall h, CP.stored x_q3 h ->
  (forall a1 t1 a2 t2, CP.anc x_q3 h a1 -> CP.anc x_q3 h a2 -> CI.tx_in x_q3 a1 t1 -> CI.tx_in x_q3 a2 t2 ->
     CM.tx_id t1 = CM.tx_id t2 -> a1 = a2).
Proof.
  intros h Sh.
  exact (proj1 (proj2 (accepted_chain_inv_c11_on x_Ht x_S x_Ht_inj_on CE.ex_g CE.ex_gp 7 CE.ex_g_num CE.ex_gp_num x_q3 x_history_on h Sh))).
Qed.

(* included_once_c11 on the instance: xb is included in both sibling blocks; seen from one head, two inclusions with xb's id
   are in one block *)
Example x_included_once : forall h a1 a2, CP.stored x_r3 h -> CP.anc x_r3 h a1 -> CP.anc x_r3 h a2 ->
  CI.tx_in x_r3 a1 x_vb -> CI.tx_in x_r3 a2 x_vb -> a1 = a2.
Proof.
  intros h a1 a2 Sh A1 A2 I1 I2. destruct x_wf as (_ & Wb & _).
  exact (proj1 (included_once_c11 x_H x_H_inj CE.ex_g CE.ex_gp 7 CE.ex_g_num CE.ex_gp_num x_r3 x_history h Sh
                  a1 a2 x_tb x_ob x_tb x_ob A1 A2 Wb Wb eq_refl I1 I2 eq_refl)).
Qed.
Example x_included_twice_on_siblings : CI.tx_in x_r3 (CE.bid 2 1) x_vb /\ CI.tx_in x_r3 (CE.bid 2 2) x_vb.
Proof. split; eexists; eexists; (split; [vm_compute; reflexivity | left; reflexivity]). Qed.

(* view_id_extract with a hash that collides on everything: xa and xb get one id, their signed parts differ, and the theorem
   exhibits the collision *)
Definition x_H0 (_ : bytes) : bytes := [].
Example x_extract_collision :
  CM.tx_id (view x_H0 x_ta x_oa) = CM.tx_id (view x_H0 x_tb x_ob) /\
  collision_in x_H0 (fun a => a = go_signing_tx x_ta \/ a = go_signing_tx x_tb \/
                              a = go_tx_signing_hash x_H0 x_ta ++ x_oa \/ a = go_tx_signing_hash x_H0 x_tb ++ x_ob).
Proof.
  assert (E : CM.tx_id (view x_H0 x_ta x_oa) = CM.tx_id (view x_H0 x_tb x_ob)) by reflexivity.
  split; [exact E|]. destruct x_wf as (Wa & Wb & _).
  destruct (view_id_extract x_H0 x_ta x_tb x_oa x_ob Wa Wb eq_refl E) as [(Sp & _)|C]; [|exact C].
  exfalso. exact (proj1 x_binding Sp).
Qed.
