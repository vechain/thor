(* Store/ProofsCommit.v — hasher.store (Store/Model.v wstore) is sound: what a commit writes, read back through the
   store, is the logical trie the working trie denoted; memory and store stay coherent.  with_entries is the getter after
   a commit.  Last part: ResC, resolution with a condition on every reference followed, and `survives`, the condition
   under which one checkpoint + delete round keeps a resolution. *)
From Coq Require Import List NArith Bool Arith Lia.
From Verif Require Import Trie.Model Store.Model Store.Proofs.
Import ListNotations.

Section PC.
  Variable V : Type.
  Notation snode := (snode V).
  Notation wnode := (wnode V).
  Notation node := (node V).
  Definition getter := list nat -> ver -> option snode.

  (* ---- resolution as a relation (no fuel) ---- *)
  Inductive Res (get : getter) : list nat -> snode -> node -> Prop :=
  | Res_nil p : Res get p SNil Nil
  | Res_val p v : Res get p (SValue v) (Value v)
  | Res_short p k c c' : Res get (p ++ k) c c' -> Res get p (SShort k c) (Short k c')
  | Res_full p cs cs' : ResL get p 0 cs cs' -> Res get p (SFull cs) (Full cs')
  | Res_ref p v b t : get p v = Some b -> Res get p b t -> Res get p (SRef v) t
  with ResL (get : getter) : list nat -> nat -> list snode -> list node -> Prop :=
  | ResL_nil p i : ResL get p i [] []
  | ResL_cons p i c c' t t' : Res get (p ++ [i]) c c' -> ResL get p (S i) t t' -> ResL get p i (c :: t) (c' :: t').

  Scheme Res_mut := Induction for Res Sort Prop
  with ResL_mut := Induction for ResL Sort Prop.

  Definition sub (g g' : getter) : Prop := forall p v b, g p v = Some b -> g' p v = Some b.

  Lemma Res_mono g g' : sub g g' -> forall p n t, Res g p n t -> Res g' p n t.
  Proof.
    intros S.
    apply (Res_mut g (fun p n t _ => Res g' p n t) (fun p i cs cs' _ => ResL g' p i cs cs')); intros; try (constructor; auto).
    eapply Res_ref; eauto.
  Qed.

  (* the fuel-based expand of Store/Model.v computes a resolution *)
  Lemma expand_Res : forall f (g : getter) p n t, expand V f g p n = Some t -> Res g p n t.
  Proof.
    induction f; intros g p n t H; cbn in H; [discriminate|].
    destruct n.
    - inversion H; constructor.
    - inversion H; constructor.
    - destruct (expand V f g (p ++ k) n) eqn:E; [|discriminate]. inversion H; subst. constructor; auto.
    - assert (G : forall l i r, expand_list V f g p l i = Some r -> ResL g p i l r).
      { induction l; intros i r Hr; [inversion Hr; constructor|]. rewrite expand_list_cons in Hr.
        destruct (expand V f g (p ++ [i]) a) eqn:E; [|discriminate].
        destruct (expand_list V f g p l (S i)) eqn:E2; [|discriminate].
        inversion Hr; subst. constructor; auto. }
      fold (expand_list V f g p) in H.
      destruct (expand_list V f g p cs 0) eqn:E; [|discriminate].
      inversion H; subst. constructor. apply G; auto.
    - destruct (g p v) eqn:E; [|discriminate]. eapply Res_ref; eauto.
  Qed.

  (* ---- what a working trie denotes, and its coherence with the store ---- *)
  Inductive WRes (get : getter) : list nat -> wnode -> node -> Prop :=
  | WRes_nil p : WRes get p WNil Nil
  | WRes_val p v : WRes get p (WValue v) (Value v)
  | WRes_short p k c f c' : WRes get (p ++ k) c c' -> WRes get p (WShort k c f) (Short k c')
  | WRes_full p cs f cs' : WResL get p 0 cs cs' -> WRes get p (WFull cs f) (Full cs')
  | WRes_ref p v b t : get p v = Some b -> Res get p b t -> WRes get p (WRef v) t
  with WResL (get : getter) : list nat -> nat -> list wnode -> list node -> Prop :=
  | WResL_nil p i : WResL get p i [] []
  | WResL_cons p i c c' t t' : WRes get (p ++ [i]) c c' -> WResL get p (S i) t t' -> WResL get p i (c :: t) (c' :: t').

  Scheme WRes_mut := Induction for WRes Sort Prop
  with WResL_mut := Induction for WResL Sort Prop.

  (* a clean node's blob in the store is its encoding; no empty short keys (distinct paths) *)
  Inductive Coh (get : getter) : list nat -> wnode -> Prop :=
  | Coh_nil p : Coh get p WNil
  | Coh_val p v : Coh get p (WValue v)
  | Coh_ref p v : Coh get p (WRef v)
  | Coh_short p k c f : k <> [] -> Coh get (p ++ k) c ->
      (forall v, f = Clean v -> get p v = Some (enc V (WShort k c f))) -> Coh get p (WShort k c f)
  | Coh_full p cs f : CohL get p 0 cs ->
      (forall v, f = Clean v -> get p v = Some (enc V (WFull cs f))) -> Coh get p (WFull cs f)
  with CohL (get : getter) : list nat -> nat -> list wnode -> Prop :=
  | CohL_nil p i : CohL get p i []
  | CohL_cons p i c t : Coh get (p ++ [i]) c -> CohL get p (S i) t -> CohL get p i (c :: t).

  Scheme Coh_mut := Induction for Coh Sort Prop
  with CohL_mut := Induction for CohL Sort Prop.

  Lemma WRes_mono g g' : sub g g' -> forall p n t, WRes g p n t -> WRes g' p n t.
  Proof.
    intros S.
    apply (WRes_mut g (fun p n t _ => WRes g' p n t) (fun p i cs cs' _ => WResL g' p i cs cs')); intros; try (constructor; auto).
    eapply WRes_ref; eauto. eapply Res_mono; eauto.
  Qed.

  Lemma Coh_mono g g' : sub g g' -> forall p n, Coh g p n -> Coh g' p n.
  Proof.
    intros S.
    apply (Coh_mut g (fun p n _ => Coh g' p n) (fun p i cs _ => CohL g' p i cs)); intros; constructor; auto.
  Qed.

  Lemma enc_short k c f : enc V (WShort k c f) = SShort k (enc_child V c).
  Proof. reflexivity. Qed.
  Lemma enc_full cs f : enc V (WFull cs f) = SFull (map (enc_child V) cs).
  Proof. reflexivity. Qed.

  (* a coherent working trie: its encoding (inline or by reference) resolves to what it denotes *)
  Lemma coh_enc g : forall p n t, WRes g p n t -> Coh g p n -> Res g p (enc V n) t /\ Res g p (enc_child V n) t.
  Proof.
    apply (WRes_mut g (fun p n t _ => Coh g p n -> Res g p (enc V n) t /\ Res g p (enc_child V n) t)
                      (fun p i cs cs' _ => CohL g p i cs -> ResL g p i (map (enc_child V) cs) cs')).
    - intros p _. split; constructor.
    - intros p v _. split; constructor.
    - intros p k c f c' Hc IH HC. inversion HC as [| | |p0 k0 c0 f0 Hk Hcc Hf|]; subst.
      destruct (IH Hcc) as [_ I2].
      assert (E : Res g p (enc V (WShort k c f)) (Short k c')) by (rewrite enc_short; constructor; auto).
      split; auto. destruct f as [|v]; cbn [enc_child]; auto.
      eapply Res_ref; [apply (Hf v eq_refl)|exact E].
    - intros p cs f cs' Hc IH HC. inversion HC as [| | | |p0 cs0 f0 Hcc Hf]; subst.
      assert (E : Res g p (enc V (WFull cs f)) (Full cs')) by (rewrite enc_full; constructor; auto).
      split; auto. destruct f as [|v]; cbn [enc_child]; auto.
      eapply Res_ref; [apply (Hf v eq_refl)|exact E].
    - intros p v b t Hg Hr _. split; cbn; eapply Res_ref; eauto.
    - intros p i _. constructor.
    - intros p i c c' t t' Hc IHc Ht IHt HC. inversion HC; subst. cbn [map]. constructor; auto. apply IHc; auto.
  Qed.

  Section Store.
    Variable big : wnode -> bool.
    Variable skip : bool.
    Variable newv : ver.

    Definition wchildren (path : list nat) (l : list wnode) (i : nat) : list wnode * list (list nat * snode) :=
      wchildren_with V (fun p c => wstore V big skip newv p c) path l i.
    Arguments wchildren : simpl never.

    Lemma wchildren_cons path c t i :
      wchildren path (c :: t) i =
      let '(c', ec) := if is_dirty_inner V c && (i <? 16)%nat
                       then wstore V big skip newv (path ++ [i]) c else (c, []) in
      let '(t', et) := wchildren path t (S i) in
      (c' :: t', ec ++ et).
    Proof. reflexivity. Qed.

    Lemma wchildren_nil path i : wchildren path [] i = ([], []).
    Proof. reflexivity. Qed.

    Lemma wstore_full path cs f :
      wstore V big skip newv path (WFull cs f) =
      let r := wchildren path cs 0 in
      let n1 := WFull (fst r) f in
      if is_root path || big n1 || skip
      then (WFull (fst r) (Clean newv), (path, enc V n1) :: snd r)
      else (n1, snd r).
    Proof. reflexivity. Qed.

    Lemma wstore_short path k c f :
      wstore V big skip newv path (WShort k c f) =
      let '(c', ec) := if is_dirty_inner V c then wstore V big skip newv (path ++ k) c else (c, []) in
      let n1 := WShort k c' f in
      if is_root path || skip
      then (WShort k c' (Clean newv), (path, enc V n1) :: ec)
      else (n1, ec).
    Proof. reflexivity. Qed.

    Definition storable (p : list nat) (n : wnode) : Prop := is_root p = true \/ is_dirty_inner V n = true.

    Variables g g' : getter.
    Hypothesis Hsub : sub g g'.

    Definition entries_in (es : list (list nat * snode)) : Prop := forall q b, In (q, b) es -> g' q newv = Some b.

    Lemma wstore_sound_local : forall p n t, WRes g p n t ->
      Coh g p n -> storable p n ->
      forall n' es, wstore V big skip newv p n = (n', es) -> entries_in es ->
      Coh g' p n' /\ WRes g' p n' t.
    Proof.
      apply (WRes_mut g
        (fun p n t _ => Coh g p n -> storable p n ->
           forall n' es, wstore V big skip newv p n = (n', es) -> entries_in es -> Coh g' p n' /\ WRes g' p n' t)
        (fun p i cs cts _ => CohL g p i cs ->
           forall cs' es, wchildren p cs i = (cs', es) -> entries_in es -> CohL g' p i cs' /\ WResL g' p i cs' cts)).
      - intros p _ _ n' es H _. inversion H; subst. split; constructor.
      - intros p v _ _ n' es H _. inversion H; subst. split; constructor.
      - (* short *)
        intros p k c f ct Hc IH HC Hst n' es H Hin.
        inversion HC as [| | |p0 k0 c0 f0 Hk Hcc Hf|]; subst.
        rewrite wstore_short in H.
        set (X := if is_dirty_inner V c then wstore V big skip newv (p ++ k) c else (c, [])) in *.
        assert (Child : entries_in (snd X) -> Coh g' (p ++ k) (fst X) /\ WRes g' (p ++ k) (fst X) ct).
        { subst X. destruct (is_dirty_inner V c) eqn:D.
          - apply (IH Hcc (or_intror D)). apply surjective_pairing.
          - intros _. split; [eapply Coh_mono; eauto|eapply WRes_mono; eauto]. }
        destruct X as [c' ec]. cbn [fst snd] in Child.
        cbv zeta in H. destruct (is_root p || skip) eqn:St; inversion H; subst n' es.
        + destruct Child as [C1 C2]. { intros q b I. apply Hin. right; auto. }
          split; [|constructor; auto]. constructor; auto.
          intros v Ev. inversion Ev; subst v. rewrite (enc_short k c' (Clean newv)), <- (enc_short k c' f). apply Hin. left; auto.
        + destruct (Child Hin) as [C1 C2].
          split; [|constructor; auto]. constructor; auto.
          intros v Ev. exfalso. destruct Hst as [R|D]; [rewrite R in St; discriminate|]. subst f. cbn in D. discriminate.
      - (* full *)
        intros p cs f cts Hc IH HC Hst n' es H Hin.
        inversion HC as [| | | |p0 cs0 f0 Hcc Hf]; subst.
        rewrite wstore_full in H. cbv zeta in H.
        destruct (wchildren p cs 0) as [cs' ecs] eqn:E. cbn [fst snd] in H.
        destruct (is_root p || big (WFull cs' f) || skip) eqn:St; inversion H; subst n' es.
        + destruct (IH Hcc cs' ecs eq_refl) as [C1 C2]. { intros q b I. apply Hin. right; auto. }
          split; [|constructor; auto]. constructor; auto.
          intros v Ev. inversion Ev; subst v. rewrite (enc_full cs' (Clean newv)), <- (enc_full cs' f). apply Hin. left; auto.
        + destruct (IH Hcc cs' ecs eq_refl Hin) as [C1 C2].
          split; [|constructor; auto]. constructor; auto.
          intros v Ev. exfalso. destruct Hst as [R|D]; [rewrite R in St; discriminate|]. subst f. cbn in D. discriminate.
      - (* ref *)
        intros p v b t Hg Hr _ _ n' es H _. inversion H; subst. split; [constructor|].
        eapply WRes_ref; [apply Hsub; eauto|eapply Res_mono; eauto].
      - intros p i _ cs' es H _. rewrite wchildren_nil in H. inversion H; subst. split; constructor.
      - intros p i c ct t tt Hc IHc Ht IHt HC cs' es H Hin.
        inversion HC as [|p0 i0 c0 t0 Hc0 Ht0]; subst. rewrite wchildren_cons in H.
        destruct (if is_dirty_inner V c && (i <? 16)%nat then wstore V big skip newv (p ++ [i]) c else (c, [])) as [c' ec] eqn:E1.
        destruct (wchildren p t (S i)) as [t' et] eqn:E2. inversion H; subst cs' es.
        assert (Hec : entries_in ec) by (intros q b I; apply Hin; apply in_or_app; auto).
        assert (Het : entries_in et) by (intros q b I; apply Hin; apply in_or_app; auto).
        destruct (IHt Ht0 t' et eq_refl Het) as [T1 T2].
        assert (Cc : Coh g' (p ++ [i]) c' /\ WRes g' (p ++ [i]) c' ct).
        { destruct (is_dirty_inner V c && (i <? 16)%nat) eqn:D.
          - apply andb_true_iff in D. destruct D as [D _]. apply (IHc Hc0 (or_intror D) c' ec E1 Hec).
          - inversion E1; subst. split; [eapply Coh_mono; eauto|eapply WRes_mono; eauto]. }
        destruct Cc. split; constructor; auto.
    Qed.
  End Store.

  (* ---- the entries of one commit: distinct paths, found again by path ---- *)
  Lemma path_eqb_eq a : forall b, path_eqb a b = true <-> a = b.
  Proof.
    induction a as [|x a IH]; destruct b as [|y b]; cbn; try (split; [discriminate|intros E; discriminate]); try tauto.
    rewrite andb_true_iff, Nat.eqb_eq, IH. split; [intros [-> ->]; auto|intros E; inversion E; auto].
  Qed.
  Lemma path_eqb_refl a : path_eqb a a = true.
  Proof. apply path_eqb_eq; auto. Qed.

  Fixpoint lookup (q : list nat) (es : list (list nat * snode)) : option snode :=
    match es with
    | [] => None
    | (p, b) :: t => if path_eqb q p then Some b else lookup q t
    end.

  Lemma lookup_app q e1 e2 : lookup q (e1 ++ e2) = match lookup q e1 with Some b => Some b | None => lookup q e2 end.
  Proof. induction e1 as [|[p b] e1 IH]; cbn; auto. destruct (path_eqb q p); auto. Qed.

  Lemma lookup_none q es : (forall q' b', In (q', b') es -> q' <> q) -> lookup q es = None.
  Proof.
    induction es as [|[p b] es IH]; cbn; intros H; auto.
    destruct (path_eqb q p) eqn:E.
    - apply path_eqb_eq in E. exfalso. apply (H p b); auto.
    - apply IH. intros q' b' I. apply (H q' b'); auto.
  Qed.

  Section Paths.
    Variable big : wnode -> bool.
    Variable skip : bool.
    Variable newv : ver.
    Variable g : getter.

    Lemma wstore_paths : forall p n, Coh g p n ->
      forall q b, In (q, b) (snd (wstore V big skip newv p n)) ->
      (exists r, q = p ++ r) /\ lookup q (snd (wstore V big skip newv p n)) = Some b.
    Proof.
      apply (Coh_mut g
        (fun p n _ => forall q b, In (q, b) (snd (wstore V big skip newv p n)) ->
           (exists r, q = p ++ r) /\ lookup q (snd (wstore V big skip newv p n)) = Some b)
        (fun p i cs _ => forall q b, In (q, b) (snd (wchildren big skip newv p cs i)) ->
           (exists j r, (i <= j)%nat /\ q = p ++ j :: r) /\ lookup q (snd (wchildren big skip newv p cs i)) = Some b)).
      - intros p q b I. cbn in I. tauto.
      - intros p v q b I. cbn in I. tauto.
      - intros p v q b I. cbn in I. tauto.
      - (* short *)
        intros p k c f Hk Hc IH Hf q b I. rewrite wstore_short in *.
        set (X := if is_dirty_inner V c then wstore V big skip newv (p ++ k) c else (c, [])) in *.
        assert (Child : forall q b, In (q, b) (snd X) -> (exists r, q = (p ++ k) ++ r) /\ lookup q (snd X) = Some b)
          by (subst X; destruct (is_dirty_inner V c); [exact IH|intros ? ? []]).
        destruct X as [c' ec]. cbv zeta in *. destruct (is_root p || skip); cbn [snd] in *.
        + destruct I as [I|I].
          * inversion I; subst. split; [exists []; rewrite app_nil_r; auto|]. cbn. rewrite path_eqb_refl. reflexivity.
          * destruct (Child q b I) as [[r Er] L]. split; [exists (k ++ r); rewrite Er, app_assoc; auto|].
            cbn. destruct (path_eqb q p) eqn:Q; auto. apply path_eqb_eq in Q. exfalso.
            rewrite Er, <- app_assoc in Q. apply (f_equal (@length nat)) in Q. rewrite !app_length in Q.
            destruct k; [congruence|cbn in Q; lia].
        + destruct (Child q b I) as [[r Er] L]. split; auto. exists (k ++ r). rewrite Er, app_assoc; auto.
      - (* full *)
        intros p cs f Hc IH Hf q b I. rewrite wstore_full in *. cbv zeta in *.
        destruct (wchildren big skip newv p cs 0) as [cs' ecs] eqn:E. cbn [fst snd] in *.
        destruct (is_root p || big (WFull cs' f) || skip); cbn [snd] in *.
        + destruct I as [I|I].
          * inversion I; subst. split; [exists []; rewrite app_nil_r; auto|]. cbn. rewrite path_eqb_refl. reflexivity.
          * destruct (IH q b I) as [[j [r [_ Er]]] L]. split; [exists (j :: r); auto|].
            cbn. destruct (path_eqb q p) eqn:Q; auto. apply path_eqb_eq in Q. exfalso.
            rewrite Er in Q. apply (f_equal (@length nat)) in Q. rewrite app_length in Q. cbn in Q. lia.
        + destruct (IH q b I) as [[j [r [_ Er]]] L]. split; auto. exists (j :: r); auto.
      - intros p i q b I. cbn in I. tauto.
      - (* children *)
        intros p i c t Hc IHc Ht IHt q b I. rewrite wchildren_cons in *.
        set (X := if is_dirty_inner V c && (i <? 16)%nat then wstore V big skip newv (p ++ [i]) c else (c, [])) in *.
        assert (Child : forall q b, In (q, b) (snd X) -> (exists r, q = p ++ i :: r) /\ lookup q (snd X) = Some b).
        { subst X. destruct (is_dirty_inner V c && (i <? 16)%nat); [|intros ? ? []].
          intros q0 b0 I0. destruct (IHc q0 b0 I0) as [[r Er] L]. split; auto. exists r. rewrite Er, <- app_assoc. reflexivity. }
        destruct X as [c' ec].
        destruct (wchildren big skip newv p t (S i)) as [t' et] eqn:E2. cbn [snd] in *.
        rewrite lookup_app. apply in_app_or in I. destruct I as [I|I].
        + destruct (Child q b I) as [[r Er] L]. rewrite L. split; auto. exists i, r; auto.
        + destruct (IHt q b I) as [[j [r [Lj Er]]] L].
          rewrite (lookup_none q ec).
          * split; auto. exists j, r; split; auto; lia.
          * intros q' b' I' Q. destruct (Child q' b' I') as [[r' Er'] _].
            rewrite Er, Er' in Q. apply app_inv_head in Q. inversion Q. lia.
    Qed.
  End Paths.

  Definition with_entries (g : getter) (v : ver) (es : list (list nat * snode)) : getter :=
    fun p w => if ver_eqb w v then match lookup p es with Some b => Some b | None => g p w end else g p w.

  Lemma sget_commit (s : store V) name v es p w :
    sget V (commit V s name v es) name p w = with_entries (sget V s name) v es p w.
  Proof.
    unfold with_entries, sget, commit. cbn [hist dedup hf df dptn].
    induction es as [|[q b] es IH]; cbn [map app hist_find lookup fst snd].
    - destruct (ver_eqb w v); reflexivity.
    - rewrite N.eqb_refl. cbn [andb]. rewrite (andb_comm (path_eqb p q)).
      destruct (ver_eqb w v) eqn:E; cbn [andb].
      + destruct (path_eqb p q); auto; rewrite E in IH; exact IH.
      + try (rewrite E in IH); exact IH.
  Qed.

  Lemma with_entries_at g v es p : with_entries g v es p v = match lookup p es with Some b => Some b | None => g p v end.
  Proof. unfold with_entries. rewrite ver_eqb_refl. reflexivity. Qed.

  Lemma with_entries_other g v es p w : w <> v -> with_entries g v es p w = g p w.
  Proof. intros H. unfold with_entries. rewrite ver_eqb_false by auto. reflexivity. Qed.

  Definition is_inner (n : wnode) : Prop := match n with WShort _ _ _ | WFull _ _ => True | _ => False end.

  Lemma wstore_root_clean big skip newv (n : wnode) : is_inner n ->
    enc_child V (fst (wstore V big skip newv [] n)) = SRef newv.
  Proof.
    intros Hin. destruct n; cbn in Hin; try contradiction.
    - rewrite wstore_short. destruct (if is_dirty_inner V n then _ else _). reflexivity.
    - rewrite wstore_full. reflexivity.
  Qed.

  (* ---- reading back, for an abstract getter that is silent at the new version ---- *)
  Lemma wstore_reads_back_g (g0 : getter) newv big skip n t :
    (forall p, g0 p newv = None) ->
    Coh g0 [] n -> WRes g0 [] n t -> is_inner n ->
    let n' := fst (wstore V big skip newv [] n) in
    let g0' := with_entries g0 newv (snd (wstore V big skip newv [] n)) in
    Res g0' [] (SRef newv) t /\ Coh g0' [] n' /\ WRes g0' [] n' t /\ enc_child V n' = SRef newv /\
    (forall q b, g0' q newv = Some b -> lookup q (snd (wstore V big skip newv [] n)) = Some b).
  Proof.
    intros Fresh HC HW Hin n' g0'.
    set (es := snd (wstore V big skip newv [] n)) in *.
    assert (S1 : sub g0 g0').
    { intros p w b H. unfold g0'. rewrite with_entries_other; auto. intros ->. rewrite Fresh in H. discriminate. }
    assert (En : entries_in newv g0' es).
    { intros q b I. unfold g0'. rewrite with_entries_at.
      destruct (wstore_paths big skip newv g0 [] n HC q b I) as [_ L]. fold es in L. rewrite L. reflexivity. }
    destruct (wstore_sound_local big skip newv g0 g0' S1 [] n t HW HC (or_introl eq_refl) n' es) as [C1 W1]; auto.
    { unfold n', es. destruct (wstore V big skip newv [] n); reflexivity. }
    pose proof (wstore_root_clean big skip newv n Hin) as Cl. fold n' in Cl.
    split; [|split; [exact C1|split; [exact W1|split; [exact Cl|]]]].
    - destruct (coh_enc g0' [] n' t W1 C1) as [_ E2]. rewrite Cl in E2. exact E2.
    - intros q b H. unfold g0' in H. rewrite with_entries_at in H. destruct (lookup q es); auto.
      rewrite Fresh in H. discriminate.
  Qed.

  (* Trie.Commit(newVer): the root written by hasher.store, read back through the store, is the trie the handle denoted;
     the handle (with its new flags) still denotes it and is coherent with the new store *)
  Theorem commit_reads_back_lemma (s : store V) name newv big skip n t :
    (forall p, sget V s name p newv = None) ->
    Coh (sget V s name) [] n -> WRes (sget V s name) [] n t -> is_inner n ->
    let n' := fst (wstore V big skip newv [] n) in
    let s' := commit V s name newv (snd (wstore V big skip newv [] n)) in
    Res (sget V s' name) [] (SRef newv) t /\ Coh (sget V s' name) [] n' /\ WRes (sget V s' name) [] n' t.
  Proof.
    intros Fresh HC HW Hin n' s'.
    destruct (wstore_reads_back_g _ newv big skip n t Fresh HC HW Hin) as (R & C & W & _).
    assert (S2 : sub (with_entries (sget V s name) newv (snd (wstore V big skip newv [] n))) (sget V s' name))
      by (intros p w b H; unfold s'; rewrite sget_commit; exact H).
    split; [eapply Res_mono; eauto|split; [eapply Coh_mono; eauto|eapply WRes_mono; eauto]].
  Qed.

  (* ---- pruning: resolution with a condition on every reference that is followed ---- *)
  Inductive ResC (ok : list nat -> ver -> snode -> Prop) (get : getter) : list nat -> snode -> node -> Prop :=
  | ResC_nil p : ResC ok get p SNil Nil
  | ResC_val p v : ResC ok get p (SValue v) (Value v)
  | ResC_short p k c c' : ResC ok get (p ++ k) c c' -> ResC ok get p (SShort k c) (Short k c')
  | ResC_full p cs cs' : ResCL ok get p 0 cs cs' -> ResC ok get p (SFull cs) (Full cs')
  | ResC_ref p v b t : get p v = Some b -> ok p v b -> ResC ok get p b t -> ResC ok get p (SRef v) t
  with ResCL (ok : list nat -> ver -> snode -> Prop) (get : getter) : list nat -> nat -> list snode -> list node -> Prop :=
  | ResCL_nil p i : ResCL ok get p i [] []
  | ResCL_cons p i c c' t t' : ResC ok get (p ++ [i]) c c' -> ResCL ok get p (S i) t t' -> ResCL ok get p i (c :: t) (c' :: t').

  Scheme ResC_mut := Induction for ResC Sort Prop
  with ResCL_mut := Induction for ResCL Sort Prop.

  Lemma ResC_transfer (ok : list nat -> ver -> snode -> Prop) (g g' : getter) :
    (forall p v b, g p v = Some b -> ok p v b -> g' p v = Some b) ->
    forall p n t, ResC ok g p n t -> Res g' p n t.
  Proof.
    intros H.
    apply (ResC_mut ok g (fun p n t _ => Res g' p n t) (fun p i cs cs' _ => ResL g' p i cs cs')); intros; try (constructor; auto).
    eapply Res_ref; eauto.
  Qed.

  (* every reference followed while resolving is either stored (hist) at a version outside the deleted partitions, or
     its blob is what the deduped space holds for its path after the checkpoints (and it is not an account/index root) *)
  Definition survives (s : store V) (cps : list (N * list (list nat * ver * snode))) (base target : N) (name : N)
             (p : list nat) (v : ver) (b : snode) : Prop :=
    (in_deleted V s base target v = false /\ hist_find V (hist V s) name p v = Some b) \/
    (in_deleted V s base target v = true /\ (is_root p && root_only name = false) /\
     dedup_find V (dedup V (checkpoints V s cps)) (dptn V s (fst v)) name p = Some b).

  (* a resolution all of whose followed references survive a checkpoint + delete round is a resolution, to the same
     trie, after the round *)
  Theorem prune_preserves_resolution (s : store V) cps base target name p n t :
    ResC (survives s cps base target name) (sget V s name) p n t ->
    Res (sget V (prune V s cps base target) name) p n t.
  Proof.
    apply ResC_transfer. intros q v b Hg [[Nd Hh]|[Dl [Nr Dd]]]; rewrite sget_prune.
    - rewrite Nd, Hh. reflexivity.
    - rewrite Dl, Nr. exact Dd.
  Qed.
End PC.
