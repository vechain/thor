(* Crash/ProofsEqv.v — the import path reads only chain / bft keys: two stores that agree outside the trie-node and
   code spaces get the same steps, and equivalent stores stay equivalent along a run. *)
From Coq Require Import List NArith Bool Lia Permutation.
From Verif Require Import Crash.Model Crash.ProofsStore Crash.ProofsInv Crash.ProofsImport.
Import ListNotations.
Open Scope N_scope.

Definition aux_key (k : key) : bool := match k with KNode _ _ _ _ => true | KCode _ => true | _ => false end.
Definition eqv_na (s s' : store) : Prop := forall k, aux_key k = false -> get s k = get s' k.
Definition eqv (s s' : store) : Prop := forall k, get s k = get s' k.

Lemma eqv_eqv_na s s' : eqv s s' -> eqv_na s s'.
Proof. intros H k _. apply H. Qed.
Lemma eqv_na_refl s : eqv_na s s. Proof. intros k _. reflexivity. Qed.
Lemma eqv_refl s : eqv s s. Proof. intro k. reflexivity. Qed.
Lemma eqv_na_sym s s' : eqv_na s s' -> eqv_na s' s. Proof. intros H k Hk. symmetry. auto. Qed.
Lemma eqv_sym s s' : eqv s s' -> eqv s' s. Proof. intros H k. symmetry. auto. Qed.
Lemma eqv_trans a b c : eqv a b -> eqv b c -> eqv a c. Proof. intros H1 H2 k. rewrite H1. auto. Qed.
Lemma eqv_na_trans a b c : eqv_na a b -> eqv_na b c -> eqv_na a c. Proof. intros H1 H2 k Hk. rewrite H1; auto. Qed.

Lemma bsearch_ext f g : (forall i, f i = g i) -> forall fuel i j, bsearch fuel f i j = bsearch fuel g i j.
Proof.
  intro H. induction fuel as [|fu IH]; intros i j; simpl; auto.
  destruct (i <? j); auto. rewrite H. destruct (g ((i + j) / 2)) as [[|]|]; auto.
Qed.

(* ---- enumeration: ScanConflicts / GetMaxBlockNum only depend on which summaries are stored *)

Lemma summary_ids_nodup s : NoDup (summary_ids s).
Proof.
  induction s as [|o r IH]; simpl; [constructor|].
  destruct o as [k v|k]; auto. destruct k; auto.
  destruct (existsb (N.eqb id) (summary_ids r)) eqn:Ex; auto.
  constructor; auto. intro Hin.
  assert (existsb (N.eqb id) (summary_ids r) = true) by (apply existsb_exists; exists id; split; auto; apply N.eqb_refl).
  congruence.
Qed.

Lemma summary_ids_put s id v : In id (summary_ids (Put (KSummary id) v :: s)).
Proof.
  simpl. destruct (existsb (N.eqb id) (summary_ids s)) eqn:Ex; [|left; auto].
  apply existsb_exists in Ex. destruct Ex as (x & Hx & Ex). apply N.eqb_eq in Ex. subst. auto.
Qed.

Lemma summary_ids_mono s o id : In id (summary_ids s) -> In id (summary_ids (o :: s)).
Proof.
  intro H. destruct o as [k v|k]; simpl; auto. destruct k; auto.
  destruct (existsb (N.eqb id0) (summary_ids s)); auto. right; auto.
Qed.

Lemma stored_in_ids s id : stored s id = true -> In id (summary_ids s).
Proof.
  unfold stored, get_summary. induction s as [|o r IH]; [simpl; discriminate|].
  cbn [get]. destruct o as [k v|k].
  - destruct (key_eq_dec (KSummary id) k) as [<-|Hne].
    + intros _. apply summary_ids_put.
    + intro H. apply summary_ids_mono. auto.
  - destruct (key_eq_dec (KSummary id) k) as [<-|Hne]; [discriminate|].
    intro H. apply summary_ids_mono. auto.
Qed.

Lemma fold_max_ge l x : In x l -> x <= fold_right N.max 0 l.
Proof. induction l as [|a l IH]; simpl; [tauto|]. intros [->|H]; [lia|]. specialize (IH H). lia. Qed.

Lemma fold_max_in l : l <> [] -> In (fold_right N.max 0 l) l.
Proof.
  induction l as [|a l IH]; [congruence|]. intros _. simpl.
  destruct l as [|b l']; [simpl; left; lia|].
  destruct (N.max_spec a (fold_right N.max 0 (b :: l'))) as [[_ ->]|[_ ->]]; [right; apply IH; discriminate|left; auto].
Qed.

Lemma fold_max_incl l1 l2 : incl l1 l2 -> fold_right N.max 0 l1 <= fold_right N.max 0 l2.
Proof.
  intro H. destruct l1 as [|a l]; [simpl; lia|].
  apply fold_max_ge. apply H. apply fold_max_in. discriminate.
Qed.

(* ---- what the import path reads of a store: summaries, quality records, the best pointer (and the finalized record,
   for the finality check only) *)

Section ReadExt.
  Variables s s' : store.
  Hypothesis HS : forall id, get_summary s id = get_summary s' id.
  Hypothesis HQ : forall id, get_quality s id = get_quality s' id.

  Lemma ext_stored id : stored s id = stored s' id.
  Proof. unfold stored. rewrite HS. reflexivity. Qed.

  Lemma ext_anc id n : anc s id n = anc s' id n.
  Proof. unfold anc. apply ancestor_ext. auto. Qed.

  Lemma ext_quality_of c p n j : quality_of c s p n j = quality_of c s' p n j.
  Proof. unfold quality_of. rewrite ext_anc. destruct (n / c_L c =? 0); auto. destruct (anc s' p _); auto. rewrite HQ. auto. Qed.

  Lemma ext_find_checkpoint c t fin head : find_checkpoint c s t fin head = find_checkpoint c s' t fin head.
  Proof.
    unfold find_checkpoint. destruct (num_of head <? num_of fin); auto.
    rewrite (bsearch_ext
      (fun i => match match anc s head (storepoint (c_L c) (num_of fin + i * c_L c)) with Some id => Some (get_quality s id) | None => None end with
                | Some x => Some (t <=? x) | None => None end)
      (fun i => match match anc s' head (storepoint (c_L c) (num_of fin + i * c_L c)) with Some id => Some (get_quality s' id) | None => None end with
                | Some x => Some (t <=? x) | None => None end)).
    2:{ intro i. rewrite ext_anc. destruct (anc s' head _); auto. rewrite HQ. auto. }
    destruct (bsearch _ _ 0 _) as [idx|]; auto.
    destruct (idx =? _); auto.
    rewrite ext_anc. destruct (anc s' head (storepoint _ _)) as [x|]; auto.
    rewrite HQ. destruct (get_quality s' x =? t); auto. apply ext_anc.
  Qed.

  Lemma ext_select c b : get_id s KBest = get_id s' KBest -> select c s b = select c s' b.
  Proof.
    intro HB. unfold select. rewrite HB. destruct (get_id s' KBest) as [best|]; auto. rewrite HS.
    destruct (get_summary s' best) as [bs|]; auto. rewrite !ext_quality_of. auto.
  Qed.
End ReadExt.

Lemma scan_conflicts_ext s s' n : (forall id, stored s id = stored s' id) -> scan_conflicts s n = scan_conflicts s' n.
Proof.
  intro H. unfold scan_conflicts. f_equal. apply Permutation_length.
  apply NoDup_Permutation; try (apply NoDup_filter, summary_ids_nodup).
  intro x. rewrite !filter_In. rewrite (H x).
  split; intros [_ Hx]; split; auto; apply stored_in_ids; apply andb_true_iff in Hx; destruct Hx as [Hx _]; auto.
  rewrite (H x); auto.
Qed.

Lemma max_num_ext s s' : (forall id, stored s id = stored s' id) -> max_num s = max_num s'.
Proof.
  intro H. unfold max_num.
  assert (X : forall a b, (forall id, stored a id = stored b id) ->
              incl (map num_of (filter (stored a) (summary_ids a))) (map num_of (filter (stored b) (summary_ids b)))).
  { intros a b Eab x Hx. apply in_map_iff in Hx. destruct Hx as (id & <- & Hid). apply filter_In in Hid. destruct Hid as [_ Hs].
    apply in_map. apply filter_In. rewrite (Eab id) in Hs. split; auto. apply stored_in_ids; auto. }
  apply N.le_antisymm; apply fold_max_incl; auto.
Qed.

Section Congruence.
  Variables s s' : store.
  Hypothesis E : eqv_na s s'.

  Lemma na_get_summary id : get_summary s id = get_summary s' id.
  Proof. unfold get_summary. rewrite E; auto. Qed.
  Lemma na_stored id : stored s id = stored s' id.
  Proof. unfold stored. rewrite na_get_summary. auto. Qed.
  Lemma na_get_id k : aux_key k = false -> get_id s k = get_id s' k.
  Proof. intro H. unfold get_id. rewrite E; auto. Qed.
  Lemma na_get_quality id : get_quality s id = get_quality s' id.
  Proof. unfold get_quality. rewrite E; auto. Qed.
  Lemma na_has k : aux_key k = false -> has s k = has s' k.
  Proof. intro H. unfold has. rewrite E; auto. Qed.
  Lemma na_finalized c : finalized c s = finalized c s'.
  Proof. unfold finalized. rewrite na_get_id; auto. Qed.
  Lemma na_accepts c p : accepts c s p = accepts c s' p.
  Proof. unfold accepts. rewrite na_finalized, (ext_anc s s' na_get_summary). auto. Qed.
End Congruence.

Lemma aux_key_op_key_ne k k' : aux_key k = false -> aux_key k' = true -> k <> k'.
Proof. intros H1 H2 E. subst. congruence. Qed.

Lemma eqv_na_apply_batch s s' w : eqv_na s s' -> eqv_na (apply_batch s w) (apply_batch s' w).
Proof. intros E k Hk. apply get_apply_batch_ext, E, Hk. Qed.
Lemma eqv_na_apply_writes ws s s' : eqv_na s s' -> eqv_na (apply_writes s ws) (apply_writes s' ws).
Proof. intros E k Hk. apply get_apply_writes_ext, E, Hk. Qed.
Lemma eqv_apply_writes ws s s' : eqv s s' -> eqv (apply_writes s ws) (apply_writes s' ws).
Proof. intros E k. apply get_apply_writes_ext, E. Qed.

Lemma na_commit_steps s s' c id parent just comm : eqv_na s s' ->
  commit_steps c s id parent just comm = commit_steps c s' id parent just comm.
Proof.
  intro E. unfold commit_steps. destruct (is_storepoint _ _); auto.
  rewrite (ext_quality_of s s' (na_get_summary s s' E) (na_get_quality s s' E)).
  destruct (quality_of c s' parent (num_of id) just) as [q|]; auto.
  rewrite (na_finalized s s' E). set (wq := [Put (KQuality id) (VNum q)]).
  assert (E4 : eqv_na (apply_batch s wq) (apply_batch s' wq)) by auto using eqv_na_apply_batch.
  rewrite (ext_find_checkpoint _ _ (na_get_summary _ _ E4) (na_get_quality _ _ E4)). reflexivity.
Qed.

Lemma max_num_ge s id : stored s id = true -> num_of id <= max_num s.
Proof.
  intro H. unfold max_num. apply fold_max_ge. apply in_map. apply filter_In. split; auto. apply stored_in_ids; auto.
Qed.

Lemma scan_conflicts_pos s id : stored s id = true -> 0 < scan_conflicts s (num_of id).
Proof.
  intro H. unfold scan_conflicts.
  assert (In id (filter (fun i => stored s i && (num_of i =? num_of id)) (summary_ids s))).
  { apply filter_In. split; [apply stored_in_ids; auto|]. rewrite H, N.eqb_refl. auto. }
  destruct (filter _ _); [destruct H0|simpl; lia].
Qed.

(* ---- the import issues the same steps on stores that agree outside the node / code spaces *)

Theorem na_import_steps s s' c b : eqv_na s s' -> import_steps c s b = import_steps c s' b.
Proof.
  intro E. pose proof (na_get_summary s s' E) as HS. pose proof (na_stored s s' E) as Hst.
  rewrite !import_steps_eq. unfold import_ok.
  rewrite (max_num_ext s s' Hst), (scan_conflicts_ext s s' _ Hst), !Hst, (na_accepts s s' E),
    (ext_select s s' HS (na_get_quality s s' E) c b (na_get_id s s' E KBest eq_refl)).
  destruct (_ && _); [|reflexivity]. cbv zeta. destruct (select c s' b) as [ab|]; [|reflexivity].
  do 3 f_equal. apply na_commit_steps, eqv_na_apply_writes, E.
Qed.

Lemma na_import_batches s s' c b : eqv_na s s' -> import_batches c s b = import_batches c s' b.
Proof. intro E. unfold import_batches. rewrite (na_import_steps s s' c b E). auto. Qed.

Lemma eqv_run1 s s' c b : eqv s s' -> eqv (run1 c s b) (run1 c s' b).
Proof. intro E. unfold run1. rewrite (na_import_batches s s' c b (eqv_eqv_na _ _ E)). apply eqv_apply_writes; auto. Qed.

Lemma eqv_run c l : forall s s', eqv s s' -> eqv (run c s l) (run c s' l).
Proof. induction l as [|b r IH]; intros s s' E; simpl; auto. apply IH. apply eqv_run1; auto. Qed.

(* equivalence that also keeps the order in which summaries are enumerated (what [tallies] lists) *)
Definition eqvi (s s' : store) : Prop := eqv s s' /\ summary_ids s = summary_ids s'.

Lemma eqvi_refl s : eqvi s s.
Proof. split; [apply eqv_refl | reflexivity]. Qed.

Lemma summary_ids_apply_batch w : forall s s',
  summary_ids s = summary_ids s' -> summary_ids (apply_batch s w) = summary_ids (apply_batch s' w).
Proof.
  unfold apply_batch. induction w as [|o w IH]; intros s s' E; [exact E|]. apply IH.
  destruct o as [[] v|k]; cbn [summary_ids]; rewrite ?E; reflexivity.
Qed.

Lemma summary_ids_apply_writes ws : forall s s',
  summary_ids s = summary_ids s' -> summary_ids (apply_writes s ws) = summary_ids (apply_writes s' ws).
Proof.
  unfold apply_writes. induction ws as [|w ws IH]; intros s s' E; [exact E|]. apply IH, summary_ids_apply_batch, E.
Qed.

Lemma summary_ids_aux ws : (forall w, In w ws -> aux_batch w) -> forall s, summary_ids (apply_writes s ws) = summary_ids s.
Proof.
  unfold apply_writes. induction ws as [|w ws IH]; intros Haux s; [reflexivity|]. cbn [fold_left].
  rewrite IH by (intros; apply Haux; right; assumption).
  assert (Hw : aux_batch w) by (apply Haux; left; reflexivity). clear - Hw. revert s. unfold apply_batch.
  induction w as [|o w IH]; intros s; [reflexivity|]. cbn [fold_left].
  rewrite IH by (intros o' Ho'; apply Hw; right; assumption).
  specialize (Hw o (or_introl eq_refl)). destruct o as [[] v|k]; try discriminate; reflexivity.
Qed.

Lemma eqvi_run1 s s' c b : eqvi s s' -> eqvi (run1 c s b) (run1 c s' b).
Proof.
  intros [E Ei]. split; [apply eqv_run1, E|]. unfold run1.
  rewrite (na_import_batches s s' c b (eqv_eqv_na _ _ E)). apply summary_ids_apply_writes, Ei.
Qed.

Lemma eqvi_run c l : forall s s', eqvi s s' -> eqvi (run c s l) (run c s' l).
Proof. induction l as [|b r IH]; intros s s' E; simpl; auto. apply IH, eqvi_run1, E. Qed.

Lemma eqv_observations s s' c : eqv s s' ->
  get_id s KBest = get_id s' KBest /\ finalized c s = finalized c s' /\
  (forall id, stored s id = stored s' id) /\ (forall id, get_quality s id = get_quality s' id).
Proof.
  intro E. pose proof (eqv_eqv_na _ _ E) as En. repeat split.
  - apply na_get_id; auto.
  - apply na_finalized; auto.
  - intro; apply na_stored; auto.
  - intro; apply na_get_quality; auto.
Qed.
