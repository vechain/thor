(* Bft/ProofsSuffix.v — suffixes of a grounded chain addressed by block number, and the per-epoch quality sequence:
   the quality at a store point is the quality at the previous store point or one more. *)
From Coq Require Import List NArith ZArith Bool Lia.
From Coq Require Import ZifyN ZifyNat ZifyBool.
From Verif Require Import Common.Util Bft.Tree Bft.Model Bft.Quorum Bft.ProofsTally Bft.ProofsChain.
Import ListNotations.
Open Scope N_scope.

Fixpoint suffix_at (n : N) (ch : list blk) : list blk :=
  match ch with
  | [] => []
  | x :: t => if b_num x =? n then ch else suffix_at n t
  end.

Lemma at_num_suffix ch n : at_num ch n = match suffix_at n ch with x :: _ => Some x | [] => None end.
Proof.
  unfold at_num. induction ch as [|x t IH]; cbn; [reflexivity|]. destruct (b_num x =? n); [reflexivity | exact IH].
Qed.

Lemma suffix_at_split ch n : exists l1, ch = l1 ++ suffix_at n ch.
Proof.
  induction ch as [|x t [l1 IH]]; cbn; [exists []; reflexivity|].
  destruct (b_num x =? n); [exists []; reflexivity | exists (x :: l1); cbn; rewrite <- IH; reflexivity].
Qed.

Lemma grounded_app l1 : forall ch, grounded (l1 ++ ch) -> ch <> [] -> grounded ch.
Proof.
  induction l1 as [|b l1 IH]; intros ch Hg Hne; [exact Hg|].
  cbn [app] in Hg. destruct (l1 ++ ch) as [|p t] eqn:E; [destruct l1; [cbn in E; contradiction | discriminate]|].
  apply IH; [|exact Hne]. rewrite E. exact (grounded_tail _ _ _ Hg).
Qed.

(* a grounded chain contains every number up to its head's: the suffix starting there *)
Lemma suffix_at_exists ch : grounded ch -> forall b t, ch = b :: t -> forall n, n <= b_num b ->
  exists x l2, suffix_at n ch = x :: l2 /\ b_num x = n.
Proof.
  induction ch as [|b0 t0 IH]; intros Hg b t E n Hn; [discriminate|]. inversion E; subst b0 t0. clear E.
  cbn [suffix_at]. destruct (b_num b =? n) eqn:En.
  - apply N.eqb_eq in En. exists b, t. split; [reflexivity | exact En].
  - apply N.eqb_neq in En. destruct t as [|p t'].
    + cbn in Hg. lia.
    + pose proof Hg as Hg0. cbn in Hg. destruct Hg as [_ [Hnum Hgt]].
      apply (IH Hgt p t' eq_refl n). lia.
Qed.

Lemma suffix_at_comp ch : grounded ch -> forall b t, ch = b :: t -> forall n m, n <= m -> m <= b_num b ->
  suffix_at n (suffix_at m ch) = suffix_at n ch.
Proof.
  induction ch as [|b0 t0 IH]; intros Hg b t E n m Hnm Hm; [discriminate|]. inversion E; subst b0 t0. clear E.
  cbn [suffix_at]. destruct (b_num b =? m) eqn:Em.
  - cbn [suffix_at]. reflexivity.
  - apply N.eqb_neq in Em. assert (En : (b_num b =? n) = false) by (apply N.eqb_neq; lia). rewrite En.
    destruct t as [|p t'].
    + cbn in Hg. lia.
    + cbn in Hg. destruct Hg as [_ [Hnum Hgt]]. apply (IH Hgt p t' eq_refl n m Hnm). lia.
Qed.

Lemma grounded_above l1 x l2 y : grounded (l1 ++ x :: l2) -> In y l1 -> b_num x < b_num y.
Proof.
  intros Hg Hy. destruct (in_split _ _ Hy) as [la [lb E]]. rewrite E, <- app_assoc in Hg. cbn [app] in Hg.
  apply (grounded_nums y (lb ++ x :: l2)); [exact (grounded_app la _ Hg ltac:(discriminate))|].
  rewrite in_app_iff. right. left. reflexivity.
Qed.

(* so addressing at or below x skips the blocks above it *)
Lemma suffix_at_skip l1 : forall x l2 n, grounded (l1 ++ x :: l2) -> n <= b_num x ->
  suffix_at n (l1 ++ x :: l2) = suffix_at n (x :: l2).
Proof.
  induction l1 as [|y l1 IH]; intros x l2 n Hg Hn; [reflexivity|].
  cbn [app] in *. cbn [suffix_at].
  pose proof (grounded_above (y :: l1) x l2 y Hg (or_introl eq_refl)) as Hlt.
  assert (E : (b_num y =? n) = false) by (apply N.eqb_neq; lia). rewrite E.
  apply IH; [|exact Hn]. exact (grounded_app [y] _ Hg ltac:(destruct l1; discriminate)).
Qed.

(* the block numbered n on the chain of a stored block, with everything the chain says about it *)
Lemma chain_at r head hb n : wf_repo r -> find_blk r head = Some hb -> n <= b_num hb ->
  exists l1 x l2, chain_of r head = l1 ++ x :: l2 /\ b_num x = n /\ suffix_at n (chain_of r head) = x :: l2 /\
                  block_at r head n = Some x /\ chain_of r (b_id x) = x :: l2 /\ In x r /\ grounded (x :: l2).
Proof.
  intros Hwf Hhb Hn. destruct (chain_of_known r Hwf _ _ Hhb) as [t [HC Hg]].
  destruct (suffix_at_exists (chain_of r head) ltac:(rewrite HC; exact Hg) hb t HC n Hn) as [x [l2 [Hs Hx]]].
  destruct (suffix_at_split (chain_of r head) n) as [l1 Hsplit]. rewrite Hs in Hsplit.
  exists l1, x, l2. split; [exact Hsplit|]. split; [exact Hx|]. split; [exact Hs|]. split; [|split; [|split]].
  - unfold block_at. rewrite at_num_suffix, Hs. reflexivity.
  - exact (chain_suffix r Hwf head l1 x l2 Hsplit).
  - apply (chain_incl r head). rewrite Hsplit, in_app_iff. right. left. reflexivity.
  - apply (grounded_app l1); [rewrite <- Hsplit, HC; exact Hg | discriminate].
Qed.

Section Seq.
Variable c : cfg.
Hypothesis HL : 0 < c_L c.
Notation L := (c_L c).

(* the parent quality of the head's epoch is the quality at the last block of the previous epoch *)
Lemma epoch_info_fst ch : grounded ch -> forall b t, ch = b :: t -> 0 < checkpoint L (b_num b) ->
  fst (epoch_info c ch) = quality_pure c (suffix_at (checkpoint L (b_num b) - 1) ch).
Proof.
  induction ch as [|b0 t0 IH]; intros Hg b t E Hcp; [discriminate|]. inversion E; subst b0 t0. clear E.
  pose proof (checkpoint_le _ HL (b_num b)) as Hle.
  cbn [epoch_info suffix_at].
  assert (E0 : (b_num b =? 0) = false) by (apply N.eqb_neq; lia). rewrite E0.
  assert (E1 : (b_num b =? checkpoint L (b_num b) - 1) = false) by (apply N.eqb_neq; lia). rewrite E1.
  destruct t as [|p t']; [cbn in Hg; lia|].
  pose proof Hg as Hg0. cbn in Hg. destruct Hg as [_ [Hnum Hgt]].
  destruct (is_checkpoint L (b_num b)) eqn:Ecp; cbn [fst].
  - pose proof (is_checkpoint_true _ _ Ecp) as Hc. rewrite Hc. cbn [suffix_at].
    assert (E2 : (b_num p =? b_num b - 1) = true) by (apply N.eqb_eq; lia). rewrite E2. reflexivity.
  - rewrite Hnum in Ecp. pose proof (checkpoint_succ_same _ HL _ Ecp) as Hsame. rewrite <- Hnum in Hsame.
    rewrite Hsame. apply (IH Hgt p t' eq_refl). rewrite <- Hsame. exact Hcp.
Qed.

(* quality at the head = parent quality, or one more when the head's epoch is justified so far *)
Lemma quality_head ch : quality_pure c ch =
  if s_just (state_pure c ch) then fst (epoch_info c ch) + 1 else fst (epoch_info c ch).
Proof. unfold quality_pure, state_pure. rewrite summarize_quality, tally_pq. reflexivity. Qed.

(* consecutive store points: S has its head at a block of epoch k+1 (k*L+L <= num), the previous store point is k*L+L-1 *)
Lemma quality_epoch_step ch b t : grounded ch -> ch = b :: t -> 0 < checkpoint L (b_num b) ->
  let prev := quality_pure c (suffix_at (checkpoint L (b_num b) - 1) ch) in
  prev <= quality_pure c ch <= prev + 1 /\ (s_just (state_pure c ch) = true -> quality_pure c ch = prev + 1).
Proof.
  intros Hg E Hcp prev. rewrite quality_head. unfold prev. rewrite <- (epoch_info_fst ch Hg b t E Hcp).
  destruct (s_just (state_pure c ch)); split; try lia; intros; try reflexivity; discriminate.
Qed.
End Seq.
