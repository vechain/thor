(* Chain/ProofsTx.v — the tx index: every entry comes from a stored block, every inclusion has an entry; what
   GetTransactionMeta and the two paths of HasTransaction compute on the chain of any head (C09, second sentence). *)
From Coq Require Import List NArith Bool Lia ZifyN ZifyNat ZifyBool.
From Verif Require Import Chain.Model Chain.Proofs Chain.ProofsWalk.
Import ListNotations.
Open Scope N_scope.

Definition conf_inj (r : repo) : Prop :=
  forall a sa b sb, get_summary r a = Some sa -> get_summary r b = Some sb ->
                    num_of a = num_of b -> s_conf sa = s_conf sb -> a = b.

Lemma conf_inj_add g gp r r' b conf best :
  wf g gp r -> conf_inj r -> valid_add r b conf -> add_block r b conf best = Some r' -> conf_inj r'.
Proof.
  intros W CI V A x sx y sy. rewrite !(add_summary _ _ _ _ _ A).
  pose proof (fun id s H => proj1 (eq2_false _ _) (add_key_old g gp r b conf W V id s H)) as Fresh.
  destruct (N.eqb_spec (b_id b) x) as [Ex|Nx]; destruct (N.eqb_spec (b_id b) y) as [Ey|Ny]; intros Hx Hy En Ec.
  - congruence.
  - injection Hx as <-. destruct (Fresh y sy Hy). cbn [s_conf] in Ec. congruence.
  - injection Hy as <-. destruct (Fresh x sx Hx). cbn [s_conf] in Ec. congruence.
  - eapply CI; eauto.
Qed.

Lemma reachable_conf_inj g gp tag adm r : num_of g = 0 -> reachable g gp tag adm r -> conf_inj r.
Proof.
  intros Hg H. induction H.
  - intros a sa b sb. unfold get_summary, init_repo. cbn [r_sums afind].
    destruct (N.eqb_spec g a); [|discriminate]. destruct (N.eqb_spec g b); [|discriminate]. congruence.
  - eapply conf_inj_add; eauto. eapply reachable_wf; eauto.
Qed.

Definition rev_at (rcs : list receipt) (k : nat) : bool :=
  match nth_error rcs k with Some rc => rc_rev rc | None => false end.

Definition same_key (e : txent) (x n c : N) : Prop := e_tx e = x /\ e_num e = n /\ e_conf e = c.

Lemma key_eq_spec a b : key_eq a b = true <-> same_key a (e_tx b) (e_num b) (e_conf b).
Proof. unfold key_eq, same_key. rewrite !andb_true_iff, !N.eqb_eq. tauto. Qed.

Lemma txi_put_in e l e' : In e' (txi_put e l) -> e' = e \/ In e' l.
Proof.
  induction l as [|x t IH]; cbn [txi_put In]; [intros [<-|[]]; left; reflexivity|].
  destruct (key_eq e x); [cbn [In]; intros [<-|H]; [left; reflexivity | right; right; exact H]|].
  destruct (key_lt e x); cbn [In]; [intros [<-|H]; [left; reflexivity | right; exact H]|].
  intros [->|H]; [tauto|]. destruct (IH H); tauto.
Qed.

Lemma txi_put_self e l : In e (txi_put e l).
Proof.
  induction l as [|x t IH]; cbn [txi_put]; [left; reflexivity|].
  destruct (key_eq e x); [left; reflexivity|]. destruct (key_lt e x); [left; reflexivity | right; exact IH].
Qed.

Lemma txi_put_key e l x n c : (exists e', In e' l /\ same_key e' x n c) -> exists e', In e' (txi_put e l) /\ same_key e' x n c.
Proof.
  induction l as [|y t IH]; intros [e' [Hin K]]; [destruct Hin|]. cbn [txi_put].
  destruct (key_eq e y) eqn:Ek.
  - destruct Hin as [<-|Hin].
    + exists e. split; [left; reflexivity|]. apply key_eq_spec in Ek. unfold same_key in *. intuition congruence.
    + exists e'. split; [right; exact Hin | exact K].
  - destruct (key_lt e y).
    + exists e'. split; [right; exact Hin | exact K].
    + destruct Hin as [<-|Hin].
      * exists y. split; [left; reflexivity | exact K].
      * destruct (IH (ex_intro _ e' (conj Hin K))) as [e2 [H2 K2]]. exists e2. split; [right; exact H2 | exact K2].
Qed.

Lemma index_txs_in : forall x rcs num conf i txi e,
  In e (index_txs x rcs num conf i txi) ->
  In e txi \/ exists k t, nth_error x k = Some t /\ e = mkE (tx_id t) num conf (i + N.of_nat k) (rev_at rcs k).
Proof.
  induction x as [|t x IH]; intros rcs num conf i txi e H; cbn [index_txs] in H; [left; exact H|].
  apply IH in H. destruct H as [H|[k [t' [Hk He]]]].
  - apply txi_put_in in H. destruct H as [->|H]; [|left; exact H].
    right. exists O, t. split; [reflexivity|]. f_equal; [lia|]. unfold rev_at. destruct rcs; reflexivity.
  - right. exists (S k), t'. split; [exact Hk|]. rewrite He. f_equal; [lia|]. unfold rev_at. destruct rcs; cbn; [destruct k|]; reflexivity.
Qed.

Lemma index_txs_keep : forall x rcs num conf i txi y n c,
  (exists e, In e txi /\ same_key e y n c) -> exists e, In e (index_txs x rcs num conf i txi) /\ same_key e y n c.
Proof.
  induction x as [|t x IH]; intros rcs num conf i txi y n c H; cbn [index_txs]; [exact H|].
  apply IH. apply txi_put_key. exact H.
Qed.

Lemma index_txs_new : forall x rcs num conf i txi t,
  In t x -> exists e, In e (index_txs x rcs num conf i txi) /\ same_key e (tx_id t) num conf.
Proof.
  induction x as [|t0 x IH]; intros rcs num conf i txi t Hin; [destruct Hin|]. cbn [index_txs].
  destruct Hin as [->|Hin].
  - apply index_txs_keep. eexists. split; [apply txi_put_self|]. repeat split.
  - apply IH. exact Hin.
Qed.

Lemma filt_txs_keep : forall x f k, memN k f = true -> memN k (filt_txs x f) = true.
Proof.
  induction x as [|t x IH]; intros f k H; cbn [filt_txs]; [exact H|]. apply IH.
  destruct (memN (filter_key (tx_id t)) f); [exact H|]. apply memN_In. right. apply memN_In. exact H.
Qed.

Lemma filt_txs_new : forall x f t, In t x -> memN (filter_key (tx_id t)) (filt_txs x f) = true.
Proof.
  induction x as [|t0 x IH]; intros f t Hin; [destruct Hin|]. cbn [filt_txs]. destruct Hin as [->|Hin]; [|apply IH; exact Hin].
  apply filt_txs_keep. destruct (memN (filter_key (tx_id t)) f) eqn:E; [exact E|]. apply memN_In. left. reflexivity.
Qed.

(* an entry points at a stored block and at the tx / receipt at its index *)
Definition ent_ok (r : repo) (e : txent) : Prop :=
  exists id s b t rc, get_summary r id = Some s /\ num_of id = e_num e /\ s_conf s = e_conf e /\
    afind2 (e_num e, e_conf e) (r_body r) = Some b /\
    nth_error (b_txs b) (N.to_nat (e_idx e)) = Some t /\ tx_id t = e_tx e /\
    nth_error (b_rcs b) (N.to_nat (e_idx e)) = Some rc /\ rc_rev rc = e_rev e.

Record wf_txi (r : repo) : Prop := {
  t_ent  : forall e, In e (r_txi r) -> ent_ok r e;
  t_incl : forall id s x, get_summary r id = Some s -> In x (s_txids s) ->
           (exists e, In e (r_txi r) /\ same_key e x (num_of id) (s_conf s)) /\ memN (filter_key x) (r_filt r) = true
}.

Lemma wf_txi_init g gp tag : wf_txi (init_repo g gp tag).
Proof.
  constructor.
  - intros e [].
  - intros id s x. unfold get_summary, init_repo. cbn [r_sums afind]. destruct (g =? id); [|discriminate].
    intros E. injection E as <-. intros [].
Qed.

Lemma wf_txi_add g gp r r' b conf best :
  wf g gp r -> wf_txi r -> valid_add r b conf -> add_block r b conf best = Some r' -> wf_txi r'.
Proof.
  intros W WT V A. destruct (add_parent _ _ _ _ _ A) as [ps [Hps Er']].
  assert (Hlen : length (b_rcs b) = length (b_txs b)) by apply V.
  assert (Etxi : r_txi r' = index_txs (b_txs b) (b_rcs b) (num_of (b_id b)) conf 0 (r_txi r)) by (rewrite Er'; reflexivity).
  assert (Efilt : r_filt r' = filt_txs (b_txs b) (r_filt r)) by (rewrite Er'; reflexivity).
  assert (Ebody : r_body r' = ((num_of (b_id b), conf), b) :: r_body r) by (rewrite Er'; reflexivity).
  constructor.
  - intros e He. rewrite Etxi in He. apply index_txs_in in He. destruct He as [He|[k [t [Hk ->]]]].
    + destruct (t_ent _ WT e He) as [id [s [b0 [t [rc [E1 [E2 [E3 [E4 E5]]]]]]]]].
      exists id, s, b0, t, rc. split; [eapply add_summary_old; eauto|]. split; [exact E2|]. split; [exact E3|].
      split; [|exact E5]. rewrite <- E2, <- E3 in E4 |- *. rewrite (add_body_old g gp r r' b conf best W V A id s E1). exact E4.
    + assert (Hrc : exists rc, nth_error (b_rcs b) k = Some rc).
      { destruct (nth_error (b_rcs b) k) eqn:E; [eauto|]. apply nth_error_None in E.
        assert (nth_error (b_txs b) k <> None) by congruence. apply nth_error_Some in H. lia. }
      destruct Hrc as [rc Hrc].
      exists (b_id b), (mkS (b_id b) (b_parent b) (map tx_id (b_txs b)) conf), b, t, rc. cbn [e_num e_conf e_idx e_tx e_rev s_conf].
      rewrite (add_summary _ _ _ _ _ A), N.eqb_refl. repeat split; auto.
      * rewrite Ebody, afind2_cons. replace (eq2 _ _) with true by (symmetry; apply eq2_spec; reflexivity). reflexivity.
      * replace (N.to_nat (0 + N.of_nat k)) with k by lia. exact Hk.
      * replace (N.to_nat (0 + N.of_nat k)) with k by lia. exact Hrc.
      * unfold rev_at. rewrite Hrc. reflexivity.
  - intros id s x. rewrite (add_summary _ _ _ _ _ A). destruct (N.eqb_spec (b_id b) id) as [E|NE].
    + intros E'. injection E' as <-. subst id. cbn [s_txids s_conf]. intros Hin. apply in_map_iff in Hin. destruct Hin as [t [<- Hin]].
      split; [rewrite Etxi; apply index_txs_new; exact Hin | rewrite Efilt; apply filt_txs_new; exact Hin].
    + intros Hs Hin. destruct (t_incl _ WT id s x Hs Hin) as [He Hf].
      split; [rewrite Etxi; apply index_txs_keep; exact He | rewrite Efilt; apply filt_txs_keep; exact Hf].
Qed.

Lemma reachable_wf_txi g gp tag adm r : num_of g = 0 -> reachable g gp tag adm r -> wf_txi r.
Proof.
  intros Hg H. induction H.
  - apply wf_txi_init.
  - eapply wf_txi_add; eauto. eapply reachable_wf; eauto.
Qed.

(* x is included in block a, which is on the chain of h *)
Definition incl_on (r : repo) (h x a : N) : Prop :=
  exists s, anc r h a /\ get_summary r a = Some s /\ In x (s_txids s).

Section Lookups.
  Variables (g gp : N) (r : repo).
  Hypothesis W : wf g gp r.
  Hypothesis WB : wf_body r.
  Hypothesis WT : wf_txi r.
  Hypothesis CI : conf_inj r.
  Hypothesis Hgp : num_of gp = max_u32.

  Lemma chain_summary_ok h n : stored r h -> n <= num_of h ->
    exists a s, chain_summary r h n = Ok s /\ anc r h a /\ num_of a = n /\ get_summary r a = Some s.
  Proof.
    intros Sh Hn. destruct (anc_total g gp r W h Sh n Hn) as [a [Ha En]].
    destruct (anc_stored _ _ _ Ha) as [_ [s Hs]]. exists a, s. unfold chain_summary.
    replace (get_block_id r h n) with (Ok a) by (symmetry; apply (get_block_id_spec g gp r W); auto).
    rewrite Hs. auto.
  Qed.

  Definition matches (h : N) (e : txent) : Prop :=
    e_num e <= num_of h /\ exists a s, anc r h a /\ num_of a = e_num e /\ get_summary r a = Some s /\ s_conf s = e_conf e.

  Lemma meta_scan_spec h x : stored r h -> forall l,
    match meta_scan r h x l with
    | Ok e => In e l /\ e_tx e = x /\ matches h e
    | NotFound => forall e, In e l -> e_tx e = x -> ~ matches h e
    | Fail => False
    end.
  Proof.
    intros Sh. induction l as [|e t IH]; cbn [meta_scan]; [intros e []|].
    assert (Skip : (e_tx e = x -> ~ matches h e) ->
      match meta_scan r h x t with
      | Ok e' => In e' (e :: t) /\ e_tx e' = x /\ matches h e'
      | NotFound => forall e', In e' (e :: t) -> e_tx e' = x -> ~ matches h e'
      | Fail => False
      end).
    { intros Hno. destruct (meta_scan r h x t) as [e'| |]; [| |exact IH].
      - destruct IH as [I1 I2]. split; [right; exact I1 | exact I2].
      - intros e' [<-|Hin]; [exact Hno | apply IH; exact Hin]. }
    destruct (N.eqb_spec (e_tx e) x) as [Ex|Nx]; cbn [negb]; [|apply Skip; intros Ex; congruence].
    destruct (N.ltb_spec (num_of h) (e_num e)) as [Hlt|Hle]; [apply Skip; intros _ [M _]; lia|].
    destruct (chain_summary_ok h (e_num e) Sh Hle) as [a [s [-> [Ha [En Hs]]]]].
    destruct (N.eqb_spec (s_conf s) (e_conf e)) as [Ec|Nc].
    - split; [left; reflexivity|]. split; [exact Ex|]. split; [exact Hle|]. exists a, s. auto.
    - apply Skip. intros _ [_ [a' [s' [Ha' [En' [Hs' Ec']]]]]].
      assert (a' = a) by (apply (anc_unique_at g gp r W h); auto; congruence). subst a'. congruence.
  Qed.

  (* C09/C14: a transaction found by id from head h is on h's chain, at the reported place; not found iff absent *)
  Lemma get_tx_meta_spec h x : stored r h ->
    match get_tx_meta r h x with
    | Ok e => e_tx e = x /\ exists a s b t rc, anc r h a /\ num_of a = e_num e /\ get_summary r a = Some s /\ s_conf s = e_conf e /\
                get_block r a = Some (s, b) /\ nth_error (b_txs b) (N.to_nat (e_idx e)) = Some t /\ tx_id t = x /\
                nth_error (b_rcs b) (N.to_nat (e_idx e)) = Some rc /\ rc_rev rc = e_rev e
    | NotFound => forall a, ~ incl_on r h x a
    | Fail => False
    end.
  Proof.
    intros Sh. unfold get_tx_meta. pose proof (meta_scan_spec h x Sh (r_txi r)) as M.
    destruct (meta_scan r h x (r_txi r)) as [e| |]; [| |exact M].
    - destruct M as [Hin [Ex [_ [a [s [Ha [En [Hs Ec]]]]]]]]. split; [exact Ex|].
      destruct (t_ent _ WT e Hin) as [id [s' [b [t [rc [E1 [E2 [E3 [E4 [E5 [E6 [E7 E8]]]]]]]]]]]].
      assert (id = a) by (eapply CI; eauto; congruence). subst id. rewrite Hs in E1. injection E1 as <-.
      exists a, s, b, t, rc. repeat split; auto; try congruence.
      unfold get_block. rewrite Hs, En, Ec, E4. reflexivity.
    - intros a [s [Ha [Hs Hin]]]. destruct (t_incl _ WT a s x Hs Hin) as [[e [He [K1 [K2 K3]]]] _].
      apply (M e He K1). split; [rewrite K2; apply (anc_height g gp r W _ _ Ha)|]. exists a, s. auto.
  Qed.

  Lemma has_tx_indexed_spec h x : stored r h ->
    exists v, has_tx_indexed r h x = Ok v /\ (v = true <-> exists a, incl_on r h x a).
  Proof.
    intros Sh. unfold has_tx_indexed. destruct (memN (filter_key x) (r_filt r)) eqn:Ef; cbn [negb].
    - pose proof (get_tx_meta_spec h x Sh) as M. unfold get_tx_meta in M.
      destruct (meta_scan r h x (r_txi r)) as [e| |]; [| |destruct M].
      + exists true. split; [reflexivity|]. split; [intros _|reflexivity].
        destruct M as [_ [a [s [b [t [rc [Ha [En [Hs [Ec [Hb [Ht [Ex _]]]]]]]]]]]]]. exists a, s. repeat split; auto.
        destruct (WB a s Hs) as [b' [B1 [_ [B3 _]]]]. unfold get_block in Hb. rewrite Hs, B1 in Hb. injection Hb as <-.
        rewrite B3. apply in_map_iff. exists t. split; [exact Ex | eapply nth_error_In; eauto].
      + exists false. split; [reflexivity|]. split; [discriminate|]. intros [a Ha]. exfalso. eapply M; eauto.
    - exists false. split; [reflexivity|]. split; [discriminate|]. intros [a [s [Ha [Hs Hin]]]].
      destruct (t_incl _ WT a s x Hs Hin) as [_ F]. congruence.
  Qed.

  Lemma recent_walk_spec x ref : forall fuel next,
    stored r next -> (ref <= num_of next -> (N.to_nat (num_of next - ref) + 2 <= fuel)%nat) -> (1 <= fuel)%nat ->
    exists v, recent_walk r x ref fuel next = Ok v /\
              (v = true <-> exists a, incl_on r next x a /\ ref <= num_of a).
  Proof.
    induction fuel as [|f IH]; intros next Sn Hf H1; [lia|]. cbn [recent_walk].
    destruct Sn as [s Hs]. pose proof (w_num _ _ _ W _ _ Hs) as Hmax.
    destruct (N.leb_spec ref (num_of next)) as [Hle|Hgt]; cbn [andb].
    - replace (num_of next =? max_u32) with false by (symmetry; apply N.eqb_neq; lia). cbn [negb]. rewrite Hs.
      destruct (memN x (s_txids s)) eqn:Em.
      + exists true. split; [reflexivity|]. split; [intros _|reflexivity]. exists next. split; [|exact Hle].
        exists s. split; [eapply anc_refl; eauto|]. split; [exact Hs | apply memN_In; exact Em].
      + assert (Hnot : ~ In x (s_txids s)) by (rewrite <- memN_In; congruence).
        destruct (N.eq_dec next g) as [->|Hg].
        * (* genesis: the parent id has number 2^32-1, the loop stops *)
          rewrite (w_gsum _ _ _ W) in Hs. injection Hs as <-. cbn [s_parent].
          destruct f as [|f']; [specialize (Hf Hle); lia|]. cbn [recent_walk]. rewrite Hgp, N.eqb_refl, andb_false_r.
          exists false. split; [reflexivity|]. split; [discriminate|]. intros [a [[s' [Ha [Hs' Hin]]] _]].
          apply (anc_gen_inv g gp r W) in Ha. subst a. rewrite (w_gsum _ _ _ W) in Hs'. injection Hs' as <-. destruct Hin.
        * destruct (w_par _ _ _ W _ _ Hs Hg) as [ps [Hps [En _]]].
          destruct (IH (s_parent s)) as [v [Ev Hv]]; [exists ps; exact Hps | intros; specialize (Hf Hle); lia | specialize (Hf Hle); lia|].
          exists v. split; [exact Ev|]. rewrite Hv. split.
          -- intros [a [[s' [Ha [Hs' Hin]]] Hr]]. exists a. split; [|exact Hr]. exists s'. split; [|auto].
             eapply anc_step; eauto. rewrite (w_gen _ _ _ W). exact Hg.
          -- intros [a [[s' [Ha [Hs' Hin]]] Hr]]. exists a. split; [|exact Hr]. exists s'. split; [|auto].
             inversion Ha as [|h' s2 a' Hs2 Hg2 Hp2]; subst; [congruence|]. rewrite Hs in Hs2. injection Hs2 as <-. exact Hp2.
    - exists false. split; [reflexivity|]. split; [discriminate|]. intros [a [[s' [Ha _]] Hr]].
      pose proof (anc_height g gp r W _ _ Ha). lia.
  Qed.

  (* C09: HasTransaction, whichever path it takes *)
  Lemma has_transaction_spec h x ref : stored r h ->
    exists v, has_transaction r h x ref = Ok v /\
      (v = true <-> if num_of h <? ref then False
                    else if num_of h - ref <? 100 then exists a, incl_on r h x a /\ ref <= num_of a
                    else exists a, incl_on r h x a).
  Proof.
    intros Sh. unfold has_transaction. destruct (N.ltb_spec (num_of h) ref) as [Hlt|Hge].
    - exists false. split; [reflexivity|]. split; [discriminate | tauto].
    - destruct (N.ltb_spec (num_of h - ref) 100) as [Hr|Hr].
      + apply recent_walk_spec; auto; lia.
      + apply has_tx_indexed_spec. exact Sh.
  Qed.

  (* the two paths agree with each other and with membership on every chain that respects the window rule *)
  Lemma has_tx_paths_agree_lemma h x ref : stored r h ->
    (forall a, incl_on r h x a -> ref <= num_of a) ->
    exists v, has_transaction r h x ref = Ok v /\ has_tx_indexed r h x = Ok v /\
              (ref <= num_of h -> num_of h - ref < 100 -> recent_walk r x ref 102 h = Ok v) /\
              (v = true <-> exists a, incl_on r h x a).
  Proof.
    intros Sh Hw. destruct (has_transaction_spec h x ref Sh) as [v [Ev Hv]].
    destruct (has_tx_indexed_spec h x Sh) as [v' [Ev' Hv']].
    assert (Hiff : v = true <-> exists a, incl_on r h x a).
    { rewrite Hv. destruct (N.ltb_spec (num_of h) ref) as [Hlt|Hge].
      - split; [tauto|]. intros [a Ha]. pose proof (Hw a Ha). destruct Ha as [s [Ha _]]. pose proof (anc_height g gp r W _ _ Ha). lia.
      - destruct (num_of h - ref <? 100); [|tauto]. split; [intros [a [Ha _]]; eauto | intros [a Ha]; eauto]. }
    assert (v' = v).
    { destruct v, v'; try reflexivity; exfalso.
      - assert (X : false = true) by (apply Hv'; apply Hiff; reflexivity). discriminate.
      - assert (X : false = true) by (apply Hiff; apply Hv'; reflexivity). discriminate. }
    subst v'.
    exists v. repeat split; auto; try (apply Hiff; auto).
    intros H1 H2. unfold has_transaction in Ev.
    replace (num_of h <? ref) with false in Ev by (symmetry; apply N.ltb_ge; exact H1).
    replace (num_of h - ref <? 100) with true in Ev by (symmetry; apply N.ltb_lt; exact H2). exact Ev.
  Qed.
  (* GetTransaction / GetTransactionReceipt: the blob read under (num, conflicts, index) is the one of that chain block *)
  Lemma get_transaction_spec h x : stored r h ->
    match get_transaction r h x with
    | Ok (e, t) => tx_id t = x /\ get_tx_meta r h x = Ok e /\
                   exists a s b, anc r h a /\ num_of a = e_num e /\ get_block r a = Some (s, b) /\
                                 nth_error (b_txs b) (N.to_nat (e_idx e)) = Some t
    | NotFound => forall a, ~ incl_on r h x a
    | Fail => False
    end.
  Proof.
    intros Sh. unfold get_transaction. pose proof (get_tx_meta_spec h x Sh) as M.
    destruct (get_tx_meta r h x) as [e| |]; [| exact M | exact M].
    destruct M as [_ [a [s [b [t [rc [Ha [En [Hs [Ec [Hb [Ht [Ex _]]]]]]]]]]]]].
    assert (Eb : afind2 (e_num e, e_conf e) (r_body r) = Some b).
    { unfold get_block in Hb. rewrite Hs in Hb. rewrite <- En, <- Ec. destruct (afind2 _ (r_body r)); [|discriminate]. congruence. }
    rewrite Eb, Ht. split; [exact Ex|]. split; [reflexivity|]. exists a, s, b. auto.
  Qed.

  Lemma get_receipt_spec h x : stored r h ->
    match get_receipt r h x with
    | Ok rc => exists e a s b t, get_tx_meta r h x = Ok e /\ anc r h a /\ num_of a = e_num e /\ get_block r a = Some (s, b) /\
                 nth_error (b_txs b) (N.to_nat (e_idx e)) = Some t /\ tx_id t = x /\
                 nth_error (b_rcs b) (N.to_nat (e_idx e)) = Some rc
    | NotFound => forall a, ~ incl_on r h x a
    | Fail => False
    end.
  Proof.
    intros Sh. unfold get_receipt. pose proof (get_tx_meta_spec h x Sh) as M.
    destruct (get_tx_meta r h x) as [e| |]; [| exact M | exact M].
    destruct M as [_ [a [s [b [t [rc [Ha [En [Hs [Ec [Hb [Ht [Ex [Hrc _]]]]]]]]]]]]]].
    assert (Eb : afind2 (e_num e, e_conf e) (r_body r) = Some b).
    { unfold get_block in Hb. rewrite Hs in Hb. rewrite <- En, <- Ec. destruct (afind2 _ (r_body r)); [|discriminate]. congruence. }
    rewrite Eb, Hrc. exists e, a, s, b, t. auto 10.
  Qed.
End Lookups.
