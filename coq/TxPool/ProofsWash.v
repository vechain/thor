(* TxPool/ProofsWash.v — the whole wash preserves the bookkeeping invariant; an object leaves the pool in a wash
   only with one of the listed reasons, and the reason is true of it; what is published was evaluated executable. *)
From Coq Require Import List NArith PeanoNat Bool Lia Sorted Permutation.
From Verif Require Import Common.Util TxPool.Model TxPool.Proofs TxPool.ModelWash.
Import ListNotations.
Open Scope N_scope.

Lemma reprice_steps env p o pr : steps_from quiet p (fst (reprice env p o pr)).
Proof.
  assert (S : forall q h id x, steps_from quiet p q -> steps_from quiet p (set_pricing q h id x))
    by (intros q h id x Hq; exact (steps_step quiet p q (SSetPricing h id x) Hq eq_refl)).
  unfold reprice. destruct pr as [x|]; [destruct (executable o)|];
    (destruct (w_refresh env _); [destruct (price _)|]); cbn [fst]; repeat apply S; constructor.
Qed.

Lemma reprice_obj env p o pr :
  let o' := snd (reprice env p o pr) in
  hash o' = hash o /\ local_ o' = local_ o /\ executable o' = executable o /\ origin o' = origin o.
Proof.
  unfold reprice.
  destruct pr as [x|].
  - destruct (executable o) eqn:Ee.
    + destruct (w_refresh env o); [destruct (price o)|]; cbn; auto.
    + destruct (w_refresh env (set_price o (Some x))); cbn; auto.
  - destruct (w_refresh env o); [destruct (price o)|]; cbn; auto.
Qed.

Section Phase1.
  Variable env : wash_env.

  Definition base_reason (r : reason) (o : txobj) : Prop :=
    match r with
    | RBlocked => w_blocked env o = true
    | ROutlived => local_ o = false /\ w_outlived env o = true
    | REvalErr c => w_eval env o = EvErr c
    | _ => False
    end.

  (* where a classified copy comes from *)
  Definition from (seen : list txobj) (want_local : bool) (yes : bool) (o' : txobj) : Prop :=
    exists o, In o seen /\ hash o' = hash o /\ local_ o = want_local /\ executable o' = executable o /\
              w_blocked env o = false /\
              (if yes then exists pr, w_eval env o = EvYes pr else w_eval env o = EvNo).

  Definition p1inv (seen : list txobj) (a : phase1) : Prop :=
    (forall h r, In (h, r) (p1_removed a) -> exists o, In o seen /\ hash o = h /\ base_reason r o) /\
    (forall o', In o' (p1_exec a) -> from seen false true o') /\
    (forall o', In o' (p1_nonexec a) -> from seen false false o') /\
    (forall o', In o' (p1_localexec a) -> from seen true true o').

  Lemma from_mono seen x wl y o' : from seen wl y o' -> from (seen ++ [x]) wl y o'.
  Proof.
    intros [o [H1 H2]]. exists o. split; auto. apply in_or_app. auto.
  Qed.

  Lemma p1inv_step seen a o : p1inv seen a -> p1inv (seen ++ [o]) (phase1_step env a o).
  Proof.
    intros [Hr [He [Hn Hl]]].
    assert (Hin : In o (seen ++ [o])) by (apply in_or_app; right; left; auto).
    assert (Hr' : forall h r, In (h, r) (p1_removed a) -> exists o0, In o0 (seen ++ [o]) /\ hash o0 = h /\ base_reason r o0).
    { intros h r H. destruct (Hr h r H) as [o0 [A B]]. exists o0. split; auto. apply in_or_app; auto. }
    assert (He' : forall o', In o' (p1_exec a) -> from (seen ++ [o]) false true o') by (intros; apply from_mono; auto).
    assert (Hn' : forall o', In o' (p1_nonexec a) -> from (seen ++ [o]) false false o') by (intros; apply from_mono; auto).
    assert (Hl' : forall o', In o' (p1_localexec a) -> from (seen ++ [o]) true true o') by (intros; apply from_mono; auto).
    unfold phase1_step.
    destruct (w_blocked env o) eqn:Eb.
    { split; [|split; [|split]]; cbn [p1_removed p1_exec p1_nonexec p1_localexec]; auto.
      intros h r [X|X]; auto. inversion X; subst. exists o. repeat split; auto. }
    destruct (negb (local_ o) && w_outlived env o) eqn:Eo.
    { split; [|split; [|split]]; cbn [p1_removed p1_exec p1_nonexec p1_localexec]; auto.
      intros h r [X|X]; auto. inversion X; subst. exists o. apply andb_true_iff in Eo. destruct Eo as [E1 E2].
      apply negb_true_iff in E1. repeat split; auto. }
    destruct (w_eval env o) as [c| |pr] eqn:Ev.
    - split; [|split; [|split]]; cbn [p1_removed p1_exec p1_nonexec p1_localexec]; auto.
      intros h r [X|X]; auto. inversion X; subst. exists o. repeat split; auto.
    - pose proof (reprice_obj env (p1_pool a) o None) as R. cbv zeta in R.
      destruct (reprice env (p1_pool a) o None) as [p' o'] eqn:Er. cbn [snd] in R. destruct R as [R1 [R2 [R3 R4]]].
      destruct (local_ o) eqn:El.
      + split; [|split; [|split]]; cbn [p1_removed p1_exec p1_nonexec p1_localexec]; auto.
      + split; [|split; [|split]]; cbn [p1_removed p1_exec p1_nonexec p1_localexec]; auto.
        intros x Hx. apply in_app_or in Hx. destruct Hx as [Hx|[<-|[]]]; auto.
        exists o. repeat split; auto.
    - pose proof (reprice_obj env (p1_pool a) o pr) as R. cbv zeta in R.
      destruct (reprice env (p1_pool a) o pr) as [p' o'] eqn:Er. cbn [snd] in R. destruct R as [R1 [R2 [R3 R4]]].
      destruct (local_ o) eqn:El.
      + split; [|split; [|split]]; cbn [p1_removed p1_exec p1_nonexec p1_localexec]; auto.
        intros x Hx. apply in_app_or in Hx. destruct Hx as [Hx|[<-|[]]]; auto.
        exists o. repeat split; auto. exists pr; auto.
      + split; [|split; [|split]]; cbn [p1_removed p1_exec p1_nonexec p1_localexec]; auto.
        intros x Hx. apply in_app_or in Hx. destruct Hx as [Hx|[<-|[]]]; auto.
        exists o. repeat split; auto. exists pr; auto.
  Qed.

  Lemma p1inv_fold : forall l seen a, p1inv seen a -> p1inv (seen ++ l) (fold_left (phase1_step env) l a).
  Proof.
    induction l as [|o t IH]; intros seen a H; cbn [fold_left].
    - rewrite app_nil_r. auto.
    - replace (seen ++ o :: t) with ((seen ++ [o]) ++ t) by (rewrite <- app_assoc; auto).
      apply IH. apply p1inv_step. auto.
  Qed.

  Lemma p1inv_run p : p1inv (objs p) (run_phase1 env p).
  Proof.
    unfold run_phase1. apply (p1inv_fold (objs p) [] (mkP1 p [] [] [] [])).
    repeat split; cbn; intros; contradiction.
  Qed.

  Lemma phase1_step_steps a o : steps_from quiet (p1_pool a) (p1_pool (phase1_step env a o)).
  Proof.
    unfold phase1_step. destruct (w_blocked env o); [constructor|].
    destruct (negb (local_ o) && w_outlived env o); [constructor|].
    destruct (w_eval env o) as [c| |pr]; [constructor| |].
    - pose proof (reprice_steps env (p1_pool a) o None) as X.
      destruct (reprice env (p1_pool a) o None) as [p' o']. destruct (local_ o); exact X.
    - pose proof (reprice_steps env (p1_pool a) o pr) as X.
      destruct (reprice env (p1_pool a) o pr) as [p' o']. destruct (local_ o); exact X.
  Qed.

  Lemma run_phase1_steps p : steps_from quiet p (p1_pool (run_phase1 env p)).
  Proof.
    unfold run_phase1. change p with (p1_pool (mkP1 p [] [] [] [])) at 1. generalize (mkP1 p [] [] [] []).
    induction (objs p) as [|o t IH]; intros a; cbn [fold_left]; [constructor|].
    exact (steps_trans _ _ _ _ (phase1_step_steps a o) (IH _)).
  Qed.
End Phase1.

Lemma remove_fold_steps {A} (k : A -> N) : forall l p,
    steps_from (fun _ => true) p (fold_left (fun q x => fst (remove_by_hash q (k x))) l p).
Proof.
  induction l as [|x t IH]; intros p; cbn [fold_left]; [constructor|].
  exact (steps_trans _ _ _ _ (steps_step _ p p (SRemove (k x)) (steps_refl _ _) eq_refl) (IH _)).
Qed.

Lemma map_hash_filter h : forall l,
    map hash (filter (fun o : txobj => negb (hash o =? h)) l) = filter (fun x => negb (x =? h)) (map hash l).
Proof. induction l as [|x t IH]; cbn; auto. destruct (hash x =? h); cbn; auto. f_equal. auto. Qed.

Lemma hashes_remove p h : map hash (objs (fst (remove_by_hash p h))) = filter (fun x => negb (x =? h)) (map hash (objs p)).
Proof.
  unfold remove_by_hash. destruct (find_obj h (objs p)) as [o|] eqn:E; cbn [fst objs].
  - unfold remove_obj. apply map_hash_filter.
  - rewrite <- map_hash_filter. fold (remove_obj h (objs p)). rewrite remove_obj_absent by exact (find_obj_none _ _ E). reflexivity.
Qed.

Lemma evict_keeps : forall l p h, In h (map hash (objs p)) ->
    In h (map hash (objs (evict p l))) \/ In h (map fst l).
Proof.
  unfold evict. induction l as [|x t IH]; intros p h H; cbn [fold_left]; auto.
  destruct (N.eq_dec h (fst x)) as [->|Hne].
  - right. left. auto.
  - destruct (IH (fst (remove_by_hash p (fst x))) h) as [A|A]; auto.
    + rewrite hashes_remove. apply filter_In. split; auto. apply negb_true_iff. apply N.eqb_neq. auto.
    + right. right. auto.
Qed.

Lemma subseq_in l l' (o : txobj) : subseq l l' -> In o l -> In o l'.
Proof. intros S. induction S; cbn; intros H; [exact H | right; auto | destruct H as [<-|H]; [left; auto | right; auto]]. Qed.

Lemma sort_desc_in y l : In y (sort_desc l) <-> In y l.
Proof. split; apply Permutation_in; [|symmetry]; apply sort_desc_perm. Qed.

Lemma sort_desc_length l : length (sort_desc l) = length l.
Proof. apply Permutation_length, sort_desc_perm. Qed.

Lemma in_skipn {A} (x : A) : forall n l, In x (skipn n l) -> In x l.
Proof. induction n; intros l H; auto. destruct l; cbn in *; auto. Qed.

Lemma in_firstn {A} (x : A) : forall n l, In x (firstn n l) -> In x l.
Proof. induction n; intros l H; cbn in *; [contradiction|]. destruct l; cbn in *; auto. destruct H; auto. Qed.

Lemma sorted_split_le : forall l n x y, StronglySorted ge_price l -> In x (firstn n l) -> In y (skipn n l) -> ge_price x y.
Proof.
  induction l as [|a t IH]; intros n x y Hs Hx Hy.
  - destruct n; cbn in Hx; contradiction.
  - destruct n as [|n]; [cbn in Hx; contradiction|].
    inversion Hs as [|? ? Hs' Hf]; subst. cbn in Hx, Hy. destruct Hx as [<-|Hx].
    + rewrite Forall_forall in Hf. apply Hf. eapply in_skipn; eauto.
    + eapply IH; eauto.
Qed.

Lemma tag_in r l h r' : In (h, r') (tag r l) -> r' = r /\ exists o, In o l /\ hash o = h.
Proof. unfold tag. intro H. apply in_map_iff in H. destruct H as [o [E Ho]]. inversion E. eauto. Qed.

Lemma apply_limits_over limit ex ne kept over : apply_limits limit ex ne = (kept, over) ->
  (forall o, In o kept -> In o ex) /\
  forall h r, In (h, r) over -> exists o', hash o' = h /\
    match r with
    | RLimitNonExecAll => In o' ne /\ (limit < length ex)%nat
    | RLimitExecTail => In o' ex /\ (limit < length ex)%nat
    | RLimitTotal => In o' ne /\ (length ex <= limit < length ex + length ne)%nat
    | RLimitNonExec => In o' ne /\ (length ex + length ne <= limit)%nat /\ (Nat.div (limit * 2) 10 < length ne)%nat
    | _ => False
    end.
Proof.
  unfold apply_limits.
  destruct (Nat.ltb_spec limit (length ex)) as [E1|E1].
  { intros H. inversion H; subst. split; [intros o; apply in_firstn|].
    intros h r Hin. apply in_app_or in Hin.
    destruct Hin as [Hin|Hin]; apply tag_in in Hin; destruct Hin as (-> & o & Ho & Hh); exists o; (split; [exact Hh|]);
      split; auto. eapply in_skipn; eauto. }
  destruct (Nat.ltb_spec limit (length ex + length ne)) as [E2|E2].
  { intros H. inversion H; subst. split; [auto|]. intros h r Hin. apply tag_in in Hin. destruct Hin as (-> & o & Ho & Hh).
    exists o. split; [exact Hh|]. split; [eapply in_skipn; eauto | lia]. }
  destruct (Nat.ltb_spec (Nat.div (limit * 2) 10) (length ne)) as [E3|E3]; intros H; inversion H; subst;
    (split; [auto|]); intros h r Hin; [|destruct Hin].
  apply tag_in in Hin. destruct Hin as (-> & o & Ho & Hh). exists o. split; [exact Hh|]. split; [eapply in_skipn; eauto | lia].
Qed.

Section Wash.
  Variable env : wash_env.

  Lemma wash_eq p : exists kept over p2 pub bad, let a := run_phase1 env p in
    apply_limits (w_limit env) (sort_desc (p1_exec a)) (p1_nonexec a) = (kept, over) /\
    publish (p1_pool a) (w_energy env) (sort_desc (kept ++ p1_localexec a)) = (p2, pub, bad) /\
    wash env p = let removed := p1_removed a ++ over ++ map (fun h => (h, RUnpayable)) bad in mkWash (evict p2 removed) pub removed.
  Proof.
    unfold wash. destruct (apply_limits _ _ _) as [kept over]. destruct (publish _ _ _) as [[p2 pub] bad] eqn:EP.
    exists kept, over, p2, pub, bad. repeat split. exact EP.
  Qed.

  Lemma removed_cases (rem over : list (N * reason)) bad h r :
    In (h, r) (rem ++ over ++ map (fun h => (h, RUnpayable)) bad) ->
    In (h, r) rem \/ In (h, r) over \/ (r = RUnpayable /\ In h bad).
  Proof. rewrite !in_app_iff, in_map_iff. intros [H|[H|(h' & E & H)]]; auto. inversion E; subst. auto. Qed.

  Theorem wash_inv p : inv p -> inv (wr_pool (wash env p)).
  Proof.
    intro H. destruct (wash_eq p) as (kept & over & p2 & pub & bad & _ & EP & ->).
    cbn [wr_pool]. apply (steps_inv _ _ _ (remove_fold_steps fst _ p2)).
    apply (steps_inv _ _ _ (proj1 (publish_spec _ _ _ _ _ _ EP))). exact (steps_inv _ _ _ (run_phase1_steps env p) H).
  Qed.

  (* what each reason asserts about the (pre-wash) object it is attached to *)
  Definition reason_holds (a : phase1) (o : txobj) (r : reason) : Prop :=
    let ne := length (p1_exec a) in
    let nn := length (p1_nonexec a) in
    let limit := w_limit env in
    match r with
    | RBlocked => w_blocked env o = true
    | ROutlived => local_ o = false /\ w_outlived env o = true
    | REvalErr c => w_eval env o = EvErr c
    | RLimitNonExecAll => local_ o = false /\ w_eval env o = EvNo /\ (limit < ne)%nat
    | RLimitExecTail => local_ o = false /\ (exists pr, w_eval env o = EvYes pr) /\ (limit < ne)%nat
    | RLimitTotal => local_ o = false /\ w_eval env o = EvNo /\ (ne <= limit < ne + nn)%nat
    | RLimitNonExec => local_ o = false /\ w_eval env o = EvNo /\ (ne + nn <= limit)%nat /\ (Nat.div (limit * 2) 10 < nn)%nat
    | RUnpayable => executable o = false /\ exists pr, w_eval env o = EvYes pr
    end.

  Lemma limits_reason a kept over seen : p1inv env seen a ->
    apply_limits (w_limit env) (sort_desc (p1_exec a)) (p1_nonexec a) = (kept, over) ->
    (forall h r, In (h, r) over -> exists o, In o seen /\ hash o = h /\ reason_holds a o r) /\
    (forall o', In o' kept -> In o' (p1_exec a)).
  Proof.
    intros (_ & He & Hn & _) H. apply apply_limits_over in H. destruct H as [K O]. rewrite sort_desc_length in O.
    split; [|intros o' Ho'; apply sort_desc_in, K, Ho'].
    intros h r Hin. destruct (O h r Hin) as (o' & Hh & C).
    destruct r; try contradiction; destruct C as [Ho' C];
      [apply Hn in Ho' | apply sort_desc_in, He in Ho' | apply Hn in Ho' | apply Hn in Ho'];
      destruct Ho' as (o & A & B & Cl & _ & _ & F); exists o; (split; [exact A|]); (split; [congruence|]);
      unfold reason_holds; repeat split; auto; try lia; apply C.
  Qed.

  (* drop_reasons: whatever wash removes carries a reason that is true of the pooled object *)
  Theorem drop_reasons_thm p h r :
    In (h, r) (wr_removed (wash env p)) ->
    exists o, In o (objs p) /\ hash o = h /\ reason_holds (run_phase1 env p) o r.
  Proof.
    destruct (wash_eq p) as (kept & over & p2 & pub & bad & EL & EP & ->). cbn [wr_removed]. intro Hin.
    pose proof (p1inv_run env p) as PI. destruct (limits_reason _ kept over (objs p) PI EL) as [LR LK].
    apply removed_cases in Hin. destruct Hin as [Hin|[Hin|[-> Hb]]]; [|apply LR; exact Hin|].
    - destruct PI as [Hr _]. destruct (Hr _ _ Hin) as [o [A [B C]]]. exists o. repeat split; auto.
      destruct r; cbn in C |- *; auto; contradiction.
    - destruct (proj2 (proj2 (publish_spec _ _ _ _ _ _ EP)) h Hb) as (o' & q & _ & Ho' & Hh & He & _).
      apply (proj1 (sort_desc_in _ _)) in Ho'. destruct PI as [_ [PE [_ PL]]].
      assert (F : exists wl, from env (objs p) wl true o').
      { apply in_app_or in Ho'. destruct Ho' as [Ho'|Ho']; [exists false; apply PE; auto|exists true; apply PL; auto]. }
      destruct F as [wl [o [A [B [C [D [_ F]]]]]]]. exists o. repeat split; auto; try congruence.
  Qed.

  (* RUnpayable with its energy condition: the candidate (the pooled object with the pricing this wash published on it)
     was not executable and had no pricing, or its payer's energy at the next block time is below pending + cost for the
     payer's pending cost in SOME pool q: the statement does not say which.  Proofs.dropped, from which it is read off,
     does: a pool the promotion loop had reached from the pool after phase 1 *)
  Theorem unpayable_energy_reason p h :
    In (h, RUnpayable) (wr_removed (wash env p)) ->
    exists o' q, hash o' = h /\ executable o' = false /\
      (price o' = None \/
       exists pc, price o' = Some pc /\ w_energy env (payer pc) < aget (cost q) (payer pc) + pcost pc).
  Proof.
    destruct (wash_eq p) as (kept & over & p2 & pub & bad & EL & EP & ->). cbn [wr_removed]. intro Hin.
    apply removed_cases in Hin. destruct Hin as [Hin|[Hin|[_ Hb]]].
    - destruct (p1inv_run env p) as [Hr _]. destruct (Hr _ _ Hin) as [o [_ [_ C]]]. cbn in C. contradiction.
    - destruct (proj2 (apply_limits_over _ _ _ _ _ EL) _ _ Hin) as (? & _ & []).
    - destruct (proj2 (proj2 (publish_spec _ _ _ _ _ _ EP)) h Hb) as (o' & q & _ & _ & A). exists o', q. exact A.
  Qed.

  (* limit case 1 inside wash: when the non-local executables alone exceed the limit, exactly the tail of the price-sorted
     list is removed with RLimitExecTail and every victim is priced no higher than every kept candidate *)
  Theorem wash_displaces_lowest_priced p :
    let a := run_phase1 env p in
    let sorted := sort_desc (p1_exec a) in
    (w_limit env < length (p1_exec a))%nat ->
    forall y, In y (skipn (w_limit env) sorted) ->
      In (hash y, RLimitExecTail) (wr_removed (wash env p)) /\
      forall x, In x (firstn (w_limit env) sorted) -> pgp_of y <= pgp_of x.
  Proof.
    intros a sorted Hlt y Hy. split.
    - destruct (wash_eq p) as (kept & over & p2 & pub & bad & EL & _ & ->). cbn [wr_removed].
      apply in_or_app. right. apply in_or_app. left. unfold apply_limits in EL. fold a sorted in EL.
      rewrite (proj2 (Nat.ltb_lt _ _)) in EL by (unfold sorted; rewrite sort_desc_length; exact Hlt).
      inversion EL. apply in_or_app. right. unfold tag. apply in_map_iff. exists y. auto.
    - intros x Hx. exact (sorted_split_le _ _ _ _ (sort_desc_sorted (p1_exec a)) Hx Hy).
  Qed.

  Theorem published_were_evaluated p o' :
    In o' (wr_published (wash env p)) ->
    exists o, In o (objs p) /\ hash o' = hash o /\ w_blocked env o = false /\ exists pr, w_eval env o = EvYes pr.
  Proof.
    destruct (wash_eq p) as (kept & over & p2 & pub & bad & EL & EP & ->). cbn [wr_published]. intro Hin.
    pose proof (p1inv_run env p) as PI. destruct (limits_reason _ kept over (objs p) PI EL) as [_ LK].
    apply (subseq_in _ _ _ (proj1 (proj2 (publish_spec _ _ _ _ _ _ EP)))), sort_desc_in, in_app_or in Hin.
    destruct PI as [_ [PE [_ PL]]]. destruct Hin as [PP|PP].
    - destruct (PE _ (LK _ PP)) as [o [A [B [C [D [E F]]]]]]. exists o. auto.
    - destruct (PL _ PP) as [o [A [B [C [D [E F]]]]]]. exists o. auto.
  Qed.

  Theorem wash_published_sorted p :
    StronglySorted ge_price (wr_published (wash env p)).
  Proof.
    destruct (wash_eq p) as (kept & over & p2 & pub & bad & _ & EP & ->). cbn [wr_published].
    exact (subseq_sorted _ _ (proj1 (proj2 (publish_spec _ _ _ _ _ _ EP))) (sort_desc_sorted _)).
  Qed.

  Theorem wash_only_removes_listed p o :
    In o (objs p) ->
    In (hash o) (map hash (objs (wr_pool (wash env p)))) \/ In (hash o) (map fst (wr_removed (wash env p))).
  Proof.
    intro Ho. destruct (wash_eq p) as (kept & over & p2 & pub & bad & _ & EP & ->).
    cbn [wr_pool wr_removed]. apply evict_keeps.
    rewrite (steps_hashes _ _ (steps_trans _ _ _ _ (run_phase1_steps env p) (proj1 (publish_spec _ _ _ _ _ _ EP)))).
    apply in_map. auto.
  Qed.
End Wash.
