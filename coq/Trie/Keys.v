(* Trie/Keys.v — facts about hex keys: terminated keys (keybytesToHex images), nibble strings, prefixLen. *)
From Coq Require Import List Arith Bool Lia.
From Verif Require Import Trie.Model.
Import ListNotations.

Definition nibs (k : list nat) : Prop := Forall (fun x => x < 16) k.

(* a terminated hex key: nibbles below 16 closed by exactly one 16 *)
Inductive vkey : list nat -> Prop :=
| vk_end : vkey [16]
| vk_cons x r : x < 16 -> vkey r -> vkey (x :: r).

Lemma vkey_nonempty k : vkey k -> k <> [].
Proof. intros H; inversion H; discriminate. Qed.

Lemma vkey_length k : vkey k -> 1 <= length k.
Proof. intros H; inversion H; cbn; lia. Qed.

Lemma vkey_app p r : nibs p -> vkey r -> vkey (p ++ r).
Proof. induction 1; cbn; intros; auto. constructor; auto. Qed.

Lemma vkey_app_inv p : forall r, nibs p -> vkey (p ++ r) -> vkey r.
Proof.
  induction p; cbn; intros r H H0; auto. inversion H; subst.
  inversion H0; subst; [lia|auto].
Qed.

Lemma vkey_terminate ns : nibs ns -> vkey (terminate ns).
Proof. intros; apply vkey_app; auto; constructor. Qed.

Lemma vkey_inv k : vkey k -> exists ns, k = ns ++ [16] /\ nibs ns.
Proof.
  induction 1.
  - exists []; split; auto; constructor.
  - destruct IHvkey as [ns [E N]]. exists (x :: ns); subst; split; auto. constructor; auto.
Qed.

Lemma nibs_app a b : nibs (a ++ b) <-> nibs a /\ nibs b.
Proof. unfold nibs. apply Forall_app. Qed.

Lemma vkey_cons_inv x r : vkey (x :: r) -> (x = 16 /\ r = []) \/ (x < 16 /\ vkey r).
Proof. intros H; inversion H; subst; auto. Qed.

Lemma vkey_eq_dec (a b : list nat) : {a = b} + {a <> b}.
Proof. apply (list_eq_dec Nat.eq_dec). Qed.

Lemma prefix_len_le_l a : forall b, prefix_len a b <= length a.
Proof. induction a; destruct b; cbn; try lia. destruct (a =? n); cbn; try lia. specialize (IHa b); lia. Qed.

Lemma prefix_len_comm a : forall b, prefix_len a b = prefix_len b a.
Proof.
  induction a; destruct b; cbn; auto.
  rewrite (Nat.eqb_sym n a). destruct (a =? n); auto.
Qed.

Lemma prefix_len_le_r a b : prefix_len a b <= length b.
Proof. rewrite prefix_len_comm. apply prefix_len_le_l. Qed.

Lemma prefix_len_app a : forall r, prefix_len a (a ++ r) = length a.
Proof. induction a; cbn; auto. intros; rewrite Nat.eqb_refl, IHa; auto. Qed.

Lemma prefix_len_refl a : prefix_len a a = length a.
Proof. induction a; cbn; auto. rewrite Nat.eqb_refl, IHa; auto. Qed.

Lemma prefix_len_full a : forall b, prefix_len a b = length a -> b = a ++ skipn (length a) b.
Proof.
  induction a; cbn; intros; auto.
  destruct b; try discriminate.
  destruct (a =? n) eqn:E; try discriminate.
  apply Nat.eqb_eq in E; subst. injection H as H. cbn. f_equal. auto.
Qed.

Lemma prefix_firstn a : forall b, firstn (prefix_len a b) a = firstn (prefix_len a b) b.
Proof.
  induction a; destruct b; cbn; auto.
  destruct (a =? n) eqn:E; cbn; auto. apply Nat.eqb_eq in E; subst. f_equal; auto.
Qed.

Lemma prefix_len_nth_neq a : forall b,
  prefix_len a b < length a -> prefix_len a b < length b ->
  nth (prefix_len a b) a 0 <> nth (prefix_len a b) b 0.
Proof.
  induction a; destruct b; cbn; intros; try lia.
  destruct (a =? n) eqn:E; cbn.
  - apply IHa; cbn in *; lia.
  - apply Nat.eqb_neq in E; auto.
Qed.

Lemma vkey_prefix_eq a : forall b, vkey a -> vkey b -> prefix_len a b = length a -> a = b.
Proof.
  induction a as [|x a IH]; intros b Ha Hb H; [inversion Ha|].
  destruct b as [|y b]; [inversion Hb|]. cbn in H.
  destruct (x =? y) eqn:E; try discriminate. apply Nat.eqb_eq in E; subst y.
  injection H as H.
  inversion Ha; subst; inversion Hb; subst; auto; try lia.
  f_equal; auto.
Qed.

Lemma vkey_neq_split a b : vkey a -> vkey b -> a <> b ->
  prefix_len a b < length a /\ prefix_len a b < length b.
Proof.
  intros Ha Hb N.
  pose proof (prefix_len_le_l a b). pose proof (prefix_len_le_r a b).
  split.
  - destruct (Nat.eq_dec (prefix_len a b) (length a)); try lia.
    exfalso; apply N; apply vkey_prefix_eq; auto.
  - destruct (Nat.eq_dec (prefix_len a b) (length b)); try lia.
    exfalso; apply N; symmetry; apply vkey_prefix_eq; auto. rewrite prefix_len_comm; auto.
Qed.

Lemma vkey_vs_nibs key : forall k, vkey key -> nibs k -> prefix_len key k < length key.
Proof.
  induction key as [|x key IH]; intros k Hk Hn; [inversion Hk|].
  destruct k as [|y k]; cbn; try lia.
  destruct (x =? y) eqn:E; cbn; try lia. apply Nat.eqb_eq in E; subst y.
  inversion Hn; subst. inversion Hk; subst; try lia.
  specialize (IH k H4 H2). lia.
Qed.

Lemma vkey_skip_nibs k : forall key, vkey key -> nibs k -> prefix_len key k = length k ->
  vkey (skipn (length k) key).
Proof.
  induction k as [|y k IH]; cbn; intros key Hk Hn H; auto.
  destruct key as [|x key]; cbn in *; try discriminate.
  destruct (x =? y) eqn:E; try discriminate. injection H as H.
  apply Nat.eqb_eq in E; subst y.
  inversion Hn; subst. inversion Hk; subst; try lia.
  auto.
Qed.

(* position m of a terminated key: everything before is nibbles; at m either the terminator (end) or a nibble *)
Lemma vkey_at key : forall m, vkey key -> m < length key ->
  nibs (firstn m key) /\
  ((nth m key 0 = 16 /\ skipn (S m) key = []) \/ (nth m key 0 < 16 /\ vkey (skipn (S m) key))).
Proof.
  induction key; intros m Hk Hm; [inversion Hk|].
  apply vkey_cons_inv in Hk. destruct m.
  - cbn. split; [constructor|]. destruct Hk as [[-> ->]|[Hl Hk]]; auto.
  - destruct Hk as [[-> ->]|[Hl Hk]]; [cbn in Hm; lia|].
    cbn in Hm. destruct (IHkey m Hk ltac:(lia)) as [N D].
    split; [cbn; constructor; auto|]. exact D.
Qed.

Lemma nibs_at k : forall m, nibs k -> m < length k ->
  nibs (firstn m k) /\ nth m k 0 < 16 /\ nibs (skipn (S m) k).
Proof.
  induction k; intros m Hn Hm; [cbn in Hm; lia|].
  inversion Hn; subst. destruct m; cbn.
  - repeat split; auto. constructor.
  - cbn in Hm. destruct (IHk m H2 ltac:(lia)) as [A [B C]]. repeat split; auto. constructor; auto.
Qed.

Lemma nibs_no16 k : nibs k -> ~ In 16 k.
Proof. intros H I. unfold nibs in H. rewrite Forall_forall in H. apply H in I. lia. Qed.

Lemma firstn_prefix_len_length a b : length (firstn (prefix_len a b) a) = prefix_len a b.
Proof. rewrite firstn_length. pose proof (prefix_len_le_l a b). lia. Qed.

Lemma split_at_prefix a b : a = firstn (prefix_len a b) a ++ skipn (prefix_len a b) a.
Proof. symmetry; apply firstn_skipn. Qed.

Lemma skipn_nth_cons {A} (l : list A) d : forall m, m < length l -> skipn m l = nth m l d :: skipn (S m) l.
Proof.
  induction l; intros m Hm; [cbn in Hm; lia|].
  destruct m; cbn; auto. apply IHl. cbn in Hm; lia.
Qed.
