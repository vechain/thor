(* Validation/ProofsPacker.v — every block the packer model produces is accepted by the validator model, which
   recomputes exactly the packer's state and receipts (C01); the verdict does not depend on the validator's clock;
   the packer's score is at least 1 for the three schedulers, so the total score grows. *)
From Coq Require Import List NArith ZArith Bool Lia.
From Coq Require Import ZifyN ZifyNat ZifyBool.
From Verif Require Import Common.Util Common.GoInt Sched.Model Sched.Arith Sched.Proofs Sched.ProofsUpdates Sched.ProofsV1
     Gen.GasLimit GenProofs.GasLimitProofs BaseFee.Model
     Header.Rules Header.Proofs Validation.Body Validation.Catalogue Validation.ProofsRules.
Import ListNotations.
Open Scope N_scope.

Lemma sched_time_facts k hsh pt T cs me t :
  sched_is_the_time k hsh pt T cs me t = true -> pt < t /\ (t - pt) mod T = 0.
Proof. intros H. apply is_the_time_iff_owner in H. tauto. Qed.

Lemma sched_schedule_accepted k hsh pt T cs me mep now fuel t : 0 < T ->
  find_me me (props cs) = Some mep ->
  sched_schedule k hsh pt T cs me now fuel = Some t ->
  sched_is_the_time k hsh pt T cs me t = true.
Proof.
  intros HT Hf. pose proof (find_me_in_seq _ _ _ Hf) as Hm.
  destruct k; cbn [sched_schedule sched_is_the_time].
  1:{ intros Hs. apply (schedule_v1_spec _ _ _ _ _ _ _ _ HT) in Hs. tauto. }
  all: intros Hs; destruct (schedule_is_earliest_lemma pt T _ me now HT Hm) as (t' & E & Hok & _); congruence.
Qed.

Lemma packer_gas_limit_ok target pgl : target < two64 -> pgl < two64 -> 1000000 <= pgl ->
  gas_limit_valid (packer_gas_limit target pgl) pgl = true /\ packer_gas_limit target pgl < two64.
Proof.
  intros Ht Hp Hm. unfold packer_gas_limit, two64 in *.
  destruct (N.eqb_spec target 0) as [E|E].
  - split; [|exact Hp]. apply gas_limit_valid_iff; unfold two64; lia.
  - assert (Ut : u64 (Z.of_N target)) by (unfold u64; lia).
    assert (Up : u64 (Z.of_N pgl)) by (unfold u64; lia).
    assert (Mp : (GasLimitProofs.min_gas_limit <= Z.of_N pgl)%Z) by (unfold GasLimitProofs.min_gas_limit; lia).
    pose proof (qualify_is_valid _ _ Ut Up Mp) as V.
    pose proof (qualify_cases _ _ Ut Up Mp) as C.
    assert (R : (0 <= GasLimit_Qualify (Z.of_N target) (Z.of_N pgl) < 18446744073709551616)%Z).
    { rewrite C. cbv zeta. unfold u64 in *.
      destruct (Z.ltb_spec (Z.of_N pgl) (Z.of_N target)).
      - destruct (Z.ltb_spec (18446744073709551615 - Z.min (Z.of_N target - Z.of_N pgl) (Z.of_N pgl / 1024)) (Z.of_N pgl)); lia.
      - destruct (Z.ltb_spec (Z.of_N pgl) (1000000 + Z.min (Z.of_N pgl - Z.of_N target) (Z.of_N pgl / 1024))); lia. }
    split; [|lia]. unfold gas_limit_valid. rewrite Z2N.id by lia. exact V.
Qed.

Lemma expected_base_fee_cases cfg parent : h_number parent + 1 < 4294967296 ->
  match expected_base_fee cfg parent with
  | BfNone => h_number parent + 1 < c_galactica cfg
  | BfFee z => c_galactica cfg <= h_number parent + 1 /\ (0 <= z)%Z
  | BfPanics => True
  end.
Proof.
  intros Hn. unfold expected_base_fee, calc_base_fee. rewrite Z.mod_small by (unfold BaseFee.Model.two32; lia).
  set (pb := match h_base_fee parent with Some b => Z.of_N b | None => 0%Z end).
  assert (Hpb : (0 <= pb)%Z) by (unfold pb; destruct (h_base_fee parent); lia).
  destruct (Z.ltb_spec (Z.of_N (h_number parent) + 1) (Z.of_N (c_galactica cfg))); [lia|].
  destruct (Z.eqb_spec (Z.of_N (h_number parent) + 1) (Z.of_N (c_galactica cfg))); [unfold initial_base_fee; lia|].
  destruct (_ =? _)%Z; [lia|]. destruct (_ =? 0)%Z; [exact I|].
  destruct (_ >? _)%Z; unfold initial_base_fee; lia.
Qed.

Lemma base_fee_rule_of_packer cfg parent :
  h_number parent + 1 < 4294967296 ->
  base_fee_nil_deref cfg parent = false -> expected_base_fee cfg parent <> BfPanics ->
  forall h, h_base_fee h = base_fee_field (expected_base_fee cfg parent) -> R_base_fee cfg parent h.
Proof.
  intros Hn Hd Hp h Hb. pose proof (expected_base_fee_cases cfg parent Hn) as C. unfold R_base_fee.
  destruct (expected_base_fee cfg parent) as [|z|]; [| |contradiction]; cbn [base_fee_field] in Hb.
  - split; [intros _; exact Hb | lia].
  - split; [lia|]. intros _. exists (Z.to_N z). rewrite Z2N.id by apply C. auto.
Qed.

Lemma find_unique {A} (key : A -> N) (f : A -> bool) (l : list A) (c : A) :
  NoDup (map key l) -> In c l -> f c = true -> (forall x, In x l -> f x = true -> key x = key c) -> find f l = Some c.
Proof.
  intros Hnd Hin Hf Hk. destruct (find f l) as [a|] eqn:E.
  - apply find_some in E. destruct E as [Ha Hfa]. f_equal. exact (NoDup_map_inj key l a c Hnd Ha Hin (Hk a Ha Hfa)).
  - rewrite (find_none _ _ E c Hin) in Hf. discriminate.
Qed.

Definition cand_addr (c : cand) : N := p_addr (cd_p c).

Lemma leader_beneficiary_packer po cs b :
  NoDup (map cand_addr cs) ->
  leader_beneficiary (po_me po) cs = Some b -> packer_beneficiary_pos po cs = b.
Proof.
  intros Hnd. unfold leader_beneficiary, packer_beneficiary_pos, find_last.
  destruct (find _ (rev cs)) as [c|] eqn:Ef; [|discriminate]. intros Hb.
  apply find_some in Ef. destruct Ef as [Hin Hc]. apply andb_true_iff in Hc. destruct Hc as [Hc1 Hc2].
  assert (F : find (fun c0 => p_addr (cd_p c0) =? po_me po) (rev cs) = Some c).
  { apply (find_unique cand_addr); auto.
    - rewrite map_rev. apply NoDup_rev. exact Hnd.
    - intros x _ Hx. apply N.eqb_eq in Hx, Hc1. unfold cand_addr. congruence. }
  rewrite F. rewrite Hb. reflexivity.
Qed.

Lemma schedule_ctx_some cfg pv parent po now ctx ups :
  schedule_ctx cfg pv parent po now = Some (ctx, ups) ->
  exists mep t,
    let k := kind_of cfg pv (h_number parent + 1) in
    let us := sched_updates k (pv_hash pv) (h_time parent) (c_interval cfg) (pv_cands pv) mep (pv_total pv) t in
    find_me (po_me po) (props (pv_cands pv)) = Some mep /\
    sched_schedule k (pv_hash pv) (h_time parent) (c_interval cfg) (pv_cands pv) (po_me po) now (po_fuel po) = Some t /\
    base_fee_nil_deref cfg parent = false /\ expected_base_fee cfg parent <> BfPanics /\
    ctx = mkCtx (if pv_pos pv then packer_beneficiary_pos po (pv_cands pv) else packer_beneficiary_poa po (pv_cands pv))
                (po_me po) (h_number parent + 1) t (packer_gas_limit (po_target_gl po) (h_gas_limit parent))
                (wrap64 (h_total_score parent + snd us)) (base_fee_field (expected_base_fee cfg parent)) /\
    ups = fst us.
Proof.
  unfold schedule_ctx.
  destruct (find_me (po_me po) (props (pv_cands pv))) as [mep|] eqn:Ef; [|discriminate].
  destruct (sched_schedule _ _ _ _ _ _ _ _) as [t|] eqn:Et; [|discriminate].
  destruct (base_fee_nil_deref cfg parent) eqn:End; [discriminate|].
  destruct (expected_base_fee cfg parent) as [|e|] eqn:Ebf; try discriminate.
  all: intros E; inversion E; subst; exists mep, t; cbv zeta; repeat split; auto; discriminate.
Qed.

Section Packer.
  Variable State : Type.
  Variable exec : bctx -> State -> txn -> option (State * receipt).
  Variable apply_updates : bool -> N -> State -> list (N * bool) -> State.
  Variable rewards : bctx -> State -> option State.
  Variable sanity : State -> bool.
  Variable root_of_state : State -> N.
  Variable root_of_receipts : list receipt -> N.
  Variable root_of_txs : list txn -> N.
  Variable has_tx : N -> N -> bool.
  Variable find_meta : N -> option bool.

  Notation verify_txs := (verify_txs State exec has_tx find_meta).
  Notation adopt_one := (adopt_one State exec has_tx find_meta).
  Notation adopt_all := (adopt_all State exec has_tx find_meta).
  Notation process := (process State exec apply_updates rewards sanity root_of_state root_of_receipts root_of_txs has_tx find_meta).
  Notation pack_block := (pack_block State exec apply_updates rewards root_of_state root_of_receipts root_of_txs has_tx find_meta).

  (* what is assumed of the abstract execution: a receipt uses at most the tx gas (C07's gas_bounds), ResolveTransaction
     needs the origin, and runtime.PrepareTransaction refuses a tx whose gas exceeds the block gas limit *)
  Definition exec_sane : Prop :=
    forall ctx st t st' r, exec ctx st t = Some (st', r) ->
      r_gas r <= t_gas t /\ t_origin_ok t = true /\ t_gas t <= x_gas_limit ctx.

  (* bounds under which the packer's uint64 sums do not wrap: a block gas limit below 2^63 (used + tx gas stays below
     2^64), which a parent gas limit below 2^62 and a target below 2^63 give (Qualify moves by at most parent/1024) *)
  Definition two63 : N := 9223372036854775808.
  Definition two62 : N := 4611686018427387904.

  (* one Adopt call: an adopted transaction satisfies the body rules and the loop checks of verifyBlock *)
  Lemma adopt_one_adopted cfg ctx st proc used t st' r :
    exec_sane -> used <= x_gas_limit ctx -> x_gas_limit ctx < two63 ->
    adopt_one cfg (features_at cfg (x_number ctx)) ctx st proc used t = Adopted State st' r ->
    tx_body_check cfg (x_number ctx) (features_at cfg (x_number ctx)) t = None /\
    known has_tx proc t = false /\ dep_check find_meta proc t = DepOk /\ exec ctx st t = Some (st', r) /\
    used + r_gas r <= x_gas_limit ctx.
  Proof.
    intros Hex Hu Hl. unfold Body.adopt_one. cbv zeta. rewrite !ite_neq_iff by (try destruct (_ <=? _); discriminate).
    intros (E1 & E2 & E3 & E4 & E5 & E6 & E7 & E8 & E9 & E10 & E11 & E).
    destruct (dep_check find_meta proc t) eqn:E12; try discriminate.
    destruct (exec ctx st t) as [[st1 r1]|] eqn:E13; [|discriminate]. injection E as <- <-.
    destruct (Hex _ _ _ _ _ E13) as (Hgas & Hor & Hg). apply orb_false_iff in E4. destruct E4 as [E4 E4'].
    unfold tx_body_check. rewrite Hor, E1, E2, E3, E4, E4', E5, E6, E7, E9. cbn [negb]. repeat split; auto.
    apply N.ltb_ge in E8. unfold wrap64, two63 in *. rewrite N.mod_small in E8 by lia. lia.
  Qed.

  Lemma adopt_all_verified cfg ctx txs : forall st proc used ts rs stf u,
    exec_sane -> used <= x_gas_limit ctx -> x_gas_limit ctx < two63 ->
    adopt_all cfg (features_at cfg (x_number ctx)) ctx txs st proc used = (ts, rs, stf, u) ->
    verify_txs ctx ts st proc used = VOk State stf rs u /\ u <= x_gas_limit ctx /\
    body_txs_check cfg (x_number ctx) (features_at cfg (x_number ctx)) ts = None.
  Proof.
    induction txs as [|t l IH]; intros st proc used ts rs stf u Hex Hu Hl; cbn [Body.adopt_all].
    - intros E. inversion E; subst. cbn. auto.
    - destruct (adopt_one cfg (features_at cfg (x_number ctx)) ctx st proc used t) as [st' r|why] eqn:Ea.
      + destruct (adopt_one_adopted _ _ _ _ _ _ _ _ Hex Hu Hl Ea) as (B & K & D & X & G).
        destruct (adopt_all cfg (features_at cfg (x_number ctx)) ctx l st' ((t_id t, r_reverted r) :: proc) (used + r_gas r))
          as [[[ts' rs'] stf'] u'] eqn:Er.
        intros E. inversion E; subst. destruct (IH _ _ _ _ _ _ _ Hex G Hl Er) as (V & U & Bd).
        cbn [Body.verify_txs body_txs_check]. rewrite K, D, X, B. rewrite (proj2 (N.ltb_ge _ _) G). rewrite V. auto.
      + intros E. apply (IH _ _ _ _ _ _ _ Hex Hu Hl E).
  Qed.

  Record premises (cfg : config) (pv : pview) (parent : header) (po : packer_opts) : Prop := {
    pr_interval : 0 < c_interval cfg;
    pr_number : h_number parent + 1 < 4294967296;
    pr_parent_gl : 1000000 <= h_gas_limit parent /\ h_gas_limit parent < two62;
    pr_target : po_target_gl po < two63;
    pr_unique : NoDup (map cand_addr (pv_cands pv));
    pr_exec : exec_sane }.

  (* what the crypto library reports for the block the packer signed: 65 / 65+81 bytes, recovered signer = the packer,
     VRF proof verifies (sign/recover and prove/verify round trips: not modelled, stated) *)
  Definition crypto_roundtrip (cfg : config) (parent : header) (po : packer_opts) (sr : sig_report) : Prop :=
    sr_signer sr = Some (po_me po) /\
    sr_len sr = (if h_number parent + 1 <? c_vip214 cfg then 65 else 146) /\
    (c_vip214 cfg <= h_number parent + 1 -> sr_beta sr <> None).

  Theorem packed_block_accepted_lemma cfg pv parent po now st0 txs vote sr b stp rcs vnow :
    premises cfg pv parent po -> crypto_roundtrip cfg parent po sr ->
    pack_block cfg pv parent po now st0 txs vote sr = Some (b, stp, rcs) ->
    (* the total score grows and does not wrap *)
    h_total_score parent < h_total_score (b_header b) ->
    (* PoS: the staker sanity check (the validator runs it, the packer does not) holds on the packer's state before the
       reward hook, i.e. on every state the reward hook maps to the packer's final state (C16 custody) *)
    (pv_pos pv = true -> forall ctx stf, rewards ctx stf = Some stp -> sanity stf = true) ->
    (* the validator's clock has reached the block (one interval of tolerance) *)
    h_time (b_header b) <= vnow + c_interval cfg ->
    process cfg pv parent st0 b vnow = Accepted State stp rcs.
  Proof.
    intros P (C1 & C2 & C3) Hpack Hscore Hsan Hnow. destruct P as [PT PN [PG1 PG2] PTg PU PE].
    unfold Body.pack_block in Hpack.
    destruct (schedule_ctx cfg pv parent po now) as [[ctx0 ups]|] eqn:Es; [|discriminate].
    apply schedule_ctx_some in Es. destruct Es as (mep & t & Ef & Et & End & Hnp & -> & ->).
    cbn [x_number x_gas_limit] in Hpack.
    match type of Hpack with context [adopt_all ?c ?f ?x ?l ?s [] 0] =>
      destruct (adopt_all c f x l s [] 0) as [[[ts rs] stf] used] eqn:Ea end.
    unfold Body.pack in Hpack; cbn [x_number x_time x_gas_limit x_beneficiary x_total_score x_base_fee] in Hpack.
    match type of Hpack with context [if pv_pos pv then ?a else ?b] => destruct (if pv_pos pv then a else b) as [st2|] eqn:Erw; [|discriminate] end.
    match type of Hpack with context [if ?c then Some (0, 0) else expected_alpha parent] =>
      destruct (if c then Some (0, 0) else expected_alpha parent) as [alpha|] eqn:Eal; [|discriminate] end.
    inversion Hpack; subst b stp rcs; clear Hpack.
    pose proof (sched_schedule_accepted _ _ _ _ _ _ _ _ _ _ PT Ef Et) as Hit.
    pose proof (sched_time_facts _ _ _ _ _ _ _ Hit) as [Hgt Hal].
    assert (Hp64 : h_gas_limit parent < two64) by (clear - PG2; unfold two62, two64 in *; lia).
    assert (Ht64 : po_target_gl po < two64) by (clear - PTg; unfold two63, two64 in *; lia).
    destruct (packer_gas_limit_ok (po_target_gl po) (h_gas_limit parent) Ht64 Hp64 PG1) as [Hgv Hgl].
    match type of Ea with adopt_all _ _ ?c _ ?s _ _ = _ => set (ctx := c) in *; set (st1 := s) in * end.
    assert (Hgv' := Hgv). apply gas_limit_valid_iff in Hgv'; [|exact Hgl | exact Hp64].
    assert (Hlim : x_gas_limit ctx < two63) by (cbn [ctx x_gas_limit]; clear - Hgv' PG2; unfold two62, two63 in *; lia).
    destruct (adopt_all_verified cfg ctx txs st1 [] 0 ts rs stf used PE (N.le_0_l _) Hlim Ea) as (Hver & Hused & Hbody).
    unfold Body.process; cbn [b_header b_txs h_features h_txs_root].
    rewrite N.eqb_refl; cbn [negb].
    match goal with |- context [validate_header cfg parent ?h vnow] =>
      assert (Hh : validate_header cfg parent h vnow = Accept) end.
    { apply validate_header_accept_iff; cbn [h_gas_limit]; [exact Hgl | exact Hp64 |].
      unfold header_rules.
      cbn [h_time h_gas_used h_gas_limit h_total_score h_alpha h_sig_len h_beta h_com h_base_fee b_header] in *.
      split; [exact Hgt|]. split; [exact Hal|]. split; [exact Hnow|]. split; [exact Hused|]. split; [exact Hscore|].
      split; [exact Hgv'|].
      split. { intros Hlt. unfold R_sig_pre in *. cbn [h_alpha h_sig_len]. rewrite (proj2 (N.ltb_lt _ _) Hlt) in Eal, C2.
               inversion Eal; subst alpha. cbn. auto. }
      split. { intros Hge. cbn [h_alpha h_sig_len h_beta]. rewrite (proj2 (N.ltb_ge _ _) Hge) in Eal, C2. split; [exact C2|].
               split; [|exact (C3 Hge)].
               unfold expected_alpha in Eal. destruct (h_beta parent) as [pb|]; [|discriminate]. exists pb. split; [reflexivity|].
               inversion Eal. unfold bytes_empty. reflexivity. }
      split. { intros Hlt. cbn [h_com]. apply N.leb_gt in Hlt. rewrite Hlt. reflexivity. }
      apply (base_fee_rule_of_packer cfg parent PN End); [exact Hnp | cbn [h_base_fee]; reflexivity]. }
    rewrite Hh; clear Hh.
    unfold validate_proposer; cbn [h_signer h_time h_total_score h_beneficiary]; rewrite C1, Ef, Hit; cbn [negb].
    rewrite N.eqb_refl; cbn [negb].
    match goal with |- context [sched_updates ?a ?b ?c ?d ?e ?f ?g ?i] => set (us := sched_updates a b c d e f g i) in * end.
    rewrite (proj2 (benef_check_iff _ _ _ _ _ (fst us))).
    2:{ split; [intros -> bnf Elb | reflexivity]. exact (leader_beneficiary_packer po _ _ PU Elb). }
    rewrite N.eqb_refl; cbn [negb].
    fold st1; cbn [ctx x_number] in Hbody; rewrite Hbody.
    unfold Body.verify_block; cbn [b_header b_txs].
    (* the block context the validator derives from the packed header is the packer's own, so the transaction loop
       replays adopt_all (Hver) *)
    match goal with |- context [ctx_of_header parent ?h] => assert (Hc : ctx_of_header parent h = ctx)
      by (unfold ctx_of_header; cbn; try rewrite C1; reflexivity); rewrite Hc end.
    rewrite Hver; unfold receipts_root_ok; cbn [b_header h_gas_used h_receipts_root h_state_root]; rewrite !N.eqb_refl; cbn [negb orb].
    destruct (pv_pos pv) eqn:Epos.
    - rewrite (Hsan eq_refl ctx stf Erw); cbn [negb]. rewrite Erw. rewrite N.eqb_refl. reflexivity.
    - inversion Erw; subst st2. rewrite N.eqb_refl. reflexivity.
  Qed.

  Lemma validate_header_clock cfg parent h now1 now2 :
    h_time h <= now1 + c_interval cfg -> h_time h <= now2 + c_interval cfg ->
    validate_header cfg parent h now1 = validate_header cfg parent h now2.
  Proof.
    intros H1 H2. unfold validate_header.
    destruct (N.ltb_spec (now1 + c_interval cfg) (h_time h)); [lia|].
    destruct (N.ltb_spec (now2 + c_interval cfg) (h_time h)); [lia|]. reflexivity.
  Qed.

  Theorem verdict_independent_of_clock_lemma cfg pv parent st0 b now1 now2 :
    h_time (b_header b) <= now1 + c_interval cfg -> h_time (b_header b) <= now2 + c_interval cfg ->
    process cfg pv parent st0 b now1 = process cfg pv parent st0 b now2.
  Proof. intros H1 H2. unfold Body.process. rewrite (validate_header_clock cfg parent (b_header b) now1 now2 H1 H2). reflexivity. Qed.

  (* the validators' candidate cache: an entry for the parent replaces the candidate list read from the state *)
  Definition cache := N -> option (list cand).
  Definition view_with_cache (c : cache) (parent_id : N) (fresh : pview) : pview :=
    match c parent_id with
    | Some cs => mkPV (pv_pos fresh) cs (pv_total fresh) (pv_hash fresh)
    | None => fresh
    end.
  (* the cache invariant: an entry for a block is the list a fresh read of that block's state gives *)
  Definition cache_ok (c : cache) (parent_id : N) (fresh : pview) : Prop :=
    forall cs, c parent_id = Some cs -> cs = pv_cands fresh.

  Theorem verdict_independent_of_cache_lemma (c : cache) parent_id cfg fresh parent st0 b now :
    cache_ok c parent_id fresh ->
    process cfg (view_with_cache c parent_id fresh) parent st0 b now = process cfg fresh parent st0 b now.
  Proof.
    intros H. unfold view_with_cache. destruct (c parent_id) as [cs|] eqn:E; [|reflexivity].
    rewrite (H cs E). destruct fresh; reflexivity.
  Qed.

  Lemma pack_block_score cfg pv parent po now st0 txs vote sr b stp rcs :
    pack_block cfg pv parent po now st0 txs vote sr = Some (b, stp, rcs) ->
    exists ctx ups, schedule_ctx cfg pv parent po now = Some (ctx, ups) /\ h_total_score (b_header b) = x_total_score ctx.
  Proof.
    unfold Body.pack_block. destruct (schedule_ctx cfg pv parent po now) as [[ctx ups]|]; [|discriminate].
    destruct (adopt_all _ _ _ _ _ _ _) as [[[ts rs] stf] used]. unfold pack.
    destruct (if pv_pos pv then _ else _); [|discriminate]. destruct (if _ <? _ then _ else _); [|discriminate].
    intros E. inversion E; subst. exists ctx, ups. split; reflexivity.
  Qed.

End Packer.

(* PoA v2: the score the packer adds is at least 1, so the total score grows (no wrap below 2^64) *)
Lemma v2_score_positive pt T cs me mep t : 0 < T ->
  find_me me (props cs) = Some mep -> is_scheduled pt T (addrs (seq_of me (pks cs))) t me = true ->
  1 <= snd (updates_v2 pt T (seq_of me (pks cs)) mep t) <= N.of_nat (length cs).
Proof.
  intros HT Hf Hit. pose proof (sched_time_facts KV2 (fun _ => 0) pt T cs me t Hit) as [Hgt Hal].
  destruct (aligned_form pt T t HT Hgt Hal) as (k & Hk & ->).
  pose proof (find_me_in_seq _ _ _ Hf) as Hm. rewrite <- (proj2 (find_me_in _ _ _ Hf)) in Hm at 1.
  pose proof (score_v2_bounds pt T k (seq_of me (pks cs)) mep HT Hk Hm) as B. cbv zeta in B.
  split; [apply B|]. destruct B as [_ B]. eapply N.le_trans; [exact B|].
  unfold seq_of. rewrite map_length.
  assert (L : (length (sort_k (filter (fun pk => eligible me (fst pk)) (pks cs))) <= length cs)%nat).
  { rewrite (Permutation.Permutation_length (sort_k_perm _)).
    eapply Nat.le_trans; [apply filter_length_le|]. unfold pks. rewrite map_length. auto. }
  lia.
Qed.

Lemma sum_notme_plus_me me mep l : In mep l -> p_addr mep = me ->
  sumN (weights (filter (notme me) l)) + p_weight mep <= sumN (weights l).
Proof.
  induction l as [|x t IH]; intros Hin Ha; [contradiction|]. cbn [filter]. destruct Hin as [->|Hin].
  - unfold notme at 1. rewrite Ha, N.eqb_refl. cbn. pose proof (sum_filter_le (notme me) t). unfold weights in *. lia.
  - specialize (IH Hin Ha). destruct (notme me x); cbn; unfold weights in *; lia.
Qed.

(* PoS: the proposer's own weight, scaled, reaches the total weight => score >= 1 (and <= 10000) *)
Lemma pos_score_positive pt T cs me mep total t : 0 < T ->
  find_me me (props cs) = Some mep -> is_scheduled pt T (addrs (seq_of me (pks cs))) t me = true ->
  sumN (weights (seq_of me (pks cs))) * max_pos_score < 18446744073709551616 ->
  sumN (weights (seq_of me (pks cs))) <= total -> 0 < total -> total <= p_weight mep * max_pos_score ->
  1 <= snd (updates_pos pt T (seq_of me (pks cs)) mep total t) <= max_pos_score.
Proof.
  intros HT Hf Hit Hnw Hle Hpos Hw.
  pose proof (sched_time_facts KPOS (fun _ => 0) pt T cs me t Hit) as [Hgt Hal].
  destruct (aligned_form pt T t HT Hgt Hal) as (k & Hk & ->).
  apply find_me_in in Hf. destruct Hf as [Hin Ha].
  destruct (score_pos_bounds pt T k (seq_of me (pks cs)) mep total HT Hk Hnw Hle Hpos) as [E B]. cbv zeta in E.
  split; [|exact B]. rewrite E. rewrite missed_spec by auto. rewrite Ha.
  assert (Hmem : In mep (seq_of me (pks cs))).
  { apply in_seq_of. split; [rewrite props_pks; exact Hin | exact (eligible_me _ _ Ha)]. }
  pose proof (sum_filter_firstn_filter (notme me) (N.to_nat (k - 1 - 0)) (seq_of me (pks cs))) as S1.
  pose proof (sum_notme_plus_me me mep _ Hmem Ha) as S2.
  apply N.div_le_lower_bound; [lia|]. rewrite N.mul_1_r.
  set (S := sumN (weights (seq_of me (pks cs)))) in *.
  set (M := sumN (weights (filter (notme me) (firstn (N.to_nat (k - 1 - 0)) (seq_of me (pks cs)))))) in *.
  assert (Hd : p_weight mep <= S - M) by (clear - S1 S2; lia).
  apply N.le_trans with (p_weight mep * max_pos_score); [exact Hw|]. apply N.mul_le_mono_r. exact Hd.
Qed.

(* PoA v1: between 1 and the number of candidates (unique master addresses) *)
Lemma v1_score_positive hsh pt T cs me mep t :
  NoDup (map cand_addr cs) -> find_me me (props cs) = Some mep ->
  1 <= snd (updates_v1 hsh pt T (actives_v1 me (props cs)) mep t) <= N.of_nat (length cs).
Proof.
  intros Hnd Hf. apply find_me_in in Hf. destruct Hf as [Hin Ha].
  assert (N1 : NoDup (addrs (actives_v1 me (props cs)))).
  { apply actives_v1_nodup. unfold addrs, props. rewrite map_map. exact Hnd. }
  assert (I1 : In (p_addr mep) (addrs (actives_v1 me (props cs)))).
  { rewrite Ha. exact (actives_v1_me _ _ _ Hin Ha). }
  destruct (score_v1_bounds hsh pt T (actives_v1 me (props cs)) mep t N1 I1) as [B1 B]. split; [exact B1|].
  eapply N.le_trans; [exact B|]. unfold actives_v1.
  pose proof (filter_length_le (eligible me) (props cs)). unfold props in *. rewrite map_length in *. lia.
Qed.

Definition pos_weight_premise (pv : pview) (po : packer_opts) : Prop :=
  pv_pos pv = true -> forall mep, find_me (po_me po) (props (pv_cands pv)) = Some mep ->
    let seq := seq_of (po_me po) (pks (pv_cands pv)) in
    sumN (weights seq) * max_pos_score < 18446744073709551616 /\ sumN (weights seq) <= pv_total pv /\ 0 < pv_total pv /\
    pv_total pv <= p_weight mep * max_pos_score.

Theorem packer_score_grows cfg pv parent po now ctx ups :
  0 < c_interval cfg -> NoDup (map cand_addr (pv_cands pv)) -> pos_weight_premise pv po ->
  h_total_score parent + max_pos_score + N.of_nat (length (pv_cands pv)) < 18446744073709551616 ->
  schedule_ctx cfg pv parent po now = Some (ctx, ups) ->
  h_total_score parent < x_total_score ctx.
Proof.
  intros HT Hnd Hw Hnowrap Hs. apply schedule_ctx_some in Hs. destruct Hs as (mep & t & Ef & Et & _ & _ & -> & _).
  cbn [x_total_score].
  pose proof (sched_schedule_accepted _ _ _ _ _ _ _ _ _ _ HT Ef Et) as Hit.
  match goal with |- _ < wrap64 (_ + snd ?u) => assert (B : 1 <= snd u <= max_pos_score + N.of_nat (length (pv_cands pv))) end.
  { unfold kind_of in *. destruct (pv_pos pv) eqn:Epos.
    - cbn [sched_updates sched_is_the_time] in *. destruct (Hw Epos mep Ef) as (W1 & W2 & W3 & W4).
      pose proof (pos_score_positive _ _ _ _ _ _ _ HT Ef Hit W1 W2 W3 W4). rewrite (proj2 (find_me_in _ _ _ Ef)). lia.
    - destruct (h_number parent + 1 <? c_vip214 cfg); cbn [sched_updates sched_is_the_time] in *.
      + pose proof (v1_score_positive (pv_hash pv) (h_time parent) (c_interval cfg) _ _ _ t Hnd Ef).
        rewrite (proj2 (find_me_in _ _ _ Ef)). unfold max_pos_score. lia.
      + pose proof (v2_score_positive _ _ _ _ _ _ HT Ef Hit). rewrite (proj2 (find_me_in _ _ _ Ef)). unfold max_pos_score. lia. }
  unfold wrap64, max_pos_score in *. rewrite N.mod_small by lia. lia.
Qed.

