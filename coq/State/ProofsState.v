(* State/ProofsState.v — state_refines_map: every getter of state.State after any history of setters, Delete
   (with its storage barrier), checkpoints and reverts equals the plain record map with the same operations.
   Also: `good`, what Stage needs of a reachable state (reachable_good), and the world driver's run (world_run_cur). *)
From Coq Require Import List NArith Bool Arith Lia.
From Verif Require Import Trie.Model State.StackedMap State.Assoc State.ProofsSM State.Model State.ProofsJournal.
Import ListNotations.
Open Scope N_scope.

Lemma skey_eqb_neq a b : a <> b -> skey_eqb a b = false.
Proof. exact (keqb_neq skey skey_eqb skey_eqb_spec a b). Qed.

Record astate := mkA { x_acc : N -> account; x_code : N -> bytes; x_stor : N -> N -> bytes }.

Definition aeq (x y : astate) : Prop :=
  forall a, x_acc x a = x_acc y a /\ x_code x a = x_code y a /\ forall k, x_stor x a k = x_stor y a k.

Definition updf {A} (f : N -> A) (a : N) (v : A) : N -> A := fun a' => if a' =? a then v else f a'.

Definition with_bal (x : account) v := mkAcc v (a_eng x) (a_bt x) (a_master x) (a_codehash x) (a_sroot x).
Definition with_eng (x : account) v bt := mkAcc (a_bal x) v bt (a_master x) (a_codehash x) (a_sroot x).
Definition with_master (x : account) m := mkAcc (a_bal x) (a_eng x) (a_bt x) m (a_codehash x) (a_sroot x).
Definition with_codehash (x : account) h := mkAcc (a_bal x) (a_eng x) (a_bt x) (a_master x) h (a_sroot x).

(* the plain-map meaning of every operation of state.State *)
Definition a_op (o : op) (x : astate) : astate :=
  match o with
  | OBal a v => mkA (updf (x_acc x) a (with_bal (x_acc x a) v)) (x_code x) (x_stor x)
  | OEng a v bt => mkA (updf (x_acc x) a (with_eng (x_acc x a) v bt)) (x_code x) (x_stor x)
  | OMas a m => mkA (updf (x_acc x) a (with_master (x_acc x a) m)) (x_code x) (x_stor x)
  | OCode a c h =>
    let h' := match c with [] => [] | _ => h end in
    mkA (updf (x_acc x) a (with_codehash (x_acc x a) h')) (updf (x_code x) a c) (x_stor x)
  | OSto a k t =>
    let raw := match t with [] => [] | _ => rlp_word t end in
    mkA (x_acc x) (x_code x) (updf (x_stor x) a (updf (x_stor x a) k raw))
  | ORaw a k r => mkA (x_acc x) (x_code x) (updf (x_stor x) a (updf (x_stor x a) k r))
  | ODel a => mkA (updf (x_acc x) a empty_account) (updf (x_code x) a []) (updf (x_stor x) a (fun _ => []))
  | _ => x
  end.

Definition dflt : astate := mkA (fun _ => empty_account) (fun _ => []) (fun _ _ => []).

Definition upd_last_a (f : astate -> astate) (l : list astate) : list astate :=
  match l with [] => [] | _ => removelast l ++ [f (last l dflt)] end.

(* a world of snapshots, bottom first: setters act on the top, NewCheckpoint copies it, RevertTo(n) keeps the first n *)
Definition a_step (l : list astate) (o : op) : list astate :=
  match o with
  | OCp => l ++ [last l dflt]
  | ORev n => firstn n l
  | OCommit _ _ _ | OOpen _ => l
  | _ => upd_last_a (a_op o) l
  end.

Definition state_op (o : op) : Prop :=
  match o with OCommit _ _ _ | OOpen _ => False | ORev n => (1 <= n)%nat | _ => True end.

Definition is_setter (o : op) : Prop :=
  match o with OCp | ORev _ | OCommit _ _ _ | OOpen _ => False | _ => True end.

Section Prefixes.
  Variables X Lv : Type.
  Variable rel : X -> list Lv -> Prop.

  Inductive prefixwise : list Lv -> list X -> Prop :=
  | prefixwise_nil : prefixwise [] []
  | prefixwise_snoc L A l x : prefixwise L A -> rel x (L ++ [l]) -> prefixwise (L ++ [l]) (A ++ [x]).

  Lemma prefixwise_length L A : prefixwise L A -> length A = length L.
  Proof. induction 1 as [|L A l x H IH He]; auto. rewrite !app_length, IH. reflexivity. Qed.

  Lemma prefixwise_inv L l A : prefixwise (L ++ [l]) A -> exists A' x, A = A' ++ [x] /\ prefixwise L A' /\ rel x (L ++ [l]).
  Proof.
    intros H. inversion H as [Q|L0 A0 l0 x0 H0 He Q].
    - destruct L; discriminate.
    - apply app_inj_tail in Q. destruct Q; subst. eauto.
  Qed.

  Lemma prefixwise_firstn n L A : prefixwise L A -> prefixwise (firstn n L) (firstn n A).
  Proof.
    induction 1 as [|L A l x H IH He]; [rewrite !firstn_nil; constructor|].
    pose proof (prefixwise_length _ _ H) as Len.
    destruct (Nat.le_gt_cases n (length L)).
    - rewrite !firstn_below by lia; auto.
    - rewrite !firstn_all2 by (rewrite app_length; cbn; lia). constructor; auto.
  Qed.
End Prefixes.

Definition racc (rd : skey -> sval) a := match rd (KAcc a) with VAcc x => x | _ => empty_account end.
Definition rbar (rd : skey -> sval) a := match rd (KBar a) with VBar b => b | _ => 0 end.

(* a setter is one to three Puts, computed from what the state reads before it *)
Definition puts (rd : skey -> sval) (o : op) : list entry :=
  match o with
  | OBal a v => [(KAcc a, VAcc (with_bal (racc rd a) v))]
  | OEng a v bt => [(KAcc a, VAcc (with_eng (racc rd a) v bt))]
  | OMas a m => [(KAcc a, VAcc (with_master (racc rd a) m))]
  | OCode a c h =>
    let h' := match c with [] => [] | _ => h end in
    [(KCode a, VCode c h'); (KAcc a, VAcc (with_codehash (racc rd a) h'))]
  | OSto a k t => [(KStor a (rbar rd a) k, VRaw (match t with [] => [] | _ => rlp_word t end))]
  | ORaw a k r => [(KStor a (rbar rd a) k, VRaw r)]
  | ODel a => [(KCode a, VCode [] []); (KAcc a, VAcc empty_account); (KBar a, VBar (rbar rd a + 1))]
  | _ => []
  end.

Lemma puts_ext rd rd' o : (forall k, rd k = rd' k) -> puts rd o = puts rd' o.
Proof. intros H. destruct o; cbn; unfold racc, rbar; rewrite ?H; reflexivity. Qed.

Section PS.
  Variable hk hs : N -> list nat.
  Variable trimkey : N -> bytes.

  Notation level := (level skey sval).
  Notation new_level := (new_level skey sval).
  Notation aget := (aget skey sval skey_eqb).
  Notation afind := (afind skey sval skey_eqb).
  Notation inv := (inv skey sval skey_eqb).
  Notation src := (src hk hs).
  Notation sget := (sget hk hs).

  Definition vacc g (L : list level) a := match aget g L (KAcc a) with VAcc x => x | _ => empty_account end.
  Definition vbar g (L : list level) a := match aget g L (KBar a) with VBar b => b | _ => 0 end.
  Definition vcode g (L : list level) a : bytes := match aget g L (KCode a) with VCode c _ => c | _ => [] end.
  Definition vstor g (L : list level) a k : bytes :=
    match aget g L (KStor a (vbar g L a) k) with VRaw r => r | _ => [] end.
  Definition view g L : astate := mkA (vacc g L) (vcode g L) (vstor g L).

  Lemma sget_aget s k : inv (st_sm s) -> Model.sget hk hs s k = aget (src s) (stack (st_sm s)) k.
  Proof. apply (get_refines skey sval skey_eqb). Qed.

  Lemma getters_view s : inv (st_sm s) ->
    forall a, get_account hk hs s a = vacc (src s) (stack (st_sm s)) a /\
              get_code hk hs s a = vcode (src s) (stack (st_sm s)) a /\
              forall k, get_raw_storage hk hs s a k = vstor (src s) (stack (st_sm s)) a k.
  Proof.
    intros I a. unfold get_account, get_code, get_raw_storage, get_barrier, vacc, vcode, vbar, vstor.
    rewrite !sget_aget by auto. repeat split; auto. intros k. rewrite sget_aget by auto. reflexivity.
  Qed.

  Definition no_future (rd : skey -> sval) : Prop := forall a b k, rbar rd a < b -> rd (KStor a b k) = VRaw [].

  (* what a prefix of the stack is to the snapshot it stands for: it reads as the snapshot does, and its account records
     carry the storage root of the base until the address is deleted, none afterwards *)
  Definition sroot_ok g (L : list level) : Prop :=
    forall a, a_sroot (vacc g L a) = if vbar g L a =? 0 then a_sroot (racc g a) else None.
  Definition snapshot_of g (x : astate) (L : list level) : Prop := aeq x (view g L) /\ sroot_ok g L.

  Lemma snapshot_setter g L L' o x : is_setter o -> no_future (aget g L) ->
    (forall k, aget g L' k = fold_left rput (puts (aget g L) o) (aget g L) k) ->
    snapshot_of g x L -> snapshot_of g (a_op o x) L'.
  Proof.
    (* every component of the new view is a read through rput: the written value at a written key, the old read elsewhere;
       by cases on the operation and on whether the address (and slot) asked for is the one written.  The one case that
       needs an argument is the storage of a deleted address: the fresh barrier has nothing under it (no_future). *)
    intros Ho NF H [Hx Hs].
    assert (Hb : forall a', vbar g L' a' =
              match o with ODel a => if a =? a' then vbar g L a' + 1 else vbar g L a' | _ => vbar g L a' end).
    { intros a'. unfold vbar. rewrite H. destruct o; try contradiction; cbn; unfold rput; cbn; auto.
      destruct (a =? a') eqn:Q; auto. apply N.eqb_eq in Q; subst; auto. }
    split.
    - intros a'. destruct (Hx a') as [X1 [X2 X3]]. cbn [view x_acc x_code x_stor]. unfold vacc, vcode, vstor. rewrite Hb.
      split; [|split; [|intros k']]; rewrite H; clear H Hb.
      + (* the account record: written at the address of the operation, from the old record there (Hx); as before elsewhere *)
        destruct o; try contradiction; cbn; unfold rput, updf; cbn; auto;
          rewrite (N.eqb_sym a' a); destruct (N.eqb_spec a a') as [<-|Q]; cbn; auto; f_equal; apply Hx.
      + (* the code: written by SetCode and Delete at their address *)
        destruct o; try contradiction; cbn; unfold rput, updf; cbn; auto;
          rewrite (N.eqb_sym a' a); destruct (N.eqb_spec a a') as [<-|Q]; cbn; auto.
      + (* a storage slot: read at the current barrier; written by SetStorage / SetRawStorage at their address and slot,
           emptied by Delete at its address, where the fresh barrier has nothing under it *)
        destruct o; try contradiction; cbn; unfold rput, updf; cbn; try apply X3;
          rewrite (N.eqb_sym a' a); destruct (N.eqb_spec a a') as [<-|Q]; cbn; rewrite ?N.eqb_refl; cbn; try apply X3.
        * rewrite (N.eqb_sym k' k). destruct (k =? k'); auto. apply X3.
        * rewrite (N.eqb_sym k' k). destruct (k =? k'); auto. apply X3.
        * rewrite NF; auto. unfold rbar, vbar. lia.
    - intros a'. rewrite Hb. unfold vacc. rewrite H. clear H Hb.
      destruct o; try contradiction; cbn; unfold rput; cbn; try apply Hs;
        destruct (N.eqb_spec a a') as [<-|Q]; cbn; try apply Hs.
      destruct (N.eqb_spec (vbar g L a + 1) 0); [lia|reflexivity].
  Qed.

  Lemma snapshot_push g x L : snapshot_of g x L -> snapshot_of g x (L ++ [new_level]).
  Proof.
    intros [Hx Hs]. unfold snapshot_of, sroot_ok, aeq, view, vstor, vacc, vcode, vbar in *. cbn [x_acc x_code x_stor] in *.
    split; intros a; rewrite ?aget_push; auto.
    destruct (Hx a) as [X1 [X2 X3]]. repeat split; auto. intros k. rewrite aget_push. apply X3.
  Qed.

  Definition sstep (s : state) (o : op) : state :=
    match o with
    | OBal a v => set_balance hk hs s a v
    | OEng a v bt => set_energy hk hs s a v bt
    | OMas a m => set_master hk hs s a m
    | OCode a c h => set_code hk hs s a c h
    | OSto a k t => set_storage hk hs s a k t
    | ORaw a k r => set_raw_storage hk hs s a k r
    | ODel a => delete_account hk hs s a
    | OCp => fst (new_checkpoint s)
    | ORev n => revert_to s n
    | _ => s
    end.

  Lemma step_is_sstep w o : state_op o -> w_cur (step hk hs trimkey w o) = sstep (w_cur w) o.
  Proof. destruct o; cbn; intros H; try contradiction; reflexivity. Qed.

  Lemma base_sstep s o : st_base (sstep s o) = st_base s /\ st_codes (sstep s o) = st_codes s.
  Proof. destruct o; cbn; auto. destruct trimmed; cbn; auto. Qed.

  Lemma src_sstep s o : src (sstep s o) = src s.
  Proof. destruct (base_sstep s o) as [E1 E2]. unfold Model.src. rewrite E1, E2. reflexivity. Qed.

  Definition sputs (ps : list entry) (s : state) : state := fold_left (fun s e => sput s (fst e) (snd e)) ps s.

  Lemma sputs_stack ps : forall s rest top, inv (st_sm s) -> stack (st_sm s) = rest ++ [top] ->
    inv (st_sm (sputs ps s)) /\ stack (st_sm (sputs ps s)) = rest ++ [putsf ps top].
  Proof.
    induction ps as [|[k v] ps IH]; cbn [sputs fold_left]; intros s rest top I Es; auto.
    apply IH; cbn [sput st_sm].
    - apply inv_put; auto. apply skey_eqb_spec.
    - cbn. rewrite Es. apply upd_last_snoc.
  Qed.

  Lemma sget_sput s k v k' : inv (st_sm s) -> sget (sput s k v) k' = if skey_eqb k k' then v else sget s k'.
  Proof.
    intros I. destruct (exists_last (proj1 I)) as [rest [top Es]].
    destruct (sputs_stack [(k, v)] s rest top I Es) as [I' Es'].
    rewrite !sget_aget by auto. cbn [sputs fold_left fst snd] in Es'. rewrite Es', Es. apply aget_putsf.
  Qed.

  Lemma sstep_puts s o : inv (st_sm s) -> is_setter o -> sstep s o = sputs (puts (sget s) o) s.
  Proof.
    intros I Ho. pose proof (inv_put skey sval skey_eqb skey_eqb_spec) as Ip.
    destruct o; try contradiction; try reflexivity; cbn [sstep].
    - unfold set_code, upd_account, get_account. rewrite sget_sput by auto. reflexivity.
    - unfold set_storage. destruct trimmed; reflexivity.
    - unfold delete_account, get_barrier. rewrite !sget_sput by (cbn; auto). reflexivity.
  Qed.

  (* the stacked map is sound, each level's map agrees with its journal, the journal is ordered *)
  Definition journal_inv (s : state) : Prop :=
    inv (st_sm s) /\ Forall level_ok (stack (st_sm s)) /\ journal_ok (jof (stack (st_sm s))).

  (* the state invariant: the above, and prefix by prefix the stack reads as the list of snapshots *)
  Definition sim (s : state) (A : list astate) : Prop :=
    journal_inv s /\ prefixwise astate level (snapshot_of (src s)) (stack (st_sm s)) A.

  Lemma sim_open base codes : sim (open base codes) [view (src (open base codes)) [new_level]].
  Proof.
    split; [split; [apply inv_new|split; [repeat constructor; apply level_ok_new|constructor]]|].
    apply (prefixwise_snoc _ _ _ [] [] new_level); [constructor|]. split; intros a; [auto|reflexivity].
  Qed.

  (* what the source answers where no base trie is consulted *)
  Definition src_ok (g : skey -> sval) : Prop :=
    (forall a b k, b <> 0 -> g (KStor a b k) = VRaw []) /\ forall a, g (KBar a) = VBar 0.
  Lemma src_is_ok s : src_ok (src s).
  Proof. split; [|reflexivity]. intros a b k H. cbn. destruct (b =? 0) eqn:E; [apply N.eqb_eq in E; congruence|reflexivity]. Qed.

  Lemma jbar_vbar g L a : src_ok g -> Forall level_ok L -> jbar (jof L) a = vbar g L a.
  Proof.
    intros [_ Hg] H. unfold jbar, vbar. rewrite aget_jlast by auto.
    destruct (jlast (KBar a) (jof L)); [reflexivity|]. rewrite Hg. reflexivity.
  Qed.

  (* no storage entry above the barrier: what the journal order means for the reads *)
  Lemma journal_ok_no_future_reads g L : src_ok g -> Forall level_ok L -> journal_ok (jof L) -> no_future (aget g L).
  Proof.
    intros Hg HI HO a b k Hb. rewrite aget_jlast by auto.
    rewrite (journal_ok_no_future _ HO a b k) by (rewrite (jbar_vbar g) by auto; exact Hb). apply Hg. lia.
  Qed.

  (* the Puts of a setter may be appended to the journal *)
  Lemma puts_oks J rd o : (forall a, jbar J a = rbar rd a) -> oks J (puts rd o).
  Proof.
    intros Hb. destruct o; cbn -[jbar]; repeat split; auto.
    unfold jbar at 1. rewrite !jlast_snoc. cbn [skey_eqb]. rewrite <- Hb. reflexivity.
  Qed.

  Lemma a_step_setter A o : is_setter o -> a_step A o = upd_last_a (a_op o) A.
  Proof. destruct o; intros H; try contradiction; reflexivity. Qed.

  Lemma upd_last_a_snoc f A x : upd_last_a f (A ++ [x]) = A ++ [f x].
  Proof.
    unfold upd_last_a. destruct (A ++ [x]) eqn:Q; [destruct A; discriminate|].
    rewrite <- Q, removelast_last, last_last. reflexivity.
  Qed.

  Lemma sim_step s A o : sim s A -> state_op o -> sim (sstep s o) (a_step A o).
  Proof.
    intros [[I [HI HO]] HR] Ho. unfold sim, journal_inv. rewrite src_sstep.
    destruct (exists_last (proj1 I)) as [rest [top Es]]. rewrite Es in *.
    destruct (prefixwise_inv _ _ _ _ _ _ HR) as [A' [x [-> [HR' Hx]]]].
    assert (C : is_setter o \/ o = OCp \/ exists n, o = ORev n /\ (1 <= n)%nat)
      by (destruct o; cbn in Ho; try contradiction; eauto; left; exact Logic.I).
    destruct C as [Hset|[->|[n [-> Hn]]]].
    - (* a setter: its Puts go to the top level and to the end of the journal *)
      rewrite sstep_puts, a_step_setter, upd_last_a_snoc by auto.
      rewrite (puts_ext _ (aget (src s) (rest ++ [top])) o) by (intros; rewrite sget_aget, Es; auto).
      set (ps := puts (aget (src s) (rest ++ [top])) o).
      destruct (sputs_stack ps s rest top I Es) as [I2 E2]. rewrite E2.
      pose proof (journal_ok_no_future_reads _ _ (src_is_ok s) HI HO) as NF.
      apply Forall_app in HI. destruct HI as [HI1 HI2]. inversion HI2 as [|? ? HI3 _]; subst.
      split; [split; [auto|split; [apply Forall_app; split; auto; repeat constructor; apply level_ok_putsf; auto|]]|].
      + rewrite !jof_snoc, journal_putsf, app_assoc, <- jof_snoc. apply journal_ok_app; auto.
        apply puts_oks. intros a. apply jbar_vbar; [apply src_is_ok|]. apply Forall_app; auto.
      + constructor; auto. apply (snapshot_setter (src s) (rest ++ [top])); auto. intros k. apply aget_putsf.
    - (* NewCheckpoint *)
      split; [split; [exact (inv_push skey sval skey_eqb (st_sm s) I)|]|];
        cbn [sstep a_step new_checkpoint sm_push fst st_sm stack]; rewrite Es, ?last_last.
      + split; [apply Forall_app; split; auto; repeat constructor; apply level_ok_new|].
        rewrite jof_snoc, app_nil_r; auto.
      + constructor; auto. apply snapshot_push; auto.
    - (* RevertTo *)
      destruct (inv_pop_to skey sval skey_eqb skey_eqb_spec n (st_sm s) I Hn) as [I2 E2].
      cbn [sstep a_step revert_to st_sm]. rewrite E2, Es.
      rewrite <- (firstn_skipn n (rest ++ [top])) in HI, HO. rewrite jof_app in HO. apply Forall_app in HI.
      split; [split; [auto|split; [apply HI|eapply journal_ok_prefix; eauto]]|apply prefixwise_firstn; auto].
  Qed.

  Definition run_state (ops : list op) (s : state) : state := fold_left sstep ops s.
  Definition run_abs (ops : list op) (A : list astate) : list astate := fold_left a_step ops A.

  (* the record map a freshly opened state denotes: what the base trie and the code store hold *)
  Definition abs0 (base : atrie) (codes : list (bytes * bytes)) : astate :=
    view (src (open base codes)) [new_level].

  Lemma run_sim ops : forall s A, sim s A -> Forall state_op ops ->
    sim (run_state ops s) (run_abs ops A) /\ st_base (run_state ops s) = st_base s.
  Proof.
    induction ops as [|o ops IH]; intros s A Hs Hops; [auto|].
    inversion Hops; subst.
    change (run_state (o :: ops) s) with (run_state ops (sstep s o)).
    change (run_abs (o :: ops) A) with (run_abs ops (a_step A o)).
    destruct (IH _ _ (sim_step s A o Hs H1) H2) as [S1 S3].
    rewrite S3. split; auto. apply base_sstep.
  Qed.

  Lemma sim_top s A : sim s A -> snapshot_of (src s) (last A dflt) (stack (st_sm s)).
  Proof.
    intros [[I _] HR]. destruct (exists_last (proj1 I)) as [rest [top Es]]. rewrite Es in *.
    destruct (prefixwise_inv _ _ _ _ _ _ HR) as [A' [x [-> [_ Hx]]]]. rewrite last_last. exact Hx.
  Qed.

  Theorem state_refines_map_lemma base codes ops : Forall state_op ops ->
    let s := run_state ops (open base codes) in
    let x := last (run_abs ops [abs0 base codes]) dflt in
    forall a,
      get_account hk hs s a = x_acc x a /\
      get_code hk hs s a = x_code x a /\
      forall k, get_raw_storage hk hs s a k = x_stor x a k.
  Proof.
    intros Hops s x a.
    destruct (run_sim ops _ _ (sim_open base codes) Hops) as [Hs _]. fold s in Hs.
    destruct (sim_top s _ Hs) as [Q _]. change (aeq x (view (src s) (stack (st_sm s)))) in Q.
    destruct (getters_view s (proj1 (proj1 Hs)) a) as [G1 [G2 G4]].
    destruct (Q a) as [Q1 [Q2 Q3]]. cbn [view x_acc x_code x_stor] in *.
    split; [congruence|split; [congruence|]]. intros k. rewrite G4, Q3. reflexivity.
  Qed.

  (* what Stage needs of a state: the journal invariants and, at the top of the stack, the storage roots of the base *)
  Definition good (s : state) : Prop := journal_inv s /\ sroot_ok (src s) (stack (st_sm s)).

  (* every state reached from an opened one by state operations is good *)
  Lemma reachable_good base codes ops : Forall state_op ops ->
    good (run_state ops (open base codes)) /\ st_base (run_state ops (open base codes)) = base.
  Proof.
    intros H. destruct (run_sim ops _ _ (sim_open base codes) H) as [Hs Eb]. split; auto.
    exact (conj (proj1 Hs) (proj2 (sim_top _ _ Hs))).
  Qed.

  (* the same on the world driver of the correspondence run *)
  Lemma world_run_cur ops : forall w, Forall state_op ops ->
    w_cur (fold_left (step hk hs trimkey) ops w) = run_state ops (w_cur w).
  Proof.
    induction ops as [|o ops IH]; cbn; intros w H; auto.
    inversion H; subst. rewrite IH by auto. rewrite step_is_sstep by auto. reflexivity.
  Qed.
End PS.
