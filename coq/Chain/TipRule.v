(* Chain/TipRule.v — the premise `tip_rule` of the C14 reader theorems ("a block whose parent is the current best block
   becomes best") discharged against the fork-choice rule of the node as modelled in coq/Bft (bft.Engine.Select:
   quality, then total score, then the smaller id; Header.BetterThan before the FINALITY fork):
   for every node state satisfying the Bft invariant `inv` (every import history, ProofsNode.import_all_inv) and every
   new block whose parent is the stored best block, with the height parent+1 and a total score strictly above the
   parent's (consensus.validateBlockHeader rejects "block total score invalid" otherwise), Select answers true and so
   does BetterThan.  What stays informal: that the `best` flag of a Chain.Model history IS this answer
   (Node.commitBlock: becomeBest := bft.Select / BetterThan, then repo.AddBlock(..., becomeBest)). *)
From Coq Require Import List NArith Bool Lia.
From Coq Require Import ZifyN ZifyNat ZifyBool.
From Verif Require Import Common.Util Bft.Tree Bft.Model Bft.Quorum Bft.ProofsTally Bft.ProofsChain Bft.ProofsNode.
Import ListNotations.
Open Scope N_scope.

Lemma better_than_higher_score b p : b_score p < b_score b -> better_than b p = true.
Proof. unfold better_than. intros H. apply orb_true_iff. left. apply N.ltb_lt. exact H. Qed.

Theorem child_of_best_is_selected c nd b p : 0 < c_L c -> inv c nd ->
  find_blk (n_repo nd) (n_best nd) = Some p -> b_parent b = n_best nd ->
  b_num b = b_num p + 1 -> b_score p < b_score b ->
  select c (n_repo nd) (n_eng nd) (best_blk nd) b = true /\ better_than b (best_blk nd) = true.
Proof.
  intros HL I Hp Hpar Hn Hs. unfold best_blk. rewrite Hp.
  split; [|apply better_than_higher_score; exact Hs].
  destruct (find_blk_id _ _ _ Hp) as [Hid Hin].
  unfold select.
  rewrite (compute_state_pure_lemma c HL (n_repo nd) (e_qs (n_eng nd)) b p (inv_wf c nd I) (inv_qs c nd I)) by (rewrite ?Hpar; auto).
  rewrite (compute_state_stored c HL (n_repo nd) (e_qs (n_eng nd)) p (inv_wf c nd I) (inv_qs c nd I) Hin).
  unfold qual. rewrite Hid, <- Hpar.
  destruct (chain_of_known (n_repo nd) (inv_wf c nd I) (b_parent b) p) as [t [Et Gt]]; [rewrite Hpar; exact Hp|].
  assert (G : grounded (b :: chain_of (n_repo nd) (b_parent b))).
  { rewrite Et. cbn [grounded]. repeat split; [rewrite Hpar; symmetry; exact Hid | exact Hn | exact Gt]. }
  pose proof (quality_step c HL b (chain_of (n_repo nd) (b_parent b)) G) as [Q1 _].
  fold (quality_pure c (b :: chain_of (n_repo nd) (b_parent b))).
  destruct (N.eqb_spec (quality_pure c (b :: chain_of (n_repo nd) (b_parent b))) (quality_pure c (chain_of (n_repo nd) (b_parent b)))) as [E|NE]; cbn [negb].
  - apply better_than_higher_score. exact Hs.
  - apply N.ltb_lt. lia.
Qed.
