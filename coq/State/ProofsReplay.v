(* State/ProofsReplay.v — what Stage's journal replay computes: per address the last account record and the
   storage written since the last barrier (State.Stage: the `changed` records). *)
From Coq Require Import List NArith Bool Arith Lia.
From Verif Require Import Trie.Model State.StackedMap State.Assoc State.ProofsSM State.Model State.ProofsJournal.
Import ListNotations.
Open Scope N_scope.

Definition kv_find (k : N) (m : option (list (N * bytes))) : option bytes :=
  match m with None => None | Some l => assoc N N.eqb k l end.

Lemma kv_set_assoc k v l : kv_set k v l = assoc_set N N.eqb k v l.
Proof. induction l as [|[k' v'] l IH]; cbn; rewrite ?IH; reflexivity. Qed.

Definition keyed (l : list changed) : list (N * changed) := map (fun c => (c_addr c, c)) l.

Lemma ch_find_assoc a l : ch_find a l = assoc N N.eqb a (keyed l).
Proof. unfold keyed. induction l as [|c l IH]; cbn; rewrite ?IH, ?(N.eqb_sym a); reflexivity. Qed.

Lemma ch_set_assoc c l : keyed (ch_set c l) = assoc_set N N.eqb (c_addr c) c (keyed l).
Proof.
  unfold keyed. induction l as [|c' l IH]; cbn; auto. rewrite (N.eqb_sym (c_addr c)).
  destruct (c_addr c' =? c_addr c); cbn; rewrite ?IH; reflexivity.
Qed.

Lemma kv_find_set k v l k' :
  kv_find k' (Some (kv_set k v l)) = if k' =? k then Some v else kv_find k' (Some l).
Proof.
  cbn. rewrite kv_set_assoc. destruct (N.eqb_spec k' k) as [->|Q].
  - apply (assoc_set_same N N.eqb N.eqb_eq).
  - apply (assoc_set_other N N.eqb N.eqb_eq). auto.
Qed.

Lemma ch_find_set c l a : ch_find a (ch_set c l) = if c_addr c =? a then Some c else ch_find a l.
Proof.
  rewrite !ch_find_assoc, ch_set_assoc. destruct (N.eqb_spec (c_addr c) a) as [<-|Q].
  - apply (assoc_set_same N N.eqb N.eqb_eq).
  - apply (assoc_set_other N N.eqb N.eqb_eq). auto.
Qed.

Lemma ch_find_in a l c : ch_find a l = Some c -> In c l /\ c_addr c = a.
Proof.
  induction l as [|c' l IH]; cbn; [discriminate|].
  destruct (N.eqb_spec (c_addr c') a); [intros Q; inversion Q; subst; auto|]. intros Q. destruct (IH Q). auto.
Qed.

(* the address a key belongs to *)
Definition eaddr (k : skey) : N := match k with KAcc a | KCode a | KStor a _ _ | KBar a => a end.

Section RP.
  Variable hk hs : N -> list nat.
  Variable trimkey : N -> bytes.

  Section WithState.
    Variable s : state.
    Variable major minor : N.

    Definition base_acc (a : N) : account := fst (load_account hk (st_base s) a).
    Definition jacc (J : list entry) (a : N) : account :=
      match jlast (KAcc a) J with Some (VAcc x) => x | _ => base_acc a end.
    Definition jraw (J : list entry) (a k : N) : option bytes :=
      match jlast (KStor a (jbar J a) k) J with Some (VRaw r) => Some r | _ => None end.

    Definition rp (J : list entry) := fold_left (replay1 hk s major minor) J ([], [], 0).
    Definition rp_chs (J : list entry) : list changed := fst (fst (rp J)).

    Lemma rp_snoc J e : rp (J ++ [e]) = replay1 hk s major minor (rp J) e.
    Proof. unfold rp. rewrite fold_left_app. reflexivity. Qed.

    (* what the record of an address (or its absence) says about the journal *)
    Definition record_ok (J : list entry) (a : N) (oc : option changed) : Prop :=
      match oc with
      | None => jlast (KAcc a) J = None /\ jlast (KBar a) J = None /\ forall b k, jlast (KStor a b k) J = None
      | Some c => c_data c = jacc J a /\ forall k, kv_find k (c_storage c) = jraw J a k
      end.
    Definition records_ok (J : list entry) (chs : list changed) : Prop := forall a, record_ok J a (ch_find a chs).

    Lemma get_changed_spec a chs J : records_ok J chs ->
      let c := get_changed hk s a chs in
      c_addr c = a /\ c_data c = jacc J a /\ forall k, kv_find k (c_storage c) = jraw J a k.
    Proof.
      intros HP. unfold get_changed. specialize (HP a).
      destruct (ch_find a chs) as [c|] eqn:F.
      - split; [eapply ch_find_in; eauto|exact HP].
      - destruct HP as [A [B C]]. destruct (load_account hk (st_base s) a) as [acc m] eqn:Q. cbn.
        split; auto. split.
        + unfold jacc, base_acc. rewrite A, Q. reflexivity.
        + intros k. unfold jraw. rewrite C. reflexivity.
    Qed.

    (* an entry of another address, or a code entry, changes nothing the record of a speaks of *)
    Lemma record_ok_frame J k0 v0 a oc : eaddr k0 <> a \/ (exists a0, k0 = KCode a0) ->
      record_ok J a oc -> record_ok (J ++ [(k0, v0)]) a oc.
    Proof.
      intros Hk.
      assert (Q : forall k, eaddr k = a -> match k with KCode _ => False | _ => True end ->
                  jlast k (J ++ [(k0, v0)]) = jlast k J).
      { intros k Ek Hc. rewrite jlast_snoc. destruct (skey_eqb k k0) eqn:E; auto.
        apply skey_eqb_spec in E; subst k0. destruct Hk as [Hk|[a0 ->]]; [congruence|contradiction]. }
      unfold record_ok, jacc, jraw, jbar. destruct oc as [c|].
      - intros [D S]. rewrite !Q by (cbn; auto). split; auto. intros k. rewrite Q by (cbn; auto). apply S.
      - intros [A [B C]]. rewrite !Q by (cbn; auto). repeat split; auto. intros b k. rewrite Q by (cbn; auto). apply C.
    Qed.

    Theorem replay_spec J : journal_ok J -> records_ok J (rp_chs J).
    Proof.
      induction 1 as [|J k v HJ IH Hok].
      - intros a. cbn. repeat split; auto.
      - unfold rp_chs in *. rewrite rp_snoc.
        destruct (rp J) as [[chs codes] cnt] eqn:Q. cbn [fst] in IH.
        destruct (get_changed_spec (eaddr k) chs J IH) as [Ca [Cd Cs]].
        set (c := get_changed hk s (eaddr k) chs) in *.
        (* the entry replaces the record of its address by one with the new data or the new pending map *)
        assert (Step : forall d st, (c_data (mkCh (eaddr k) d empty_meta st) = jacc (J ++ [(k, v)]) (eaddr k) /\
                        forall k', kv_find k' st = jraw (J ++ [(k, v)]) (eaddr k) k') ->
                       forall m, records_ok (J ++ [(k, v)]) (ch_set (mkCh (eaddr k) d m st) chs)).
        { intros d st Hc m a. rewrite ch_find_set. cbn [c_addr]. destruct (N.eqb_spec (eaddr k) a) as [<-|Na].
          - exact Hc.
          - apply record_ok_frame; auto. }
        pose proof Hok as [W O]. pose proof (jbar_snoc J k v (eaddr k) Hok) as Eb.
        destruct k as [a0|a0|a0 b0 k0|a0]; destruct v; cbn in W; try contradiction; cbn [replay1 eaddr] in *.
        + (* account *)
          apply Step. fold c. split; [unfold jacc; rewrite jlast_snoc; cbn [skey_eqb]; rewrite N.eqb_refl; reflexivity|].
          intros k'. rewrite Cs. unfold jraw. rewrite Eb, jlast_snoc. reflexivity.
        + (* code: no record touched *)
          destruct code; intros a; apply record_ok_frame; eauto; apply IH.
        + (* storage at the current barrier *)
          cbn in O. subst b0. fold c.
          set (st := match c_storage c with Some m => kv_set k0 raw m | None => [(k0, raw)] end).
          assert (St : c_data c = jacc (J ++ [(KStor a0 (jbar J a0) k0, VRaw raw)]) a0 /\
                       forall k', kv_find k' (Some st) = jraw (J ++ [(KStor a0 (jbar J a0) k0, VRaw raw)]) a0 k').
          { split; [rewrite Cd; unfold jacc; rewrite jlast_snoc; reflexivity|].
            intros k'. unfold jraw. rewrite Eb, jlast_snoc. cbn [skey_eqb]. rewrite !N.eqb_refl. cbn [andb].
            transitivity (if k' =? k0 then Some raw else kv_find k' (c_storage c)).
            - unfold st. destruct (c_storage c); [apply kv_find_set|]. cbn. destruct (k' =? k0); auto.
            - rewrite Cs. destruct (k' =? k0); reflexivity. }
          destruct (m_sid (c_meta c)); apply Step; exact St.
        + (* barrier: nothing is stored under the new one *)
          cbn in O. subst b. apply Step. fold c. split; [rewrite Cd; unfold jacc; rewrite jlast_snoc; reflexivity|].
          intros k'. unfold jraw. rewrite Eb, N.eqb_refl, jlast_snoc. cbn [skey_eqb kv_find].
          rewrite (journal_ok_no_future J HJ) by lia. reflexivity.
    Qed.
  End WithState.
End RP.
