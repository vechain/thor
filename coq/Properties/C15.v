(* Properties/C15.v — statements only.  "The log index always equals the logs of the canonical chain; filters
   return exactly the matching subsequence." *)
From Coq Require Import List NArith ZArith Bool Lia.
From Verif Require Import Common.GoInt Gen.Sequence GenProofs.SequenceProofs.
From Verif Require Import Chain.Model Chain.Proofs Chain.ProofsWalk Chain.ProofsSys Chain.ProofsPath Chain.Examples
  LogDB.Model LogDB.Proofs LogDB.ProofsCanon LogDB.ProofsRows LogDB.ProofsGenesis LogDB.ProofsSync LogDB.ProofsSyncFrame LogDB.ProofsVerify.
Import ListNotations.
Open Scope N_scope.

(* 1. sequence packing: under the three range checks the key is injective, order-isomorphic to lexicographic
      (block, tx, log), inverted by the accessors, and fits a non-negative int64 *)
Theorem seq_pack_inj_mono b1 t1 l1 s1 b2 t2 l2 s2 :
  seq_of b1 t1 l1 = Some s1 -> seq_of b2 t2 l2 = Some s2 ->
  (s1 < s2 <-> b1 < b2 \/ (b1 = b2 /\ (t1 < t2 \/ (t1 = t2 /\ l1 < l2)))) /\
  (s1 = s2 -> b1 = b2 /\ t1 = t2 /\ l1 = l2) /\
  seq_block s1 = b1 /\ seq_txi s1 = t1 /\ seq_logi s1 = l1 /\ s1 < 9223372036854775808.
Proof. exact (seq_pack_inj_mono_lemma b1 t1 l1 s1 b2 t2 l2 s2). Qed.

(* ... and the model's packing IS the code's: it equals the go2v translation of logdb/sequence.go:newSequence,
   regenerated from the working tree on every run (coq/Gen/Sequence.v) *)
Theorem seq_model_is_translated b t l :
  option_map Z.of_N (seq_of b t l) = newSequence (Z.of_N b) (Z.of_N t) (Z.of_N l).
Proof.
  destruct (seq_of b t l) as [s|] eqn:E.
  - apply seq_of_inv in E. destruct E as [[H1 [H2 H3]] ->]. unfold max_block, max_txi, max_logi in *.
    rewrite new_sequence_value by (unfold SequenceProofs.seq_ok; lia). cbn [option_map]. unfold SequenceProofs.pack. f_equal. lia.
  - assert (N : ~ LogDB.Proofs.seq_ok b t l) by (intros H; rewrite (seq_of_some _ _ _ H) in E; discriminate).
    rewrite new_sequence_rejects; [reflexivity | lia | lia | lia |].
    unfold SequenceProofs.seq_ok, LogDB.Proofs.seq_ok, max_block, max_txi, max_logi in *. lia.
Qed.

(* 2. every filter query returns exactly the matching subsequence: with `full` = the rows of the table that satisfy
      the block range and the criteria disjunction, in table order (reversed for DESC), the answer is `full`, or its
      window [offset, offset+limit) — and in particular an order-preserving subsequence of the table *)
Theorem filter_is_subsequence_events db cs o out : filter_events db cs o = Some out ->
  exists full,
    sublist full (if fo_desc o then rev (db_events db) else db_events db) /\
    (forall x, In x full <-> In x (db_events db) /\ any_crit ev_match cs x = true /\ in_range o (er_seq x)) /\
    out = match fo_page o with None => full | Some (off, lim) => takeN lim (dropN off full) end /\
    sublist out full.
Proof. exact (run_filter_spec er_seq (any_crit ev_match cs) o (db_events db) out). Qed.

Theorem filter_is_subsequence_transfers db cs o out : filter_transfers db cs o = Some out ->
  exists full,
    sublist full (if fo_desc o then rev (db_transfers db) else db_transfers db) /\
    (forall x, In x full <-> In x (db_transfers db) /\ any_crit tr_match cs x = true /\ in_range o (tr_seq x)) /\
    out = match fo_page o with None => full | Some (off, lim) => takeN lim (dropN off full) end /\
    sublist out full.
Proof. exact (run_filter_spec tr_seq (any_crit tr_match cs) o (db_transfers db) out). Qed.

(* 3. table-level facts about the two statements — INSERT OR IGNORE keeps the table sorted, never drops an existing row,
      silently ignores a row whose position key is present (this is where a missed truncate would keep a stale row),
      really inserts a row whose key is absent; Truncate(n) keeps exactly the rows below block n, hence every row
      written afterwards for a block >= n is inserted. *)
Theorem insert_or_ignore_partial x l :
  ev_sorted l ->
  ev_sorted (ins_ev x l) /\ (forall y, In y l -> In y (ins_ev x l)) /\
  (forall z, In z l -> er_seq z = er_seq x -> ins_ev x l = l) /\
  ((forall z, In z l -> er_seq z <> er_seq x) -> In x (ins_ev x l)).
Proof.
  intros S. split; [exact (ins_ev_sorted x l S)|]. split; [exact (ins_ev_keeps x l)|].
  split; [intros z; exact (ins_ev_stale x l z S) | exact (ins_ev_fresh x l)].
Qed.

Theorem truncate_then_insert_partial n db db' b t l s x :
  truncate n db = Some db' -> n <= b -> seq_of b t l = Some s -> er_seq x = s ->
  (forall y, In y (db_events db') <-> In y (db_events db) /\ er_seq y < n * 34359738368) /\
  In x (ins_ev x (db_events db')).
Proof.
  intros T Hb E Ex. split; [apply (truncate_spec n db db' T) | exact (no_stale_after_truncate n db db' b t l s x T Hb E Ex)].
Qed.

(* 4. C15 first sentence: after EVERY import history — any tree, any sequence of best changes (to higher, equal or
      lower blocks, back and forth), blocks with and without logs, different logs at equal positions on siblings —
      where each block that becomes best goes through writeLogs against the previous best and then AddBlock, the two
      tables are exactly what writing the blocks of the canonical chain, oldest first, into empty tables produces
      (rows_of_path: same block ids, times, tx ids, origins, clause / tx / log positions; nothing from abandoned
      branches).  Proof: Exclude both ways is the split of the two paths at the fork point (Chain/ProofsPath.v);
      Truncate at the first old-branch block forgets exactly the old branch; every later write lies above all stored
      keys of lower blocks, so INSERT OR IGNORE never meets a stale row. *)
Theorem logdb_tracks_canonical g gp tag r db : num_of g = 0 -> imported g gp tag r db ->
  forall st, is_path r (r_best r) st -> rows_of_path r st = Some db.
Proof. intros Hg I. exact (logdb_tracks_canonical_lemma g gp tag Hg r db I). Qed.

(* 5. ... and those tables are, literally, the logs of the canonical chain: the concatenation in chain order of the rows
      each block's receipts prescribe (block_events / block_transfers: block id and time, tx id and origin, clause index,
      and the position key (block number, tx index, running log index within the block)). *)
Theorem logdb_is_canonical_logs g gp tag r db : num_of g = 0 -> imported g gp tag r db ->
  forall st, is_path r (r_best r) st ->
    db_events db = chain_events r st /\ db_transfers db = chain_transfers r st.
Proof.
  intros Hg I st P. pose proof (imported_reachable _ _ _ _ _ I) as R.
  apply (rows_of_path_flat r st (reachable_wf_body _ _ _ _ _ Hg R) (path_desc g gp r (reachable_wf _ _ _ _ _ Hg R) _ _ P)).
  exact (logdb_tracks_canonical_lemma g gp tag Hg r db I st P).
Qed.

(* both sentences together: after every import history, every event filter answer is exactly the matching
   subsequence of the canonical chain's logs (window [offset, offset+limit) of the matching rows, in chain order or
   reversed) *)
Theorem filter_on_canonical_logs g gp tag r db st cs o out : num_of g = 0 -> imported g gp tag r db ->
  is_path r (r_best r) st -> filter_events db cs o = Some out ->
  exists full,
    sublist full (if fo_desc o then rev (chain_events r st) else chain_events r st) /\
    (forall x, In x full <-> In x (chain_events r st) /\ any_crit ev_match cs x = true /\ in_range o (er_seq x)) /\
    out = match fo_page o with None => full | Some (off, lim) => takeN lim (dropN off full) end.
Proof.
  intros Hg I P F. destruct (logdb_is_canonical_logs g gp tag r db Hg I st P) as [E _]. rewrite <- E.
  destruct (filter_is_subsequence_events db cs o out F) as [full [H1 [H2 [H3 _]]]]. exists full. auto.
Qed.

Theorem filter_on_canonical_logs_transfers g gp tag r db st cs o out : num_of g = 0 -> imported g gp tag r db ->
  is_path r (r_best r) st -> filter_transfers db cs o = Some out ->
  exists full,
    sublist full (if fo_desc o then rev (chain_transfers r st) else chain_transfers r st) /\
    (forall x, In x full <-> In x (chain_transfers r st) /\ any_crit tr_match cs x = true /\ in_range o (tr_seq x)) /\
    out = match fo_page o with None => full | Some (off, lim) => takeN lim (dropN off full) end.
Proof.
  intros Hg I P F. destruct (logdb_is_canonical_logs g gp tag r db Hg I st P) as [_ E]. rewrite <- E.
  destruct (filter_is_subsequence_transfers db cs o out F) as [full [H1 [H2 [H3 _]]]]. exists full. auto.
Qed.

(* 5b. genesis rows.  A running node's log db also holds the events / transfers of the genesis builder, written at every
       start by cmd/thor/utils.go:initChainRepository as rows of block 0 (the repository stores genesis without
       receipts, so they are not part of chain_events).  For every import history that starts from ANY tables d0 whose
       keys lie below block 1, the tables are d0's rows followed by the logs of the canonical chain: Truncate (always at
       a height >= 1, Exclude never returns genesis), Write and hence writeLogs commute with such a prefix. *)
Theorem logdb_tracks_canonical_after_genesis_rows g gp tag d0 r db : num_of g = 0 -> below two35 d0 ->
  imported_from g gp tag d0 r db ->
  forall st, is_path r (r_best r) st ->
    db_events db = db_events d0 ++ chain_events r st /\ db_transfers db = db_transfers d0 ++ chain_transfers r st.
Proof.
  intros Hg B0 I st P. destruct (imported_from_frame g gp tag d0 r db Hg B0 I) as [db1 [I1 ->]].
  destruct (logdb_is_canonical_logs g gp tag r db1 Hg I1 st P) as [E1 E2]. unfold frame. cbn [db_events db_transfers].
  rewrite E1, E2. auto.
Qed.

(* writing a block above every stored key appends exactly the rows its receipts prescribe *)
Theorem write_block_appends_rows b d d' : write_block b d = Some d' -> below (num_of (b_id b) * two35) d ->
  db_events d' = db_events d ++ block_events b /\ db_transfers d' = db_transfers d ++ block_transfers b.
Proof. exact (write_block_appends b d d'). Qed.

(* the canonical path exists and is unique, so the statement is not vacuous in `st` *)
Theorem canonical_path_exists g gp tag r db : num_of g = 0 -> imported g gp tag r db -> exists st, is_path r (r_best r) st.
Proof.
  intros Hg I. pose proof (reachable_wf _ _ _ _ _ Hg (imported_reachable _ _ _ _ _ I)) as W.
  exact (path_exists g gp r W (r_best r) (w_best _ _ _ W)).
Qed.

(* 6. the startup re-sync (cmd/thor/sync_logdb.go as repaired by 47028d8; the functions live in package main and are
      tied to the model through the test binary of cmd/thor, see harness/cmd/c15/synclog.go): if the tables are the canonical tables of ANY stored block x (the best block when logs were last written:
      an ancestor of the current best, a descendant of it, or a block of an abandoned branch), then after sync_logdb
      they are the canonical tables of the current best block.  Covers all four exits of seekLogDBSyncPosition
      (empty chain, empty tables, newest row belongs to best, seek walk with HasBlockID's exact-key test — a block
      whose first log is not in tx 0 is simply not recognised and the walk goes further down). *)
Theorem sync_reestablishes_canonical g gp tag adm r x st_x st_b db db' :
  num_of g = 0 -> reachable g gp tag adm r ->
  is_path r x st_x -> is_path r (r_best r) st_b -> rows_of_path r st_x = Some db ->
  sync_logdb r db = Some db' ->
  rows_of_path r st_b = Some db' /\ db_events db' = chain_events r st_b /\ db_transfers db' = chain_transfers r st_b.
Proof.
  intros Hg R Px Pb Hdb Hs. pose proof (reachable_wf _ _ _ _ _ Hg R) as W. pose proof (reachable_wf_body _ _ _ _ _ Hg R) as WB.
  pose proof (sync_reestablishes_lemma g gp r W WB x st_x st_b db Px Pb Hdb db' Hs) as H.
  split; [exact H|]. exact (rows_of_path_flat r st_b WB (path_desc g gp r W _ _ Pb) db' H).
Qed.

(* 6b. the re-sync on the tables of a real node, which also hold the genesis rows (block 0, block ids of number 0): sync_logdb
       ignores and preserves such a prefix (sync_logdb_commutes_with_genesis_rows), so 6 lifts: from "genesis rows ++ the
       canonical tables of any stored block x" a successful re-sync yields "genesis rows ++ the logs of best's chain".
       Like 6 this is conditional on sync_logdb returning Some (no totality theorem: a Write can fail on a key out of the
       28 / 15 / 20-bit ranges); the verify variants 7(a)-(c) are NOT lifted to tables with genesis rows. *)
Theorem sync_logdb_commutes_with_genesis_rows g gp tag adm r d0 db : num_of g = 0 -> reachable g gp tag adm r ->
  below two35 d0 -> genesis_ids d0 -> sync_logdb r (frame d0 db) = option_map (frame d0) (sync_logdb r db).
Proof.
  intros Hg R B0 G0. exact (sync_logdb_frame g gp r d0 (reachable_wf _ _ _ _ _ Hg R) (reachable_wf_body _ _ _ _ _ Hg R) B0 G0 db).
Qed.

Theorem sync_reestablishes_canonical_with_genesis_rows g gp tag adm r x st_x st_b d0 db D :
  num_of g = 0 -> reachable g gp tag adm r -> below two35 d0 -> genesis_ids d0 ->
  is_path r x st_x -> is_path r (r_best r) st_b -> rows_of_path r st_x = Some db ->
  sync_logdb r (frame d0 db) = Some D ->
  db_events D = db_events d0 ++ chain_events r st_b /\ db_transfers D = db_transfers d0 ++ chain_transfers r st_b.
Proof.
  intros Hg R B0 G0 Px Pb Hdb Hs. rewrite (sync_logdb_commutes_with_genesis_rows g gp tag adm r d0 db Hg R B0 G0) in Hs.
  destruct (sync_logdb r db) as [db'|] eqn:E; [|discriminate]. injection Hs as <-.
  destruct (sync_reestablishes_canonical g gp tag adm r x st_x st_b db db' Hg R Px Pb Hdb E) as [_ [E1 E2]].
  unfold frame. cbn [db_events db_transfers]. rewrite E1, E2. auto.
Qed.

(* 7. syncLogDB's verify argument (verifyLogDB: 100-block windows re-read from the tables, the leading rows carrying the
      block's id compared field by field with the rows its receipts prescribe).  (a) a re-sync that succeeds with
      verify = true leaves the canonical tables; (b) verifyLogDB accepts canonical tables up to any block that best's
      chain shares with the chain the tables were written for; (c) hence on such tables the verifying re-sync behaves
      exactly like the plain one: it never fails where the plain one succeeds (for chains below 2^28 - 100 blocks: the
      window's upper end must be a valid block number, as in the code).  Nothing is claimed about verifyLogDB as a
      detector of wrong tables (it overlooks stale rows of a foreign block when the canonical blocks of the rest of the
      window carry no logs; corpus/C15/synclog-verify-overlooks-stale-sibling-rows.json shows it on the real code). *)
Theorem sync_verify_reestablishes_canonical g gp tag adm r x st_x st_b db db' v :
  num_of g = 0 -> reachable g gp tag adm r ->
  is_path r x st_x -> is_path r (r_best r) st_b -> rows_of_path r st_x = Some db ->
  sync_logdb_v v r db = Some db' ->
  rows_of_path r st_b = Some db' /\ db_events db' = chain_events r st_b /\ db_transfers db' = chain_transfers r st_b.
Proof.
  intros Hg R Px Pb Hdb Hs.
  exact (sync_reestablishes_canonical g gp tag adm r x st_x st_b db db' Hg R Px Pb Hdb (sync_logdb_v_some v r db db' Hs)).
Qed.

Theorem verify_accepts_canonical_prefix g gp tag adm r x st_x db h e :
  num_of g = 0 -> reachable g gp tag adm r ->
  is_path r x st_x -> rows_of_path r st_x = Some db ->
  In h st_x -> anc r (r_best r) h -> num_of h + log_step <= max_block -> e <= num_of h ->
  verify_logdb r db e = true.
Proof.
  intros Hg R Px Hdb Hin Ha Hmax He.
  exact (verify_accepts_common_prefix g gp r (reachable_wf _ _ _ _ _ Hg R) (reachable_wf_body _ _ _ _ _ Hg R) x st_x db Px Hdb h Hin Ha Hmax e He).
Qed.

Theorem sync_verify_raises_no_false_alarm g gp tag adm r x st_x db v :
  num_of g = 0 -> reachable g gp tag adm r ->
  is_path r x st_x -> rows_of_path r st_x = Some db ->
  num_of (r_best r) + log_step <= max_block ->
  sync_logdb_v v r db = sync_logdb r db.
Proof.
  intros Hg R Px Hdb Hmax.
  exact (sync_verify_no_false_alarm g gp r (reachable_wf _ _ _ _ _ Hg R) (reachable_wf_body _ _ _ _ _ Hg R) x st_x db Px Hdb v Hmax).
Qed.

(* non-vacuity: the example history of Chain/Examples.v (tx 1001 with logs on both siblings at height 2, then a
   reorganisation to the sibling branch) imported through write_logs: the table holds the sibling's rows only, and
   equals the rows of the canonical path; skipping the truncate would have kept the stale row (ins_ev ignores it) *)
Definition ex_db1 := match write_logs ex_r0 empty_db ex_b1 ex_g with Some d => d | None => empty_db end.
Definition ex_db2 := match write_logs ex_r1 ex_db1 ex_b2 (bid 1 1) with Some d => d | None => empty_db end.
Definition ex_db4 := match write_logs ex_r3 ex_db2 ex_b3' (bid 2 1) with Some d => d | None => empty_db end.
Example ex_c15 :
  imported ex_g ex_gp ex_tag ex_r4 ex_db4 /\
  map er_block (db_events ex_db2) = [bid 2 1] /\
  map er_block (db_events ex_db4) = [bid 2 2; bid 2 2] /\ map er_tx (db_events ex_db4) = [1001; 1002] /\
  map (fun x => (seq_block (er_seq x), seq_txi (er_seq x), seq_logi (er_seq x))) (db_events ex_db4) = [(2, 0, 0); (2, 1, 1)] /\
  rows_of_path ex_r4 [bid 3 1; bid 2 2; bid 1 1; ex_g] = Some ex_db4 /\
  chain_events ex_r4 [bid 3 1; bid 2 2; bid 1 1; ex_g] = db_events ex_db4 /\ length (chain_transfers ex_r4 [bid 3 1; bid 2 2; bid 1 1; ex_g]) = 2%nat /\
  (exists stale, In stale (db_events ex_db2) /\ er_block stale = bid 2 1 /\
     match write_block ex_b2' ex_db2 with Some d => In stale (db_events d) | None => False end) /\
  filter_events ex_db4 [mkEC (Some 900) [Some 5; None; None; None; None]] (mkFO (Some (2, 1)) None true) = Some [] /\
  option_map (map er_tx) (filter_events ex_db4 [mkEC None [None; Some 0; None; None; None]] (mkFO (Some (0, 9)) (Some (1, 5)) true)) = Some [1001].
Proof.
  split.
  - apply (imp_best _ _ _ ex_r3 ex_db2 ex_b3' 0); [| vm_compute; repeat split | vm_compute; reflexivity | vm_compute; reflexivity].
    apply (imp_side _ _ _ ex_r2 ex_db2 ex_b2' 1); [| vm_compute; repeat split | vm_compute; reflexivity].
    apply (imp_best _ _ _ ex_r1 ex_db1 ex_b2 0); [| vm_compute; repeat split | vm_compute; reflexivity | vm_compute; reflexivity].
    apply (imp_best _ _ _ ex_r0 empty_db ex_b1 0); [| vm_compute; repeat split | vm_compute; reflexivity | vm_compute; reflexivity].
    apply imp_init.
  - vm_compute. repeat split. eexists. split; [left; reflexivity|]. split; [reflexivity|]. left. reflexivity.
Qed.

(* non-vacuity of 6, in the situation of finding F8: the tables are those of block (2,2), best is its child (3,7) which has
   logs; the seek walk stops at (2,2) (row key (2,0,0) present), position 3 = best: block 3 is written *)
Definition ex_b3l := mkB (bid 3 7) (bid 2 2) 30 [mkTx 1003 7 2 10 None 52] [ex_rc false].
Definition ex_r5 := step_or ex_r3 ex_b3l 0 true.
Example ex_c15_sync :
  reachable ex_g ex_gp ex_tag (fun _ _ _ => True) ex_r5 /\
  (exists dbx, rows_of_path ex_r5 [bid 2 2; bid 1 1; ex_g] = Some dbx /\ seek_position ex_r5 dbx = Ok 3 /\
     sync_logdb ex_r5 dbx = rows_of_path ex_r5 [bid 3 7; bid 2 2; bid 1 1; ex_g] /\
     option_map (fun d => length (db_events d)) (sync_logdb ex_r5 dbx) = Some 3%nat).
Proof.
  split.
  - apply step_or_reach; [apply ex_reachable3; exact I | vm_compute; repeat split | exact I | vm_compute; discriminate].
  - eexists. split; [vm_compute; reflexivity|]. vm_compute. repeat split.
Qed.

(* non-vacuity of 7 on the same situation: verifyLogDB accepts the tables of (2,2) up to height 2, rejects them at height 3
   (best's block 3 has logs the tables do not hold), and the verifying re-sync gives the canonical tables of best *)
Example ex_c15_verify :
  exists dbx, rows_of_path ex_r5 [bid 2 2; bid 1 1; ex_g] = Some dbx /\
    verify_logdb ex_r5 dbx 2 = true /\ verify_logdb ex_r5 dbx 3 = false /\
    sync_logdb_v true ex_r5 dbx = rows_of_path ex_r5 [bid 3 7; bid 2 2; bid 1 1; ex_g] /\
    In (bid 2 2) [bid 2 2; bid 1 1; ex_g] /\ num_of (r_best ex_r5) + log_step <= max_block.
Proof. eexists. split; [vm_compute; reflexivity|]. vm_compute. repeat split; auto; discriminate. Qed.

(* non-vacuity of 5b: what Write(genesis, one receipt) leaves (rows of block 0) is a valid starting table, and the
   example history imported on top of it keeps those rows in front; a transfer filter on the result *)
Definition ex_d0 := match write_block (mkB ex_g ex_gp 0 [] [ex_rc false]) empty_db with Some d => d | None => empty_db end.
Definition ex_dg1 := match write_logs ex_r0 ex_d0 ex_b1 ex_g with Some d => d | None => empty_db end.
Definition ex_dg2 := match write_logs ex_r1 ex_dg1 ex_b2 (bid 1 1) with Some d => d | None => empty_db end.
Definition ex_dg4 := match write_logs ex_r3 ex_dg2 ex_b3' (bid 2 1) with Some d => d | None => empty_db end.
Example ex_c15_genesis_rows :
  below two35 ex_d0 /\ length (db_events ex_d0) = 1%nat /\ length (db_transfers ex_d0) = 1%nat /\
  imported_from ex_g ex_gp ex_tag ex_d0 ex_r4 ex_dg4 /\
  map (fun x => seq_block (er_seq x)) (db_events ex_dg4) = [0; 2; 2] /\
  option_map (map (fun x => (seq_block (tr_seq x), tr_tx x)))
    (filter_transfers ex_dg4 [mkTC None (Some 50) None; mkTC (Some 99) None None] (mkFO (Some (1, 5)) (Some (0, 1)) true)) = Some [(2, 1002)].
Proof.
  split; [split; intros x Hx; vm_compute in Hx; destruct Hx as [<-|[]]; vm_compute; reflexivity|].
  split; [reflexivity|]. split; [reflexivity|]. split.
  - apply (impf_best _ _ _ _ ex_r3 ex_dg2 ex_b3' 0); [| vm_compute; repeat split | vm_compute; reflexivity | vm_compute; reflexivity].
    apply (impf_side _ _ _ _ ex_r2 ex_dg2 ex_b2' 1); [| vm_compute; repeat split | vm_compute; reflexivity].
    apply (impf_best _ _ _ _ ex_r1 ex_dg1 ex_b2 0); [| vm_compute; repeat split | vm_compute; reflexivity | vm_compute; reflexivity].
    apply (impf_best _ _ _ _ ex_r0 ex_d0 ex_b1 0); [| vm_compute; repeat split | vm_compute; reflexivity | vm_compute; reflexivity].
    apply impf_init.
  - vm_compute. repeat split.
Qed.

(* composition *)
From Verif Require Compose.LogCanon.
Module LC := Verif.Compose.LogCanon.

(* 8. C15 <-> C14 (coq/Compose/LogCanon.v).  4 / 5 / 5b above are stated over histories whose best-changing step is
      write_logs — DEFINED through Chain's Exclude, both ways — and conclude about `is_path` lists.  C14
      (Properties/C14.v exclude_is_difference) says what Exclude returns: exactly the blocks on one chain and not on the
      other, ascending.  Here the two are composed at statement level: neither `exclude` nor `is_path` occurs below.

   8a. the bridge: an ascending list with exactly the members of the difference is unique, so C14's characterisation is an
       equation — Exclude(c, o) = Ok l iff l is THE ascending enumeration of ancestors(c) \ ancestors(o) *)
Theorem exclude_is_the_ascending_enumeration g gp tag adm r c o l :
  num_of g = 0 -> reachable g gp tag adm r -> stored r c -> stored r o ->
  (exclude r c o = Ok l <-> (forall a, In a l <-> anc r c a /\ ~ anc r o a) /\ asc l).
Proof. intros Hg R. exact (LC.exclude_is_enum g gp r c o l (reachable_wf _ _ _ _ _ Hg R)). Qed.

Theorem ascending_enumeration_is_unique (P : N -> Prop) l1 l2 :
  (forall a, In a l1 <-> P a) /\ asc l1 -> (forall a, In a l2 <-> P a) /\ asc l2 -> l1 = l2.
Proof. exact (LC.ascending_enum_unique P l1 l2). Qed.

(* 8b. the log-writing step over ancestry (this is LC.write_logs_spec r db nb ob db', unfolded): for ANY tables whose
       keys lie at or below old_best's height, the tables after writeLogs are
         - the surviving rows dk: all of db if every block of old_best's chain is on the new block's chain, otherwise
           the rows whose key lies below the LOWEST block f of old_best's chain that is not (what Truncate(f) leaves),
         - then the rows of the blocks ln of the parent's chain that are not on old_best's chain, in ascending height,
         - then the rows of the new block. *)
Theorem write_logs_over_ancestry g gp tag adm r db nb ob db' :
  num_of g = 0 -> reachable g gp tag adm r -> stored r ob -> stored r (b_parent nb) ->
  num_of (b_id nb) = num_of (b_parent nb) + 1 -> below ((num_of ob + 1) * two35) db ->
  write_logs r db nb ob = Some db' ->
  exists dk ln,
    (((forall a, ~ (anc r ob a /\ ~ anc r (b_parent nb) a)) /\ dk = db) \/
     (exists f, ((anc r ob f /\ ~ anc r (b_parent nb) f) /\
                 (forall a, anc r ob a /\ ~ anc r (b_parent nb) a -> num_of f <= num_of a)) /\
                dk = mkDB (filter (fun x => er_seq x <? num_of f * two35) (db_events db))
                          (filter (fun x => tr_seq x <? num_of f * two35) (db_transfers db)))) /\
    ((forall a, In a ln <-> anc r (b_parent nb) a /\ ~ anc r ob a) /\ asc ln) /\
    db_events db' = db_events dk ++ concat (map (blk_events r) ln) ++ block_events nb /\
    db_transfers db' = db_transfers dk ++ concat (map (blk_transfers r) ln) ++ block_transfers nb.
Proof.
  intros Hg R So Sp. exact (LC.write_logs_meets_spec g gp r (reachable_wf _ _ _ _ _ Hg R) (reachable_wf_body _ _ _ _ _ Hg R) ob nb So Sp db db').
Qed.

(* 8c. the specification determines the tables, hence wherever writeLogs is defined it IS the specification *)
Theorem write_logs_spec_determines_tables r db nb ob d1 d2 :
  LC.write_logs_spec r db nb ob d1 -> LC.write_logs_spec r db nb ob d2 -> d1 = d2.
Proof. exact (LC.write_logs_spec_functional r db nb ob d1 d2). Qed.

Theorem write_logs_is_spec_where_defined g gp tag adm r db nb ob db' :
  num_of g = 0 -> reachable g gp tag adm r -> stored r ob -> stored r (b_parent nb) ->
  num_of (b_id nb) = num_of (b_parent nb) + 1 -> below ((num_of ob + 1) * two35) db ->
  write_logs r db nb ob <> None ->
  (write_logs r db nb ob = Some db' <-> LC.write_logs_spec r db nb ob db').
Proof.
  intros Hg R So Sp. exact (LC.write_logs_iff_spec g gp r (reachable_wf _ _ _ _ _ Hg R) (reachable_wf_body _ _ _ _ _ Hg R) ob nb So Sp db db').
Qed.

(* 8d. ... and it is undefined exactly where a sequence range check fails: the Truncate height is above 2^28-1, or Write
       of a block of the new branch, or of the new block itself, fails (whether a Write fails does not depend on the
       tables: `write_block b empty_db`); block number, receipt count and the two per-block log counts within
       28 / 15 / 20 bits suffice for a Write to succeed *)
Theorem write_logs_failure_modes g gp tag adm r db nb ob :
  num_of g = 0 -> reachable g gp tag adm r -> stored r ob -> stored r (b_parent nb) ->
  (write_logs r db nb ob = None <->
   (exists f, ((anc r ob f /\ ~ anc r (b_parent nb) f) /\
               (forall a, anc r ob a /\ ~ anc r (b_parent nb) a -> num_of f <= num_of a)) /\ max_block < num_of f) \/
   (exists a s b, (anc r (b_parent nb) a /\ ~ anc r ob a) /\ get_block r a = Some (s, b) /\
                  ~ (exists d', write_block b empty_db = Some d')) \/
   ~ (exists d', write_block nb empty_db = Some d')).
Proof.
  intros Hg R So Sp. exact (LC.write_logs_fails_iff g gp r (reachable_wf _ _ _ _ _ Hg R) (reachable_wf_body _ _ _ _ _ Hg R) ob nb So Sp db).
Qed.

Theorem write_succeeds_within_ranges b d :
  num_of (b_id b) <= max_block /\ lenN (b_rcs b) <= max_txi + 1 /\
  LC.rcs_count_ev (b_rcs b) <= max_logi + 1 /\ LC.rcs_count_tr (b_rcs b) <= max_logi + 1 ->
  exists d', write_block b d = Some d'.
Proof. intros F. exact (proj2 (LC.write_block_writable b d) (LC.fits_writable b F)). Qed.

(* 9. C15 first sentence over ancestry: after EVERY import history the two tables are exactly the rows the receipts of
      best's ancestors prescribe, ancestor by ancestor in ascending height — for THE ascending list l of the ancestors
      of best other than genesis (it exists, 9a; it is unique, 8a; genesis is stored without receipts and has no rows) *)
Theorem logdb_is_ancestor_logs g gp tag r db : num_of g = 0 -> imported g gp tag r db ->
  forall l, (forall a, In a l <-> anc r (r_best r) a /\ a <> g) -> asc l ->
    db_events db = concat (map (blk_events r) l) /\ db_transfers db = concat (map (blk_transfers r) l).
Proof. intros Hg I l M A. exact (LC.logdb_is_ancestor_logs g gp tag Hg r db I l (conj M A)). Qed.

Theorem logdb_is_ancestor_logs_all g gp tag r db : num_of g = 0 -> imported g gp tag r db ->
  forall l, (forall a, In a l <-> anc r (r_best r) a) -> asc l ->
    db_events db = concat (map (blk_events r) l) /\ db_transfers db = concat (map (blk_transfers r) l).
Proof. intros Hg I l M A. exact (LC.logdb_is_ancestor_logs_all g gp tag Hg r db I l (conj M A)). Qed.

(* 9a. that list exists; through C14 it is what Exclude(best, genesis) returns *)
Theorem ancestor_enumeration_exists g gp tag r db : num_of g = 0 -> imported g gp tag r db ->
  exists l, (forall a, In a l <-> anc r (r_best r) a /\ a <> g) /\ asc l.
Proof. intros Hg I. exact (LC.ancestor_enum_exists g gp tag Hg r db I). Qed.

Theorem ancestor_enumeration_is_exclude_genesis g gp tag adm r h l :
  num_of g = 0 -> reachable g gp tag adm r -> stored r h ->
  (exclude r h g = Ok l <-> (forall a, In a l <-> anc r h a /\ a <> g) /\ asc l).
Proof. intros Hg R. exact (LC.exclude_gen_enum g gp r h l (reachable_wf _ _ _ _ _ Hg R)). Qed.

(* 9b. membership form: a row is in a table iff the receipts of a block on best's chain prescribe it *)
Theorem logdb_rows_membership g gp tag r db : num_of g = 0 -> imported g gp tag r db ->
  (forall x, In x (db_events db) <->
             exists a s b, anc r (r_best r) a /\ get_block r a = Some (s, b) /\ In x (block_events b)) /\
  (forall x, In x (db_transfers db) <->
             exists a s b, anc r (r_best r) a /\ get_block r a = Some (s, b) /\ In x (block_transfers b)).
Proof. intros Hg I. exact (LC.logdb_rows_membership g gp tag Hg r db I). Qed.

(* 9c. order: both tables are strictly ascending in the sequence key — by 1 the lexicographic order of (block number,
       tx index, log index) — and the rows of an ancestor carry its id and lie inside its own key range *)
Theorem logdb_rows_ordered g gp tag r db : num_of g = 0 -> imported g gp tag r db ->
  ev_sorted (db_events db) /\ LC.tr_sorted (db_transfers db) /\
  (forall a, anc r (r_best r) a ->
     (forall x, In x (blk_events r a) -> er_block x = a /\ num_of a * two35 <= er_seq x < (num_of a + 1) * two35) /\
     (forall x, In x (blk_transfers r a) -> tr_block x = a /\ num_of a * two35 <= tr_seq x < (num_of a + 1) * two35)).
Proof. intros Hg I. exact (LC.logdb_rows_ordered g gp tag Hg r db I). Qed.

(* 9d. the genesis-rows variant of 5b over ancestry *)
Theorem logdb_after_genesis_rows_is_ancestor_logs g gp tag d0 r db : num_of g = 0 -> below two35 d0 ->
  imported_from g gp tag d0 r db ->
  forall l, (forall a, In a l <-> anc r (r_best r) a /\ a <> g) -> asc l ->
    db_events db = db_events d0 ++ concat (map (blk_events r) l) /\
    db_transfers db = db_transfers d0 ++ concat (map (blk_transfers r) l).
Proof. intros Hg B0 I l M A. exact (LC.logdb_after_genesis_rows_is_ancestor_logs g gp tag Hg d0 r db B0 I l (conj M A)). Qed.

(* 10. the best-changing step of an import history meets 8b (its premises hold of every such step), and on the tables of
       an import history the surviving rows are exactly the rows whose block is not on the abandoned branch *)
Theorem imported_step_over_ancestry g gp tag r db b conf r' db' : num_of g = 0 -> imported g gp tag r db ->
  valid_add r b conf -> write_logs r db b (r_best r) = Some db' -> add_block r b conf true = Some r' ->
  LC.write_logs_spec r db b (r_best r) db'.
Proof. intros Hg I. exact (LC.imported_step_meets_spec g gp tag Hg r db b conf r' db' I). Qed.

Theorem kept_rows_are_off_the_old_branch g gp tag r db nb dk : num_of g = 0 -> imported g gp tag r db ->
  stored r (b_parent nb) -> LC.kept r (r_best r) nb db dk ->
  (forall x, In x (db_events dk) <->
             In x (db_events db) /\ ~ (anc r (r_best r) (er_block x) /\ ~ anc r (b_parent nb) (er_block x))) /\
  (forall x, In x (db_transfers dk) <->
             In x (db_transfers db) /\ ~ (anc r (r_best r) (tr_block x) /\ ~ anc r (b_parent nb) (tr_block x))).
Proof. intros Hg I. exact (LC.kept_on_canonical g gp tag Hg r db nb dk I). Qed.

(* non-vacuity of 8-10 on the example history: the reorganisation step ex_r3 -> ex_r4 (best (2,1), new block (3,1) on the
   sibling (2,2)) satisfies the premises of 8b-8d; its old branch is {(2,1)} (lowest: (2,1)), its new branch [(2,2)]; the
   ancestors of the new best other than genesis are [(1,1); (2,2); (3,1)], the table is their rows — (2,2)'s two events —
   and the abandoned block's row, present before the step, is gone *)
Example ex_c15_over_ancestry :
  (stored ex_r3 (bid 2 1) /\ stored ex_r3 (b_parent ex_b3') /\ num_of (b_id ex_b3') = num_of (b_parent ex_b3') + 1 /\
   below ((num_of (bid 2 1) + 1) * two35) ex_db2 /\ write_logs ex_r3 ex_db2 ex_b3' (bid 2 1) = Some ex_db4) /\
  LC.write_logs_spec ex_r3 ex_db2 ex_b3' (bid 2 1) ex_db4 /\
  LC.lowest (LC.old_branch ex_r3 (bid 2 1) ex_b3') (bid 2 1) /\
  LC.ascending_enum (LC.new_branch ex_r3 (bid 2 1) ex_b3') [bid 2 2] /\
  LC.kept ex_r3 (bid 2 1) ex_b3' ex_db2 empty_db /\
  LC.ascending_enum (fun a => anc ex_r4 (r_best ex_r4) a /\ a <> ex_g) [bid 1 1; bid 2 2; bid 3 1] /\
  db_events ex_db4 = LC.rows_ev ex_r4 [bid 1 1; bid 2 2; bid 3 1] /\
  db_transfers ex_db4 = LC.rows_tr ex_r4 [bid 1 1; bid 2 2; bid 3 1] /\
  map er_block (LC.rows_ev ex_r4 [bid 1 1; bid 2 2; bid 3 1]) = [bid 2 2; bid 2 2] /\
  In (bid 2 1) (map er_block (db_events ex_db2)) /\ ~ In (bid 2 1) (map er_block (db_events ex_db4)) /\
  LC.fits ex_b2' /\ LC.writable ex_b3'.
Proof.
  pose proof (reachable_wf _ _ _ _ _ ex_g_num ex_reachable3_tip) as W3.
  pose proof (reachable_wf_body _ _ _ _ _ ex_g_num ex_reachable3_tip) as WB3.
  pose proof (reachable_wf _ _ _ _ _ ex_g_num ex_reachable_tip) as W4.
  assert (So : stored ex_r3 (bid 2 1)) by (eexists; vm_compute; reflexivity).
  assert (Sp : stored ex_r3 (b_parent ex_b3')) by (eexists; vm_compute; reflexivity).
  assert (Hn : num_of (b_id ex_b3') = num_of (b_parent ex_b3') + 1) by (vm_compute; reflexivity).
  assert (B : below ((num_of (bid 2 1) + 1) * two35) ex_db2)
    by (split; intros x Hx; vm_compute in Hx; destruct Hx as [<-|[]]; vm_compute; reflexivity).
  assert (Hw : write_logs ex_r3 ex_db2 ex_b3' (bid 2 1) = Some ex_db4) by (vm_compute; reflexivity).
  assert (Eo : LC.ascending_enum (LC.old_branch ex_r3 (bid 2 1) ex_b3') [bid 2 1])
    by (apply (LC.exclude_is_enum ex_g ex_gp ex_r3 (bid 2 1) (b_parent ex_b3') _ W3 So Sp); vm_compute; reflexivity).
  assert (Lf : LC.lowest (LC.old_branch ex_r3 (bid 2 1) ex_b3') (bid 2 1)).
  { destruct Eo as [M _]. split; [apply M; left; reflexivity|]. intros a Ha. apply M in Ha. destruct Ha as [<-|[]]. apply N.le_refl. }
  split; [exact (conj So (conj Sp (conj Hn (conj B Hw))))|].
  split; [exact (LC.write_logs_meets_spec ex_g ex_gp ex_r3 W3 WB3 (bid 2 1) ex_b3' So Sp ex_db2 ex_db4 Hn B Hw)|].
  split; [exact Lf|].
  split; [apply (LC.exclude_is_enum ex_g ex_gp ex_r3 (b_parent ex_b3') (bid 2 1) _ W3 Sp So); vm_compute; reflexivity|].
  split; [right; exists (bid 2 1); split; [exact Lf | vm_compute; reflexivity]|].
  split; [apply (LC.exclude_gen_enum ex_g ex_gp ex_r4 (r_best ex_r4) _ W4 (w_best _ _ _ W4)); vm_compute; reflexivity|].
  split; [vm_compute; reflexivity|]. split; [vm_compute; reflexivity|]. split; [vm_compute; reflexivity|].
  split; [vm_compute; left; reflexivity|].
  split; [vm_compute; intros [H|[H|[]]]; discriminate H|].
  split; [vm_compute; repeat split; intros H; discriminate H | eexists; vm_compute; reflexivity].
Qed.

(* non-vacuity of 9d on the genesis-rows history of ex_c15_genesis_rows: block 0's rows stay in front *)
Example ex_c15_over_ancestry_genesis_rows :
  db_events ex_dg4 = db_events ex_d0 ++ LC.rows_ev ex_r4 [bid 1 1; bid 2 2; bid 3 1] /\
  db_transfers ex_dg4 = db_transfers ex_d0 ++ LC.rows_tr ex_r4 [bid 1 1; bid 2 2; bid 3 1] /\
  length (db_events ex_d0) = 1%nat /\ length (LC.rows_ev ex_r4 [bid 1 1; bid 2 2; bid 3 1]) = 2%nat.
Proof. vm_compute. repeat split. Qed.

(* non-vacuity of 6b: ex_d0 (what Write(genesis, one receipt) leaves) satisfies both premises, and the F11 situation of
   ex_c15_sync with those rows in front re-syncs to "genesis rows ++ canonical logs" *)
Example ex_c15_sync_genesis_rows :
  below two35 ex_d0 /\ genesis_ids ex_d0 /\
  (exists dbx, rows_of_path ex_r5 [bid 2 2; bid 1 1; ex_g] = Some dbx /\
     option_map (fun d => map (fun x => seq_block (er_seq x)) (db_events d)) (sync_logdb ex_r5 (frame ex_d0 dbx)) = Some [0; 2; 2; 3]).
Proof.
  split; [split; intros x Hx; vm_compute in Hx; destruct Hx as [<-|[]]; vm_compute; reflexivity|].
  split; [split; intros x Hx; vm_compute in Hx; destruct Hx as [<-|[]]; vm_compute; reflexivity|].
  eexists. split; [vm_compute; reflexivity|]. vm_compute. reflexivity.
Qed.

Print Assumptions seq_pack_inj_mono.
Print Assumptions seq_model_is_translated.
Print Assumptions filter_is_subsequence_events.
Print Assumptions filter_is_subsequence_transfers.
Print Assumptions insert_or_ignore_partial.
Print Assumptions truncate_then_insert_partial.
Print Assumptions logdb_tracks_canonical.
Print Assumptions canonical_path_exists.
Print Assumptions logdb_is_canonical_logs.
Print Assumptions filter_on_canonical_logs.
Print Assumptions filter_on_canonical_logs_transfers.
Print Assumptions write_block_appends_rows.
Print Assumptions logdb_tracks_canonical_after_genesis_rows.
Print Assumptions sync_reestablishes_canonical.
Print Assumptions sync_logdb_commutes_with_genesis_rows.
Print Assumptions sync_reestablishes_canonical_with_genesis_rows.
Print Assumptions sync_verify_reestablishes_canonical.
Print Assumptions verify_accepts_canonical_prefix.
Print Assumptions sync_verify_raises_no_false_alarm.
Print Assumptions exclude_is_the_ascending_enumeration.
Print Assumptions ascending_enumeration_is_unique.
Print Assumptions write_logs_over_ancestry.
Print Assumptions write_logs_spec_determines_tables.
Print Assumptions write_logs_is_spec_where_defined.
Print Assumptions write_logs_failure_modes.
Print Assumptions write_succeeds_within_ranges.
Print Assumptions logdb_is_ancestor_logs.
Print Assumptions logdb_is_ancestor_logs_all.
Print Assumptions ancestor_enumeration_exists.
Print Assumptions ancestor_enumeration_is_exclude_genesis.
Print Assumptions logdb_rows_membership.
Print Assumptions logdb_rows_ordered.
Print Assumptions logdb_after_genesis_rows_is_ancestor_logs.
Print Assumptions imported_step_over_ancestry.
Print Assumptions kept_rows_are_off_the_old_branch.
