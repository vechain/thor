(* Crash/ProofsReaders.v — C20: at every point of every interleaving of the importer's steps (atomic writes and
   publications of the in-memory best / finalized pointers) with reader steps, the published best block is complete.
   Reader steps do not change the state (queries_are_pure), so "every interleaving" is "every prefix of the importer's steps". *)
From Coq Require Import List NArith Bool Lia.
From Verif Require Import Crash.Model Crash.ProofsStore Crash.ProofsInv Crash.ProofsImport Crash.ProofsCrash Crash.ProofsFinalized.
Import ListNotations.
Open Scope N_scope.

Definition sys_inv (c : cfg) (y : sys) : Prop :=
  Inv c (y_store y) /\ stored (y_store y) (y_best y) = true /\ stored (y_store y) (y_fin y) = true.

(* a step list is good from store s: every write keeps the invariant and every stored block, every publication names a stored block *)
Fixpoint good_steps (c : cfg) (s : store) (l : list step) : Prop :=
  match l with
  | [] => True
  | SWrite w :: r => Inv c (apply_batch s w) /\ (forall id, stored s id = true -> stored (apply_batch s w) id = true)
                     /\ good_steps c (apply_batch s w) r
  | SPubBest id :: r => stored s id = true /\ good_steps c s r
  | SPubFin f :: r => stored s f = true /\ good_steps c s r
  end.

Lemma good_steps_prefix c l : forall y k, sys_inv c y -> good_steps c (y_store y) l -> sys_inv c (do_steps y (firstn k l)).
Proof.
  induction l as [|x l IH]; intros y k Hy Hg.
  - destruct k; simpl; auto.
  - destruct k; [simpl; auto|]. cbn [firstn]. unfold do_steps. cbn [fold_left]. apply IH.
    + destruct Hy as (I & Hb & Hf). destruct x; simpl in *.
      * destruct Hg as (I' & M & _). split; [exact I'|split; apply M; auto].
      * destruct Hg as (Hs & _). split; [exact I|split; auto].
      * destruct Hg as (Hs & _). split; [exact I|split; auto].
    + destruct x; simpl in *; tauto.
Qed.

(* the steps along which the finalized pointer only moves forward (fin_steps) are good steps *)
Lemma fin_steps_good c l : forall s f, fin_steps c s f l -> good_steps c s l.
Proof.
  induction l as [|[w|id|g] l IH]; intros s f H; simpl in *; auto.
  - destruct H as (K & I & H). split; [exact I|]. split; [intros; eapply keeps_stored; eauto|eauto].
  - destruct H. split; eauto.
  - destruct H as [D H]. split; [eapply desc_stored; eauto|eauto].
Qed.

Theorem import_good_steps c s b : wf_cfg c -> Inv c s -> wf_blk s b -> good_steps c s (import_steps c s b).
Proof.
  intros Hc I Hwf. rewrite <- (app_nil_r (import_steps c s b)).
  apply (fin_steps_good c _ s (finalized c s)), import_fin_steps; simpl; auto.
Qed.

Theorem history_good_steps c l : forall s, wf_cfg c -> Inv c s -> wf_hist c s l -> good_steps c s (steps_of c s l).
Proof. intros s Hc I Hw. apply (fin_steps_good c _ s (finalized c s)), history_fin_steps; auto. Qed.

(* C20, first clause: whatever the reader observes as best, at any point of any interleaving, is complete *)
Theorem visible_implies_complete c s0 hist k :
  wf_cfg c -> Inv c s0 -> wf_hist c s0 hist ->
  forall b0 f0, stored s0 b0 = true -> stored s0 f0 = true ->
  let y := do_steps (mkSys s0 b0 f0) (firstn k (steps_of c s0 hist)) in
  readable (y_store y) (y_best y) = true /\ readable (y_store y) (y_fin y) = true.
Proof.
  intros Hc I Hw b0 f0 Hb Hf y.
  assert (Y : sys_inv c y).
  { apply good_steps_prefix; [split; [exact I|split; auto]|]. apply history_good_steps; auto. }
  destruct Y as (Iy & Sb & Sf). split; eapply Inv_readable; eauto.
Qed.

(* read-only operations issue no store write (by construction of their model: they return an answer, never a batch) *)
Theorem queries_are_pure c y q : writes_of_steps (fst (query_steps c y q)) = [] /\ do_steps y (fst (query_steps c y q)) = y.
Proof. destruct q; simpl; split; auto. Qed.
