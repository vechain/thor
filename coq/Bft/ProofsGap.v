(* Bft/ProofsGap.v — two committed epochs in one valid run (fewer than a third Byzantine; the finalized filter hides no
   own vote inside the quality window): if the checkpoints they finalize conflict, then an honest validator voted COM in
   both epochs and its later COM vote was cast on a head whose quality exceeds the earlier vote's by at least two (the
   earlier vote had dropped out of ShouldVote's `quality >= headQuality-1` window).  Hence equal qualities never give
   conflicting finality (gap 0), and with a gap of one the only possible shape is: earlier vote cast before its epoch was
   justified, later vote cast after the other epoch was justified. *)
From Coq Require Import List NArith ZArith Bool Lia.
From Coq Require Import ZifyN ZifyNat ZifyBool.
From Verif Require Import Common.Util Bft.Tree Bft.Model Bft.Quorum Bft.ProofsTally Bft.ProofsChain Bft.ProofsSuffix
  Bft.ProofsNode Bft.ProofsFinal Bft.ProofsMonotone Bft.ProofsCommit Bft.ProofsFind Bft.ProofsLive Bft.ProofsLive2
  Bft.ProofsOrder Bft.ProofsOrder2 Bft.ProofsVote
  Bft.Safety Bft.ProofsSafety Bft.ProofsTree2 Bft.ProofsCasts Bft.ProofsRun Bft.ProofsLink.
Import ListNotations.
Open Scope N_scope.

Lemma app_decomp {A} (pre1 : list A) : forall pre2 a b post1 post2,
  pre1 ++ a :: post1 = pre2 ++ b :: post2 -> (length pre1 < length pre2)%nat -> exists mid, pre2 = pre1 ++ a :: mid.
Proof.
  induction pre1 as [|x pre1 IH]; intros pre2 a b post1 post2 E Hlt.
  - destruct pre2 as [|y pre2]; [cbn in Hlt; lia|]. cbn in E. inversion E; subst. exists pre2. reflexivity.
  - destruct pre2 as [|y pre2]; [cbn in Hlt; lia|]. cbn in E. inversion E; subst.
    destruct (IH pre2 a b post1 post2 H1 ltac:(cbn in Hlt; lia)) as [mid ->]. exists mid. reflexivity.
Qed.

Lemma app_decomp_eq {A} (pre1 : list A) : forall pre2 a b post1 post2,
  pre1 ++ a :: post1 = pre2 ++ b :: post2 -> length pre1 = length pre2 -> a = b.
Proof.
  induction pre1 as [|x pre1 IH]; intros pre2 a b post1 post2 E Hl; destruct pre2 as [|y pre2]; try discriminate.
  - inversion E. reflexivity.
  - cbn in E. inversion E. apply (IH pre2 a b post1 post2 H1). cbn in Hl. lia.
Qed.

Section Gap.
Variable c : cfg.
Hypothesis HL : 0 < c_L c.
Notation L := (c_L c).

Definition seg (t : repo) (B : blk) : list blk := snd (epoch_info c (chain_of t (b_id B))).
Definition Qof (t : repo) (B : blk) : N := quality_pure c (chain_of t (b_id B)).

Lemma suffix_qual t B s : wf_repo t -> In B t -> In s (chain_of t (b_id B)) ->
  quality_pure c (suffix_at (b_num s) (chain_of t (b_id B))) = qual c t s.
Proof.
  intros Hwf HB Hs. destruct (chain_of_in t B Hwf HB) as [tl [Ht Hg]]. destruct (in_split _ _ Hs) as [l1 [l2 E]].
  unfold qual. rewrite (chain_suffix t Hwf _ l1 s l2 E), E, (suffix_at_skip l1 s l2 (b_num s)); [|rewrite <- E, Ht; exact Hg | apply N.le_refl].
  cbn [suffix_at]. rewrite N.eqb_refl. reflexivity.
Qed.

Lemma q_epoch_block t B s k : wf_repo t -> In B t -> In s (chain_of t (b_id B)) -> b_num s = k * L + L - 1 ->
  q_epoch c t (b_id B) k = qual c t s.
Proof. intros Hwf HB Hs Hn. unfold q_epoch. rewrite <- Hn. apply suffix_qual; assumption. Qed.

Section Committed.
Variables (t : repo) (B : blk).
Hypothesis Hwf : wf_repo t.
Hypothesis HB : finalizing c t B.
Let kB := b_num B / L.

Lemma fin_num : b_num B = kB * L + L - 1.
Proof. destruct HB as [_ [Hsp _]]. exact (storepoint_form L HL _ Hsp). Qed.

Lemma fin_in : In B t. Proof. exact (proj1 HB). Qed.

Lemma fin_kB_pos : 1 <= kB.
Proof.
  destruct (N.eq_dec kB 0) as [E|E]; [|lia]. exfalso.
  destruct HB as [Hin [_ [_ HQ]]]. pose proof fin_num as Hn. rewrite E in Hn.
  destruct (chain_of_in t B Hwf Hin) as [tl [Ht Hg]].
  pose proof (quality_head c (chain_of t (b_id B))) as Hq.
  rewrite (epoch0_pq c HL (chain_of t (b_id B)) ltac:(rewrite Ht; exact Hg) B tl Ht ltac:(lia)) in Hq.
  destruct (s_just _); lia.
Qed.

(* the block closing the previous epoch carries quality Q - 1 *)
Lemma fin_prev : exists w, In w (chain_of t (b_id B)) /\ b_num w = kB * L - 1 /\ Qof t B = qual c t w + 1.
Proof.
  pose proof fin_num as Hn. pose proof fin_kB_pos as Hk. pose proof fin_in as Hin.
  destruct (block_at_exists t B (kB * L - 1) Hwf Hin ltac:(lia)) as [w [_ [Hwn Hwin]]].
  exists w. split; [exact Hwin|]. split; [exact Hwn|].
  destruct (chain_of_in t B Hwf Hin) as [tl [Ht Hg]].
  assert (Hcp : checkpoint L (b_num B) = kB * L) by reflexivity.
  destruct (quality_epoch_step c HL (chain_of t (b_id B)) B tl ltac:(rewrite Ht; exact Hg) Ht ltac:(rewrite Hcp; nia)) as [_ Hs].
  destruct HB as [_ [_ [Hc _]]]. unfold Qof. rewrite (Hs (committed_implies_justified_lemma c _ _ Hc)).
  rewrite Hcp, <- Hwn. rewrite (suffix_qual t B w Hwf Hin Hwin). reflexivity.
Qed.

Lemma seg_facts x : In x (seg t B) -> In x (chain_of t (b_id B)) /\ 0 < b_num x /\ kB * L <= b_num x /\ checkpoint L (b_num x) = kB * L.
Proof.
  intros Hx. pose proof fin_in as Hin.
  destruct (chain_of_in t B Hwf Hin) as [tl [Ht Hg]].
  destruct (epoch_segment_in c HL (chain_of t (b_id B)) ltac:(rewrite Ht; exact Hg) x Hx) as [l1 [t2 [E [Hpos Hcp]]]].
  specialize (Hcp B tl Ht). split; [rewrite E, in_app_iff; right; left; reflexivity|]. split; [exact Hpos|].
  assert (Hc : checkpoint L (b_num x) = kB * L) by (rewrite Hcp; reflexivity).
  split; [rewrite <- Hc; apply checkpoint_le; exact HL | exact Hc].
Qed.

Lemma seg_qual x : In x (seg t B) -> Qof t B - 1 <= qual c t x <= Qof t B.
Proof.
  intros Hx. destruct (seg_facts x Hx) as [Hxin [_ [Hge _]]]. pose proof fin_in as Hin.
  destruct fin_prev as [w [Hwin [Hwn HQ]]]. pose proof fin_kB_pos as Hk.
  pose proof (chain_incl _ _ _ Hxin) as Hxt.
  split.
  - assert (Hwx : In w (chain_of t (b_id x))).
    { apply (has_block_iff_in t x w Hwf Hxt (chain_incl _ _ _ Hwin)). apply (chain_members_comparable t B x w Hwf Hin Hxin Hwin). lia. }
    pose proof (qual_ancestor c HL t w x Hwf Hxt Hwx). lia.
  - exact (qual_ancestor c HL t x B Hwf Hin Hxin).
Qed.

Section First.
Variables (j : N) (y : blk).
Hypothesis Hfirst : first_epoch c t B j.
Hypothesis Hy : block_at t (b_id B) (j * L) = Some y.

(* the finalized checkpoint is below the checkpoint of every block of the committed epoch *)
Lemma first_below_seg x cpx : In x (seg t B) -> cp_of c t x = Some cpx -> has_block t (b_id cpx) (b_id y) = true.
Proof.
  intros Hx Hcp. destruct (seg_facts x Hx) as [Hxin [_ [_ Hc]]]. pose proof fin_in as Hin.
  unfold cp_of in Hcp. destruct (block_at_num _ _ _ _ Hcp) as [Hcn Hcin].
  destruct (block_at_num _ _ _ _ Hy) as [Hyn Hyin].
  apply (chain_members_comparable t B cpx y Hwf Hin); [exact (chain_in_trans t x B cpx Hwf Hxin Hcin) | exact Hyin|].
  rewrite Hcn, Hc, Hyn. apply N.mul_le_mono_r. exact (block_at_epoch_le c HL t B j y Hwf fin_in Hy).
Qed.

(* ... and below the most recent justified checkpoint of the parent of every block of the committed epoch *)
Lemma first_below_recent x p rb : In x (seg t B) -> In p t -> b_id p = b_parent x -> recent_spec c t p rb ->
  has_block t (b_id rb) (b_id y) = true /\ In p (chain_of t (b_id B)) /\ Qof t B - 1 <= qual c t p <= qual c t x.
Proof.
  intros Hx Hp Hpid [Hrb [z [Hz [Hzn Hzq]]]].
  destruct (seg_facts x Hx) as [Hxin [Hxpos [Hxge _]]]. pose proof fin_in as Hin. pose proof fin_num as HnB.
  pose proof (chain_incl _ _ _ Hxin) as Hxt.
  assert (Hcx : chain_of t (b_id x) = x :: chain_of t (b_id p)) by (apply chain_step; try assumption; symmetry; exact Hpid).
  assert (Hpx : In p (chain_of t (b_id x))) by (rewrite Hcx; right; apply chain_self; assumption).
  assert (HpB : In p (chain_of t (b_id B))) by exact (chain_in_trans t x B p Hwf Hxin Hpx).
  assert (Hpn : b_num x = b_num p + 1) by (apply (wf_child_num t x p Hwf Hxt Hp Hpid); lia).
  destruct fin_prev as [w [Hwin [Hwn HQ]]]. pose proof fin_kB_pos as Hk.
  assert (Hwp : qual c t w <= qual c t p).
  { apply (qual_ancestor c HL t w p Hwf Hp). apply (has_block_iff_in t p w Hwf Hp (chain_incl _ _ _ Hwin)).
    apply (chain_members_comparable t B p w Hwf Hin HpB Hwin). lia. }
  assert (Hpq : qual c t p <= qual c t x) by exact (qual_ancestor c HL t p x Hwf Hxt Hpx).
  split; [|split; [exact HpB | lia]].
  (* the epoch of rb *)
  assert (HzB : In z (chain_of t (b_id B))) by exact (chain_in_trans t p B z Hwf HpB Hz).
  assert (HrB : In rb (chain_of t (b_id B))) by exact (chain_in_trans t p B rb Hwf HpB Hrb).
  pose proof (chain_num_le t B z Hwf Hin HzB) as HzleB.
  set (kr := b_num z / L) in *. assert (Hkr : b_num rb = kr * L) by (rewrite <- Hzn; reflexivity).
  pose proof (div_bounds L HL (b_num z)) as Hzr. fold kr in Hzr.
  assert (Hkrle : kr <= kB) by exact (N.div_le_mono _ _ L ltac:(lia) HzleB).
  pose proof (N.mul_le_mono_r kr kB L Hkrle) as Hkrm.
  destruct (block_at_exists t B (kr * L + L - 1) Hwf Hin ltac:(lia)) as [s [_ [Hsn Hsin]]].
  assert (Hqs : q_epoch c t (b_id B) kr = qual c t s) by (apply q_epoch_block; assumption).
  assert (Hzs : qual c t z <= qual c t s).
  { apply (qual_ancestor c HL t z s Hwf (chain_incl _ _ _ Hsin)). apply (has_block_iff_in t s z Hwf (chain_incl _ _ _ Hsin) (chain_incl _ _ _ HzB)).
    apply (chain_members_comparable t B s z Hwf Hin Hsin HzB). lia. }
  destruct Hfirst as [_ Hmin].
  assert (Hjle : j <= kr).
  { destruct (N.le_gt_cases j kr) as [H|H]; [exact H|]. specialize (Hmin kr H). fold (Qof t B) in Hmin. lia. }
  destruct (block_at_num _ _ _ _ Hy) as [Hyn Hyin].
  apply (chain_members_comparable t B rb y Hwf Hin HrB Hyin). rewrite Hyn, Hkr. apply N.mul_le_mono_r. exact Hjle.
Qed.
End First.
End Committed.

Lemma blk_eq_dec (a b : blk) : {a = b} + {a <> b}.
Proof. decide equality; try apply N.eq_dec. apply bool_dec. Qed.

Section GapRun.
Variable g : blk.
Hypothesis Hg : b_num g = 0.
Variables byz masters : list N.
Hypothesis Hdisj : forall m, In m masters -> ~ In m byz.
Hypothesis Hnd : NoDup masters.
Notation W0 := (map (init_node g) masters).

(* every block signed by an honest validator enters the global tree through one proposal event *)
Lemma block_origin evs : forall w seen x, valid_run_b true c byz w seen evs = true ->
  In x (seen_after seen evs) -> ~ In x seen -> ~ In (b_signer x) byz ->
  exists pre i post, evs = pre ++ EPropose i x :: post /\ ~ In x (seen_after seen pre).
Proof.
  induction evs as [|ev t IH]; intros w seen x Hv Hin Hnot Hh; [contradiction|].
  rewrite (valid_run_cons c byz) in Hv. apply andb_prop in Hv. destruct Hv as [Hok Hv].
  rewrite (seen_after_cons c byz seen ev t w) in Hin.
  destruct ev as [i b|i b|i].
  - (* import *)
    assert (Hnot' : ~ In x (snd (ev_check c byz w seen (EImport i b)))).
    { cbn [ev_check] in Hok |- *. destruct (find_blk seen (b_id b)) as [b'|]; cbn [fst snd] in *; [exact Hnot|].
      apply andb_prop in Hok. destruct Hok as [Hbz _]. apply mem_In in Hbz. intros [<-|H]; [exact (Hh Hbz) | exact (Hnot H)]. }
    destruct (IH _ _ x Hv Hin Hnot' Hh) as [pre [j [post [E Hn]]]].
    exists (EImport i b :: pre), j, post. split; [cbn; rewrite E; reflexivity|].
    rewrite (seen_after_cons c byz seen (EImport i b) pre w). exact Hn.
  - destruct (blk_eq_dec b x) as [->|Hne].
    + exists [], i, t. split; [reflexivity | exact Hnot].
    + assert (Hnot' : ~ In x (snd (ev_check c byz w seen (EPropose i b)))) by (cbn; intros [H|H]; [exact (Hne H) | exact (Hnot H)]).
      destruct (IH _ _ x Hv Hin Hnot' Hh) as [pre [j [post [E Hn]]]].
      exists (EPropose i b :: pre), j, post. split; [cbn; rewrite E; reflexivity|].
      rewrite (seen_after_cons c byz seen (EPropose i b) pre w). exact Hn.
  - destruct (IH _ _ x Hv Hin Hnot Hh) as [pre [j [post [E Hn]]]].
    exists (ERestart i :: pre), j, post. split; [cbn; rewrite E; reflexivity | exact Hn].
Qed.

Definition before (evs : list event) (a b : blk) : Prop :=
  exists pre i post, evs = pre ++ EPropose i b :: post /\ In a (seen_after [g] pre).

(* the earlier vote xe dropped out of the window of the later vote xl *)
Definition forgotten (t : repo) (xe xl : blk) : Prop :=
  exists pl, In pl t /\ b_id pl = b_parent xl /\ qual c t xe + 2 <= qual c t pl.

Section Pair.
Variable evs : list event.
Let tree := seen_after [g] evs.
Hypothesis Hv : valid_run_b true c byz W0 [g] evs = true.
Hypothesis Hroot : known tree (b_parent g) = false.
Hypothesis Hvis : votes_visible_b c W0 evs = true.

Lemma later_vote Be Bl je jl ye yl xe xl :
  finalizing c tree Be -> finalizing c tree Bl ->
  first_epoch c tree Be je -> block_at tree (b_id Be) (je * L) = Some ye ->
  first_epoch c tree Bl jl -> block_at tree (b_id Bl) (jl * L) = Some yl ->
  In xe (seg tree Be) -> In xl (seg tree Bl) -> b_signer xe = b_signer xl -> b_com xl = true ->
  before evs xe xl ->
  forgotten tree xe xl \/ conflict tree (b_id ye) (b_id yl) = false.
Proof.
  intros HBe HBl Hfe Hye Hfl Hyl Hxe Hxl Hs Hcom [pre [i [post [E Hbef]]]].
  assert (Hv' := Hv). rewrite E in Hv'.
  assert (Hnth : exists nd, nth_error (world_after c W0 pre) i = Some nd).
  { rewrite (valid_run_app c byz) in Hv'. apply andb_prop in Hv'. destruct Hv' as [_ H2].
    rewrite (valid_run_cons c byz) in H2. apply andb_prop in H2. destruct H2 as [Hok _]. cbn [ev_check fst] in Hok.
    destruct (nth_error (world_after c W0 pre) i) as [nd|]; [exists nd; reflexivity | discriminate]. }
  destruct Hnth as [nd Hn].
  assert (Hvn : votes_visible_at c nd = true).
  { pose proof (votes_visible_app c pre W0 (EPropose i xl) post) as H. rewrite <- E in H. specialize (H Hvis). rewrite Hn in H. exact H. }
  assert (Hroot' : known (seen_after [g] (pre ++ EPropose i xl :: post)) (b_parent g) = false) by (rewrite <- E; exact Hroot).
  destruct (com_vote_link_run_visible c HL g Hg byz masters Hdisj Hnd pre i xl post nd Hv' Hroot' Hcom Hn Hvn)
    as [Hwf [p [rb [Hp [Hpid [_ [Hspec Hall]]]]]]].
  rewrite <- E in Hwf, Hp, Hspec, Hall. fold tree in Hwf, Hp, Hspec, Hall.
  destruct (N.le_gt_cases (qual c tree p - 1) (qual c tree xe)) as [Hwin|Hout].
  2:{ left. exists p. split; [exact Hp|]. split; [exact Hpid | lia]. }
  right. destruct (Hall xe Hbef Hs Hwin) as [cpx [Hcp Hcmp]].
  pose proof (first_below_seg tree Be Hwf HBe je ye Hye xe cpx Hxe Hcp) as H1.
  destruct (first_below_recent tree Bl Hwf HBl jl yl Hfl Hyl xl p rb Hxl Hp Hpid Hspec) as [H2 _].
  assert (Hcpt : In cpx tree). { unfold cp_of in Hcp. destruct (block_at_num _ _ _ _ Hcp) as [_ H]. exact (chain_incl _ _ _ H). }
  assert (Hrbt : In rb tree) by exact (chain_incl _ _ _ (proj1 Hspec)).
  assert (Hyet : In ye tree). { destruct (block_at_num _ _ _ _ Hye) as [_ H]. exact (chain_incl _ _ _ H). }
  assert (Hylt : In yl tree). { destruct (block_at_num _ _ _ _ Hyl) as [_ H]. exact (chain_incl _ _ _ H). }
  apply no_conflict_of_comparable. destruct Hcmp as [Hc|Hc].
  - apply (on_one_chain tree cpx ye yl Hwf Hcpt Hyet Hylt H1). exact (has_block_trans tree cpx rb yl Hwf Hcpt Hrbt Hylt Hc H2).
  - apply (on_one_chain tree rb ye yl Hwf Hrbt Hyet Hylt); [|exact H2]. exact (has_block_trans tree rb cpx ye Hwf Hrbt Hcpt Hyet Hc H1).
Qed.
End Pair.

Section Main.
Variable evs : list event.
Let tree := seen_after [g] evs.
Hypothesis Hpos : c_pos c = false.
Hypothesis Hnb : NoDup byz.
Hypothesis Hthird : 3 * N.of_nat (length byz) < c_mbp c.
Hypothesis Hsize : N.of_nat (length masters + length byz) <= c_mbp c.
Hypothesis Hv : valid_run_b true c byz W0 [g] evs = true.
Hypothesis Hroot : known tree (b_parent g) = false.
Hypothesis Hvis : votes_visible_b c W0 evs = true.

Lemma tree_good : world_good c g byz masters (world_after c W0 evs) tree.
Proof.
  destruct (world_prefix c HL g Hg byz masters Hdisj Hnd evs [] ltac:(rewrite app_nil_r; exact Hv) ltac:(rewrite app_nil_r; exact Hroot)) as [H _].
  exact H.
Qed.

Theorem conflicting_commits_forgotten_vote B1 B2 j1 j2 y1 y2 :
  finalizing c tree B1 -> finalizing c tree B2 ->
  first_epoch c tree B1 j1 -> block_at tree (b_id B1) (j1 * L) = Some y1 ->
  first_epoch c tree B2 j2 -> block_at tree (b_id B2) (j2 * L) = Some y2 ->
  conflict tree (b_id y1) (b_id y2) = true ->
  exists x1 x2, In x1 (seg tree B1) /\ In x2 (seg tree B2) /\ b_signer x1 = b_signer x2 /\ ~ In (b_signer x1) byz /\
    b_com x1 = true /\ b_com x2 = true /\
    ((before evs x1 x2 /\ forgotten tree x1 x2) \/ (before evs x2 x1 /\ forgotten tree x2 x1)).
Proof.
  intros HB1 HB2 Hf1 Hy1 Hf2 Hy2 Hconf.
  pose proof tree_good as Hw. pose proof (wg_wf c g byz masters _ _ Hw) as Hwf.
  assert (Hpoa : thr_weight c = 0) by (unfold thr_weight; rewrite Hpos; reflexivity).
  assert (Hsig : forall B, finalizing c tree B -> incl (signers (seg tree B)) (masters ++ byz)).
  { intros B HB s Hs. unfold signers in Hs. apply nodup_In in Hs. apply in_map_iff in Hs. destruct Hs as [x [<- Hx]].
    destruct (seg_facts tree B Hwf HB x Hx) as [Hxin [Hxpos _]]. pose proof (chain_incl _ _ _ Hxin) as Hxt.
    destruct (wg_signers c g byz masters _ _ Hw x Hxt) as [->|[H|H]]; [lia | |]; rewrite in_app_iff; tauto. }
  destruct HB1 as [HB1in [HB1sp [HB1c HB1q]]] eqn:EB1. destruct HB2 as [HB2in [HB2sp [HB2c HB2q]]] eqn:EB2.
  destruct (double_commit_honest_voter c Hpoa _ _ (seg tree B1) (seg tree B2) (masters ++ byz) byz
              (Hsig B1 HB1) (Hsig B2 HB2) ltac:(rewrite app_length; exact Hsize) Hpos Hnb Hthird HB1c HB2c)
    as [h [Hh [[x1 [Hx1 Hs1]] [Hc1 [[x2 [Hx2 Hs2]] Hc2]]]]].
  exists x1, x2. split; [exact Hx1|]. split; [exact Hx2|]. split; [congruence|]. split; [rewrite Hs1; exact Hh|].
  split; [exact (Hc1 x1 Hx1 Hs1)|]. split; [exact (Hc2 x2 Hx2 Hs2)|].
  destruct (seg_facts tree B1 Hwf HB1 x1 Hx1) as [Hx1in [Hx1pos _]]. destruct (seg_facts tree B2 Hwf HB2 x2 Hx2) as [Hx2in [Hx2pos _]].
  pose proof (chain_incl _ _ _ Hx1in) as Hx1t. pose proof (chain_incl _ _ _ Hx2in) as Hx2t.
  assert (Hng : forall x, 0 < b_num x -> ~ In x [g]) by (intros x Hx [<-|[]]; lia).
  destruct (block_origin evs W0 [g] x1 Hv Hx1t (Hng x1 Hx1pos) ltac:(rewrite Hs1; exact Hh)) as [pre1 [i1 [post1 [E1 Hn1]]]].
  destruct (block_origin evs W0 [g] x2 Hv Hx2t (Hng x2 Hx2pos) ltac:(rewrite Hs2; exact Hh)) as [pre2 [i2 [post2 [E2 Hn2]]]].
  assert (Hin_after : forall pre i x mid, In x (seen_after [g] (pre ++ EPropose i x :: mid))).
  { intros pre i x mid. rewrite seen_after_app. cbn [seen_after]. apply seen_after_incl. left. reflexivity. }
  destruct (blk_eq_dec x1 x2) as [Heq|Hne].
  - (* one block in both epochs: same checkpoint *)
    exfalso. subst x2. destruct (cp_of_exists c HL tree x1 Hwf Hx1t) as [cpx [Hcp [_ Hcin]]].
    pose proof (first_below_seg tree B1 Hwf HB1 j1 y1 Hy1 x1 cpx Hx1 Hcp) as H1.
    pose proof (first_below_seg tree B2 Hwf HB2 j2 y2 Hy2 x1 cpx Hx2 Hcp) as H2.
    assert (Hy1t : In y1 tree). { destruct (block_at_num _ _ _ _ Hy1) as [_ H]. exact (chain_incl _ _ _ H). }
    assert (Hy2t : In y2 tree). { destruct (block_at_num _ _ _ _ Hy2) as [_ H]. exact (chain_incl _ _ _ H). }
    rewrite (no_conflict_of_comparable tree _ _ (on_one_chain tree cpx y1 y2 Hwf (chain_incl _ _ _ Hcin) Hy1t Hy2t H1 H2)) in Hconf. discriminate.
  - destruct (Nat.lt_trichotomy (length pre1) (length pre2)) as [Hlt|[Hel|Hgt]].
    + left. rewrite E1 in E2. destruct (app_decomp pre1 pre2 _ _ post1 post2 E2 Hlt) as [mid Hmid].
      assert (Hbef : before evs x1 x2). { exists pre2, i2, post2. split; [rewrite <- E2; exact E1 | rewrite Hmid; apply Hin_after]. }
      split; [exact Hbef|].
      destruct (later_vote evs Hv Hroot Hvis B1 B2 j1 j2 y1 y2 x1 x2 HB1 HB2 Hf1 Hy1 Hf2 Hy2 Hx1 Hx2 ltac:(congruence) (Hc2 x2 Hx2 Hs2) Hbef) as [H|H]; [exact H|].
      fold tree in H. rewrite H in Hconf. discriminate.
    + exfalso. rewrite E1 in E2. pose proof (app_decomp_eq pre1 pre2 _ _ post1 post2 E2 Hel) as H. inversion H. contradiction.
    + right. rewrite E2 in E1. destruct (app_decomp pre2 pre1 _ _ post2 post1 E1 Hgt) as [mid Hmid].
      assert (Hbef : before evs x2 x1). { exists pre1, i1, post1. split; [rewrite <- E1; exact E2 | rewrite Hmid; apply Hin_after]. }
      split; [exact Hbef|].
      destruct (later_vote evs Hv Hroot Hvis B2 B1 j2 j1 y2 y1 x2 x1 HB2 HB1 Hf2 Hy2 Hf1 Hy1 Hx2 Hx1 ltac:(congruence) (Hc1 x1 Hx1 Hs1) Hbef) as [H|H]; [exact H|].
      fold tree in H. unfold conflict in Hconf, H. rewrite andb_comm, H in Hconf. discriminate.
Qed.

Lemma parent_qual t x p : wf_repo t -> In x t -> In p t -> b_id p = b_parent x -> 0 < b_num x -> qual c t p <= qual c t x.
Proof.
  intros Hwf Hx Hp E Hxp. apply (qual_ancestor c HL t p x Hwf Hx).
  rewrite (chain_step t x p Hwf Hx Hp (eq_sym E) Hxp). right. apply chain_self; assumption.
Qed.

(* quality bookkeeping of a forgotten vote between two committed epochs *)
Lemma forgotten_gap Be Bl xe xl : finalizing c tree Be -> finalizing c tree Bl -> In xe (seg tree Be) -> In xl (seg tree Bl) ->
  forgotten tree xe xl -> Qof tree Be + 1 <= Qof tree Bl.
Proof.
  intros HBe HBl Hxe Hxl [pl [Hpl [Hpid Hq]]].
  pose proof (wg_wf c g byz masters _ _ tree_good) as Hwf.
  destruct (seg_facts tree Bl Hwf HBl xl Hxl) as [Hin [Hxp _]].
  pose proof (parent_qual tree xl pl Hwf (chain_incl _ _ _ Hin) Hpl Hpid Hxp).
  pose proof (seg_qual tree Be Hwf HBe xe Hxe). pose proof (seg_qual tree Bl Hwf HBl xl Hxl). lia.
Qed.

Theorem conflicting_commits_gap B1 B2 j1 j2 y1 y2 :
  finalizing c tree B1 -> finalizing c tree B2 ->
  first_epoch c tree B1 j1 -> block_at tree (b_id B1) (j1 * L) = Some y1 ->
  first_epoch c tree B2 j2 -> block_at tree (b_id B2) (j2 * L) = Some y2 ->
  conflict tree (b_id y1) (b_id y2) = true ->
  Qof tree B1 + 1 <= Qof tree B2 \/ Qof tree B2 + 1 <= Qof tree B1.
Proof.
  intros HB1 HB2 Hf1 Hy1 Hf2 Hy2 Hc.
  destruct (conflicting_commits_forgotten_vote B1 B2 j1 j2 y1 y2 HB1 HB2 Hf1 Hy1 Hf2 Hy2 Hc)
    as [x1 [x2 [Hx1 [Hx2 [_ [_ [_ [_ [[_ Hf]|[_ Hf]]]]]]]]]].
  - left. exact (forgotten_gap B1 B2 x1 x2 HB1 HB2 Hx1 Hx2 Hf).
  - right. exact (forgotten_gap B2 B1 x2 x1 HB2 HB1 Hx2 Hx1 Hf).
Qed.

(* gap 0: two epochs committed with the same quality finalize checkpoints of one chain *)
Theorem same_quality_commits_safe B1 B2 j1 j2 y1 y2 :
  finalizing c tree B1 -> finalizing c tree B2 ->
  first_epoch c tree B1 j1 -> block_at tree (b_id B1) (j1 * L) = Some y1 ->
  first_epoch c tree B2 j2 -> block_at tree (b_id B2) (j2 * L) = Some y2 ->
  Qof tree B1 = Qof tree B2 -> conflict tree (b_id y1) (b_id y2) = false.
Proof.
  intros HB1 HB2 Hf1 Hy1 Hf2 Hy2 HQ. destruct (conflict tree (b_id y1) (b_id y2)) eqn:Hc; [|reflexivity].
  destruct (conflicting_commits_gap B1 B2 j1 j2 y1 y2 HB1 HB2 Hf1 Hy1 Hf2 Hy2 Hc); lia.
Qed.

(* any gap: the forgotten vote is the one in the epoch of lower quality and it was cast first ("second vote on the
   lower branch" is a closed case); with a gap of exactly one it was cast while its epoch was not yet justified, and
   the later vote was cast when the other epoch was already justified *)
Theorem conflicting_commits_shape B1 B2 j1 j2 y1 y2 :
  finalizing c tree B1 -> finalizing c tree B2 ->
  first_epoch c tree B1 j1 -> block_at tree (b_id B1) (j1 * L) = Some y1 ->
  first_epoch c tree B2 j2 -> block_at tree (b_id B2) (j2 * L) = Some y2 ->
  conflict tree (b_id y1) (b_id y2) = true -> Qof tree B1 <= Qof tree B2 ->
  exists x1 x2 p2, In x1 (seg tree B1) /\ In x2 (seg tree B2) /\ b_signer x1 = b_signer x2 /\ ~ In (b_signer x1) byz /\
    b_com x1 = true /\ b_com x2 = true /\ before evs x1 x2 /\
    In p2 tree /\ b_id p2 = b_parent x2 /\ qual c tree x1 + 2 <= qual c tree p2 /\
    (Qof tree B2 = Qof tree B1 + 1 -> qual c tree x1 = Qof tree B1 - 1 /\ qual c tree p2 = Qof tree B2).
Proof.
  intros HB1 HB2 Hf1 Hy1 Hf2 Hy2 Hc Hle.
  pose proof (wg_wf c g byz masters _ _ tree_good) as Hwf.
  destruct (conflicting_commits_forgotten_vote B1 B2 j1 j2 y1 y2 HB1 HB2 Hf1 Hy1 Hf2 Hy2 Hc)
    as [x1 [x2 [Hx1 [Hx2 [Hs [Hh [Hc1 [Hc2 [[Hbef Hf]|[_ Hf]]]]]]]]]].
  - destruct Hf as [p2 [Hp2 [Hpid Hq]]]. exists x1, x2, p2. repeat (split; [assumption|]).
    intros HQ. destruct (seg_facts tree B2 Hwf HB2 x2 Hx2) as [Hin [Hxp _]].
    pose proof (parent_qual tree x2 p2 Hwf (chain_incl _ _ _ Hin) Hp2 Hpid Hxp).
    pose proof (seg_qual tree B1 Hwf HB1 x1 Hx1). pose proof (seg_qual tree B2 Hwf HB2 x2 Hx2). lia.
  - pose proof (forgotten_gap B2 B1 x2 x1 HB2 HB1 Hx2 Hx1 Hf). lia.
Qed.
End Main.
End GapRun.
End Gap.
