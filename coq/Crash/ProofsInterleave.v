(* Crash/ProofsInterleave.v — C20: a small-step interleaving semantics.  One importer executes the steps of its imports in
   order (atomic store writes, publications of the in-memory best / finalized pointers); at any moment a reader runs a
   read-only operation: it loads the published pointers, executes the operation's steps and returns its answer.  A trace
   records who moved.  Lemma interleaving_is_prefix: the state after any trace is the state after a prefix of the
   importer's steps (reader events issue no step that changes the state).  Theorems: in EVERY trace, the block a reader
   observed as best (or finalized) is complete in the store at the moment of the observation AND at every later moment
   of the trace (a reader that loads the pointer first and reads the block's data later, while the importer goes on). *)
From Coq Require Import List NArith Bool Lia.
From Verif Require Import Crash.Model Crash.ProofsStore Crash.ProofsInv Crash.ProofsImport Crash.ProofsCrash Crash.ProofsFinalized
  Crash.ProofsReaders.
Import ListNotations.
Open Scope N_scope.

Inductive event :=
| EImp (x : step)                                   (* the importer executes its next step *)
| ERead (q : query) (best fin : N) (a : answer).    (* a reader: the pointers it loaded, the operation, its answer *)

(* configuration: system state + the importer's remaining steps *)
Inductive exec (c : cfg) : sys -> list step -> list event -> sys -> list step -> Prop :=
| ex_nil y todo : exec c y todo [] y todo
| ex_imp y x todo tr y' todo' : exec c (do_step y x) todo tr y' todo' -> exec c y (x :: todo) (EImp x :: tr) y' todo'
| ex_read y todo q tr y' todo' :
    exec c (do_steps y (fst (query_steps c y q))) todo tr y' todo' ->
    exec c y todo (ERead q (y_best y) (y_fin y) (snd (query_steps c y q)) :: tr) y' todo'.

Lemma exec_app c y todo tr1 y1 todo1 tr2 y2 todo2 :
  exec c y todo tr1 y1 todo1 -> exec c y1 todo1 tr2 y2 todo2 -> exec c y todo (tr1 ++ tr2) y2 todo2.
Proof. induction 1; intro H2; simpl; auto; constructor; auto. Qed.

Lemma exec_split c tr1 : forall y todo tr2 y2 todo2, exec c y todo (tr1 ++ tr2) y2 todo2 ->
  exists y1 todo1, exec c y todo tr1 y1 todo1 /\ exec c y1 todo1 tr2 y2 todo2.
Proof.
  induction tr1 as [|e tr1 IH]; intros y todo tr2 y2 todo2 H; simpl in H.
  - exists y, todo. split; [constructor|exact H].
  - inversion H as [|ya xa ta tra yb tb Hx|ya ta qa tra yb tb Hx]; subst.
    + destruct (IH _ _ _ _ _ Hx) as (y1 & t1 & A & B). exists y1, t1. split; [constructor; auto|auto].
    + destruct (IH _ _ _ _ _ Hx) as (y1 & t1 & A & B). exists y1, t1. split; [constructor; auto|auto].
Qed.

Lemma interleaving_is_prefix c y todo tr y' todo' : exec c y todo tr y' todo' ->
  exists k, y' = do_steps y (firstn k todo) /\ todo' = skipn k todo.
Proof.
  induction 1 as [y todo|y x todo tr y' todo' H IH|y todo q tr y' todo' H IH].
  - exists 0%nat. split; reflexivity.
  - destruct IH as (k & E1 & E2). exists (S k). split; auto.
  - destruct IH as (k & E1 & E2). rewrite (proj2 (queries_are_pure c y q)) in E1. exists k. auto.
Qed.

(* ... and every prefix is reached by some interleaving (so the trace theorems below are not about an empty set) *)
Lemma prefix_is_interleaving c y todo k : exec c y todo (map EImp (firstn k todo)) (do_steps y (firstn k todo)) (skipn k todo).
Proof.
  revert y k. induction todo as [|x todo IH]; intros y k; destruct k; simpl; try constructor.
  unfold do_steps. simpl. apply IH.
Qed.

Lemma good_steps_skipn c l : forall s k, good_steps c s l ->
  good_steps c (apply_writes s (writes_of_steps (firstn k l))) (skipn k l).
Proof.
  induction l as [|x l IH]; intros s k H; destruct k; simpl; auto.
  destruct x; simpl in *.
  - destruct H as (_ & _ & H). apply (IH _ k H).
  - destruct H as (_ & H). apply (IH _ k H).
  - destruct H as (_ & H). apply (IH _ k H).
Qed.

Lemma good_steps_stored c l : forall s k id, good_steps c s l -> stored s id = true ->
  stored (apply_writes s (writes_of_steps (firstn k l))) id = true.
Proof.
  induction l as [|x l IH]; intros s k id H Hs; destruct k; simpl; auto.
  destruct x; simpl in *.
  - destruct H as (_ & M & H). apply (IH _ k id H). apply M. auto.
  - destruct H as (_ & H). apply (IH _ k id H Hs).
  - destruct H as (_ & H). apply (IH _ k id H Hs).
Qed.

(* a pointer observed after k1 importer steps names a block that is complete after k2 >= k1 steps *)
Theorem observed_block_stays_complete c s0 hist k1 k2 :
  wf_cfg c -> Inv c s0 -> wf_hist c s0 hist -> (k1 <= k2)%nat ->
  forall b0 f0, stored s0 b0 = true -> stored s0 f0 = true ->
  let y1 := do_steps (mkSys s0 b0 f0) (firstn k1 (steps_of c s0 hist)) in
  let y2 := do_steps (mkSys s0 b0 f0) (firstn k2 (steps_of c s0 hist)) in
  readable (y_store y2) (y_best y1) = true /\ readable (y_store y2) (y_fin y1) = true.
Proof.
  intros Hc I Hw Hk b0 f0 Hb Hf y1 y2.
  set (l := steps_of c s0 hist) in *. set (y0 := mkSys s0 b0 f0) in *.
  assert (G : good_steps c s0 l) by (apply history_good_steps; auto).
  assert (Y0 : sys_inv c y0) by (split; [exact I|split; auto]).
  assert (Y1 : sys_inv c y1) by (apply (good_steps_prefix c l y0 k1); auto).
  assert (Y2 : sys_inv c y2) by (apply (good_steps_prefix c l y0 k2); auto).
  assert (E2 : y_store y2 = apply_writes (y_store y1) (writes_of_steps (firstn (k2 - k1) (skipn k1 l)))).
  { unfold y2, y1. rewrite !do_steps_store. replace k2 with (k1 + (k2 - k1))%nat at 1 by lia.
    rewrite firstn_plus, writes_of_steps_app, apply_writes_app. reflexivity. }
  assert (G1 : good_steps c (y_store y1) (skipn k1 l)).
  { unfold y1. rewrite do_steps_store. apply good_steps_skipn. exact G. }
  destruct Y1 as (_ & Sb & Sf). destruct Y2 as (I2 & _ & _).
  split; apply (Inv_readable c); auto; rewrite E2; apply (good_steps_stored c); auto.
Qed.

(* whatever a reader observed as best / finalized anywhere in ANY trace is complete in the store at the end of the trace
   (the trace may stop right after the observation or go on with any number of importer and reader events) *)
Theorem every_trace_reader_sees_complete c s0 hist b0 f0 tr1 q b f a tr2 y' todo' :
  wf_cfg c -> Inv c s0 -> wf_hist c s0 hist -> stored s0 b0 = true -> stored s0 f0 = true ->
  exec c (mkSys s0 b0 f0) (steps_of c s0 hist) (tr1 ++ ERead q b f a :: tr2) y' todo' ->
  readable (y_store y') b = true /\ readable (y_store y') f = true.
Proof.
  intros Hc I Hw Hb Hf H.
  destruct (exec_split c tr1 _ _ _ _ _ H) as (y1 & t1 & H1 & H2).
  destruct (interleaving_is_prefix c _ _ _ _ _ H1) as (k1 & E1 & T1).
  inversion H2 as [|ya xa ta tra yb tb Hx|ya ta qa tra yb tb H3]; subst.
  rewrite (proj2 (queries_are_pure c _ q)) in H3.
  destruct (interleaving_is_prefix c _ _ _ _ _ H3) as (d & E2 & _).
  set (l := steps_of c s0 hist) in *.
  assert (E : y' = do_steps (mkSys s0 b0 f0) (firstn (k1 + d) l)).
  { rewrite E2. unfold do_steps. rewrite firstn_plus, fold_left_app. reflexivity. }
  rewrite E. apply (observed_block_stays_complete c s0 hist k1 (k1 + d)); auto. lia.
Qed.

Theorem readers_do_not_change_the_state c y todo tr y' todo' : exec c y todo tr y' todo' ->
  exec c y todo (filter (fun e => match e with EImp _ => true | ERead _ _ _ _ => false end) tr) y' todo'.
Proof.
  induction 1 as [y todo|y x todo tr y' todo' H IH|y todo q tr y' todo' H IH]; simpl.
  - constructor.
  - constructor. auto.
  - rewrite (proj2 (queries_are_pure c y q)) in IH. exact IH.
Qed.
