(* Properties/C01.v — the statements of the property, each proved by citing Validation/ProofsPacker.v / ProofsCache.v /
   Compose/ExecSane.v, the cache theorems over whole histories, and Examples that instantiate the hypotheses.
   "Every block the packer produces is accepted, identically, by every validator;
   the verdict and the resulting state depend only on the block and its ancestors."
   Model: Header/Rules.v (Packer.Schedule side: schedule_ctx; validator side: validate_header, validate_proposer),
   Validation/Body.v (Flow.Adopt admission switch, Flow.Pack, Consensus.Process).  Transaction execution, reward hook,
   staker sanity check, the three Merkle roots and the chain lookups are universally quantified Section variables; the
   schedulers are C05's model (Sched/Model.v) and its theorems; the gas-limit functions are the go2v translation. *)
From Coq Require Import List NArith ZArith Bool Lia.
From Verif Require Import Common.Util Common.GoInt Sched.Model Sched.Proofs Gen.GasLimit GenProofs.GasLimitProofs BaseFee.Model
     Header.Rules Header.Proofs Validation.Body Validation.Catalogue Validation.ProofsRules Validation.ProofsPacker
     Validation.Cache Validation.ProofsCache Validation.ExamplesCache.
From Verif Require TxExec.Model TxExec.Proofs Compose.ExecSane.
Import ListNotations.
Open Scope N_scope.

(* 0. packer side of the gas-limit rule, over the go2v translation of block/gas_limit.go: Qualify always lands inside IsValid *)
Theorem gas_limit_packer_valid target parent : u64 target -> u64 parent -> (GasLimitProofs.min_gas_limit <= parent)%Z ->
  GasLimit_IsValid (GasLimit_Qualify target parent) parent = true.
Proof. exact (qualify_is_valid target parent). Qed.

(* 1. proposer turn: the slot Schedule returns is accepted by IsTheTime, for PoA v1, PoA v2 and PoS (C05) *)
Theorem schedule_slot_accepted k hsh pt T cs me mep now fuel t : 0 < T ->
  find_me me (props cs) = Some mep ->
  sched_schedule k hsh pt T cs me now fuel = Some t ->
  sched_is_the_time k hsh pt T cs me t = true.
Proof. exact (sched_schedule_accepted k hsh pt T cs me mep now fuel t). Qed.

Section C01.
  Variable State : Type.
  Variable exec : bctx -> State -> txn -> option (State * receipt).
  Variable apply_updates : bool -> N -> State -> list (N * bool) -> State.
  Variable rewards : bctx -> State -> option State.
  Variable sanity : State -> bool.
  Variable root_of_state : State -> N.
  Variable root_of_receipts : list receipt -> N.
  Variable root_of_txs : list txn -> N.
  Variable has_tx : N -> N -> bool.
  Variable find_meta : N -> option bool.

  Notation process := (process State exec apply_updates rewards sanity root_of_state root_of_receipts root_of_txs has_tx find_meta).
  Notation pack_block := (pack_block State exec apply_updates rewards root_of_state root_of_receipts root_of_txs has_tx find_meta).
  Notation premises := (premises State exec).

  (* 2. for every fork configuration, parent, proposer option set, clock, candidate transaction sequence and vote: the
        block Schedule+Adopt*+Pack produces passes Process on every validator whose clock has reached it, and Process
        returns exactly the packer's final state and receipts.  Premises (named): numbers below the uint64 wrap
        (gas limits < 2^62, block number < 2^32), unique candidate addresses, exec_sane (a receipt uses at most the tx
        gas - C07 -, execution needs a recoverable origin and refuses a tx whose gas exceeds the block gas limit -
        runtime.PrepareTransaction; this is what keeps the uint64 sum gasUsed+tx.Gas() of Flow.Adopt from wrapping),
        crypto round trips, total score grows (see 3 for PoA v2), staker sanity check (PoS; C16) *)
  Theorem packed_block_accepted cfg pv parent po now st0 txs vote sr b stp rcs vnow :
    premises cfg pv parent po -> crypto_roundtrip cfg parent po sr ->
    pack_block cfg pv parent po now st0 txs vote sr = Some (b, stp, rcs) ->
    h_total_score parent < h_total_score (b_header b) ->
    (pv_pos pv = true -> forall ctx stf, rewards ctx stf = Some stp -> sanity stf = true) ->
    h_time (b_header b) <= vnow + c_interval cfg ->
    process cfg pv parent st0 b vnow = Accepted State stp rcs.
  Proof. exact (packed_block_accepted_lemma State exec apply_updates rewards sanity root_of_state root_of_receipts root_of_txs has_tx find_meta cfg pv parent po now st0 txs vote sr b stp rcs vnow). Qed.

  (* 2b. the same with the score premise discharged from premises on the INPUTS: unique candidates, no uint64 wrap of the
         total score, and for PoS the proposer's own weight x 10000 reaching the total weight (pos_weight_premise; without
         it the score rounds to 0 and the packed block IS rejected: pos_score_zero_block_rejected below, finding F14) *)
  Theorem packed_block_accepted_from_inputs cfg pv parent po now st0 txs vote sr b stp rcs vnow :
    premises cfg pv parent po -> crypto_roundtrip cfg parent po sr ->
    pos_weight_premise pv po ->
    h_total_score parent + max_pos_score + N.of_nat (length (pv_cands pv)) < 18446744073709551616 ->
    pack_block cfg pv parent po now st0 txs vote sr = Some (b, stp, rcs) ->
    (pv_pos pv = true -> forall ctx stf, rewards ctx stf = Some stp -> sanity stf = true) ->
    h_time (b_header b) <= vnow + c_interval cfg ->
    process cfg pv parent st0 b vnow = Accepted State stp rcs.
  Proof.
    intros P C W NW Hp Hs Hn.
    destruct (pack_block_score _ _ _ _ _ _ _ _ _ _ _ _ _ _ _ _ _ _ _ _ _ Hp) as (ctx & ups & Hc & E).
    apply (packed_block_accepted cfg pv parent po now st0 txs vote sr b stp rcs vnow P C Hp); [|exact Hs | exact Hn].
    rewrite E. destruct P as [PT _ _ _ PU _]. exact (packer_score_grows cfg pv parent po now ctx ups PT PU W NW Hc).
  Qed.

  (* 3. the verdict does not depend on the validator's clock once the block is not in the future ... *)
  Theorem verdict_independent_of_clock cfg pv parent st0 b now1 now2 :
    h_time (b_header b) <= now1 + c_interval cfg -> h_time (b_header b) <= now2 + c_interval cfg ->
    process cfg pv parent st0 b now1 = process cfg pv parent st0 b now2.
  Proof. exact (verdict_independent_of_clock_lemma State exec apply_updates rewards sanity root_of_state root_of_receipts root_of_txs has_tx find_meta cfg pv parent st0 b now1 now2). Qed.

  (* 4. ... nor on the validators' candidate cache, over whole histories.  Blocks are abstract identifiers; what a fresh
        read of the state after a block gives (all_of / funded_of / mbp_of for PoA, hk_of / leaders_of / leaders_pre for
        PoS) and how the rest of a judgement's inputs depend on the block are arbitrary functions.  A judgement is
        `process` on the view built from the proposer list; the cachers consume the scheduler's updates and the events of
        the accepted block's receipts.  The two named hypotheses of each theorem state that the candidate list / leader
        group changes only through what the cachers watch (Validation/ProofsCache.v):
          PoA  list_changes_only_by_authority_events, selection_changes_only_by_watched_events
          PoS  housekeeping_reports_changes, leaders_change_only_by_watched_events.
        Conclusion: a warm validator that has processed ANY sequence of parent/child pairs (accepted or rejected, any
        branch order), whose cache may lose arbitrary entries between two validations (the LRU bound), returns for every
        block the outcome of a cold validator reading the state.
        Restart, number of stored siblings (`conflicts`) and repetition: `process` has no such input — the model cannot
        express a dependence on them; that the CODE has none is what the cold / warm-again / restarted /
        different-conflicts differential of the harness tests (not a theorem).  scheduler.Seeder's cache is not modelled
        (the seed is data). *)
  Variable Blk : Type.
  Variable blk_eqb : Blk -> Blk -> bool.
  Variable child : Blk -> Blk -> Prop.
  Variable cfg : config.
  Variable parent_hdr : Blk -> header.
  Variable st0_of : Blk -> State.
  Variable block_of : Blk -> block.
  Variable clock_of : Blk -> N.
  Variable events_of : list receipt -> events.

  Definition outcome_and_feedback {P} (view_of : P -> Blk -> pview) (ups_of : P -> Blk -> Blk -> list (N * bool))
             (props : P) (p b : Blk) : outcome State * option (list (N * bool) * events) :=
    let o := process cfg (view_of props p) (parent_hdr p) (st0_of p) (block_of b) (clock_of b) in
    (o, match o with Accepted _ _ rcs => Some (ups_of props p b, events_of rcs) | Rejected _ _ => None end).

  Theorem verdict_independent_of_cache_poa
          all_of funded_of mbp_of hayabusa_of (view_of : list acand -> Blk -> pview) ups_of
          (steps : list ((pcache Blk -> pcache Blk) * (Blk * Blk))) :
    (forall a b, blk_eqb a b = true <-> a = b) ->
    let judge := outcome_and_feedback view_of ups_of in
    (forall p b ups ev, child p b -> snd (judge (poa_fresh Blk all_of funded_of mbp_of p) p b) = Some (ups, ev) ->
        ev_authority ev = false -> all_of b = apply_updates_list (all_of p) ups) ->
    (forall p b ups ev, child p b -> snd (judge (poa_fresh Blk all_of funded_of mbp_of p) p b) = Some (ups, ev) ->
        (hayabusa_of b && ev_staker ev) = false -> ev_params ev = false ->
        (forall a, In a (ev_parties ev) -> existsb (fun c => ac_endorsor c =? a) (all_of p) = false) ->
        (forall c, In c (all_of p) -> funded_of b (ac_master c) (ac_endorsor c) = funded_of p (ac_master c) (ac_endorsor c)) /\
        mbp_of b = mbp_of p) ->
    Forall (fun s => only_loses_p Blk blk_eqb (fst s) /\ child (fst (snd s)) (snd (snd s))) steps ->
    poa_run_lossy Blk blk_eqb (outcome State) all_of funded_of mbp_of hayabusa_of judge [] steps =
    map (fun s => let p := fst (snd s) in let b := snd (snd s) in
                  process cfg (view_of (poa_fresh Blk all_of funded_of mbp_of p) p) (parent_hdr p) (st0_of p) (block_of b) (clock_of b)) steps.
  Proof.
    intros Heq judge HA HF Hs.
    rewrite (poa_run_lossy_is_cold Blk blk_eqb Heq (outcome State) child all_of funded_of mbp_of hayabusa_of judge HA HF steps [] ltac:(intros b e X; discriminate) Hs).
    reflexivity.
  Qed.

  Theorem verdict_independent_of_cache_pos
          hk_of leaders_of leaders_pre (view_of : list cand -> Blk -> pview) ups_of
          (steps : list ((scache Blk -> scache Blk) * (Blk * Blk))) :
    (forall a b, blk_eqb a b = true <-> a = b) ->
    let judge := outcome_and_feedback view_of ups_of in
    (forall p, hk_of p = false -> leaders_of p = leaders_pre p) ->
    (forall p b ev, child p b -> snd (judge (leaders_of p) p b) = Some ([], ev) -> ev_beneficiary_set ev = false ->
        leaders_pre b = leaders_of p) ->
    Forall (fun s => only_loses_s Blk blk_eqb (fst s) /\ child (fst (snd s)) (snd (snd s))) steps ->
    pos_run_lossy Blk blk_eqb (outcome State) hk_of leaders_of judge [] steps =
    map (fun s => let p := fst (snd s) in let b := snd (snd s) in
                  process cfg (view_of (leaders_of p) p) (parent_hdr p) (st0_of p) (block_of b) (clock_of b)) steps.
  Proof.
    intros Heq judge H1 H2 Hs.
    rewrite (pos_run_lossy_is_cold Blk blk_eqb Heq (outcome State) child hk_of leaders_of leaders_pre judge H1 H2 steps [] ltac:(intros b e X; discriminate) Hs).
    reflexivity.
  Qed.
End C01.

(* 4b. scope of the first PoA hypothesis on the code as it is: it holds with two or more listed authority nodes, and fails for a
       sole listed node (authority.Update does not write the flag of an entry with neither Prev nor Next) *)
Theorem poa_hypothesis_scope :
  (forall l ups, length l <> 1%nat -> state_apply_updates l ups = apply_updates_list l ups) /\
  (exists l ups, state_apply_updates l ups <> apply_updates_list l ups).
Proof. exact (conj state_updates_agree sole_node_cache_flag_diverges). Qed.

(* 5. the packer's read of the authority list (authority.Candidates) is the validator's (AllCandidates + Pick) *)
Theorem candidates_reads_agree funded limit l :
  snd (pick (new_candidates l) funded limit) = cands_walk funded limit l 0.
Proof. exact (candidates_eq_all_pick funded limit l). Qed.

(* 6. PoA v2: the packer's score is between 1 and the number of candidates, so the total score grows *)
Theorem poa_v2_score_positive pt T cs me mep t : 0 < T ->
  find_me me (props cs) = Some mep -> is_scheduled pt T (addrs (seq_of me (pks cs))) t me = true ->
  1 <= snd (updates_v2 pt T (seq_of me (pks cs)) mep t) <= N.of_nat (length cs).
Proof. exact (v2_score_positive pt T cs me mep t). Qed.

(* 6b. PoA v1 and PoS scores; the packer's total score grows for all three schedulers from premises on the inputs *)
Theorem poa_v1_score_positive hsh pt T cs me mep t :
  NoDup (map cand_addr cs) -> find_me me (props cs) = Some mep ->
  1 <= snd (updates_v1 hsh pt T (actives_v1 me (props cs)) mep t) <= N.of_nat (length cs).
Proof. exact (v1_score_positive hsh pt T cs me mep t). Qed.

Theorem pos_score_at_least_one pt T cs me mep total t : 0 < T ->
  find_me me (props cs) = Some mep -> is_scheduled pt T (addrs (seq_of me (pks cs))) t me = true ->
  sumN (ProofsUpdates.weights (seq_of me (pks cs))) * max_pos_score < 18446744073709551616 ->
  sumN (ProofsUpdates.weights (seq_of me (pks cs))) <= total -> 0 < total -> total <= p_weight mep * max_pos_score ->
  1 <= snd (updates_pos pt T (seq_of me (pks cs)) mep total t) <= max_pos_score.
Proof. exact (pos_score_positive pt T cs me mep total t). Qed.

Theorem packer_total_score_grows cfg pv parent po now ctx ups :
  0 < c_interval cfg -> NoDup (map cand_addr (pv_cands pv)) -> pos_weight_premise pv po ->
  h_total_score parent + max_pos_score + N.of_nat (length (pv_cands pv)) < 18446744073709551616 ->
  schedule_ctx cfg pv parent po now = Some (ctx, ups) ->
  h_total_score parent < x_total_score ctx.
Proof. exact (packer_score_grows cfg pv parent po now ctx ups). Qed.

(* 4c. the four cache hypotheses instantiated on histories in which list, selection and leader group really change *)
Example cache_hypotheses_hold_on_a_history :
  poa_run N N.eqb (list acand) x_all x_funded x_mbp (fun _ => false) x_judge [] x_steps =
    map (fun pb => poa_fresh N x_all x_funded x_mbp (fst pb)) x_steps /\
  pos_run N N.eqb (list cand) y_hk y_of y_judge [] y_steps = map (fun pb => y_of (fst pb)) y_steps.
Proof. exact (conj poa_cache_hypotheses_instance pos_cache_hypotheses_instance). Qed.
(* (the judge of these histories is a toy that accepts every block and returns the proposer list it was given; the lossy variant is
   instantiated by ExamplesCache.poa_cache_lossy_instance; the `process`-level statements 5 above are not instantiated in-tree) *)

(* ---- non-vacuity: the concrete PoA-v2 parent of Properties/C02.v; the model packer builds a block on it and the
        validator model accepts it with the same state *)
Definition ex_cfg := mkCfg 0 0 0 0 1000 10 39.
Definition ex_parent := mkH 5 1000 10000000 0 0 50 0 1 777 0 (0, 0) false None 146 (Some 11) (Some (0, 0)).
Definition ex_cands := [ mkC (mkP 11 true 0) 2 111 None; mkC (mkP 22 true 0) 1 222 None ].
Definition ex_pv := mkPV false ex_cands 0 (fun _ => 0).
Definition ex_po := mkPO 11 None 20000000 0.
Definition ex_txs := [ mkTx 9001 true false true false 39 4 32 0 0 false 21000 true None;
                       mkTx 9002 true false true false 38 4 32 0 0 false 21000 true None;   (* wrong chain tag: refused *)
                       mkTx 9003 true false true false 39 4 32 0 0 false 30000 true (Some 9001) ].
Definition ex_exec (c : bctx) (st : N) (t : txn) : option (N * receipt) :=
  if t_origin_ok t && (21000 <=? t_gas t) && (t_gas t <=? x_gas_limit c) then Some (st + t_id t, mkRc 21000 false 5) else None.
Definition ex_sr := mkSR 146 (Some 11) (Some (32, 4242)) None.
Definition ex_pack := pack_block N ex_exec (fun _ _ st _ => st) (fun _ st => Some st) (fun st => st)
          (fun rs => N.of_nat (length rs)) (fun ts => N.of_nat (length ts)) (fun _ _ => false) (fun _ => None)
          ex_cfg ex_pv ex_parent ex_po 1003 7 ex_txs true ex_sr.

Example ex_packed :
  exists b, ex_pack = Some (b, 18011, [mkRc 21000 false 5; mkRc 21000 false 5]) /\
            h_time (b_header b) = 1020 /\ h_gas_limit (b_header b) = 10009765 /\ h_total_score (b_header b) = 51 /\
            map t_id (b_txs b) = [9001; 9003] /\
            h_total_score ex_parent < h_total_score (b_header b).
Proof. eexists. split; [vm_compute; reflexivity|]. vm_compute. repeat split; reflexivity. Qed.

Example ex_premises : premises N ex_exec ex_cfg ex_pv ex_parent ex_po /\ crypto_roundtrip ex_cfg ex_parent ex_po ex_sr.
Proof.
  split.
  - constructor.
    + reflexivity.
    + reflexivity.
    + split; [discriminate | reflexivity].
    + reflexivity.
    + constructor; [cbn; intuition discriminate|]. constructor; [cbn; intuition | constructor].
    + intros ctx st t st' r E. unfold ex_exec in E. destruct (t_origin_ok t) eqn:Eo; cbn [andb] in E; [|discriminate].
      destruct (N.leb_spec 21000 (t_gas t)); cbn [andb] in E; [|discriminate].
      destruct (N.leb_spec (t_gas t) (x_gas_limit ctx)); [|discriminate]. inversion E; subst. cbn [r_gas]. auto.
  - split; [reflexivity|]. split; [reflexivity|]. intros _. discriminate.
Qed.

(* ---- PoS after GALACTICA: the theorem (input-premise form) applied to a concrete instance *)
Definition p_cfg := mkCfg 0 0 0 0 3 10 39.
Definition p_parent := mkH 5 1000 10000000 0 7500000 50 0 1 777 0 (0, 0) false (Some 10000000000000) 146 (Some 11) (Some (0, 0)).
Definition p_cands := [ mkC (mkP 11 true 60) 2 111 (Some 555); mkC (mkP 22 true 40) 1 222 None ].
Definition p_pv (total : N) := mkPV true p_cands total (fun _ => 0).
Definition p_pack total := pack_block N ex_exec (fun _ _ st _ => st) (fun _ st => Some st) (fun st => st)
          (fun rs => N.of_nat (length rs)) (fun ts => N.of_nat (length ts)) (fun _ _ => false) (fun _ => None)
          p_cfg (p_pv total) p_parent ex_po 1003 7 ex_txs true ex_sr.
Definition p_process total b now := process N ex_exec (fun _ _ st _ => st) (fun _ st => Some st) (fun _ => true) (fun st => st)
          (fun rs => N.of_nat (length rs)) (fun ts => N.of_nat (length ts)) (fun _ _ => false) (fun _ => None)
          p_cfg (p_pv total) p_parent 7 b now.

Lemma p_premises total : premises N ex_exec p_cfg (p_pv total) p_parent ex_po /\ crypto_roundtrip p_cfg p_parent ex_po ex_sr.
Proof.
  split.
  - constructor.
    + reflexivity.
    + reflexivity.
    + split; [discriminate | reflexivity].
    + reflexivity.
    + constructor; [cbn; intuition discriminate|]. constructor; [cbn; intuition | constructor].
    + destruct ex_premises as [[_ _ _ _ _ PE] _]. exact PE.
  - split; [reflexivity|]. split; [reflexivity|]. intros _. discriminate.
Qed.

Example pos_galactica_packed_block_accepted :
  exists b stp rcs, p_pack 100 = Some (b, stp, rcs) /\ h_base_fee (b_header b) = Some 10000000000000 /\
                    h_beneficiary (b_header b) = 555 /\ forall vnow, 1020 <= vnow + 10 -> p_process 100 b vnow = Accepted N stp rcs.
Proof.
  eexists. eexists. eexists. split; [vm_compute; reflexivity|]. split; [reflexivity|]. split; [reflexivity|].
  intros vnow Hn. destruct (p_premises 100) as [P C].
  eapply (packed_block_accepted_from_inputs N ex_exec _ _ (fun _ => true) _ _ _ _ _ p_cfg (p_pv 100) p_parent ex_po 1003 7 ex_txs true ex_sr);
    [exact P | exact C | | reflexivity | vm_compute; reflexivity | intros; reflexivity | exact Hn].
  intros _ mep Hf. vm_compute in Hf. inversion Hf; subst mep. vm_compute. repeat split; (reflexivity || discriminate).
Qed.

(* ---- the PoS corner the weight premise excludes: online weight x 10000 < total weight => score 0 => the packer's block
        does not raise the total score and validators REJECT it, every other premise holding (refutes the statement
        without pos_weight_premise; replayed on the real packer / consensus by the harness: known finding F14) *)
Example pos_score_zero_block_rejected :
  exists b stp rcs, p_pack 100000000 = Some (b, stp, rcs) /\ h_total_score (b_header b) = h_total_score p_parent /\
                    p_process 100000000 b 2000 = Rejected N (Critical 5) /\
                    premises N ex_exec p_cfg (p_pv 100000000) p_parent ex_po /\ crypto_roundtrip p_cfg p_parent ex_po ex_sr.
Proof.
  eexists. eexists. eexists. split; [vm_compute; reflexivity|]. split; [reflexivity|]. split; [vm_compute; reflexivity|].
  exact (p_premises 100000000).
Qed.

Print Assumptions gas_limit_packer_valid.
Print Assumptions schedule_slot_accepted.
Print Assumptions packed_block_accepted.
Print Assumptions verdict_independent_of_clock.
Print Assumptions verdict_independent_of_cache_poa.
Print Assumptions verdict_independent_of_cache_pos.
Print Assumptions candidates_reads_agree.
Print Assumptions poa_hypothesis_scope.
Print Assumptions poa_v2_score_positive.
Print Assumptions packed_block_accepted_from_inputs.
Print Assumptions packer_total_score_grows.
Print Assumptions poa_v1_score_positive.
Print Assumptions pos_score_at_least_one.
Print Assumptions pos_galactica_packed_block_accepted.
Print Assumptions pos_score_zero_block_rejected.
Print Assumptions p_premises.
Print Assumptions cache_hypotheses_hold_on_a_history.

(* ================================================================ composition *)
(* C01 <-> C07 (Compose/ExecSane.v).  The abstract `exec` of theorem 2 instantiated with C07's model of the transaction
   wrapper (TxExec.Model.exec_tx: ResolveTransaction / PrepareTransaction / ExecuteTransaction over a clause oracle), the
   fields C01's transaction view shares with C07's record being taken from the view (ExecSane.full, ExecSane.env_of).
   exec_sane then FOLLOWS from C07's gas_bounds, and theorem 2 holds with that premise removed; what is left assumed about
   execution is C07's single assumption on the EVM (oracle_ok: a clause hands back at most the gas it was given). *)
Section Composition.
  Variables W O : Type.
  Variable clause_result : TxExec.Model.env -> TxExec.Model.txn -> nat -> Z -> TxExec.Model.state W -> TxExec.Model.cres W O.
  Variable write_credit : Z -> Z -> Z -> W -> W.
  Variable tx_rest : txn -> TxExec.Model.txn.
  Variable env_rest : bctx -> TxExec.Model.state W -> TxExec.Model.env.
  Variable credit_of : bctx -> TxExec.Model.state W -> txn -> TxExec.Model.credit_info.
  Variable digest : TxExec.Model.receipt O -> N.
  Notation exec_c07 := (ExecSane.exec_of_c07 W O clause_result write_credit tx_rest env_rest credit_of digest).

  (* 7. exec_sane for C07's wrapper *)
  Theorem exec_sane_from_c07 : TxExec.Proofs.oracle_ok W O clause_result -> exec_sane (TxExec.Model.state W) exec_c07.
  Proof. exact (ExecSane.exec_of_c07_sane W O clause_result write_credit tx_rest env_rest credit_of digest). Qed.

  Variable apply_updates : bool -> N -> TxExec.Model.state W -> list (N * bool) -> TxExec.Model.state W.
  Variable rewards : bctx -> TxExec.Model.state W -> option (TxExec.Model.state W).
  Variable sanity : TxExec.Model.state W -> bool.
  Variable root_of_state : TxExec.Model.state W -> N.
  Variable root_of_receipts : list receipt -> N.
  Variable root_of_txs : list txn -> N.
  Variable has_tx : N -> N -> bool.
  Variable find_meta : N -> option bool.

  (* 8. theorem 2 without the premise exec_sane *)
  Theorem packed_block_accepted_c07 cfg pv parent po now st0 txs vote sr b stp rcs vnow :
    TxExec.Proofs.oracle_ok W O clause_result ->
    ExecSane.premises_rest cfg pv parent po -> crypto_roundtrip cfg parent po sr ->
    pack_block (TxExec.Model.state W) exec_c07 apply_updates rewards root_of_state root_of_receipts root_of_txs has_tx find_meta
               cfg pv parent po now st0 txs vote sr = Some (b, stp, rcs) ->
    h_total_score parent < h_total_score (b_header b) ->
    (pv_pos pv = true -> forall ctx stf, rewards ctx stf = Some stp -> sanity stf = true) ->
    h_time (b_header b) <= vnow + c_interval cfg ->
    process (TxExec.Model.state W) exec_c07 apply_updates rewards sanity root_of_state root_of_receipts root_of_txs has_tx find_meta
            cfg pv parent st0 b vnow = Accepted (TxExec.Model.state W) stp rcs.
  Proof. exact (ExecSane.packed_block_accepted_c07 W O clause_result write_credit tx_rest env_rest credit_of digest apply_updates rewards sanity root_of_state root_of_receipts root_of_txs has_tx find_meta cfg pv parent po now st0 txs vote sr b stp rcs vnow). Qed.
End Composition.

(* non-vacuity of 7: C07's example oracle inside the packer; one transaction adopted (gas used 169921 of 200000), one refused by
   the pre-checks, one by ResolveTransaction (gas below intrinsic gas); the validator accepts by theorem 8 *)
Example packed_block_accepted_c07_example :
  exists b stp rcs,
    ExecSane.x_pack = Some (b, stp, rcs) /\ map t_id (b_txs b) = [9001] /\ map r_gas rcs = [169921] /\ snd stp = 2%Z /\
    h_gas_used (b_header b) = 169921 /\
    ExecSane.x_process b 1020 = Accepted (TxExec.Model.state Z) stp rcs.
Proof. exact ExecSane.x_packed_and_accepted. Qed.

Print Assumptions exec_sane_from_c07.
Print Assumptions packed_block_accepted_c07.
Print Assumptions packed_block_accepted_c07_example.
