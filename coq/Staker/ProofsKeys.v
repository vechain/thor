(* Staker/ProofsKeys.v — the validation map never holds two entries for one address (every write goes through upd), hence the
   sum of the stored weights is the sum over the leader group. *)
From Coq Require Import List NArith Bool Lia.
From Coq Require Import ZifyBool.
From Verif Require Import Common.Util Staker.Model Staker.Base Staker.Lists Staker.Inv Staker.RList Staker.Inv2
  Staker.ProofsStep Staker.ProofsUser Staker.ProofsUser2 Staker.ProofsHist Staker.Held Staker.ProofsEpoch Staker.ProofsAll Staker.ProofsCustody
  Staker.Footprint.
Import ListNotations.
Open Scope N_scope.

Opaque e18 two64.

Definition KU (s : st) : Prop := NoDup (map fst (vals s)).

Lemma upd_keys {V} (m : list (N * V)) k v : map fst (upd m k v) = if is_some (get m k) then map fst m else map fst m ++ [k].
Proof.
  induction m as [|[k0 v0] t IH]; cbn; [reflexivity|]. destruct (k0 =? k) eqn:E; cbn.
  - apply N.eqb_eq in E. subst. reflexivity.
  - rewrite IH. destruct (is_some (get t k)); reflexivity.
Qed.

Lemma get_none_notin {V} (m : list (N * V)) k : get m k = None -> ~ In k (map fst m).
Proof.
  induction m as [|[k0 v0] t IH]; cbn; [tauto|]. destruct (k0 =? k) eqn:E; [discriminate|]. apply N.eqb_neq in E.
  intros H [H1|H1]; [congruence|apply IH; auto].
Qed.

Lemma nodup_upd {V} (m : list (N * V)) k v : NoDup (map fst m) -> NoDup (map fst (upd m k v)).
Proof.
  intros H. rewrite upd_keys. destruct (get m k) eqn:E; cbn; auto.
  apply nodup_snoc; auto. apply get_none_notin, E.
Qed.

Lemma vupd_KU s s' : vupd s s' -> KU s -> KU s'.
Proof. unfold KU. intros H. induction H; intros K; [rewrite H; auto|rewrite H0; apply nodup_upd; auto]. Qed.
Lemma vupd_money s s' : money_only s s' -> vupd s s'.
Proof. intros [q [wd [cd [e [b ->]]]]]. apply vu_same. reflexivity. Qed.

Lemma run_op_vupd c o s s' x : run_op c o s = Ok (s', x) -> vupd s s'.
Proof.
  intros E. destruct o; try apply (proj2 (user_op_quiet c _ s s' x E I)); cbn [run_op] in E.
  - rewrite <- (proj2 (answer_ok c s OBlock s' x E)). apply (proj2 (block_quiet c s)).
  - bstep E u G. apply vu_same. symmetry.
    unfold add_delegation in E. bstep E u1 G1. bstep E u2 G2. bstep E v Hv. bstep E u3 G3. bstep E u4 G4. bstep E u5 G5. bstep E cur Hc. bstep E s2 Hp. bstep E u6 G6.
    inversion E; subst s' x; clear E. unfold aggs_add_pending in Hp. bstep Hp pw Hpw. destruct pw as [pv pw]. inversion Hp; subst s2; clear Hp.
    destruct (v_status v =? StatusActive); [rewrite (rl_add_only a _)|]; reflexivity.
  - apply vu_same. symmetry. unfold signal_delegation_exit in E. destruct (get (dels s) id) as [d|]; [|discriminate].
    bstep E u1 G1. bstep E u2 G2. bstep E v Hv. bstep E stt Hst. bstep E u3 G3. bstep E en Hen. bstep E u4 G4. bstep E cur Hc.
    bstep E s2 Hp. inversion E; subst s' x; clear E. unfold aggs_signal_exit in Hp. bstep Hp ew Hew. destruct ew as [ev ew]. inversion Hp; subst s2; clear Hp.
    destruct (v_status v =? StatusActive); [rewrite (rl_add_only _ _)|]; reflexivity.
  - bstep E r Hr. destruct r as [s1 y]. bstep E s2 Hp. inversion E; subst s2 y.
    eapply vupd_trans; [|apply vupd_money, (mo_pay_out _ _ _ Hp)]. apply vu_same.
    unfold withdraw_delegation in Hr. destruct (get (dels s) id) as [d|]; [|discriminate].
    bstep Hr v Hv. bstep Hr stt Hst. bstep Hr fi Hfi. bstep Hr u1 G1. bstep Hr sb Hb. bstep Hr u2 G2. inversion Hr; subst s1 x; clear Hr.
    destruct (negb stt && negb (v_status v =? StatusExit)).
    + bstep Hb sa Ha. unfold aggs_sub_pending in Ha. bstep Ha pw Hpw. destruct pw as [pv pw]. inversion Ha; subst sa; clear Ha.
      unfold remove_queued in Hb. bstep Hb q Hq. inversion Hb; subst. reflexivity.
    + unfold remove_withdrawable in Hb. bstep Hb q Hq. inversion Hb; subst. reflexivity.
Qed.

Theorem KU_step c s o : KU s -> KU (step c s o).
Proof. intros K. unfold step. destruct (run_op c o s) as [[s' x]| |] eqn:E; auto. apply (vupd_KU s s'); auto. eapply run_op_vupd; eauto. Qed.

Theorem KU_hist c d m ops : KU (run c (init d m) ops).
Proof.
  assert (G : forall s, KU s -> KU (run c s ops)).
  { induction ops as [|o t IH]; intros s K; cbn; auto. apply IH. apply KU_step; auto. }
  apply G. constructor.
Qed.

Definition fget {V} (f : V -> N) (m : list (N * V)) (k : N) : N := match get m k with Some v => f v | None => 0 end.

Lemma sumN_app l1 l2 : sumN (l1 ++ l2) = sumN l1 + sumN l2.
Proof. induction l1; cbn; lia. Qed.

Lemma sumf_by_keys {V} (f : V -> N) (m : list (N * V)) : NoDup (map fst m) -> sumf f m = sumN (map (fget f m) (map fst m)).
Proof.
  induction m as [|[k v] t IH]; cbn [map fst sumf sumN]; intros H; [reflexivity|]. inversion H; subst.
  unfold fget at 1. cbn [get]. rewrite N.eqb_refl. f_equal. rewrite IH by auto.
  f_equal. apply map_ext_in. intros k' Hk'. unfold fget. cbn [get]. destruct (k =? k') eqn:E; auto.
  apply N.eqb_eq in E. subst. contradiction.
Qed.

Lemma sumN_all_zero (g : N -> N) ks : (forall k, In k ks -> g k = 0) -> sumN (map g ks) = 0.
Proof. induction ks as [|k r IH]; cbn; intros H; auto. rewrite (H k (or_introl eq_refl)), IH; auto. Qed.

Lemma sum_over_subset (g : N -> N) ks : forall la, NoDup ks -> NoDup la -> (forall a, In a la -> In a ks) ->
  (forall k, In k ks -> ~ In k la -> g k = 0) -> sumN (map g ks) = sumN (map g la).
Proof.
  intros la. revert ks. induction la as [|a t IH]; intros ks Hk Hl Hsub Hz.
  - cbn. apply sumN_all_zero. intros k Hk'. apply Hz; auto.
  - destruct (in_split a ks (Hsub a (or_introl eq_refl))) as [k1 [k2 ->]]. inversion Hl; subst.
    rewrite map_app, sumN_app. cbn [map sumN]. rewrite <- (IH (k1 ++ k2)).
    + rewrite map_app, sumN_app. lia.
    + apply NoDup_remove_1 in Hk. auto.
    + auto.
    + intros x Hx. specialize (Hsub x (or_intror Hx)). apply in_app_iff in Hsub as [?|[?|?]]; [apply in_or_app; auto|subst; contradiction|apply in_or_app; auto].
    + intros k Hkin Hn. apply Hz; [apply in_app_iff in Hkin as [?|?]; apply in_or_app; [left|right; right]; auto|].
      intros [->|Hx]; [|contradiction]. apply NoDup_remove_2 in Hk. contradiction.
Qed.

Lemma map_snd_by_fst (g : N -> N) (ws : list (N * N)) la :
  map fst ws = la -> (forall a w, In (a, w) ws -> w = g a) -> map snd ws = map g la.
Proof.
  revert la. induction ws as [|[a w] t IH]; intros la Hm Hw; cbn in *; subst; [reflexivity|]. cbn. f_equal.
  - apply (Hw a w). auto.
  - apply IH; auto.
Qed.

Theorem total_weight_is_leader_sum s la lq ws :
  KU s -> Full s la lq -> leader_weights s = Ok ws -> g_lw s = sumN (map snd ws).
Proof.
  intros K [Hwf _ _ H2] Hws.
  destruct (leader_weights_spec s la lq Hwf) as [ws' [E [Hm Hw]]]. rewrite E in Hws. inversion Hws; subst ws'. clear Hws E.
  rewrite (j_lw _ H2), (sumf_by_keys v_weight (vals s) K).
  rewrite (map_snd_by_fst (fget v_weight (vals s)) ws la Hm).
  - apply sum_over_subset; auto.
    + apply (wl_nodup _ _ _ (wf_a _ _ _ Hwf)).
    + intros a Ha. destruct (seg_in_get _ _ _ _ _ _ (wl_seg _ _ _ (wf_a _ _ _ Hwf)) Ha) as [v Hv].
      apply (get_some_in_keys _ _ _ Hv).
    + intros k _ Hn. unfold fget. destruct (get (vals s) k) as [v|] eqn:Ev; auto.
      apply (j_w0 _ H2 k v Ev). intros Hs. apply Hn. apply (wf_st _ _ _ Hwf k v Ev). auto.
  - intros a w Hin. destruct (Hw a w Hin) as [v [Hv <-]]. unfold fget. unfold getv in Hv. rewrite Hv. reflexivity.
Qed.

Theorem total_weight_is_leader_sum_hist c d m ops ws :
  leader_weights (run c (init d m) ops) = Ok ws -> g_lw (run c (init d m) ops) = sumN (map snd ws).
Proof.
  destruct (history_FullInv c d m ops) as [la [lq HF]]. apply (total_weight_is_leader_sum _ la lq); auto. apply KU_hist.
Qed.
