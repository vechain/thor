(* State/ProofsJournal.v — the journal of the stacked map (what Stage replays): it is consistent with the per-level
   maps the getters read, and its storage entries carry the barrier that was current when they were written. *)
From Coq Require Import List NArith Bool Arith Lia.
From Verif Require Import State.StackedMap State.Assoc State.ProofsSM State.Model.
Import ListNotations.
Open Scope N_scope.

Lemma skey_eqb_spec a b : skey_eqb a b = true <-> a = b.
Proof.
  destruct a, b; cbn; try (split; intros E; discriminate).
  - rewrite N.eqb_eq. split; intros E; [subst|inversion E]; auto.
  - rewrite N.eqb_eq. split; intros E; [subst|inversion E]; auto.
  - rewrite !andb_true_iff, !N.eqb_eq. split; [intros [[-> ->] ->]; auto|intros E; inversion E; auto].
  - rewrite N.eqb_eq. split; intros E; [subst|inversion E]; auto.
Qed.

Definition entry := (skey * sval)%type.

Fixpoint jlast (k : skey) (J : list entry) : option sval :=
  match J with
  | [] => None
  | (k', v) :: t =>
    match jlast k t with
    | Some x => Some x
    | None => if skey_eqb k k' then Some v else None
    end
  end.

Lemma jlast_app k J1 : forall J2, jlast k (J1 ++ J2) = match jlast k J2 with Some x => Some x | None => jlast k J1 end.
Proof.
  induction J1 as [|[k' v] J1 IH]; cbn; intros J2.
  - destruct (jlast k J2); auto.
  - rewrite IH. destruct (jlast k J2); auto.
Qed.

Lemma jlast_snoc k J k' v : jlast k (J ++ [(k', v)]) = if skey_eqb k k' then Some v else jlast k J.
Proof. rewrite jlast_app. cbn. destruct (skey_eqb k k'); auto. Qed.

Definition wt (e : entry) : Prop :=
  match e with
  | (KAcc _, VAcc _) | (KCode _, VCode _ _) | (KStor _ _ _, VRaw _) | (KBar _, VBar _) => True
  | _ => False
  end.

Definition jbar (J : list entry) (a : N) : N := match jlast (KBar a) J with Some (VBar b) => b | _ => 0 end.

(* what may be appended to a journal J: well typed, storage at the current barrier, a barrier bump by one *)
Definition ok_entry (J : list entry) (k : skey) (v : sval) : Prop :=
  wt (k, v) /\
  match k, v with
  | KStor a b _, _ => b = jbar J a
  | KBar a, VBar b => b = jbar J a + 1
  | _, _ => True
  end.

Inductive journal_ok : list entry -> Prop :=
| journal_ok_nil : journal_ok []
| journal_ok_snoc J k v : journal_ok J -> ok_entry J k v -> journal_ok (J ++ [(k, v)]).

Lemma journal_ok_prefix J1 : forall J2, journal_ok (J1 ++ J2) -> journal_ok J1.
Proof.
  intros J2; induction J2 as [|e J2 IH] using rev_ind; intros H.
  - rewrite app_nil_r in H; auto.
  - rewrite app_assoc in H. inversion H as [Q|J k v HJ Hok Q].
    + symmetry in Q. apply app_eq_nil in Q. destruct Q as [_ Q]. discriminate.
    + apply app_inj_tail in Q. destruct Q as [Q _]. subst J. auto.
Qed.

(* several entries in a row, each admissible after the ones before it *)
Fixpoint oks (J : list entry) (ps : list entry) : Prop :=
  match ps with
  | [] => True
  | e :: t => ok_entry J (fst e) (snd e) /\ oks (J ++ [e]) t
  end.

Lemma journal_ok_app ps : forall J, journal_ok J -> oks J ps -> journal_ok (J ++ ps).
Proof.
  induction ps as [|[k v] ps IH]; cbn; intros J HJ H; [rewrite app_nil_r; auto|].
  destruct H as [H1 H2]. change (J ++ (k, v) :: ps) with (J ++ [(k, v)] ++ ps). rewrite app_assoc.
  apply IH; auto. constructor; auto.
Qed.

Lemma jbar_snoc J k v a : ok_entry J k v ->
  jbar (J ++ [(k, v)]) a = match k with KBar a' => if a' =? a then jbar J a + 1 else jbar J a | _ => jbar J a end.
Proof.
  intros [W O]. unfold jbar. rewrite jlast_snoc.
  destruct k; cbn [skey_eqb]; auto.
  rewrite (N.eqb_sym a a0). destruct (a0 =? a) eqn:E; auto.
  apply N.eqb_eq in E; subst. destruct v; cbn in W; try contradiction. cbn in O. subst. reflexivity.
Qed.

(* no storage entry above the current barrier *)
Lemma journal_ok_no_future J : journal_ok J -> forall a b k, jbar J a < b -> jlast (KStor a b k) J = None.
Proof.
  induction 1 as [|J k0 v0 HJ IH Hok]; intros a b k Hb; [reflexivity|].
  rewrite jbar_snoc in Hb by auto.
  rewrite jlast_snoc. destruct (skey_eqb (KStor a b k) k0) eqn:E.
  - apply skey_eqb_spec in E; subst k0. destruct Hok as [_ O]. cbn in O. lia.
  - apply IH. destruct k0; try lia. destruct (a0 =? a); lia.
Qed.

Lemma journal_ok_wt J : journal_ok J -> forall k v, jlast k J = Some v -> wt (k, v).
Proof.
  induction 1 as [|J k0 v0 HJ IH Hok]; intros k v H; [discriminate|].
  rewrite jlast_snoc in H. destruct (skey_eqb k k0) eqn:E; auto.
  apply skey_eqb_spec in E; subst. inversion H; subst. apply Hok.
Qed.

Local Notation new_level := (new_level skey sval).
Local Notation aget := (aget skey sval skey_eqb).
Local Notation afind := (afind skey sval skey_eqb).

Definition putf (e : entry) (top : level skey sval) : level skey sval :=
  mkLevel (assoc_set skey skey_eqb (fst e) (snd e) (kvs top)) (journal top ++ [e]).

Definition level_ok (l : level skey sval) : Prop := forall k, assoc skey skey_eqb k (kvs l) = jlast k (journal l).

Lemma level_ok_new : level_ok new_level.
Proof. intros k; reflexivity. Qed.

Lemma level_ok_putf l e : level_ok l -> level_ok (putf e l).
Proof.
  intros H k'. destruct e as [k v]. cbn [putf kvs journal fst snd]. rewrite jlast_snoc.
  destruct (skey_eqb k' k) eqn:E.
  - apply skey_eqb_spec in E; subst. apply (assoc_set_same skey skey_eqb skey_eqb_spec).
  - rewrite (assoc_set_other skey skey_eqb skey_eqb_spec); auto.
    intros ->. rewrite (keqb_refl skey skey_eqb skey_eqb_spec) in E; discriminate.
Qed.

Definition jof (L : list (level skey sval)) : list entry := flat_map journal L.

Lemma jof_app L1 L2 : jof (L1 ++ L2) = jof L1 ++ jof L2.
Proof. unfold jof. apply flat_map_app. Qed.

Lemma jof_snoc L l : jof (L ++ [l]) = jof L ++ journal l.
Proof. rewrite jof_app. cbn. rewrite app_nil_r. reflexivity. Qed.

Lemma jlast_jof L : Forall level_ok L -> forall k, jlast k (jof L) = afind k (rev L).
Proof.
  induction L as [|l L IH] using rev_ind; intros H k; [reflexivity|].
  apply Forall_app in H. destruct H as [HL Hl]. inversion Hl; subst.
  rewrite jof_snoc, rev_unit. cbn [ProofsSM.afind].
  rewrite jlast_app. rewrite <- (H1 k). rewrite IH by auto.
  destruct (assoc skey skey_eqb k (kvs l)); auto.
Qed.

(* reading a plain stack is reading its journal *)
Lemma aget_jlast g L k : Forall level_ok L -> aget g L k = match jlast k (jof L) with Some v => v | None => g k end.
Proof. intros H. unfold ProofsSM.aget. rewrite jlast_jof by auto. reflexivity. Qed.

Definition putsf (ps : list entry) (top : level skey sval) : level skey sval := fold_left (fun t e => putf e t) ps top.

(* the reading function after one Put *)
Definition rput (rd : skey -> sval) (e : entry) : skey -> sval :=
  fun k => if skey_eqb (fst e) k then snd e else rd k.

Lemma aget_putsf g rest ps : forall top k,
  aget g (rest ++ [putsf ps top]) k = fold_left rput ps (aget g (rest ++ [top])) k.
Proof.
  assert (P1 : forall e top k, aget g (rest ++ [putf e top]) k = rput (aget g (rest ++ [top])) e k).
  { intros [k v] top k'. unfold ProofsSM.aget, rput. rewrite !rev_unit. cbn [ProofsSM.afind putf kvs fst snd].
    destruct (skey_eqb k k') eqn:E.
    - apply skey_eqb_spec in E; subst. rewrite (assoc_set_same skey skey_eqb skey_eqb_spec). reflexivity.
    - rewrite (assoc_set_other skey skey_eqb skey_eqb_spec); auto.
      intros ->. rewrite (keqb_refl skey skey_eqb skey_eqb_spec) in E; discriminate. }
  assert (Ext : forall ps r1 r2, (forall k, r1 k = r2 k) -> forall k, fold_left rput ps r1 k = fold_left rput ps r2 k).
  { clear. induction ps as [|e ps IH]; cbn; intros r1 r2 H k; auto. apply IH. intros k'. unfold rput. rewrite H. reflexivity. }
  induction ps as [|e ps IH]; cbn [putsf fold_left]; intros top k; auto.
  fold (putsf ps (putf e top)). rewrite IH. apply Ext. apply P1.
Qed.

Lemma aget_push g L k : aget g (L ++ [new_level]) k = aget g L k.
Proof. unfold ProofsSM.aget. rewrite rev_unit. reflexivity. Qed.

Lemma journal_putsf ps : forall top, journal (putsf ps top) = journal top ++ ps.
Proof.
  induction ps as [|e ps IH]; cbn [putsf fold_left]; intros top; [rewrite app_nil_r; auto|].
  fold (putsf ps (putf e top)). rewrite IH. cbn [putf journal]. rewrite <- app_assoc. reflexivity.
Qed.

Lemma level_ok_putsf ps : forall top, level_ok top -> level_ok (putsf ps top).
Proof. induction ps as [|e ps IH]; cbn [putsf fold_left]; intros top H; auto. apply IH, level_ok_putf, H. Qed.
