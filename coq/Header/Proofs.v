(* Header/Proofs.v — the header rule chain accepts exactly the headers that satisfy the declarative header rules. *)
From Coq Require Import List NArith ZArith Bool Lia.
From Coq Require Import ZifyN.
From Verif Require Import GenProofs.GasLimitProofs BaseFee.Model Header.Rules.
Import ListNotations.
Open Scope N_scope.

Definition two64 : N := 18446744073709551616.

(* the gas-limit rule, through the theorem over the generated translation; 1000000 is thor.MinGasLimit and 1024 is
   thor.GasLimitBoundDivisor (GasLimitProofs.min_gas_limit, bound_divisor) *)
Lemma gas_limit_valid_iff gl p : gl < two64 -> p < two64 ->
  gas_limit_valid gl p = true <->
  1000000 <= gl /\ gl <= p + p / 1024 /\ p <= gl + p / 1024.
Proof.
  intros Hg Hp. unfold gas_limit_valid, two64 in *.
  rewrite is_valid_spec by (unfold u64; lia).
  unfold GasLimitProofs.min_gas_limit, bound_divisor.
  assert (E : (Z.of_N p / 1024)%Z = Z.of_N (p / 1024)) by (rewrite N2Z.inj_div; reflexivity).
  rewrite E. generalize (p / 1024). intros q. lia.
Qed.

Definition R_sig_pre (cfg : config) (parent h : header) : Prop :=
  h_number parent + 1 < c_vip214 cfg -> fst (h_alpha h) = 0 /\ h_sig_len h = 65.
Definition R_sig_post (cfg : config) (parent h : header) : Prop :=
  c_vip214 cfg <= h_number parent + 1 ->
  h_sig_len h = 146 /\
  (exists pb, h_beta parent = Some pb /\ h_alpha h = (if fst pb =? 0 then (32, h_state_root parent) else pb)) /\
  h_beta h <> None.

Lemma bytes_eqb_eq a b : bytes_eqb a b = true <-> a = b.
Proof.
  destruct a as [a1 a2], b as [b1 b2]. unfold bytes_eqb. cbn [fst snd].
  rewrite andb_true_iff, !N.eqb_eq. split; [intros [-> ->]; reflexivity | intros E; inversion E; auto].
Qed.

Lemma sig_alpha_iff cfg parent h :
  sig_alpha_check cfg parent h = None <-> R_sig_pre cfg parent h /\ R_sig_post cfg parent h.
Proof.
  unfold sig_alpha_check, R_sig_pre, R_sig_post, expected_alpha, bytes_empty.
  destruct (N.ltb_spec (h_number parent + 1) (c_vip214 cfg)) as [Hl|Hl].
  - destruct (N.eqb_spec (fst (h_alpha h)) 0) as [Ha|Ha]; cbn [negb].
    + destruct (N.eqb_spec (h_sig_len h) 65) as [Hs|Hs]; cbn [negb].
      * split; [intros _; split; [auto | intros; lia] | auto].
      * split; [discriminate | intros [H _]; destruct (H Hl); contradiction].
    + split; [discriminate | intros [H _]; destruct (H Hl); contradiction].
  - destruct (N.eqb_spec (h_sig_len h) 146) as [Hs|Hs]; cbn [negb].
    + destruct (h_beta parent) as [pb|] eqn:Epb.
      * destruct (bytes_eqb (h_alpha h) _) eqn:Eb; cbn [negb].
        -- apply bytes_eqb_eq in Eb. destruct (h_beta h) eqn:Ebh.
           ++ split; [intros _ | reflexivity]. split; [intros; lia|].
              intros _. split; [assumption|]. split; [exists pb; split; [reflexivity | assumption] | discriminate].
           ++ split; [discriminate | intros [_ H]; destruct (H Hl) as (_ & _ & C); contradiction].
        -- split; [discriminate|]. intros [_ H]. destruct (H Hl) as (_ & (pb' & E1 & E2) & _).
           inversion E1; subst pb'. apply bytes_eqb_eq in E2. unfold bytes in *. rewrite E2 in Eb. discriminate.
      * split; [discriminate|]. intros [_ H]. destruct (H Hl) as (_ & (pb' & E1 & _) & _). discriminate.
    + split; [discriminate | intros [_ H]; destruct (H Hl) as (C & _); contradiction].
Qed.

Definition R_base_fee (cfg : config) (parent h : header) : Prop :=
  (h_number parent + 1 < c_galactica cfg -> h_base_fee h = None) /\
  (c_galactica cfg <= h_number parent + 1 ->
     exists bf, h_base_fee h = Some bf /\ base_fee_nil_deref cfg parent = false /\
                expected_base_fee cfg parent = BfFee (Z.of_N bf)).

Lemma base_fee_check_iff cfg parent h : base_fee_check cfg parent h = Accept <-> R_base_fee cfg parent h.
Proof.
  unfold base_fee_check, R_base_fee.
  destruct (N.ltb_spec (h_number parent + 1) (c_galactica cfg)) as [Hg|Hg].
  - destruct (h_base_fee h) as [bf|] eqn:Eb.
    + split; [discriminate|]. intros (C & _). specialize (C Hg). discriminate.
    + split; [intros _ | reflexivity]. split; [auto | intros; lia].
  - destruct (h_base_fee h) as [bf|] eqn:Eb.
    + destruct (base_fee_nil_deref cfg parent) eqn:En.
      { split; [discriminate|]. intros (_ & C). destruct (C Hg) as (bf' & _ & C' & _). discriminate. }
      destruct (expected_base_fee cfg parent) as [|e|] eqn:Ee.
      * split; [discriminate|]. intros (_ & C). destruct (C Hg) as (bf' & _ & _ & C'). discriminate.
      * destruct (Z.eqb_spec (Z.of_N bf) e) as [Eq|Ne].
        -- split; [intros _ | reflexivity]. split; [intros; lia|]. intros _. exists bf. subst e. auto.
        -- split; [discriminate|]. intros (_ & C). destruct (C Hg) as (bf' & E1 & _ & C').
           inversion E1; subst bf'. inversion C'. congruence.
      * split; [discriminate|]. intros (_ & C). destruct (C Hg) as (bf' & _ & _ & C'). discriminate.
    + split; [discriminate|]. intros (_ & C). destruct (C Hg) as (bf' & C' & _). discriminate.
Qed.

Definition header_rules (cfg : config) (parent h : header) (now : N) : Prop :=
  h_time parent < h_time h /\
  (h_time h - h_time parent) mod c_interval cfg = 0 /\
  h_time h <= now + c_interval cfg /\
  h_gas_used h <= h_gas_limit h /\
  h_total_score parent < h_total_score h /\
  (1000000 <= h_gas_limit h /\ h_gas_limit h <= h_gas_limit parent + h_gas_limit parent / 1024 /\
   h_gas_limit parent <= h_gas_limit h + h_gas_limit parent / 1024) /\
  R_sig_pre cfg parent h /\ R_sig_post cfg parent h /\
  (h_number parent + 1 < c_finality cfg -> h_com h = false) /\
  R_base_fee cfg parent h.

(* one rule of the chain: the verdict is Accept iff the check passes and the rest accepts *)
Lemma guard (b : bool) (bad rest : verdict) (P Q : Prop) :
  bad <> Accept -> (b = false <-> P) -> (rest = Accept <-> Q) -> ((if b then bad else rest) = Accept <-> P /\ Q).
Proof. intros N HP HQ. rewrite <- HP, <- HQ. destruct b; [split; [contradiction|intros [? _]; discriminate]|tauto]. Qed.

Lemma guard_opt (o : option N) (rest : verdict) (P Q : Prop) :
  (o = None <-> P) -> (rest = Accept <-> Q) -> (match o with Some r => Critical r | None => rest end = Accept <-> P /\ Q).
Proof. intros HP HQ. rewrite <- HP, <- HQ. destruct o; [split; [discriminate|intros [? _]; discriminate]|tauto]. Qed.

Theorem validate_header_accept_iff cfg parent h now :
  h_gas_limit h < two64 -> h_gas_limit parent < two64 ->
  validate_header cfg parent h now = Accept <-> header_rules cfg parent h now.
Proof.
  intros Wg Wp. unfold validate_header, header_rules. cbv zeta.
  apply guard; [discriminate|apply N.leb_gt|].
  apply guard; [discriminate|rewrite negb_false_iff; apply N.eqb_eq|].
  apply guard; [discriminate|apply N.ltb_ge|].
  apply guard; [discriminate|apply N.ltb_ge|].
  apply guard; [discriminate|apply N.leb_gt|].
  apply guard; [discriminate|rewrite negb_false_iff; apply (gas_limit_valid_iff _ _ Wg Wp)|].
  rewrite <- and_assoc. apply guard_opt; [apply sig_alpha_iff|].
  apply guard; [discriminate| |apply base_fee_check_iff].
  destruct (N.ltb_spec (h_number parent + 1) (c_finality cfg)) as [L|L], (h_com h); cbn; split; auto; try discriminate; intros _ C; lia.
Qed.
