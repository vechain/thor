(* Compose/CrashBft.v — C13/C20 <-> C03/C04: the key-value store of the crash model (Crash/Model.v) seen as a node of the
   BFT model (Bft/Model.v).  Part 1: the abstraction and the agreement of the two models' decision functions.

   The two models describe the same code from two sides.  Crash: the store is a write log, a block carries the OUTCOME of
   the vote tally of its round as data (b_just / b_comm, stored in the summary), chains are walked through parent links
   with fuel, ids are the 32-byte ids (number = id / 2^224).  Bft: a node is the list of stored blocks (newest first), a
   block carries its signer and COM bit and the tally is computed (compute_state), chains are computed by one structural
   pass over the list, ids are compressed to number * 2^32 + rank.

   * the id bridge: a translation [tr] of the ids that occur (domain [D]) that keeps the block number
     (idnum (tr a) = num_of a) and the order (hence is injective) — what the C04 harness does when it hands compressed ids to
     the oracle.  No total function N -> N has these properties (2^224 ids per number against 2^32), hence the domain;
     [tr_small] below is the instance for ids whose low 224 bits are below 2^32 (all ids of Crash/Examples.v).
   * signer and COM bit of a block are not part of the crash model: they are two more data functions [sg], [cm] of the id.
   * [abs c bc ... s] is the Bft node read off a store: the stored summaries in the order of their first insertion, the
     best pointer, the finalized record (genesis when absent), the quality records of the stored blocks; casts and the
     Justified() cache empty (what NewEngine leaves).
   * [view] / [refines] is the abstraction as a relation that only reads the store through [get] (so it is invariant under
     Crash's store equivalence [eqv], unlike the function, which reads the log order): the repository holds exactly the
     stored summaries and is well formed, same best, same finalized, same quality records.
   * [flags_ok] / [flags_are_tallies]: the coupling hypothesis — the justified / committed flags the crash side carries as
     data ARE the Bft tally (compute_state) of the block over the stored blocks.
   * agreement lemmas (under [view], Crash's [Inv], [wf_cfg]): [anc_block_at] (fuelled parent walk = block_at on the
     structural chain), [quality_agree] (quality_of = s_q (compute_state)), [bsearch_agree] (the two sort.Search definitions
     differ only when the fuel runs out, and with the fuel both callers pass it never does: pure arithmetic, no invariant
     needed), [find_agree] (find_checkpoint = find_cp, error codes forgotten), [accepts_agree], [select_agree].
   Part 2 (below, same section): [commit_sim] (CommitBlock), [import_sim] (one import: same outcome class, the new store refines
   the new node), [restart_sim] / [crash_image_restart_sim] (restart of an uncut store is Bft's restart; restart of ANY crash
   image, F6 repair included, is the Bft node before or after the interrupted import; [crash_restart_sim]: the same at any cut
   of a history), [run_sim], [genesis_sim], [resume_sim]
   (through Crash's resume_converges), the abstraction function ([abs_refines], [abs_import_step]: it commutes with import),
   the transfers of C04 / C03 theorems ([sim_quality_from_scratch], [run_node_ok], [sim_function_of_set], [run_fin_trace])
   the premises stated once for a history ([ids_ok], [flags_hist] with its checker, [hist_ok_intro]) and, in section
   FromGenesis, the statements Properties/C13.v restates.  [tr_small]: an instance of the id bridge. *)
From Coq Require Import List NArith ZArith Bool Lia.
From Coq Require Import ZifyN ZifyNat ZifyBool.
From Verif Require Import Crash.Model Crash.ProofsStore Crash.ProofsInv Crash.ProofsImport Crash.ProofsCrash
  Crash.ProofsEqv Crash.ProofsShape Crash.ProofsResumeAll Crash.ProofsFinalized Crash.ProofsQuality.
From Verif Require Bft.Tree Bft.Model Bft.ProofsTally Bft.ProofsChain Bft.ProofsNode Bft.ProofsOrder Bft.ProofsMonotone
  Bft.ProofsSafety Bft.ProofsOrder2 Bft.ProofsOrder3 Compose.BftFacts.
Import ListNotations.
Open Scope N_scope.

Module BT := Verif.Bft.Tree.
Module BM := Verif.Bft.Model.
Module BY := Verif.Bft.ProofsTally.
Module BC := Verif.Bft.ProofsChain.
Module BN := Verif.Bft.ProofsNode.
Module BO := Verif.Bft.ProofsOrder.
Module BMo := Verif.Bft.ProofsMonotone.
Module BS := Verif.Bft.ProofsSafety.
Module BO3 := Verif.Bft.ProofsOrder3.
Module BF := Verif.Compose.BftFacts.

Inductive rel_res {A B} (R : A -> B -> Prop) : option A -> BM.res B -> Prop :=
| rr_ok a b : R a b -> rel_res R (Some a) (BM.Ok b)
| rr_err e : rel_res R None (BM.Err e).

Lemma rel_res_some {A B} (R : A -> B -> Prop) a r : rel_res R (Some a) r -> exists b, r = BM.Ok b /\ R a b.
Proof. intros H. inversion H; subst. eauto. Qed.
Lemma rel_res_none {A B} (R : A -> B -> Prop) r : rel_res R None r -> exists e, r = @BM.Err B e.
Proof. intros H. inversion H; subst. eauto. Qed.

(* sort.Search: Crash's definition answers None, Bft's answers the lower bound, when the fuel runs out inside the loop.
   With more fuel than the width of the interval neither happens (each round removes at least one index). *)
Lemma bsearch_agree (f : N -> option bool) (g : N -> BM.res bool) :
  (forall h, rel_res eq (f h) (g h)) ->
  forall fuel i j, (N.to_nat (j - i) < fuel)%nat -> rel_res eq (bsearch fuel f i j) (BM.bsearch fuel g i j).
Proof.
  intros H. induction fuel as [|k IH]; intros i j Hf; [lia|].
  cbn [bsearch BM.bsearch]. destruct (i <? j) eqn:E; [|constructor; reflexivity].
  apply N.ltb_lt in E.
  assert (Hh : i <= (i + j) / 2 /\ (i + j) / 2 < j).
  { split; [apply N.div_le_lower_bound; lia | apply N.div_lt_upper_bound; lia]. }
  destruct (H ((i + j) / 2)) as [a b <- | e]; [|constructor].
  destruct a; apply IH; lia.
Qed.

Lemma block_at_unknown R id n : BT.known R id = false -> BT.block_at R id n = None.
Proof. intros H. unfold BT.block_at. rewrite (BC.chain_of_unknown R id H). reflexivity. Qed.

Lemma block_at_unfold R id x n : BT.wf_repo R -> BT.find_blk R id = Some x ->
  BT.block_at R id n = if BT.b_num x =? n then Some x else if BT.b_num x <? n then None
                       else BT.block_at R (BT.b_parent x) n.
Proof.
  intros Hwf Hf. destruct (BC.chain_of_known R Hwf id x Hf) as [t [Ht Hg]].
  unfold BT.block_at at 1. rewrite Ht. unfold BT.at_num. cbn [find].
  destruct (BT.b_num x =? n) eqn:E1; [reflexivity|]. apply N.eqb_neq in E1.
  destruct (BT.b_num x <? n) eqn:E2.
  - apply N.ltb_lt in E2. destruct (find (fun b => BT.b_num b =? n) t) as [y|] eqn:Ey; [|reflexivity].
    destruct (find_some _ _ Ey) as [Hin Hn]. apply N.eqb_eq in Hn.
    pose proof (BC.grounded_nums x t Hg y Hin). lia.
  - apply N.ltb_ge in E2. rewrite (BF.chain_of_cons R id x Hwf Hf) in Ht by lia. injection Ht as <-. reflexivity.
Qed.

(* the flags of summarize do not read the parent quality: it rides along AddBlock untouched *)
Definition with_pq (q : N) (js : BM.justifier) : BM.justifier :=
  BM.mkJ q (BM.j_tv js) (BM.j_tw js) (BM.j_votes js) (BM.j_com js) (BM.j_comw js) (BM.j_jw js).

Lemma add_block_pq q js s com w : BM.add_block (with_pq q js) s com w = with_pq q (BM.add_block js s com w).
Proof.
  unfold BM.add_block, with_pq. cbn [BM.j_pq BM.j_tv BM.j_tw BM.j_votes BM.j_com BM.j_comw BM.j_jw].
  destruct (BM.lookup_vote (BM.j_votes js) s) as [prev|]; [destruct (eqb (BM.v_com prev) com)|]; reflexivity.
Qed.

Lemma tally_flags_pq bc pq pq' seg :
  BM.s_just (BM.summarize (BM.tally bc pq seg)) = BM.s_just (BM.summarize (BM.tally bc pq' seg)) /\
  BM.s_comm (BM.summarize (BM.tally bc pq seg)) = BM.s_comm (BM.summarize (BM.tally bc pq' seg)).
Proof.
  assert (E : BM.tally bc pq seg = with_pq pq (BM.tally bc pq' seg)).
  { unfold BM.tally. change (BM.new_js pq (BM.thr_votes bc) (BM.thr_weight bc))
      with (with_pq pq (BM.new_js pq' (BM.thr_votes bc) (BM.thr_weight bc))).
    generalize (BM.new_js pq' (BM.thr_votes bc) (BM.thr_weight bc)) as js.
    induction seg as [|x l IH]; intros js; [reflexivity|]. cbn [fold_left]. unfold BM.add_blk at 2 4.
    rewrite add_block_pq. apply IH. }
  rewrite E. split; reflexivity.
Qed.

Lemma state_flags_qs bc qs qs' ch :
  BM.s_just (BM.state_of_chain bc qs ch) = BM.s_just (BM.state_of_chain bc qs' ch) /\
  BM.s_comm (BM.state_of_chain bc qs ch) = BM.s_comm (BM.state_of_chain bc qs' ch).
Proof.
  unfold BM.state_of_chain. destruct ch as [|b t]; [split; reflexivity|].
  destruct (BT.b_num b =? 0); [split; reflexivity|]. apply tally_flags_pq.
Qed.

(* a block that is not x's parent is not on x's chain, and the flags do not read the quality records *)
Lemma flags_fresh bc B R qs qs' x : BT.b_id B <> BT.b_parent x ->
  BM.s_just (BM.compute_state bc (B :: R) qs' x) = BM.s_just (BM.compute_state bc R qs x) /\
  BM.s_comm (BM.compute_state bc (B :: R) qs' x) = BM.s_comm (BM.compute_state bc R qs x).
Proof. intros Hne. unfold BM.compute_state. rewrite BC.chain_of_fresh by exact Hne. apply state_flags_qs. Qed.

(* the engine CommitBlock leaves (import path: isPacking = false, F1 guard) *)
Lemma commit_block_fst bc r e b :
  fst (BM.commit_block true bc r e b false) =
  let st := BM.compute_state bc r (BM.e_qs e) b in
  if BM.storepoint (BM.c_L bc) (BT.b_num b) =? BT.b_num b then
    let qs' := (BT.b_id b, BM.s_q st) :: BM.e_qs e in
    let e1 := BM.mkE (BM.e_master e) (BM.e_fin e) qs' (BM.e_casts e) (BM.e_jc e) in
    if BM.s_comm st && (1 <? BM.s_q st) && (BT.idnum (BM.e_fin e) <? BM.checkpoint (BM.c_L bc) (BT.b_num b)) then
      match BM.find_cp bc r qs' (BM.s_q st - 1) (BM.e_fin e) (BT.b_id b) with
      | BM.Ok id => BM.mkE (BM.e_master e) id qs' (BM.e_casts e) (BM.e_jc e)
      | BM.Err _ => e1
      end
    else e1
  else e.
Proof.
  unfold BM.commit_block. cbv zeta. destruct (BM.storepoint (BM.c_L bc) (BT.b_num b) =? BT.b_num b).
  - cbn [negb orb]. destruct (BM.s_comm _ && (1 <? BM.s_q _) && _).
    + destruct (BM.find_cp _ _ _ _ _ _) as [id|code]; [reflexivity|]. destruct (code =? 0); reflexivity.
    + reflexivity.
  - destruct e; reflexivity.
Qed.

Definition no_summary_put (o : op) : Prop := forall i v, o <> Put (KSummary i) v.

Lemma summary_ids_frame w : forall s, (forall o, In o w -> no_summary_put o) -> summary_ids (apply_batch s w) = summary_ids s.
Proof.
  induction w as [|o w IH]; intros s H; [reflexivity|].
  rewrite apply_batch_cons, IH by (intros o' Ho'; apply H; right; exact Ho').
  pose proof (H o (or_introl eq_refl)) as Ho. destruct o as [[]|]; try reflexivity. contradiction (Ho _ _ eq_refl).
Qed.

Lemma summary_ids_frame_writes ws : forall s, (forall w o, In w ws -> In o w -> no_summary_put o) ->
  summary_ids (apply_writes s ws) = summary_ids s.
Proof.
  induction ws as [|w ws IH]; intros s H; [reflexivity|].
  rewrite apply_writes_cons, IH by (intros w' o Hw' Ho; apply (H w' o); [right; exact Hw' | exact Ho]).
  apply summary_ids_frame. intros o Ho. apply (H w o); [left; reflexivity | exact Ho].
Qed.

Lemma aux_no_summary w o : aux_batch w -> In o w -> no_summary_put o.
Proof. intros H Ho i v E. specialize (H o Ho). subst o. discriminate H. Qed.

Lemma bulk_summary_ids s b conf ab : ~ In (b_id b) (summary_ids s) ->
  summary_ids (apply_batch s (block_bulk b conf ab)) = b_id b :: summary_ids s.
Proof.
  intros Hn. unfold block_bulk. rewrite !apply_batch_app.
  rewrite summary_ids_frame by (intros o Ho; destruct ab; [destruct Ho as [<-|[]]; intros i v E; discriminate E | destruct Ho]).
  cbn [apply_batch fold_left summary_ids].
  rewrite summary_ids_frame.
  2:{ intros o Ho. apply in_map_iff in Ho. destruct Ho as (it & <- & _). intros i v E. discriminate E. }
  rewrite summary_ids_frame.
  2:{ intros o Ho. apply in_flat_map in Ho. destruct Ho as (it & _ & Ho). cbn in Ho.
      destruct Ho as [<-|[<-|[<-|[]]]]; intros i v E; discriminate E. }
  destruct (existsb (N.eqb (b_id b)) (summary_ids s)) eqn:Ex; [|reflexivity].
  apply existsb_exists in Ex. destruct Ex as (x & Hx & E). apply N.eqb_eq in E. subst x. contradiction.
Qed.

Lemma summary_ids_pre s b ab : ~ In (b_id b) (summary_ids s) ->
  summary_ids (apply_writes s (pre_writes s b ab)) = b_id b :: summary_ids s.
Proof.
  intros Hn. rewrite s3_eq. rewrite bulk_summary_ids.
  - f_equal. apply summary_ids_frame_writes. intros w o Hw Ho. eapply aux_no_summary; [|exact Ho]. apply (s2_aux s b). exact Hw.
  - rewrite summary_ids_frame_writes; [exact Hn|]. intros w o Hw Ho. eapply aux_no_summary; [|exact Ho]. apply (s2_aux s b). exact Hw.
Qed.

Lemma summary_ids_commit c s0 s id parent just comm :
  summary_ids (apply_writes s (writes_of_steps (commit_steps c s0 id parent just comm))) = summary_ids s.
Proof.
  apply summary_ids_frame_writes. intros w o Hw Ho.
  destruct (commit_writes_keys _ _ _ _ _ _ _ _ Hw Ho) as [X|X]; intros i v E; subst o; discriminate X.
Qed.

Lemma summary_ids_main c s b ab : main_case c s b ab -> ~ In (b_id b) (summary_ids s) ->
  summary_ids (run1 c s b) = b_id b :: summary_ids s.
Proof.
  intros M Hn. unfold run1. rewrite (main_case_batches c s b ab M), apply_writes_app. unfold commit_writes.
  rewrite summary_ids_commit. apply summary_ids_pre. exact Hn.
Qed.

(* every id the enumeration lists is (still) stored: no summary is ever deleted or overwritten by another kind of value *)
Definition ids_stored (s : store) : Prop := forall i, In i (summary_ids s) -> stored s i = true.

Section Bridge.
Variable c : cfg.                      (* Crash: epoch length, genesis id *)
Variable bc : BM.cfg.                  (* Bft: epoch length, thresholds, weights *)
Hypothesis HcL : BM.c_L bc = c_L c.
Variable tr : N -> N.                  (* id translation *)
Variable D : N -> Prop.                (* the ids it is used on *)
Hypothesis tr_num : forall a, D a -> BT.idnum (tr a) = num_of a.
Hypothesis tr_lt : forall a b, D a -> D b -> (tr a <? tr b) = (a <? b).
Variables (sg : N -> N) (cm : N -> bool).   (* signer and COM bit of the block with a given id: data the crash model does not carry *)
Variable master : N.

Lemma tr_inj a b : D a -> D b -> tr a = tr b -> a = b.
Proof.
  intros Ha Hb E. pose proof (tr_lt a b Ha Hb) as H1. pose proof (tr_lt b a Hb Ha) as H2.
  rewrite E in H1. rewrite E in H2. rewrite N.ltb_irrefl in H1, H2.
  symmetry in H1, H2. apply N.ltb_ge in H1, H2. lia.
Qed.

Lemma tr_eqb a b : D a -> D b -> (tr a =? tr b) = (a =? b).
Proof.
  intros Ha Hb. destruct (N.eqb_spec a b) as [->|Hne]; [apply N.eqb_refl|].
  apply N.eqb_neq. intros E. apply Hne. apply tr_inj; assumption.
Qed.

Definition ablk_of (id parent score : N) : BT.blk := BT.mkB (tr id) (tr parent) (sg id) (cm id) score.
Definition ablk (b : blk) : BT.blk := ablk_of (b_id b) (b_parent b) (b_score b).
Definition asum (id : N) (sm : summary) : BT.blk := ablk_of id (s_parent sm) (s_score sm).

Lemma asum_summary_of b conf : asum (b_id b) (summary_of b conf) = ablk b.
Proof. reflexivity. Qed.

Lemma ablk_of_num id parent score : D id -> BT.b_num (ablk_of id parent score) = num_of id.
Proof. exact (tr_num id). Qed.

Lemma asum_num id sm : D id -> BT.b_num (asum id sm) = num_of id.
Proof. apply ablk_of_num. Qed.

Definition abs_repo (s : store) : BT.repo :=
  flat_map (fun id => match get_summary s id with Some sm => [asum id sm] | None => [] end) (summary_ids s).
Definition abs_qs (s : store) : list (N * N) :=
  map (fun id => (tr id, get_quality s id)) (filter (stored s) (summary_ids s)).
Definition best_of (s : store) : N := match get_id s KBest with Some b => b | None => c_g c end.
Definition abs (s : store) : BM.node :=
  BM.mkN (abs_repo s) (tr (best_of s)) (BM.mkE master (tr (finalized c s)) (abs_qs s) None None).

Definition dom (s : store) : Prop := forall id, stored s id = true -> D id.

Record view (s : store) (R : BT.repo) (qs : list (N * N)) : Prop := mkView {
  v_find : forall id, D id -> BT.find_blk R (tr id) = option_map (asum id) (get_summary s id);
  v_in : forall x, In x R -> exists id sm, get_summary s id = Some sm /\ x = asum id sm;
  v_qs : forall id, D id -> BM.get_q qs (tr id) = get_quality s id;
  v_wf : BT.wf_repo R;
  v_inv : Inv c s;
  v_dom : dom s }.

Record refines (s : store) (nd : BM.node) : Prop := mkRef {
  rf_view : view s (BM.n_repo nd) (BM.e_qs (BM.n_eng nd));
  rf_best : exists best, get_id s KBest = Some best /\ BM.n_best nd = tr best;
  rf_fin : BM.e_fin (BM.n_eng nd) = tr (finalized c s) }.

(* the coupling: the flags stored with every block are the Bft tally of that block over the stored blocks *)
Definition flags_ok (s : store) (nd : BM.node) : Prop :=
  forall id sm, get_summary s id = Some sm ->
    let st := BM.compute_state bc (BM.n_repo nd) (BM.e_qs (BM.n_eng nd)) (asum id sm) in
    s_just sm = BM.s_just st /\ s_comm sm = BM.s_comm st.
Definition flags_are_tallies (s : store) : Prop := flags_ok s (abs s).

(* ... and of a block about to be imported *)
Definition blk_flags_ok (nd : BM.node) (b : blk) : Prop :=
  let st := BM.compute_state bc (BM.n_repo nd) (BM.e_qs (BM.n_eng nd)) (ablk b) in
  b_just b = BM.s_just st /\ b_comm b = BM.s_comm st.

(* the relation reads the store through the summaries, the quality records and the invariant only *)
Lemma view_ext s s' R qs qs' : (forall i, get_summary s' i = get_summary s i) ->
  (forall i, D i -> BM.get_q qs' (tr i) = get_quality s' i) -> Inv c s' -> view s R qs -> view s' R qs'.
Proof.
  intros S Q I' [Hf Hi _ Hw _ Hd]. constructor; [| |exact Q | exact Hw | exact I' |].
  - intros id Hid. rewrite S. auto.
  - intros x Hx. destruct (Hi x Hx) as (id & sm & H1 & H2). exists id, sm. rewrite S. auto.
  - intros id H. apply Hd. unfold stored in *. rewrite S in H. exact H.
Qed.

Lemma na_view s s' R qs : eqv_na s s' -> Inv c s' -> view s R qs -> view s' R qs.
Proof.
  intros En I' V. apply (view_ext s s' R qs qs); [intro i; symmetry; apply na_get_summary; auto | | exact I' | exact V].
  intros id Hid. rewrite <- (na_get_quality s s' En). exact (v_qs _ _ _ V id Hid).
Qed.

Lemma eqv_view s s' R qs : eqv s s' -> view s R qs -> view s' R qs.
Proof.
  intros E V. pose proof (eqv_eqv_na _ _ E) as En. apply (na_view s s' R qs En); [|exact V].
  eapply Inv_ext; [| | | | |exact (v_inv _ _ _ V)].
  - intros k _ H. unfold has in *. rewrite <- (E k). exact H.
  - intro i. symmetry. apply na_get_summary; auto.
  - unfold get_id. rewrite (E KBest). reflexivity.
  - unfold get_id. rewrite (E KFinalized). reflexivity.
  - intro id. unfold has. rewrite (E (KQuality id)). reflexivity.
Qed.

Lemma na_refines s s' nd : eqv_na s s' -> Inv c s' -> refines s nd -> refines s' nd.
Proof.
  intros En I' [V (best & Hb & Eb) F]. constructor.
  - exact (na_view s s' _ _ En I' V).
  - exists best. rewrite <- (na_get_id s s' En) by reflexivity. auto.
  - rewrite <- (na_finalized s s' En). exact F.
Qed.

Lemma eqv_refines s s' nd : eqv s s' -> refines s nd -> refines s' nd.
Proof.
  intros E Rf. apply (na_refines s s' nd (eqv_eqv_na _ _ E)); [|exact Rf].
  exact (v_inv _ _ _ (eqv_view s s' _ _ E (rf_view _ _ Rf))).
Qed.

Lemma eqv_flags_ok s s' nd : eqv s s' -> flags_ok s nd -> flags_ok s' nd.
Proof.
  intros E H id sm Hs. apply H. rewrite (na_get_summary s s' (eqv_eqv_na _ _ E)). exact Hs.
Qed.

Section View.
Variables (s : store) (R : BT.repo) (qs : list (N * N)).
Hypothesis V : view s R qs.
Hypothesis Hc : wf_cfg c.

Lemma view_known id : D id -> BT.known R (tr id) = stored s id.
Proof. intros Hd. unfold BT.known, stored. rewrite (v_find _ _ _ V id Hd). destruct (get_summary s id); reflexivity. Qed.

Lemma parent_dom id sm : get_summary s id = Some sm -> 0 < num_of id ->
  stored s (s_parent sm) = true /\ num_of (s_parent sm) + 1 = num_of id /\ D (s_parent sm).
Proof.
  intros E Hn. destruct (inv_blocks c s (v_inv _ _ _ V) id sm E) as (_ & _ & _ & [[_ H0]|[Hp Hnum]]); [lia|].
  repeat split; auto. apply (v_dom _ _ _ V). exact Hp.
Qed.

(* the fuelled walk over parent links and the lookup on the structural chain find the same block *)
Lemma ancestor_block_at : forall fuel id n, D id -> (N.to_nat (num_of id - n) <= fuel)%nat ->
  option_map tr (ancestor fuel s id n) = option_map BT.b_id (BT.block_at R (tr id) n).
Proof.
  (* whatever the fuel: an unknown id ends both walks; a stored block answers by its number, and only a block above n goes on *)
  induction fuel as [|f IH]; intros id n Hd Hf; cbn [ancestor];
    pose proof (v_find _ _ _ V id Hd) as F; destruct (get_summary s id) as [sm|] eqn:E; cbn [option_map] in F;
    try (rewrite block_at_unknown; [reflexivity|]; unfold BT.known; rewrite F; reflexivity);
    rewrite (block_at_unfold R (tr id) _ n (v_wf _ _ _ V) F), (asum_num id sm Hd);
    (destruct (num_of id =? n) eqn:E1; [reflexivity|]); (destruct (num_of id <? n) eqn:E2; [reflexivity|]);
    apply N.eqb_neq in E1; apply N.ltb_ge in E2.
  - lia.
  - destruct (parent_dom id sm E ltac:(lia)) as (Hp & Hnum & Hdp).
    change (BT.b_parent (asum id sm)) with (tr (s_parent sm)). apply IH; [exact Hdp | lia].
Qed.

Lemma anc_block_at id n : D id -> option_map tr (anc s id n) = option_map BT.b_id (BT.block_at R (tr id) n).
Proof. intros Hd. unfold anc. apply ancestor_block_at; [exact Hd | lia]. Qed.

Lemma anc_some id n a : D id -> anc s id n = Some a ->
  exists x, BT.block_at R (tr id) n = Some x /\ BT.b_id x = tr a /\ stored s a = true /\ D a /\ num_of a = n.
Proof.
  intros Hd Ha. pose proof (anc_block_at id n Hd) as H. rewrite Ha in H. cbn in H.
  destruct (BT.block_at R (tr id) n) as [x|]; [|discriminate]. cbn in H. inversion H as [Hx].
  destruct (anc_stored _ _ _ _ Ha) as [Hs Hn]. exists x. repeat split; auto. apply (v_dom _ _ _ V). exact Hs.
Qed.

Lemma anc_none id n : D id -> anc s id n = None -> BT.block_at R (tr id) n = None.
Proof.
  intros Hd Ha. pose proof (anc_block_at id n Hd) as H. rewrite Ha in H. cbn in H.
  destruct (BT.block_at R (tr id) n); [discriminate | reflexivity].
Qed.

Lemma checkpoint_eq L n : BM.checkpoint L n = checkpoint L n.
Proof. reflexivity. Qed.
Lemma storepoint_eq L n : BM.storepoint L n = storepoint L n.
Proof. reflexivity. Qed.

(* computeState(...).Quality: the crash side adds the flag it carries to the record of the previous round's store point, the
   Bft side computes the tally; they agree as soon as the flag is the tally's *)
Lemma quality_agree id parent score just : D id -> D parent ->
  (num_of id = 0 \/ (stored s parent = true /\ num_of parent + 1 = num_of id)) ->
  just = BM.s_just (BM.compute_state bc R qs (ablk_of id parent score)) ->
  quality_of c s parent (num_of id) just = Some (BM.s_q (BM.compute_state bc R qs (ablk_of id parent score))).
Proof.
  intros Hd Hdp Hcase Hj. pose proof Hc as [_ HL].
  set (B := ablk_of id parent score) in *.
  assert (HnB : BT.b_num B = num_of id) by exact (ablk_of_num id parent score Hd).
  unfold BM.compute_state, BM.state_of_chain in *. rewrite HnB in *.
  destruct (num_of id =? 0) eqn:E0.
  - apply N.eqb_eq in E0. cbn in Hj. subst just. unfold quality_of. rewrite E0. rewrite N.div_0_l by lia. reflexivity.
  - apply N.eqb_neq in E0. destruct Hcase as [H0|[Hp Hnum]]; [lia|].
    rewrite BY.summarize_quality, BY.tally_pq. rewrite <- Hj.
    unfold quality_of, BM.parent_quality. rewrite HnB, HcL.
    destruct (num_of id / c_L c =? 0) eqn:Ed; [destruct just; reflexivity|].
    apply N.eqb_neq in Ed.
    pose proof (checkpoint_le (c_L c) (num_of id) HL) as Hle. pose proof (checkpoint_pos (c_L c) (num_of id) HL Ed) as Hpos.
    change (BM.checkpoint (c_L c) (num_of id)) with (checkpoint (c_L c) (num_of id)).
    destruct (anc_total c s parent (checkpoint (c_L c) (num_of id) - 1) Hc (v_inv _ _ _ V) Hp ltac:(lia)) as (qid & Hq).
    rewrite Hq. destruct (anc_some parent _ qid Hdp Hq) as (x & Hx & Hxid & Hsq & Hdq & _).
    unfold BT.at_num. cbn [find]. rewrite HnB.
    assert (E1 : (num_of id =? checkpoint (c_L c) (num_of id) - 1) = false) by (apply N.eqb_neq; lia). rewrite E1.
    change (BT.b_parent B) with (tr parent).
    change (find (fun b => BT.b_num b =? checkpoint (c_L c) (num_of id) - 1) (BT.chain_of R (tr parent)))
      with (BT.block_at R (tr parent) (checkpoint (c_L c) (num_of id) - 1)).
    rewrite Hx, Hxid, (v_qs _ _ _ V qid Hdq). destruct just; cbn [b2n]; f_equal; lia.
Qed.

Lemma quality_at_agree head m : D head ->
  rel_res eq (match anc s head m with Some id => Some (get_quality s id) | None => None end) (BM.quality_at R qs (tr head) m).
Proof.
  intros Hd. unfold BM.quality_at. destruct (anc s head m) as [a|] eqn:Ea.
  - destruct (anc_some head m a Hd Ea) as (x & Hx & Hxid & _ & Hda & _). rewrite Hx, Hxid. constructor.
    symmetry. apply (v_qs _ _ _ V). exact Hda.
  - rewrite (anc_none head m Hd Ea). constructor.
Qed.

Lemma find_agree t fin head : D fin -> D head ->
  rel_res (fun a b => b = tr a) (find_checkpoint c s t fin head) (BM.find_cp bc R qs t (tr fin) (tr head)).
Proof.
  intros Hdf Hdh. unfold find_checkpoint, BM.find_cp. cbv zeta. rewrite (tr_num fin Hdf), (tr_num head Hdh), HcL.
  destruct (num_of head <? num_of fin); [constructor|].
  change (BM.storepoint (c_L c)) with (storepoint (c_L c)).
  pose proof (fun m => quality_at_agree head m Hdh) as G.
  match goal with |- rel_res _ (match bsearch ?fu ?f 0 ?n with _ => _ end) (match BM.bsearch _ ?g 0 _ with _ => _ end) =>
    assert (B : rel_res eq (bsearch fu f 0 n) (BM.bsearch fu g 0 n)) end.
  { apply bsearch_agree; [|rewrite N.sub_0_r; apply PeanoNat.Nat.lt_succ_diag_r]. intro h. cbv beta. destruct (G (storepoint (c_L c) (num_of fin + h * c_L c))) as [a b <-|e]; constructor.
    reflexivity. }
  destruct B as [idx idx' <- | e]; [|constructor].
  destruct (idx =? _); [constructor|].
  destruct (G (storepoint (c_L c) (num_of fin + idx * c_L c))) as [x x' <- | e]; [|constructor].
  destruct (x =? t); cbn [negb]; [|constructor].
  destruct (anc s head (num_of fin + idx * c_L c)) as [a|] eqn:Ea.
  - destruct (anc_some head _ a Hdh Ea) as (y & Hy & Hyid & _). rewrite Hy. constructor. exact Hyid.
  - rewrite (anc_none head _ Hdh Ea). constructor.
Qed.

Lemma accepts_agree e parent : D parent -> BM.e_fin e = tr (finalized c s) ->
  accepts c s parent = BM.accepts R e (tr parent).
Proof.
  intros Hdp Hfin. pose proof (finalized_stored c s Hc (v_inv _ _ _ V)) as Hfs.
  pose proof (v_dom _ _ _ V _ Hfs) as Hdf.
  unfold accepts, BM.accepts. rewrite Hfin, (tr_num _ Hdf).
  destruct (num_of (finalized c s) =? 0); [reflexivity|]. cbn [negb].
  unfold BT.has_block, BT.chain_has. rewrite (tr_num _ Hdf).
  change (BT.at_num (BT.chain_of R (tr parent)) (num_of (finalized c s))) with (BT.block_at R (tr parent) (num_of (finalized c s))).
  destruct (anc s parent (num_of (finalized c s))) as [a|] eqn:Ea.
  - destruct (anc_some parent _ a Hdp Ea) as (x & Hx & Hxid & _ & Hda & _). rewrite Hx, Hxid.
    symmetry. apply tr_eqb; assumption.
  - rewrite (anc_none parent _ Hdp Ea). reflexivity.
Qed.

(* the quality of a stored block *)
Lemma stored_quality_agree id sm : get_summary s id = Some sm ->
  s_just sm = BM.s_just (BM.compute_state bc R qs (asum id sm)) ->
  quality_of c s (s_parent sm) (num_of id) (s_just sm) = Some (BM.s_q (BM.compute_state bc R qs (asum id sm))).
Proof.
  intros E Hj.
  pose proof (get_summary_stored s id _ E) as Hs.
  pose proof (v_dom _ _ _ V _ Hs) as Hd.
  destruct (N.eq_dec (num_of id) 0) as [H0|H0].
  - (* genesis: its parent id need not be in the domain *)
    unfold asum in *. set (B := ablk_of id (s_parent sm) (s_score sm)) in *.
    assert (HnB : BT.b_num B = 0) by (rewrite <- H0; exact (asum_num id sm Hd)).
    unfold BM.compute_state, BM.state_of_chain in *. rewrite HnB in *. cbn in Hj. cbn [N.eqb BM.s_q].
    unfold quality_of. rewrite H0, N.div_0_l by (destruct Hc; lia). cbn [N.eqb]. rewrite Hj. reflexivity.
  - destruct (parent_dom id sm E ltac:(lia)) as (Hp & Hnum & Hdp).
    apply quality_agree; auto.
Qed.

End View.

Lemma select_agree s nd b : refines s nd -> wf_cfg c -> flags_ok s nd -> D (b_id b) -> D (b_parent b) ->
  stored s (b_parent b) = true -> num_of (b_parent b) + 1 = num_of (b_id b) ->
  b_just b = BM.s_just (BM.compute_state bc (BM.n_repo nd) (BM.e_qs (BM.n_eng nd)) (ablk b)) ->
  select c s b = Some (BM.select bc (BM.n_repo nd) (BM.n_eng nd) (BM.best_blk nd) (ablk b)).
Proof.
  intros [V (best & Hb & Eb) F] Hc Hfl Hdi Hdp Hp Hnum Hj.
  destruct (inv_best c s (v_inv _ _ _ V)) as (best' & Hb' & Hbs). rewrite Hb in Hb'. inversion Hb'; subst best'. clear Hb'.
  pose proof (v_dom _ _ _ V _ Hbs) as Hdb.
  unfold select. rewrite Hb. unfold stored in Hbs. destruct (get_summary s best) as [bs|] eqn:Ebs; [|discriminate].
  assert (Hbb : BM.best_blk nd = asum best bs).
  { unfold BM.best_blk. rewrite Eb, (v_find _ _ _ V best Hdb), Ebs. reflexivity. }
  rewrite Hbb.
  rewrite (quality_agree s _ _ V Hc (b_id b) (b_parent b) (b_score b) (b_just b) Hdi Hdp (or_intror (conj Hp Hnum)) Hj).
  rewrite (stored_quality_agree s _ _ V Hc best bs Ebs (proj1 (Hfl best bs Ebs))).
  f_equal. unfold BM.select. fold (ablk b). fold (asum best bs).
  set (qn := BM.s_q (BM.compute_state bc (BM.n_repo nd) (BM.e_qs (BM.n_eng nd)) (ablk b))).
  set (qb := BM.s_q (BM.compute_state bc (BM.n_repo nd) (BM.e_qs (BM.n_eng nd)) (asum best bs))).
  destruct (qn =? qb); cbn [negb]; [|reflexivity].
  unfold BM.better_than. cbn [ablk ablk_of asum BT.b_score BT.b_id].
  rewrite (tr_lt _ _ Hdi Hdb), (N.eqb_sym (b_score b) (s_score bs)). reflexivity.
Qed.

(* stores that hold the same blocks (same ids with the same parent and total score) are seen as the same set *)
Lemma view_sub_set sa Ra qa sb Rb qb : view sa Ra qa -> view sb Rb qb ->
  (forall id, option_map (asum id) (get_summary sa id) = option_map (asum id) (get_summary sb id)) ->
  forall x, In x Ra -> In x Rb.
Proof.
  intros Va Vb Hs x Hx. destruct (v_in _ _ _ Va x Hx) as (id & sm & E & ->).
  pose proof (v_find _ _ _ Vb id (v_dom _ _ _ Va _ (get_summary_stored sa id _ E))) as F.
  rewrite <- Hs, E in F. exact (proj2 (BC.find_blk_id _ _ _ F)).
Qed.

Lemma view_same_set s R1 q1 R2 q2 : view s R1 q1 -> view s R2 q2 -> forall x, In x R1 <-> In x R2.
Proof. intros V1 V2 x. split; eapply view_sub_set; eauto. Qed.

Lemma flags_ok_any s n1 n2 : refines s n1 -> refines s n2 -> flags_ok s n1 -> flags_ok s n2.
Proof.
  intros [V1 _ _] [V2 _ _] H id sm E. specialize (H id sm E). cbv zeta in *.
  unfold BM.compute_state in *.
  rewrite <- (BO.chain_of_set_eq _ _ (BT.b_parent (asum id sm)) (v_wf _ _ _ V1) (v_wf _ _ _ V2) (view_same_set s _ _ _ _ V1 V2)).
  destruct (state_flags_qs bc (BM.e_qs (BM.n_eng n1)) (BM.e_qs (BM.n_eng n2))
              (asum id sm :: BT.chain_of (BM.n_repo n1) (BT.b_parent (asum id sm)))) as [A B].
  rewrite <- A, <- B. exact H.
Qed.

Lemma view_put_quality s R qs id q : view s R qs -> stored s id = true -> D id ->
  view (apply_batch s [Put (KQuality id) (VNum q)]) R ((tr id, q) :: qs).
Proof.
  intros V Hs Hdi. apply (view_ext s _ R qs); [intro i; apply get_summary_put_other; discriminate | | | exact V].
  - intros i Hdi'. rewrite get_quality_put. unfold BM.get_q. cbn [find fst snd]. rewrite (tr_eqb id i Hdi Hdi').
    destruct (N.eq_dec i id) as [->|Hne]; [rewrite N.eqb_refl; reflexivity|].
    assert (E : (id =? i) = false) by (apply N.eqb_neq; congruence). rewrite E. exact (v_qs _ _ _ V i Hdi').
  - apply quality_put_inv; [exact (v_inv _ _ _ V) | exact Hs].
Qed.

Lemma view_put_fin s R qs f : view s R qs -> stored s f = true ->
  view (apply_batch s [Put KFinalized (VId f)]) R qs.
Proof.
  intros V Hs. apply (view_ext s _ R qs); [intro i; apply get_summary_put_other; discriminate | | | exact V].
  - intros i Hdi'. rewrite get_quality_put_fin. exact (v_qs _ _ _ V i Hdi').
  - apply finalized_put_inv; [exact (v_inv _ _ _ V) | exact Hs].
Qed.

(* bft.Engine.CommitBlock of a stored block: the batch the crash model issues against what Bft.Model.commit_block does to
   the engine.  The two agree on the quality record, on whether a finalization is attempted, on the outcome of the search,
   and on the new finalized block; a failing search leaves the record and the old finalized on both sides. *)
Lemma commit_sim s3 R3 e id parent score just comm :
  view s3 R3 (BM.e_qs e) -> wf_cfg c -> BM.e_fin e = tr (finalized c s3) ->
  D id -> D parent -> stored s3 id = true -> stored s3 parent = true -> num_of parent + 1 = num_of id ->
  just = BM.s_just (BM.compute_state bc R3 (BM.e_qs e) (ablk_of id parent score)) ->
  comm = BM.s_comm (BM.compute_state bc R3 (BM.e_qs e) (ablk_of id parent score)) ->
  let s' := apply_writes s3 (writes_of_steps (commit_steps c s3 id parent just comm)) in
  let e' := fst (BM.commit_block true bc R3 e (ablk_of id parent score) false) in
  view s' R3 (BM.e_qs e') /\ BM.e_fin e' = tr (finalized c s') /\
  BM.e_master e' = BM.e_master e /\ BM.e_casts e' = BM.e_casts e /\ BM.e_jc e' = BM.e_jc e.
Proof.
  intros V Hc Hfin Hdi Hdp Hsi Hsp Hnum Hj Hcm s' e'.
  pose proof (finalized_stored c s3 Hc (v_inv _ _ _ V)) as Hfs. pose proof (v_dom _ _ _ V _ Hfs) as Hdf.
  set (B := ablk_of id parent score) in *.
  assert (HnB : BT.b_num B = num_of id) by exact (ablk_of_num id parent score Hdi).
  set (st := BM.compute_state bc R3 (BM.e_qs e) B) in *.
  pose proof (quality_agree s3 R3 (BM.e_qs e) V Hc id parent score just Hdi Hdp (or_intror (conj Hsp Hnum)) Hj) as Hq.
  fold B in Hq. fold st in Hq.
  unfold s', e'. rewrite commit_unfold, commit_block_fst. cbv zeta. fold st. rewrite HnB, HcL.
  change (BM.storepoint (c_L c) (num_of id) =? num_of id) with (is_storepoint (c_L c) (num_of id)).
  destruct (is_storepoint (c_L c) (num_of id)).
  2:{ cbn [apply_writes fold_left]. split; [exact V | split; [exact Hfin | repeat split; reflexivity]]. }
  rewrite Hq. rewrite Hfin, (tr_num _ Hdf), <- Hcm.
  change (BM.checkpoint (c_L c) (num_of id)) with (checkpoint (c_L c) (num_of id)).
  set (q := BM.s_q st) in *. set (wq := [Put (KQuality id) (VNum q)]).
  assert (V4 : view (apply_batch s3 wq) R3 ((tr id, q) :: BM.e_qs e)) by (apply view_put_quality; assumption).
  assert (F4 : finalized c (apply_batch s3 wq) = finalized c s3) by (apply finalized_put_quality).
  change (BT.b_id B) with (tr id).
  destruct (comm && (1 <? q) && (num_of (finalized c s3) <? checkpoint (c_L c) (num_of id))).
  2:{ cbn [apply_writes fold_left BM.e_qs BM.e_fin BM.e_master BM.e_casts BM.e_jc]. fold wq. rewrite F4.
      split; [exact V4 | split; [reflexivity | repeat split; reflexivity]]. }
  pose proof (find_agree (apply_batch s3 wq) R3 _ V4 (q - 1) (finalized c s3) id Hdf Hdi) as FA.
  fold wq. fold wq in FA. destruct (find_checkpoint c (apply_batch s3 wq) (q - 1) (finalized c s3) id) as [f|] eqn:Ef.
  - destruct (rel_res_some _ _ _ FA) as (f' & Ef' & ->). rewrite Ef'.
    cbn [apply_writes fold_left BM.e_qs BM.e_fin BM.e_master BM.e_casts BM.e_jc].
    change (apply_batch s3 [Put (KQuality id) (VNum q); Put KFinalized (VId f)]) with (apply_batch (apply_batch s3 wq) [Put KFinalized (VId f)]).
    rewrite finalized_put. split; [|split; [reflexivity | repeat split; reflexivity]]. apply view_put_fin; [exact V4|].
    exact (find_checkpoint_stored _ _ _ _ _ _ Ef).
  - destruct (rel_res_none _ _ FA) as (err & Ee). rewrite Ee.
    cbn [apply_writes fold_left BM.e_qs BM.e_fin BM.e_master BM.e_casts BM.e_jc]. fold wq. rewrite F4.
    split; [exact V4 | split; [reflexivity | repeat split; reflexivity]].
Qed.

(* Node.processBlock's outcome, in the order of the guards of import_steps *)
Definition crash_code (s : store) (b : blk) : N :=
  if max_num s + 1 <? num_of (b_id b) then 4                                         (* errBlockTemporaryUnprocessable *)
  else if (0 <? scan_conflicts s (num_of (b_id b))) && stored s (b_id b) then 1      (* errKnownBlock *)
  else if negb (stored s (b_parent b)) then 2                                        (* errParentMissing *)
  else if negb (num_of (b_parent b) + 1 =? num_of (b_id b)) then 5                   (* consensus: block number *)
  else if negb (accepts c s (b_parent b)) then 3                                     (* errBFTRejected *)
  else match select c s b with None => 6 | Some _ => 0 end.                          (* 6: bft select error; 0: stored *)

(* Bft.Model.import: 0 stored, 1 known, 2 parent missing, 3 refused by Accepts, 100+e stored and CommitBlock answered error e.
   Crash: a block too far ahead (4) is a block whose parent is missing as soon as its number is its parent's + 1. *)
Definition bft_class (code : N) : N := if 100 <=? code then 0 else code.
Definition crash_class (code : N) : N := if code =? 4 then 2 else code.

Lemma crash_refused s b : crash_code s b <> 0 -> crash_code s b <> 6 -> run1 c s b = s.
Proof.
  unfold crash_code, run1, import_batches, import_steps.
  destruct (max_num s + 1 <? num_of (b_id b)); [reflexivity|].
  destruct ((0 <? scan_conflicts s (num_of (b_id b))) && stored s (b_id b)); [reflexivity|].
  destruct (negb (stored s (b_parent b))); [reflexivity|].
  destruct (negb (num_of (b_parent b) + 1 =? num_of (b_id b))); [reflexivity|].
  destruct (negb (accepts c s (b_parent b))); [reflexivity|].
  destruct (select c s b); intros H1 H2; [contradiction H1 | contradiction H2]; reflexivity.
Qed.

Lemma crash_stored s b : crash_code s b = 0 -> exists ab, main_case c s b ab.
Proof.
  unfold crash_code, main_case.
  destruct (max_num s + 1 <? num_of (b_id b)); [discriminate|].
  destruct ((0 <? scan_conflicts s (num_of (b_id b))) && stored s (b_id b)); [discriminate|].
  destruct (stored s (b_parent b)); cbn [negb]; [|discriminate].
  destruct (num_of (b_parent b) + 1 =? num_of (b_id b)) eqn:En; cbn [negb]; [|discriminate].
  destruct (accepts c s (b_parent b)); cbn [negb]; [|discriminate].
  destruct (select c s b) as [ab|]; [|discriminate]. intros _. exists ab. apply N.eqb_eq in En. repeat split; auto.
Qed.

(* the outcome class in terms of the three lookups Bft.Model.import makes, for a block numbered after its stored parent *)
Lemma crash_class_code s b : (stored s (b_parent b) = true -> num_of (b_parent b) + 1 = num_of (b_id b)) ->
  crash_class (crash_code s b) =
  if stored s (b_id b) then 1 else if negb (stored s (b_parent b)) then 2 else if negb (accepts c s (b_parent b)) then 3
  else match select c s b with None => 6 | Some _ => 0 end.
Proof.
  intros Hwn. unfold crash_code. destruct (stored s (b_id b)) eqn:Es.
  - pose proof (max_num_ge s _ Es). pose proof (scan_conflicts_pos s _ Es).
    assert (E1 : (max_num s + 1 <? num_of (b_id b)) = false) by (apply N.ltb_ge; lia). rewrite E1.
    assert (E2 : (0 <? scan_conflicts s (num_of (b_id b))) = true) by (apply N.ltb_lt; lia). rewrite E2. reflexivity.
  - rewrite andb_false_r. destruct (stored s (b_parent b)) eqn:Ep; cbn [negb].
    + pose proof (max_num_ge s _ Ep). pose proof (Hwn eq_refl) as Hnum.
      assert (E1 : (max_num s + 1 <? num_of (b_id b)) = false) by (apply N.ltb_ge; lia). rewrite E1.
      apply N.eqb_eq in Hnum. rewrite Hnum. cbn [negb].
      destruct (accepts c s (b_parent b)); cbn [negb]; [|reflexivity]. destruct (select c s b); reflexivity.
    + destruct (max_num s + 1 <? num_of (b_id b)); reflexivity.
Qed.

Definition stores (nd : BM.node) (B : BT.blk) : bool :=
  negb (BT.known (BM.n_repo nd) (BT.b_id B)) && BT.known (BM.n_repo nd) (BT.b_parent B) &&
  BM.accepts (BM.n_repo nd) (BM.n_eng nd) (BT.b_parent B).

Lemma import_refused_eq nd B : stores nd B = false -> fst (BM.import true bc nd B) = nd.
Proof. intros H. rewrite BF.import_eq. fold (stores nd B). rewrite H. reflexivity. Qed.

(* what a node guarantees about a block it hands to the import path: the ids are in the domain of the translation, the
   number is the parent's + 1 (consensus validates it before the BFT engine is asked; Bft.Model carries it as the premise
   valid_child of every theorem), the trie-layer premise of the crash model, and — the coupling — the flags the real engine
   computed for the block are the Bft tally of the block over the stored blocks *)
Definition blk_ok (s : store) (nd : BM.node) (b : blk) : Prop :=
  D (b_id b) /\ D (b_parent b) /\
  (stored s (b_parent b) = true -> num_of (b_parent b) + 1 = num_of (b_id b)) /\
  wf_blk s b /\
  (stores nd (ablk b) = true -> blk_flags_ok nd b).

Lemma state_num0 qs x t : BT.b_num x = 0 -> BM.state_of_chain bc qs (x :: t) = BM.mkS 0 false false.
Proof. intros H. unfold BM.state_of_chain. rewrite H. reflexivity. Qed.

Lemma add_and_commit_class nd B : bft_class (snd (BM.add_and_commit true bc nd B false)) = 0.
Proof.
  unfold bft_class. destruct (BF.add_and_commit_code true bc nd B false) as [E|E]; [rewrite E; reflexivity|].
  destruct (100 <=? _) eqn:E1; [reflexivity|]. apply N.leb_gt in E1. lia.
Qed.

(* the store after the state commit, the index commit and the block bulk = the repository with the block added *)
Lemma view_after_bulk s R qs b ab : view s R qs -> wf_cfg c -> main_case c s b ab -> wf_blk s b ->
  D (b_id b) -> D (b_parent b) ->
  view (apply_writes s (pre_writes s b ab)) (ablk b :: R) qs.
Proof.
  intros V Hc M Hwf Hdi Hdp. pose proof (main_not_stored c s b ab M) as Hns.
  pose proof M as (_ & _ & Mp & Mn & _).
  constructor.
  - intros i Hd. unfold BT.find_blk. cbn [find]. change (BT.b_id (ablk b)) with (tr (b_id b)).
    rewrite (tr_eqb _ _ Hdi Hd), s3_summary. destruct (N.eq_dec i (b_id b)) as [->|Hne].
    + rewrite N.eqb_refl. reflexivity.
    + assert (E : (b_id b =? i) = false) by (apply N.eqb_neq; congruence). rewrite E. apply (v_find _ _ _ V). exact Hd.
  - intros x [<-|Hx].
    + exists (b_id b), (summary_of b (conf_of s b)). rewrite s3_summary. destruct (N.eq_dec (b_id b) (b_id b)); [|congruence].
      split; reflexivity.
    + destruct (v_in _ _ _ V x Hx) as (i & sm & E & ->). exists i, sm. split; [|reflexivity].
      rewrite s3_summary. destruct (N.eq_dec i (b_id b)) as [->|Hne]; [|exact E].
      unfold stored in Hns. rewrite E in Hns. discriminate.
  - intros i Hd. unfold get_quality. rewrite s3_quality by eauto. apply (v_qs _ _ _ V). exact Hd.
  - cbn [BT.wf_repo]. split; [exact (v_wf _ _ _ V)|]. split.
    + change (BT.b_id (ablk b)) with (tr (b_id b)). rewrite (view_known s R qs V _ Hdi). exact Hns.
    + pose proof (v_find _ _ _ V _ Hdp) as Fp. unfold stored in Mp.
      destruct (get_summary s (b_parent b)) as [psm|] eqn:Ep; [|discriminate]. cbn in Fp.
      destruct R as [|r0 rr]; [discriminate|]. exists (asum (b_parent b) psm). split; [exact Fp|].
      unfold BT.b_num. cbn. rewrite (tr_num _ Hdi), (tr_num _ Hdp). lia.
  - apply main_case_inv3; auto. exact (v_inv _ _ _ V).
  - intros i H. destruct (s3_stored s b ab i H) as [->|H']; [exact Hdi | exact (v_dom _ _ _ V _ H')].
Qed.

Lemma run1_summary s b ab : main_case c s b ab -> forall i,
  get_summary (run1 c s b) i = if N.eq_dec i (b_id b) then Some (summary_of b (conf_of s b)) else get_summary s i.
Proof.
  intros M i. unfold run1. rewrite (main_case_batches c s b ab M), apply_writes_app.
  unfold get_summary at 1. unfold commit_writes. rewrite commit_frame by discriminate. apply s3_summary.
Qed.

(* the best pointer after the block bulk *)
Lemma pre_writes_best s b ab : get_id (apply_writes s (pre_writes s b ab)) KBest = if ab then Some (b_id b) else get_id s KBest.
Proof.
  rewrite s3_eq.
  fold (get_id (apply_batch (apply_writes s (state_batches b (conf_of s b) ++ [index_batch b (conf_of s b)]))
                  (block_bulk b (conf_of s b) ab)) KBest).
  rewrite bulk_best. unfold get_id. rewrite s2_na by reflexivity. reflexivity.
Qed.

(* one import: Node.processBlock on the store against Bft.Model.import on a node that refines it *)
Theorem import_sim s nd b : wf_cfg c -> refines s nd -> flags_ok s nd -> blk_ok s nd b ->
  let s' := run1 c s b in
  let r := BM.import true bc nd (ablk b) in
  refines s' (fst r) /\ flags_ok s' (fst r) /\
  bft_class (snd r) = crash_class (crash_code s b) /\
  BN.valid_child (BM.n_repo nd) (ablk b) /\
  crash_code s b <> 6 /\
  BM.n_repo (fst r) = if crash_code s b =? 0 then ablk b :: BM.n_repo nd else BM.n_repo nd.
Proof.
  intros Hc Rf Hfl (Hdi & Hdp & Hwn & Hwf & Hbf) s' r.
  pose proof Rf as [V (best & Hb & Eb) F].
  pose proof (view_known s _ _ V (b_id b) Hdi) as K1. pose proof (view_known s _ _ V (b_parent b) Hdp) as K2.
  pose proof (accepts_agree s _ _ V Hc (BM.n_eng nd) (b_parent b) Hdp F) as K3.
  assert (Hvc : BN.valid_child (BM.n_repo nd) (ablk b)).
  { intros p Hp. change (BT.b_parent (ablk b)) with (tr (b_parent b)) in Hp.
    rewrite (v_find _ _ _ V _ Hdp) in Hp. destruct (get_summary s (b_parent b)) as [psm|] eqn:Ep; [|discriminate].
    cbn in Hp. inversion Hp; subst p.
    pose proof (get_summary_stored s (b_parent b) _ Ep) as Hsp.
    unfold BT.b_num. cbn. rewrite (tr_num _ Hdi), (tr_num _ Hdp). symmetry. apply Hwn. exact Hsp. }
  change (tr (b_id b)) with (BT.b_id (ablk b)) in K1. change (tr (b_parent b)) with (BT.b_parent (ablk b)) in K2, K3.
  pose proof (crash_class_code s b Hwn) as Hcc.
  unfold r. rewrite BF.import_eq. fold (stores nd (ablk b)).
  destruct (stores nd (ablk b)) eqn:Hst.
  2:{ (* refused on both sides, for the same reason: node and store stay as they were *)
    assert (Ecode : crash_class (crash_code s b) = BF.refusal nd (ablk b)).
    { rewrite Hcc. unfold stores in Hst. unfold BF.refusal. rewrite K1, K2, <- K3 in *.
      destruct (stored s (b_id b)), (stored s (b_parent b)), (accepts c s (b_parent b)); try reflexivity. discriminate Hst. }
    pose proof (BF.refusal_cases nd (ablk b)) as Hrc.
    assert (H0 : crash_code s b <> 0) by (intros E0; rewrite E0 in Ecode; change (crash_class 0) with 0 in Ecode; lia).
    assert (H6 : crash_code s b <> 6) by (intros E6; rewrite E6 in Ecode; change (crash_class 6) with 6 in Ecode; lia).
    unfold s'. rewrite (crash_refused s b H0 H6). cbn [fst snd].
    split; [exact Rf|]. split; [exact Hfl|]. split; [|split; [exact Hvc | split; [exact H6|]]].
    - rewrite Ecode. unfold bft_class. destruct (100 <=? _) eqn:E; [apply N.leb_le in E; lia | reflexivity].
    - apply N.eqb_neq in H0. rewrite H0. reflexivity. }
  (* the block is stored *)
  destruct (Hbf eq_refl) as [Hj Hcm].
  unfold stores in Hst. rewrite K1, K2, <- K3 in Hst.
  apply andb_prop in Hst as [Hst Ea]. apply andb_prop in Hst as [Es Ep]. apply negb_true_iff in Es.
  pose proof (Hwn Ep) as Hnum.
  set (sel := BM.select bc (BM.n_repo nd) (BM.n_eng nd) (BM.best_blk nd) (ablk b)).
  pose proof (select_agree s nd b Rf Hc Hfl Hdi Hdp Ep Hnum Hj) as Hsel. fold sel in Hsel.
  rewrite Es, Ep, Ea, Hsel in Hcc. cbn [negb] in Hcc.
  assert (Ecode : crash_code s b = 0) by (unfold crash_class in Hcc; destruct (crash_code s b =? 4); [discriminate | exact Hcc]).
  destruct (crash_stored s b Ecode) as (ab & M).
  assert (ab = sel) by (destruct M as (_ & _ & _ & _ & _ & Hs); rewrite Hsel in Hs; injection Hs as <-; reflexivity). subst ab.
  set (R := BM.n_repo nd) in *. set (e := BM.n_eng nd) in *. set (B := ablk b) in *.
  set (s3 := apply_writes s (pre_writes s b sel)).
  assert (Es' : s' = apply_writes s3 (writes_of_steps (commit_steps c s3 (b_id b) (b_parent b) (b_just b) (b_comm b)))).
  { unfold s', run1. rewrite (main_case_batches c s b sel M), apply_writes_app. reflexivity. }
  pose proof (view_after_bulk s R _ b sel V Hc M Hwf Hdi Hdp) as V3. fold s3 in V3. fold B in V3.
  assert (F3 : finalized c s3 = finalized c s) by (unfold finalized, get_id, s3; rewrite s3_quality; auto).
  assert (Hne : BT.b_id B <> BT.b_parent B).
  { change (tr (b_id b) <> tr (b_parent b)). intros E. apply (tr_inj _ _ Hdi Hdp) in E. rewrite E in Hnum. lia. }
  assert (Ecs : forall qs, BM.compute_state bc (B :: R) qs B = BM.compute_state bc R qs B).
  { intros qs. unfold BM.compute_state. rewrite BC.chain_of_fresh by exact Hne. reflexivity. }
  destruct (commit_sim s3 (B :: R) e (b_id b) (b_parent b) (b_score b) (b_just b) (b_comm b) V3 Hc)
    as (V' & F' & Em & Eca & Ejc).
  { rewrite F3. exact F. }
  { exact Hdi. } { exact Hdp. } { apply s3_stored_b. } { apply s3_stored_mono. exact Ep. } { exact Hnum. }
  { fold (ablk b). fold B. rewrite Ecs. exact Hj. }
  { fold (ablk b). fold B. rewrite Ecs. exact Hcm. }
  fold (ablk b) in V', F', Em, Eca, Ejc. fold B in V', F', Em, Eca, Ejc. rewrite <- Es' in V', F'.
  rewrite Ecode, add_and_commit_class, BF.add_and_commit_eq. cbn [fst]. fold R e B sel.
  set (e' := fst (BM.commit_block true bc (B :: R) e B false)) in *.
  pose proof (run1_summary s b sel M) as S'. fold s' in S'.
  split; [|split; [|split; [reflexivity | split; [exact Hvc | split; [discriminate | reflexivity]]]]].
  - constructor; cbn [BM.n_repo BM.n_eng BM.n_best].
    + exact V'.
    + assert (B3 : get_id s' KBest = if sel then Some (b_id b) else get_id s KBest).
      { rewrite Es'. unfold get_id at 1. rewrite commit_frame by discriminate. apply pre_writes_best. }
      rewrite B3. destruct sel; [exists (b_id b); split; reflexivity | exists best; split; assumption].
    + exact F'.
  - intros i sm Ei. cbn [BM.n_repo BM.n_eng]. cbv zeta. rewrite S' in Ei.
    destruct (N.eq_dec i (b_id b)) as [->|Hni].
    + inversion Ei; subst sm. rewrite asum_summary_of. fold B. cbn [summary_of s_just s_comm].
      destruct (flags_fresh bc B R (BM.e_qs e) (BM.e_qs e') B Hne) as [A1 A2]. rewrite A1, A2. split; [exact Hj | exact Hcm].
    + specialize (Hfl i sm Ei). cbv zeta in Hfl. fold R e in Hfl.
      pose proof (get_summary_stored s i _ Ei) as Hsi.
      pose proof (v_dom _ _ _ V _ Hsi) as Hd.
      destruct (N.eq_dec (num_of i) 0) as [H0|H0].
      * unfold BM.compute_state in *. rewrite state_num0 by (rewrite (asum_num i sm Hd); exact H0).
        rewrite state_num0 in Hfl by (rewrite (asum_num i sm Hd); exact H0). exact Hfl.
      * destruct (parent_dom s R _ V i sm Ei ltac:(lia)) as (Hps & _ & Hdps).
        destruct (flags_fresh bc B R (BM.e_qs e) (BM.e_qs e') (asum i sm)) as [A1 A2]; [|rewrite A1, A2; exact Hfl].
        change (tr (b_id b) <> tr (s_parent sm)). intros E. apply (tr_inj _ _ Hdi Hdps) in E.
        rewrite <- E in Hps. rewrite Hps in Es. discriminate.
Qed.

(* NewRepository + NewEngine on a store no import of which was cut (Inv2: every stored store point has its quality record,
   every head entry names a stored block): the F6 repair finds nothing to do, the store is unchanged, and what the node
   holds in memory afterwards (best, finalized, empty casts / Justified() cache) is Bft.Model.restart of the abstract node.
   For a crash image the repair writes; that case is crash_image_restart_sim, and resume_sim through resume_converges. *)
Lemma restart_refines s nd : refines s nd -> refines s (BM.restart nd).
Proof. intros [V Hb F]. constructor; assumption. Qed.

Theorem restart_sim s nd : wf_cfg c -> refines s nd -> Qinv c s -> Hinv s ->
  exists best, restart c true s = Some (s, best, finalized c s) /\
    refines s (BM.restart nd) /\ BM.n_best (BM.restart nd) = tr best /\
    BM.e_fin (BM.n_eng (BM.restart nd)) = tr (finalized c s).
Proof.
  intros Hc Rf Q H. pose proof Rf as [V (best & Hb & Eb) F].
  destruct (restart_shape c s Hc (v_inv _ _ _ V)) as (best' & Hb' & Er).
  rewrite Hb in Hb'. inversion Hb'; subst best'. rewrite (restart_store_noop c s Q H) in Er.
  exists best. split; [exact Er|]. split; [apply restart_refines; exact Rf|]. split; [exact Eb | exact F].
Qed.

Fixpoint hist_ok (s : store) (nd : BM.node) (l : list blk) : Prop :=
  match l with
  | [] => True
  | b :: t => blk_ok s nd b /\ hist_ok (run1 c s b) (fst (BM.import true bc nd (ablk b))) t
  end.

(* the finalized block after each import of a history, on the crash side *)
Fixpoint cfin_trace (s : store) (l : list blk) : list N :=
  match l with [] => [] | b :: t => finalized c (run1 c s b) :: cfin_trace (run1 c s b) t end.

Lemma bft_epoch_pos : wf_cfg c -> 0 < BM.c_L bc.
Proof. intros [_ H]. rewrite HcL. exact H. Qed.

(* what is carried along a history: the simulation relation, the coupling, and Bft's own invariants of the abstract node *)
Record sim (s : store) (nd : BM.node) : Prop := mkSim {
  sim_ref : refines s nd;
  sim_flags : flags_ok s nd;
  sim_inv : BN.inv bc nd;
  sim_fin : BMo.fin_ok nd }.

Theorem import_sim_step s nd b : wf_cfg c -> sim s nd -> blk_ok s nd b ->
  sim (run1 c s b) (fst (BM.import true bc nd (ablk b))).
Proof.
  intros Hc [Rf Hfl Hi Hfo] Hb. destruct (import_sim s nd b Hc Rf Hfl Hb) as (Rf' & Hfl' & _ & Hvc & _).
  constructor; [exact Rf' | exact Hfl' | apply (BN.import_inv bc (bft_epoch_pos Hc)); assumption |].
  exact (proj1 (proj2 (BMo.import_monotone bc (bft_epoch_pos Hc) true nd (ablk b) Hi Hfo Hvc))).
Qed.

Theorem run_sim l : forall s nd, wf_cfg c -> sim s nd -> hist_ok s nd l ->
  sim (run c s l) (BN.import_all bc true nd (map ablk l)).
Proof.
  induction l as [|b t IH]; intros s nd Hc S H; [exact S|].
  cbn [run fold_left map BN.import_all]. destruct H as [Hb Ht].
  apply IH; [exact Hc | apply import_sim_step; assumption | exact Ht].
Qed.

(* C03's single-node clause along the history: every finalized value of the abstract node has its predecessor on its chain,
   and these values are the translated finalized blocks of the crash model's stores *)
Theorem run_fin_trace l : forall s nd, wf_cfg c -> sim s nd -> hist_ok s nd l ->
  BMo.monotone_from (tr (finalized c s)) (BMo.fin_trace bc true nd (map ablk l)) /\
  map snd (BMo.fin_trace bc true nd (map ablk l)) = map tr (cfin_trace s l).
Proof.
  induction l as [|b t IH]; intros s nd Hc S H; [split; [exact I | reflexivity]|].
  destruct H as [Hb Ht]. pose proof (import_sim_step s nd b Hc S Hb) as S'.
  destruct S as [Rf Hfl Hi Hfo]. destruct (import_sim s nd b Hc Rf Hfl Hb) as (Rf' & _ & _ & Hvc & _).
  destruct (BMo.import_monotone bc (bft_epoch_pos Hc) true nd (ablk b) Hi Hfo Hvc) as [H1 _].
  destruct (IH _ _ Hc S' Ht) as [M E].
  cbn [map BMo.fin_trace BMo.monotone_from cfin_trace snd]. cbv zeta in H1.
  rewrite (rf_fin _ _ Rf') in *. rewrite (rf_fin _ _ Rf) in H1. split; [split; assumption|]. f_equal. exact E.
Qed.

Lemma genesis_sim g : wf_cfg c -> c_g c = b_id g -> b_skeep g = [] -> b_ikeep g = [] ->
  b_just g = false -> b_comm g = false -> D (b_id g) ->
  sim (genesis_store g) (BM.init_node (ablk g) master).
Proof.
  intros Hc Hg Hk Hi Hj Hcm Hd. pose proof Hc as [Hn0 HL]. rewrite Hg in Hn0.
  assert (I : Inv c (genesis_store g)).
  { destruct c as [L gid]. cbn in Hg. subst gid. apply genesis_inv; assumption. }
  assert (E : genesis_store g = apply_writes [] (pre_writes [] g true)) by reflexivity.
  assert (S : forall i, get_summary (genesis_store g) i = if N.eq_dec i (b_id g) then Some (summary_of g (conf_of [] g)) else None).
  { intro i. rewrite E, s3_summary. reflexivity. }
  assert (Q : forall k, (exists i, k = KQuality i) \/ k = KFinalized -> get (genesis_store g) k = None).
  { intros k Hk'. rewrite E, s3_quality by exact Hk'. reflexivity. }
  assert (HnB : BT.b_num (ablk g) = 0) by (rewrite <- Hn0; exact (ablk_of_num _ _ _ Hd)).
  assert (F : finalized c (genesis_store g) = b_id g).
  { unfold finalized, get_id. rewrite Q by auto. exact Hg. }
  constructor.
  - constructor; cbn [BM.init_node BM.n_repo BM.n_eng BM.n_best BM.e_qs BM.e_fin].
    + constructor.
      * intros i Hdi. unfold BT.find_blk. cbn [find]. change (BT.b_id (ablk g)) with (tr (b_id g)).
        rewrite (tr_eqb _ _ Hd Hdi), S. destruct (N.eq_dec i (b_id g)) as [->|Hne].
        -- rewrite N.eqb_refl. reflexivity.
        -- assert (E1 : (b_id g =? i) = false) by (apply N.eqb_neq; congruence). rewrite E1. reflexivity.
      * intros x [<-|[]]. exists (b_id g), (summary_of g (conf_of [] g)). rewrite S.
        destruct (N.eq_dec (b_id g) (b_id g)); [|congruence]. split; reflexivity.
      * intros i _. unfold get_quality. rewrite Q by eauto. reflexivity.
      * cbn. repeat split; try reflexivity. exact HnB.
      * exact I.
      * intros i H. unfold stored in H. rewrite S in H. destruct (N.eq_dec i (b_id g)) as [->|]; [exact Hd | discriminate].
    + exists (b_id g). split; [|reflexivity]. rewrite E. apply (pre_writes_best [] g true).
    + rewrite F. reflexivity.
  - intros i sm Ei. rewrite S in Ei. destruct (N.eq_dec i (b_id g)) as [->|]; [|discriminate]. inversion Ei; subst sm.
    cbv zeta. rewrite asum_summary_of. cbn [summary_of s_just s_comm]. unfold BM.compute_state.
    rewrite state_num0 by exact HnB. cbn. split; assumption.
  - apply BN.init_inv. exact HnB.
  - apply BMo.init_fin_ok.
Qed.

(* the node resumed after a crash at ANY cut of ANY import of the history refines the abstract node that imported the same
   blocks without interruption (Crash's resume_converges gives a store equivalent to the uninterrupted one; the relation only
   reads the store through get) *)
Theorem resume_sim s0 nd0 hist k i :
  wf_cfg2 c -> Inv2 c s0 -> wf_hist c s0 hist -> cut_in_import c s0 hist k i ->
  sim s0 nd0 -> hist_ok s0 nd0 hist ->
  exists r, resume c true (crash c s0 hist k) (skipn i hist) = Some r /\
            sim r (BN.import_all bc true nd0 (map ablk hist)).
Proof.
  intros Hc2 I2 Hw Hcut S0 Hh. pose proof Hc2 as [Hc _].
  destruct (resume_converges c s0 hist k i Hc2 I2 Hw Hcut) as (r & Hr & He).
  exists r. split; [exact Hr|]. apply eqv_sym in He.
  destruct (run_sim hist s0 nd0 Hc S0 Hh) as [Rf Hfl Hi Hfo].
  constructor; [eapply eqv_refines; eauto | eapply eqv_flags_ok; eauto | exact Hi | exact Hfo].
Qed.

(* NewRepository + NewEngine (with the F6 repair) on the image a crash after ANY number of batches of one import leaves: the
   node that comes up refines Bft.Model.restart of the abstract node BEFORE the interrupted import (the cut precedes the block
   bulk: only trie nodes / code were written, nothing is visible) or AFTER it (the cut follows the block bulk: the repair
   re-runs the pending CommitBlock).  No third state exists. *)
Theorem crash_image_restart_sim s nd b j : wf_cfg2 c -> Inv2 c s -> sim s nd -> blk_ok s nd b ->
  (j < length (import_batches c s b))%nat ->
  let s' := apply_writes s (firstn j (import_batches c s b)) in
  exists best, restart c true s' = Some (restart_store c true s', best, finalized c (restart_store c true s')) /\
    (refines (restart_store c true s') (BM.restart nd) \/
     refines (restart_store c true s') (BM.restart (fst (BM.import true bc nd (ablk b))))).
Proof.
  intros Hc2 I2 Sm Hb Hj s'. pose proof Hc2 as [Hc HL]. pose proof (i2_inv c s I2) as I. destruct I2 as [_ Q H].
  pose proof Hb as (_ & _ & _ & Hwf & _).
  pose proof (import_all_prefixes c s b Hc I Hwf) as AP.
  assert (I' : Inv c s') by (apply all_prefixes_firstn; auto).
  destruct (restart_shape c s' Hc I') as (best & _ & Er). exists best. split; [exact Er|].
  assert (Before : forall ws tl, (forall w, In w ws -> aux_batch w) -> import_batches c s b = ws ++ tl -> (j <= length ws)%nat ->
            refines (restart_store c true s') (BM.restart nd)).
  { intros ws tl Haux EW Hle.
    assert (Es' : s' = apply_writes s (firstn j ws)).
    { unfold s'. rewrite EW, firstn_app_le by exact Hle. reflexivity. }
    assert (Ena : eqv_na s s').
    { rewrite Es'. apply aux_writes_eqv_na. intros w Hw. apply Haux. eapply in_firstn; eauto. }
    rewrite restart_store_noop; [|eapply Qinv_na; eauto | eapply Hinv_na; eauto].
    apply restart_refines. apply (na_refines s s' nd Ena I'). exact (sim_ref _ _ Sm). }
  destruct (import_cases c s b) as [E|[[_ E]|(ab & M & E)]].
  - rewrite E in Hj. cbn in Hj. lia.
  - left. apply (Before (state_batches b (conf_of s b)) []); [intros; eapply state_batches_aux; eauto | rewrite app_nil_r; exact E | rewrite E in Hj; lia].
  - set (ws := state_batches b (conf_of s b) ++ [index_batch b (conf_of s b)]).
    set (bulk := block_bulk b (conf_of s b) ab). set (cw := commit_writes c s b ab) in *.
    assert (Epre : pre_writes s b ab = ws ++ [bulk]) by (unfold pre_writes, ws; rewrite <- app_assoc; reflexivity).
    assert (EW : import_batches c s b = ws ++ bulk :: cw) by (rewrite E, Epre, <- app_assoc; reflexivity).
    destruct (PeanoNat.Nat.le_gt_cases j (length ws)) as [Hle|Hgt].
    + left. apply (Before ws (bulk :: cw)); [apply s2_aux | exact EW | exact Hle].
    + right. set (s3 := apply_writes s (pre_writes s b ab)).
      assert (Lpre : length (pre_writes s b ab) = S (length ws)) by (rewrite Epre, app_length; cbn; lia).
      assert (I3 : Inv c s3).
      { pose proof (all_prefixes_firstn _ _ _ AP (length (pre_writes s b ab))) as X.
        rewrite E, firstn_app_le, firstn_all in X by apply le_n. exact X. }
      assert (Lw : length (import_batches c s b) = (S (length ws) + length cw)%nat) by (rewrite E, app_length, Lpre; reflexivity).
      assert (Lcw : (length cw <= 1)%nat).
      { destruct (commit_shape c s3 (b_id b) (b_parent b) (b_just b) (b_comm b)) as [Ec|[(q & Ec & _)|(q & f & Ec & _)]];
          fold s3 in Ec; change (writes_of_steps (commit_steps c s3 (b_id b) (b_parent b) (b_just b) (b_comm b))) with cw in Ec;
          rewrite Ec; cbn; lia. }
      assert (Es' : s' = s3).
      { assert (Ejp : j = length (pre_writes s b ab)) by lia.
        unfold s', s3. rewrite E, Ejp, firstn_app_le, firstn_all by apply le_n. reflexivity. }
      assert (Hcw : cw <> []) by (intro X; rewrite X in Lw; cbn in Lw; lia).
      rewrite Es'. unfold s3. rewrite (pc_restart c s b ab Hc2 (mkInv2 c s I Q H) M I3 Hcw).
      assert (Er1 : run1 c s b = apply_writes (apply_writes s (pre_writes s b ab)) (commit_writes c s b ab))
        by (unfold run1; rewrite E; apply apply_writes_app).
      rewrite <- Er1. apply restart_refines.
      destruct Sm as [Rf Hfl _ _]. exact (proj1 (import_sim s nd b Hc Rf Hfl Hb)).
Qed.

Lemma import_all_app l1 : forall nd l2,
  BN.import_all bc true nd (l1 ++ l2) = BN.import_all bc true (BN.import_all bc true nd l1) l2.
Proof. induction l1 as [|x t IH]; intros nd l2; [reflexivity|]. cbn [app BN.import_all]. apply IH. Qed.

Lemma hist_ok_app l1 : forall s nd l2, hist_ok s nd (l1 ++ l2) ->
  hist_ok s nd l1 /\ hist_ok (run c s l1) (BN.import_all bc true nd (map ablk l1)) l2.
Proof.
  induction l1 as [|x t IH]; intros s nd l2 H; [split; [exact I | exact H]|].
  cbn [app hist_ok] in H. destruct H as [Hx Ht]. destruct (IH _ _ _ Ht) as [H1 H2]. split; [split; assumption | exact H2].
Qed.

(* the same for a crash at any cut k of a whole history (i = the index of the interrupted import): the restarted node refines
   the restarted Bft node that imported the first i blocks, or the first i + 1 *)
Theorem crash_restart_sim s0 nd0 hist k i :
  wf_cfg2 c -> Inv2 c s0 -> wf_hist c s0 hist -> cut_in_import c s0 hist k i ->
  sim s0 nd0 -> hist_ok s0 nd0 hist ->
  let img := crash c s0 hist k in
  exists best, restart c true img = Some (restart_store c true img, best, finalized c (restart_store c true img)) /\
    (refines (restart_store c true img) (BM.restart (BN.import_all bc true nd0 (map ablk (firstn i hist)))) \/
     refines (restart_store c true img) (BM.restart (BN.import_all bc true nd0 (map ablk (firstn (S i) hist))))).
Proof.
  intros Hc2 I0 Hw [Hlo Hhi] S0 Hh img. pose proof Hc2 as [Hc _].
  set (si := run c s0 (firstn i hist)).
  assert (Ehist : hist = firstn i hist ++ skipn i hist) by (symmetry; apply firstn_skipn).
  assert (Hwi : wf_hist c s0 (firstn i hist) /\ wf_hist c si (skipn i hist)) by (apply wf_hist_app; rewrite <- Ehist; auto).
  destruct Hwi as [Hw1 Hw2].
  assert (Hhi' : hist_ok s0 nd0 (firstn i hist) /\ hist_ok si (BN.import_all bc true nd0 (map ablk (firstn i hist))) (skipn i hist))
    by (apply hist_ok_app; rewrite <- Ehist; exact Hh).
  destruct Hhi' as [Hh1 Hh2].
  assert (Ii : Inv2 c si) by (apply run_inv2; auto).
  pose proof (run_sim (firstn i hist) s0 nd0 Hc S0 Hh1) as Si. fold si in Si.
  assert (Ecrash : img = apply_writes si (firstn (k - offset c s0 hist i) (writes_of c si (skipn i hist)))).
  { unfold img, crash. rewrite Ehist at 1. rewrite writes_of_app, firstn_app. fold si.
    rewrite firstn_all2 by (unfold offset in Hlo; lia). rewrite apply_writes_app, run_writes. reflexivity. }
  destruct (skipn i hist) as [|b rest] eqn:Esk.
  - assert (Eimg : img = si) by (rewrite Ecrash; cbn [writes_of]; rewrite firstn_nil; reflexivity).
    rewrite Eimg. destruct (restart_sim si _ Hc (sim_ref _ _ Si) (i2_q c si Ii) (i2_h c si Ii)) as (best & Er & Rf & _).
    exists best. rewrite (restart_store_noop c si (i2_q c si Ii) (i2_h c si Ii)). split; [exact Er | left; exact Rf].
  - destruct Hhi as [Hhi|Hlen].
    2:{ exfalso. assert (length (skipn i hist) = 0%nat) by (rewrite skipn_length; lia). rewrite Esk in H. discriminate. }
    assert (ES : firstn (S i) hist = firstn i hist ++ [b]) by (eapply firstn_S_skipn; eauto).
    assert (Eoff : offset c s0 hist (S i) = (offset c s0 hist i + length (import_batches c si b))%nat).
    { unfold offset. rewrite ES, writes_of_app, app_length. fold si. cbn. rewrite app_nil_r. reflexivity. }
    set (j := (k - offset c s0 hist i)%nat) in *.
    assert (Hj : (j < length (import_batches c si b))%nat) by lia.
    assert (Ecr : img = apply_writes si (firstn j (import_batches c si b))).
    { rewrite Ecrash. cbn [writes_of]. rewrite firstn_app_le by lia. reflexivity. }
    destruct Hh2 as [Hb _].
    destruct (crash_image_restart_sim si _ b j Hc2 Ii Si Hb Hj) as (best & Er & Hcase).
    rewrite <- Ecr in Er, Hcase. exists best. split; [exact Er|].
    rewrite ES, map_app, import_all_app. exact Hcase.
Qed.

Definition ids_ok (l : list blk) : Prop :=
  forall b, In b l -> D (b_id b) /\ D (b_parent b) /\ num_of (b_parent b) + 1 = num_of (b_id b).

(* the coupling along a history, stated on the Bft side alone: whenever the abstract node stores a block, the flags the
   crash-side block carries are the tally compute_state gives for it there *)
Fixpoint flags_hist (nd : BM.node) (l : list blk) : Prop :=
  match l with
  | [] => True
  | b :: t => (stores nd (ablk b) = true -> blk_flags_ok nd b) /\ flags_hist (fst (BM.import true bc nd (ablk b))) t
  end.

Fixpoint flags_histb (nd : BM.node) (l : list blk) : bool :=
  match l with
  | [] => true
  | b :: t =>
    let st := BM.compute_state bc (BM.n_repo nd) (BM.e_qs (BM.n_eng nd)) (ablk b) in
    eqb (b_just b) (BM.s_just st) && eqb (b_comm b) (BM.s_comm st) && flags_histb (fst (BM.import true bc nd (ablk b))) t
  end.

Lemma flags_histb_sound l : forall nd, flags_histb nd l = true -> flags_hist nd l.
Proof.
  induction l as [|b t IH]; intros nd H; [exact I|]. cbn [flags_histb] in H. cbv zeta in H.
  apply andb_prop in H as [H Ht]. apply andb_prop in H as [Hj Hc].
  split; [intros _; split; apply eqb_prop; assumption | apply IH, Ht].
Qed.

Lemma hist_ok_intro l : forall s nd, ids_ok l -> wf_hist c s l -> flags_hist nd l -> hist_ok s nd l.
Proof.
  induction l as [|b t IH]; intros s nd Hi Hw Hf; [exact I|].
  cbn [hist_ok]. destruct Hw as [Hwb Hwt]. destruct Hf as [Hfb Hft].
  destruct (Hi b (or_introl eq_refl)) as (H1 & H2 & H3). split.
  - unfold blk_ok. split; [exact H1|]. split; [exact H2|]. split; [intros _; exact H3|]. split; [exact Hwb | exact Hfb].
  - apply IH; auto. intros b' Hb'. apply Hi. right. exact Hb'.
Qed.

(* in every store related to a Bft node (in particular every resumed node): the quality the crash model computes for a
   stored block from the records it finds — and the record itself at a store point — is the quality of the block's chain
   recomputed from the definitions over the stored set (state_pure: no records, no caches) *)
Theorem sim_quality_from_scratch s nd id sm : wf_cfg c -> sim s nd -> get_summary s id = Some sm ->
  quality_of c s (s_parent sm) (num_of id) (s_just sm) = Some (BC.quality_pure bc (BT.chain_of (BM.n_repo nd) (tr id))) /\
  (is_storepoint (c_L c) (num_of id) = true ->
   get_quality s id = BC.quality_pure bc (BT.chain_of (BM.n_repo nd) (tr id))).
Proof.
  intros Hc [Rf Hfl Hi Hfo] E. pose proof Rf as [V _ _].
  pose proof (get_summary_stored s id _ E) as Hs.
  pose proof (v_dom _ _ _ V _ Hs) as Hd.
  pose proof (v_find _ _ _ V id Hd) as Ff. rewrite E in Ff. cbn in Ff.
  destruct (BC.find_blk_id _ _ _ Ff) as [Hid Hin].
  pose proof (BN.compute_state_stored bc (bft_epoch_pos Hc) _ _ (asum id sm) (BN.inv_wf bc nd Hi) (BN.inv_qs bc nd Hi) Hin) as Q.
  unfold BN.qual in Q. change (BT.b_id (asum id sm)) with (tr id) in Q. split.
  - rewrite (stored_quality_agree s _ _ V Hc id sm E (proj1 (Hfl id sm E))). f_equal. exact Q.
  - intros Hsp. rewrite <- (v_qs _ _ _ V id Hd).
    pose proof (BN.inv_qs bc nd Hi (asum id sm) Hin) as Q2. unfold BN.qual in Q2.
    change (BT.b_id (asum id sm)) with (tr id) in Q2. apply Q2.
    rewrite (asum_num id sm Hd), HcL. unfold is_storepoint in Hsp. apply N.eqb_eq in Hsp. exact Hsp.
Qed.

(* over a consistent block tree U (Bft.ProofsOrder3.tree_consistent: in every well-formed repository drawn from it all
   finalizing blocks lie on one chain) the abstract node stays node_ok: finalized = fin_char of the stored set *)
Theorem run_node_ok U l : forall s nd, wf_cfg c -> BO3.tree_consistent bc U ->
  sim s nd -> hist_ok s nd l -> BO3.node_ok bc U nd -> (forall b, In b l -> In (ablk b) U) ->
  BO3.node_ok bc U (BN.import_all bc true nd (map ablk l)).
Proof.
  induction l as [|b t IH]; intros s nd Hc HU S H Hok HinU; [exact Hok|].
  cbn [map BN.import_all]. destruct H as [Hb Ht]. pose proof (import_sim_step s nd b Hc S Hb) as S'.
  destruct S as [Rf Hfl Hi Hfo]. destruct (import_sim s nd b Hc Rf Hfl Hb) as (_ & _ & _ & Hvc & _).
  apply (IH _ _ Hc HU S' Ht).
  - apply (BO3.import_ok_step bc (bft_epoch_pos Hc) U nd (ablk b) HU); [apply HinU; left; reflexivity | exact Hok | exact Hvc].
  - intros b' Hb'. apply HinU. right. exact Hb'.
Qed.

(* two stores related to node_ok nodes that hold the same blocks (same ids with the same parent and total score; conflict
   numbers, trie nodes, arrival order, crashes and restarts may differ) hold the same best block, the same finalized block
   and the same quality records *)
Theorem sim_function_of_set U s1 n1 s2 n2 : wf_cfg c -> BO3.tree_consistent bc U ->
  sim s1 n1 -> sim s2 n2 -> BO3.node_ok bc U n1 -> BO3.node_ok bc U n2 ->
  (forall id, option_map (asum id) (get_summary s1 id) = option_map (asum id) (get_summary s2 id)) ->
  get_id s1 KBest = get_id s2 KBest /\ finalized c s1 = finalized c s2 /\
  (forall id, stored s1 id = true -> is_storepoint (c_L c) (num_of id) = true -> get_quality s1 id = get_quality s2 id).
Proof.
  intros Hc HU S1 S2 (I1 & F1 & U1) (I2 & F2 & U2) Hsame.
  pose proof S1 as [Rf1 _ _ _]. pose proof S2 as [Rf2 _ _ _].
  pose proof Rf1 as [V1 (b1 & Hb1 & Eb1) Ef1]. pose proof Rf2 as [V2 (b2 & Hb2 & Eb2) Ef2].
  pose proof (BN.inv_wf bc _ I1) as W1. pose proof (BN.inv_wf bc _ I2) as W2.
  assert (Hset : forall x, In x (BM.n_repo n1) <-> In x (BM.n_repo n2)).
  { intro x. split; [apply (view_sub_set _ _ _ _ _ _ V1 V2 Hsame) | apply (view_sub_set _ _ _ _ _ _ V2 V1)].
    intro id. symmetry. apply Hsame. }
  assert (Hch : forall id, BT.chain_of (BM.n_repo n1) id = BT.chain_of (BM.n_repo n2) id)
    by (intro id; apply BO.chain_of_set_eq; assumption).
  assert (Ebest : BM.n_best n1 = BM.n_best n2).
  { apply (BN.same_repo_same_best bc (bft_epoch_pos Hc) n1 n2 I1 I2 Hset). intros x _. unfold BN.qual. rewrite Hch. reflexivity. }
  assert (Efin : BM.e_fin (BM.n_eng n1) = BM.e_fin (BM.n_eng n2)).
  { apply (BO.fin_char_unique bc (bft_epoch_pos Hc) (BM.n_repo n1) (BM.n_repo n2) _ _ W1 W2 Hset); [|exact F1 | exact F2].
    apply HU; assumption. }
  split; [|split].
  - rewrite Hb1, Hb2. f_equal. rewrite Eb1, Eb2 in Ebest.
    destruct (inv_best c s1 (v_inv _ _ _ V1)) as (x1 & Hx1 & Hs1). rewrite Hb1 in Hx1. inversion Hx1; subst x1.
    destruct (inv_best c s2 (v_inv _ _ _ V2)) as (x2 & Hx2 & Hs2). rewrite Hb2 in Hx2. inversion Hx2; subst x2.
    apply (tr_inj _ _ (v_dom _ _ _ V1 _ Hs1) (v_dom _ _ _ V2 _ Hs2) Ebest).
  - rewrite Ef1, Ef2 in Efin.
    apply (tr_inj _ _ (v_dom _ _ _ V1 _ (finalized_stored c s1 Hc (v_inv _ _ _ V1)))
                      (v_dom _ _ _ V2 _ (finalized_stored c s2 Hc (v_inv _ _ _ V2))) Efin).
  - intros id Hs1 Hsp. unfold stored in Hs1. destruct (get_summary s1 id) as [sm1|] eqn:E1; [|discriminate].
    pose proof (Hsame id) as Hs. rewrite E1 in Hs. destruct (get_summary s2 id) as [sm2|] eqn:E2; [|discriminate].
    rewrite (proj2 (sim_quality_from_scratch s1 n1 id sm1 Hc S1 E1) Hsp).
    rewrite (proj2 (sim_quality_from_scratch s2 n2 id sm2 Hc S2 E2) Hsp). rewrite Hch. reflexivity.
Qed.

Lemma abs_find s l i : (forall j, In j l -> D j) -> NoDup l -> D i ->
  BT.find_blk (flat_map (fun id => match get_summary s id with Some sm => [asum id sm] | None => [] end) l) (tr i) =
  if in_dec N.eq_dec i l then option_map (asum i) (get_summary s i) else None.
Proof.
  intros Hd Hnd Hdi. induction l as [|j t IH]; [reflexivity|].
  inversion Hnd as [|? ? Hnj Hnt]; subst.
  assert (IH' := IH (fun x Hx => Hd x (or_intror Hx)) Hnt). clear IH.
  cbn [flat_map]. unfold BT.find_blk in *. destruct (N.eq_dec j i) as [->|Hne].
  - destruct (in_dec N.eq_dec i (i :: t)) as [_|Hn]; [|contradiction Hn; left; reflexivity].
    destruct (get_summary s i) as [sm|] eqn:E; cbn [app find option_map].
    + change (BT.b_id (asum i sm)) with (tr i). rewrite N.eqb_refl. reflexivity.
    + rewrite IH'. destruct (in_dec N.eq_dec i t); [contradiction | reflexivity].
  - (* another id: its block, if any, is skipped *)
    assert (E0 : forall rest, find (fun b => BT.b_id b =? tr i)
                   (match get_summary s j with Some sm => [asum j sm] | None => [] end ++ rest) =
                 find (fun b => BT.b_id b =? tr i) rest).
    { intros rest. destruct (get_summary s j) as [sm|]; cbn [app find]; [|reflexivity].
      change (BT.b_id (asum j sm)) with (tr j). rewrite (tr_eqb j i (Hd j (or_introl eq_refl)) Hdi).
      apply N.eqb_neq in Hne. rewrite Hne. reflexivity. }
    rewrite E0, IH'. destruct (in_dec N.eq_dec i t) as [H|H], (in_dec N.eq_dec i (j :: t)) as [H'|H']; try reflexivity.
    + contradiction H'. right. exact H.
    + destruct H' as [E|H']; [contradiction Hne | contradiction].
Qed.

Lemma abs_getq s l i : (forall j, In j l -> D j) -> D i ->
  BM.get_q (map (fun id => (tr id, get_quality s id)) l) (tr i) = if in_dec N.eq_dec i l then get_quality s i else 0.
Proof.
  intros Hd Hdi. unfold BM.get_q. induction l as [|j t IH]; [reflexivity|].
  assert (IH' := IH (fun x Hx => Hd x (or_intror Hx))). clear IH.
  cbn [map find fst snd]. rewrite (tr_eqb j i (Hd j (or_introl eq_refl)) Hdi).
  destruct (N.eqb_spec j i) as [->|Hne].
  - destruct (in_dec N.eq_dec i (i :: t)) as [_|H]; [reflexivity | contradiction H; left; reflexivity].
  - rewrite IH'. destruct (in_dec N.eq_dec i t) as [Hin|Hnin], (in_dec N.eq_dec i (j :: t)) as [Hin'|Hnin']; try reflexivity.
    + contradiction Hnin'. right. exact Hin.
    + destruct Hin' as [E|Hin']; [contradiction Hne | contradiction].
Qed.

Theorem abs_refines s : Inv c s -> dom s -> BT.wf_repo (abs_repo s) -> refines s (abs s).
Proof.
  intros I Hdom Hwf.
  assert (Er : abs_repo s = flat_map (fun id => match get_summary s id with Some sm => [asum id sm] | None => [] end)
                                     (filter (stored s) (summary_ids s))).
  { unfold abs_repo. induction (summary_ids s) as [|j t IH]; [reflexivity|]. cbn [flat_map filter]. unfold stored at 1.
    destruct (get_summary s j) as [sm|] eqn:E; cbn [app].
    - cbn [flat_map]. rewrite E. cbn [app]. f_equal. exact IH.
    - exact IH. }
  assert (Hd : forall j, In j (filter (stored s) (summary_ids s)) -> D j).
  { intros j Hj. apply filter_In in Hj. apply Hdom. exact (proj2 Hj). }
  constructor; cbn [abs BM.n_repo BM.n_eng BM.n_best BM.e_qs BM.e_fin].
  - constructor.
    + intros i Hdi. rewrite Er, (abs_find s _ i Hd (NoDup_filter _ (summary_ids_nodup s)) Hdi).
      destruct (in_dec N.eq_dec i (filter (stored s) (summary_ids s))) as [_|Hnin]; [reflexivity|].
      destruct (get_summary s i) as [sm|] eqn:E; [|reflexivity]. exfalso. apply Hnin. apply filter_In.
      pose proof (get_summary_stored s i _ E) as Hs.
      split; [apply stored_in_ids; exact Hs | exact Hs].
    + intros x Hx. unfold abs_repo in Hx. apply in_flat_map in Hx. destruct Hx as (j & _ & Hx).
      destruct (get_summary s j) as [sm|] eqn:E; [|destruct Hx]. destruct Hx as [<-|[]]. exists j, sm. split; [exact E | reflexivity].
    + intros i Hdi. unfold abs_qs. rewrite (abs_getq s _ i Hd Hdi).
      destruct (in_dec N.eq_dec i (filter (stored s) (summary_ids s))) as [_|Hnin]; [reflexivity|].
      unfold get_quality. destruct (get s (KQuality i)) as [v|] eqn:E; [|reflexivity]. exfalso. apply Hnin. apply filter_In.
      assert (Hs : stored s i = true) by (apply (inv_quality c s I); unfold has; rewrite E; reflexivity).
      split; [apply stored_in_ids; exact Hs | exact Hs].
    + exact Hwf.
    + exact I.
    + exact Hdom.
  - destruct (inv_best c s I) as (best & Hb & _). exists best. split; [exact Hb|]. unfold best_of. rewrite Hb. reflexivity.
  - reflexivity.
Qed.

(* ... and commutes with import: the repository of the abstraction of the new store IS the repository of the Bft import *)
Lemma abs_repo_main s b ab : main_case c s b ab -> ids_stored s -> abs_repo (run1 c s b) = ablk b :: abs_repo s.
Proof.
  intros M Hids. pose proof (main_not_stored c s b ab M) as Hns.
  assert (Hn : ~ In (b_id b) (summary_ids s)) by (intros H; rewrite (Hids _ H) in Hns; discriminate).
  unfold abs_repo. rewrite (summary_ids_main c s b ab M Hn). cbn [flat_map].
  rewrite (run1_summary s b ab M). destruct (N.eq_dec (b_id b) (b_id b)); [|congruence]. cbn [app]. f_equal.
  rewrite !flat_map_concat_map. f_equal. apply map_ext_in. intros i Hi. rewrite (run1_summary s b ab M).
  destruct (N.eq_dec i (b_id b)) as [->|]; [contradiction | reflexivity].
Qed.

Lemma ids_stored_main s b ab : main_case c s b ab -> ids_stored s -> ids_stored (run1 c s b).
Proof.
  intros M Hids. pose proof (main_not_stored c s b ab M) as Hns.
  assert (Hn : ~ In (b_id b) (summary_ids s)) by (intros H; rewrite (Hids _ H) in Hns; discriminate).
  intros i Hi. rewrite (summary_ids_main c s b ab M Hn) in Hi. unfold stored. rewrite (run1_summary s b ab M).
  destruct (N.eq_dec i (b_id b)); [reflexivity|]. destruct Hi as [E|Hi]; [congruence|]. exact (Hids i Hi).
Qed.

(* the invariant that ties the function to a node along a history *)
Record absim (s : store) (nd : BM.node) : Prop := mkAbsim {
  ab_sim : sim s nd;
  ab_ids : ids_stored s;
  ab_repo : abs_repo s = BM.n_repo nd }.

Theorem abs_import_step s nd b : wf_cfg c -> absim s nd -> blk_ok s nd b ->
  absim (run1 c s b) (fst (BM.import true bc nd (ablk b))).
Proof.
  intros Hc [S Hids Er] Hb. pose proof (import_sim_step s nd b Hc S Hb) as S'.
  destruct S as [Rf Hfl Hi Hfo]. destruct (import_sim s nd b Hc Rf Hfl Hb) as (_ & _ & _ & _ & H6 & Hrepo).
  destruct (crash_code s b =? 0) eqn:E0.
  - apply N.eqb_eq in E0. destruct (crash_stored s b E0) as (ab & M).
    constructor; [exact S' | apply (ids_stored_main s b ab M Hids) | rewrite Hrepo, (abs_repo_main s b ab M Hids), Er; reflexivity].
  - apply N.eqb_neq in E0. pose proof (crash_refused s b E0 H6) as Es. constructor; [exact S' | | ].
    + rewrite Es. exact Hids.
    + rewrite Hrepo, Es. exact Er.
Qed.

Theorem abs_run l : forall s nd, wf_cfg c -> absim s nd -> hist_ok s nd l ->
  absim (run c s l) (BN.import_all bc true nd (map ablk l)).
Proof.
  induction l as [|b t IH]; intros s nd Hc A H; [exact A|].
  cbn [run fold_left map BN.import_all]. destruct H as [Hb Ht].
  apply IH; [exact Hc | apply abs_import_step; assumption | exact Ht].
Qed.

(* what absim says about the function: it refines the store, the coupling holds for it, and it is the Bft node up to the
   representation of the quality records (same repository list, best, finalized; the same record under every id) *)
Theorem absim_abs s nd : absim s nd ->
  refines s (abs s) /\ flags_are_tallies s /\
  BM.n_repo (abs s) = BM.n_repo nd /\ BM.n_best (abs s) = BM.n_best nd /\
  BM.e_fin (BM.n_eng (abs s)) = BM.e_fin (BM.n_eng nd) /\
  (forall i, D i -> BM.get_q (BM.e_qs (BM.n_eng (abs s))) (tr i) = BM.get_q (BM.e_qs (BM.n_eng nd)) (tr i)).
Proof.
  intros [[Rf Hfl Hi Hfo] Hids Er]. pose proof Rf as [V (best & Hb & Eb) F].
  assert (Ra : refines s (abs s)).
  { apply abs_refines; [exact (v_inv _ _ _ V) | exact (v_dom _ _ _ V) | rewrite Er; exact (v_wf _ _ _ V)]. }
  split; [exact Ra|]. split; [exact (flags_ok_any s nd (abs s) Rf Ra Hfl)|]. split; [exact Er|]. split; [|split].
  - cbn [abs BM.n_best]. unfold best_of. rewrite Hb. symmetry. exact Eb.
  - cbn [abs BM.n_eng BM.e_fin]. symmetry. exact F.
  - intros i Hdi. pose proof Ra as [Va _ _]. rewrite (v_qs _ _ _ Va i Hdi), (v_qs _ _ _ V i Hdi). reflexivity.
Qed.

Lemma genesis_absim g : wf_cfg c -> c_g c = b_id g -> b_skeep g = [] -> b_ikeep g = [] ->
  b_just g = false -> b_comm g = false -> D (b_id g) ->
  absim (genesis_store g) (BM.init_node (ablk g) master).
Proof.
  intros Hc Hg Hk Hi Hj Hcm Hd. pose proof (genesis_sim g Hc Hg Hk Hi Hj Hcm Hd) as S.
  assert (E : genesis_store g = apply_writes [] (pre_writes [] g true)) by reflexivity.
  assert (Eids : summary_ids (genesis_store g) = [b_id g]) by (rewrite E, summary_ids_pre; [reflexivity | intros []]).
  assert (Es : get_summary (genesis_store g) (b_id g) = Some (summary_of g (conf_of [] g))).
  { rewrite E, s3_summary. destruct (N.eq_dec (b_id g) (b_id g)); [reflexivity | congruence]. }
  constructor; [exact S | |].
  - intros i Hi'. rewrite Eids in Hi'. destruct Hi' as [<-|[]]. unfold stored. rewrite Es. reflexivity.
  - unfold abs_repo. rewrite Eids. cbn [flat_map]. rewrite Es. reflexivity.
Qed.

(* a decidable form of the coupling, for checked instances *)
(* repository and records are bound outside the loop: evaluation shares a let-bound value, not a closed term under a binder *)
Definition flags_are_tallies_b (s : store) : bool :=
  let R := abs_repo s in let Q := abs_qs s in
  forallb (fun id => match get_summary s id with
                     | Some sm => let st := BM.compute_state bc R Q (asum id sm) in
                                  eqb (s_just sm) (BM.s_just st) && eqb (s_comm sm) (BM.s_comm st)
                     | None => true
                     end) (summary_ids s).

Lemma flags_are_tallies_b_ok s : flags_are_tallies_b s = true -> flags_are_tallies s.
Proof.
  intros H id sm E. cbv zeta. cbn [abs BM.n_repo BM.n_eng BM.e_qs].
  pose proof (get_summary_stored s id _ E) as Hs.
  unfold flags_are_tallies_b in H. cbv zeta in H. rewrite forallb_forall in H. specialize (H id (stored_in_ids s id Hs)).
  rewrite E in H. cbv zeta in H. apply andb_true_iff in H. destruct H as [H1 H2].
  apply eqb_prop in H1. apply eqb_prop in H2. split; assumption.
Qed.

Section FromGenesis.
Variable g : blk.
Hypothesis Hc2 : wf_cfg2 c.
Hypothesis Hg : c_g c = b_id g.
Hypothesis Hk : b_skeep g = [].
Hypothesis Hi : b_ikeep g = [].
Hypothesis Hj : b_just g = false.
Hypothesis Hcm : b_comm g = false.
Hypothesis Hd : D (b_id g).

Definition gnode : BM.node := BM.init_node (ablk g) master.

Lemma genesis_inv2' : Inv2 c (genesis_store g).
Proof.
  destruct Hc2 as [[Hn HL0] HL]. destruct c as [L gid]. cbn in Hg. subst gid. apply genesis_inv2; assumption.
Qed.

(* the node resumed after a crash at any cut of any import: an abstraction-invariant pair with the Bft node that imported
   the same blocks without interruption; in particular the same best block, finalized block, stored set and quality records *)
Theorem resumed_is_bft_run hist k i :
  wf_hist c (genesis_store g) hist -> cut_in_import c (genesis_store g) hist k i -> hist_ok (genesis_store g) gnode hist ->
  let nd := BN.import_all bc true gnode (map ablk hist) in
  exists r, resume c true (crash c (genesis_store g) hist k) (skipn i hist) = Some r /\
    sim r nd /\
    (exists best, get_id r KBest = Some best /\ BM.n_best nd = tr best) /\
    BM.e_fin (BM.n_eng nd) = tr (finalized c r) /\
    (forall id, D id -> BT.known (BM.n_repo nd) (tr id) = stored r id) /\
    (forall id, D id -> BM.get_q (BM.e_qs (BM.n_eng nd)) (tr id) = get_quality r id).
Proof.
  intros Hw Hcut Hh nd. pose proof Hc2 as [Hc _].
  destruct (resume_sim (genesis_store g) gnode hist k i Hc2 genesis_inv2' Hw Hcut
              (genesis_sim g Hc Hg Hk Hi Hj Hcm Hd) Hh) as (r & Hr & S).
  exists r. split; [exact Hr|]. split; [exact S|]. destruct S as [[V Hb F] _ _ _].
  split; [exact Hb|]. split; [exact F|]. split.
  - intros id Hdi. apply (view_known r _ _ V id Hdi).
  - intros id Hdi. apply (v_qs _ _ _ V id Hdi).
Qed.

(* the uninterrupted run and the abstraction function: abs of the store after the history is the Bft node after the history *)
Theorem abs_of_run_is_bft_run hist : hist_ok (genesis_store g) gnode hist ->
  let s := run c (genesis_store g) hist in
  let nd := BN.import_all bc true gnode (map ablk hist) in
  refines s (abs s) /\ flags_are_tallies s /\
  BM.n_repo (abs s) = BM.n_repo nd /\ BM.n_best (abs s) = BM.n_best nd /\
  BM.e_fin (BM.n_eng (abs s)) = BM.e_fin (BM.n_eng nd) /\
  (forall i, D i -> BM.get_q (BM.e_qs (BM.n_eng (abs s))) (tr i) = BM.get_q (BM.e_qs (BM.n_eng nd)) (tr i)).
Proof.
  intros Hh s nd. pose proof Hc2 as [Hc _]. apply absim_abs.
  apply (abs_run hist _ _ Hc (genesis_absim g Hc Hg Hk Hi Hj Hcm Hd) Hh).
Qed.

(* C04 stored_quality_is_from_scratch on every resumed node *)
Theorem resumed_quality_from_scratch hist k i :
  wf_hist c (genesis_store g) hist -> cut_in_import c (genesis_store g) hist k i -> hist_ok (genesis_store g) gnode hist ->
  let nd := BN.import_all bc true gnode (map ablk hist) in
  exists r, resume c true (crash c (genesis_store g) hist k) (skipn i hist) = Some r /\
    forall id sm, get_summary r id = Some sm ->
      quality_of c r (s_parent sm) (num_of id) (s_just sm) = Some (BC.quality_pure bc (BT.chain_of (BM.n_repo nd) (tr id))) /\
      (is_storepoint (c_L c) (num_of id) = true ->
       get_quality r id = BC.quality_pure bc (BT.chain_of (BM.n_repo nd) (tr id))).
Proof.
  intros Hw Hcut Hh nd. pose proof Hc2 as [Hc _].
  destruct (resumed_is_bft_run hist k i Hw Hcut Hh) as (r & Hr & S & _). exists r. split; [exact Hr|].
  intros id sm E. exact (sim_quality_from_scratch r _ id sm Hc S E).
Qed.

Lemma last_cons_default {A} (l : list A) : forall x d, last (x :: l) d = last l x.
Proof.
  induction l as [|y l IH]; intros x d; [reflexivity|].
  change (last (x :: y :: l) d) with (last (y :: l) d). rewrite !IH. reflexivity.
Qed.

Lemma run_finalized_last l : forall s, finalized c (run c s l) = last (cfin_trace s l) (finalized c s).
Proof.
  induction l as [|b t IH]; intros s; [reflexivity|].
  change (run c s (b :: t)) with (run c (run1 c s b) t). cbn [cfin_trace]. rewrite IH, last_cons_default. reflexivity.
Qed.

(* C03 finalized_monotone on every resumed node: along the history every finalized value of the Bft node has its predecessor
   on its chain, these values are the crash model's finalized blocks, and the resumed node holds the last of them *)
Theorem resumed_finalized_monotone hist k i :
  wf_hist c (genesis_store g) hist -> cut_in_import c (genesis_store g) hist k i -> hist_ok (genesis_store g) gnode hist ->
  exists r, resume c true (crash c (genesis_store g) hist k) (skipn i hist) = Some r /\
    BMo.monotone_from (tr (b_id g)) (BMo.fin_trace bc true gnode (map ablk hist)) /\
    map snd (BMo.fin_trace bc true gnode (map ablk hist)) = map tr (cfin_trace (genesis_store g) hist) /\
    finalized c r = last (cfin_trace (genesis_store g) hist) (b_id g).
Proof.
  intros Hw Hcut Hh. pose proof Hc2 as [Hc _].
  pose proof (genesis_sim g Hc Hg Hk Hi Hj Hcm Hd) as S0.
  destruct (resume_converges c _ hist k i Hc2 genesis_inv2' Hw Hcut) as (r & Hr & He).
  destruct (run_fin_trace hist _ _ Hc S0 Hh) as [M E].
  assert (F0 : finalized c (genesis_store g) = b_id g).
  { pose proof (rf_fin _ _ (sim_ref _ _ S0)) as F. cbn in F.
    apply (tr_inj _ _ Hd (v_dom _ _ _ (rf_view _ _ (sim_ref _ _ S0)) _
             (finalized_stored c _ Hc (v_inv _ _ _ (rf_view _ _ (sim_ref _ _ S0)))))) in F. symmetry. exact F. }
  rewrite F0 in M. exists r. split; [exact Hr|]. split; [exact M|]. split; [exact E|].
  rewrite (na_finalized _ _ (eqv_eqv_na _ _ He)), run_finalized_last, F0. reflexivity.
Qed.

(* C04 finalized_is_function_of_set / import_set_order_independent on resumed nodes: two nodes run two histories (any
   orders, duplicates, refused blocks), each crashes at any cut, restarts and resumes; over a consistent block tree, if
   they end up holding the same blocks they hold the same best block, the same finalized block, the same quality records;
   and each one's finalized block is fin_char of its stored set *)
Theorem resumed_function_of_set U h1 k1 i1 h2 k2 i2 :
  BO3.tree_consistent bc U -> In (ablk g) U ->
  (forall b, In b h1 \/ In b h2 -> In (ablk b) U) ->
  wf_hist c (genesis_store g) h1 -> cut_in_import c (genesis_store g) h1 k1 i1 -> hist_ok (genesis_store g) gnode h1 ->
  wf_hist c (genesis_store g) h2 -> cut_in_import c (genesis_store g) h2 k2 i2 -> hist_ok (genesis_store g) gnode h2 ->
  exists r1 r2,
    resume c true (crash c (genesis_store g) h1 k1) (skipn i1 h1) = Some r1 /\
    resume c true (crash c (genesis_store g) h2 k2) (skipn i2 h2) = Some r2 /\
    BO.fin_char bc (BM.n_repo (BN.import_all bc true gnode (map ablk h1))) (tr (finalized c r1)) /\
    BO.fin_char bc (BM.n_repo (BN.import_all bc true gnode (map ablk h2))) (tr (finalized c r2)) /\
    ((forall id, option_map (asum id) (get_summary r1 id) = option_map (asum id) (get_summary r2 id)) ->
     get_id r1 KBest = get_id r2 KBest /\ finalized c r1 = finalized c r2 /\
     (forall id, stored r1 id = true -> is_storepoint (c_L c) (num_of id) = true -> get_quality r1 id = get_quality r2 id)).
Proof.
  intros HU HgU HinU Hw1 Hcut1 Hh1 Hw2 Hcut2 Hh2. pose proof Hc2 as [Hc _].
  pose proof (genesis_sim g Hc Hg Hk Hi Hj Hcm Hd) as S0.
  assert (HnB : BT.b_num (ablk g) = 0).
  { destruct Hc as [Hn _]. rewrite Hg in Hn. rewrite <- Hn. exact (ablk_of_num _ _ _ Hd). }
  pose proof (BO3.init_ok bc (bft_epoch_pos Hc) U (ablk g) master HnB HgU) as Ok0.
  destruct (resumed_is_bft_run h1 k1 i1 Hw1 Hcut1 Hh1) as (r1 & Hr1 & S1 & _).
  destruct (resumed_is_bft_run h2 k2 i2 Hw2 Hcut2 Hh2) as (r2 & Hr2 & S2 & _).
  pose proof (run_node_ok U h1 _ _ Hc HU S0 Hh1 Ok0 (fun b Hb => HinU b (or_introl Hb))) as Ok1.
  pose proof (run_node_ok U h2 _ _ Hc HU S0 Hh2 Ok0 (fun b Hb => HinU b (or_intror Hb))) as Ok2.
  exists r1, r2. split; [exact Hr1|]. split; [exact Hr2|]. split; [|split].
  - rewrite <- (rf_fin _ _ (sim_ref _ _ S1)). exact (proj1 (proj2 Ok1)).
  - rewrite <- (rf_fin _ _ (sim_ref _ _ S2)). exact (proj1 (proj2 Ok2)).
  - intros Hsame. exact (sim_function_of_set U r1 _ r2 _ Hc HU S1 S2 Ok1 Ok2 Hsame).
Qed.
End FromGenesis.

End Bridge.

(* ids whose low 224 bits are below 2^32 (the ids of Crash/Examples.v): number * 2^32 + the low bits.  For an arbitrary finite
   set of 32-byte ids the C04 harness computes the rank of each id among the ids of the same number instead; any such ranking
   satisfies the two hypotheses on the set. *)
Definition P224 : N := 26959946667150639794667015087019630673637144422540572481103610249216.  (* 2^224 *)
Definition small (id : N) : Prop := id mod P224 < BT.id_shift.
Definition tr_small (id : N) : N := num_of id * BT.id_shift + id mod P224.

Lemma lex_lt (B n1 r1 n2 r2 : N) : r1 < B -> r2 < B -> (n1 * B + r1 <? n2 * B + r2) = ((n1 <? n2) || ((n1 =? n2) && (r1 <? r2))).
Proof.
  intros H1 H2. destruct (N.lt_trichotomy n1 n2) as [H|[->|H]].
  - assert (n1 * B + r1 < n2 * B + r2) by nia. lia.
  - rewrite N.ltb_irrefl, N.eqb_refl. cbn [orb andb]. lia.
  - assert (n2 * B + r2 < n1 * B + r1) by nia. lia.
Qed.

Lemma tr_small_num a : small a -> BT.idnum (tr_small a) = num_of a.
Proof.
  intros H. unfold BT.idnum, tr_small. rewrite N.div_add_l by discriminate. rewrite (N.div_small _ _ H). apply N.add_0_r.
Qed.

Lemma tr_small_lt a b : small a -> small b -> (tr_small a <? tr_small b) = (a <? b).
Proof.
  intros Ha Hb. unfold tr_small, small in *.
  assert (HS : BT.id_shift < P224) by reflexivity.
  assert (HP : P224 <> 0) by discriminate.
  pose proof (N.div_mod a P224 HP) as Ea. pose proof (N.div_mod b P224 HP) as Eb.
  change (num_of a) with (a / P224). change (num_of b) with (b / P224).
  set (na := a / P224) in *. set (ra := a mod P224) in *. set (nb := b / P224) in *. set (rb := b mod P224) in *.
  assert (E : (a <? b) = (na * P224 + ra <? nb * P224 + rb)).
  { f_equal; [rewrite (N.mul_comm na); exact Ea | rewrite (N.mul_comm nb); exact Eb]. }
  rewrite E, (lex_lt BT.id_shift _ _ _ _ Ha Hb), (lex_lt P224) by lia. reflexivity.
Qed.
