(* Store/ProofsWork.v — trie.go's tryGet / insert / delete on working tries (Store/WorkTrie.v) refine C06's logical
   get / insert / delete (Trie/Model.v), never fail on a live root, keep the handle coherent with the store, and every
   clean node / reference of the result is a node of the root the handle was opened at (`derived` of ProofsLink.v).

   Good g Old p n t  — the working trie n at path p denotes the logical trie t through the reader g, is coherent with
   it, and every clean node and every reference of n is in Old — a set of stored nodes (path, version, blob) that the
   reader answers, closed under what resolving them follows, made of well-formed full / short blobs (instantiated with
   "the nodes the head root follows").  The simulations hold for every fuel and need no well-formedness of the trie. *)
From Coq Require Import List NArith Bool Arith Lia.
From Verif Require Import Trie.Model Trie.Keys Trie.ProofsWf Trie.Theorems
  Store.Model Store.Proofs Store.ProofsCommit Store.ProofsReach Store.ProofsPrune Store.ProofsLink Store.WorkTrie.
Import ListNotations.
Local Open Scope nat_scope.

Section PW.
  Variable V : Type.
  Variable veqb : V -> V -> bool.
  Hypothesis veqb_sound : forall a b, veqb a b = true -> a = b.
  Notation snode := (snode V).
  Notation wnode := (wnode V).
  Notation node := (node V).
  Notation getter := (getter V).

  Lemma snode_ind' (P : snode -> Prop) :
    P SNil -> (forall v, P (SValue v)) -> (forall k c, P c -> P (SShort k c)) ->
    (forall cs, Forall P cs -> P (SFull cs)) -> (forall v, P (SRef v)) -> forall n, P n.
  Proof.
    intros H0 H1 H2 H3 H4. fix IH 1. intros n. destruct n as [|v|k c|cs|v].
    - exact H0.
    - apply H1.
    - apply H2. apply IH.
    - apply H3. induction cs as [|c cs IHcs]; constructor; [apply IH|exact IHcs].
    - apply H4.
  Qed.

  Lemma firstn_S_nth {A} (d : A) : forall (l : list A) m, m < length l -> firstn (S m) l = firstn m l ++ [nth m l d].
  Proof.
    induction l as [|a l IH]; intros m Hm; cbn in Hm; [lia|].
    destruct m; cbn; [reflexivity|]. f_equal. apply IH. lia.
  Qed.

  Lemma firstn_full_prefix (k key : list nat) : prefix_len k key = length k -> firstn (length k) key = k.
  Proof.
    intros H. rewrite (prefix_len_full k key H) at 1. rewrite firstn_app, Nat.sub_diag, firstn_all. cbn. apply app_nil_r.
  Qed.

  Lemma wupd_length (cs : list wnode) : forall i x, length (wupd V cs i x) = length cs.
  Proof. induction cs; destruct i; cbn; auto. Qed.

  Lemma wchild_wupd_same (cs : list wnode) : forall i x, i < length cs -> wchild V (wupd V cs i x) i = x.
  Proof. induction cs; destruct i; cbn; intros; try lia; auto. apply IHcs; lia. Qed.

  Lemma wupd_beyond (cs : list wnode) : forall i x, length cs <= i -> wupd V cs i x = cs.
  Proof. induction cs; destruct i; cbn; intros; try lia; auto. f_equal. apply IHcs; lia. Qed.

  Lemma map_wupd_same {B} (f : wnode -> B) (cs : list wnode) : forall i x,
    f x = f (wchild V cs i) -> map f (wupd V cs i x) = map f cs.
  Proof.
    induction cs as [|c cs IH]; intros [|i] x H; cbn in *; auto.
    - rewrite H. reflexivity.
    - f_equal. apply IH. exact H.
  Qed.

  Lemma enc_dec_emb : forall c : snode, enc V (dec_emb V c) = c /\ enc_child V (dec_emb V c) = c.
  Proof.
    apply snode_ind'.
    - split; reflexivity.
    - split; reflexivity.
    - intros k c [_ IH].
      assert (E : enc V (dec_emb V (SShort k c)) = SShort k c) by (cbn [dec_emb]; rewrite enc_short, IH; reflexivity).
      split; [exact E|exact E].
    - intros cs HF.
      assert (E : enc V (dec_emb V (SFull cs)) = SFull cs).
      { cbn [dec_emb]. rewrite enc_full. f_equal. rewrite map_map.
        induction HF as [|c cs [_ Hc] _ IH]; cbn; [reflexivity|]. rewrite Hc, IH. reflexivity. }
      split; [exact E|exact E].
    - split; reflexivity.
  Qed.

  Lemma enc_dec_top v b : is_inner_s V b -> enc V (dec_top V v b) = b /\ enc_child V (dec_top V v b) = SRef v.
  Proof.
    destruct b as [| |k c|cs|]; cbn [is_inner_s]; try contradiction; intros _.
    - split; [|reflexivity]. cbn [dec_top]. rewrite enc_short. rewrite (proj2 (enc_dec_emb c)). reflexivity.
    - split; [|reflexivity]. cbn [dec_top]. rewrite enc_full, map_map. f_equal.
      induction cs as [|c cs IH]; cbn; [reflexivity|]. rewrite (proj2 (enc_dec_emb c)), IH. reflexivity.
  Qed.

  Definition not_ref (n : wnode) : Prop := match n with WRef _ => False | _ => True end.

  Lemma dec_top_not_ref v b : is_inner_s V b -> not_ref (dec_top V v b).
  Proof. destruct b; cbn; auto. Qed.

  (* ---------------------------------------------------------------- the invariant of a handle *)
  Section Inv.
    Variable g : getter.
    Variable Old : list nat -> ver -> snode -> Prop.
    Hypothesis Old_get : forall q w b, Old q w b -> g q w = Some b.
    Hypothesis Old_cl : forall q w b q1 w1 b1, Old q w b -> Reach V g q b q1 w1 b1 -> Old q1 w1 b1.
    Hypothesis Old_ok : forall q w b, Old q w b -> blob_ok V b.

    Inductive Good : list nat -> wnode -> node -> Prop :=
    | Good_nil p : Good p WNil Nil
    | Good_val p v : Good p (WValue v) (Value v)
    | Good_short p k c f c' : k <> [] -> Good (p ++ k) c c' ->
        (forall v, f = Clean v -> Old p v (enc V (WShort k c f))) -> Good p (WShort k c f) (Short k c')
    | Good_full p cs f cs' : GoodL p 0 cs cs' ->
        (forall v, f = Clean v -> Old p v (enc V (WFull cs f))) -> Good p (WFull cs f) (Full cs')
    | Good_ref p v b t : Old p v b -> Res V g p b t -> Good p (WRef v) t
    with GoodL : list nat -> nat -> list wnode -> list node -> Prop :=
    | GoodL_nil p i : GoodL p i [] []
    | GoodL_cons p i c c' t t' : Good (p ++ [i]) c c' -> GoodL p (S i) t t' -> GoodL p i (c :: t) (c' :: t').

    Scheme Good_mut := Induction for Good Sort Prop
    with GoodL_mut := Induction for GoodL Sort Prop.

    (* ---- what it contains: denotation, coherence, derived ---- *)
    Lemma Good_WRes : forall p n t, Good p n t -> WRes V g p n t.
    Proof.
      apply (Good_mut (fun p n t _ => WRes V g p n t) (fun p i cs cs' _ => WResL V g p i cs cs')); intros; try (constructor; auto).
      eapply WRes_ref; eauto.
    Qed.

    Lemma Good_Coh : forall p n t, Good p n t -> Coh V g p n.
    Proof.
      apply (Good_mut (fun p n t _ => Coh V g p n) (fun p i cs cs' _ => CohL V g p i cs)); intros; try (constructor; auto).
    Qed.

    Definition AllTop (p : list nat) (n : wnode) : Prop := forall q w r, WTop V p n q w r -> exists b, Old q w b.

    Lemma Good_tops : forall p n t, Good p n t -> AllTop p n.
    Proof.
      apply (Good_mut (fun p n t _ => AllTop p n)
               (fun p i cs cs' _ => forall j c, nth_error cs j = Some c -> AllTop (p ++ [i + j]) c)).
      - intros p q w r T. inversion T.
      - intros p v q w r T. inversion T.
      - intros p k c f c' Hk _ IH Hf q w r T. inversion T; subst.
        + eexists. apply Hf. reflexivity.
        + eapply IH; eauto.
      - intros p cs f cs' _ IH Hf q w r T. inversion T; subst.
        + eexists. apply Hf. reflexivity.
        + eapply (IH i c); eauto.
      - intros p v b t Ho _ q w r T. inversion T; subst. eauto.
      - intros p i j c Hj. destruct j; discriminate.
      - intros p i c c' t t' _ IHc _ IHt j c0 Hj. destruct j as [|j]; cbn in Hj.
        + inversion Hj; subst. rewrite Nat.add_0_r. exact IHc.
        + rewrite Nat.add_succ_r. apply (IHt j c0 Hj).
    Qed.

    Lemma Good_ref_inv p v t : Good p (WRef v) t -> exists b, Old p v b /\ Res V g p b t.
    Proof. intros H. inversion H; subst. eauto. Qed.
    Lemma Good_short_inv p k c f t : Good p (WShort k c f) t ->
      exists c', t = Short k c' /\ k <> [] /\ Good (p ++ k) c c' /\ (forall v, f = Clean v -> Old p v (enc V (WShort k c f))).
    Proof. intros H. inversion H; subst. eauto 6. Qed.
    Lemma Good_full_inv p cs f t : Good p (WFull cs f) t ->
      exists cs', t = Full cs' /\ GoodL p 0 cs cs' /\ (forall v, f = Clean v -> Old p v (enc V (WFull cs f))).
    Proof. intros H. inversion H; subst. eauto 6. Qed.
    Lemma Good_nil_inv p t : Good p WNil t -> t = Nil.
    Proof. intros H. inversion H; subst. reflexivity. Qed.
    Lemma Good_val_inv p v t : Good p (WValue v) t -> t = Value v.
    Proof. intros H. inversion H; subst. reflexivity. Qed.

    (* a reference / a resolved blob denotes a short or a full node *)
    Lemma Res_inner p b t : is_inner_s V b -> Res V g p b t -> is_nil V t = false /\ (forall v, t <> Value v).
    Proof.
      intros Hi HR. destruct b; cbn in Hi; try contradiction; inversion HR; subst; split; try reflexivity; intros; discriminate.
    Qed.

    Lemma Good_ref_inner p v t : Good p (WRef v) t -> is_nil V t = false /\ (forall x, t <> Value x).
    Proof.
      intros H. destruct (Good_ref_inv _ _ _ H) as [b [O R]]. eapply Res_inner; eauto. apply (Old_ok _ _ _ O).
    Qed.

    Lemma Good_is_nil p n t : Good p n t -> wis_nil V n = is_nil V t.
    Proof.
      intros H. destruct n; try (inversion H; subst; reflexivity).
      destruct (Good_ref_inner _ _ _ H) as [E _]. rewrite E. reflexivity.
    Qed.

    Lemma Good_value_iff p n t a : Good p n t -> (n = WValue a <-> t = Value a).
    Proof.
      intros H. destruct n; try (inversion H; subst; split; intros E; try discriminate; inversion E; reflexivity).
      split; [discriminate|]. intros E. destruct (Good_ref_inner _ _ _ H) as [_ X]. exfalso. eapply X; eauto.
    Qed.

    (* ---- children lists ---- *)
    Lemma GoodL_child p i cs cs' : GoodL p i cs cs' -> forall j, Good (p ++ [i + j]) (wchild V cs j) (child V cs' j).
    Proof.
      induction 1; intros j.
      - unfold wchild, child. destruct j; cbn; constructor.
      - destruct j as [|j].
        + rewrite Nat.add_0_r. exact H.
        + rewrite Nat.add_succ_r. apply (IHGoodL j).
    Qed.

    Lemma GoodL_upd p i cs cs' : GoodL p i cs cs' -> forall j x x', Good (p ++ [i + j]) x x' ->
      GoodL p i (wupd V cs j x) (upd V cs' j x').
    Proof.
      induction 1; intros j x x' Hx.
      - destruct j; constructor.
      - destruct j as [|j]; cbn.
        + rewrite Nat.add_0_r in Hx. constructor; auto.
        + rewrite Nat.add_succ_r in Hx. constructor; auto.
    Qed.

    Lemma GoodL_repeat p : forall n i, GoodL p i (repeat WNil n) (repeat Nil n).
    Proof. induction n; intros i; cbn; constructor; [constructor|auto]. Qed.

    Lemma GoodL_forallb_nil p i cs cs' : GoodL p i cs cs' -> forallb (wis_nil V) cs = forallb (is_nil V) cs'.
    Proof.
      induction 1; cbn; [reflexivity|]. rewrite (Good_is_nil _ _ _ H), IHGoodL. reflexivity.
    Qed.

    Lemma GoodL_single_pos p i cs cs' : GoodL p i cs cs' -> forall j, wsingle_pos_from V cs j = single_pos_from V cs' j.
    Proof.
      induction 1; intros j; cbn; [reflexivity|].
      rewrite (Good_is_nil _ _ _ H), (GoodL_forallb_nil _ _ _ _ H0), IHGoodL. reflexivity.
    Qed.

    (* ---- decoding a stored node ---- *)
    Lemma Good_dec_emb : forall q c t, Res V g q c t ->
      wfk V c = true -> (forall q1 w1 b1, Reach V g q c q1 w1 b1 -> Old q1 w1 b1) -> Good q (dec_emb V c) t.
    Proof.
      apply (Res_mut V g
        (fun q c t _ => wfk V c = true -> (forall q1 w1 b1, Reach V g q c q1 w1 b1 -> Old q1 w1 b1) -> Good q (dec_emb V c) t)
        (fun q i cs cs' _ => forallb (wfk V) cs = true ->
           (forall j c q1 w1 b1, nth_error cs j = Some c -> Reach V g (q ++ [i + j]) c q1 w1 b1 -> Old q1 w1 b1) ->
           GoodL q i (map (dec_emb V) cs) cs')).
      - intros; constructor.
      - intros; constructor.
      - intros q k c c' _ IH Hw Hr. cbn in Hw. apply andb_true_iff in Hw. destruct Hw as [Hk Hw].
        cbn [dec_emb]. constructor.
        + destruct k; [discriminate|discriminate].
        + apply IH; auto. intros q1 w1 b1 R. apply Hr. apply Reach_short; auto.
        + intros v E. discriminate.
      - intros q cs cs' _ IH Hw Hr. cbn in Hw. cbn [dec_emb]. constructor.
        + apply IH; auto. intros j c q1 w1 b1 Hj R. apply Hr. eapply Reach_full; eauto.
        + intros v E. discriminate.
      - intros q v b t Hg HRb _ _ Hr. cbn [dec_emb].
        assert (O : Old q v b) by (apply Hr; apply Reach_here; auto).
        eapply Good_ref; eauto.
      - intros; constructor.
      - intros q i c c' t t' _ IHc _ IHt Hw Hr. cbn in Hw. apply andb_true_iff in Hw. destruct Hw as [Hc Ht].
        cbn [map]. constructor.
        + apply IHc; auto. intros q1 w1 b1 R. apply (Hr 0 c q1 w1 b1); [reflexivity|]. rewrite Nat.add_0_r. exact R.
        + apply IHt; auto. intros j c0 q1 w1 b1 Hj R. apply (Hr (S j) c0 q1 w1 b1); [exact Hj|]. rewrite Nat.add_succ_r. exact R.
    Qed.

    Lemma Good_dec_top p v b t : Old p v b -> Res V g p b t -> Good p (dec_top V v b) t.
    Proof.
      intros O HR. destruct (Old_ok _ _ _ O) as [Hi Hw].
      assert (Hcl : forall q1 w1 b1, Reach V g p b q1 w1 b1 -> Old q1 w1 b1) by (intros; eapply Old_cl; eauto).
      pose proof (proj1 (enc_dec_top v b Hi)) as Ee.
      destruct b as [| |k c|cs|]; cbn in Hi; try contradiction.
      - inversion HR; subst. cbn [dec_top] in *. cbn in Hw. apply andb_true_iff in Hw. destruct Hw as [Hk Hw]. constructor.
        + destruct k; discriminate.
        + apply Good_dec_emb; auto. intros q1 w1 b1 R. apply Hcl. apply Reach_short; auto.
        + intros v0 E. inversion E; subst. rewrite Ee. exact O.
      - inversion HR; subst. cbn [dec_top] in *. cbn in Hw. constructor.
        + pose proof (Good_dec_emb p (SFull cs) (Full cs') HR Hw Hcl) as X. cbn [dec_emb] in X. inversion X; subst. assumption.
        + intros v0 E. inversion E; subst. rewrite Ee. exact O.
    Qed.

    (* trie.go resolve on a good node: succeeds, the result is not a reference, denotes the same, encodes the same *)
    Lemma Good_resolve p n t : Good p n t ->
      exists n', w_resolve V g n p = Some n' /\ Good p n' t /\ not_ref n' /\ enc_child V n' = enc_child V n /\
                 (not_ref n -> n' = n).
    Proof.
      intros H. destruct n; [eexists; cbn; repeat split; auto..|].
      destruct (Good_ref_inv _ _ _ H) as [b [O R]]. cbn. unfold w_resolve_ref. rewrite (Old_get _ _ _ O).
      eexists; split; [reflexivity|]. destruct (Old_ok _ _ _ O) as [Hi _].
      split; [apply Good_dec_top; auto|split; [apply dec_top_not_ref; auto|split]].
      - apply (enc_dec_top v b Hi).
      - intros [].
    Qed.

    (* ---------------------------------------------------------------- tryGet *)
    Definition get_ok (f : nat) : Prop := forall n p key t, Good p n t ->
      exists val n' dr, w_get V g f n p key = Some (val, n', dr) /\ val = get V f t key /\
        Good p n' t /\ enc_child V n' = enc_child V n /\ (dr = false -> n' = n).

    Lemma w_get_S_nonref f n p key : not_ref n -> w_get V g (S f) n p key = get_step V (w_get V g f) n p key.
    Proof. destruct n; cbn [not_ref]; intros H; try reflexivity. contradiction. Qed.

    Lemma get_step_ok f : get_ok f -> forall n p key t, Good p n t -> not_ref n ->
      exists val n' dr, get_step V (w_get V g f) n p key = Some (val, n', dr) /\ val = get V (S f) t key /\
        Good p n' t /\ enc_child V n' = enc_child V n /\ (dr = false -> n' = n).
    Proof.
      intros IH n p key t HG Hnr. destruct n as [|a|k c fl|cs fl|w]; cbn [not_ref] in Hnr; try contradiction.
      - apply Good_nil_inv in HG as ->. exists None, WNil, false. cbn. auto 6 using Good_nil.
      - pose proof (Good_val_inv _ _ _ HG) as ->. exists (Some a), (WValue a), false. cbn. auto 6.
      - destruct (Good_short_inv _ _ _ _ _ HG) as [c' [-> [Hk [Hc Hf]]]]. cbn [get_step get].
        destruct (prefix_len k key =? length k).
        + destruct (IH c (p ++ k) (skipn (length k) key) c' Hc) as [val [c1 [dr [E1 [E2 [G1 [E3 E4]]]]]]].
          rewrite E1. exists val, (if dr then WShort k c1 fl else WShort k c fl), dr.
          split; [reflexivity|split; [exact E2|]]. destruct dr; [|auto].
          split; [|split; [|discriminate]].
          * constructor; auto. intros v Ev. rewrite (enc_short V k c1 fl), E3, <- (enc_short V k c fl). auto.
          * destruct fl; cbn [enc_child]; [|reflexivity]. rewrite !enc_short, E3. reflexivity.
        + exists None, (WShort k c fl), false. auto 6.
      - destruct (Good_full_inv _ _ _ _ HG) as [cs' [-> [Hc Hf]]]. cbn [get_step get].
        destruct key as [|i r].
        + exists None, (WFull cs fl), false. auto 6.
        + pose proof (GoodL_child _ _ _ _ Hc i) as Hi. cbn [Nat.add] in Hi.
          destruct (IH _ _ r _ Hi) as [val [c1 [dr [E1 [E2 [G1 [E3 E4]]]]]]].
          rewrite E1. exists val, (if dr then WFull (wupd V cs i c1) fl else WFull cs fl), dr.
          split; [reflexivity|split; [exact E2|]]. destruct dr; [|auto].
          assert (Em : map (enc_child V) (wupd V cs i c1) = map (enc_child V) cs) by (apply map_wupd_same; exact E3).
          split; [|split; [|discriminate]].
          * replace (Full cs') with (Full (upd V cs' i (child V cs' i))) by (f_equal; apply upd_same).
            constructor.
            -- apply GoodL_upd; auto.
            -- intros v Ev. rewrite (enc_full V (wupd V cs i c1) fl), Em, <- (enc_full V cs fl). auto.
          * destruct fl; cbn [enc_child]; [|reflexivity]. rewrite !enc_full, Em. reflexivity.
    Qed.

    Lemma w_get_ok : forall f, get_ok f.
    Proof.
      induction f as [|f IH]; intros n p key t HG.
      - exists None, n, false. cbn. auto 6.
      - destruct n as [|a|k c fl|cs fl|w].
        1-4: rewrite w_get_S_nonref by exact I; apply get_step_ok; auto; exact I.
        destruct (Good_resolve _ _ _ HG) as [rn [Er [Gr [Nr [Ee _]]]]]. cbn in Er.
        destruct (get_step_ok f IH rn p key t Gr Nr) as [val [n' [dr [E1 [E2 [G1 [E3 _]]]]]]].
        exists val, n', true. cbn [w_get]. rewrite Er, E1.
        split; [reflexivity|split; [exact E2|split; [exact G1|split; [congruence|discriminate]]]].
    Qed.

    (* ---------------------------------------------------------------- what an insert / delete step answers *)
    (* against the logical step lr: the dirty flag agrees, the node denotes the result, a changed node satisfies Q,
       an unchanged one is the node given *)
    Definition step_res (Q : wnode -> Prop) (n : wnode) (p : list nat) (r : option (bool * wnode)) (lr : bool * node) : Prop :=
      exists d n', r = Some (d, n') /\ Good p n' (snd lr) /\ fst lr = d /\
        (d = true -> Q n') /\ (d = false -> n' = n).

    Lemma step_changed (Q : wnode -> Prop) n p n' t' : Good p n' t' -> Q n' -> step_res Q n p (Some (true, n')) (true, t').
    Proof. intros G H. exists true, n'. split; [reflexivity|split; [exact G|split; [reflexivity|split; [auto|discriminate]]]]. Qed.

    Lemma step_same (Q : wnode -> Prop) n p t' : Good p n t' -> step_res Q n p (Some (false, n)) (false, t').
    Proof. intros G. exists false, n. split; [reflexivity|split; [exact G|split; [reflexivity|split; [discriminate|auto]]]]. Qed.

    (* insert / delete on a reference: resolve, step on the loaded node; an unchanged result is the loaded node.
       The conclusion is that of ins_ok / del_ok at n := WRef w *)
    Lemma resolve_step (Q : wnode -> Prop) (step : wnode -> option (bool * wnode)) w p t lr :
      Good p (WRef w) t -> (forall rn, Good p rn t -> not_ref rn -> step_res Q rn p (step rn) lr) ->
      exists d n', match w_resolve_ref V g p w with
                   | None => None
                   | Some rn => match step rn with
                                | None => None
                                | Some (d, nn) => if d then Some (true, nn) else Some (false, rn)
                                end
                   end = Some (d, n') /\
        Good p n' (snd lr) /\ fst lr = d /\ (d = true -> Q n') /\
        (d = false -> n' = WRef w \/ exists w0, @WRef V w = WRef w0 /\ w_resolve_ref V g p w0 = Some n').
    Proof.
      intros HG H. destruct (Good_resolve _ _ _ HG) as [rn [Er [Gr [Nr _]]]]. cbn [w_resolve] in Er.
      destruct (H rn Gr Nr) as [d [n' [E1 [G1 [E2 [E3 E4]]]]]]. rewrite Er, E1. destruct d.
      - exists true, n'. split; [reflexivity|split; [exact G1|split; [exact E2|split; [exact E3|discriminate]]]].
      - exists false, rn. rewrite (E4 eq_refl) in G1.
        split; [reflexivity|split; [exact G1|split; [exact E2|split; [discriminate|]]]]. intros _. right. exists w. auto.
    Qed.

    (* ---------------------------------------------------------------- insert *)
    Definition wmk_leaf (k : list nat) (x : wnode) : wnode := match k with [] => x | _ => WShort k x Dirty end.

    Lemma w_insert_nil f p k x : w_insert V veqb g (S f) WNil p k x = Some (true, wmk_leaf k x).
    Proof. destruct k; reflexivity. Qed.

    Lemma Good_mk_leaf p k x x' : Good (p ++ k) x x' -> Good p (wmk_leaf k x) (mk_leaf V k x').
    Proof.
      destruct k as [|a k]; cbn [wmk_leaf mk_leaf]; intros H.
      - rewrite app_nil_r in H. exact H.
      - constructor; auto; discriminate.
    Qed.

    Lemma ins_nil_sim f p k x x' : Good (p ++ k) x x' ->
      exists d b, w_insert V veqb g f WNil p k x = Some (d, b) /\ Good p b (snd (insert V veqb f Nil k x')).
    Proof.
      intros H. destruct f as [|f].
      - exists false, WNil. cbn. split; [reflexivity|constructor].
      - exists true, (wmk_leaf k x). rewrite w_insert_nil, insert_nil. cbn [snd]. split; [reflexivity|apply Good_mk_leaf; exact H].
    Qed.

    Lemma ins_nil_val f p k v :
      exists d b, w_insert V veqb g f WNil p k (WValue v) = Some (d, b) /\
                  forall P, Good P b (snd (insert V veqb f Nil k (Value v))).
    Proof.
      destruct f as [|f].
      - exists false, WNil. cbn. split; [reflexivity|constructor].
      - exists true, (wmk_leaf k (WValue v)). rewrite w_insert_nil, insert_nil. cbn [snd]. split; [reflexivity|].
        intros P. apply Good_mk_leaf. constructor.
    Qed.

    (* w_insert answers (dirty, node) of the logical insert; when nothing changed the node given is kept or, if it was
       a reference, the node it resolved to *)
    Definition ins_ok (f : nat) : Prop := forall n p key v t, Good p n t ->
      exists d n', w_insert V veqb g f n p key (WValue v) = Some (d, n') /\
        Good p n' (snd (insert V veqb f t key (Value v))) /\ fst (insert V veqb f t key (Value v)) = d /\
        (d = false -> n' = n \/ exists w, n = WRef w /\ w_resolve_ref V g p w = Some n').

    Lemma ins_step_ok f : ins_ok f -> forall n p key v t, key <> [] -> Good p n t -> not_ref n ->
      step_res (fun _ => True) n p (ins_step V (w_insert V veqb g f) n p key (WValue v)) (insert V veqb (S f) t key (Value v)).
    Proof.
      intros IH n p key v t Hkey HG Hnr. destruct key as [|i r]; [congruence|]. clear Hkey.
      destruct n as [|a|k c fl|cs fl|w]; cbn [not_ref] in Hnr; try contradiction.
      - apply Good_nil_inv in HG as ->. cbn [ins_step insert]. apply step_changed; [|exact I].
        constructor; [discriminate|constructor|discriminate].
      - pose proof (Good_val_inv _ _ _ HG) as ->. apply step_same. exact HG.
      - destruct (Good_short_inv _ _ _ _ _ HG) as [c' [-> [Hk [Hc Hf]]]]. cbn [ins_step insert].
        set (key := i :: r) in *. set (m := prefix_len key k) in *.
        pose proof (prefix_len_le_r key k) as Hm. fold m in Hm.
        destruct (m =? length k) eqn:E.
        + apply Nat.eqb_eq in E.
          assert (Ef : firstn m key = k).
          { rewrite E. apply firstn_full_prefix. rewrite prefix_len_comm. exact E. }
          rewrite Ef.
          destruct (IH c (p ++ k) (skipn m key) v c' Hc) as [d [nn [E1 [G1 [E2 E3]]]]]. rewrite E1.
          destruct (insert V veqb f c' (skipn m key) (Value v)) as [d0 t1]. cbn [fst snd] in *. subst d0.
          destruct d; [|apply step_same; exact HG].
          apply step_changed; [|exact I]. constructor; auto. discriminate.
        + apply Nat.eqb_neq in E. assert (Hlt : m < length k) by lia.
          assert (Hc1 : Good ((p ++ firstn (S m) k) ++ skipn (S m) k) c c').
          { rewrite <- app_assoc, firstn_skipn. exact Hc. }
          destruct (ins_nil_sim f _ _ _ _ Hc1) as [d1 [b1 [E1 G1]]]. rewrite E1.
          destruct (ins_nil_val f (p ++ firstn (S m) key) (skipn (S m) key) v) as [d2 [b2 [E2 G2]]]. rewrite E2.
          set (b1' := snd (insert V veqb f Nil (skipn (S m) k) c')) in *.
          set (b2' := snd (insert V veqb f Nil (skipn (S m) key) (Value v))) in *.
          assert (Ep : (p ++ firstn m key) ++ [0 + nth m k 0] = p ++ firstn (S m) k).
          { cbn [Nat.add]. rewrite <- app_assoc. f_equal. rewrite (firstn_S_nth 0) by exact Hlt.
            unfold m. rewrite prefix_firstn. reflexivity. }
          assert (GB : Good (p ++ firstn m key)
                         (WFull (wupd V (wupd V (wempty_children V) (nth m k 0) b1) (nth m key 0) b2) Dirty)
                         (Full (upd V (upd V (empty_children V) (nth m k 0) b1') (nth m key 0) b2'))).
          { constructor; [|discriminate]. apply GoodL_upd; [|apply G2]. apply GoodL_upd; [apply GoodL_repeat|].
            rewrite Ep. exact G1. }
          destruct (m =? 0) eqn:Z; (apply step_changed; [|exact I]).
          * apply Nat.eqb_eq in Z. rewrite Z in GB. cbn [firstn] in GB. rewrite app_nil_r in GB. rewrite Z. exact GB.
          * apply Nat.eqb_neq in Z. constructor; [|exact GB|discriminate].
            unfold key. destruct m; [congruence|discriminate].
      - destruct (Good_full_inv _ _ _ _ HG) as [cs' [-> [Hc Hf]]]. cbn [ins_step insert].
        pose proof (GoodL_child _ _ _ _ Hc i) as Hi. cbn [Nat.add] in Hi.
        destruct (IH _ _ r v _ Hi) as [d [nn [E1 [G1 [E2 E3]]]]]. rewrite E1.
        destruct (insert V veqb f (child V cs' i) r (Value v)) as [d0 t1]. cbn [fst snd] in *. subst d0.
        destruct d; [|apply step_same; exact HG].
        apply step_changed; [|exact I]. constructor; [|discriminate]. apply GoodL_upd; auto.
    Qed.

    Lemma w_insert_S_nonref f n p i r x : not_ref n ->
      w_insert V veqb g (S f) n p (i :: r) x = ins_step V (w_insert V veqb g f) n p (i :: r) x.
    Proof. destruct n; cbn [not_ref]; intros H; try reflexivity. contradiction. Qed.

    Lemma w_insert_ok : forall f, ins_ok f.
    Proof.
      induction f as [|f IH]; intros n p key v t HG.
      - exists false, n. cbn. auto.
      - destruct key as [|i r].
        + (* the key is exhausted: the value replaces whatever is there *)
          cbn [w_insert insert].
          destruct n as [|a|k c fl|cs fl|w].
          * apply Good_nil_inv in HG as ->. exists true, (WValue v). cbn.
            split; [reflexivity|split; [constructor|split; [reflexivity|discriminate]]].
          * pose proof (Good_val_inv _ _ _ HG) as ->. exists (negb (veqb a v)), (WValue v). cbn.
            split; [reflexivity|split; [constructor|split; [reflexivity|]]].
            intros E. apply negb_false_iff in E. apply veqb_sound in E. subst. auto.
          * destruct (Good_short_inv _ _ _ _ _ HG) as [c' [-> _]]. exists true, (WValue v). cbn.
            split; [reflexivity|split; [constructor|split; [reflexivity|discriminate]]].
          * destruct (Good_full_inv _ _ _ _ HG) as [cs' [-> _]]. exists true, (WValue v). cbn.
            split; [reflexivity|split; [constructor|split; [reflexivity|discriminate]]].
          * destruct (Good_ref_inner _ _ _ HG) as [_ Hv]. exists true, (WValue v).
            assert (E : (match t with Value a => (negb (veqb a v), Value v) | _ => (true, Value v) end) = (true, Value v)).
            { destruct t; auto. exfalso. eapply Hv; eauto. }
            rewrite E. cbn. split; [reflexivity|split; [constructor|split; [reflexivity|discriminate]]].
        + destruct n as [|a|k c fl|cs fl|w].
          1-4: rewrite w_insert_S_nonref by exact I;
               (destruct (ins_step_ok f IH _ p (i :: r) v t ltac:(discriminate) HG I) as [d [n' [E1 [G1 [E2 [_ E3]]]]]]);
               exists d, n'; auto 6.
          destruct (resolve_step (fun _ => True) (fun rn => ins_step V (w_insert V veqb g f) rn p (i :: r) (WValue v))
                      w p t (insert V veqb (S f) t (i :: r) (Value v)) HG) as [d [n' [E1 [G1 [E2 [_ E3]]]]]].
          { intros rn Gr Nr. apply ins_step_ok; auto. discriminate. }
          exists d, n'. auto.
    Qed.

    (* ---------------------------------------------------------------- delete *)
    Definition del_ok (f : nat) : Prop := forall n p key t, Good p n t ->
      exists d n', w_delete V g f n p key = Some (d, n') /\
        Good p n' (snd (delete V f t key)) /\ fst (delete V f t key) = d /\
        (d = true -> not_ref n') /\
        (d = false -> n' = n \/ exists w, n = WRef w /\ w_resolve_ref V g p w = Some n').

    (* the short node put above a changed child: keys are joined if the (resolved) child ch is short, otherwise the
       child as it stands (ch0) is kept below k *)
    Lemma step_merge n p k ch0 ch t lr : k <> [] -> Good (p ++ k) ch0 t -> Good (p ++ k) ch t -> not_ref ch ->
      lr = (true, merge V k t) ->
      step_res not_ref n p (match ch with WShort k2 c2 _ => Some (true, WShort (k ++ k2) c2 Dirty) | _ => Some (true, WShort k ch0 Dirty) end) lr.
    Proof.
      intros Hk G0 G Nr ->. destruct ch as [|a|k2 c2 f2|cs2 f2|w]; cbn [not_ref] in Nr; try contradiction.
      - apply Good_nil_inv in G as ->. apply step_changed; [|exact I]. apply Good_short; [exact Hk|exact G0|discriminate].
      - pose proof (Good_val_inv _ _ _ G) as ->. apply step_changed; [|exact I]. apply Good_short; [exact Hk|exact G0|discriminate].
      - destruct (Good_short_inv _ _ _ _ _ G) as [c2' [-> [Hk2 [Hc2 _]]]]. apply step_changed; [|exact I].
        apply Good_short; [destruct k; [congruence|discriminate]|rewrite app_assoc; exact Hc2|discriminate].
      - destruct (Good_full_inv _ _ _ _ G) as [cs2' [-> _]]. apply step_changed; [|exact I].
        apply Good_short; [exact Hk|exact G0|discriminate].
    Qed.

    Lemma del_step_ok f : del_ok f -> forall n p key t, Good p n t -> not_ref n ->
      exists d n', del_step V g (w_delete V g f) n p key = Some (d, n') /\
        Good p n' (snd (delete V (S f) t key)) /\ fst (delete V (S f) t key) = d /\
        (d = true -> not_ref n') /\ (d = false -> n' = n).
    Proof.
      intros IH n p key t HG Hnr.
      destruct n as [|a|k c fl|cs fl|w]; cbn [not_ref] in Hnr; try contradiction.
      - apply Good_nil_inv in HG as ->. apply step_same. constructor.
      - pose proof (Good_val_inv _ _ _ HG) as ->. apply (step_changed _ _ _ WNil Nil); [constructor|exact I].
      - destruct (Good_short_inv _ _ _ _ _ HG) as [c' [-> [Hk [Hc Hf]]]]. cbn [del_step delete].
        set (m := prefix_len key k) in *.
        pose proof (prefix_len_le_r key k) as Hm. fold m in Hm.
        destruct (m <? length k) eqn:E1; [apply step_same; exact HG|].
        apply Nat.ltb_ge in E1. assert (Em : m = length k) by lia.
        destruct (m =? length key); [apply (step_changed _ _ _ WNil Nil); [constructor|exact I]|].
        assert (Ef : firstn (length k) key = k).
        { apply firstn_full_prefix. rewrite prefix_len_comm. exact Em. }
        rewrite Ef.
        destruct (IH c (p ++ k) (skipn (length k) key) c' Hc) as [d [ch [E2 [G2 [E3 [E4 E5]]]]]]. rewrite E2.
        destruct (delete V f c' (skipn (length k) key)) as [d0 ch']. cbn [fst snd] in *. subst d0.
        destruct d; [|apply step_same; exact HG].
        apply (step_merge _ _ _ _ _ ch'); auto. destruct ch'; reflexivity.
      - destruct (Good_full_inv _ _ _ _ HG) as [cs' [-> [Hc Hf]]]. cbn [del_step delete].
        destruct key as [|i r]; [apply step_same; exact HG|].
        pose proof (GoodL_child _ _ _ _ Hc i) as Hi. cbn [Nat.add] in Hi.
        destruct (IH _ _ r _ Hi) as [d [nn [E2 [G2 [E3 [E4 E5]]]]]]. rewrite E2.
        destruct (delete V f (child V cs' i) r) as [d0 nn']. cbn [fst snd] in *. subst d0.
        destruct d; [|apply step_same; exact HG].
        assert (Hc1 : GoodL p 0 (wupd V cs i nn) (upd V cs' i nn')) by (apply GoodL_upd; auto).
        cbv zeta. unfold wsingle_pos, single_pos. rewrite (GoodL_single_pos _ _ _ _ Hc1 0).
        destruct (single_pos_from V (upd V cs' i nn') 0) as [pos|];
          [|apply step_changed; [apply Good_full; [exact Hc1|discriminate]|exact I]].
        pose proof (GoodL_child _ _ _ _ Hc1 pos) as Hp. cbn [Nat.add] in Hp.
        destruct (negb (pos =? 16));
          [|apply step_changed; [apply Good_short; [discriminate|exact Hp|discriminate]|exact I]].
        destruct (Good_resolve _ _ _ Hp) as [cn [Er [Gc [Nc _]]]]. rewrite Er.
        apply (step_merge _ p [pos] _ _ (child V (upd V cs' i nn') pos)); auto; [discriminate|].
        destruct (child V (upd V cs' i nn') pos); reflexivity.
    Qed.

    Lemma w_delete_S_nonref f n p key : not_ref n ->
      w_delete V g (S f) n p key = del_step V g (w_delete V g f) n p key.
    Proof. destruct n; cbn [not_ref]; intros H; try reflexivity. contradiction. Qed.

    Lemma w_delete_ok : forall f, del_ok f.
    Proof.
      induction f as [|f IH]; intros n p key t HG.
      - exists false, n. cbn. split; [reflexivity|split; [exact HG|split; [reflexivity|split; [discriminate|auto]]]].
      - destruct n as [|a|k c fl|cs fl|w].
        1-4: rewrite w_delete_S_nonref by exact I;
             (destruct (del_step_ok f IH _ p key t HG I) as [d [n' [E1 [G1 [E2 [E3 E4]]]]]]);
             exists d, n'; auto 8.
        apply (resolve_step not_ref (fun rn => del_step V g (w_delete V g f) rn p key) w p t (delete V (S f) t key) HG).
        intros rn Gr Nr. apply del_step_ok; auto.
    Qed.

    (* ---------------------------------------------------------------- the handle: Trie.Get / Trie.Update *)
    Theorem wt_get_refines w key t : Good [] w t ->
      exists val w', wt_get V g w key = Some (val, w') /\ val = trie_get V t key /\ Good [] w' t.
    Proof.
      intros HG. destruct (w_get_ok (S (length key)) w [] key t HG) as [val [w' [dr [E1 [E2 [G1 _]]]]]].
      exists val, w'. unfold wt_get. rewrite E1. auto.
    Qed.

    Theorem wt_update_refines w key ov t : Good [] w t ->
      exists w', wt_update V veqb g w key ov = Some w' /\ Good [] w' (trie_update V veqb t key ov).
    Proof.
      intros HG. unfold wt_update, trie_update, trie_insert, trie_delete. destruct ov as [v|].
      - destruct (w_insert_ok (S (length key)) w [] key v t HG) as [d [w' [E1 [G1 _]]]]. rewrite E1. eauto.
      - destruct (w_delete_ok (S (length key)) w [] key t HG) as [d [w' [E1 [G1 _]]]]. rewrite E1. eauto.
    Qed.

    (* any sequence of reads, updates and deletes: never a missing node, the handle denotes what C06's trie_update gives,
       stays coherent, and its clean nodes and references stay in Old *)
    Theorem wt_run_refines : forall ops w t, Good [] w t ->
      exists w', wt_run V veqb g ops w = Some w' /\ Good [] w' (lrun veqb ops t).
    Proof.
      induction ops as [|[k|k ov] ops IH]; intros w t HG; cbn [wt_run lrun].
      - eauto.
      - destruct (wt_get_refines w k t HG) as [val [w' [E1 [_ G1]]]]. rewrite E1. apply IH; auto.
      - destruct (wt_update_refines w k ov t HG) as [w' [E1 G1]]. rewrite E1. apply IH; auto.
    Qed.

    (* Trie.Commit's own resolution of the root, and the premises of the canonical commit step *)
    Lemma wt_commit_resolve big skip newv w :
      wt_commit V g big skip newv w =
      match w_resolve V g w [] with Some r => Some (wstore V big skip newv [] r) | None => None end.
    Proof. destruct w; reflexivity. Qed.

    Lemma Good_root_inner w t : Good [] w t -> wfc V t -> t <> Nil ->
      exists r, w_resolve V g w [] = Some r /\ Good [] r t /\ is_inner V r /\ w <> WNil.
    Proof.
      intros HG Hw Hn. destruct (Good_resolve _ _ _ HG) as [r [Er [Gr [Nr _]]]].
      exists r. split; [exact Er|split; [exact Gr|split]].
      - destruct r as [|a| | |]; cbn in *; auto.
        + apply Good_nil_inv in Gr. contradiction.
        + pose proof (Good_val_inv _ _ _ Gr) as ->. destruct Hw as [E|E]; [discriminate|inversion E].
      - intros ->. apply Good_nil_inv in HG. contradiction.
    Qed.

    (* conversely: a coherent working trie that denotes t and whose followed nodes are all in Old is Good *)
    Lemma Good_of_coherent : forall p n t, WRes V g p n t -> Coh V g p n ->
      (forall q w b, Reach V g p (enc_child V n) q w b -> Old q w b) -> Good p n t.
    Proof.
      apply (WRes_mut V g
        (fun p n t _ => Coh V g p n -> (forall q w b, Reach V g p (enc_child V n) q w b -> Old q w b) -> Good p n t)
        (fun p i cs cts _ => CohL V g p i cs ->
           (forall j c q w b, nth_error cs j = Some c -> Reach V g (p ++ [i + j]) (enc_child V c) q w b -> Old q w b) ->
           GoodL p i cs cts)).
      - intros; constructor.
      - intros; constructor.
      - intros p k c f c' _ IH HC HR. inversion HC as [| | |p0 k0 c0 f0 Hk Hcc Hf|]; subst.
        assert (Inner : forall q w b, Reach V g p (enc V (WShort k c f)) q w b -> Old q w b).
        { intros q w b R. apply HR. destruct f as [|v]; cbn [enc_child]; [exact R|].
          eapply Reach_below; [apply (Hf v eq_refl)|exact R]. }
        constructor; auto.
        + apply IH; auto. intros q w b R. apply Inner. rewrite enc_short. apply Reach_short. exact R.
        + intros v Ev. subst f. apply HR. cbn [enc_child]. apply Reach_here. apply (Hf v eq_refl).
      - intros p cs f cs' _ IH HC HR. inversion HC as [| | | |p0 cs0 f0 Hcc Hf]; subst.
        assert (Inner : forall q w b, Reach V g p (enc V (WFull cs f)) q w b -> Old q w b).
        { intros q w b R. apply HR. destruct f as [|v]; cbn [enc_child]; [exact R|].
          eapply Reach_below; [apply (Hf v eq_refl)|exact R]. }
        constructor; auto.
        + apply IH; auto. intros j c q w b Hj R. apply Inner. rewrite enc_full.
          eapply Reach_full; [apply map_nth_error; exact Hj|exact R].
        + intros v Ev. subst f. apply HR. cbn [enc_child]. apply Reach_here. apply (Hf v eq_refl).
      - intros p v b t Hg Hr _ HR. eapply Good_ref; eauto. apply HR. cbn [enc_child]. apply Reach_here. exact Hg.
      - intros; constructor.
      - intros p i c c' t t' _ IHc _ IHt HC HR. inversion HC as [|p0 i0 c0 t0 Hc0 Ht0]; subst. constructor.
        + apply IHc; auto. intros q w b R. apply (HR 0%nat c q w b); [reflexivity|]. rewrite Nat.add_0_r. exact R.
        + apply IHt; auto. intros j c1 q w b Hj R. apply (HR (S j) c1 q w b); [exact Hj|]. rewrite Nat.add_succ_r. exact R.
    Qed.
  End Inv.

  (* ---------------------------------------------------------------- handles opened at the head root of a history *)
  Notation store := (store V).
  Local Open Scope N_scope.

  (* trie.New(Root{hash, ver}, db): a reference to the head root; the empty trie if nothing was committed yet *)
  Definition head_handle (chain : list (ver * node)) : wnode :=
    match chain with [] => WNil | vt :: _ => WRef (fst vt) end.
  Definition head_trie (chain : list (ver * node)) : node :=
    match chain with [] => Nil | vt :: _ => snd vt end.
  (* the nodes the head root follows *)
  Definition head_old (g : getter) (chain : list (ver * node)) : list nat -> ver -> snode -> Prop :=
    fun q w b => match chain with [] => False | vt :: _ => RR V g (fst vt) q w b end.

  Section Head.
    Variable s : store.
    Variable name : N.
    Variable chain : list (ver * node).
    Variable P : N.
    Hypothesis HI : Inv V s name chain P.
    Let g := sget V s name.

    Lemma head_old_get q w b : head_old g chain q w b -> g q w = Some b.
    Proof. unfold head_old. destruct chain; [contradiction|]. apply Reach_get. Qed.
    Lemma head_old_cl q w b q1 w1 b1 : head_old g chain q w b -> Reach V g q b q1 w1 b1 -> head_old g chain q1 w1 b1.
    Proof. unfold head_old. destruct chain; [contradiction|]. intros R R1. eapply Reach_trans; eauto. Qed.
    Lemma head_old_ok q w b : head_old g chain q w b -> blob_ok V b.
    Proof.
      unfold head_old. destruct chain as [|vt ch]; [contradiction|]. intros R.
      destruct HI as [_ [HF _]]. inversion HF as [|x l [_ [Hb _]] _]; subst. eapply Hb; eauto.
    Qed.

    Lemma head_handle_good : Good g (head_old g chain) [] (head_handle chain) (head_trie chain).
    Proof.
      unfold head_handle, head_trie, head_old. destruct chain as [|vt ch]; [constructor|].
      destruct HI as [_ [HF _]]. inversion HF as [|x l [HR _] _]; subst.
      inversion HR as [| | | |p0 v0 b t0 Hg Hr]; subst.
      apply (Good_ref g _ [] (fst vt) b (snd vt)); [|exact Hr].
      unfold RR. apply Reach_here. exact Hg.
    Qed.

    (* `derived`, coherence and denotation for every handle obtained from the head root by reads, updates and deletes;
       the operations never fail (no MissingNodeError on a live root) *)
    Theorem handle_from_ops ops :
      exists w, wt_run V veqb g ops (head_handle chain) = Some w /\
        WRes V g [] w (lrun veqb ops (head_trie chain)) /\ Coh V g [] w /\ derived V g chain w.
    Proof.
      destruct (wt_run_refines g (head_old g chain) head_old_get head_old_cl head_old_ok ops _ _ head_handle_good)
        as [w [E GW]].
      exists w. split; [exact E|split; [|split]].
      - eapply Good_WRes; eauto. apply head_old_get.
      - eapply Good_Coh; eauto. apply head_old_get.
      - intros q w0 r T. destruct (Good_tops g (head_old g chain) _ _ _ GW q w0 r T) as [b Hb].
        unfold head_old in Hb. destruct chain; [contradiction|eauto].
    Qed.
    (* the handle after the operations, resolved as Trie.Commit does: the working-trie premises of a canonical commit *)
    Lemma handle_commit_premises w0 ops :
      Good g (head_old g chain) [] w0 (head_trie chain) ->
      wfc V (lrun veqb ops (head_trie chain)) -> lrun veqb ops (head_trie chain) <> Nil ->
      exists w r, wt_run V veqb g ops w0 = Some w /\ w_resolve V g w [] = Some r /\
        Coh V g [] r /\ WRes V g [] r (lrun veqb ops (head_trie chain)) /\ is_inner V r /\ derived V g chain r.
    Proof.
      intros G0 Wt Hne.
      destruct (wt_run_refines g _ head_old_get head_old_cl head_old_ok ops _ _ G0) as [w [E GW]].
      destruct (Good_root_inner g _ head_old_get head_old_cl head_old_ok w _ GW Wt Hne) as [r [Er [Gr [Ir _]]]].
      exists w, r. split; [exact E|split; [exact Er|split; [|split; [|split; [exact Ir|]]]]].
      - eapply Good_Coh; eauto. apply head_old_get.
      - eapply Good_WRes; eauto. apply head_old_get.
      - intros q w1 b T. destruct (Good_tops g _ _ _ _ Gr q w1 b T) as [b0 Hb].
        unfold head_old in Hb. destruct chain; [contradiction|eauto].
    Qed.
  End Head.

  (* ---------------------------------------------------------------- histories given as lists of operations *)
  Definition hop_valid (o : hop V) : Prop := vkey (hop_key V o).

  Lemma lrun_wfc : forall ops t, wfc V t -> Forall hop_valid ops -> wfc V (lrun veqb ops t).
  Proof.
    induction ops as [|[k|k ov] ops IH]; intros t Ht Hv; cbn [lrun]; auto; inversion Hv; subst.
    - apply IH; auto.
    - apply IH; auto. apply update_wf_root; auto.
  Qed.

  (* one block of the canonical chain: a handle opened at the head root, the operations, Trie.Commit(newv) *)
  Definition commit_ops (s : store) (name : N) (chain : list (ver * node)) (newv : ver)
             (big : wnode -> bool) (skip : bool) (ops : list (hop V)) : store :=
    match wt_run V veqb (sget V s name) ops (head_handle chain) with
    | Some w =>
      match wt_commit V (sget V s name) big skip newv w with
      | Some (_, es) => commit V s name newv es
      | None => s
      end
    | None => s
    end.

  (* History of Store/ProofsLink.v with the canonical commit step given by what the client DID (operations on valid keys
     leaving a non-empty trie) instead of a working trie with hypotheses about it *)
  Inductive OpsHistory (name : N) : store -> list (ver * node) -> N -> Prop :=
  | OH_init s P : (0 < hf V s)%N -> OpsHistory name s [] P
  | OH_block s chain P newv big skip ops :
      OpsHistory name s chain P ->
      hist_fresh V s name newv -> (P <= fst newv)%N ->
      match chain with [] => True | vt :: _ => (fst (fst vt) < fst newv)%N end ->
      Forall hop_valid ops -> lrun veqb ops (head_trie chain) <> Nil ->
      OpsHistory name (commit_ops s name chain newv big skip ops)
                 ((newv, lrun veqb ops (head_trie chain)) :: chain) P
  | OH_other s chain P name' v' es :
      OpsHistory name s chain P ->
      name' <> name \/ (hist_fresh V s name v' /\ (P <= fst v')%N) ->
      OpsHistory name (commit V s name' v' es) chain P
  | OH_prune s newer anchor older P base target cps f nodes :
      OpsHistory name s (newer ++ anchor :: older) P ->
      (P <= base)%N -> (base <= target)%N -> (base mod hf V s = 0)%N -> (target mod hf V s = 0)%N ->
      Forall (fun vt => (target <= fst (fst vt))%N) newer -> (fst (fst anchor) < target)%N ->
      checkpoint_nodes V f s name (fst anchor) base = Some nodes ->
      cps_for V name cps nodes ->
      OpsHistory name (prune V s cps base target) (live_after V name newer anchor) target.

  Definition all_wfc (chain : list (ver * node)) : Prop := Forall (fun vt => wfc V (snd vt)) chain.

  Lemma head_trie_wfc chain : all_wfc chain -> wfc V (head_trie chain).
  Proof. intros H. destruct chain; [left; reflexivity|]. inversion H; auto. Qed.

  (* the step: the store commit_ops computes is a canonical commit step of History, whose premises about the working
     trie (coherent, denotes the trie, inner, derived) are all discharged *)
  Lemma commit_ops_step name s chain P newv big skip ops :
    History V name s chain P -> all_wfc chain ->
    hist_fresh V s name newv -> (P <= fst newv)%N ->
    match chain with [] => True | vt :: _ => (fst (fst vt) < fst newv)%N end ->
    Forall hop_valid ops -> lrun veqb ops (head_trie chain) <> Nil ->
    History V name (commit_ops s name chain newv big skip ops) ((newv, lrun veqb ops (head_trie chain)) :: chain) P /\
    wfc V (lrun veqb ops (head_trie chain)).
  Proof.
    intros H W Hfr HP Hlt Hv Hne.
    pose proof (History_Inv V name s chain P H) as HI.
    assert (Wt : wfc V (lrun veqb ops (head_trie chain))) by (apply lrun_wfc; auto; apply head_trie_wfc; auto).
    split; [|exact Wt].
    destruct (handle_commit_premises s name chain P HI _ ops (head_handle_good s name chain P HI) Wt Hne)
      as (w & r & E & Er & C1 & C2 & Ir & C3).
    unfold commit_ops. rewrite E, wt_commit_resolve, Er.
    destruct (wstore V big skip newv [] r) as [r' es] eqn:Ew.
    replace es with (snd (wstore V big skip newv [] r)) by (rewrite Ew; reflexivity).
    apply H_commit; auto.
  Qed.

  Theorem ops_history_sound name s chain P :
    OpsHistory name s chain P -> History V name s chain P /\ all_wfc chain.
  Proof.
    induction 1 as [s P Hf|s chain P newv big skip ops _ [IH W] Hfr HP Hlt Hv Hne|s chain P name' v' es _ [IH W] Hc|
                    s newer anchor older P base target cps f nodes _ [IH W] HPb Hbt Hab Hat Hnew Hanc Hit Hcps].
    - split; [apply H_init; auto|constructor].
    - destruct (commit_ops_step name s chain P newv big skip ops IH W Hfr HP Hlt Hv Hne) as [H1 H2].
      split; [exact H1|constructor; auto].
    - split; [apply H_other; auto|exact W].
    - split; [eapply H_prune; eauto|].
      unfold all_wfc in *. rewrite Forall_forall in *. intros vt I. apply W. eapply live_after_sub; eauto.
  Qed.

  (* every live canonical root of a history given by operations resolves to the trie its operations produced from the
     parent's trie, which is a well-formed trie — so equal content means equal tree (C06 trie_canonical) *)
  Theorem ops_history_roots name s chain P v t :
    OpsHistory name s chain P -> In (v, t) chain ->
    Res V (sget V s name) [] (SRef v) t /\ wfc V t.
  Proof.
    intros H I. destruct (ops_history_sound name s chain P H) as [HH W]. split.
    - eapply history_roots_resolve; eauto.
    - unfold all_wfc in W. rewrite Forall_forall in W. apply (W (v, t) I).
  Qed.

  (* every live root of a history given as operation lists resolves, also through open_root, to a well-formed trie *)
  Theorem ops_history_roots_open name s chain P v t :
    OpsHistory name s chain P -> In (v, t) chain ->
    Res V (sget V s name) [] (SRef v) t /\
    (exists f0, forall f, (f0 <= f)%nat -> open_root V f s name v = Some t) /\ wfc V t.
  Proof.
    intros H I. destruct (ops_history_sound name s chain P H) as [HH _].
    destruct (ops_history_roots name s chain P v t H I) as [R W].
    split; [exact R|split; [eapply history_roots_open; eauto|exact W]].
  Qed.

  (* one round: every live root resolves to the same trie before and after it *)
  Theorem ops_prune_round_preserves name s newer anchor older P base target cps f nodes v t :
    OpsHistory name s (newer ++ anchor :: older) P ->
    (P <= base)%N -> (base <= target)%N -> (base mod hf V s = 0)%N -> (target mod hf V s = 0)%N ->
    Forall (fun vt => (target <= fst (fst vt))%N) newer -> (fst (fst anchor) < target)%N ->
    checkpoint_nodes V f s name (fst anchor) base = Some nodes ->
    cps_for V name cps nodes ->
    In (v, t) (live_after V name newer anchor) ->
    exists f0, forall f', (f0 <= f')%nat ->
      open_root V f' s name v = Some t /\ open_root V f' (prune V s cps base target) name v = Some t.
  Proof.
    intros H. destruct (ops_history_sound name s _ P H) as [HH _]. intros. eapply prune_round_preserves_open; eauto.
  Qed.

  (* the tries two live roots (of any two histories given by operations)
     resolve to are equal as trees as soon as they have the same content — so any hash of the tree is a function of the
     key/value set *)
  Theorem ops_history_canonical name s chain P v t name' s' chain' P' v' t' :
    OpsHistory name s chain P -> In (v, t) chain ->
    OpsHistory name' s' chain' P' -> In (v', t') chain' ->
    (forall k, vkey k -> trie_get V t k = trie_get V t' k) ->
    t = t' /\ Res V (sget V s name) [] (SRef v) t /\ Res V (sget V s' name') [] (SRef v') t.
  Proof.
    intros H I H' I' Heq.
    destruct (ops_history_roots name s chain P v t H I) as [R W].
    destruct (ops_history_roots name' s' chain' P' v' t' H' I') as [R' W'].
    assert (E : t = t') by (apply canonical_get; auto).
    subst t'. auto.
  Qed.

  (* ---------------------------------------------------------------- handles kept across a commit (root-node cache) *)
  (* muxdb keeps the root node a commit returns (Cache.AddRootNode / trie.FromRootNode): the next handle on that root is
     the committed working trie itself instead of a reference to it.  It is Good for the new head as well. *)
  Theorem committed_handle_good name s chain P newv big skip n t :
    History V name s chain P -> hist_fresh V s name newv -> (P <= fst newv)%N ->
    match chain with [] => True | vt :: _ => (fst (fst vt) < fst newv)%N end ->
    Coh V (sget V s name) [] n -> WRes V (sget V s name) [] n t -> is_inner V n ->
    derived V (sget V s name) chain n ->
    let s' := commit V s name newv (snd (wstore V big skip newv [] n)) in
    Good (sget V s' name) (head_old (sget V s' name) ((newv, t) :: chain)) [] (fst (wstore V big skip newv [] n)) t.
  Proof.
    intros H Hfr HP Hlt HC HW Hin Hder s'.
    pose proof (History_Inv V name s chain P H) as HI.
    assert (H' : History V name s' ((newv, t) :: chain) P) by (apply H_commit; auto).
    pose proof (History_Inv V name s' _ P H') as HI'.
    destruct (wstore_head V s name chain P newv big skip n t HI Hfr HP HC HW Hin Hder) as (_ & _ & HC' & HW' & _).
    apply (Good_of_coherent (sget V s' name) (head_old (sget V s' name) ((newv, t) :: chain))); auto.
    intros q w b R. unfold head_old, RR. cbn [fst]. rewrite <- (wstore_root_clean V big skip newv n Hin). exact R.
  Qed.

  (* one block from ANY Good start handle (a reference to the head root, or the node tree a previous commit left): the
     operations, Trie.Commit; result: the handle the commit returns and the store *)
  Definition block_from (s : store) (name : N) (w0 : wnode) (newv : ver)
             (big : wnode -> bool) (skip : bool) (ops : list (hop V)) : option (wnode * store) :=
    match wt_run V veqb (sget V s name) ops w0 with
    | Some w =>
      match wt_commit V (sget V s name) big skip newv w with
      | Some (w', es) => Some (w', commit V s name newv es)
      | None => None
      end
    | None => None
    end.

  Lemma commit_ops_block_from s name chain newv big skip ops :
    commit_ops s name chain newv big skip ops =
    match block_from s name (head_handle chain) newv big skip ops with Some (_, s') => s' | None => s end.
  Proof.
    unfold commit_ops, block_from. destruct (wt_run V veqb (sget V s name) ops (head_handle chain)); [|reflexivity].
    destruct (wt_commit V (sget V s name) big skip newv w) as [[w' es]|]; reflexivity.
  Qed.

  Theorem block_from_step name s chain P w0 newv big skip ops :
    History V name s chain P -> all_wfc chain ->
    Good (sget V s name) (head_old (sget V s name) chain) [] w0 (head_trie chain) ->
    hist_fresh V s name newv -> (P <= fst newv)%N ->
    match chain with [] => True | vt :: _ => (fst (fst vt) < fst newv)%N end ->
    Forall hop_valid ops -> lrun veqb ops (head_trie chain) <> Nil ->
    exists w' s', block_from s name w0 newv big skip ops = Some (w', s') /\
      History V name s' ((newv, lrun veqb ops (head_trie chain)) :: chain) P /\
      wfc V (lrun veqb ops (head_trie chain)) /\
      Good (sget V s' name) (head_old (sget V s' name) ((newv, lrun veqb ops (head_trie chain)) :: chain)) [] w'
           (lrun veqb ops (head_trie chain)).
  Proof.
    intros H W G0 Hfr HP Hlt Hv Hne.
    pose proof (History_Inv V name s chain P H) as HI.
    assert (Wt : wfc V (lrun veqb ops (head_trie chain))) by (apply lrun_wfc; auto; apply head_trie_wfc; auto).
    destruct (handle_commit_premises s name chain P HI _ ops G0 Wt Hne) as (w & r & E & Er & C1 & C2 & Ir & C3).
    unfold block_from. rewrite E, wt_commit_resolve, Er.
    destruct (wstore V big skip newv [] r) as [r' es] eqn:Ew.
    assert (Ees : es = snd (wstore V big skip newv [] r)) by (rewrite Ew; reflexivity).
    assert (Er' : r' = fst (wstore V big skip newv [] r)) by (rewrite Ew; reflexivity).
    exists r', (commit V s name newv es). split; [reflexivity|]. subst es r'.
    split; [apply H_commit; auto|split; [exact Wt|]].
    apply (committed_handle_good name s chain P newv big skip r _ H Hfr HP Hlt C1 C2 Ir C3).
  Qed.

  (* ---------------------------------------------------------------- the root-node cache across other store steps *)
  (* Good only depends on the reader through the nodes of Old *)
  Lemma Good_transfer (g g' : getter) (Old Old' : list nat -> ver -> snode -> Prop) :
    (forall q w b, Old q w b -> Old' q w b) ->
    (forall q w b t, Old q w b -> Res V g q b t -> Res V g' q b t) ->
    forall p n t, Good g Old p n t -> Good g' Old' p n t.
  Proof.
    intros H1 H2.
    apply (Good_mut g Old (fun p n t _ => Good g' Old' p n t) (fun p i cs cs' _ => GoodL g' Old' p i cs cs')); intros; try (constructor; auto).
    eapply Good_ref; eauto.
  Qed.

  (* a store that answers every node the head root follows identically keeps every Good handle of the head *)
  Lemma head_Good_transfer (s s' : store) name chain P w t :
    Inv V s name chain P ->
    (forall q w0 b, head_old (sget V s name) chain q w0 b -> sget V s' name q w0 = Some b) ->
    Good (sget V s name) (head_old (sget V s name) chain) [] w t ->
    Good (sget V s' name) (head_old (sget V s' name) chain) [] w t.
  Proof.
    intros HI Hag. set (g := sget V s name) in *. set (g' := sget V s' name) in *.
    destruct chain as [|vt ch].
    - apply Good_transfer; [intros q w0 b []|intros q w0 b t0 []].
    - destruct HI as [_ [HF _]]. inversion HF as [|x l [HR _] _]; subst.
      destruct (resolution_transfer V g g' [] (SRef (fst vt)) (snd vt) HR Hag) as [_ [T2 _]].
      apply Good_transfer.
      + intros q w0 b O. unfold head_old, RR in *. apply T2. exact O.
      + intros q w0 b t0 O R.
        destruct (resolution_transfer V g g' q b t0 R) as [T1 _]; [|exact T1].
        intros q0 w1 b0 R0. apply Hag. unfold head_old, RR in *. eapply Reach_trans; eauto.
  Qed.

  (* OpsHistory with muxdb's root-node cache: `cache` is the node tree kept for the head root, if any.  A block starts from
     a reference to the head root or from the kept tree; its commit leaves its own tree; other commits (other tries, forks)
     and pruner rounds that keep the head leave the kept tree in place; it may be dropped at any time (eviction, restart). *)
  Inductive OpsHistoryC (name : N) : store -> list (ver * node) -> N -> option wnode -> Prop :=
  | OC_init s P : (0 < hf V s)%N -> OpsHistoryC name s [] P None
  | OC_block s chain P cache newv big skip ops w0 w' s' :
      OpsHistoryC name s chain P cache ->
      w0 = head_handle chain \/ cache = Some w0 ->
      hist_fresh V s name newv -> (P <= fst newv)%N ->
      match chain with [] => True | vt :: _ => (fst (fst vt) < fst newv)%N end ->
      Forall hop_valid ops -> lrun veqb ops (head_trie chain) <> Nil ->
      block_from s name w0 newv big skip ops = Some (w', s') ->
      OpsHistoryC name s' ((newv, lrun veqb ops (head_trie chain)) :: chain) P (Some w')
  | OC_evict s chain P cache : OpsHistoryC name s chain P cache -> OpsHistoryC name s chain P None
  | OC_other s chain P cache name' v' es :
      OpsHistoryC name s chain P cache ->
      name' <> name \/ (hist_fresh V s name v' /\ (P <= fst v')%N) ->
      OpsHistoryC name (commit V s name' v' es) chain P cache
  | OC_prune s newer anchor older P cache base target cps f nodes :
      OpsHistoryC name s (newer ++ anchor :: older) P cache ->
      (P <= base)%N -> (base <= target)%N -> (base mod hf V s = 0)%N -> (target mod hf V s = 0)%N ->
      Forall (fun vt => (target <= fst (fst vt))%N) newer -> (fst (fst anchor) < target)%N ->
      checkpoint_nodes V f s name (fst anchor) base = Some nodes ->
      cps_for V name cps nodes ->
      OpsHistoryC name (prune V s cps base target) (live_after V name newer anchor) target
                  (match newer with [] => None | _ => cache end).

  Definition cache_good (s : store) name chain (cache : option wnode) : Prop :=
    forall w, cache = Some w -> Good (sget V s name) (head_old (sget V s name) chain) [] w (head_trie chain).

  Theorem ops_history_cache_sound name s chain P cache :
    OpsHistoryC name s chain P cache ->
    History V name s chain P /\ all_wfc chain /\ cache_good s name chain cache.
  Proof.
    induction 1 as [s P Hf|s chain P cache newv big skip ops w0 w' s' _ [IH [W CG]] Hst Hfr HP Hlt Hv Hne Hb|
                    s chain P cache _ [IH [W CG]]|s chain P cache name' v' es _ [IH [W CG]] Hc|
                    s newer anchor older P cache base target cps f nodes _ [IH [W CG]] HPb Hbt Hab Hat Hnew Hanc Hit Hcps].
    - split; [apply H_init; auto|split; [constructor|intros w E; discriminate]].
    - assert (G0 : Good (sget V s name) (head_old (sget V s name) chain) [] w0 (head_trie chain)).
      { destruct Hst as [->|E]; [|apply CG; exact E].
        apply (head_handle_good s name chain P). apply History_Inv; auto. }
      destruct (block_from_step name s chain P w0 newv big skip ops IH W G0 Hfr HP Hlt Hv Hne) as [w2 [s2 [E [H2 [W2 G2]]]]].
      rewrite Hb in E. inversion E; subst w2 s2.
      split; [exact H2|split; [constructor; auto|]]. intros w E'. inversion E'; subst. exact G2.
    - split; [exact IH|split; [exact W|intros w E; discriminate]].
    - split; [apply H_other; auto|split; [exact W|]].
      intros w E. pose proof (History_Inv V name s chain P IH) as HI.
      apply (head_Good_transfer s _ name chain P w _ HI); [|apply CG; exact E].
      intros q w0 b O. unfold head_old in O. destruct chain as [|vt ch]; [contradiction|].
      assert (Hne : name' <> name \/ w0 <> v').
      { destruct Hc as [Hc|[Hfr HP]]; auto. right.
        eapply (followed_not_fresh V s name (vt :: ch) P v' HI Hfr HP vt (or_introl eq_refl)); eauto. }
      destruct (commit_other_agrees V s name' v' es name q w0 Hne) as [Eq _]. rewrite Eq. eapply Reach_get; eauto.
    - pose proof (History_Inv V name s _ P IH) as HI.
      split; [eapply H_prune; eauto|split].
      + unfold all_wfc in *. rewrite Forall_forall in *. intros vt I. apply W. eapply live_after_sub; eauto.
      + destruct newer as [|n0 newer']; [intros w E; discriminate|].
        intros w E. specialize (CG w E).
        assert (Eh : head_trie (live_after V name (n0 :: newer') anchor) = head_trie ((n0 :: newer') ++ anchor :: older)) by reflexivity.
        rewrite Eh.
        assert (Eo : forall g, head_old g (live_after V name (n0 :: newer') anchor) = head_old g ((n0 :: newer') ++ anchor :: older)) by reflexivity.
        rewrite Eo.
        apply (head_Good_transfer s _ name _ P w _ HI); [|exact CG].
        intros q w0 b O. cbn [app head_old] in O.
        apply (prune_agrees V s name P base target cps (n0 :: newer') anchor older f nodes HI HPb Hbt Hab Hnew Hit Hcps n0);
          [unfold live_after; left; reflexivity|exact O].
  Qed.
End PW.
