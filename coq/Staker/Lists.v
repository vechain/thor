(* Staker/Lists.v — the doubly linked lists stored in the validation records: abstraction as Coq lists (segments),
   frame lemmas, and the specifications of ll_add / ll_remove against that abstraction. *)
From Coq Require Import List NArith Bool Lia.
From Coq Require Import ZifyBool.
From Verif Require Import Common.Util Staker.Model Staker.Base.
Import ListNotations.
Open Scope N_scope.

(* seg s p h l e : following Next from pointer h visits exactly the records l, the first has Prev = p, every
   further one has Prev = its predecessor, and the Next pointer after the last one is e *)
Fixpoint seg (s : st) (p h : option N) (l : list N) (e : option N) : Prop :=
  match l with
  | [] => h = e
  | a :: t => h = Some a /\ exists v, getv s a = Some v /\ v_prev v = p /\ seg s (Some a) (v_next v) t e
  end.

Definition last_or (p : option N) (l : list N) : option N :=
  match l with [] => p | _ => Some (last l 0) end.

Lemma last_or_cons p a t : last_or p (a :: t) = last_or (Some a) t.
Proof. destruct t; cbn; auto. Qed.

Lemma last_or_app p l1 l2 : last_or p (l1 ++ l2) = last_or (last_or p l1) l2.
Proof.
  revert p. induction l1 as [|a t IH]; intros p; cbn [app]; auto.
  rewrite last_or_cons, IH, last_or_cons. auto.
Qed.

Lemma seg_app s p h l1 l2 e :
  seg s p h (l1 ++ l2) e <-> exists m, seg s p h l1 m /\ seg s (last_or p l1) m l2 e.
Proof.
  revert p h. induction l1 as [|a t IH]; intros p h; cbn [app seg].
  - split.
    + intros H. exists h. split; auto.
    + intros [m [-> H]]. auto.
  - split.
    + intros [-> [v [Hv [Hp H]]]]. apply IH in H as [m [H1 H2]].
      exists m. split. { split; auto. exists v; auto. } rewrite last_or_cons. auto.
    + intros [m [[-> [v [Hv [Hp H1]]]] H2]]. split; auto. exists v. repeat split; auto.
      apply IH. exists m. split; auto. rewrite last_or_cons in H2. auto.
Qed.

(* frame: records of the segment keep their pointers *)
Definition same_links (s s' : st) (a : N) : Prop :=
  forall v, getv s a = Some v -> exists v', getv s' a = Some v' /\ v_prev v' = v_prev v /\ v_next v' = v_next v.

Lemma seg_frame s s' p h l e :
  seg s p h l e -> (forall a, In a l -> same_links s s' a) -> seg s' p h l e.
Proof.
  revert p h. induction l as [|a t IH]; intros p h H F; cbn in *; auto.
  destruct H as [-> [v [Hv [Hp H]]]]. split; auto.
  destruct (F a (or_introl eq_refl) v Hv) as [v' [Hv' [E1 E2]]].
  exists v'. repeat split; auto; try congruence. rewrite E2. apply IH; auto.
Qed.

Lemma seg_in_get s p h l e a : seg s p h l e -> In a l -> exists v, getv s a = Some v.
Proof.
  revert p h. induction l as [|b t IH]; intros p h H Hin; [contradiction|].
  destruct H as [_ [v [Hv [_ H]]]]. destruct Hin as [->|Hin]; eauto.
Qed.

(* the segment determines the pointers of each of its members *)
Lemma seg_prev_of_first s p h a t e v : seg s p h (a :: t) e -> getv s a = Some v -> v_prev v = p.
Proof. intros [_ [v' [Hv' [Hp _]]]] Hv. congruence. Qed.

Lemma seg_head s p h0 a t e : seg s p h0 (a :: t) e -> h0 = Some a.
Proof. intros [E _]. exact E. Qed.

Lemma seg_split_at s p h l1 a l2 e :
  seg s p h (l1 ++ a :: l2) e ->
  exists v, getv s a = Some v /\ v_prev v = last_or p l1 /\ seg s p h l1 (Some a) /\ seg s (Some a) (v_next v) l2 e.
Proof.
  intros H. apply seg_app in H as [m [H1 H2]]. cbn in H2. destruct H2 as [-> [v [Hv [Hp H2]]]].
  exists v. auto.
Qed.

Lemma getv_setv_same a v s : getv (setv a v s) a = Some v.
Proof. unfold getv, setv; cbn. apply get_upd_same. Qed.
Lemma getv_setv_other a b v s : a <> b -> getv (setv a v s) b = getv s b.
Proof. unfold getv, setv; cbn. apply get_upd_other. Qed.
Lemma getv_put_ls w l s a : getv (put_ls w l s) a = getv s a.
Proof. destruct w; reflexivity. Qed.

Lemma last_or_snoc p l x : last_or p (l ++ [x]) = Some x.
Proof. rewrite last_or_app. reflexivity. Qed.

Lemma last_or_nonempty p q a t : last_or p (a :: t) = last_or q (a :: t).
Proof. reflexivity. Qed.

(* changing the Next pointer of the last record of a segment *)
Lemma seg_set_last_next s p h l b e vb x :
  seg s p h (l ++ [b]) e -> ~ In b l -> getv s b = Some vb ->
  seg (setv b (set_next x vb) s) p h (l ++ [b]) x.
Proof.
  intros H Hn Hb. apply seg_app in H as [m [H1 H2]]. apply seg_app. exists m. split.
  - eapply seg_frame; eauto. intros a Ha v Hv. exists v. rewrite getv_setv_other; auto. intros ->; auto.
  - cbn [seg last_or] in *. destruct H2 as [-> [v [Hv [Hp _]]]]. split; auto. rewrite Hb in Hv. inversion Hv; subst v.
    exists (set_next x vb). rewrite getv_setv_same. auto.
Qed.

(* changing the Prev pointer of the first record of a segment *)
Lemma seg_set_first_prev s p h n t e vn x :
  seg s p h (n :: t) e -> ~ In n t -> getv s n = Some vn ->
  seg (setv n (set_prev x vn) s) x h (n :: t) e.
Proof.
  intros [-> [v [Hv [Hp H]]]] Hn Hb. rewrite Hb in Hv. inversion Hv; subst v.
  split; auto. exists (set_prev x vn). rewrite getv_setv_same. repeat split; auto. cbn [v_next set_prev].
  eapply seg_frame; eauto. intros a Ha v Hv'. exists v. rewrite getv_setv_other; auto. intros ->; auto.
Qed.

Record wf_list (s : st) (ls : lstat) (l : list N) : Prop := mkWfl {
  wl_seg : seg s None (l_head ls) l None;
  wl_tail : l_tail ls = last_or None l;
  wl_size : l_size ls = N.of_nat (length l);
  wl_nodup : NoDup l }.

(* everything but the pointers *)
Definition core (v : validation) :=
  (v_endorser v, v_benef v, v_period v, v_completed v, v_status v, v_start v, v_exit v, v_offline v,
   (v_locked v, v_punlock v, v_queued v, v_cooldown v, v_withdrawable v, v_weight v)).

Lemma core_set_prev x v : core (set_prev x v) = core v. Proof. reflexivity. Qed.
Lemma core_set_next x v : core (set_next x v) = core v. Proof. reflexivity. Qed.

Definition core_fun (f : validation -> N) : Prop := forall v v', core v = core v' -> f v = f v'.

Lemma sumf_setv_eq (f : validation -> N) a v v' s :
  getv s a = Some v -> f v' = f v -> sumf f (vals (setv a v' s)) = sumf f (vals s).
Proof. intros Hv E. pose proof (sumf_upd_some f (vals s) a v' v Hv) as S. rewrite E in S. unfold setv; cbn. lia. Qed.
Lemma sumf_setv_core f a v v' s : core_fun f -> getv s a = Some v -> core v' = core v ->
  sumf f (vals (setv a v' s)) = sumf f (vals s).
Proof. intros Hf Hv Hc. apply (sumf_setv_eq f a v); auto. Qed.
Lemma vals_put_ls w l s : vals (put_ls w l s) = vals s.
Proof. destruct w; reflexivity. Qed.

(* only the validation map and the two list statistics differ *)
Definition lists_only (s s' : st) : Prop := s' = w_vals (vals s') (w_act (act s') (w_que (que s') s)).

Lemma lists_only_ex s s' : lists_only s s' -> exists vs la lq, s' = w_vals vs (w_act la (w_que lq s)).
Proof. intros H. rewrite H. eauto. Qed.

Lemma lists_only_refl s : lists_only s s.
Proof. destruct s; reflexivity. Qed.
Lemma lists_only_trans s1 s2 s3 : lists_only s1 s2 -> lists_only s2 s3 -> lists_only s1 s3.
Proof. unfold lists_only. intros H1 H2. rewrite H2 at 1. rewrite H1 at 1. reflexivity. Qed.
Lemma lists_only_setv a v s : lists_only s (setv a v s).
Proof. destruct s; reflexivity. Qed.
Lemma lists_only_put_ls w l s : lists_only s (put_ls w l s).
Proof. destruct s, w; reflexivity. Qed.

Lemma get_ls_setv w a v s : get_ls w (setv a v s) = get_ls w s.
Proof. destruct w; reflexivity. Qed.
Lemma get_ls_put_same w l s : get_ls w (put_ls w l s) = l.
Proof. destruct w; reflexivity. Qed.
Lemma get_ls_put_other w l s : get_ls (negb w) (put_ls w l s) = get_ls (negb w) s.
Proof. destruct w; reflexivity. Qed.

Lemma in_split_nodup (a : N) l : In a l -> NoDup l ->
  exists l1 l2, l = l1 ++ a :: l2 /\ ~ In a l1 /\ ~ In a l2 /\ NoDup (l1 ++ l2) /\
                (forall x, In x l1 -> ~ In x l2).
Proof.
  intros Hin Hnd. apply in_split in Hin as [l1 [l2 ->]].
  exists l1, l2. split; auto.
  pose proof (NoDup_remove_1 _ _ _ Hnd) as H1. pose proof (NoDup_remove_2 _ _ _ Hnd) as H2.
  repeat split; auto.
  - intros H. apply H2, in_or_app; auto.
  - intros H. apply H2, in_or_app; auto.
  - intros x Hx Hx2. clear - H1 Hx Hx2. induction l1 as [|y t IH]; [contradiction|].
    cbn in H1. inversion H1; subst. destruct Hx as [->|Hx]; auto. apply H2. apply in_or_app; auto.
Qed.

Lemma snoc_case {A} (l : list A) : l = [] \/ exists l' x, l = l' ++ [x].
Proof.
  induction l as [|a t IH]; auto. right. destruct IH as [->|[l' [x ->]]].
  - exists [], a; auto.
  - exists (a :: l'), x; auto.
Qed.

Lemma not_in_app {A} (x : A) l1 l2 : ~ In x (l1 ++ l2) <-> ~ In x l1 /\ ~ In x l2.
Proof. rewrite in_app_iff. tauto. Qed.

Lemma in_mid_ne {A} (x h : A) l1 l2 : x <> h -> In x (l1 ++ h :: l2) <-> In x (l1 ++ l2).
Proof. intros Hne. rewrite !in_app_iff. cbn. intuition congruence. Qed.
Lemma nodup_app_l {A} (l1 l2 : list A) : NoDup (l1 ++ l2) -> NoDup l1.
Proof. induction l1 as [|a t IH]; cbn; intros H; [constructor|]. inversion H; subst. constructor; auto. rewrite in_app_iff in *. tauto. Qed.
Lemma nodup_app_r {A} (l1 l2 : list A) : NoDup (l1 ++ l2) -> NoDup l2.
Proof. induction l1 as [|a t IH]; cbn; intros H; auto. inversion H; auto. Qed.
Lemma nodup_map_filter {A} (f : A -> N) (p : A -> bool) (l : list A) : NoDup (map f l) -> NoDup (map f (filter p l)).
Proof.
  induction l as [|x t IH]; cbn; intros H; [constructor|]. inversion H; subst. destruct (p x); cbn; auto.
  constructor; auto. intros Hx. apply H2. apply in_map_iff in Hx as [y [E Hy]]. apply filter_In in Hy as [Hy _].
  apply in_map_iff. exists y; auto.
Qed.
Lemma nodup_snoc {A} (l : list A) x : NoDup l -> ~ In x l -> NoDup (l ++ [x]).
Proof.
  intros Hnd Hn. induction l as [|y t IH]; cbn; [constructor; [intros []|constructor]|].
  inversion Hnd; subst. constructor.
  - rewrite in_app_iff. cbn. intros [H|[H|[]]]; auto. subst. apply Hn. left; auto.
  - apply IH; auto. intros H. apply Hn. right; auto.
Qed.

Lemma ll_remove_wf w a e s s1 e1 l v0 :
  ll_remove w a e s = Ok (s1, e1) ->
  wf_list s (get_ls w s) l -> In a l ->
  getv s a = Some v0 -> v_prev e = v_prev v0 -> v_next e = v_next v0 ->
  exists l1 l2, l = l1 ++ a :: l2 /\
    wf_list s1 (get_ls w s1) (l1 ++ l2) /\
    e1 = set_next None (set_prev None e) /\
    getv s1 a = Some e1 /\
    get_ls (negb w) s1 = get_ls (negb w) s /\
    lists_only s s1 /\
    (forall b, b <> a -> (getv s b = None -> getv s1 b = None) /\
       forall v, getv s b = Some v -> exists v', getv s1 b = Some v' /\ core v' = core v /\ (~ In b l -> v' = v)) /\
    (forall f : validation -> N, core_fun f -> sumf f (vals s1) + f v0 = sumf f (vals s) + f e).
Proof.
  intros H [Hseg Htail Hsize Hnd] Hin Hv0 Ep En.
  destruct (in_split_nodup a l Hin Hnd) as [l1 [l2 [-> [Hn1 [Hn2 [Hnd12 Hdisj]]]]]].
  exists l1, l2. split; auto.
  destruct (seg_split_at _ _ _ _ _ _ _ Hseg) as [v0' [Hv0' [Hp0 [Hs1 Hs2]]]].
  rewrite Hv0 in Hv0'. inversion Hv0'; subst v0'. clear Hv0'.
  unfold ll_remove in H.
  (* the early return is not taken *)
  assert (Hgo : negb (is_linked e) && (negb (oeqb (l_head (get_ls w s)) (Some a)) || negb (oeqb (l_tail (get_ls w s)) (Some a))) = false).
  { unfold is_linked. rewrite Ep, En, Hp0.
    destruct l1 as [|x1 t1]; [|rewrite last_or_cons; destruct (last_or (Some x1) t1) eqn:E; [reflexivity|destruct t1; discriminate]].
    destruct l2 as [|x2 t2]; [|cbn in Hs2; destruct Hs2 as [-> _]; reflexivity].
    cbn in Hs1, Hs2. rewrite Hs1, Hs2. rewrite Htail. cbn. rewrite N.eqb_refl. reflexivity. }
  rewrite Hgo in H. clear Hgo.
  apply bind_ok in H as [sa [Ha H]]. apply bind_ok in H as [sb [Hb H]].
  apply bind_ok in H as [u [Hm H]]. inversion H; subst s1 e1; clear H Hm.
  assert (A1 : lists_only s sa /\ get_ls (negb w) sa = get_ls (negb w) s /\
               seg sa None (l_head (get_ls w sa)) l1 (v_next e) /\
               l_tail (get_ls w sa) = l_tail (get_ls w s) /\ l_size (get_ls w sa) = l_size (get_ls w s) /\
               (forall b, ~ In b l1 -> getv sa b = getv s b) /\
               (forall b, (getv s b = None -> getv sa b = None) /\
                  forall v, getv s b = Some v -> exists v', getv sa b = Some v' /\ core v' = core v) /\
               (forall f, core_fun f -> sumf f (vals sa) = sumf f (vals s))).
  { destruct (snoc_case l1) as [->|[l1' [p ->]]].
    - cbn in Hp0. rewrite Ep, Hp0 in Ha. inversion Ha; subst sa.
      split. { apply lists_only_put_ls. }
      split. { destruct w; reflexivity. }
      split. { rewrite get_ls_put_same. cbn. reflexivity. }
      split. { rewrite get_ls_put_same. reflexivity. }
      split. { rewrite get_ls_put_same. reflexivity. }
      split. { intros b _. apply getv_put_ls. }
      split; [|intros f _; rewrite vals_put_ls; reflexivity].
      intros b. split. { rewrite getv_put_ls. auto. }
      intros v Hv. exists v. rewrite getv_put_ls. auto.
    - rewrite last_or_snoc in Hp0. rewrite Ep, Hp0 in Ha.
      apply bind_ok in Ha as [pe [Hpe Ha]]. apply of_opt_ok in Hpe. inversion Ha; subst sa.
      apply not_in_app in Hn1 as [Hn1 Hn1']. assert (Hpa : p <> a) by (intros ->; apply Hn1'; left; auto).
      assert (Hnp : ~ In p l1').
      { apply nodup_app_l in Hnd12. apply NoDup_remove_2 in Hnd12. rewrite app_nil_r in Hnd12. auto. }
      split. { apply lists_only_setv. }
      split. { rewrite get_ls_setv. auto. }
      split. { rewrite get_ls_setv. eapply seg_set_last_next; eauto. }
      split. { rewrite get_ls_setv; auto. }
      split. { rewrite get_ls_setv; auto. }
      split. { intros b Hb0. rewrite getv_setv_other; auto. intros <-. apply Hb0, in_or_app. right; left; auto. }
      split; [|intros f Hf; apply (sumf_setv_core f p pe); auto].
      intros b. split.
      + intros Hb0. destruct (N.eq_dec p b) as [<-|Hne]; [congruence|]. rewrite getv_setv_other; auto.
      + intros v Hv. destruct (N.eq_dec p b) as [<-|Hne].
        * rewrite Hpe in Hv. inversion Hv; subst. exists (set_next (v_next e) v). rewrite getv_setv_same. auto.
        * exists v. rewrite getv_setv_other; auto. }
  destruct A1 as [Lo1 [Ot1 [Sg1 [Tl1 [Sz1 [Fr1 [Co1 Su1]]]]]]]. clear Ha.
  assert (A2 : lists_only sa sb /\ get_ls (negb w) sb = get_ls (negb w) sa /\
               l_head (get_ls w sb) = l_head (get_ls w sa) /\
               seg sb (v_prev e) (v_next e) l2 None /\
               l_tail (get_ls w sb) = last_or None (l1 ++ l2) /\ l_size (get_ls w sb) = l_size (get_ls w sa) /\
               (forall b, ~ In b l2 -> getv sb b = getv sa b) /\
               (forall b, (getv sa b = None -> getv sb b = None) /\
                  forall v, getv sa b = Some v -> exists v', getv sb b = Some v' /\ core v' = core v) /\
               (forall f, core_fun f -> sumf f (vals sb) = sumf f (vals sa))).
  { destruct l2 as [|n t2].
    - cbn in Hs2. rewrite En, Hs2 in Hb. inversion Hb; subst sb.
      split. { apply lists_only_put_ls. }
      split. { destruct w; reflexivity. }
      split. { rewrite get_ls_put_same. reflexivity. }
      split. { cbn. rewrite En. auto. }
      split. { rewrite get_ls_put_same. cbn. rewrite app_nil_r, Ep. auto. }
      split. { rewrite get_ls_put_same. reflexivity. }
      split. { intros b _. apply getv_put_ls. }
      split; [|intros f _; rewrite vals_put_ls; reflexivity].
      intros b. split. { rewrite getv_put_ls; auto. }
      intros v Hv. exists v. rewrite getv_put_ls; auto.
    - pose proof Hs2 as Hs2'. destruct Hs2 as [En2 [vn [Hvn [Hpn Hs2]]]].
      rewrite En, En2 in Hb. apply bind_ok in Hb as [ne [Hne Hb]]. apply of_opt_ok in Hne. inversion Hb; subst sb.
      assert (Hna : n <> a) by (intros ->; apply Hn2; left; auto).
      assert (Hn1n : ~ In n l1) by (intros Hx; apply (Hdisj n Hx); left; auto).
      assert (Hnt2 : ~ In n t2).
      { apply nodup_app_r in Hnd12. inversion Hnd12; auto. }
      pose proof Hne as Hne_sa. rewrite Fr1 in Hne by auto.
      split. { apply lists_only_setv. }
      split. { rewrite get_ls_setv; auto. }
      split. { rewrite get_ls_setv; auto. }
      split. { rewrite En, En2. apply (seg_set_first_prev sa (Some a) (Some n) n t2 None ne (v_prev e)); auto.
        rewrite <- En2. eapply seg_frame; [exact Hs2'|].
        intros b Hb' v Hv. exists v. rewrite Fr1; auto. intros Hx. exact (Hdisj b Hx Hb'). }
      split. { rewrite get_ls_setv, Tl1, Htail. rewrite !last_or_app. reflexivity. }
      split. { rewrite get_ls_setv; auto. }
      split. { intros b Hb'. rewrite getv_setv_other; auto. intros <-. apply Hb'. left; auto. }
      split; [|intros f Hf; apply (sumf_setv_core f n ne); auto].
      intros b. split.
      + intros Hb'. destruct (N.eq_dec n b) as [<-|Hne']; [rewrite Fr1 in Hb' by auto; congruence|]. rewrite getv_setv_other; auto.
      + intros v Hv. destruct (N.eq_dec n b) as [<-|Hne'].
        * rewrite Fr1 in Hv by auto. rewrite Hne in Hv. inversion Hv; subst. exists (set_prev (v_prev e) v). rewrite getv_setv_same. auto.
        * exists v. rewrite getv_setv_other; auto. }
  destruct A2 as [Lo2 [Ot2 [Hd2 [Sg2 [Tl2 [Sz2 [Fr2 [Co2 Su2]]]]]]]]. clear Hb.
  set (lf := mkL (l_head (get_ls w sb)) (l_tail (get_ls w sb)) (l_size (get_ls w sb) - 1)).
  set (e' := set_next None (set_prev None e)).
  split; [constructor|].
  - (* segment of the result *)
    rewrite get_ls_setv, get_ls_put_same. cbn [l_head lf].
    apply seg_app. exists (v_next e). split.
    + rewrite Hd2. eapply seg_frame; [exact Sg1|]. intros b Hb' v Hv. exists v.
      rewrite getv_setv_other by (intros <-; auto). rewrite getv_put_ls. rewrite Fr2; auto.
    + rewrite <- Hp0, <- Ep. eapply seg_frame; [exact Sg2|]. intros b Hb' v Hv. exists v.
      rewrite getv_setv_other by (intros <-; auto). rewrite getv_put_ls. auto.
  - rewrite get_ls_setv, get_ls_put_same. cbn. auto.
  - rewrite get_ls_setv, get_ls_put_same. cbn [l_size lf]. rewrite Sz2, Sz1, Hsize.
    rewrite !app_length. cbn [length]. lia.
  - auto.
  - split; [reflexivity|]. split. { rewrite getv_setv_same. auto. }
    split. { rewrite get_ls_setv, get_ls_put_other. congruence. }
    split. { eapply lists_only_trans; [exact Lo1|]. eapply lists_only_trans; [exact Lo2|].
             eapply lists_only_trans; [apply lists_only_put_ls|apply lists_only_setv]. }
    split; [|intros f Hf; destruct (proj2 (Co1 a) v0 Hv0) as [va [Hva Eca]]; destruct (proj2 (Co2 a) va Hva) as [vb [Hvb Ecb]];
             unfold setv; cbn [vals w_vals]; rewrite vals_put_ls;
             pose proof (sumf_upd_some f (vals sb) a e' vb Hvb) as E; rewrite <- (Su1 f Hf), <- (Su2 f Hf);
             rewrite (Hf vb v0) in E by congruence; rewrite (Hf e' e) in E by reflexivity; exact E].
    intros b Hba. split.
    + intros Hb'. rewrite getv_setv_other by auto. rewrite getv_put_ls. apply Co2, Co1; auto.
    + intros v Hv. rewrite getv_setv_other by auto. rewrite getv_put_ls.
      destruct (proj2 (Co1 b) v Hv) as [v1 [Hv1 Ec1]]. destruct (proj2 (Co2 b) v1 Hv1) as [v2 [Hv2 Ec2]].
      exists v2. split; auto. split; [congruence|].
      intros Hnin. rewrite Fr2, Fr1 in Hv2.
      * congruence.
      * intros Hx. apply Hnin, in_or_app; auto.
      * intros Hx. apply Hnin, in_or_app. right; right; auto.
Qed.

Lemma ll_add_wf w a e s s1 l :
  ll_add w a e s = Ok s1 ->
  wf_list s (get_ls w s) l -> ~ In a l -> v_next e = None ->
  wf_list s1 (get_ls w s1) (l ++ [a]) /\
  getv s1 a = Some (set_prev (last_or None l) e) /\
  get_ls (negb w) s1 = get_ls (negb w) s /\ lists_only s s1 /\
  (forall b, b <> a -> (getv s b = None -> getv s1 b = None) /\
     forall v, getv s b = Some v -> exists v', getv s1 b = Some v' /\ core v' = core v /\ (~ In b l -> v' = v)) /\
  (forall f : validation -> N, core_fun f ->
     match getv s a with
     | None => sumf f (vals s1) = sumf f (vals s) + f e
     | Some v0 => sumf f (vals s1) + f v0 = sumf f (vals s) + f e
     end).
Proof.
  intros H [Hseg Htail Hsize Hnd] Hnin Hnx. unfold ll_add in H.
  apply bind_ok in H as [sb [Hb H]]. inversion H; subst s1; clear H.
  rewrite Htail in *.
  set (sa := put_ls w (mkL (l_head (get_ls w s)) (Some a) (l_size (get_ls w s))) s) in *.
  assert (A : lists_only s sb /\ get_ls (negb w) sb = get_ls (negb w) s /\
              seg sb None (l_head (get_ls w sb)) l (Some a) /\ l_tail (get_ls w sb) = Some a /\
              l_size (get_ls w sb) = l_size (get_ls w s) /\
              (forall b, b <> a -> (getv s b = None -> getv sb b = None) /\
                forall v, getv s b = Some v -> exists v', getv sb b = Some v' /\ core v' = core v /\ (~ In b l -> v' = v)) /\
              (forall f, core_fun f -> sumf f (vals sb) = sumf f (vals s)) /\ getv sb a = getv s a).
  { destruct (snoc_case l) as [->|[l' [t ->]]].
    - cbn in Hb. inversion Hb; subst sb. unfold sa.
      split. { eapply lists_only_trans; apply lists_only_put_ls. }
      split. { destruct w; reflexivity. }
      split. { destruct w; reflexivity. }
      split. { destruct w; reflexivity. }
      split. { destruct w; reflexivity. }
      split; [|split; [intros f _; rewrite !vals_put_ls; reflexivity|rewrite !getv_put_ls; reflexivity]].
      intros b _. rewrite !getv_put_ls. split; auto. intros v Hv. exists v; auto.
    - rewrite last_or_snoc in Hb. apply bind_ok in Hb as [te [Hte Hb]]. apply of_opt_ok in Hte.
      inversion Hb; subst sb. unfold sa in Hte. rewrite getv_put_ls in Hte.
      apply not_in_app in Hnin as [Hn1 Hn2]. assert (Hta : t <> a) by (intros ->; apply Hn2; left; auto).
      assert (Hnt : ~ In t l') by (apply NoDup_remove_2 in Hnd; rewrite app_nil_r in Hnd; auto).
      split. { eapply lists_only_trans; [apply lists_only_put_ls|apply lists_only_setv]. }
      split. { rewrite get_ls_setv. unfold sa. destruct w; reflexivity. }
      split. { rewrite get_ls_setv. unfold sa at 2. rewrite get_ls_put_same. cbn [l_head].
               eapply seg_set_last_next; eauto.
               - eapply seg_frame; [exact Hseg|]. intros b _ v Hv. exists v. unfold sa. rewrite getv_put_ls. auto.
               - unfold sa. rewrite getv_put_ls. auto. }
      split. { rewrite get_ls_setv. unfold sa. rewrite get_ls_put_same. reflexivity. }
      split. { rewrite get_ls_setv. unfold sa. rewrite get_ls_put_same. reflexivity. }
      split; [|split; [intros f Hf; rewrite (sumf_setv_core f t te) by (auto; unfold sa; rewrite getv_put_ls; auto); unfold sa; rewrite vals_put_ls; reflexivity
                      |rewrite getv_setv_other by auto; unfold sa; rewrite getv_put_ls; reflexivity]].
      intros b Hba. split.
      + intros Hn. destruct (N.eq_dec t b) as [<-|Hne]; [congruence|]. rewrite getv_setv_other by auto. unfold sa. rewrite getv_put_ls. auto.
      + intros v Hv. destruct (N.eq_dec t b) as [<-|Hne].
        * rewrite Hte in Hv. inversion Hv; subst. exists (set_next (Some a) v). rewrite getv_setv_same.
          split; auto. split; auto. intros Hx. exfalso. apply Hx, in_or_app. right; left; auto.
        * exists v. rewrite getv_setv_other by auto. unfold sa. rewrite getv_put_ls. auto. }
  destruct A as [Lo [Ot [Sg [Tl [Sz [Co [Su Ga]]]]]]]. clear Hb.
  set (lf := mkL (l_head (get_ls w sb)) (l_tail (get_ls w sb)) (l_size (get_ls w sb) + 1)).
  split; [constructor|].
  - rewrite get_ls_setv, get_ls_put_same. cbn [l_head lf]. apply seg_app. exists (Some a). split.
    + eapply seg_frame; [exact Sg|]. intros b Hb v Hv. exists v.
      rewrite getv_setv_other by (intros <-; auto). rewrite getv_put_ls. auto.
    + cbn [seg]. split; auto. exists (set_prev (last_or None l) e). rewrite getv_setv_same. auto.
  - rewrite get_ls_setv, get_ls_put_same. cbn [l_tail lf]. rewrite Tl, last_or_snoc. auto.
  - rewrite get_ls_setv, get_ls_put_same. cbn [l_size lf]. rewrite Sz, Hsize, app_length. cbn. lia.
  - apply nodup_snoc; auto.
  - split. { rewrite getv_setv_same. auto. }
    split. { rewrite get_ls_setv, get_ls_put_other. auto. }
    split. { eapply lists_only_trans; [exact Lo|]. eapply lists_only_trans; [apply lists_only_put_ls|apply lists_only_setv]. }
    split. { intros b Hba. rewrite getv_setv_other by auto. rewrite getv_put_ls. apply Co; auto. }
    intros f Hf. unfold setv; cbn [vals w_vals]. rewrite vals_put_ls. rewrite <- Ga, <- (Su f Hf).
    assert (Ef : f (set_prev (last_or None l) e) = f e) by (apply Hf; reflexivity).
    unfold getv. destruct (get (vals sb) a) as [v0|] eqn:Eg.
    + pose proof (sumf_upd_some f (vals sb) a (set_prev (last_or None l) e) v0 Eg) as E. rewrite Ef in E. exact E.
    + rewrite (sumf_upd_none f (vals sb) a _ Eg), Ef. reflexivity.
Qed.
