(* Bft/ProofsLive.v — liveness, chain level: an epoch segment whose distinct signers exceed the threshold is justified
   (vote-count mode: more than max-block-proposers*2/3 signers; weight mode: their weight exceeds total*2/3); a
   justified segment all of whose blocks vote COM is committed. *)
From Coq Require Import List NArith ZArith Bool Lia Permutation.
From Coq Require Import ZifyN ZifyNat ZifyBool.
From Verif Require Import Common.Util Bft.Tree Bft.Model Bft.Quorum Bft.ProofsTally.
Import ListNotations.
Open Scope N_scope.

Definition signers (seg : list blk) : list N := nodup N.eq_dec (map b_signer seg).

Section Live.
Variable c : cfg.

Lemma voted_blocks seg s : voted (map (vote_of c) seg) s = true <-> In s (signers seg).
Proof.
  unfold voted, signers. rewrite existsb_exists, nodup_In, in_map_iff. split.
  - intros [e [He E]]. apply in_map_iff in He. destruct He as [x [<- Hx]]. cbn in E. apply N.eqb_eq in E. exists x. tauto.
  - intros [x [<- Hx]]. exists (vote_of c x). split; [apply in_map; exact Hx | cbn; apply N.eqb_refl].
Qed.

(* the votes map of a tally has exactly the distinct signers as keys, each with its weight *)
Lemma tally_keys pq seg :
  let js := tally c pq seg in
  NoDup (keys (j_votes js)) /\ (forall s, In s (keys (j_votes js)) <-> In s (signers seg)) /\
  (forall s v, In (s, v) (j_votes js) -> v_w v = weight_of c s) /\
  j_jw js = sumf v_w (j_votes js) /\ j_com js = sumf f_one (j_votes js) /\ j_comw js = sumf f_comw (j_votes js) /\
  j_tv js = thr_votes c /\ j_tw js = thr_weight c /\
  (forall s v, In (s, v) (j_votes js) -> v_com v = allcom (map (vote_of c) seg) s).
Proof.
  cbv zeta. rewrite tally_as_votes, tally_votes_fold.
  destruct (fold_spec (weight_of c) pq (thr_votes c) (thr_weight c) _ (weighed_blocks c seg)) as [S [[N1 [C1 [CW J]]] [_ [T TW]]]].
  set (js := fold_left step _ _) in *.
  split; [exact N1|]. split.
  - intros s. rewrite (spec_keys _ _ _ N1 S). apply voted_blocks.
  - split; [|split; [exact J | split; [exact C1 | split; [exact CW | split; [exact T | split; [exact TW|]]]]]];
      intros s v Hin; rewrite (proj2 (spec_in _ _ _ _ _ N1 S Hin)); reflexivity.
Qed.

(* justified exactly when the distinct signers exceed the threshold (count or weight, as Summarize selects) *)
Lemma justified_iff_quorum pq seg :
  s_just (summarize (tally c pq seg)) =
  if thr_weight c =? 0 then thr_votes c <? N.of_nat (length (signers seg))
  else thr_weight c <? sumw (weight_of c) (signers seg).
Proof.
  destruct (tally_keys pq seg) as [N1 [Hk [Hw [J [_ [_ [T [TW _]]]]]]]].
  set (js := tally c pq seg) in *. unfold summarize. cbn [s_just]. rewrite T, TW.
  assert (Hperm : Permutation (keys (j_votes js)) (signers seg)).
  { apply NoDup_Permutation; [exact N1 | apply NoDup_nodup | exact Hk]. }
  destruct (thr_weight c =? 0).
  - pose proof (Permutation_length Hperm) as Hl. unfold keys in Hl. rewrite map_length in Hl. rewrite Hl. reflexivity.
  - rewrite J, (sumf_as_keys _ (weight_of c) Hw). unfold sumw. rewrite (sumN_perm _ _ (Permutation_map _ Hperm)). reflexivity.
Qed.

Theorem quorum_justifies pq seg :
  (if thr_weight c =? 0 then thr_votes c <? N.of_nat (length (signers seg))
   else thr_weight c <? sumw (weight_of c) (signers seg)) = true ->
  s_just (summarize (tally c pq seg)) = true.
Proof. rewrite justified_iff_quorum. tauto. Qed.

(* ... and conversely justification needs it *)
Theorem justified_needs_quorum pq seg :
  s_just (summarize (tally c pq seg)) = true ->
  (if thr_weight c =? 0 then thr_votes c <? N.of_nat (length (signers seg))
   else thr_weight c <? sumw (weight_of c) (signers seg)) = true.
Proof. rewrite justified_iff_quorum. tauto. Qed.

(* every block of the segment votes COM => committed exactly when justified *)
Theorem all_com_committed pq seg : (forall x, In x seg -> b_com x = true) ->
  s_comm (summarize (tally c pq seg)) = s_just (summarize (tally c pq seg)).
Proof.
  intros Hall. destruct (tally_keys pq seg) as [N1 [_ [_ [J [C1 [CW [_ [_ Hcom]]]]]]]].
  set (js := tally c pq seg) in *.
  assert (Hv : forall s v, In (s, v) (j_votes js) -> v_com v = true).
  { intros s v Hin. rewrite (Hcom s v Hin). unfold allcom. apply forallb_forall. intros e He.
    apply in_map_iff in He. destruct He as [x [<- Hx]]. cbn. rewrite (Hall x Hx). apply orb_true_r. }
  assert (E1 : sumf f_one (j_votes js) = N.of_nat (length (j_votes js)) /\ sumf f_comw (j_votes js) = sumf v_w (j_votes js)).
  { clear -Hv. unfold sumf, f_one, f_comw. induction (j_votes js) as [|[s v] vs IH]; [split; reflexivity|].
    cbn [map sumN length snd]. rewrite (Hv s v (or_introl eq_refl)). destruct IH as [-> ->]; [intros s' v' H; apply (Hv s' v'); right; exact H | lia]. }
  destruct E1 as [E1 E2].
  unfold summarize. cbn [s_comm s_just]. rewrite C1, CW, J, E1, E2. reflexivity.
Qed.
End Live.
