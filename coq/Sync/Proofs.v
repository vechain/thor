(* Sync/Proofs.v — correctness of the common-ancestor search (fastSeek + bisection), for every head < 2^31,
   every monotone overlap predicate, with the probe budget 2*log2 head + 4 and no uint32 wrap. *)
From Coq Require Import List NArith ZArith Bool Lia ZifyN ZifyNat ZifyBool.
From Verif Require Import Common.Util Sync.Model.
Import ListNotations.
Open Scope N_scope.
Local Ltac Zify.zify_post_hook ::= Z.div_mod_to_equations.

Definition monotone (P : N -> bool) : Prop := forall n m, m <= n -> P n = true -> P m = true.

(* L is the last height <= head at which the two chains hold the same block *)
Definition is_last (P : N -> bool) (head L : N) : Prop :=
  L <= head /\ P L = true /\ forall m, L < m -> m <= head -> P m = false.

Lemma is_last_exists P head : P 0 = true -> exists L, is_last P head L.
Proof.
  intros H0. induction head as [|h IH] using N.peano_ind.
  - exists 0. unfold is_last. split; [lia|]. split; [auto|]. intros; lia.
  - destruct IH as [L [HL1 [HL2 HL3]]].
    destruct (P (N.succ h)) eqn:E.
    + exists (N.succ h). unfold is_last. split; [lia|]. split; [auto|]. intros; lia.
    + exists L. unfold is_last. split; [lia|]. split; [auto|].
      intros m Hm1 Hm2. destruct (N.eq_dec m (N.succ h)) as [->|Hne]; auto. apply HL3; lia.
Qed.

Lemma is_last_unique P head L L' : is_last P head L -> is_last P head L' -> L = L'.
Proof.
  intros [A1 [A2 A3]] [B1 [B2 B3]].
  destruct (N.lt_trichotomy L L') as [H|[H|H]]; auto.
  - rewrite (A3 L') in B2; auto; discriminate.
  - rewrite (B3 L) in A2; auto; discriminate.
Qed.

Lemma last_true_iff P head L : monotone P -> is_last P head L ->
  forall m, m <= head -> (P m = true <-> m <= L).
Proof.
  intros Hm [A1 [A2 A3]] m Hle. split; intro H.
  - destruct (N.le_gt_cases m L); auto. rewrite A3 in H; auto; discriminate.
  - eapply Hm; eauto.
Qed.

Lemma wrap32_small x : x < 4294967296 -> wrap32 x = x.
Proof. intros. unfold wrap32. apply N.mod_small; auto. Qed.

Lemma sub32_small a b : b <= a -> a < 4294967296 -> sub32 a b = a - b.
Proof. intros. unfold sub32. lia. Qed.

Lemma pow2_S f : 2 ^ N.of_nat (S f) = 2 * 2 ^ N.of_nat f.
Proof. rewrite Nat2N.inj_succ, N.pow_succ_r'; auto. Qed.

Lemma mid_nowrap s e : s < e -> e < 2147483648 ->
  wrap32 (s + e) / 2 = (s + e) / 2 /\ s <= (s + e) / 2 < e /\
  wrap32 ((s + e) / 2 + 1) = (s + e) / 2 + 1 /\ (s < (s + e) / 2 -> sub32 ((s + e) / 2) 1 = (s + e) / 2 - 1).
Proof.
  intros Hse He. rewrite (wrap32_small (s + e)), (wrap32_small ((s + e) / 2 + 1)) by lia.
  repeat split; try lia. intros H. apply sub32_small; lia.
Qed.

Section Errors.
  Variable ov : N -> option bool.

  Lemma find_fail_sound : forall fuel s e anc a, find_anc ov s e anc fuel = Fail a -> ov a = None.
  Proof.
    induction fuel as [|f IH]; intros s e anc a H; cbn [find_anc] in H; [discriminate|].
    destruct (s =? e).
    - destruct (ov s) as [[|]|] eqn:E; try discriminate. inversion H; subst; auto.
    - destruct (ov (wrap32 (s + e) / 2)) as [[|]|] eqn:E.
      + eapply IH; eauto.
      + destruct (s <? wrap32 (s + e) / 2); [eapply IH; eauto|discriminate].
      + inversion H; subst; auto.
  Qed.

  Lemma seek_fail_sound : forall fuel head b a, fast_seek ov head b fuel = SeekFail a -> ov a = None.
  Proof.
    induction fuel as [|f IH]; intros head b a H; cbn [fast_seek] in H.
    - destruct (head <=? b); discriminate.
    - destruct (head <=? b); [discriminate|].
      destruct (ov (sub32 head b)) as [[|]|] eqn:E; try discriminate.
      + eapply IH; eauto.
      + inversion H; subst; auto.
  Qed.

  Theorem fca_fail_sound : forall head fuel a, find_common_ancestor ov head fuel = Fail a -> ov a = None.
  Proof.
    intros head fuel a H. unfold find_common_ancestor in H.
    destruct (head =? 0); [discriminate|].
    destruct (fast_seek ov head 0 fuel) eqn:E; try discriminate.
    - destruct (n =? head); [discriminate|]. eapply find_fail_sound; eauto.
    - inversion H; subst. eapply seek_fail_sound; eauto.
  Qed.

  (* every ancestor returned was actually probed equal, or is the genesis height 0 *)
  Lemma find_anc_sound : forall fuel s e anc r, find_anc ov s e anc fuel = Anc r ->
      r = anc \/ ov r = Some true.
  Proof.
    induction fuel as [|f IH]; intros s e anc r H; cbn [find_anc] in H; [discriminate|].
    destruct (s =? e).
    - destruct (ov s) as [[|]|] eqn:E; try discriminate; inversion H; subst; auto.
    - destruct (ov (wrap32 (s + e) / 2)) as [[|]|] eqn:E; try discriminate.
      + apply IH in H. destruct H as [->|]; auto.
      + destruct (s <? wrap32 (s + e) / 2); [eapply IH; eauto|]. inversion H; auto.
  Qed.

  Lemma seek_sound : forall fuel head b s rest, fast_seek ov head b fuel = Seek s rest ->
      s = 0 \/ ov s = Some true.
  Proof.
    induction fuel as [|f IH]; intros head b s rest H; cbn [fast_seek] in H.
    - destruct (head <=? b); [inversion H; auto|discriminate].
    - destruct (head <=? b); [inversion H; auto|].
      destruct (ov (sub32 head b)) as [[|]|] eqn:E; try discriminate.
      + inversion H; subst; auto.
      + eapply IH; eauto.
  Qed.

  Theorem fca_result_probed : forall head fuel r, find_common_ancestor ov head fuel = Anc r ->
      r = 0 \/ ov r = Some true.
  Proof.
    intros head fuel r H. unfold find_common_ancestor in H.
    destruct (head =? 0) eqn:E0.
    { inversion H; subst. apply N.eqb_eq in E0. auto. }
    destruct (fast_seek ov head 0 fuel) eqn:E; try discriminate.
    destruct (n =? head) eqn:En.
    - inversion H; subst. apply N.eqb_eq in En. subst. eapply seek_sound; eauto.
    - apply find_anc_sound in H. auto.
  Qed.
End Errors.

(* termination within the probe budget for EVERY overlap function (inconsistent or failing peers
   included): the search never runs out of fuel, it ends with an ancestor or with the failed probe *)
Section Terminates.
  Variable ov : N -> option bool.
  Variable head : N.
  Hypothesis Hhead : head < 2147483648.

  Lemma find_terminates : forall fuel s e anc,
      s <= e -> e <= head -> e - s + 1 < 2 ^ N.of_nat fuel -> find_anc ov s e anc fuel <> NoFuel.
  Proof.
    induction fuel as [|f IH]; intros s e anc Hse Heh Hsz.
    - cbn in Hsz. lia.
    - rewrite pow2_S in Hsz. cbn [find_anc].
      destruct (N.eqb_spec s e) as [Ese|Ese].
      + destruct (ov s) as [[|]|]; discriminate.
      + destruct (mid_nowrap s e) as [-> [Hmid [-> Hsub]]]; try lia.
        destruct (ov ((s + e) / 2)) as [[|]|]; [| |discriminate].
        * apply IH; lia.
        * destruct (N.ltb_spec s ((s + e) / 2)) as [Esm|Esm]; [|discriminate]. rewrite (Hsub Esm). apply IH; lia.
  Qed.

  (* c: how many doublings of the back-off b may still be needed, head <= b * 2^c *)
  Lemma fast_seek_terminates : forall c fuel b,
      1 <= b -> b < 4294967296 -> head <= b * 2 ^ N.of_nat c -> (c <= fuel)%nat ->
      fast_seek ov head b fuel <> SeekNoFuel /\
      forall s rest, fast_seek ov head b fuel = Seek s rest -> (fuel - c <= rest)%nat /\ s <= head.
  Proof.
    induction c as [|c IH]; intros fuel b Hb1 Hb2 Hcov Hfuel.
    - cbn in Hcov. assert (E : (head <=? b) = true) by (apply N.leb_le; lia).
      destruct fuel; cbn [fast_seek]; rewrite E; (split; [discriminate|]); intros s rest H; inversion H; subst; split; lia.
    - destruct (head <=? b) eqn:E.
      + destruct fuel; cbn [fast_seek]; rewrite E; (split; [discriminate|]); intros s rest H; inversion H; subst; split; lia.
      + destruct fuel as [|f]; [lia|]. cbn [fast_seek]. rewrite E. apply N.leb_gt in E.
        rewrite sub32_small by lia.
        destruct (ov (head - b)) as [[|]|].
        * split; [discriminate|]. intros s rest H; inversion H; subst. split; lia.
        * assert (Hb0 : (b =? 0) = false) by (apply N.eqb_neq; lia). rewrite Hb0.
          rewrite wrap32_small by lia.
          destruct (IH f (b * 2)) as [T1 T2]; try lia.
          { rewrite pow2_S in Hcov. lia. }
          split; [exact T1|]. intros s rest H. destruct (T2 s rest H). split; lia.
        * split; discriminate.
  Qed.

  Lemma fca_unfold f : head <> 0 -> find_common_ancestor ov head (S f) =
    match ov head with
    | None => Fail head
    | Some true => Anc head
    | Some false => match fast_seek ov head 1 f with
                    | SeekNoFuel => NoFuel
                    | SeekFail a => Fail a
                    | Seek s rest => if s =? head then Anc head else find_anc ov s head 0 rest
                    end
    end.
  Proof.
    intros Eh. unfold find_common_ancestor. cbn [fast_seek].
    replace (head =? 0) with false by (symmetry; apply N.eqb_neq; exact Eh).
    replace (head <=? 0) with false by (symmetry; apply N.leb_gt; lia).
    rewrite sub32_small, N.sub_0_r by lia. destruct (ov head) as [[|]|]; [rewrite N.eqb_refl|..]; reflexivity.
  Qed.

  Lemma seek_budget f : (ancestor_fuel head <= S f)%nat -> head <> 0 ->
    match fast_seek ov head 1 f with
    | SeekNoFuel => False
    | SeekFail _ => True
    | Seek s rest => s <= head /\ head - s + 1 < 2 ^ N.of_nat rest
    end.
  Proof.
    intros Hf Eh. unfold ancestor_fuel in Hf. pose proof (N.log2_spec head ltac:(lia)) as Hlog.
    destruct (fast_seek_terminates (N.to_nat (N.log2 head + 1)) f 1) as [T1 T2]; try lia.
    destruct (fast_seek ov head 1 f) as [s rest| |]; [|exact I|congruence].
    destruct (T2 s rest eq_refl) as [R1 R2]. split; [exact R2|].
    (* the first probe and the log2 head + 1 probes of fastSeek leave enough for the bisection *)
    apply N.lt_le_trans with (2 ^ N.succ (N.succ (N.log2 head))); [rewrite N.pow_succ_r'; lia | apply N.pow_le_mono_r; lia].
  Qed.

  Theorem fca_terminates : forall fuel, (ancestor_fuel head <= fuel)%nat ->
      find_common_ancestor ov head fuel <> NoFuel.
  Proof.
    intros fuel Hfuel. destruct (N.eq_dec head 0) as [Eh|Eh]; [unfold find_common_ancestor; rewrite Eh; discriminate|].
    destruct fuel as [|f]; [unfold ancestor_fuel in Hfuel; lia|]. rewrite (fca_unfold f Eh).
    destruct (ov head) as [[|]|]; try discriminate. pose proof (seek_budget f Hfuel Eh) as B.
    destruct (fast_seek ov head 1 f) as [s rest| |]; [|discriminate|destruct B].
    destruct (s =? head); [discriminate|]. apply find_terminates; lia.
  Qed.
End Terminates.

Section WithP.
  Variable P : N -> bool.
  Variable head : N.
  Hypothesis Hmono : monotone P.
  Hypothesis Hhead : head < 2147483648.
  Variable L : N.
  Hypothesis HL : is_last P head L.

  Let ov := fun n : N => Some (P n).

  Lemma find_correct : forall fuel s e anc,
      s <= e -> e <= head -> L <= e -> (s <= L \/ L = anc) ->
      e - s + 1 < 2 ^ N.of_nat fuel ->
      find_anc ov s e anc fuel = Anc L.
  Proof.
    induction fuel as [|f IH]; intros s e anc Hse Heh HLe Hinv Hsz.
    - cbn in Hsz. lia.
    - rewrite pow2_S in Hsz. cbn [find_anc]. unfold ov at 1 2.
      destruct (N.eqb_spec s e) as [Ese|Ese].
      + subst e. destruct (P s) eqn:Ps.
        * f_equal. apply (last_true_iff P head L Hmono HL) in Ps; lia.
        * f_equal. destruct Hinv as [Hinv|Hinv]; auto.
          assert (P s = true) by (apply (last_true_iff P head L Hmono HL); lia). congruence.
      + destruct (mid_nowrap s e) as [-> [Hmid [-> Hsub]]]; try lia.
        destruct (P ((s + e) / 2)) eqn:Pm.
        * apply (last_true_iff P head L Hmono HL) in Pm; [|lia]. apply IH; lia.
        * assert (HLm : L < (s + e) / 2).
          { destruct (N.lt_ge_cases L ((s + e) / 2)); auto.
            assert (P ((s + e) / 2) = true) by (apply (last_true_iff P head L Hmono HL); lia). congruence. }
          destruct (N.ltb_spec s ((s + e) / 2)) as [Esm|Esm]; [rewrite (Hsub Esm); apply IH; lia | f_equal; lia].
  Qed.

  Hypothesis HP0 : P 0 = true.

  Theorem fca_correct : forall fuel, (ancestor_fuel head <= fuel)%nat ->
      find_common_ancestor ov head fuel = Anc L.
  Proof.
    intros fuel Hfuel. destruct (N.eq_dec head 0) as [Eh|Eh].
    { unfold find_common_ancestor. rewrite (proj2 (N.eqb_eq head 0) Eh). destruct HL as [A _]. f_equal. lia. }
    destruct fuel as [|f]; [unfold ancestor_fuel in Hfuel; lia|]. rewrite (fca_unfold ov head Hhead f Eh). unfold ov at 1.
    destruct (P head) eqn:Ph.
    - f_equal. apply (last_true_iff P head L Hmono HL) in Ph; [|lia]. destruct HL as [A _]. lia.
    - pose proof (seek_budget ov head Hhead f Hfuel Eh) as B.
      destruct (fast_seek ov head 1 f) as [s rest|a|] eqn:Es; [|apply seek_fail_sound in Es; discriminate | destruct B].
      destruct B as [R1 R2].
      assert (Ps : P s = true) by (destruct (seek_sound _ _ _ _ _ _ Es) as [->|E]; [exact HP0 | injection E; auto]).
      destruct (N.eqb_spec s head) as [->|Es']; [congruence|].
      assert (HsL : s <= L) by (apply (last_true_iff P head L Hmono HL); auto).
      destruct HL as [A1 _]. apply find_correct; lia.
  Qed.
End WithP.

Theorem ancestor_correct_all : forall (P : N -> bool) head fuel,
    monotone P -> P 0 = true -> head < 2147483648 -> (ancestor_fuel head <= fuel)%nat ->
    exists L, find_common_ancestor (fun n => Some (P n)) head fuel = Anc L /\ is_last P head L.
Proof.
  intros P head fuel Hm H0 Hh Hf.
  destruct (is_last_exists P head H0) as [L HL].
  exists L. split; auto. apply fca_correct; auto.
Qed.
