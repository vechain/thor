(* State/ProofsSM.v — the stacked map (with its per-key revision stacks) refines a plain stack of maps:
   Get = topmost level that holds the key, else the source; PopTo restores the earlier contents. *)
From Coq Require Import List Arith Bool Lia.
From Verif Require Import State.StackedMap State.Assoc.
Import ListNotations.

Section SMP.
  Variables K Vv : Type.
  Variable keqb : K -> K -> bool.
  Hypothesis keqb_spec : forall a b, keqb a b = true <-> a = b.

  Notation level := (level K Vv).
  Notation smap := (smap K Vv).
  Notation assoc := (assoc K keqb).
  Notation assoc_set := (assoc_set K keqb).
  Notation assoc_del := (assoc_del K keqb).
  Notation new_level := (new_level K Vv).
  Notation sm_put := (sm_put K Vv keqb).
  Notation sm_pop := (sm_pop K Vv keqb).
  Notation sm_pop_n := (sm_pop_n K Vv keqb).
  Notation sm_pop_to := (sm_pop_to K Vv keqb).
  Notation sm_push := (sm_push K Vv).
  Notation pop_rev := (pop_rev K keqb).

  Notation keqb_refl := (keqb_refl K keqb keqb_spec).
  Notation assoc_set_same := (assoc_set_same K keqb keqb_spec).
  Notation assoc_set_other := (assoc_set_other K keqb keqb_spec).
  Notation assoc_del_same := (assoc_del_same K keqb).
  Notation assoc_del_other := (assoc_del_other K keqb keqb_spec).
  Notation assoc_set_nodup := (assoc_set_nodup K keqb keqb_spec).
  Notation assoc_in_keys := (assoc_in_keys K keqb keqb_spec).

  (* has / idxs: the levels that hold a key (what the revision table records); afind: the topmost value among them *)
  Definition has (k : K) (l : level) : bool := match assoc k (kvs l) with Some _ => true | None => false end.

  Fixpoint idxs (k : K) (st : list level) (i : nat) : list nat :=
    match st with
    | [] => []
    | l :: t => if has k l then i :: idxs k t (S i) else idxs k t (S i)
    end.

  Fixpoint afind (k : K) (top_first : list level) : option Vv :=
    match top_first with
    | [] => None
    | l :: t => match assoc k (kvs l) with Some v => Some v | None => afind k t end
    end.

  Lemma idxs_app k a : forall b i, idxs k (a ++ b) i = idxs k a i ++ idxs k b (i + length a).
  Proof.
    induction a; cbn; intros; [rewrite Nat.add_0_r; auto|].
    rewrite IHa. replace (S i + length a0) with (i + S (length a0)) by lia.
    destruct (has k a); auto.
  Qed.
  Lemma idxs_bound k st : forall i x, In x (idxs k st i) -> i <= x < i + length st.
  Proof.
    induction st; cbn; intros i x H; [tauto|].
    destruct (has k a); [destruct H as [<-|H]; [lia|]|]; apply IHst in H; lia.
  Qed.

  (* the lookup sm_get does through the revision table, on the plain stack: the level of the last index that holds k *)
  Definition conc (st : list level) (k : K) : option Vv :=
    match idxs k st 0 with
    | [] => None
    | l => assoc k (kvs (nth (last l 0) st new_level))
    end.

  Lemma last_in {A} (l : list A) d : l <> [] -> In (last l d) l.
  Proof. intros H. destruct (exists_last H) as [l' [a ->]]. rewrite last_last. apply in_or_app. right; left; auto. Qed.

  Lemma some_snoc {A} (r : list A) n : match r ++ [n] with [] => None | l => Some l end = Some (r ++ [n]).
  Proof. destruct r; reflexivity. Qed.

  Lemma idxs_snoc k rest top : idxs k (rest ++ [top]) 0 = idxs k rest 0 ++ (if has k top then [length rest] else []).
  Proof. rewrite idxs_app. cbn. destruct (has k top); auto. Qed.

  Lemma idxs_last_lt k st : idxs k st 0 <> [] -> last (idxs k st 0) 0 < length st.
  Proof. intros H. apply (last_in _ 0), idxs_bound in H. lia. Qed.

  Lemma conc_afind k : forall st, conc st k = afind k (rev st).
  Proof.
    induction st using rev_ind; [reflexivity|].
    rewrite rev_app_distr. cbn [rev app afind].
    unfold conc in *. rewrite idxs_snoc. unfold has.
    destruct (assoc k (kvs x)) eqn:E.
    - destruct (idxs k st 0 ++ [length st]) eqn:Q; [destruct (idxs k st 0); discriminate|].
      rewrite <- Q, last_last, nth_middle. auto.
    - rewrite app_nil_r, <- IHst.
      destruct (idxs k st 0) eqn:Q; auto. rewrite <- Q.
      rewrite app_nth1; auto. apply idxs_last_lt. rewrite Q; discriminate.
  Qed.

  Definition inv (sm : smap) : Prop :=
    stack sm <> [] /\
    Forall (fun l => NoDup (map fst (kvs l))) (stack sm) /\
    forall k, assoc k (revs sm) = match idxs k (stack sm) 0 with [] => None | l => Some l end.

  Lemma inv_new : inv (sm_new K Vv).
  Proof. split; [discriminate|]. split; [repeat constructor|]. intros k. reflexivity. Qed.

  Lemma inv_push sm : inv sm -> inv (fst (sm_push sm)).
  Proof.
    intros [N [D H]]. split; [|split].
    - cbn. destruct (stack sm); discriminate.
    - cbn. apply Forall_app; split; auto. repeat constructor.
    - intros k. cbn. rewrite idxs_app. cbn. rewrite app_nil_r. auto.
  Qed.

  Lemma upd_last_snoc f (rest : list level) top : upd_last K Vv f (rest ++ [top]) = rest ++ [f top].
  Proof.
    unfold upd_last. destruct (rest ++ [top]) eqn:E; [destruct rest; discriminate|].
    rewrite <- E, removelast_last, last_last. reflexivity.
  Qed.

  (* a non-empty stack, its levels with distinct keys, split into the levels below and the top *)
  Lemma inv_snoc sm : inv sm -> exists rest top, stack sm = rest ++ [top] /\
    Forall (fun l => NoDup (map fst (kvs l))) rest /\ NoDup (map fst (kvs top)).
  Proof.
    intros [N [D _]]. destruct (exists_last N) as [rest [top E]]. exists rest, top.
    rewrite E in D. apply Forall_app in D. destruct D as [D1 D2]. inversion D2; auto.
  Qed.

  Lemma inv_put sm k v : inv sm -> inv (sm_put sm k v).
  Proof.
    intros I. destruct (inv_snoc sm I) as [rest [top [Es [Dr Dt]]]]. destruct I as [_ [_ H]].
    unfold sm_put, StackedMap.sm_put. rewrite Es, upd_last_snoc, app_length. cbn [length].
    replace (length rest + 1 - 1) with (length rest) by lia.
    split; [|split]; cbn [stack revs].
    - destruct rest; discriminate.
    - apply Forall_app; split; auto. repeat constructor. cbn. apply assoc_set_nodup; auto.
    - intros k'. rewrite idxs_snoc. unfold has at 1. cbn [kvs].
      pose proof (H k') as Hk'. rewrite Es, idxs_snoc in Hk'.
      destruct (keqb k k') eqn:Ek.
      + (* the key being put: its revision stack ends with the top index, pushed unless already there *)
        apply keqb_spec in Ek; subst k'. rewrite assoc_set_same, some_snoc, Hk'.
        destruct (has k top).
        * rewrite some_snoc, last_last, Nat.eqb_refl. rewrite Hk'. apply some_snoc.
        * rewrite app_nil_r. destruct (idxs k rest 0) eqn:Q; [apply assoc_set_same|]. rewrite <- Q.
          pose proof (idxs_last_lt k rest ltac:(rewrite Q; discriminate)) as B.
          replace (last (idxs k rest 0) 0 =? length rest) with false by (symmetry; apply Nat.eqb_neq; lia).
          apply assoc_set_same.
      + (* another key *)
        assert (Nk : k <> k') by (intros ->; rewrite keqb_refl in Ek; discriminate).
        rewrite assoc_set_other by auto. fold (has k' top). rewrite <- Hk'.
        destruct (assoc k (revs sm)) as [l|]; [destruct (last l 0 =? length rest)|]; rewrite ?assoc_set_other by auto; auto.
  Qed.

  Definition pop1 (o : option (list nat)) : option (list nat) :=
    match o with
    | Some l => match removelast l with [] => None | l' => Some l' end
    | None => None
    end.

  Lemma pop_rev_same rv k : assoc k (pop_rev rv k) = pop1 (assoc k rv).
  Proof.
    unfold pop_rev, StackedMap.pop_rev, pop1. destruct (assoc k rv) eqn:E; auto.
    destruct (removelast l) eqn:R; [apply assoc_del_same|apply assoc_set_same].
  Qed.
  Lemma pop_rev_other rv k k' : k <> k' -> assoc k' (pop_rev rv k) = assoc k' rv.
  Proof.
    intros N. unfold pop_rev, StackedMap.pop_rev. destruct (assoc k rv) eqn:E; auto.
    destruct (removelast l) eqn:R; [apply assoc_del_other|apply assoc_set_other]; auto.
  Qed.

  Lemma fold_pop_rev_out ks : forall rv k, ~ In k ks -> assoc k (fold_left pop_rev ks rv) = assoc k rv.
  Proof.
    induction ks as [|k0 ks IH]; cbn; intros rv k H; auto.
    rewrite IH by tauto. apply pop_rev_other. intros ->; tauto.
  Qed.
  Lemma fold_pop_rev_in ks : NoDup ks -> forall rv k, In k ks -> assoc k (fold_left pop_rev ks rv) = pop1 (assoc k rv).
  Proof.
    induction 1 as [|k0 ks Hn Hd IH]; cbn; intros rv k H; [tauto|].
    destruct H as [<-|H].
    - rewrite fold_pop_rev_out by auto. apply pop_rev_same.
    - rewrite IH by auto. f_equal. apply pop_rev_other. intros ->; tauto.
  Qed.

  Lemma has_in_keys k (l : level) : has k l = true <-> In k (map fst (kvs l)).
  Proof.
    rewrite <- assoc_in_keys. unfold has. destruct (assoc k (kvs l)); split; eauto; try discriminate.
    intros [v E]; discriminate.
  Qed.

  Lemma inv_pop sm : inv sm -> 2 <= length (stack sm) -> inv (sm_pop sm) /\ stack (sm_pop sm) = removelast (stack sm).
  Proof.
    intros I L. split; [|reflexivity].
    destruct (inv_snoc sm I) as [rest [top [Es [Dr Dt]]]]. destruct I as [_ [_ H]].
    unfold sm_pop, StackedMap.sm_pop. rewrite Es, removelast_last, last_last.
    rewrite Es, app_length in L. cbn in L.
    split; [|split]; cbn [stack revs]; auto.
    - destruct rest; [cbn in L; lia|discriminate].
    - intros k. pose proof (H k) as Hk. rewrite Es, idxs_snoc in Hk.
      destruct (has k top) eqn:Ht.
      + rewrite fold_pop_rev_in, Hk by (auto; apply has_in_keys; auto).
        rewrite some_snoc. unfold pop1. rewrite removelast_last. reflexivity.
      + rewrite fold_pop_rev_out, Hk, app_nil_r; auto.
        rewrite <- has_in_keys, Ht. discriminate.
  Qed.

  Lemma inv_pop_n n : forall sm, inv sm -> n + 1 <= length (stack sm) ->
    inv (sm_pop_n n sm) /\ stack (sm_pop_n n sm) = firstn (length (stack sm) - n) (stack sm).
  Proof.
    induction n; intros sm I L; cbn.
    - split; auto. rewrite Nat.sub_0_r, firstn_all. reflexivity.
    - destruct (inv_pop sm I ltac:(lia)) as [I' E'].
      destruct (exists_last (proj1 I)) as [rest [top Es]].
      rewrite Es, removelast_last in E'. rewrite Es, app_length in *. cbn [length] in *.
      destruct (IHn (sm_pop sm) I' ltac:(rewrite E'; lia)) as [I2 E2].
      split; auto. rewrite E2, E', firstn_app.
      replace (length rest + 1 - S n) with (length rest - n) by lia.
      replace (length rest - n - length rest) with 0 by lia. cbn. rewrite app_nil_r. reflexivity.
  Qed.

  Lemma inv_pop_to d sm : inv sm -> 1 <= d ->
    inv (sm_pop_to d sm) /\ stack (sm_pop_to d sm) = firstn d (stack sm).
  Proof.
    intros I Ld. unfold sm_pop_to, StackedMap.sm_pop_to, depth.
    destruct (Nat.le_gt_cases (length (stack sm)) d) as [Le|Gt].
    - replace (length (stack sm) - d) with 0 by lia. cbn. split; auto. rewrite firstn_all2; auto.
    - destruct (inv_pop_n (length (stack sm) - d) sm I ltac:(lia)) as [I' E]. split; auto.
      rewrite E. f_equal. lia.
  Qed.

  Inductive smop := SPut (k : K) (v : Vv) | SPush | SPopTo (d : nat).

  Definition sm_step (sm : smap) (o : smop) : smap :=
    match o with
    | SPut k v => sm_put sm k v
    | SPush => fst (sm_push sm)
    | SPopTo d => sm_pop_to d sm
    end.
  Definition sm_run (ops : list smop) (sm : smap) : smap := fold_left sm_step ops sm.

  (* the same history on a plain stack of maps *)
  Definition a_step (st : list level) (o : smop) : list level :=
    match o with
    | SPut k v => upd_last K Vv (fun top => mkLevel (assoc_set k v (kvs top)) (journal top ++ [(k, v)])) st
    | SPush => st ++ [new_level]
    | SPopTo d => firstn d st
    end.
  Definition a_run (ops : list smop) (st : list level) : list level := fold_left a_step ops st.

  Definition pops_ok (ops : list smop) : Prop := Forall (fun o => match o with SPopTo d => 1 <= d | _ => True end) ops.

  Lemma run_refines ops : forall sm, inv sm -> pops_ok ops ->
    inv (sm_run ops sm) /\ stack (sm_run ops sm) = a_run ops (stack sm).
  Proof.
    induction ops as [|o ops IH]; cbn; intros sm I P; auto.
    inversion P; subst.
    assert (S1 : inv (sm_step sm o) /\ stack (sm_step sm o) = a_step (stack sm) o).
    { destruct o; cbn.
      - split; [apply inv_put; auto|reflexivity].
      - split; [apply inv_push; auto|reflexivity].
      - apply inv_pop_to; auto. }
    destruct S1 as [I1 E1]. destruct (IH _ I1 H2) as [I2 E2]. split; auto.
    unfold sm_run, a_run in *. rewrite E2, E1. reflexivity.
  Qed.

  Definition above (d : nat) (ops : list smop) : Prop :=
    Forall (fun o => match o with SPopTo n => d + 1 <= n | _ => True end) ops.

  Lemma firstn_below {A} d (l r : list A) : d <= length l -> firstn d (l ++ r) = firstn d l.
  Proof. intros H. rewrite firstn_app. replace (d - length l) with 0 by lia. cbn. apply app_nil_r. Qed.

  Lemma a_step_keeps_prefix d st o : d + 1 <= length st ->
    match o with SPopTo n => d + 1 <= n | _ => True end ->
    d + 1 <= length (a_step st o) /\ firstn d (a_step st o) = firstn d st.
  Proof.
    intros L Ho. destruct o; cbn.
    - destruct (exists_last (l := st)) as [rest [top ->]]; [intros ->; cbn in L; lia|].
      rewrite upd_last_snoc. rewrite !app_length in *. cbn [length] in *. split; [lia|].
      rewrite !firstn_below by lia. reflexivity.
    - rewrite app_length. cbn. split; [lia|]. apply firstn_below. lia.
    - rewrite firstn_length. split; [lia|]. rewrite firstn_firstn. f_equal. lia.
  Qed.

  Lemma a_run_keeps_prefix d ops : forall st, d + 1 <= length st -> above d ops ->
    d + 1 <= length (a_run ops st) /\ firstn d (a_run ops st) = firstn d st.
  Proof.
    induction ops as [|o ops IH]; cbn; intros st L A; auto.
    inversion A; subst. destruct (a_step_keeps_prefix d st o L H1) as [L1 E1].
    destruct (IH _ L1 H2) as [L2 E2]. split; auto. unfold a_run in *. rewrite E2. exact E1.
  Qed.

  (* ---- reading: the source answers for a key no level holds ---- *)
  Variable src : K -> Vv.
  Notation sm_get := (sm_get K Vv keqb src).

  Definition aget (st : list level) (k : K) : Vv :=
    match afind k (rev st) with Some v => v | None => src k end.

  Theorem get_refines sm k : inv sm -> sm_get sm k = aget (stack sm) k.
  Proof.
    intros [_ [_ H]]. unfold sm_get, StackedMap.sm_get, aget. rewrite <- conc_afind. unfold conc.
    rewrite H. destruct (idxs k (stack sm) 0); auto.
  Qed.

  (* Get after any Push / Put / PopTo history is lookup in the plain stack of maps the history denotes *)
  Theorem stackedmap_refines_lemma ops k : pops_ok ops ->
    sm_get (sm_run ops (sm_new K Vv)) k = aget (a_run ops [new_level]) k.
  Proof.
    intros P. destruct (run_refines ops (sm_new K Vv) inv_new P) as [I E].
    rewrite get_refines by auto. rewrite E. reflexivity.
  Qed.

  (* RevertTo(NewCheckpoint()) after any operations (whose own reverts stay above the checkpoint) reads as before *)
  Theorem revert_restores_lemma sm ops k : inv sm -> above (length (stack sm)) ops ->
    let d := snd (sm_push sm) in
    sm_get (sm_pop_to d (sm_run ops (fst (sm_push sm)))) k = sm_get sm k.
  Proof.
    intros I A d. cbn in d.
    assert (P : pops_ok ops).
    { unfold above in A. unfold pops_ok. eapply Forall_impl; [|exact A]. intros o; destruct o; auto. lia. }
    pose proof (inv_push sm I) as Ip.
    destruct (run_refines ops _ Ip P) as [I2 E2].
    assert (Ld : 1 <= d) by (unfold d; destruct I as [N _]; destruct (stack sm); [congruence|cbn; lia]).
    destruct (inv_pop_to d _ I2 Ld) as [I3 E3].
    rewrite !get_refines by auto. rewrite E3, E2. cbn [fst sm_push StackedMap.sm_push stack].
    destruct (a_run_keeps_prefix d ops (stack sm ++ [new_level])) as [_ E]; auto.
    { rewrite app_length; cbn; unfold d; lia. }
    rewrite E. unfold d. rewrite firstn_below, firstn_all; auto.
  Qed.
End SMP.
