(* Compose/Replay.v — C02 <-> C09: the two independently written models of the replay / window / dependency rules of
   consensus/validator.go agree.

     C02  Validation/Body.v   tx_body_check / body_txs_check (validateBlockBody), verify_txs (verifyBlock's loop), process;
                              chain lookups are ABSTRACT total functions  has_tx : id -> ref -> bool,  find_meta : id -> option reverted
     C09  Chain/Model.v       body_rule / body_rules, verify_loop, validate;  the lookups are the repository's own
                              has_transaction / get_tx_meta on the parent's chain (three-valued: Ok / NotFound / Fail);
                              the reverted flag of each executed transaction is an INPUT list (execution is not modelled)

   Here C02's abstract lookups are instantiated with C09's repository lookups on the parent's chain (has_tx_of / find_meta_of),
   C09's input flags with the flags C02's execution produces, and it is proved that
     - per transaction, C02's body check is C09's body rule sandwiched between the checks C09 does not model
       (31-34 origin / delegator / block list before it, 38-40 tx type / features / reserved after it): tx_check_sandwich;
     - per list, same verdict: body_same_verdict, body_accept_iff, body_reject_conv;
     - the loop of verifyBlock: same verdict (verify_same_verdict), acceptance iff (verify_accept_iff: C02 accepts exactly
       when the plain sequential execution succeeds within the gas limit and C09's loop accepts the flags it produced),
       and C09's loop = C02's catalogue rules 40 + 42 (loop_ok_iff_catalogue);
     - per block: process_accepted_validates, process_accept_iff_validate, process_replay_reject_same_verdict;
     - per chain: every history of blocks accepted by C02's `process` is a history accepted by C09's `validate`
       (c02_history_is_c09_history), hence satisfies C09's first sentence (c02_chain_at_most_once_in_window,
       c02_chain_dependency).

   The ONLY difference between the two transcriptions: C09 models the failure of a chain lookup (database error: V_fail),
   C02's lookups are total.  On every repository reached by AddBlock calls the lookups on a stored parent never fail
   (lookups_total_reachable, from Chain.ProofsTx.has_transaction_spec / get_tx_meta_spec), so the difference is not observable there; consensus/validator.go
   returns such an error as it is (not a consensusError), which is C09's reading.
   No other input distinguishes the two models (that is what the theorems say). *)
From Coq Require Import List NArith Bool Lia.
From Coq Require Import ZifyN ZifyNat ZifyBool.
From Verif Require Import Common.Util Sched.Model Header.Rules Header.Proofs Validation.Body Validation.Catalogue Validation.ProofsRules.
From Verif Require Chain.Model Chain.Proofs Chain.ProofsWalk Chain.ProofsSys Chain.ProofsTx Chain.ProofsAccept
  Chain.ProofsChainInv Chain.ProofsChainDep.
Import ListNotations.
Open Scope N_scope.

Module CM := Verif.Chain.Model.
Module CP := Verif.Chain.Proofs.

(* C09's record carries the origin, which `validate` does not read: it is left free *)
Definition same_tx (t : txn) (ct : CM.txrec) : Prop :=
  CM.tx_id ct = t_id t /\ CM.tx_tag ct = t_chain_tag t /\ CM.tx_ref ct = t_ref t /\ CM.tx_exp ct = t_exp t /\
  CM.tx_dep ct = t_dep t.

Definition tx_of (origin : N) (t : txn) : CM.txrec :=
  CM.mkTx (t_id t) (t_chain_tag t) (t_ref t) (t_exp t) (t_dep t) origin.

Lemma same_tx_of origin t : same_tx t (tx_of origin t).
Proof. unfold same_tx, tx_of. cbn. auto. Qed.

Lemma same_txs_of origin txs : Forall2 same_tx txs (map (tx_of origin) txs).
Proof. induction txs; cbn [map]; constructor; auto using same_tx_of. Qed.

(* the checks of C02's tx_body_check that C09 does not model, split where C09's three rules sit *)
Definition pre_check (cfg : config) (num : N) (t : txn) : option N :=
  if negb (t_origin_ok t) then Some 31
  else if (c_blocklist cfg <=? num) && t_origin_blocked t then Some 32
  else if negb (t_delegator_ok t) then Some 33
  else if (c_blocklist cfg <=? num) && t_delegator_blocked t then Some 34
  else None.
Definition post_check (cfg : config) (num feats : N) (t : txn) : option N :=
  if (num <? c_galactica cfg) && negb (t_type t =? 0) then Some 38
  else if negb (N.land (t_features t) feats =? t_features t) then Some 39
  else if t_unused t then Some 40
  else None.

(* C02's code of a C09 body verdict / C09's verdict of a C02 code *)
Definition body_code (v : CM.verdict) : option N :=
  match v with CM.V_tag => Some 35 | CM.V_future => Some 36 | CM.V_expired => Some 37 | _ => None end.
Definition replay_class (c : N) : option CM.verdict :=
  if c =? 35 then Some CM.V_tag else if c =? 36 then Some CM.V_future else if c =? 37 then Some CM.V_expired
  else if c =? 50 then Some CM.V_exists else if c =? 51 then Some CM.V_depbroken else if c =? 52 then Some CM.V_deprev
  else None.

Lemma body_rule_range tag num ct :
  CM.body_rule tag num ct = CM.V_ok \/ CM.body_rule tag num ct = CM.V_tag \/
  CM.body_rule tag num ct = CM.V_future \/ CM.body_rule tag num ct = CM.V_expired.
Proof.
  unfold CM.body_rule. destruct (negb _); auto. destruct (_ <? _); auto. destruct (_ <? _); auto.
Qed.

(* one transaction: C02's check = [31-34] ; C09's body_rule ; [38-40] *)
Theorem tx_check_sandwich cfg num feats t ct : same_tx t ct ->
  tx_body_check cfg num feats t =
    match pre_check cfg num t with
    | Some c => Some c
    | None => match body_code (CM.body_rule (c_chain_tag cfg) num ct) with
              | Some c => Some c
              | None => post_check cfg num feats t
              end
    end.
Proof.
  intros (_ & E2 & E3 & E4 & _). unfold tx_body_check, pre_check, post_check, CM.body_rule. rewrite E2, E3, E4.
  destruct (negb (t_origin_ok t)); [reflexivity|].
  destruct ((c_blocklist cfg <=? num) && t_origin_blocked t); [reflexivity|].
  destruct (negb (t_delegator_ok t)); [reflexivity|].
  destruct ((c_blocklist cfg <=? num) && t_delegator_blocked t); [reflexivity|].
  destruct (negb (t_chain_tag t =? c_chain_tag cfg)); [reflexivity|].
  destruct (num <? t_ref t); [reflexivity|].
  destruct (t_ref t + t_exp t <? num); reflexivity.
Qed.

Definition other_checks_pass (cfg : config) (num feats : N) (t : txn) : Prop :=
  pre_check cfg num t = None /\ post_check cfg num feats t = None.

Lemma tx_check_none_iff cfg num feats t ct : same_tx t ct ->
  tx_body_check cfg num feats t = None <->
  CM.body_rule (c_chain_tag cfg) num ct = CM.V_ok /\ other_checks_pass cfg num feats t.
Proof.
  intros S. rewrite (tx_check_sandwich cfg num feats t ct S). unfold other_checks_pass.
  destruct (pre_check cfg num t); [split; [discriminate | intros (_ & C & _); discriminate]|].
  destruct (body_rule_range (c_chain_tag cfg) num ct) as [E|[E|[E|E]]]; rewrite E; cbn [body_code];
    try (split; [discriminate | intros (C & _); discriminate]).
  split; [intros H; auto | intros (_ & _ & H); exact H].
Qed.

(* the list: SAME VERDICT.  Accepted by C02 => accepted by C09; rejected by C02 with one of the three codes C09 models =>
   rejected by C09 with that verdict (codes 31-34 / 38-40 have no counterpart in C09) *)
Theorem body_same_verdict cfg num feats txs ctxs : Forall2 same_tx txs ctxs ->
  match body_txs_check cfg num feats txs with
  | None => CM.body_rules (c_chain_tag cfg) num ctxs = CM.V_ok
  | Some c => match replay_class c with
              | Some v => CM.body_rules (c_chain_tag cfg) num ctxs = v
              | None => True
              end
  end.
Proof.
  induction 1 as [|t ct txs ctxs S _ IH]; [reflexivity|].
  cbn [body_txs_check CM.body_rules].
  destruct (tx_body_check cfg num feats t) as [c|] eqn:E.
  - rewrite (tx_check_sandwich cfg num feats t ct S) in E.
    destruct (pre_check cfg num t) as [c'|] eqn:Ep.
    + injection E as <-. unfold pre_check in Ep.
      repeat match type of Ep with (if ?x then _ else _) = _ => destruct x end; try discriminate; injection Ep as <-; exact I.
    + destruct (body_rule_range (c_chain_tag cfg) num ct) as [Eb|[Eb|[Eb|Eb]]]; rewrite Eb in *; cbn [body_code] in E.
      * unfold post_check in E.
        repeat match type of E with (if ?x then _ else _) = _ => destruct x end; try discriminate; injection E as <-; exact I.
      * injection E as <-. reflexivity.
      * injection E as <-. reflexivity.
      * injection E as <-. reflexivity.
  - apply (tx_check_none_iff cfg num feats t ct S) in E. destruct E as [-> _]. exact IH.
Qed.

(* ACCEPTS EXACTLY: C02's body check passes iff C09's does and the checks C09 does not model pass *)
Theorem body_accept_iff cfg num feats txs ctxs : Forall2 same_tx txs ctxs ->
  body_txs_check cfg num feats txs = None <->
  CM.body_rules (c_chain_tag cfg) num ctxs = CM.V_ok /\ Forall (other_checks_pass cfg num feats) txs.
Proof.
  induction 1 as [|t ct txs ctxs S _ IH]; [split; [intros _; split; [reflexivity | constructor] | reflexivity]|].
  cbn [body_txs_check CM.body_rules].
  destruct (tx_body_check cfg num feats t) as [c|] eqn:E.
  - split; [discriminate|]. intros (Hb & Hf). inversion Hf as [|? ? Ho _]; subst.
    destruct (CM.body_rule (c_chain_tag cfg) num ct) eqn:Eb; try discriminate.
    assert (X : tx_body_check cfg num feats t = None) by (apply (tx_check_none_iff _ _ _ _ _ S); auto). congruence.
  - apply (tx_check_none_iff cfg num feats t ct S) in E. destruct E as [Eb Ho]. rewrite Eb, IH.
    split; [intros (A & B); split; [exact A | constructor; auto] | intros (A & B); inversion B; auto].
Qed.

(* rejected by C09 => rejected by C02, with the corresponding code or with the code of a check C09 does not model *)
Theorem body_reject_conv cfg num feats txs ctxs v : Forall2 same_tx txs ctxs ->
  CM.body_rules (c_chain_tag cfg) num ctxs = v -> v <> CM.V_ok ->
  exists c, body_txs_check cfg num feats txs = Some c /\ (replay_class c = Some v \/ replay_class c = None).
Proof.
  intros S Hv Hne. pose proof (body_same_verdict cfg num feats txs ctxs S) as H.
  destruct (body_txs_check cfg num feats txs) as [c|]; [|congruence].
  exists c. split; [reflexivity|]. destruct (replay_class c) as [v'|]; [left; congruence | right; reflexivity].
Qed.

Lemma lookup_afind (k : N) (m : list (N * bool)) : lookup k m = CM.afind k m.
Proof.
  unfold lookup. induction m as [|[a b] m IH]; cbn [find CM.afind fst snd]; [reflexivity|].
  destruct (a =? k); [reflexivity | exact IH].
Qed.

Definition loop_class (v : verdict) : option CM.verdict :=
  match v with Critical c => replay_class c | _ => None end.

Section Loop.
  Variable State : Type.
  Variable exec : bctx -> State -> txn -> option (State * receipt).
  Variable r : CM.repo.          (* C09's repository *)
  Variable p : N.                (* the parent's id: lookups run on its chain *)

  (* C02's abstract lookups, instantiated *)
  Definition has_tx_of (id ref : N) : bool :=
    match CM.has_transaction r p id ref with CM.Ok v => v | _ => false end.
  Definition find_meta_of (id : N) : option bool :=
    match CM.get_tx_meta r p id with CM.Ok e => Some (CM.e_rev e) | _ => None end.

  (* what C02's total lookups cannot express *)
  Definition lookups_total : Prop :=
    (forall x ref, exists v, CM.has_transaction r p x ref = CM.Ok v) /\ (forall x, CM.get_tx_meta r p x <> CM.Fail).

  Notation verify_txs := (verify_txs State exec has_tx_of find_meta_of).
  Notation run := (run State exec).

  (* the flags C09 takes as input, as C02's execution produces them: plain sequential execution, up to the first
     transaction that does not execute *)
  Fixpoint exec_flags (ctx : bctx) (st : State) (txs : list txn) : list bool :=
    match txs with
    | [] => []
    | t :: rest => match exec ctx st t with
                   | None => []
                   | Some (st', rc) => r_reverted rc :: exec_flags ctx st' rest
                   end
    end.

  Lemma exec_flags_run ctx : forall txs st stf rcs, run ctx st txs = Some (stf, rcs) -> exec_flags ctx st txs = map r_reverted rcs.
  Proof.
    induction txs as [|t l IH]; intros st stf rcs; cbn [Catalogue.run exec_flags].
    - intros E. injection E as _ <-. reflexivity.
    - destruct (exec ctx st t) as [[st' rc]|]; [|discriminate].
      destruct (run ctx st' l) as [[stf' rs']|] eqn:Er; [|discriminate]. intros E. injection E as _ <-.
      cbn [map]. f_equal. exact (IH _ _ _ Er).
  Qed.

  Hypothesis LT : lookups_total.

  (* the dependency rule: C02's dep_check is C09's inline test, the lookup never failing *)
  Lemma dep_class_eq proc t :
    match dep_check find_meta_of proc t with
    | DepOk => CM.V_ok | DepBroken => CM.V_depbroken | DepReverted => CM.V_deprev end =
    match t_dep t with
    | None => CM.V_ok
    | Some d => match CM.afind d proc with
                | Some rv => if rv then CM.V_deprev else CM.V_ok
                | None => match CM.get_tx_meta r p d with
                          | CM.Ok e => if CM.e_rev e then CM.V_deprev else CM.V_ok
                          | CM.NotFound => CM.V_depbroken
                          | CM.Fail => CM.V_fail
                          end
                end
    end.
  Proof.
    destruct LT as [_ LT2]. unfold dep_check.
    destruct (t_dep t) as [d|]; [|reflexivity]. rewrite lookup_afind.
    destruct (CM.afind d proc) as [[|]|]; try reflexivity.
    unfold find_meta_of. pose proof (LT2 d) as Hnf.
    destruct (CM.get_tx_meta r p d) as [e| |]; [destruct (CM.e_rev e); reflexivity | reflexivity | contradiction].
  Qed.

  (* SAME VERDICT on every transaction list, from every loop state: accepted by C02 => C09's loop accepts the flags of the
     receipts; rejected by C02 with a replay / dependency code (50, 51, 52) => C09's loop rejects with that verdict; the
     only other rejections are the two C09 has no counterpart for (53: a transaction does not execute; 54: block gas limit) *)
  Theorem verify_same_verdict ctx : forall txs ctxs, Forall2 same_tx txs ctxs -> forall st proc used,
    match verify_txs ctx txs st proc used with
    | VOk _ _ rcs _ => exec_flags ctx st txs = map r_reverted rcs /\
                     CM.verify_loop r p proc ctxs (map r_reverted rcs) = CM.V_ok
    | VBad _ v => match loop_class v with
                | Some cv => CM.verify_loop r p proc ctxs (exec_flags ctx st txs) = cv
                | None => v = Other 53 \/ v = Critical 54
                end
    end.
  Proof.
    destruct LT as [LT1 LT2].
    induction 1 as [|t ct txs ctxs S _ IH]; intros st proc used; [cbn; auto|].
    destruct S as (E1 & E2 & E3 & E4 & E5).
    cbn [Body.verify_txs CM.verify_loop exec_flags]. unfold known. rewrite E1, E3, E5, !lookup_afind.
    destruct (CM.afind (t_id t) proc) as [x|] eqn:Ea.
    { cbn. reflexivity. }
    unfold has_tx_of at 1. destruct (LT1 (t_id t) (t_ref t)) as [hv ->].
    destruct hv; [cbn; reflexivity|].
    rewrite <- (dep_class_eq proc t).
    destruct (dep_check find_meta_of proc t); try (cbn; reflexivity).
    destruct (exec ctx st t) as [[st' rc]|] eqn:Ee; [|cbn; auto].
    destruct (x_gas_limit ctx <? used + r_gas rc); [cbn; auto|].
    specialize (IH st' ((t_id t, r_reverted rc) :: proc) (used + r_gas rc)).
    destruct (Body.verify_txs State exec has_tx_of find_meta_of ctx txs st' ((t_id t, r_reverted rc) :: proc) (used + r_gas rc))
      as [stf rcs u|v].
    - destruct IH as [IH1 IH2]. cbn [map tl]. split; [f_equal; exact IH1 | exact IH2].
    - destruct (loop_class v); cbn [tl]; exact IH.
  Qed.

  (* C09's loop = C02's catalogue rules 40 (no id twice, none already on the parent's chain) + 42 (dependencies) *)
  Theorem loop_ok_iff_catalogue : forall txs ctxs, Forall2 same_tx txs ctxs -> forall proc rcs, length rcs = length txs ->
    CM.verify_loop r p proc ctxs (map r_reverted rcs) = CM.V_ok <->
    fresh has_tx_of (map fst proc) txs /\ deps_ok find_meta_of proc txs rcs.
  Proof.
    destruct LT as [LT1 _].
    induction 1 as [|t ct txs ctxs S _ IH]; intros proc rcs Hlen.
    - cbn. destruct rcs; cbn; tauto.
    - destruct rcs as [|rc rcs]; [discriminate|]. cbn [length] in Hlen. injection Hlen as Hlen.
      destruct S as (E1 & E2 & E3 & E4 & E5).
      cbn [CM.verify_loop fresh Catalogue.deps_ok map tl]. rewrite E1, E3, E5, <- (dep_class_eq proc t).
      pose proof (lookup_none_iff (t_id t) proc) as Hln. rewrite lookup_afind in Hln.
      destruct (CM.afind (t_id t) proc) as [x|] eqn:Ea.
      { split; [discriminate|]. intros ((C & _) & _). apply Hln in C. discriminate. }
      assert (Hni : ~ In (t_id t) (map fst proc)) by (apply Hln; reflexivity).
      destruct (LT1 (t_id t) (t_ref t)) as [hv Ehv].
      assert (Hh : has_tx_of (t_id t) (t_ref t) = hv) by (unfold has_tx_of; rewrite Ehv; reflexivity).
      rewrite Ehv, Hh.
      destruct hv; [split; [discriminate | intros ((_ & C & _) & _); discriminate]|].
      pose proof (dep_check_ok_iff find_meta_of proc t) as Hd.
      destruct (dep_check find_meta_of proc t).
      + rewrite (IH _ _ Hlen). cbn [map fst]. tauto.
      + split; [discriminate|]. intros (_ & C & _). apply Hd in C. discriminate.
      + split; [discriminate|]. intros (_ & C & _). apply Hd in C. discriminate.
  Qed.

  Lemma run_length ctx : forall txs st stf rcs, run ctx st txs = Some (stf, rcs) -> length rcs = length txs.
  Proof.
    induction txs as [|t l IH]; intros st stf rcs; cbn [Catalogue.run].
    - intros E. injection E as _ <-. reflexivity.
    - destruct (exec ctx st t) as [[st' rc]|]; [|discriminate].
      destruct (run ctx st' l) as [[stf' rs']|] eqn:Er; [|discriminate]. intros E. injection E as _ <-.
      cbn [length]. f_equal. exact (IH _ _ _ Er).
  Qed.

  (* ACCEPTS EXACTLY: C02's loop accepts iff the plain sequential execution succeeds, stays within the block gas limit, and
     C09's loop accepts the reverted flags that execution produced *)
  Theorem verify_accept_iff ctx txs ctxs st proc used stf rcs u : Forall2 same_tx txs ctxs ->
    verify_txs ctx txs st proc used = VOk State stf rcs u <->
    run ctx st txs = Some (stf, rcs) /\ u = used + total_gas rcs /\ (txs <> [] -> u <= x_gas_limit ctx) /\
    CM.verify_loop r p proc ctxs (map r_reverted rcs) = CM.V_ok.
  Proof.
    intros S. rewrite (verify_txs_iff State exec (fun _ _ s _ => s) (fun _ s => Some s) (fun _ => true) (fun _ => 0) (fun _ => 0) (fun _ => 0)
               has_tx_of find_meta_of ctx txs st proc used stf rcs u). split.
    - intros (Hr & Hu & Hf & Hd & Hg). repeat split; auto.
      apply (loop_ok_iff_catalogue txs ctxs S proc rcs (run_length _ _ _ _ _ Hr)). auto.
    - intros (Hr & Hu & Hg & Hl).
      apply (loop_ok_iff_catalogue txs ctxs S proc rcs (run_length _ _ _ _ _ Hr)) in Hl. destruct Hl. repeat split; auto.
  Qed.

  (* rejected by C09's loop on the flags of C02's execution => rejected by C02: with that verdict's code, or because a
     transaction does not execute / the block gas limit is exceeded before the loop reaches the offending transaction *)
  Theorem verify_reject_conv ctx txs ctxs st proc used cv : Forall2 same_tx txs ctxs ->
    CM.verify_loop r p proc ctxs (exec_flags ctx st txs) = cv -> cv <> CM.V_ok ->
    exists v, verify_txs ctx txs st proc used = VBad State v /\ (loop_class v = Some cv \/ v = Other 53 \/ v = Critical 54).
  Proof.
    intros S Hl Hne. pose proof (verify_same_verdict ctx txs ctxs S st proc used) as H.
    destruct (verify_txs ctx txs st proc used) as [stf rcs u|v].
    - destruct H as [H1 H2]. rewrite H1 in Hl. congruence.
    - exists v. split; [reflexivity|]. destruct (loop_class v) as [cv'|]; [left; congruence | right; exact H].
  Qed.
End Loop.

(* the lookups never fail on a repository reached by AddBlock calls, for a stored parent (C09 theorems 2 and 4) *)
Lemma lookups_total_reachable g gp tag adm r p :
  CM.num_of g = 0 -> CM.num_of gp = CM.max_u32 -> CP.reachable g gp tag adm r -> CP.stored r p -> lookups_total r p.
Proof.
  intros Hg Hgp R Sp.
  pose proof (CP.reachable_wf _ _ _ _ _ Hg R) as W. pose proof (Chain.ProofsWalk.reachable_wf_body _ _ _ _ _ Hg R) as WB.
  pose proof (Chain.ProofsTx.reachable_wf_txi _ _ _ _ _ Hg R) as WT. pose proof (Chain.ProofsTx.reachable_conf_inj _ _ _ _ _ Hg R) as CI.
  split.
  - intros x ref. destruct (Chain.ProofsTx.has_transaction_spec g gp r W WB WT CI Hgp p x ref Sp) as [v [Ev _]]. exists v. exact Ev.
  - intros x C. pose proof (Chain.ProofsTx.get_tx_meta_spec g gp r W WT CI Hgp p x Sp) as H. rewrite C in H. exact H.
Qed.

(* crunch destructs every test of the goal, innermost first; used below on functions each of whose branches returns a
   literal code *)
Ltac leaf x := lazymatch x with
  | context [if _ then _ else _] => fail
  | context [match _ with _ => _ end] => fail
  | _ => idtac end.
Ltac crunch := repeat match goal with
  | |- context [if ?x then _ else _] => leaf x; destruct x
  | |- context [match ?x with _ => _ end] => leaf x; destruct x
  end.

(* the codes of the other stages of Process do not collide with the six replay codes *)
Lemma validate_header_code cfg parent h now c : validate_header cfg parent h now = Critical c -> c <= 15.
Proof.
  unfold validate_header, sig_alpha_check, base_fee_check. crunch; intros E; try discriminate; injection E as <-; lia.
Qed.
Lemma validate_proposer_code cfg pv parent h c : validate_proposer cfg pv parent h = PBad (Critical c) -> c <= 24.
Proof.
  unfold validate_proposer. crunch; intros E; try discriminate; injection E as <-; lia.
Qed.
Lemma replay_class_codes c v : replay_class c = Some v -> c = 35 \/ c = 36 \/ c = 37 \/ c = 50 \/ c = 51 \/ c = 52.
Proof.
  unfold replay_class.
  repeat match goal with |- context [if ?x =? ?y then _ else _] => destruct (N.eqb_spec x y) end; try discriminate; auto 10.
Qed.
Lemma replay_class_not_ok c : replay_class c <> Some CM.V_ok.
Proof. intros H. destruct (replay_class_codes c _ H) as [-> | [-> | [-> | [-> | [-> | ->]]]]]; discriminate H. Qed.

Section Block.
  Variable State : Type.
  Variable exec : bctx -> State -> txn -> option (State * receipt).
  Variable apply_updates : bool -> N -> State -> list (N * bool) -> State.
  Variable rewards : bctx -> State -> option State.
  Variable sanity : State -> bool.
  Variable root_of_state : State -> N.
  Variable root_of_receipts : list receipt -> N.
  Variable root_of_txs : list txn -> N.

  (* C02's Process with C09's lookups on the chain of cb's parent *)
  Definition process_on (r : CM.repo) (p : N) :=
    process State exec apply_updates rewards sanity root_of_state root_of_receipts root_of_txs (has_tx_of r p) (find_meta_of r p).

  (* the C02 block `b` judged as a child of header `parent` under `cfg` and the C09 block `cb` to be added to `r` are two
     views of one block: same transactions, the height read off the id is the header's number, the validator's chain tag is
     the repository's *)
  Definition linked (cfg : config) (parent : header) (r : CM.repo) (b : block) (cb : CM.blk) : Prop :=
    Forall2 same_tx (b_txs b) (CM.b_txs cb) /\
    CM.num_of (CM.b_id cb) = h_number parent + 1 /\
    c_chain_tag cfg = CM.r_tag r.

  (* where Process starts executing: the context and the state after the scheduler's activity updates *)
  Definition start_of (cfg : config) (pv : pview) (parent : header) (st0 : State) (b : block) : option (bctx * State) :=
    match validate_proposer cfg pv parent (b_header b) with
    | POk ups => Some (ctx_of_header parent (b_header b), apply_updates (pv_pos pv) (h_number parent + 1) st0 ups)
    | PBad _ => None
    end.

  (* a block C02 accepts passes C09's validate, the receipts' reverted flags being those Process returned *)
  Theorem process_accepted_validates cfg pv parent st0 b now r cb st rcs :
    linked cfg parent r b cb -> lookups_total r (CM.b_parent cb) ->
    map CM.rc_rev (CM.b_rcs cb) = map r_reverted rcs ->
    process_on r (CM.b_parent cb) cfg pv parent st0 b now = Accepted State st rcs ->
    CM.validate r cb = CM.V_ok.
  Proof.
    intros (L1 & L2 & L3) LT Hrev. unfold process_on, Body.process.
    destruct (negb _); [discriminate|]. destruct (validate_header cfg parent (b_header b) now); try discriminate.
    destruct (validate_proposer cfg pv parent (b_header b)) as [ups|]; [|discriminate].
    destruct (negb _); [discriminate|].
    pose proof (body_same_verdict cfg (h_number parent + 1) (h_features (b_header b)) _ _ L1) as Hb.
    destruct (body_txs_check cfg (h_number parent + 1) (h_features (b_header b)) (b_txs b)); [discriminate|].
    unfold Body.verify_block.
    match goal with |- context [Body.verify_txs ?S ?e ?h ?f ?c ?t ?s ?pr ?u] =>
      pose proof (verify_same_verdict State exec r (CM.b_parent cb) LT c _ _ L1 s pr u) as Hv;
      destruct (Body.verify_txs S e h f c t s pr u) as [stf rs u'|v] end; [|discriminate].
    destruct Hv as [_ Hv].
    intros Hacc. assert (rs = rcs).
    { revert Hacc. destruct (negb _); [discriminate|]. destruct (negb _); [discriminate|].
      destruct (pv_pos pv).
      - destruct (negb _); [discriminate|]. destruct (rewards _ _); [|discriminate].
        destruct (negb _); [discriminate|]. intros E. injection E as _ E. exact E.
      - destruct (negb _); [discriminate|]. intros E. injection E as _ E. exact E. }
    subst rs. unfold CM.validate. rewrite L2, <- L3, Hb, Hrev. exact Hv.
  Qed.

  (* ACCEPTS EXACTLY.  C02's acceptance condition (ProofsRules.accept_cond: header, proposer, roots, execution ...) with the
        replay / window / dependency rules taken out: what remains once C09's validate has accepted *)
  Definition accept_rest (cfg : config) (pv : pview) (parent : header) (st0 : State) (b : block) (now : N)
             (st2 : State) (rcs : list receipt) : Prop :=
    let h := b_header b in let num := h_number parent + 1 in
    h_features h = features_at cfg num /\
    header_rules cfg parent h now /\
    exists s mep, proposer_rules cfg pv parent h s mep /\
      h_txs_root h = root_of_txs (b_txs b) /\
      Forall (other_checks_pass cfg num (h_features h)) (b_txs b) /\
      exists stf,
        let st1 := apply_updates (pv_pos pv) num st0
                     (fst (sched_updates (kind_of cfg pv num) (pv_hash pv) (h_time parent) (c_interval cfg) (pv_cands pv) mep
                                         (pv_total pv) (h_time h))) in
        let ctx := ctx_of_header parent h in
        run State exec ctx st1 (b_txs b) = Some (stf, rcs) /\
        h_gas_used h = total_gas rcs /\
        (h_receipts_root h = root_of_receipts rcs \/ b_rr_fix b = Some (root_of_receipts rcs)) /\
        (pv_pos pv = true -> sanity stf = true /\ rewards ctx stf <> None) /\
        h_state_root h = root_of_state (final_state State rewards (pv_pos pv) ctx stf) /\
        st2 = final_state State rewards (pv_pos pv) ctx stf.

  Theorem process_accept_iff_validate cfg pv parent st0 b now r cb st2 rcs :
    wf_gas parent b -> linked cfg parent r b cb -> lookups_total r (CM.b_parent cb) ->
    map CM.rc_rev (CM.b_rcs cb) = map r_reverted rcs ->
    process_on r (CM.b_parent cb) cfg pv parent st0 b now = Accepted State st2 rcs <->
    CM.validate r cb = CM.V_ok /\ accept_rest cfg pv parent st0 b now st2 rcs.
  Proof.
    intros WG (L1 & L2 & L3) LT Hrev. unfold process_on.
    rewrite (process_accept_iff State exec apply_updates rewards sanity root_of_state root_of_receipts root_of_txs
               (has_tx_of r (CM.b_parent cb)) (find_meta_of r (CM.b_parent cb)) cfg pv parent st0 b now st2 rcs WG).
    unfold accept_cond, accept_rest, verify_rules, CM.validate. cbv zeta. rewrite L2, <- L3, Hrev.
    set (num := h_number parent + 1). set (h := b_header b).
    split.
    - intros (A1 & A2 & s & mep & A3 & A4 & A5 & stf & (B1 & B2 & B3 & B4 & B5 & B6 & B7) & A6).
      apply body_rules_iff, body_txs_check_iff in A5. apply (body_accept_iff cfg num (h_features h) _ _ L1) in A5.
      destruct A5 as [C1 C2]. rewrite C1. split.
      + apply (loop_ok_iff_catalogue r (CM.b_parent cb) LT _ _ L1 [] rcs (run_length State exec _ _ _ _ _ B1)). auto.
      + split; [exact A1|]. split; [exact A2|]. exists s, mep. split; [exact A3|]. split; [exact A4|]. split; [exact C2|].
        exists stf. repeat split; auto; apply B6; auto.
    - intros (V & A1 & A2 & s & mep & A3 & A4 & A5 & stf & B1 & B4 & B5 & B6 & B7 & A6).
      destruct (CM.body_rules (c_chain_tag cfg) num (CM.b_txs cb)) eqn:C1; try discriminate.
      apply (loop_ok_iff_catalogue r (CM.b_parent cb) LT _ _ L1 [] rcs (run_length State exec _ _ _ _ _ B1)) in V.
      destruct V as [V1 V2].
      split; [exact A1|]. split; [exact A2|]. exists s, mep. split; [exact A3|]. split; [exact A4|].
      split. { apply body_rules_iff, body_txs_check_iff. apply (body_accept_iff cfg num (h_features h) _ _ L1). auto. }
      exists stf. split; [|exact A6]. repeat split; auto; apply B6; auto.
  Qed.

  (* SAME VERDICT on rejection: a block C02 rejects with one of the six codes of the rules C09 models is rejected by C09's
        validate with the corresponding verdict, the input flags being those of C02's execution from where Process starts
        executing (for the three body codes no transaction was executed and the flags are irrelevant) *)
  Theorem process_replay_reject_same_verdict cfg pv parent st0 b now r cb c v :
    linked cfg parent r b cb -> lookups_total r (CM.b_parent cb) ->
    (forall ctx st1, start_of cfg pv parent st0 b = Some (ctx, st1) ->
                     map CM.rc_rev (CM.b_rcs cb) = exec_flags State exec ctx st1 (b_txs b)) ->
    process_on r (CM.b_parent cb) cfg pv parent st0 b now = Rejected State (Critical c) ->
    replay_class c = Some v ->
    CM.validate r cb = v.
  Proof.
    intros (L1 & L2 & L3) LT Hrev Hp C. pose proof (replay_class_codes c v C) as Hc.
    revert Hp. unfold process_on, Body.process, start_of in *.
    destruct (negb _); [intros E; injection E as <-; lia|].
    destruct (validate_header cfg parent (b_header b) now) eqn:Eh; try (intros E; discriminate E).
    2:{ intros E. injection E as ->. apply validate_header_code in Eh. lia. }
    destruct (validate_proposer cfg pv parent (b_header b)) as [ups|w] eqn:Ep.
    2:{ intros E. injection E as ->. apply validate_proposer_code in Ep. lia. }
    destruct (negb _); [intros E; injection E as <-; lia|].
    pose proof (body_same_verdict cfg (h_number parent + 1) (h_features (b_header b)) _ _ L1) as Hb.
    destruct (body_txs_check cfg (h_number parent + 1) (h_features (b_header b)) (b_txs b)) as [c'|].
    { intros E. injection E as ->. rewrite C in Hb. unfold CM.validate. rewrite L2, <- L3, Hb.
      destruct v; try reflexivity. exfalso. exact (replay_class_not_ok c C). }
    specialize (Hrev _ _ eq_refl).
    unfold Body.verify_block.
    match goal with |- context [Body.verify_txs ?S ?e ?h ?f ?cx ?t ?s ?pr ?u] =>
      pose proof (verify_same_verdict State exec r (CM.b_parent cb) LT cx _ _ L1 s pr u) as Hv;
      destruct (Body.verify_txs S e h f cx t s pr u) as [stf rs u'|w] end.
    - destruct (negb _); [intros E; injection E as <-; lia|]. destruct (negb _); [intros E; injection E as <-; lia|].
      destruct (pv_pos pv).
      + destruct (negb _); [intros E; injection E as <-; lia|]. destruct (rewards _ _); [|discriminate].
        destruct (negb _); [intros E; injection E as <-; lia | discriminate].
      + destruct (negb _); [intros E; injection E as <-; lia | discriminate].
    - intros E. injection E as ->. cbn [loop_class] in Hv. rewrite C in Hv.
      unfold CM.validate. rewrite L2, <- L3, Hb, Hrev. exact Hv.
  Qed.
End Block.

Section ChainLevel.
  Variable State : Type.
  Variable exec : bctx -> State -> txn -> option (State * receipt).
  Variable apply_updates : bool -> N -> State -> list (N * bool) -> State.
  Variable rewards : bctx -> State -> option State.
  Variable sanity : State -> bool.
  Variable root_of_state : State -> N.
  Variable root_of_receipts : list receipt -> N.
  Variable root_of_txs : list txn -> N.
  Variables g gp tag : N.
  Variable U : CM.txrec -> Prop.          (* the transactions that exist (C09: an id determines the body) *)

  Notation process_on := (process_on State exec apply_updates rewards sanity root_of_state root_of_receipts root_of_txs).

  (* admission of a block to a C09 history: C02's Process — whatever the fork configuration, proposer view, parent header,
     parent state and clock it was run with — accepted a view of this block, looking transactions up on the chain of the
     block's parent in THIS repository, and the stored receipts carry the reverted flags Process returned *)
  Definition c02_accepted (r : CM.repo) (cb : CM.blk) (_ : bool) : Prop :=
    (exists cfg pv parent st0 b now st rcs,
        linked cfg parent r b cb /\ map CM.rc_rev (CM.b_rcs cb) = map r_reverted rcs /\
        process_on r (CM.b_parent cb) cfg pv parent st0 b now = Accepted State st rcs) /\
    (forall t, In t (CM.b_txs cb) -> U t).

  (* every history of blocks accepted by C02's Process is a history of blocks accepted by C09's validate *)
  Theorem c02_history_is_c09_history r : CM.num_of g = 0 -> CM.num_of gp = CM.max_u32 ->
    CP.reachable g gp tag c02_accepted r -> CP.reachable g gp tag (Chain.ProofsChainInv.accepted U) r.
  Proof.
    intros Hg Hgp. induction 1 as [|r cb conf best r' R IH V [(cfg & pv & parent & st0 & b & now & st & rcs & L & Hrev & Hp) HU] A].
    - apply CP.reach_init.
    - apply (CP.reach_add _ _ _ _ r cb conf best r' IH V); [|exact A]. split; [|exact HU].
      destruct (CP.add_parent _ _ _ _ _ A) as [ps [Hps _]].
      assert (LT : lookups_total r (CM.b_parent cb)).
      { apply (lookups_total_reachable g gp tag _ r _ Hg Hgp IH). exists ps. exact Hps. }
      exact (process_accepted_validates State exec apply_updates rewards sanity root_of_state root_of_receipts root_of_txs
               cfg pv parent st0 b now r cb st rcs L LT Hrev Hp).
  Qed.

  (* hence C09's first sentence holds on every chain built from blocks C02's Process accepted: seen from any stored head,
     every included transaction exists, has the chain tag and sits inside [ref, ref + expiration]; no id is on the chain
     twice (neither in two blocks nor twice in one) *)
  Theorem c02_chain_at_most_once_in_window :
    (forall t1 t2, U t1 -> U t2 -> CM.tx_id t1 = CM.tx_id t2 -> t1 = t2) -> CM.num_of g = 0 -> CM.num_of gp = CM.max_u32 ->
    forall r, CP.reachable g gp tag c02_accepted r -> forall h, CP.stored r h ->
      (forall a t, CP.anc r h a -> Chain.ProofsChainInv.tx_in r a t ->
                   U t /\ CM.tx_tag t = tag /\ CM.tx_ref t <= CM.num_of a /\ CM.num_of a <= CM.tx_ref t + CM.tx_exp t) /\
      (forall a1 t1 a2 t2, CP.anc r h a1 -> CP.anc r h a2 -> Chain.ProofsChainInv.tx_in r a1 t1 ->
                           Chain.ProofsChainInv.tx_in r a2 t2 -> CM.tx_id t1 = CM.tx_id t2 -> a1 = a2) /\
      (forall a s b, CP.anc r h a -> CM.get_block r a = Some (s, b) -> NoDup (map CM.tx_id (CM.b_txs b))).
  Proof.
    intros Uinj Hg Hgp r R h Sh.
    exact (Chain.ProofsChainInv.accepted_chain_ok g gp tag U Uinj Hg Hgp r (c02_history_is_c09_history r Hg Hgp R) h Sh).
  Qed.

  (* ... and the dependency of every included transaction occurs earlier on the same chain, not reverted *)
  Theorem c02_chain_dependency : CM.num_of g = 0 -> CM.num_of gp = CM.max_u32 ->
    forall r, CP.reachable g gp tag c02_accepted r -> forall h, CP.stored r h ->
      forall a i t rc d, CP.anc r h a -> Chain.ProofsChainDep.tx_at r a i t rc -> CM.tx_dep t = Some d ->
        exists a' i' t' rc', CP.anc r h a' /\ Chain.ProofsChainDep.tx_at r a' i' t' rc' /\ CM.tx_id t' = d /\
                             CM.rc_rev rc' = false /\ (CM.num_of a' < CM.num_of a \/ (a' = a /\ (i' < i)%nat)).
  Proof.
    intros Hg Hgp r R h Sh.
    exact (Chain.ProofsChainDep.accepted_chain_dep_ok g gp tag U Hg Hgp r (c02_history_is_c09_history r Hg Hgp R) h Sh).
  Qed.
End ChainLevel.
