(* Sync/ProofsDownload.v — the batch decoder forwards exactly the longest well-formed in-sequence prefix; the
   stream handed to import is consecutively numbered for EVERY peer; an honest peer's chain is delivered whole
   for every choice of batch boundaries; importing it makes the peer's head the best block. *)
From Coq Require Import List NArith ZArith Bool Lia ZifyN ZifyNat ZifyBool.
From Verif Require Import Common.Util Sync.Model Sync.Proofs.
Import ListNotations.
Open Scope N_scope.

Ltac split_and := repeat match goal with |- _ /\ _ => split end.

Section Batch.
  Variables Raw Blk : Type.
  Variable header_number : Raw -> option N.
  Variable decode_body : Raw -> option Blk.

  Definition good (start k : N) (r : Raw) : Prop :=
    header_number r = Some (wrap32 (start + k)) /\ decode_body r <> None.

  Definition offending (start k : N) (r : Raw) (st : dl_status) : Prop :=
    match st with
    | DlBadStructure => header_number r = None
    | DlBrokenSequence => exists n, header_number r = Some n /\ n <> wrap32 (start + k)
    | DlBadBody => header_number r = Some (wrap32 (start + k)) /\ decode_body r = None
    | _ => False
    end.

  (* bad_batch_rejected: what is forwarded is the decoded longest prefix of good blocks; the first offending
     block and everything behind it is not forwarded, and the status names the offence. *)
  Lemma decode_batch_spec : forall raws start i l st,
      decode_batch Raw Blk header_number decode_body start i raws = (l, st) ->
      exists pre post,
        raws = pre ++ post /\ length pre = length l /\
        (forall k r, nth_error pre k = Some r ->
                     good start (i + N.of_nat k) r /\ decode_body r = nth_error l k) /\
        match st with
        | DlDone => post = []
        | _ => exists r t, post = r :: t /\ offending start (i + N.of_nat (length pre)) r st
        end.
  Proof.
    induction raws as [|r t IH]; intros start i l st H; cbn [decode_batch] in H.
    - inversion H; subst. exists [], []. split_and; auto. intros k r Hk. destruct k; discriminate.
    - destruct (header_number r) as [n|] eqn:Eh.
      2:{ inversion H; subst. exists [], (r :: t). split_and; auto.
          - intros k r0 Hk; destruct k; discriminate.
          - exists r, t. split; auto. }
      destruct (n =? wrap32 (start + i)) eqn:En.
      2:{ inversion H; subst. exists [], (r :: t). split_and; auto.
          - intros k r0 Hk; destruct k; discriminate.
          - exists r, t. split; auto. cbn. exists n. split; auto.
            apply N.eqb_neq in En. rewrite N.add_0_r. auto. }
      apply N.eqb_eq in En. subst n.
      destruct (decode_body r) as [b|] eqn:Eb.
      2:{ inversion H; subst. exists [], (r :: t). split_and; auto.
          - intros k r0 Hk; destruct k; discriminate.
          - exists r, t. split; auto. cbn. rewrite N.add_0_r. auto. }
      destruct (decode_batch Raw Blk header_number decode_body start (i + 1) t) as [l' st'] eqn:Er.
      inversion H; subst; clear H.
      destruct (IH _ _ _ _ Er) as [pre [post [H1 [H2 [H3 H4]]]]].
      exists (r :: pre), post. split_and.
      + cbn. f_equal. auto.
      + cbn. f_equal. auto.
      + intros k r0 Hk. destruct k as [|k]; cbn in Hk.
        * inversion Hk; subst r0. rewrite N.add_0_r. cbn. unfold good. split; [split|]; auto. congruence.
        * destruct (H3 _ _ Hk) as [[G1 G2] G3].
          replace (i + N.of_nat (S k)) with (i + 1 + N.of_nat k) by lia.
          cbn. unfold good. auto.
      + replace (i + N.of_nat (length (r :: pre))) with (i + 1 + N.of_nat (length pre)) by (cbn [length]; lia).
        destruct st; auto.
  Qed.
End Batch.

Lemma wrap32_add_l a b : wrap32 (wrap32 a + b) = wrap32 (a + b).
Proof. unfold wrap32. lia. Qed.

Section Stream.
  Variables Raw Blk : Type.
  Variable header_number : Raw -> option N.
  Variable decode_body : Raw -> option Blk.
  Variable num : Blk -> N.
  (* RawBlock.Decode decodes the very header whose number was checked *)
  Hypothesis body_header : forall r b n, decode_body r = Some b -> header_number r = Some n -> num b = n.
  Variable peer : N -> option (list Raw).

  Lemma decode_batch_numbers : forall raws start i l st,
      decode_batch Raw Blk header_number decode_body start i raws = (l, st) ->
      forall k b, nth_error l k = Some b -> num b = wrap32 (start + i + N.of_nat k).
  Proof.
    intros raws start i l st H k b Hk.
    destruct (decode_batch_spec _ _ _ _ _ _ _ _ _ H) as [pre [post [H1 [H2 [H3 H4]]]]].
    assert (Hlt : (k < length pre)%nat).
    { rewrite H2. apply nth_error_Some. congruence. }
    destruct (nth_error pre k) as [r|] eqn:Er; [|apply nth_error_None in Er; lia].
    destruct (H3 _ _ Er) as [[G1 G2] G3].
    rewrite Hk in G3. rewrite (body_header _ _ _ G3 G1). f_equal. lia.
  Qed.

  Lemma decode_batch_done_length : forall raws start i l,
      decode_batch Raw Blk header_number decode_body start i raws = (l, DlDone) -> length l = length raws.
  Proof.
    intros raws start i l H.
    destruct (decode_batch_spec _ _ _ _ _ _ _ _ _ H) as [pre [post [H1 [H2 [H3 H4]]]]].
    subst post. rewrite app_nil_r in H1. subst. auto.
  Qed.

  Theorem stream_in_sequence : forall fuel from l st,
      download_stream Raw Blk header_number decode_body peer from fuel = (l, st) ->
      forall k b, nth_error l k = Some b -> num b = wrap32 (from + N.of_nat k).
  Proof.
    induction fuel as [|f IH]; intros from l st H k b Hk; cbn [download_stream] in H.
    - inversion H; subst. destruct k; discriminate.
    - destruct (peer from) as [raws|]; [|inversion H; subst; destruct k; discriminate].
      destruct (Nat.ltb max_batch (length raws)); [inversion H; subst; destruct k; discriminate|].
      destruct raws as [|r0 t0]; [inversion H; subst; destruct k; discriminate|].
      remember (r0 :: t0) as raws.
      destruct (decode_batch Raw Blk header_number decode_body from 0 raws) as [l1 st1] eqn:Ed.
      assert (Hb := decode_batch_numbers _ _ _ _ _ Ed).
      destruct st1;
        try (inversion H; subst; rewrite (Hb _ _ Hk); f_equal; lia).
      destruct (download_stream Raw Blk header_number decode_body peer
                                (wrap32 (from + N.of_nat (length raws))) f) as [l2 st2] eqn:Er.
      inversion H; subst l st; clear H.
      destruct (Nat.lt_ge_cases k (length l1)) as [Hlt|Hge].
      + rewrite nth_error_app1 in Hk by auto. rewrite (Hb _ _ Hk). f_equal. lia.
      + rewrite nth_error_app2 in Hk by auto.
        rewrite (IH _ _ _ Er _ _ Hk). rewrite wrap32_add_l.
        rewrite <- (decode_batch_done_length _ _ _ _ Ed). f_equal. lia.
  Qed.
End Stream.

Lemma nth_error_firstn' {A} : forall n (l : list A) k, (k < n)%nat -> nth_error (firstn n l) k = nth_error l k.
Proof.
  induction n as [|n IH]; intros l k Hk; [lia|].
  destruct l as [|a t]; cbn; [destruct k; auto|]. destruct k as [|k]; cbn; auto. apply IH. lia.
Qed.

Lemma nth_error_skipn' {A} : forall n (l : list A) k, nth_error (skipn n l) k = nth_error l (n + k).
Proof.
  induction n as [|n IH]; intros l k; cbn; auto.
  destruct l as [|a t]; cbn; [destruct k; auto|]. apply IH.
Qed.

Lemma skipn_add' {A} : forall b a (l : list A), skipn (b + a) l = skipn a (skipn b l).
Proof.
  induction b as [|b IH]; intros a l; cbn; auto.
  destruct l as [|x t]; [destruct a; auto|]. apply IH.
Qed.

Section Honest.
  Variable Blk : Type.
  Variable num : Blk -> N.
  Variable rc : list Blk.                       (* the peer's best chain by height *)
  Hypothesis rc_numbers : forall n b, nth_error rc n = Some b -> num b = N.of_nat n.
  Hypothesis rc_short : N.of_nat (length rc) < 4294967296.
  Variable cut : N -> nat.                      (* how many blocks the peer puts into the answer to a request *)
  Hypothesis cut_pos : forall n, (1 <= cut n <= max_batch)%nat.

  Definition honest_peer (from : N) : option (list Blk) :=
    Some (firstn (cut from) (skipn (N.to_nat from) rc)).

  Let hdr := fun b : Blk => Some (num b).
  Let body := fun b : Blk => Some b.

  Lemma decode_honest : forall l start i,
      (forall k b, nth_error l k = Some b -> num b = wrap32 (start + i + N.of_nat k)) ->
      decode_batch Blk Blk hdr body start i l = (l, DlDone).
  Proof.
    induction l as [|b t IH]; intros start i H; cbn [decode_batch]; auto.
    unfold hdr at 1. rewrite (H 0%nat b eq_refl).
    replace (start + i + N.of_nat 0) with (start + i) by lia. rewrite N.eqb_refl.
    unfold body at 1. rewrite IH; auto.
    intros k b' Hk. rewrite (H (S k) b' Hk). f_equal. lia.
  Qed.

  Theorem download_honest : forall fuel from,
      (length rc - N.to_nat from < fuel)%nat -> from < 4294967296 ->
      download_stream Blk Blk hdr body honest_peer from fuel = (skipn (N.to_nat from) rc, DlDone).
  Proof.
    induction fuel as [|f IH]; intros from Hf Hfrom; [lia|].
    cbn [download_stream]. unfold honest_peer at 1.
    set (rest := skipn (N.to_nat from) rc).
    set (raws := firstn (cut from) rest).
    assert (Hlen : (length raws <= max_batch)%nat).
    { unfold raws. rewrite firstn_length. pose proof (cut_pos from). lia. }
    destruct (Nat.ltb max_batch (length raws)) eqn:El; [apply Nat.ltb_lt in El; lia|].
    assert (Hrest : length rest = (length rc - N.to_nat from)%nat) by (unfold rest; apply skipn_length).
    destruct raws as [|r0 t0] eqn:Eraws.
    - (* empty answer: the chain is exhausted *)
      assert (length raws = 0%nat) by (rewrite Eraws; auto).
      unfold raws in H. rewrite firstn_length in H. pose proof (cut_pos from).
      assert (length rest = 0%nat) by lia. destruct rest; [auto|discriminate].
    - rewrite <- Eraws.
      assert (Hnum : forall k b, nth_error raws k = Some b -> num b = wrap32 (from + 0 + N.of_nat k)).
      { intros k b Hk.
        assert (Hk' : nth_error rc (N.to_nat from + k) = Some b).
        { assert (Hlt : (k < length raws)%nat) by (apply nth_error_Some; congruence).
          unfold raws in Hk, Hlt. rewrite firstn_length in Hlt.
          rewrite nth_error_firstn' in Hk by lia. unfold rest in Hk.
          rewrite nth_error_skipn' in Hk. auto. }
        rewrite (rc_numbers _ _ Hk').
        assert (Hlt : (N.to_nat from + k < length rc)%nat) by (apply nth_error_Some; congruence).
        rewrite wrap32_small by lia. lia. }
      rewrite (decode_honest raws from 0 Hnum).
      assert (Hpos : (1 <= length raws)%nat) by (rewrite Eraws; cbn; lia).
      assert (Hle : (length raws <= length rest)%nat) by (unfold raws; rewrite firstn_length; lia).
      rewrite wrap32_small by lia.
      rewrite IH by lia.
      f_equal.
      replace (N.to_nat (from + N.of_nat (length raws))) with (N.to_nat from + length raws)%nat by lia.
      rewrite skipn_add'. fold rest.
      replace (length raws) with (Nat.min (cut from) (length rest)) by (unfold raws; rewrite firstn_length; auto).
      unfold raws.
      destruct (Nat.le_ge_cases (cut from) (length rest)) as [Hc|Hc].
      + rewrite Nat.min_l by auto. apply firstn_skipn.
      + rewrite Nat.min_r by auto. rewrite firstn_all2 by auto. rewrite skipn_all. apply app_nil_r.
  Qed.
End Honest.

Section Import.
  Variable Blk : Type.
  Variable bid parent : Blk -> N.
  Variable valid : Blk -> bool.
  Variable better : Blk -> Blk -> bool.
  (* the node's own select is a strict weak order *)
  Hypothesis better_asym : forall x y, better x y = true -> better y x = false.
  Hypothesis better_cotrans : forall x y z, better x z = true -> better x y = true \/ better y z = true.

  Notation node := (node Blk).
  Notation import := (import Blk bid parent valid better).
  Notation import_all := (import_all Blk bid parent valid better).
  Notation known := (known Blk bid).

  (* best is maximal in the store *)
  Definition best_max (st : node) : Prop := forall x, In x (store Blk st) -> better x (best Blk st) = false.

  Lemma better_irrefl x : better x x = false.
  Proof. destruct (better x x) eqn:E; auto. rewrite (better_asym _ _ E) in E. discriminate. Qed.

  Lemma known_in st i : known st i = true <-> exists b, In b (store Blk st) /\ bid b = i.
  Proof.
    unfold Model.known. rewrite existsb_exists.
    split; intros [b [H1 H2]]; exists b; split; auto; apply N.eqb_eq; auto.
  Qed.

  Lemma import_inv st b st' : best_max st -> import st b = Some st' ->
      best_max st' /\ known st' (bid b) = true /\
      (forall i, known st i = true -> known st' i = true) /\
      (best Blk st' = best Blk st \/ best Blk st' = b).
  Proof.
    intros Hmax H. unfold Model.import in H.
    destruct (known st (bid b)) eqn:Ek.
    { inversion H; subst. auto. }
    destruct (known st (parent b) && valid b); [|discriminate].
    inversion H; subst; clear H. cbn [store best].
    split; [|split; [|split]].
    - intros x [->|Hx].
      + destruct (better x (best Blk st)) eqn:E; cbn [best]; auto. apply better_irrefl.
      + destruct (better b (best Blk st)) eqn:E; cbn [best]; auto.
        destruct (better x b) eqn:Exb; auto.
        destruct (better_cotrans x (best Blk st) b Exb) as [C|C].
        * rewrite (Hmax _ Hx) in C. discriminate.
        * rewrite (better_asym _ _ E) in C. discriminate.
    - apply known_in. exists b. cbn [store]. split; [left; auto|auto].
    - intros i Hi. apply known_in in Hi. destruct Hi as [x [Hx1 Hx2]].
      apply known_in. exists x. cbn [store]. split; [right; auto|auto].
    - destruct (better b (best Blk st)); auto.
  Qed.

  (* a stream is linked to the store: the first block's parent is known, each next block's parent is the previous *)
  Fixpoint linked (st_known : N -> bool) (l : list Blk) : Prop :=
    match l with
    | [] => True
    | b :: t => st_known (parent b) = true /\ valid b = true /\
                linked (fun i => (i =? bid b) || st_known i) t
    end.

  Lemma linked_weaken : forall l (k1 k2 : N -> bool),
      (forall i, k1 i = true -> k2 i = true) -> linked k1 l -> linked k2 l.
  Proof.
    induction l as [|b t IH]; intros k1 k2 Hk H; cbn in *; auto.
    destruct H as [H1 [H2 H3]]. repeat split; auto.
    eapply IH; [|exact H3]. intros i Hi. apply orb_true_iff in Hi. apply orb_true_iff.
    destruct Hi; auto.
  Qed.

  Lemma import_all_ok : forall l st, best_max st -> linked (known st) l ->
      exists st', import_all st l = (st', true) /\ best_max st' /\
                  (forall b, In b l -> known st' (bid b) = true) /\
                  (forall i, known st i = true -> known st' i = true) /\
                  (best Blk st' = best Blk st \/ In (best Blk st') l).
  Proof.
    induction l as [|b t IH]; intros st Hmax Hl.
    - exists st. cbn. split_and; auto.
    - cbn in Hl. destruct Hl as [Hp [Hv Hrest]].
      cbn [Model.import_all].
      assert (Himp : exists st1, import st b = Some st1).
      { unfold Model.import. destruct (known st (bid b)); eauto. rewrite Hp, Hv. cbn. eauto. }
      destruct Himp as [st1 Himp]. rewrite Himp.
      destruct (import_inv _ _ _ Hmax Himp) as [M1 [M2 [M3 M4]]].
      destruct (IH st1 M1) as [st' [I1 [I2 [I3 [I4 I5]]]]].
      { eapply linked_weaken; [|exact Hrest]. intros i Hi. apply orb_true_iff in Hi.
        destruct Hi as [Hi|Hi]; auto. apply N.eqb_eq in Hi. subst. auto. }
      exists st'. split_and; auto.
      + intros x [->|Hx]; auto.
      + destruct I5 as [I5|I5]; [|right; right; auto].
        destruct M4 as [M4|M4]; [left; congruence|]. right. left. congruence.
  Qed.

  (* ids identify blocks (hash collision freeness; the hash itself is not modelled) *)
  Hypothesis bid_inj : forall x y, bid x = bid y -> x = y.

  (* sync_converges (import part): the stream is the peer's chain above the common ancestor; its head h is
     preferred by the node's own select over the current best and over the other blocks of the stream. *)
  Theorem import_reaches_head : forall l st h,
      best_max st -> linked (known st) l -> In h l ->
      better h (best Blk st) = true ->
      (forall b, In b l -> b <> h -> better h b = true) ->
      exists st', import_all st l = (st', true) /\ best Blk st' = h /\
                  (forall b, In b l -> known st' (bid b) = true) /\
                  (forall i, known st i = true -> known st' i = true).
  Proof.
    intros l st h Hmax Hl Hh Hb Hothers.
    destruct (import_all_ok l st Hmax Hl) as [st' [I1 [I2 [I3 [I4 I5]]]]].
    exists st'. split_and; auto.
    assert (Hk := I3 _ Hh). apply known_in in Hk. destruct Hk as [h' [Hh'1 Hh'2]].
    apply bid_inj in Hh'2. subst h'.
    assert (Hnb := I2 _ Hh'1).
    destruct I5 as [I5|I5].
    - rewrite I5 in Hnb. congruence.
    - destruct (N.eq_dec (bid (best Blk st')) (bid h)) as [E|E]; [apply bid_inj; auto|].
      exfalso. assert (Hne : best Blk st' <> h) by (intro X; apply E; congruence).
      rewrite (Hothers _ I5 Hne) in Hnb. discriminate.
  Qed.
End Import.
