(* Bft/ProofsNode.v — invariants of a node along any import history:
   the repository stays well formed; every persisted quality record equals the quality from the definitions (so the
   engine's cached / incremental / persisted view never drifts from a from-scratch recomputation); Select compares the
   definitions' keys; the best block is the maximum of the stored blocks under (quality, total score, smaller id).
   First the facts about stored blocks and their chains, and child_setup, where every proof about add_and_commit starts. *)
From Coq Require Import List NArith ZArith Bool Lia.
From Coq Require Import ZifyN ZifyNat ZifyBool.
From Verif Require Import Common.Util Bft.Tree Bft.Model Bft.Quorum Bft.ProofsTally Bft.ProofsChain Bft.ProofsFinal.
Import ListNotations.
Open Scope N_scope.

Lemma chain_of_stored r x : wf_repo r -> In x r -> find_blk r (b_id x) = Some x.
Proof.
  induction r as [|b r IH]; intros Hwf Hin; [destruct Hin|].
  cbn in Hwf. destruct Hwf as [Hwf [Hfresh _]]. unfold find_blk. cbn [find].
  destruct Hin as [<-|Hin]; [rewrite N.eqb_refl; reflexivity|].
  destruct (b_id b =? b_id x) eqn:E.
  - apply N.eqb_eq in E. rewrite E in Hfresh. rewrite (known_in r x Hin) in Hfresh. discriminate.
  - exact (IH Hwf Hin).
Qed.

Lemma chain_of_in r x : wf_repo r -> In x r -> exists t, chain_of r (b_id x) = x :: t /\ grounded (x :: t).
Proof. intros Hwf Hin. exact (chain_of_known r Hwf _ _ (chain_of_stored r x Hwf Hin)). Qed.

Lemma chain_self r x : wf_repo r -> In x r -> In x (chain_of r (b_id x)).
Proof. intros Hwf Hin. destruct (chain_of_in r x Hwf Hin) as [t [Ht _]]. rewrite Ht. left. reflexivity. Qed.

Lemma chain_num_le r x y : wf_repo r -> In x r -> In y (chain_of r (b_id x)) -> b_num y <= b_num x.
Proof.
  intros Hwf Hin Hy. destruct (chain_of_in r x Hwf Hin) as [t [Ht Hg]]. rewrite Ht in Hy.
  destruct Hy as [<-|Hy]; [lia | pose proof (grounded_nums x t Hg y Hy); lia].
Qed.

Lemma block_at_in r head n x : block_at r head n = Some x -> In x r.
Proof. intros H. exact (chain_incl r head x (proj2 (block_at_num _ _ _ _ H))). Qed.

Section Node.
Variable c : cfg.
Hypothesis HL : 0 < c_L c.

Definition qual (r : repo) (x : blk) : N := quality_pure c (chain_of r (b_id x)).

(* x is strictly preferred to y by the fork-choice order *)
Definition beats (r : repo) (x y : blk) : bool :=
  (qual r y <? qual r x) || ((qual r x =? qual r y) && better_than x y).

Record inv (nd : node) : Prop := mkInv {
  inv_wf : wf_repo (n_repo nd);
  inv_qs : forall x, In x (n_repo nd) -> storepoint (c_L c) (b_num x) = b_num x ->
           get_q (e_qs (n_eng nd)) (b_id x) = qual (n_repo nd) x;
  inv_best : exists bb, find_blk (n_repo nd) (n_best nd) = Some bb;
  inv_max : forall x, In x (n_repo nd) -> b_id x <> n_best nd -> beats (n_repo nd) (best_blk nd) x = true }.

Definition valid_child (r : repo) (b : blk) : Prop :=
  forall p, find_blk r (b_parent b) = Some p -> b_num b = b_num p + 1.

Lemma qs_to_chain r qs : wf_repo r ->
  (forall x, In x r -> storepoint (c_L c) (b_num x) = b_num x -> get_q qs (b_id x) = qual r x) ->
  forall id, qs_ok_chain c qs (chain_of r id).
Proof.
  intros Hwf Hq id l1 x l2 E Hsp. unfold qual in Hq. rewrite <- (chain_suffix r Hwf id l1 x l2 E).
  apply Hq; [|exact Hsp]. apply (chain_incl r id). rewrite E, in_app_iff. right. left. reflexivity.
Qed.

(* computeState of a block on a stored parent (the block itself stored or not) = the state from the definitions *)
Lemma compute_state_pure_lemma r qs b p : wf_repo r ->
  (forall x, In x r -> storepoint (c_L c) (b_num x) = b_num x -> get_q qs (b_id x) = qual r x) ->
  find_blk r (b_parent b) = Some p -> b_num b = b_num p + 1 ->
  compute_state c r qs b = state_pure c (b :: chain_of r (b_parent b)).
Proof.
  intros Hwf Hq Hp Hn. unfold compute_state.
  destruct (chain_of_known r Hwf _ _ Hp) as [t [Ht Hg]].
  apply state_of_chain_pure; [exact HL | | cbn [tl]; apply qs_to_chain; assumption].
  rewrite Ht. cbn [grounded]. destruct (find_blk_id _ _ _ Hp) as [Hid _]. repeat split; [symmetry; exact Hid | exact Hn | exact Hg].
Qed.

(* ... and of a stored block *)
Lemma compute_state_stored_full r qs x : wf_repo r ->
  (forall y, In y r -> storepoint (c_L c) (b_num y) = b_num y -> get_q qs (b_id y) = qual r y) ->
  In x r -> compute_state c r qs x = state_pure c (chain_of r (b_id x)).
Proof.
  intros Hwf Hq Hin. destruct (chain_of_in r x Hwf Hin) as [t [Ht Hg]]. rewrite Ht.
  destruct t as [|p t'].
  - cbn in Hg. unfold compute_state, state_of_chain. rewrite Hg. cbn [N.eqb]. rewrite state_pure_genesis by exact Hg. reflexivity.
  - pose proof Hg as Hg0. cbn in Hg. destruct Hg as [Hpar [Hn Hgt]].
    assert (Hsuf : chain_of r (b_id p) = p :: t') by (apply (chain_suffix r Hwf (b_id x) [x] p t'); exact Ht).
    unfold compute_state. rewrite Hpar, Hsuf.
    apply state_of_chain_pure; [exact HL | exact Hg0 |]. cbn [tl]. rewrite <- Hsuf. apply qs_to_chain; assumption.
Qed.

Lemma compute_state_stored r qs x : wf_repo r ->
  (forall y, In y r -> storepoint (c_L c) (b_num y) = b_num y -> get_q qs (b_id y) = qual r y) ->
  In x r -> s_q (compute_state c r qs x) = qual r x.
Proof. intros Hwf Hq Hin. rewrite (compute_state_stored_full r qs x Hwf Hq Hin). reflexivity. Qed.

(* quality only grows towards the head of a chain *)
Lemma qual_ancestor r x z : wf_repo r -> In z r -> In x (chain_of r (b_id z)) -> qual r x <= qual r z.
Proof.
  intros Hwf Hz Hin. destruct (in_split _ _ Hin) as [l1 [l2 E]]. unfold qual.
  rewrite (chain_suffix r Hwf (b_id z) l1 x l2 E), E. destruct (chain_of_in r z Hwf Hz) as [t [Ht Hg]].
  apply (quality_suffix c HL l1 (x :: l2)); [rewrite <- E, Ht; exact Hg | discriminate].
Qed.

Lemma better_than_trans x y z : better_than x y = true -> better_than y z = true -> better_than x z = true.
Proof. unfold better_than. intros H1 H2. lia. Qed.
Lemma better_than_total x y : b_id x <> b_id y -> better_than x y = true \/ better_than y x = true.
Proof. unfold better_than. intros H. lia. Qed.

Lemma beats_trans r x y z : beats r x y = true -> beats r y z = true -> beats r x z = true.
Proof.
  unfold beats. intros H1 H2.
  destruct (better_than x y) eqn:B1, (better_than y z) eqn:B2;
    try (rewrite (better_than_trans x y z B1 B2)); destruct (better_than x z); lia.
Qed.
Lemma beats_total r x y : b_id x <> b_id y -> beats r x y = true \/ beats r y x = true.
Proof. unfold beats. intros H. destruct (better_than_total x y H) as [B|B]; rewrite B; lia. Qed.

Lemma qual_fresh b r x : wf_repo (b :: r) -> In x r -> qual (b :: r) x = qual r x.
Proof.
  intros Hwf Hin. unfold qual. rewrite chain_of_fresh; [reflexivity|].
  cbn in Hwf. destruct Hwf as [_ [Hfresh _]]. intros E. rewrite E, (known_in r x Hin) in Hfresh. discriminate.
Qed.

Lemma get_q_cons_other qs id q id' : id <> id' -> get_q ((id, q) :: qs) id' = get_q qs id'.
Proof. intros H. unfold get_q. cbn [find fst]. apply N.eqb_neq in H. rewrite H. reflexivity. Qed.

Lemma commit_block_qs guard r e b packing : e_qs (fst (commit_block guard c r e b packing)) =
  if storepoint (c_L c) (b_num b) =? b_num b then (b_id b, s_q (compute_state c r (e_qs e) b)) :: e_qs e else e_qs e.
Proof. exact (proj1 (proj2 (proj2 (commit_block_fields guard c r e b packing)))). Qed.

(* storing a fresh block on a stored parent: where every proof about add_and_commit starts *)
Lemma child_setup r qs b : wf_repo r ->
  (forall x, In x r -> storepoint (c_L c) (b_num x) = b_num x -> get_q qs (b_id x) = qual r x) ->
  known r (b_id b) = false -> known r (b_parent b) = true -> valid_child r b ->
  exists p, find_blk r (b_parent b) = Some p /\ b_num b = b_num p + 1 /\
            wf_repo (b :: r) /\ find_blk (b :: r) (b_id b) = Some b /\
            compute_state c r qs b = state_pure c (chain_of (b :: r) (b_id b)) /\
            compute_state c (b :: r) qs b = state_pure c (chain_of (b :: r) (b_id b)).
Proof.
  intros Hwf Hqs Hfresh Hpk Hvc. apply known_find in Hpk. destruct Hpk as [p Hp]. pose proof (Hvc p Hp) as Hn.
  destruct (find_blk_id _ _ _ Hp) as [Hpid Hpin].
  assert (Hne : b_id b <> b_parent b) by (rewrite <- Hpid; exact (fresh_not_in r _ p Hfresh Hpin)).
  assert (Hcs : compute_state c r qs b = state_pure c (chain_of (b :: r) (b_id b))).
  { rewrite chain_of_head. exact (compute_state_pure_lemma r qs b p Hwf Hqs Hp Hn). }
  exists p. split; [exact Hp|]. split; [exact Hn|]. split; [|split; [apply find_blk_head | split; [exact Hcs|]]].
  - cbn. split; [exact Hwf|]. split; [exact Hfresh|]. destruct r; [discriminate|]. exists p. split; assumption.
  - rewrite <- Hcs. unfold compute_state. rewrite chain_of_fresh by exact Hne. reflexivity.
Qed.

(* the quality records CommitBlock leaves are right for the grown repository *)
Lemma child_qs r qs b : wf_repo (b :: r) ->
  (forall x, In x r -> storepoint (c_L c) (b_num x) = b_num x -> get_q qs (b_id x) = qual r x) ->
  compute_state c (b :: r) qs b = state_pure c (chain_of (b :: r) (b_id b)) ->
  forall x, In x (b :: r) -> storepoint (c_L c) (b_num x) = b_num x ->
  get_q (if storepoint (c_L c) (b_num b) =? b_num b then (b_id b, s_q (compute_state c (b :: r) qs b)) :: qs else qs)
        (b_id x) = qual (b :: r) x.
Proof.
  intros Hwf' Hqs Hcs x [<-|Hin] Hsp.
  - rewrite Hsp, N.eqb_refl. unfold get_q. cbn [find fst snd]. rewrite N.eqb_refl, Hcs. reflexivity.
  - rewrite (qual_fresh b r x Hwf' Hin). destruct Hwf' as [_ [Hfresh _]].
    destruct (storepoint (c_L c) (b_num b) =? b_num b);
      [rewrite get_q_cons_other by exact (fresh_not_in r _ x Hfresh Hin)|]; apply Hqs; assumption.
Qed.

Theorem add_and_commit_inv guard nd b packing :
  inv nd -> known (n_repo nd) (b_id b) = false -> known (n_repo nd) (b_parent b) = true -> valid_child (n_repo nd) b ->
  inv (fst (add_and_commit guard c nd b packing)).
Proof.
  intros [Hwf Hqs [bb Hbest] Hmax] Hfresh Hpk Hvc.
  destruct (child_setup _ _ b Hwf Hqs Hfresh Hpk Hvc) as [p [Hp [Hn [Hwf' [Hfb [Hcs0 Hcs]]]]]].
  set (r := n_repo nd) in *. set (e := n_eng nd) in *.
  destruct (find_blk_id _ _ _ Hbest) as [Hbid Hbin].
  assert (Hbb : best_blk nd = bb) by (unfold best_blk; fold r; rewrite Hbest; reflexivity).
  assert (Hsel : select c r e (best_blk nd) b = beats (b :: r) b bb).
  { unfold select, beats. rewrite Hbb, Hcs0, (compute_state_stored r (e_qs e) bb Hwf Hqs Hbin), <- (qual_fresh b r bb Hwf' Hbin).
    fold (quality_pure c (chain_of (b :: r) (b_id b))). fold (qual (b :: r) b).
    generalize (qual (b :: r) b) as qn. generalize (qual (b :: r) bb) as qb. intros qb qn.
    destruct (qn =? qb) eqn:E; cbn [negb].
    - apply N.eqb_eq in E. subst qn. rewrite N.ltb_irrefl. reflexivity.
    - apply N.eqb_neq in E. destruct (qb <? qn) eqn:E2; reflexivity. }
  unfold add_and_commit. fold r e.
  destruct (commit_block guard c (b :: r) e b packing) as [e' err] eqn:Ecb.
  cbn [fst]. constructor; cbn [n_repo n_best n_eng].
  - exact Hwf'.
  - pose proof (commit_block_qs guard (b :: r) e b packing) as Hq'. rewrite Ecb in Hq'. cbn [fst] in Hq'.
    rewrite Hq'. exact (child_qs r (e_qs e) b Hwf' Hqs Hcs).
  - destruct (select c r e (best_blk nd) b).
    + exists b. exact Hfb.
    + exists bb. exact (find_blk_other b r _ bb Hfresh Hbest).
  - assert (Hold : forall x, In x r -> b_id x <> n_best nd -> beats (b :: r) bb x = true).
    { intros x Hin Hne. specialize (Hmax x Hin Hne). rewrite Hbb in Hmax. unfold beats in *.
      rewrite (qual_fresh b r x Hwf' Hin), (qual_fresh b r bb Hwf' Hbin). exact Hmax. }
    pose proof (fresh_not_in r _ bb Hfresh Hbin) as Hbne.
    rewrite Hsel. destruct (beats (b :: r) b bb) eqn:Eb; intros x Hin Hne; unfold best_blk; cbn [n_repo n_best].
    + (* the new block became best *)
      rewrite Hfb. destruct Hin as [<-|Hin]; [contradiction Hne; reflexivity|].
      destruct (N.eq_dec (b_id x) (b_id bb)) as [E|E].
      * assert (x = bb). { pose proof (chain_of_stored r x Hwf Hin) as F1. rewrite E, Hbid in F1. rewrite Hbest in F1. inversion F1. reflexivity. }
        subst x. exact Eb.
      * apply (beats_trans _ b bb x Eb). apply Hold; [exact Hin | rewrite <- Hbid; exact E].
    + (* the old best stays *)
      rewrite (find_blk_other b r _ bb Hfresh Hbest). destruct Hin as [<-|Hin].
      * destruct (beats_total (b :: r) b bb Hbne) as [B|B]; [rewrite B in Eb; discriminate | exact B].
      * apply Hold; assumption.
Qed.

Theorem import_inv guard nd b : inv nd -> valid_child (n_repo nd) b -> inv (fst (import guard c nd b)).
Proof.
  intros Hi Hvc. destruct (import_cases guard c nd b) as [[k [E _]]|[Ek [Ep [_ E]]]]; rewrite E; [exact Hi|].
  apply add_and_commit_inv; assumption.
Qed.

Lemma init_inv g master : b_num g = 0 -> inv (init_node g master).
Proof.
  intros Hg. constructor; unfold init_node; cbn [n_repo n_best n_eng e_qs].
  - cbn. repeat split; try reflexivity; exact Hg.
  - intros x [<-|[]] Hsp. unfold qual, quality_pure. rewrite chain_of_head, (state_pure_genesis c g _ Hg). reflexivity.
  - exists g. apply find_blk_head.
  - intros x [<-|[]] Hne. contradiction Hne. reflexivity.
Qed.

Fixpoint import_all (guard : bool) (nd : node) (bs : list blk) : node :=
  match bs with [] => nd | b :: t => import_all guard (fst (import guard c nd b)) t end.

(* valid_child is asked of every node with inv, not only of the reachable ones: the induction knows nothing else of the
   intermediate nodes, and callers get it from the numbering of the blocks alone *)
Theorem import_all_inv guard bs : forall nd, inv nd ->
  (forall nd' b, inv nd' -> In b bs -> valid_child (n_repo nd') b) -> inv (import_all guard nd bs).
Proof.
  induction bs as [|b t IH]; intros nd Hi Hv; [exact Hi|]. cbn [import_all]. apply IH.
  - apply import_inv; [exact Hi | apply Hv; [exact Hi | left; reflexivity]].
  - intros nd' b' Hi' Hin. apply Hv; [exact Hi' | right; exact Hin].
Qed.

(* two nodes that store the same set of blocks hold the same best block *)
Theorem same_repo_same_best n1 n2 : inv n1 -> inv n2 ->
  (forall x, In x (n_repo n1) <-> In x (n_repo n2)) ->
  (forall x, In x (n_repo n1) -> qual (n_repo n1) x = qual (n_repo n2) x) ->
  n_best n1 = n_best n2.
Proof.
  intros I1 I2 Hset Hq.
  destruct (inv_best _ I1) as [b1 Hb1]. destruct (inv_best _ I2) as [b2 Hb2].
  destruct (find_blk_id _ _ _ Hb1) as [Hid1 Hin1]. destruct (find_blk_id _ _ _ Hb2) as [Hid2 Hin2].
  destruct (N.eq_dec (n_best n1) (n_best n2)) as [E|E]; [exact E|]. exfalso.
  assert (B1 : beats (n_repo n1) b1 b2 = true).
  { pose proof (inv_max _ I1 b2 (proj2 (Hset b2) Hin2)) as H. unfold best_blk in H. rewrite Hb1 in H. apply H. rewrite Hid2. intros X. apply E. symmetry. exact X. }
  assert (B2 : beats (n_repo n2) b2 b1 = true).
  { pose proof (inv_max _ I2 b1 (proj1 (Hset b1) Hin1)) as H. unfold best_blk in H. rewrite Hb2 in H. apply H. rewrite Hid1. exact E. }
  unfold beats in B1, B2. rewrite <- (Hq b1 Hin1), <- (Hq b2 (proj2 (Hset b2) Hin2)) in B2.
  unfold better_than in *. lia.
Qed.
End Node.
