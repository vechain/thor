(* Trie/ProofsProj.v — forgetting part of the leaves (map_node f, in particular dropping the metadata of value nodes:
   node.go valueNode.encodeConsensus appends n.val only, full / short nodes encode their children or the hash of the
   children's consensus encoding) preserves the shape invariant and commutes with Get.  Hence two well-formed tries whose
   contents agree after the projection have the same projected tree: any function of the projected tree — the consensus
   encoding, its hash — ignores what the projection drops. *)
From Coq Require Import List Arith Bool Lia.
From Verif Require Import Trie.Model Trie.Keys Trie.ProofsWf Trie.Theorems.
Import ListNotations.

Section Proj.
  Variables A B : Type.
  Variable f : A -> B.

  Lemma child_map_node cs i : child B (map (map_node f) cs) i = map_node f (child A cs i).
  Proof.
    unfold child. change (@Nil B) with (map_node f (@Nil A)). apply map_nth.
  Qed.

  Lemma map_node_nil n : map_node f n = Nil <-> n = Nil.
  Proof. destruct n; cbn; split; intros H; try discriminate; auto. Qed.

  Lemma map_node_wf n : wf A n -> wf B (map_node f n).
  Proof.
    induction 1 as [k v Hk|k cs Hk Hn Hw IH|cs Hl Hc IH Hv He]; cbn [map_node].
    - constructor; auto.
    - constructor; auto.
    - constructor.
      + rewrite map_length; auto.
      + intros i Hi Hne. rewrite child_map_node in *. apply IH; auto.
        intros E. apply Hne. rewrite E. reflexivity.
      + rewrite child_map_node. destruct Hv as [->|[v ->]]; [left; reflexivity|right; eexists; reflexivity].
      + destruct He as [a [b [Hab [Ha Hb]]]]. exists a, b. rewrite !child_map_node. repeat split; auto.
        * intros E. apply map_node_nil in E. auto.
        * intros E. apply map_node_nil in E. auto.
  Qed.

  Lemma map_node_wfc n : wfc A n -> wfc B (map_node f n).
  Proof. intros [->|H]; [left; reflexivity|right; apply map_node_wf; auto]. Qed.

  Lemma get_map_node : forall fuel n key, get B fuel (map_node f n) key = option_map f (get A fuel n key).
  Proof.
    induction fuel; intros n key; cbn; auto.
    destruct n; cbn [map_node]; auto.
    - destruct (prefix_len k key =? length k); auto.
    - destruct key as [|i r]; auto. rewrite child_map_node. apply IHfuel.
  Qed.

  Lemma trie_get_map_node n key : trie_get B (map_node f n) key = option_map f (trie_get A n key).
  Proof. apply get_map_node. Qed.

  Theorem canonical_projection t1 t2 :
    wfc A t1 -> wfc A t2 ->
    (forall k, vkey k -> option_map f (trie_get A t1 k) = option_map f (trie_get A t2 k)) ->
    map_node f t1 = map_node f t2.
  Proof.
    intros H1 H2 Heq. apply canonical_get; try apply map_node_wfc; auto.
    intros k Hk. rewrite !trie_get_map_node. auto.
  Qed.
End Proj.
