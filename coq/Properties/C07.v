(* Properties/C07.v — the statements, each proved by one call into TxExec/ and Compose/, and examples.  "Transactions are atomic and gas accounting stays within its bounds."
   The EVM is an oracle (clause_result); the only thing assumed about it is oracle_ok: a clause hands back at most the gas
   it was given and a non-negative refund counter.  A clause result also lists the ledger primitives the clause performed
   (cr_ops) and the rest of the world after it (cr_world); the oracle sees the block context, the transaction, the clause index,
   the gas handed in and the state.  W = the rest of the world state, O = a clause output. *)
From Coq Require Import ZArith List Bool Lia.
From Verif Require Import Ledger.Model Ledger.Proofs TxExec.Model TxExec.Proofs TxExec.ProofsEffects TxExec.ProofsBlock TxExec.ProofsAdopt.
From Verif Require Header.Rules Validation.Body Validation.ProofsPacker Compose.ExecSane.
Import ListNotations.
Open Scope Z_scope.

Section C07.
  Variables W O : Type.
  Variable clause_result : env -> txn -> nat -> Z -> state W -> cres W O.
  Variable write_credit : Z -> Z -> Z -> W -> W.
  Let exec := exec_tx W O clause_result write_credit.

  (* 1. intrinsic <= gasUsed <= gas <= block limit; paid = gasUsed x price; every applied refund <= half of the gas that
        clause consumed (log_ok), hence total refund <= half of the total consumed; gasUsed = intrinsic + consumed - refunded *)
  Theorem gas_bounds e t ci st0 st rc :
    oracle_ok W O clause_result -> exec e t ci st0 = Done W O st rc ->
    exists ig, intrinsic_gas (t_clauses t) = Some ig /\
      ig <= r_gas_used O rc <= t_gas t /\ t_gas t <= e_gas_limit e /\
      r_paid O rc = r_gas_used O rc * r_price O rc /\
      log_ok (r_clause_log O rc) /\
      r_gas_used O rc = ig + log_used (r_clause_log O rc) - log_refund (r_clause_log O rc) /\
      2 * log_refund (r_clause_log O rc) <= log_used (r_clause_log O rc).
  Proof. intros OK. exact (gas_bounds_lemma W O clause_result write_credit OK e t ci st0 st rc). Qed.

  (* 2. if some clause fails: outputs empty, and the state is EXACTLY the pre-state after three energy operations
        (payer -prepaid, payer +returned, beneficiary +reward; these also move the total-add/sub counters) plus at most the
        user-credit record of the common To *)
  Theorem tx_atomic e t ci st0 st rc :
    oracle_ok W O clause_result -> exec e t ci st0 = Done W O st rc -> r_reverted O rc = true ->
    let T := e_time e in let S := e_stop e in
    let prepaid := t_gas t * r_price O rc in
    let returned := (t_gas t - r_gas_used O rc) * r_price O rc in
    r_outputs O rc = [] /\
    snd (energy_sub T S (fst st0) (r_payer O rc) prepaid) = true /\
    fst st = energy_add T S (energy_add T S (fst (energy_sub T S (fst st0) (r_payer O rc) prepaid))
                                        (r_payer O rc) returned) (e_benef e) (r_reward O rc) /\
    (snd st = snd st0 \/
     exists to credit', r_credit O rc = Some credit' /\ common_to (t_clauses t) = Some to /\
                        snd st = write_credit to (t_origin t) credit' (snd st0)).
  Proof. intros OK. exact (tx_atomic_lemma W O clause_result write_credit OK e t ci st0 st rc). Qed.

  (* 2b. the success half and the flag.  effs = the results of executing every clause in order, each on the state and with the
         gas left by the previous one (tx_effects).  The reverted flag is set EXACTLY when one of them failed; otherwise the
         outputs are those of all the clauses, one per clause, and the state is the fold of all the clauses' effects over the
         post-buy-gas state, followed by the returned gas and the reward *)
  Theorem tx_all_applied e t ci st0 st rc :
    exec e t ci st0 = Done W O st rc ->
    let T := e_time e in let S := e_stop e in
    let effs := tx_effects W O clause_result e t ci st0 in
    let prepaid := t_gas t * r_price O rc in
    let returned := (t_gas t - r_gas_used O rc) * r_price O rc in
    let st1 : state W := (fst (energy_sub T S (fst st0) (r_payer O rc) prepaid), snd st0) in
    length effs = length (t_clauses t) /\
    r_reverted O rc = any_error W O effs /\
    (r_reverted O rc = false ->
       r_outputs O rc = outs_of W O effs /\ length (r_outputs O rc) = length (t_clauses t) /\
       fst st = energy_add T S (energy_add T S (fst (state_after W O T S effs st1)) (r_payer O rc) returned) (e_benef e) (r_reward O rc) /\
       (snd st = snd (state_after W O T S effs st1) \/
        exists to credit', r_credit O rc = Some credit' /\ common_to (t_clauses t) = Some to /\
                           snd st = write_credit to (t_origin t) credit' (snd (state_after W O T S effs st1)))).
  Proof. exact (tx_outcome_lemma W O clause_result write_credit e t ci st0 st rc). Qed.

  (* 3. REMARKS, true by construction of the model (every failing branch of exec_tx / adopt returns the state it was given; the
        model has no journal): a transaction that cannot start changes nothing.  The content of this clause is carried by the
        harness, which compares the real state root before and after every failed ExecuteTransaction (and after checkpoint /
        RevertTo as the packer does), and by the block-level leaf explanation on real packed blocks. *)
  Remark not_started_unchanged e t ci st0 err st :
    exec e t ci st0 = Failed W O err st -> err <> ErrContext -> st = st0.
  Proof. exact (not_started_unchanged_lemma W O clause_result write_credit e t ci st0 err st). Qed.

  Remark adopt_rejected_unchanged e used t ci st0 st :
    adopt W O clause_result write_credit e used t ci st0 = Rejected W O st -> st = st0.
  Proof. exact (adopt_rejected_unchanged_lemma W O clause_result write_credit e used t ci st0 st). Qed.

  (* 4. a block's gas used is the sum of its receipts and never exceeds the limit (limit < 2^63: the packer's
        gasUsed+gas is an unguarded uint64 sum) *)
  Theorem block_gas e txs st used st' rcs :
    oracle_ok W O clause_result -> 0 <= e_gas_limit e -> 2 * e_gas_limit e < two64 ->
    Forall (fun p => 0 <= t_gas (fst p) < two64 /\
                     Forall (fun c => 0 <= c_zeros c /\ 0 <= c_nonzeros c) (t_clauses (fst p))) txs ->
    adopt_all W O clause_result write_credit e 0 txs st [] = (used, st', rcs) ->
    used = sum_used O rcs /\ 0 <= used <= e_gas_limit e.
  Proof.
    intros OK H0 HL HF H.
    exact (block_gas_lemma W O clause_result write_credit OK e txs HL HF 0 st [] used st' rcs (conj (Z.le_refl 0) H0) eq_refl H).
  Qed.

  (* 5. packer Flow.Adopt in full (pre-checks in the order of the code, execution, flow bookkeeping): a rejected tx — whatever
        the reason: blocked, bad features / chain tag, from the future, expired, no gas room, fee, known, dependency, failure to
        start — leaves the state as it was (remark, by construction as in 3); an adopted one is exactly an adoption of the gas/exec core, is not already known,
        lies in its block-ref window, and its dependency (if any) is a non-reverted earlier tx *)
  Remark adopt_full_rejected_unchanged e fe fs t ai ci st0 c st :
    adopt_full W O clause_result write_credit e fe fs t ai ci st0 = FRejected W O c st -> st = st0.
  Proof. exact (adopt_full_rejected W O clause_result write_credit e fe fs t ai ci st0 c st). Qed.

  Theorem adopt_full_refines e fe fs t ai ci st0 st rc fs' :
    adopt_full W O clause_result write_credit e fe fs t ai ci st0 = FAdopted W O st rc fs' ->
    adopt W O clause_result write_credit e (fs_used fs) t ci st0 = Adopted W O st rc /\
    fs' = mkFS (fs_used fs + r_gas_used O rc) ((ai_id ai, r_reverted O rc) :: fs_processed fs) /\
    adopt_pre e fe fs t ai = None.
  Proof. exact (adopt_full_adopted W O clause_result write_credit e fe fs t ai ci st0 st rc fs'). Qed.

  Theorem adopted_tx_facts e fe fs t ai : adopt_pre e fe fs t ai = None ->
    lookup_processed (ai_id ai) (fs_processed fs) = None /\ ai_chain_has_tx ai = false /\
    t_ref_num t <= e_number e <= t_ref_num t + ai_expiration ai /\
    (forall dep, ai_depends_on ai = Some dep ->
       lookup_processed dep (fs_processed fs) = Some false \/
       (lookup_processed dep (fs_processed fs) = None /\ ai_chain_dep ai = Some false)).
  Proof. exact (adopt_pre_none_facts e fe fs t ai). Qed.

  Theorem block_gas_full e fe txs st fs' st' rcs :
    oracle_ok W O clause_result -> 0 <= e_gas_limit e -> 2 * e_gas_limit e < two64 ->
    Forall (fun p => 0 <= t_gas (fst (fst p)) < two64 /\
                     Forall (fun c => 0 <= c_zeros c /\ 0 <= c_nonzeros c) (t_clauses (fst (fst p)))) txs ->
    adopt_all_full W O clause_result write_credit e fe (mkFS 0 []) txs st [] = (fs', st', rcs) ->
    fs_used fs' = sum_used O rcs /\ 0 <= fs_used fs' <= e_gas_limit e.
  Proof.
    intros OK H0 HL HF H.
    exact (block_gas_full_lemma W O clause_result write_credit OK e fe txs HL HF (mkFS 0 []) st [] fs' st' rcs
             (conj (Z.le_refl 0) H0) eq_refl H).
  Qed.
End C07.

(* non-vacuity: concrete oracles satisfying oracle_ok; a 3-clause transaction whose 2nd clause fails after the 1st wrote; the same
   transaction with all clauses succeeding; a block of three transactions *)
Definition ex_oracle (_ : env) (_ : txn) (i : nat) (g : Z) (st : state Z) : cres Z Z :=
  mkCres Z Z (g / 3) 9000 (Nat.eqb i 1) [OTransfer 1 2 5] (snd st + 1) (Z.of_nat i).
Definition ex_oracle_fine (_ : env) (_ : txn) (i : nat) (g : Z) (st : state Z) : cres Z Z :=
  mkCres Z Z (g / 3) 9000 false [OTransfer 1 2 5] (snd st + 1) (Z.of_nat i).
Definition ex_wc (_ _ c w : Z) : Z := w + 1000 * c.
Definition ex_env := mkEnv 100 1000 5 3 10000000 (Some 10000000000000) 1000000000000000 300000000000000000 77 10.
Definition ex_tx := mkTx true 200000 [mkClause (Some 2) 3 4 5; mkClause (Some 2) 0 0 0; mkClause None 0 10 0]
                         0 20000000000000 500 1 true None true 0 0 0 false.
Definition ex_led : ledger :=
  mkL (fun a => if a =? 1 then mkAcc 1000 90000000000000000000 50 else empty_acc) 0 0 0.
Definition ex_ci := mkCI 0 0 false false.

Example ex_oracle_ok : oracle_ok Z Z ex_oracle /\ oracle_ok Z Z ex_oracle_fine.
Proof.
  split; intros e t i g st Hg; cbn; pose proof (Z.div_mod g 3 ltac:(lia)); pose proof (Z.mod_pos_bound g 3 ltac:(lia)); lia.
Qed.

Example ex_reverts : exists st rc,
  exec_tx Z Z ex_oracle ex_wc ex_env ex_tx ex_ci (ex_led, 0) = Done Z Z st rc /\
  r_reverted Z rc = true /\ r_outputs Z rc = [] /\ snd st = 0 /\
  r_gas_used Z rc = 175330 /\ intrinsic_gas (t_clauses ex_tx) = Some 85964 /\
  r_clause_log Z rc = [(114036, 76024, 9000); (47012, 31342, 9000)] /\
  any_error Z Z (tx_effects Z Z ex_oracle ex_env ex_tx ex_ci (ex_led, 0)) = true.
Proof. eexists _, _. split; [vm_compute; reflexivity|]. vm_compute. repeat split; reflexivity. Qed.

Example ex_all_applied : exists st rc,
  exec_tx Z Z ex_oracle_fine ex_wc ex_env ex_tx ex_ci (ex_led, 0) = Done Z Z st rc /\
  r_reverted Z rc = false /\ r_outputs Z rc = [0; 1; 2] /\ snd st = 3 /\ r_gas_used Z rc = 183554 /\
  view 100 1000 (fst st) 2 = (15, 0) /\ view 100 1000 (fst st) 1 = (985, 88164459999908223000) /\
  any_error Z Z (tx_effects Z Z ex_oracle_fine ex_env ex_tx ex_ci (ex_led, 0)) = false.
Proof. eexists _, _. split; [vm_compute; reflexivity|]. vm_compute. repeat split; reflexivity. Qed.

Example ex_not_started :
  (exists err, exec_tx Z Z ex_oracle ex_wc ex_env (mkTx true 200000 [] 0 5 1 1 true None true 0 0 0 false) ex_ci (ex_led, 0)
               = Failed Z Z err (ex_led, 0) /\ err = ErrPriceBelowBaseFee) /\
  (exists err, exec_tx Z Z ex_oracle ex_wc ex_env (mkTx true 20000 [] 0 20000000000000 1 1 true None true 0 0 0 false) ex_ci (ex_led, 0)
               = Failed Z Z err (ex_led, 0) /\ err = ErrGasBelowIntrinsic) /\
  (exists err, exec_tx Z Z ex_oracle ex_wc ex_env (mkTx true 200000 [] 0 20000000000000 1 9 true None true 0 0 0 false) ex_ci (ex_led, 0)
               = Failed Z Z err (ex_led, 0) /\ err = ErrInsufficientEnergy) /\
  (exists err, exec_tx Z Z ex_oracle ex_wc ex_env (mkTx true 200000 [] 0 20000000000000 1 1 false None true 0 0 0 false) ex_ci (ex_led, 0)
               = Failed Z Z err (ex_led, 0) /\ err = ErrOrigin).
Proof. repeat split; eexists; (split; [vm_compute; reflexivity|reflexivity]). Qed.

(* a block: three copies of ex_tx adopted one after the other (block_gas), and the full Adopt: the first adopted, its duplicate
   rejected as known, a third rejected because its dependency (the first, reverted) failed, a fourth for lack of gas room *)
Example ex_block_gas : exists st rcs,
  adopt_all Z Z ex_oracle ex_wc ex_env 0 [(ex_tx, ex_ci); (ex_tx, ex_ci); (ex_tx, ex_ci)] (ex_led, 0) [] = (525990, st, rcs) /\
  map (r_gas_used Z) rcs = [175330; 175330; 175330] /\ 525990 <= e_gas_limit ex_env.
Proof. eexists _, _. split; [vm_compute; reflexivity|]. vm_compute. split; [reflexivity|discriminate]. Qed.

Definition ex_ai (id : Z) (dep : option Z) := mkAI false false true true 1000 id dep false None.
Example ex_adopt_full :
  let fe := mkFE 0 0 in
  exists st rc fs,
    adopt_full Z Z ex_oracle ex_wc ex_env fe (mkFS 0 []) ex_tx (ex_ai 11 None) ex_ci (ex_led, 0) = FAdopted Z Z st rc fs /\
    fs = mkFS 175330 [(11, true)] /\
    adopt_full Z Z ex_oracle ex_wc ex_env fe fs ex_tx (ex_ai 11 None) ex_ci st = FRejected Z Z AcKnownTx st /\
    adopt_full Z Z ex_oracle ex_wc ex_env fe fs ex_tx (ex_ai 12 (Some 11)) ex_ci st = FRejected Z Z AcNotAdoptableForever st /\
    adopt_full Z Z ex_oracle ex_wc ex_env fe fs ex_tx (ex_ai 13 (Some 99)) ex_ci st = FRejected Z Z AcNotAdoptableNow st /\
    adopt_full Z Z ex_oracle ex_wc ex_env fe (mkFS 9990000 []) ex_tx (ex_ai 14 None) ex_ci st = FRejected Z Z AcGasLimitReached st /\
    adopt_pre ex_env fe (mkFS 0 []) ex_tx (ex_ai 11 None) = None.
Proof. cbv zeta. eexists _, _, _. split; [vm_compute; reflexivity|]. vm_compute. repeat split; reflexivity. Qed.

Print Assumptions gas_bounds.
Print Assumptions tx_atomic.
Print Assumptions tx_all_applied.
Print Assumptions not_started_unchanged.
Print Assumptions adopt_rejected_unchanged.
Print Assumptions block_gas.
Print Assumptions adopt_full_rejected_unchanged.
Print Assumptions adopt_full_refines.
Print Assumptions adopted_tx_facts.
Print Assumptions block_gas_full.

(* ================================================================ composition *)
(* C07 <-> C01 (Compose/ExecSane.v).  gas_bounds (1 above) together with ResolveTransaction's need of the origin is exactly
   what C01's packed_block_accepted assumes of its abstract execution function (Validation.ProofsPacker.exec_sane: a receipt
   uses at most the tx gas, execution needs a recoverable origin, tx gas <= block gas limit): with this model's exec_tx in the
   place of C01's abstract exec (the fields C01's transaction view carries are taken from the view) the premise is a theorem. *)
Theorem gas_bounds_discharge_c01_exec_sane (W O : Type)
        (clause_result : env -> txn -> nat -> Z -> state W -> cres W O) (write_credit : Z -> Z -> Z -> W -> W)
        (tx_rest : Validation.Body.txn -> txn) (env_rest : Header.Rules.bctx -> state W -> env)
        (credit_of : Header.Rules.bctx -> state W -> Validation.Body.txn -> credit_info) (digest : receipt O -> N) :
  oracle_ok W O clause_result ->
  Validation.ProofsPacker.exec_sane (state W)
    (ExecSane.exec_of_c07 W O clause_result write_credit tx_rest env_rest credit_of digest).
Proof. exact (ExecSane.exec_of_c07_sane W O clause_result write_credit tx_rest env_rest credit_of digest). Qed.

(* non-vacuity: ex_oracle_fine of this file is ExecSane.x_oracle; the instance packs and validates a block (Properties/C01.v) *)
Example exec_sane_example : oracle_ok Z Z ExecSane.x_oracle.
Proof. exact ExecSane.x_oracle_ok. Qed.

Print Assumptions gas_bounds_discharge_c01_exec_sane.
Print Assumptions exec_sane_example.

(* C07 <-> C10 (Compose/EvmOracle.v, EVM/ProofsRefund.v).  The premise oracle_ok of 1, 2, 4, 5 above — the only thing this
   property assumes about the EVM — is a THEOREM for the clause oracle induced by C10's interpreter model (EVM/Model.v) driven the
   way runtime.PrepareClause drives the EVM: a fresh statedb per clause (accounts / storage view, no logs, no transfer records,
   refund counter 0), evm.Call = call_top for a clause with a To, evm.Create = do_create at depth 0 with creation counter 0 for
   a clause without, fuel gas+1; gas left = r_gas, refund counter = w_refund of the final world, VM error = outcome other than
   O_ok (REVERT, every error, and the out-of-model outcome O_unsupported).  How the EVM environment and the accounts / storage
   view are read off this model's env / txn / clause index / state, the clause's input bytes, how the final world is written
   back, the ledger primitives and the output are arbitrary functions (data, not premises).  0 <= left <= gas comes from C10's
   run_terminates_within_gas / do_create_gas; refund >= 0 from EVM/ProofsRefund.v (the refund counter never
   decreases along a run: only gasSStore / gasSuicide add to it, a failed frame returns its entry world). *)
From Verif Require EVM.Model Compose.EvmOracle.

Section C07_C10.
  Variables W O : Type.
  Variable evm_env : env -> txn -> nat -> state W -> Verif.EVM.Model.env.
  Variable world_of : state W -> Verif.EVM.Model.world.
  Variable input_of : txn -> nat -> list Z.
  Variable world_back : state W -> Verif.EVM.Model.world -> W.
  Variable ops_of : Verif.EVM.Model.fres -> list op.
  Variable out_of : Verif.EVM.Model.fres -> O.
  Variable write_credit : Z -> Z -> Z -> W -> W.
  Let evm_oracle := EvmOracle.evm_clause_result W O evm_env world_of input_of world_back ops_of out_of.

  Theorem oracle_ok_of_c10_interpreter : oracle_ok W O evm_oracle.
  Proof. exact (EvmOracle.evm_oracle_ok W O evm_env world_of input_of world_back ops_of out_of). Qed.

  (* 1 without its premise *)
  Theorem gas_bounds_c10 e t ci st0 st rc :
    exec_tx W O evm_oracle write_credit e t ci st0 = Done W O st rc ->
    exists ig, intrinsic_gas (t_clauses t) = Some ig /\
      ig <= r_gas_used O rc <= t_gas t /\ t_gas t <= e_gas_limit e /\
      r_paid O rc = r_gas_used O rc * r_price O rc /\
      log_ok (r_clause_log O rc) /\
      r_gas_used O rc = ig + log_used (r_clause_log O rc) - log_refund (r_clause_log O rc) /\
      2 * log_refund (r_clause_log O rc) <= log_used (r_clause_log O rc).
  Proof. exact (EvmOracle.gas_bounds_evm W O evm_env world_of input_of world_back ops_of out_of write_credit e t ci st0 st rc). Qed.

  (* 2 without its premise *)
  Theorem tx_atomic_c10 e t ci st0 st rc :
    exec_tx W O evm_oracle write_credit e t ci st0 = Done W O st rc -> r_reverted O rc = true ->
    let T := e_time e in let S := e_stop e in
    let prepaid := t_gas t * r_price O rc in
    let returned := (t_gas t - r_gas_used O rc) * r_price O rc in
    r_outputs O rc = [] /\
    snd (energy_sub T S (fst st0) (r_payer O rc) prepaid) = true /\
    fst st = energy_add T S (energy_add T S (fst (energy_sub T S (fst st0) (r_payer O rc) prepaid))
                                        (r_payer O rc) returned) (e_benef e) (r_reward O rc) /\
    (snd st = snd st0 \/
     exists to credit', r_credit O rc = Some credit' /\ common_to (t_clauses t) = Some to /\
                        snd st = write_credit to (t_origin t) credit' (snd st0)).
  Proof. exact (EvmOracle.tx_atomic_evm W O evm_env world_of input_of world_back ops_of out_of write_credit e t ci st0 st rc). Qed.

  (* 4 and 5 (block gas) without their premise *)
  Theorem block_gas_c10 e txs st used st' rcs :
    0 <= e_gas_limit e -> 2 * e_gas_limit e < two64 ->
    Forall (fun p => 0 <= t_gas (fst p) < two64 /\
                     Forall (fun c => 0 <= c_zeros c /\ 0 <= c_nonzeros c) (t_clauses (fst p))) txs ->
    adopt_all W O evm_oracle write_credit e 0 txs st [] = (used, st', rcs) ->
    used = sum_used O rcs /\ 0 <= used <= e_gas_limit e.
  Proof. exact (EvmOracle.block_gas_evm W O evm_env world_of input_of world_back ops_of out_of write_credit e txs st used st' rcs). Qed.

  Theorem block_gas_full_c10 e fe txs st fs' st' rcs :
    0 <= e_gas_limit e -> 2 * e_gas_limit e < two64 ->
    Forall (fun p => 0 <= t_gas (fst (fst p)) < two64 /\
                     Forall (fun c => 0 <= c_zeros c /\ 0 <= c_nonzeros c) (t_clauses (fst (fst p)))) txs ->
    adopt_all_full W O evm_oracle write_credit e fe (mkFS 0 []) txs st [] = (fs', st', rcs) ->
    fs_used fs' = sum_used O rcs /\ 0 <= fs_used fs' <= e_gas_limit e.
  Proof. exact (EvmOracle.block_gas_full_evm W O evm_env world_of input_of world_back ops_of out_of write_credit e fe txs st fs' st' rcs). Qed.

  (* a clause the wrapper counts as failed returned the fresh EVM view untouched (C10: failed_frame_no_effect /
     failed_creation_no_effect) with refund counter 0 *)
  Theorem failed_clause_world_c10 e t i g st :
    cr_err W O (evm_oracle e t i g st) = true ->
    exists r, EvmOracle.evm_frame W evm_env world_of input_of e t i g st = Some r /\
              Verif.EVM.Model.r_out r <> Verif.EVM.Model.O_ok /\
              Verif.EVM.Model.r_world r = EvmOracle.fresh (world_of st) /\
              cr_refund W O (evm_oracle e t i g st) = 0 /\
              cr_world W O (evm_oracle e t i g st) = world_back st (EvmOracle.fresh (world_of st)).
  Proof. exact (EvmOracle.evm_clause_failed_world W O evm_env world_of input_of world_back ops_of out_of e t i g st). Qed.

  (* ... and C01's premise about execution (the composition with C01 above) holds outright: C01 <- C07 <- C10 *)
  Theorem exec_sane_c10 (tx_rest : Validation.Body.txn -> txn) (env_rest : Header.Rules.bctx -> state W -> env)
          (credit_of : Header.Rules.bctx -> state W -> Validation.Body.txn -> credit_info) (digest : receipt O -> N) :
    Validation.ProofsPacker.exec_sane (state W)
      (ExecSane.exec_of_c07 W O evm_oracle write_credit tx_rest env_rest credit_of digest).
  Proof. exact (EvmOracle.exec_sane_evm W O evm_env world_of input_of world_back ops_of out_of write_credit tx_rest env_rest credit_of digest). Qed.
End C07_C10.

(* non-vacuity (instances in Compose/EvmOracle.v): the EVM's balances are read from the ledger, its transfer records go back as
   ledger transfers; a transaction of two clauses — a call into a contract that clears a storage slot (refund counter 15000,
   capped to half of the 5005 gas consumed) carrying 3 wei, and a creation deploying one byte of code — runs through exec_tx on
   the interpreter: Done, gas used 72194 = intrinsic 69476 + 5220 - 2502; with a third clause calling a contract that hits
   INVALID the transaction is reverted (hypotheses of tx_atomic_c10 / failed_clause_world_c10); a block of both (block_gas_c10) *)
Example c10_oracle_runs : exists st rc,
  exec_tx EvmOracle.XW EvmOracle.XO EvmOracle.x_oracle EvmOracle.x_wc EvmOracle.x_env EvmOracle.x_tx EvmOracle.x_ci
          (EvmOracle.x_led, EvmOracle.x_w0) = Done EvmOracle.XW EvmOracle.XO st rc /\
  r_reverted EvmOracle.XO rc = false /\ r_gas_used EvmOracle.XO rc = 72194 /\
  r_clause_log EvmOracle.XO rc = [(130524, 5005, 2502); (128021, 215, 0)].
Proof. destruct EvmOracle.x_runs as (st & rc & E & R & G & _ & L & _). exists st, rc. repeat split; assumption. Qed.

Example c10_oracle_reverts : exists st rc,
  exec_tx EvmOracle.XW EvmOracle.XO EvmOracle.x_oracle EvmOracle.x_wc EvmOracle.x_env EvmOracle.x_tx_bad EvmOracle.x_ci
          (EvmOracle.x_led, EvmOracle.x_w0) = Done EvmOracle.XW EvmOracle.XO st rc /\
  r_reverted EvmOracle.XO rc = true /\ r_outputs EvmOracle.XO rc = [] /\ snd st = EvmOracle.x_w0.
Proof. destruct EvmOracle.x_reverts as (st & rc & E & R & Ho & Hs & _). exists st, rc. repeat split; assumption. Qed.

Example c10_failed_clause :
  cr_err EvmOracle.XW EvmOracle.XO
         (EvmOracle.x_oracle EvmOracle.x_env EvmOracle.x_tx_bad 2%nat 1000 (EvmOracle.x_led, EvmOracle.x_w0)) = true.
Proof. exact (proj1 EvmOracle.x_failed_world). Qed.

Example c10_block : exists st rcs,
  adopt_all EvmOracle.XW EvmOracle.XO EvmOracle.x_oracle EvmOracle.x_wc EvmOracle.x_env 0
            [(EvmOracle.x_tx, EvmOracle.x_ci); (EvmOracle.x_tx_bad, EvmOracle.x_ci)] (EvmOracle.x_led, EvmOracle.x_w0) []
  = (272194, st, rcs) /\ map (r_gas_used EvmOracle.XO) rcs = [72194; 200000].
Proof. destruct EvmOracle.x_block as (st & rcs & E & M & _). exists st, rcs. split; assumption. Qed.

Print Assumptions oracle_ok_of_c10_interpreter.
Print Assumptions gas_bounds_c10.
Print Assumptions tx_atomic_c10.
Print Assumptions block_gas_c10.
Print Assumptions block_gas_full_c10.
Print Assumptions failed_clause_world_c10.
Print Assumptions exec_sane_c10.
Print Assumptions c10_oracle_runs.
Print Assumptions c10_oracle_reverts.
Print Assumptions c10_failed_clause.
Print Assumptions c10_block.
