(* Sched/Arith.v — slot arithmetic lemmas used by the scheduler proofs. *)
From Coq Require Import List NArith ZArith Bool Lia ZifyN ZifyNat ZifyBool.
From Verif Require Import Common.Util Sched.Model.
Import ListNotations.
Open Scope N_scope.

Lemma aligned_form pt T t : 0 < T -> pt < t -> (t - pt) mod T = 0 ->
  exists k, 1 <= k /\ t = pt + k * T.
Proof.
  intros HT Hlt Hm. exists ((t - pt) / T). split.
  - assert (H := N.div_mod (t - pt) T ltac:(lia)). rewrite Hm in H.
    destruct (N.eq_dec ((t - pt) / T) 0) as [E|E]; [rewrite E in H; lia | lia].
  - assert (H := N.div_mod (t - pt) T ltac:(lia)). rewrite Hm in H. lia.
Qed.

Lemma slot_index_form pt T n k : 0 < T -> 1 <= k ->
  slot_index pt T n (pt + k * T) = (k - 1) mod n.
Proof.
  intros HT Hk. unfold slot_index. f_equal.
  replace (pt + k * T - pt - T) with ((k - 1) * T) by nia.
  apply N.div_mul. lia.
Qed.

Lemma aligned_mod pt T k : 0 < T -> (pt + k * T - pt) mod T = 0.
Proof. intros HT. replace (pt + k * T - pt) with (k * T) by lia. apply N.mod_mul. lia. Qed.

Lemma first_slot_spec pt T now : 0 < T ->
  exists k0, 1 <= k0 /\ first_slot pt T now = pt + k0 * T /\ now <= pt + k0 * T /\
             (forall k, 1 <= k -> now <= pt + k * T -> k0 <= k).
Proof.
  intros HT. unfold first_slot. destruct (N.ltb_spec (pt + T) now) as [Hlt|Hge].
  - set (d := now - (pt + T)). set (q := (d + T - 1) / T).
    assert (Hq : d + T - 1 = T * q + (d + T - 1) mod T) by (apply N.div_mod; lia).
    assert (Hr : (d + T - 1) mod T < T) by (apply N.mod_lt; lia).
    exists (q + 1). repeat split.
    + lia.
    + lia.
    + subst d. nia.
    + intros k Hk Hnow. subst d. nia.
  - exists 1. repeat split; try lia. 
Qed.

Lemma mod_shift_exists n offset j : 0 < n -> j < n -> exists i, i < n /\ (i + offset) mod n = j.
Proof.
  intros Hn Hj. assert (Ho : offset mod n < n) by (apply N.mod_lt; lia).
  destruct (N.leb_spec (offset mod n) j) as [Hle|Hgt].
  - exists (j - offset mod n). split; [lia|].
    rewrite <- N.add_mod_idemp_r by lia.
    replace (j - offset mod n + offset mod n) with j by lia. apply N.mod_small. lia.
  - exists (j + n - offset mod n). split; [lia|].
    rewrite <- N.add_mod_idemp_r by lia.
    replace (j + n - offset mod n + offset mod n) with (j + 1 * n) by lia.
    rewrite N.mod_add by lia. apply N.mod_small. lia.
Qed.
