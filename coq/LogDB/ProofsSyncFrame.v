(* LogDB/ProofsSyncFrame.v — the start-up re-sync on tables that also hold genesis rows (rows of block 0 whose block ids
   carry number 0, as cmd/thor/utils.go writes them): sync_logdb commutes with such a prefix, so the re-sync theorems
   of ProofsSync lift to the tables of a real node. *)
From Coq Require Import List NArith Bool Lia ZifyN ZifyNat ZifyBool.
From Verif Require Import Chain.Model Chain.Proofs Chain.ProofsWalk Chain.ProofsSys Chain.ProofsPath
  LogDB.Model LogDB.Proofs LogDB.ProofsCanon LogDB.ProofsRows LogDB.ProofsGenesis LogDB.ProofsSync.
Import ListNotations.
Open Scope N_scope.

Definition genesis_ids (d0 : logdb) : Prop :=
  (forall x, In x (db_events d0) -> num_of (er_block x) = 0) /\ (forall x, In x (db_transfers d0) -> num_of (tr_block x) = 0).

Lemma num_of_mono a b : a <= b -> num_of a <= num_of b.
Proof. intros H. destruct (N.le_gt_cases (num_of a) (num_of b)) as [|G]; [assumption|]. apply id_lt_of_num_lt in G. lia. Qed.

Lemma last_frame_num {A} (f : A -> N) (l0 l : list A) : (forall x, In x l0 -> num_of (f x) = 0) ->
  (l <> [] /\ last (map f (l0 ++ l)) 0 = last (map f l) 0) \/
  (l = [] /\ num_of (last (map f (l0 ++ l)) 0) = 0).
Proof.
  intros H0. destruct l as [|y t].
  - right. split; [reflexivity|]. rewrite app_nil_r. destruct l0 as [|z l0']; [apply num_of_0|].
    assert (I : In (last (map f (z :: l0')) 0) (map f (z :: l0'))) by (apply last_In; discriminate).
    apply in_map_iff in I. destruct I as [w [<- Hw]]. apply H0. exact Hw.
  - left. split; [discriminate|]. rewrite map_app. apply last_app_ne. discriminate.
Qed.

Lemma no_genesis_row {A} (sq bl : A -> N) (l : list A) s h : num_of h <> 0 -> (forall x, In x l -> num_of (bl x) = 0) ->
  existsb (fun x => (sq x =? s) && (bl x =? h)) l = false.
Proof.
  intros Hh G. destruct (existsb _ l) eqn:E; [|reflexivity]. apply existsb_exists in E. destruct E as [y [Hy E]].
  apply andb_true_iff in E. destruct E as [_ E]. apply N.eqb_eq in E. rewrite <- E in Hh. destruct (Hh (G y Hy)).
Qed.

Section SyncFrame.
  Variables (g gp : N) (r : repo) (d0 : logdb).
  Hypothesis W : wf g gp r.
  Hypothesis WB : wf_body r.
  Hypothesis B0 : below two35 d0.
  Hypothesis G0 : genesis_ids d0.

  (* NewestBlockID sees the same block unless both say "number 0" *)
  Lemma newest_frame db :
    num_of (newest_block_id (frame d0 db)) = num_of (newest_block_id db) /\
    (num_of (newest_block_id db) <> 0 -> newest_block_id (frame d0 db) = newest_block_id db).
  Proof.
    (* per table, the last row behind the genesis rows is the table's own last row, or the table is empty and an id of
       number 0 shows; N.max of the two then differs from the unframed one only between ids of number 0 *)
    unfold newest_block_id, frame. cbn [db_events db_transfers].
    destruct (last_frame_num tr_block (db_transfers d0) (db_transfers db) (proj2 G0)) as [[Nt Et]|[Zt Et]];
      destruct (last_frame_num er_block (db_events d0) (db_events db) (proj1 G0)) as [[Ne Ee]|[Ze Ee]].
    - rewrite Et, Ee. auto.
    - rewrite Ze in *. rewrite Et. cbn [map last]. set (a := last (map tr_block (db_transfers db)) 0) in *.
      set (E0 := last (map er_block (db_events d0 ++ [])) 0) in *. rewrite N.max_0_r.
      destruct (N.eq_dec (num_of a) 0) as [Za|Na].
      + split; [|congruence]. destruct (N.max_spec a E0) as [[_ ->]|[_ ->]]; congruence.
      + assert (E0 < a) by (apply id_lt_of_num_lt; lia). rewrite N.max_l by lia. auto.
    - rewrite Zt in *. rewrite Ee. cbn [map last]. set (e := last (map er_block (db_events db)) 0) in *.
      set (A0 := last (map tr_block (db_transfers d0 ++ [])) 0) in *. rewrite N.max_0_l.
      destruct (N.eq_dec (num_of e) 0) as [Ze|Ne'].
      + split; [|congruence]. destruct (N.max_spec A0 e) as [[_ ->]|[_ ->]]; congruence.
      + assert (A0 < e) by (apply id_lt_of_num_lt; lia). rewrite N.max_r by lia. auto.
    - rewrite Zt, Ze in *. cbn [map last]. rewrite N.max_0_l, num_of_0. split; [|congruence].
      match goal with |- num_of (N.max ?x ?y) = 0 => destruct (N.max_spec x y) as [[_ ->]|[_ ->]]; assumption end.
  Qed.

  Lemma has_block_id_frame db h : num_of h <> 0 -> has_block_id (frame d0 db) h = has_block_id db h.
  Proof.
    intros Hh. unfold has_block_id, frame. cbn [db_events db_transfers]. destruct (seq_of (num_of h) 0 0) as [s|]; [|reflexivity].
    rewrite !existsb_app, (no_genesis_row tr_seq tr_block _ s h Hh (proj2 G0)), (no_genesis_row er_seq er_block _ s h Hh (proj1 G0)). reflexivity.
  Qed.

  Lemma seek_walk_frame db : forall fuel h, seek_walk r (frame d0 db) fuel h = seek_walk r db fuel h.
  Proof.
    induction fuel as [|f IH]; intros h; [reflexivity|]. cbn [seek_walk].
    destruct (N.eqb_spec (num_of h) 0) as [|Hh]; [reflexivity|]. rewrite (has_block_id_frame db h Hh).
    destruct (has_block_id db h) as [[|]|]; try reflexivity. destruct (get_summary r h); [apply IH | reflexivity].
  Qed.

  Lemma seek_position_frame db : seek_position r (frame d0 db) = seek_position r db.
  Proof.
    unfold seek_position. destruct (num_of (r_best r) =? 0); [reflexivity|].
    destruct (newest_frame db) as [En Eid]. rewrite En.
    destruct (N.eqb_spec (num_of (newest_block_id db)) 0) as [|Hn]; [reflexivity|]. rewrite (Eid Hn).
    destruct (newest_block_id db =? r_best r); [reflexivity|].
    destruct (get_block_id r (r_best r) _); try reflexivity. apply seek_walk_frame.
  Qed.

  Lemma write_range_frame head : stored r head -> forall n i d, 1 <= i ->
    write_range r head n i (frame d0 d) = option_map (frame d0) (write_range r head n i d).
  Proof.
    intros Sh. induction n as [|n IH]; intros i d Hi; [reflexivity|]. cbn [write_range].
    destruct (get_block_id r head i) as [id| |] eqn:E; try reflexivity.
    apply (get_block_id_spec g gp r W head i id Sh) in E. destruct E as [_ En].
    destruct (get_block r id) as [[s b]|] eqn:Eb; [|reflexivity].
    rewrite (write_block_frame d0 b d B0) by (rewrite (get_block_id_eq r WB _ _ _ Eb); lia).
    destruct (write_block b d) as [d'|]; [|reflexivity]. cbn [option_map]. apply IH. lia.
  Qed.

  (* the re-sync ignores and preserves genesis rows *)
  Theorem sync_logdb_frame db : sync_logdb r (frame d0 db) = option_map (frame d0) (sync_logdb r db).
  Proof.
    unfold sync_logdb. rewrite seek_position_frame. destruct (seek_position r db) as [p| |]; try reflexivity.
    destruct (num_of (r_best r) <? p); [reflexivity|].
    set (p' := if p =? 0 then 1 else p).
    assert (Hp : 1 <= p') by (unfold p'; destruct (N.eqb_spec p 0); lia).
    rewrite (truncate_frame d0 p' db B0 Hp). destruct (truncate p' db) as [d1|]; [|reflexivity]. cbn [option_map].
    apply write_range_frame; [apply (w_best _ _ _ W) | exact Hp].
  Qed.
End SyncFrame.
