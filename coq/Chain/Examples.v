(* Chain/Examples.v — a concrete history (fork at height 2, one tx on both siblings, a reorganisation) used by the
   non-vacuity Examples of Properties/C09.v, C14.v and C15.v. *)
From Coq Require Import List NArith Bool Lia.
From Verif Require Import Chain.Model Chain.Proofs Chain.ProofsWalk Chain.ProofsSys.
Import ListNotations.
Open Scope N_scope.

Definition bid (n k : N) : N := n * 2 ^ 224 + k.
Definition ex_g := bid 0 7.
Definition ex_gp := bid 4294967295 0.
Definition ex_tag := 7.
Definition ex_t1 := mkTx 1001 7 1 10 None 50.
Definition ex_t2 := mkTx 1002 7 0 5 (Some 1001) 51.
Definition ex_ev := mkEv 900 [5; 0] 2 258.
Definition ex_rc (rv : bool) := mkRc rv [([ex_ev], [mkTr 50 51 12])].
Definition ex_b1 := mkB (bid 1 1) ex_g 10 [] [].
Definition ex_b2 := mkB (bid 2 1) (bid 1 1) 20 [ex_t1] [ex_rc false].
Definition ex_b2' := mkB (bid 2 2) (bid 1 1) 20 [ex_t1; ex_t2] [ex_rc false; ex_rc true].
Definition ex_b3' := mkB (bid 3 1) (bid 2 2) 30 [] [].
Definition step_or (r : repo) (b : blk) (c : N) (best : bool) : repo :=
  match add_block r b c best with Some r' => r' | None => r end.
Definition ex_r0 := init_repo ex_g ex_gp ex_tag.
Definition ex_r1 := step_or ex_r0 ex_b1 0 true.
Definition ex_r2 := step_or ex_r1 ex_b2 0 true.
Definition ex_r3 := step_or ex_r2 ex_b2' 1 false.
Definition ex_r4 := step_or ex_r3 ex_b3' 0 true.

Lemma ex_g_num : num_of ex_g = 0. Proof. vm_compute. reflexivity. Qed.
Lemma ex_gp_num : num_of ex_gp = max_u32. Proof. vm_compute. reflexivity. Qed.

Lemma step_or_reach adm r b c best : reachable ex_g ex_gp ex_tag adm r -> valid_add r b c -> adm r b best ->
  add_block r b c best <> None -> reachable ex_g ex_gp ex_tag adm (step_or r b c best).
Proof.
  intros R V Ad. unfold step_or. destruct (add_block r b c best) as [r'|] eqn:E; [intros _ | congruence].
  exact (reach_add _ _ _ _ r b c best r' R V Ad E).
Qed.

Lemma ex_reachable3 (adm : repo -> blk -> bool -> Prop) :
  adm ex_r0 ex_b1 true -> adm ex_r1 ex_b2 true -> adm ex_r2 ex_b2' false -> reachable ex_g ex_gp ex_tag adm ex_r3.
Proof.
  intros A1 A2 A3.
  repeat (apply step_or_reach; [| vm_compute; repeat split | assumption | vm_compute; discriminate]). apply reach_init.
Qed.

Lemma ex_reachable (adm : repo -> blk -> bool -> Prop) :
  adm ex_r0 ex_b1 true -> adm ex_r1 ex_b2 true -> adm ex_r2 ex_b2' false -> adm ex_r3 ex_b3' true ->
  reachable ex_g ex_gp ex_tag adm ex_r4.
Proof.
  intros A1 A2 A3 A4.
  apply step_or_reach; [apply ex_reachable3; assumption | vm_compute; repeat split | exact A4 | vm_compute; discriminate].
Qed.

Lemma ex_reachable_tip : reachable ex_g ex_gp ex_tag tip_rule ex_r4.
Proof. apply ex_reachable; unfold tip_rule; vm_compute; intros; try reflexivity; discriminate. Qed.

(* ---- a chain deeper than the 100-block recent window, with a tx at height 2 whose id shares its 8-byte filter key
   with an id that is nowhere included ---- *)
From Verif Require Import Chain.Replay.
Definition deep_x1 : N := 5 * 2 ^ 192 + 1.
Definition deep_x2 : N := 5 * 2 ^ 192 + 2.
Definition deep_tx := mkTx deep_x1 7 1 10 None 50.
Fixpoint deep_ops (n : nat) (h : N) : list (blk * bool) :=
  match n with
  | O => []
  | S n' => (mkB (bid h 1) (if h =? 1 then ex_g else bid (h - 1) 1) (10 * h)
                 (if h =? 2 then [deep_tx] else []) (if h =? 2 then [ex_rc false] else []), true) :: deep_ops n' (h + 1)
  end.
(* every block of the deep chain passes `validate`, and its txs are exactly deep_tx *)
Definition deep_admb (r : repo) (b : blk) (_ : bool) : bool :=
  match validate r b with V_ok => true | _ => false end && forallb (fun t => txrec_eqb t deep_tx) (b_txs b).
Definition deep_repo : repo :=
  match replay deep_admb ex_r0 (deep_ops 105 1) with Some r => r | None => ex_r0 end.

Lemma deep_reachable (adm : repo -> blk -> bool -> Prop) : (forall r b best, deep_admb r b best = true -> adm r b best) ->
  reachable ex_g ex_gp ex_tag adm deep_repo.
Proof. intros Hadm. apply (replay_reachable_default ex_g ex_gp ex_tag adm deep_admb Hadm). apply reach_init. Qed.

Lemma ex_reachable3_tip : reachable ex_g ex_gp ex_tag tip_rule ex_r3.
Proof. apply ex_reachable3; unfold tip_rule; vm_compute; intros; try reflexivity; discriminate. Qed.
