(* Codec/ProofsObjects.v — the object codecs of thor (clause, reserved, tx, receipt, txsRootFeatures, extension,
   header, block) are sound and complete; the counting loops of Clauses.DecodeRLP / RawBlock never reject what
   the full decoder accepts. *)
From Coq Require Import List NArith ZArith Bool Lia.
From Coq Require Import ZifyN ZifyNat ZifyBool.
From Verif Require Import Codec.Model Codec.ProofsRLP Codec.ProofsComb.
Import ListNotations.
Open Scope N_scope.

(* a codec that may encode to nothing (the header extension) is complete only at the end of its list *)
Definition complete_end {A} (c : codec A) : Prop := forall x, wfp c x -> dec c (enc c x) = Some (x, []).
Definition codec_ok_end {A} (c : codec A) : Prop := sound c /\ complete_end c.
Lemma complete_end_at {A} (c : codec A) : complete_end c <-> complete_at c [].
Proof. split; intros C x W; specialize (C x W); rewrite app_nil_r in *; exact C. Qed.
Lemma ok_end {A} (c : codec A) : codec_ok c -> codec_ok_end c.
Proof. intros [S C]. split; [exact S|]. apply complete_end_at. intros x. apply C. Qed.
Lemma cpair_ok_end {A B} (ca : codec A) (cb : codec B) : codec_ok ca -> codec_ok_end cb -> codec_ok_end (cpair ca cb).
Proof.
  intros [Sa Ca] [Sb Cb]. split; [apply cpair_sound; assumption|].
  apply complete_end_at, cpair_complete_at, complete_end_at; assumption.
Qed.
Lemma cwrap_ok_end {A} (c : codec A) : codec_ok_end c -> codec_ok (cwrap c).
Proof. intros [S C]. split; [apply cwrap_sound, S|apply cwrap_complete, complete_end_at, C]. Qed.

Lemma c_clause_ok : codec_ok c_clause.
Proof.
  apply cmap_ok; [intros [a [b c]]; reflexivity|]. apply cwrap_ok.
  repeat apply cpair_ok; [apply c_nilable_ok; lia|apply c_big_ok|apply c_bytes_ok].
Qed.
Lemma c_clause_nonempty : nonempty c_clause.
Proof. apply cpmap_nonempty, cwrap_nonempty. Qed.

(* raw.go readKind on list / string encodings *)
Lemma lenN_enc_len_short base n : n < 56 -> lenN (enc_len base n) = 1.
Proof. intros H. unfold enc_len. destruct (n <? 56) eqn:E; [reflexivity|lia]. Qed.
Lemma lenN_enc_str_le c : lenN c < 56 -> lenN (enc_str c) <= 1 + lenN c.
Proof.
  intros H. destruct (single_low c) eqn:Es.
  - apply single_low_true in Es. destruct Es as [x [-> Hx]]. rewrite enc_str_low by exact Hx. lia.
  - rewrite enc_str_high by exact Es. rewrite lenN_app. cbn [enc_head]. rewrite lenN_enc_len_short by exact H. lia.
Qed.

(* readKind on a header followed by its content; a string header 0x81 over a single byte is not measured (canonical-size
   check), which does not arise for 2 or more bytes *)
Lemma rsize_head base (q rest : bytes) :
  (base = 128 /\ lenN q <> 1 \/ base = 192) -> lenN q < two64 ->
  rsize (enc_len base (lenN q) ++ q ++ rest) = Some (lenN (enc_len base (lenN q) ++ q)).
Proof.
  intros Hb Hq. unfold enc_len. destruct (lenN q <? 56) eqn:E.
  { cbn [app]. unfold rsize. cbv beta iota zeta. rewrite !lenN_cons, !lenN_app. destruct Hb as [[-> ?]| ->]; brk; f_equal; lia. }
  cbv zeta. destruct (len_bytes_facts (lenN q)) as (Hc & Hv & Hl1 & Hl8); [lia|]. set (lb := be_bytes (lenN q)) in *.
  assert (Hh : head0 lb = false).
  { unfold canon_int in Hc. apply andb_prop in Hc. destruct Hc as [_ Hh]. destruct (head0 lb); [discriminate|reflexivity]. }
  cbn [app]. unfold rsize. cbv beta iota zeta.
  destruct Hb as [[-> _]| ->];
    [replace (128 + 55 + lenN lb - 183) with (lenN lb) by lia|replace (192 + 55 + lenN lb - 247) with (lenN lb) by lia];
    rewrite firstn_lenN_app, Hv, Hh; cbn [negb]; rewrite !lenN_cons, !lenN_app; brk; f_equal; lia.
Qed.

Lemma rsize_list q rest : lenN q < two64 -> rsize (enc_list q ++ rest) = Some (lenN (enc_list q)).
Proof. intros Hq. unfold enc_list. rewrite <- app_assoc. apply rsize_head; [right; reflexivity|exact Hq]. Qed.

Lemma rsize_str s rest : 2 <= lenN s < two64 -> rsize (enc_str s ++ rest) = Some (lenN (enc_str s)).
Proof.
  intros Hs. assert (Es : single_low s = false) by (destruct s as [|? [|? ?]]; [reflexivity|rewrite !lenN_cons, lenN_nil in Hs; lia|reflexivity]).
  rewrite enc_str_high, <- app_assoc by exact Es. apply rsize_head; [left|]; lia.
Qed.

(* a codec whose encodings raw.go's readKind measures exactly *)
Definition rsized {A} (c : codec A) : Prop := forall x rest, wfp c x -> rsize (enc c x ++ rest) = Some (lenN (enc c x)).

Lemma rcount_step g lim p acc : p <> [] ->
  rcount (S g) lim p acc =
  match rsize p with
  | Some n => if (match lim with Some m => m <? acc + 1 | None => false end) then None
              else rcount g lim (skipn (N.to_nat n) p) (acc + 1)
  | None => None end.
Proof. destruct p; [congruence|reflexivity]. Qed.
Lemma rcount_nil g lim acc : rcount g lim [] acc = Some acc.
Proof. destruct g; reflexivity. Qed.

Lemma rcount_spec {A} (c : codec A) (lim : option N) : rsized c -> nonempty c ->
  forall l, Forall (wfp c) l -> forall g acc, (length (concat (map (enc c) l)) <= g)%nat ->
  match lim with Some m => acc <= m | None => True end ->
  rcount g lim (concat (map (enc c) l)) acc =
  if (match lim with Some m => acc + lenN l <=? m | None => true end) then Some (acc + lenN l) else None.
Proof.
  intros RS NE. induction l as [|x l IH]; intros W g acc Hg Hacc.
  - cbn [map concat]. rewrite rcount_nil, lenN_nil, N.add_0_r.
    destruct lim as [m|]; [|reflexivity]. destruct (acc <=? m) eqn:E; [reflexivity|lia].
  - inversion W as [|? ? Wx Wl]; subst. cbn [map concat] in *.
    assert (Hne : enc c x <> []) by (apply NE; exact Wx).
    assert (Hne2 : enc c x ++ concat (map (enc c) l) <> []).
    { intro E. apply app_eq_nil in E. tauto. }
    rewrite app_length in Hg.
    assert (Hl1 : (1 <= length (enc c x))%nat) by (destruct (enc c x); [congruence|cbn; lia]).
    destruct g as [|g]; [lia|].
    rewrite rcount_step by exact Hne2. rewrite (RS x _ Wx), skipn_lenN_app, lenN_cons.
    destruct lim as [m|].
    + destruct (m <? acc + 1) eqn:E1.
      * destruct (acc + (1 + lenN l) <=? m) eqn:E2; [lia|reflexivity].
      * rewrite IH; [|exact Wl|lia|lia]. replace (acc + 1 + lenN l) with (acc + (1 + lenN l)) by lia. reflexivity.
    + rewrite IH; [|exact Wl|lia|exact I]. f_equal. lia.
Qed.

Lemma c_clause_rsized : rsized c_clause.
Proof.
  intros x rest [[_ Hl] _]. cbn [enc c_clause cmap cpmap cwrap] in *. apply rsize_list. exact Hl.
Qed.

Lemma cslice_clause_ok : codec_ok (cslice c_clause).
Proof. apply cslice_ok; [apply c_clause_ok|apply c_clause_nonempty]. Qed.

Lemma c_clauses_ok : codec_ok c_clauses.
Proof.
  destruct cslice_clause_ok as [S C]. split.
  - intros b l r. cbn [dec c_clauses enc wfp].
    destruct (shead b) as [[[k p] r1]|] eqn:E; [|discriminate]. destruct k; try discriminate.
    destruct (rcount (length p) (Some max_clauses) p 0) as [n|] eqn:Er; [|discriminate].
    intros H. pose proof H as H0. apply S in H. destruct H as [Hb W]. split; [exact Hb|]. split; [exact W|].
    (* the count loop succeeded, so there are at most 2500 elements *)
    cbn [dec cslice] in H0. rewrite E in H0.
    destruct (dec_elems (dec c_clause) (length p) p) as [l'|] eqn:E2; [|discriminate]. inversion H0; subst.
    apply (dec_elems_sound c_clause (proj1 c_clause_ok)) in E2. destruct E2 as [-> Wl].
    rewrite (rcount_spec c_clause (Some max_clauses) c_clause_rsized c_clause_nonempty l Wl) in Er; [|lia|unfold max_clauses; lia].
    destruct (0 + lenN l <=? max_clauses) eqn:E3; [lia|discriminate].
  - intros l r [W Hl]. cbn [dec c_clauses enc wfp] in *. pose proof (C l r W) as Hd.
    destruct W as [Wl Hlen]. cbn [enc cslice] in *. rewrite shead_list by exact Hlen.
    rewrite (rcount_spec c_clause (Some max_clauses) c_clause_rsized c_clause_nonempty l Wl); [|lia|unfold max_clauses; lia].
    destruct (0 + lenN l <=? max_clauses) eqn:E3; [|lia]. exact Hd.
Qed.

Lemma trim_raws_id l : is_empty_raw (last l []) = false -> trim_raws l = l.
Proof.
  induction l as [|v t IH]; intros Hl; [reflexivity|]. cbn [trim_raws]. destruct t as [|w t'].
  - cbn in *. rewrite Hl. reflexivity.
  - rewrite IH; [reflexivity|exact Hl].
Qed.
Lemma cslice_raw_ok : codec_ok (cslice c_raw).
Proof. apply cslice_ok; [apply c_raw_ok|apply c_raw_nonempty]. Qed.

Lemma c_reserved_ok : codec_ok c_reserved.
Proof.
  apply cpmap_ok; [|apply cslice_raw_ok]. intros raws r _. unfold res_of_raws, raws_of_res.
  destruct (3 <? lenN raws); [discriminate|]. destruct raws as [|r0 rest].
  - intros H. inversion H; subst. reflexivity.
  - destruct (is_empty_raw (last (r0 :: rest) [])) eqn:El; [discriminate|].
    destruct (dec_exact (c_uint 4) r0) as [f|] eqn:Ed; [|discriminate]. intros H. inversion H; subst. cbn [r_features r_unused].
    pose proof (dec_exact_enc _ _ _ (c_uint_ok 4) Ed) as ->. apply trim_raws_id, El.
Qed.

Lemma c_legacy_ok : codec_ok c_legacy.
Proof.
  apply cmap_ok; [intros [a [b [c [d [e [f [g [h [i j]]]]]]]]]; reflexivity|]. apply cwrap_ok. unfold legacy_fields.
  repeat apply cpair_ok; try apply c_uint_ok; try apply c_clauses_ok; try apply c_reserved_ok; try apply c_bytes_ok.
  apply c_nilable_ok; lia.
Qed.
Lemma c_dyn_ok : codec_ok c_dyn.
Proof.
  apply cmap_ok; [intros [a [b [c [d [e [f [g [h [i [j k]]]]]]]]]]; reflexivity|]. apply cwrap_ok. unfold dyn_fields.
  repeat apply cpair_ok; try apply c_uint_ok; try apply c_big_ok; try apply c_clauses_ok; try apply c_reserved_ok; try apply c_bytes_ok.
  apply c_nilable_ok; lia.
Qed.
Lemma c_legacy_dyn_flag t : wfp c_legacy t -> t_dyn t = false.
Proof. intros [_ H]. cbn in H. inversion H as [H1]. rewrite <- H1 at 1. reflexivity. Qed.
Lemma c_dyn_dyn_flag t : wfp c_dyn t -> t_dyn t = true.
Proof. intros [_ H]. cbn in H. inversion H as [H1]. rewrite <- H1 at 1. reflexivity. Qed.

Lemma c_legacy_nonempty : nonempty c_legacy.
Proof. apply cpmap_nonempty, cwrap_nonempty. Qed.
Lemma c_dyn_nonempty : nonempty c_dyn.
Proof. apply cpmap_nonempty, cwrap_nonempty. Qed.

(* the typed payload 0x51 || rlp(body) *)
Lemma dec_typed_sound {A} (c : codec A) s x : sound c -> dec_typed c s = Some x -> s = 81 :: enc c x /\ wfp c x.
Proof.
  intros S. destruct s as [|ty [|b0 bt]]; try discriminate. cbn [dec_typed].
  destruct (ty =? 81) eqn:E; [|discriminate]. intros H. apply (dec_exact_sound c _ _ S) in H. destruct H as [<- W].
  split; [f_equal; lia|exact W].
Qed.
Lemma dec_typed_complete {A} (c : codec A) x : complete c -> nonempty c -> wfp c x -> dec_typed c (81 :: enc c x) = Some x.
Proof.
  intros C NE W. pose proof (NE x W) as Hne. pose proof (dec_exact_complete c x C W) as Hd.
  destruct (enc c x) as [|e0 et]; [congruence|]. cbn [dec_typed]. exact Hd.
Qed.

Lemma typed_str_shape {x : N} (e : bytes) : e <> [] -> single_low (x :: e) = false.
Proof. destruct e; [congruence|reflexivity]. Qed.

Lemma c_tx_ok : codec_ok c_tx.
Proof.
  destruct c_legacy_ok as [Sl Cl]. destruct c_dyn_ok as [Sd Cd]. destruct c_bytes_ok as [Sb Cb]. split.
  - intros b x r. cbn [dec c_tx enc wfp].
    destruct (shead b) as [[[k p] r1]|] eqn:E; [|discriminate]. destruct k; try discriminate.
    + destruct (dec c_bytes b) as [[s r2]|] eqn:E2; [|discriminate].
      destruct (dec_typed c_dyn s) as [t|] eqn:E3; [|discriminate]. intros H. inversion H; subst.
      apply Sb in E2. destruct E2 as [-> Ws]. apply (dec_typed_sound c_dyn _ _ Sd) in E3. destruct E3 as [-> Wt].
      rewrite (c_dyn_dyn_flag _ Wt). split; [reflexivity|]. split; [exact Wt|].
      cbn [wfp c_bytes] in Ws. rewrite lenN_cons in Ws. lia.
    + intros H. apply Sl in H. destruct H as [-> W]. rewrite (c_legacy_dyn_flag _ W). tauto.
  - intros x r. cbn [dec c_tx enc wfp]. destruct (t_dyn x) eqn:Ed.
    + intros [W Hl].
      assert (Hne : enc c_dyn x <> []) by (apply c_dyn_nonempty; exact W).
      assert (Ws : wfp c_bytes (81 :: enc c_dyn x)) by (cbn [wfp c_bytes]; rewrite lenN_cons; lia).
      pose proof (Cb _ r Ws) as Hb. cbn [enc c_bytes] in Hb.
      rewrite shead_str, (typed_str_shape _ Hne), Hb, (dec_typed_complete c_dyn x Cd c_dyn_nonempty W) by exact Ws. reflexivity.
    + intros W. pose proof (Cl x r W) as Hd. cbn [enc c_legacy cmap cpmap cwrap] in *.
      rewrite shead_list by apply W. exact Hd.
Qed.
Lemma c_tx_nonempty : nonempty c_tx.
Proof.
  intros x. cbn [wfp c_tx enc]. destruct (t_dyn x).
  - intros [_ Hl]. apply c_bytes_nonempty. cbn [wfp c_bytes]. rewrite lenN_cons. lia.
  - apply c_legacy_nonempty.
Qed.

Lemma c_event_ok : codec_ok c_event.
Proof.
  apply cmap_ok; [intros [a [b c]]; reflexivity|]. apply cwrap_ok.
  repeat apply cpair_ok; [apply c_fixed_ok; lia| |apply c_bytes_ok].
  apply cslice_ok; [apply c_fixed_ok; lia|apply c_fixed_nonempty].
Qed.
Lemma c_transfer_ok : codec_ok c_transfer.
Proof.
  apply cmap_ok; [intros [a [b c]]; reflexivity|]. apply cwrap_ok.
  repeat apply cpair_ok; [apply c_fixed_ok; lia|apply c_fixed_ok; lia|apply c_big_ok].
Qed.
Lemma c_output_ok : codec_ok c_output.
Proof.
  apply cmap_ok; [intros [a b]; reflexivity|]. apply cwrap_ok. apply cpair_ok.
  - apply cslice_ok; [apply c_event_ok|apply cpmap_nonempty, cwrap_nonempty].
  - apply cslice_ok; [apply c_transfer_ok|apply cpmap_nonempty, cwrap_nonempty].
Qed.
Lemma c_receipt_body_ok d : codec_ok (c_receipt_body d).
Proof.
  apply cpmap_ok.
  - intros [a [b [c [e [f g]]]]] y _ H. inversion H; subst. reflexivity.
  - apply cwrap_ok. repeat apply cpair_ok; try apply c_big_ok; [apply c_uint_ok|apply c_fixed_ok; lia|apply c_bool_ok|].
    apply cslice_ok; [apply c_output_ok|apply cpmap_nonempty, cwrap_nonempty].
Qed.
Lemma c_receipt_body_flag d r : wfp (c_receipt_body d) r -> rc_dyn r = d.
Proof. intros [_ H]. cbn in H. inversion H as [H1]. rewrite <- H1 at 1. reflexivity. Qed.
Lemma c_receipt_body_nonempty d : nonempty (c_receipt_body d).
Proof. apply cpmap_nonempty, cwrap_nonempty. Qed.

Lemma dec_typed_receipt_sound s x : dec_typed_receipt s = Some x ->
  s = 81 :: enc (c_receipt_body true) x /\ wfp (c_receipt_body true) x.
Proof.
  destruct s as [|ty body]; [discriminate|]. cbn [dec_typed_receipt]. destruct (ty =? 81) eqn:E; [|discriminate].
  intros H. apply (dec_exact_sound _ _ _ (proj1 (c_receipt_body_ok true))) in H. destruct H as [<- W].
  split; [f_equal; lia|exact W].
Qed.

Lemma c_receipt_ok : codec_ok c_receipt.
Proof.
  destruct (c_receipt_body_ok false) as [Sl Cl]. destruct (c_receipt_body_ok true) as [Sd Cd]. destruct c_bytes_ok as [Sb Cb]. split.
  - intros b x r. cbn [dec c_receipt enc wfp].
    destruct (shead b) as [[[k p] r1]|] eqn:E; [|discriminate]. destruct k; try discriminate.
    + destruct (dec c_bytes b) as [[s r2]|] eqn:E2; [|discriminate].
      destruct (dec_typed_receipt s) as [t|] eqn:E3; [|discriminate]. intros H. inversion H; subst.
      apply Sb in E2. destruct E2 as [-> Ws]. apply dec_typed_receipt_sound in E3. destruct E3 as [-> Wt].
      rewrite (c_receipt_body_flag _ _ Wt). split; [reflexivity|]. split; [exact Wt|].
      cbn [wfp c_bytes] in Ws. rewrite lenN_cons in Ws. lia.
    + intros H. apply Sl in H. destruct H as [-> W]. rewrite (c_receipt_body_flag _ _ W). tauto.
  - intros x r. cbn [dec c_receipt enc wfp]. destruct (rc_dyn x) eqn:Ed.
    + intros [W Hl].
      assert (Hne : enc (c_receipt_body true) x <> []) by (apply c_receipt_body_nonempty; exact W).
      assert (Ws : wfp c_bytes (81 :: enc (c_receipt_body true) x)) by (cbn [wfp c_bytes]; rewrite lenN_cons; lia).
      pose proof (Cb _ r Ws) as Hb. cbn [enc c_bytes] in Hb.
      rewrite shead_str, (typed_str_shape _ Hne), Hb by exact Ws. cbn [dec_typed_receipt].
      rewrite (dec_exact_complete _ x Cd W). reflexivity.
    + intros W. pose proof (Cl x r W) as Hd. cbn [enc c_receipt_body cpmap cwrap] in *.
      rewrite shead_list by apply W. exact Hd.
Qed.

Lemma trf_pair_ok : codec_ok (cwrap (cpair (c_fixed 32) (c_uint 4))).
Proof. apply cwrap_ok, cpair_ok; [apply c_fixed_ok; lia|apply c_uint_ok]. Qed.

Lemma c_trf_ok : codec_ok c_trf.
Proof.
  destruct trf_pair_ok as [Sp Cp]. destruct (c_fixed_ok 32 ltac:(lia)) as [Sf Cf]. split.
  - (* whatever is not a list is a bare root *)
    assert (Hf : forall b x r, match dec (c_fixed 32) b with Some (root, r) => Some (mkTrf root 0, r) | None => None end = Some (x, r) ->
                 b = enc c_trf x ++ r /\ wfp c_trf x).
    { intros b x r. destruct (dec (c_fixed 32) b) as [[root r2]|] eqn:E2; [|discriminate]. intros H. inversion H; subst.
      apply Sf in E2. destruct E2 as [-> W]. split; [reflexivity|]. split; [exact W|cbn; lia]. }
    intros b x r. unfold c_trf at 1. cbn [dec c_trf_gen]. destruct (shead b) as [[[[] p] r1]|] eqn:E; try apply Hf.
    destruct (dec (cwrap (cpair (c_fixed 32) (c_uint 4))) b) as [[[root f] r2]|] eqn:E2; [|discriminate].
    destruct (f =? 0) eqn:Ef; [discriminate|]. cbn [andb]. intros H. inversion H; subst.
    apply Sp in E2. destruct E2 as [-> W]. unfold c_trf. cbn [enc wfp c_trf_gen trf_features trf_root]. rewrite Ef. split; [reflexivity|].
    destruct W as [[W1 W2] _]. cbn [fst snd] in *. split; [exact W1|]. apply c_uint_wf_inv in W2. cbn in W2. lia.
  - intros x r [W1 W2]. unfold c_trf. cbn [dec c_trf_gen enc wfp]. destruct (trf_features x =? 0) eqn:Ef.
    + pose proof (Cf (trf_root x) r W1) as Hd. cbn [enc c_fixed] in *. cbn [app] in *.
      rewrite shead_fixed, Hd by (exact W1 || lia). destruct x as [root f]. cbn [trf_root trf_features] in *. f_equal. f_equal. f_equal. lia.
    + assert (W : wfp (cwrap (cpair (c_fixed 32) (c_uint 4))) (trf_root x, trf_features x)).
      { split.
        - split; [exact W1|]. cbn [snd]. apply c_uint_wf; [lia|]. cbn. exact W2.
        - cbn [enc cpair fst snd c_fixed c_uint cpmap c_bytes]. cbn [wfp c_fixed] in W1. rewrite lenN_app, lenN_cons, W1.
          pose proof (be_bytes_len (trf_features x) 4 ltac:(cbn; lia)) as Hl.
          pose proof (lenN_enc_str_le (be_bytes (trf_features x))). lia. }
      pose proof (Cp _ r W) as Hd. cbn [enc cwrap] in *. rewrite shead_list, Hd by apply W. rewrite Ef. cbn [andb]. destruct x; reflexivity.
Qed.

Lemma c_ext_inner_ok : codec_ok c_ext_inner.
Proof.
  apply cpmap_ok; [|apply cslice_raw_ok]. intros raws e _. unfold ext_of_raws, raws_of_ext.
  destruct raws as [|a [|c [|f [|? ?]]]]; try discriminate.
  - destruct (dec_exact c_bytes a) as [alpha|] eqn:Ea; [|discriminate]. destruct (lenN alpha =? 0); [discriminate|].
    intros H. inversion H; subst. cbn [x_basefee x_com x_alpha].
    rewrite (dec_exact_enc _ _ _ c_bytes_ok Ea). reflexivity.
  - destruct (dec_exact c_bytes a) as [alpha|] eqn:Ea; [|discriminate].
    destruct (dec_exact c_bool c) as [com|] eqn:Ec; [|discriminate]. destruct com; [|discriminate].
    intros H. inversion H; subst. cbn [x_basefee x_com x_alpha].
    rewrite (dec_exact_enc _ _ _ c_bytes_ok Ea), (dec_exact_enc _ _ _ c_bool_ok Ec). reflexivity.
  - destruct (dec_exact c_bytes a) as [alpha|] eqn:Ea; [|discriminate].
    destruct (dec_exact c_bool c) as [com|] eqn:Ec; [|discriminate].
    destruct (dec_exact c_big f) as [fee|] eqn:Ef; [|discriminate].
    intros H. inversion H; subst. cbn [x_basefee x_com x_alpha].
    rewrite (dec_exact_enc _ _ _ c_bytes_ok Ea), (dec_exact_enc _ _ _ c_bool_ok Ec), (dec_exact_enc _ _ _ c_big_ok Ef). reflexivity.
Qed.

Lemma ext_inner_not_default e : wfp c_ext_inner e -> is_default_ext e = false.
Proof.
  intros [_ H]. unfold is_default_ext. destruct e as [alpha com fee]. cbn [x_basefee x_com x_alpha] in *.
  destruct fee; [reflexivity|]. destruct com; [reflexivity|]. cbn [negb andb].
  unfold raws_of_ext, ext_of_raws in H. cbn [x_basefee x_com x_alpha] in H.
  destruct (dec_exact c_bytes (enc c_bytes alpha)) as [a'|]; [|discriminate].
  destruct (lenN a' =? 0) eqn:E; [discriminate|]. inversion H; subst. exact E.
Qed.

Lemma c_ext_ok_end : codec_ok_end c_ext.
Proof.
  destruct c_ext_inner_ok as [S C]. split.
  - intros b e r. cbn [dec c_ext enc wfp]. destruct b as [|b0 bt].
    + intros H. inversion H; subst. cbn. split; reflexivity.
    + intros H. apply S in H. destruct H as [Hb W]. rewrite (ext_inner_not_default e W). tauto.
  - intros e. cbn [dec c_ext enc wfp]. destruct (is_default_ext e) eqn:Ed.
    + intros ->. reflexivity.
    + intros W. pose proof (C e [] W) as Hd. rewrite app_nil_r in Hd.
      destruct (enc c_ext_inner e) as [|e0 et] eqn:Ee; [|exact Hd].
      exfalso. cbn [enc c_ext_inner cpmap cslice] in Ee. exact (enc_list_nonempty _ Ee).
Qed.

Ltac leaf :=
  first [ apply c_uint_ok | apply c_big_ok | apply c_bytes_ok | apply c_trf_ok | apply c_clauses_ok | apply c_reserved_ok
        | (apply c_fixed_ok; lia) | (apply c_nilable_ok; lia) ].

Lemma c_header_ok : codec_ok c_header.
Proof.
  apply cmap_ok; [intros [a [b [c [d [e [f [g [h [i [j k]]]]]]]]]]; reflexivity|]. apply cwrap_ok_end. unfold header_fields.
  repeat (apply cpair_ok_end; [leaf|]). apply c_ext_ok_end.
Qed.
Lemma c_header_nonempty : nonempty c_header.
Proof. apply cpmap_nonempty, cwrap_nonempty. Qed.

Lemma cslice_tx_ok : codec_ok (cslice c_tx).
Proof. apply cslice_ok; [apply c_tx_ok|apply c_tx_nonempty]. Qed.
Lemma c_block_ok : codec_ok c_block.
Proof.
  apply cmap_ok; [intros [a b]; reflexivity|]. apply cwrap_ok, cpair_ok; [apply c_header_ok|apply cslice_tx_ok].
Qed.

Lemma legacy_sign_ok : codec_ok (cwrap legacy_sign_fields).
Proof. apply cwrap_ok. unfold legacy_sign_fields. repeat (apply cpair_ok; [leaf|]). leaf. Qed.
Lemma dyn_sign_ok : codec_ok (cwrap dyn_sign_fields).
Proof. apply cwrap_ok. unfold dyn_sign_fields. repeat (apply cpair_ok; [leaf|]). leaf. Qed.
Lemma header_sign_ok : codec_ok (cwrap header_sign_fields).
Proof. apply cwrap_ok_end. unfold header_sign_fields. repeat (apply cpair_ok_end; [leaf|]). apply c_ext_ok_end. Qed.
