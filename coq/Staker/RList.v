(* Staker/RList.v — the renewal list (renewal_list.go): abstraction as a Coq list and specifications of
   rl_contains / rl_add / rl_remove / rl_walk against it. *)
From Coq Require Import List NArith Bool Lia.
From Coq Require Import ZifyBool.
From Verif Require Import Common.Util Staker.Model Staker.Base Staker.Lists.
Import ListNotations.
Open Scope N_scope.

Lemma mget_upd m k k' v : mget (upd m k v) k' = if k =? k' then v else mget m k'.
Proof. unfold mget. rewrite get_upd. destruct (k =? k'); reflexivity. Qed.

(* rseg pv nx p h l e : following next from h visits l, each nonzero, prev pointers consistent, next after the last is e *)
Fixpoint rseg (pv nx : list (N * N)) (p h : N) (l : list N) (e : N) : Prop :=
  match l with
  | [] => h = e
  | a :: t => h = a /\ a <> 0 /\ mget pv a = p /\ rseg pv nx a (mget nx a) t e
  end.

Definition last_orN (p : N) (l : list N) : N := match l with [] => p | _ => last l 0 end.
Lemma last_orN_cons p a t : last_orN p (a :: t) = last_orN a t.
Proof. destruct t; reflexivity. Qed.
Lemma last_orN_app p l1 l2 : last_orN p (l1 ++ l2) = last_orN (last_orN p l1) l2.
Proof. revert p. induction l1 as [|a t IH]; intros p; cbn [app]; auto. rewrite last_orN_cons, IH, last_orN_cons. auto. Qed.
Lemma last_orN_snoc p l x : last_orN p (l ++ [x]) = x.
Proof. rewrite last_orN_app. reflexivity. Qed.

Lemma rseg_app pv nx p h l1 l2 e :
  rseg pv nx p h (l1 ++ l2) e <-> exists m, rseg pv nx p h l1 m /\ rseg pv nx (last_orN p l1) m l2 e.
Proof.
  revert p h. induction l1 as [|a t IH]; intros p h; cbn [app rseg].
  - split; [intros H; exists h; auto|intros [m [-> H]]; auto].
  - split.
    + intros [-> [Hz [Hp H]]]. apply IH in H as [m [H1 H2]]. exists m. rewrite last_orN_cons. auto.
    + intros [m [[-> [Hz [Hp H1]]] H2]]. repeat split; auto. apply IH. exists m. rewrite last_orN_cons in H2. auto.
Qed.

Lemma rseg_frame pv nx pv' nx' p h l e :
  rseg pv nx p h l e -> (forall a, In a l -> mget pv' a = mget pv a /\ mget nx' a = mget nx a) -> rseg pv' nx' p h l e.
Proof.
  revert p h. induction l as [|a t IH]; intros p h H F; cbn in *; auto.
  destruct H as [-> [Hz [Hp H]]]. destruct (F a (or_introl eq_refl)) as [E1 E2].
  repeat split; auto; try congruence. rewrite E2. apply IH; auto.
Qed.

Lemma rseg_nz pv nx p h l e a : rseg pv nx p h l e -> In a l -> a <> 0.
Proof.
  revert p h. induction l as [|b t IH]; intros p h H Hin; [contradiction|].
  destruct H as [_ [Hz [_ H]]]. destruct Hin as [<-|Hin]; eauto.
Qed.

Record RWF (s : st) (l : list N) : Prop := mkRWF {
  rw_seg : rseg (rprev s) (rnext s) 0 (rh s) l 0;
  rw_tail : rt s = last_orN 0 l;
  rw_nodup : NoDup l;
  rw_out : forall a, ~ In a l -> mget (rprev s) a = 0 /\ mget (rnext s) a = 0 }.

Lemma RWF_nz s l a : RWF s l -> In a l -> a <> 0.
Proof. intros H. eapply rseg_nz. apply (rw_seg _ _ H). Qed.

Lemma rseg_split_at pv nx p h l1 a l2 e :
  rseg pv nx p h (l1 ++ a :: l2) e ->
  a <> 0 /\ mget pv a = last_orN p l1 /\ rseg pv nx p h l1 a /\ rseg pv nx a (mget nx a) l2 e.
Proof. intros H. apply rseg_app in H as [m [H1 H2]]. cbn in H2. destruct H2 as [-> [Hz [Hp H2]]]. auto. Qed.

Lemma rseg_head_next pv nx p h n t e : rseg pv nx p h (n :: t) e -> h = n /\ n <> 0.
Proof. intros [-> [Hz _]]. auto. Qed.

(* membership test of the code = membership in the abstract list *)
Lemma rl_contains_iff s l k : RWF s l -> k <> 0 -> (rl_contains k s = true <-> In k l).
Proof.
  intros [Hseg Htail Hnd Hout] Hk. unfold rl_contains. apply N.eqb_neq in Hk. rewrite Hk.
  split.
  - intros H. destruct (in_dec N.eq_dec k l) as [Hin|Hn]; auto. exfalso.
    destruct (Hout k Hn) as [_ E]. rewrite E in H. cbn in H. apply N.eqb_eq in H. rewrite Htail in H.
    destruct (snoc_case l) as [->|[l' [x ->]]].
    + cbn in H. subst k. discriminate.
    + rewrite last_orN_snoc in H. subst x. apply Hn, in_or_app. right; left; auto.
  - intros Hin. apply in_split in Hin as [l1 [l2 ->]].
    destruct (rseg_split_at _ _ _ _ _ _ _ _ Hseg) as [_ [_ [_ H2]]].
    destruct l2 as [|n t].
    + rewrite Htail, last_orN_snoc. cbn in H2. rewrite H2. cbn. apply N.eqb_refl.
    + destruct (rseg_head_next _ _ _ _ _ _ _ H2) as [E Hz]. rewrite E. apply N.eqb_neq in Hz. rewrite Hz. reflexivity.
Qed.

Lemma rseg_set_last_next pv nx p h l b e x :
  rseg pv nx p h (l ++ [b]) e -> ~ In b l -> rseg pv (upd nx b x) p h (l ++ [b]) x.
Proof.
  intros H Hn. apply rseg_app in H as [m [H1 H2]]. apply rseg_app. exists m. split.
  - eapply rseg_frame; eauto. intros a Ha. split; auto. rewrite mget_upd.
    destruct (b =? a) eqn:E; auto. apply N.eqb_eq in E. subst. contradiction.
  - cbn in *. destruct H2 as [-> [Hz [Hp _]]]. repeat split; auto. rewrite mget_upd, N.eqb_refl. auto.
Qed.

Lemma rseg_set_first_prev pv nx p h n t e x :
  rseg pv nx p h (n :: t) e -> ~ In n t -> rseg (upd pv n x) nx x h (n :: t) e.
Proof.
  intros [-> [Hz [Hp H]]] Hn. repeat split; auto. { rewrite mget_upd, N.eqb_refl. auto. }
  eapply rseg_frame; eauto. intros a Ha. split; auto. rewrite mget_upd.
  destruct (n =? a) eqn:E; auto. apply N.eqb_eq in E. subst. contradiction.
Qed.

Lemma rl_add_member s l k : RWF s l -> (k = 0 \/ In k l) -> rl_add k s = s.
Proof.
  intros H [->|Hin]; unfold rl_add; [reflexivity|].
  assert (Hk : k <> 0) by (eapply RWF_nz; eauto). apply N.eqb_neq in Hk as Hk'. rewrite Hk'.
  rewrite (proj2 (rl_contains_iff s l k H Hk) Hin). reflexivity.
Qed.

Lemma rl_add_new s l k : RWF s l -> k <> 0 -> ~ In k l -> RWF (rl_add k s) (l ++ [k]).
Proof.
  intros H Hk Hn. pose proof H as [Hseg Htail Hnd Hout]. unfold rl_add.
  apply N.eqb_neq in Hk as Hk'. rewrite Hk'.
  destruct (rl_contains k s) eqn:Ec; [apply (rl_contains_iff s l k H Hk) in Ec; contradiction|].
  destruct (Hout k Hn) as [Pk Nk].
  pose proof (nodup_snoc l k Hnd Hn) as NDk.
  destruct (snoc_case l) as [->|[l' [t ->]]].
  - cbn in Htail. rewrite Htail. cbn [N.eqb]. constructor; cbn; auto.
  - rewrite last_orN_snoc in Htail.
    assert (Ht : t <> 0) by (eapply RWF_nz; eauto; apply in_or_app; right; left; auto).
    apply N.eqb_neq in Ht as Ht'. rewrite Htail, Ht'.
    apply not_in_app in Hn as [Hn1 Hn2]. assert (Htk : t <> k) by (intros ->; apply Hn2; left; auto).
    assert (Hnt : ~ In t l') by (apply NoDup_remove_2 in Hnd; rewrite app_nil_r in Hnd; auto).
    constructor; cbn [rh rt rprev rnext w_ren].
    + apply rseg_app. exists k. split.
      * eapply rseg_frame; [eapply rseg_set_last_next; eauto|]. intros a Ha. split; auto.
        rewrite mget_upd. destruct (k =? a) eqn:E; auto. apply N.eqb_eq in E. subst a.
        exfalso. apply in_app_iff in Ha as [Ha|[Ha|[]]]; auto.
      * rewrite last_orN_snoc. cbn. repeat split; auto.
        -- rewrite mget_upd, N.eqb_refl. auto.
        -- rewrite mget_upd. apply N.eqb_neq in Htk. rewrite Htk. auto.
    + rewrite last_orN_snoc. auto.
    + auto.
    + intros a Ha. apply not_in_app in Ha as [Ha1 Ha2]. apply not_in_app in Ha1 as [Ha1 Ha1'].
      assert (a <> k) by (intros ->; apply Ha2; left; auto). assert (a <> t) by (intros ->; apply Ha1'; left; auto).
      rewrite !mget_upd. apply N.eqb_neq in H0, H1. rewrite N.eqb_sym in H0. rewrite N.eqb_sym in H1. rewrite H0, H1.
      apply Hout. intros Hx. apply in_app_iff in Hx as [Hx|[Hx|[]]]; auto. apply N.eqb_neq in H1. auto.
Qed.

Lemma rl_remove_nonmember s l k : RWF s l -> ~ In k l -> rl_remove k s = s.
Proof.
  intros H Hn. unfold rl_remove. destruct (k =? 0) eqn:Ek; auto. apply N.eqb_neq in Ek.
  destruct (rl_contains k s) eqn:Ec; auto. apply (rl_contains_iff s l k H Ek) in Ec. contradiction.
Qed.

Lemma rl_remove_member s l k : RWF s l -> In k l ->
  exists l1 l2, l = l1 ++ k :: l2 /\ RWF (rl_remove k s) (l1 ++ l2) /\ ~ In k (l1 ++ l2).
Proof.
  intros H Hin. pose proof H as [Hseg Htail Hnd Hout].
  assert (Hk : k <> 0) by (eapply RWF_nz; eauto).
  destruct (in_split_nodup k l Hin Hnd) as [l1 [l2 [-> [Hn1 [Hn2 [Hnd12 Hdisj]]]]]].
  exists l1, l2. split; auto. split; [|rewrite in_app_iff; tauto].
  destruct (rseg_split_at _ _ _ _ _ _ _ _ Hseg) as [_ [Hp [Hs1 Hs2]]].
  unfold rl_remove. apply N.eqb_neq in Hk as Hk'. rewrite Hk'.
  rewrite (proj2 (rl_contains_iff s _ k H Hk) Hin). cbn [negb].
  set (p := mget (rprev s) k) in *. set (n := mget (rnext s) k) in *.
  (* the early return is not taken *)
  assert (Hgo : (p =? 0) && (n =? 0) && (negb (rh s =? k) || negb (rt s =? k)) = false).
  { destruct (p =? 0) eqn:E1; [|reflexivity]. destruct (n =? 0) eqn:E2; [|reflexivity]. cbn.
    apply N.eqb_eq in E1, E2. 
    assert (l1 = []).
    { destruct (snoc_case l1) as [->|[l' [x ->]]]; auto. rewrite last_orN_snoc in Hp.
      exfalso. assert (x <> 0) by (eapply (RWF_nz s); eauto; apply in_or_app; left; apply in_or_app; right; left; auto). congruence. }
    assert (l2 = []).
    { destruct l2 as [|y t]; auto. destruct (rseg_head_next _ _ _ _ _ _ _ Hs2) as [Ey Hy]. congruence. }
    subst. cbn in Hs1, Htail. rewrite Hs1, Htail, N.eqb_refl. reflexivity. }
  rewrite Hgo. clear Hgo.
  assert (Hl1 : l1 = [] /\ p = 0 \/ exists l1' x, l1 = l1' ++ [x] /\ p = x /\ x <> 0 /\ x <> k /\ ~ In x l1' /\ ~ In x l2).
  { destruct (snoc_case l1) as [->|[l' [x ->]]]; [left; auto|right].
    rewrite last_orN_snoc in Hp. exists l', x. split; auto. split; auto.
    assert (In x (l' ++ [x])) by (apply in_or_app; right; left; auto).
    split; [eapply (RWF_nz s); eauto; apply in_or_app; left; auto|].
    split; [intros ->; auto|]. split; [|apply Hdisj; auto].
    apply nodup_app_l in Hnd12. apply NoDup_remove_2 in Hnd12. rewrite app_nil_r in Hnd12. auto. }
  assert (Hl2 : l2 = [] /\ n = 0 \/ exists y t, l2 = y :: t /\ n = y /\ y <> 0 /\ y <> k /\ ~ In y l1 /\ ~ In y t).
  { destruct l2 as [|y t]; [left; cbn in Hs2; auto|right].
    destruct (rseg_head_next _ _ _ _ _ _ _ Hs2) as [Ey Hy]. exists y, t. split; auto. split; auto. split; auto.
    split; [intros ->; apply Hn2; left; auto|]. split; [intros Hx; apply (Hdisj y Hx); left; auto|].
    apply nodup_app_r in Hnd12. inversion Hnd12; auto. }
  destruct Hl1 as [[-> Ep]|[l1' [x [-> [Ep [Hx0 [Hxk [Hxl Hx2]]]]]]]];
  destruct Hl2 as [[-> En]|[y [t [-> [En [Hy0 [Hyk [Hy1 Hyt]]]]]]]]; rewrite Ep, En in *; clear Ep En.
  - (* only element *)
    cbn [N.eqb]. constructor; cbn; auto.
    intros a _. rewrite !mget_upd. destruct (k =? a) eqn:E; auto. apply N.eqb_neq in E.
    apply Hout. intros [<-|[]]. congruence.
  - (* head, with successor y *)
    cbn [N.eqb]. apply N.eqb_neq in Hy0 as Hy0'. rewrite Hy0'.
    constructor; cbn [rh rt rprev rnext w_ren app].
    + eapply rseg_frame with (pv := upd (rprev s) y 0) (nx := rnext s).
      * eapply rseg_set_first_prev; eauto.
      * intros a Ha. rewrite !mget_upd. assert (k <> a) by (intros ->; apply Hn2; auto).
        apply N.eqb_neq in H0. rewrite H0. auto.
    + rewrite Htail. cbn [app]. rewrite !last_orN_cons. reflexivity.
    + auto.
    + intros a Ha. rewrite !mget_upd. destruct (k =? a) eqn:E; [split; auto; destruct (y =? a); auto|].
      apply N.eqb_neq in E. assert (y <> a) by (intros ->; apply Ha; left; auto). apply N.eqb_neq in H0. rewrite H0.
      apply Hout. intros [<-|Hx]; [congruence|auto].
  - (* tail, with predecessor x *)
    apply N.eqb_neq in Hx0 as Hx0'. rewrite Hx0'. cbn [N.eqb].
    constructor; cbn [rh rt rprev rnext w_ren]; rewrite ?app_nil_r in *.
    + eapply rseg_frame with (pv := rprev s) (nx := upd (rnext s) x 0).
      * eapply rseg_set_last_next; eauto.
      * intros a Ha. rewrite !mget_upd. assert (k <> a) by (intros ->; auto).
        apply N.eqb_neq in H0. rewrite H0. auto.
    + rewrite last_orN_snoc. auto.
    + auto.
    + intros a Ha. rewrite !mget_upd. destruct (k =? a) eqn:E; [split; auto|].
      apply N.eqb_neq in E. assert (x <> a) by (intros ->; apply Ha, in_or_app; right; left; auto). apply N.eqb_neq in H0. rewrite H0.
      apply Hout. intros Hz. apply in_app_iff in Hz as [Hz|[<-|[]]]; auto; congruence.
  - (* middle *)
    apply N.eqb_neq in Hx0 as Hx0'. apply N.eqb_neq in Hy0 as Hy0'. rewrite Hx0', Hy0'.
    constructor; cbn [rh rt rprev rnext w_ren].
    + apply rseg_app. exists y. split.
      * eapply rseg_frame with (pv := rprev s) (nx := upd (rnext s) x y).
        -- eapply rseg_set_last_next; eauto.
        -- intros a Ha. rewrite !mget_upd. assert (k <> a) by (intros ->; auto). assert (y <> a) by (intros ->; auto).
           apply N.eqb_neq in H0, H1. rewrite H0, H1. auto.
      * rewrite last_orN_snoc. eapply rseg_frame with (pv := upd (rprev s) y x) (nx := rnext s).
        -- eapply rseg_set_first_prev; eauto.
        -- intros a Ha. rewrite !mget_upd. assert (k <> a) by (intros ->; apply Hn2; auto).
           assert (x <> a) by (intros ->; auto). apply N.eqb_neq in H0, H1. rewrite H0, H1. auto.
    + rewrite Htail. rewrite !last_orN_app. cbn [app]. rewrite !last_orN_cons. reflexivity.
    + auto.
    + intros a Ha. rewrite !mget_upd. destruct (k =? a) eqn:E; [split; auto|].
      apply N.eqb_neq in E.
      assert (x <> a) by (intros ->; apply Ha, in_or_app; left; apply in_or_app; right; left; auto).
      assert (y <> a) by (intros ->; apply Ha, in_or_app; right; left; auto).
      apply N.eqb_neq in H0, H1. rewrite H0, H1. apply Hout. intros Hz.
      apply in_app_iff in Hz as [Hz|[<-|Hz]]; [|congruence|]; apply Ha, in_or_app; auto.
Qed.

Lemma rl_walk_rseg s p h l fuel r :
  rseg (rprev s) (rnext s) p h l 0 -> rl_walk fuel h s = Ok r -> r = l.
Proof.
  revert p h l r. induction fuel as [|f IH]; intros p h l r Hs Hw.
  - cbn in Hw. destruct (h =? 0) eqn:E; [|discriminate]. inversion Hw; subst. apply N.eqb_eq in E. subst.
    destruct l; auto. cbn in Hs. destruct Hs as [<- [Hz _]]. congruence.
  - cbn in Hw. destruct (h =? 0) eqn:E.
    + inversion Hw; subst. apply N.eqb_eq in E. subst. destruct l; auto. cbn in Hs. destruct Hs as [<- [Hz _]]. congruence.
    + apply N.eqb_neq in E. destruct l as [|a t]; [cbn in Hs; congruence|].
      cbn in Hs. destruct Hs as [-> [Hz [Hp Hs]]].
      apply bind_ok in Hw as [r' [Hr Hw]]. inversion Hw; subst. f_equal. eapply IH; eauto.
Qed.

Lemma rl_walk_ok s p h l fuel :
  rseg (rprev s) (rnext s) p h l 0 -> (length l <= fuel)%nat -> rl_walk fuel h s = Ok l.
Proof.
  revert p h fuel. induction l as [|a t IH]; intros p h fuel Hs Hf.
  - cbn in Hs. subst h. destruct fuel; reflexivity.
  - cbn in Hs. destruct Hs as [-> [Hz [Hp Hs]]]. destruct fuel as [|f]; [cbn in Hf; lia|].
    cbn [rl_walk]. apply N.eqb_neq in Hz. rewrite Hz. rewrite (IH a (mget (rnext s) a) f Hs); [reflexivity|cbn in Hf; lia].
Qed.

Lemma mget_nonzero_key m k : mget m k <> 0 -> In k (map fst m).
Proof.
  unfold mget. destruct (get m k) eqn:E; [intros _; apply (get_some_in_keys _ _ _ E)|congruence].
Qed.

Lemma rl_iterate_ok s l : RWF s l -> rl_iterate s = Ok l.
Proof.
  intros [Hseg Htail Hnd Hout]. unfold rl_iterate. eapply rl_walk_ok; eauto.
  destruct (snoc_case l) as [->|[l' [x ->]]]; [cbn; lia|].
  rewrite app_length. cbn [length].
  assert (Hl : (length l' <= length (map fst (rnext s)))%nat).
  { apply NoDup_incl_length; [apply nodup_app_l in Hnd; auto|].
    intros a Ha. apply mget_nonzero_key. apply in_split in Ha as [l1 [l2 ->]].
    rewrite <- app_assoc in Hseg. cbn [app] in Hseg.
    destruct (rseg_split_at _ _ _ _ _ _ _ _ Hseg) as [_ [_ [_ H2]]].
    destruct (l2 ++ [x]) as [|y t] eqn:E; [destruct l2; discriminate|].
    destruct (rseg_head_next _ _ _ _ _ _ _ H2) as [Ey Hy]. congruence. }
  rewrite map_length in Hl. lia.
Qed.

Lemma rl_iterate_spec s l r : RWF s l -> rl_iterate s = Ok r -> r = l.
Proof. intros H E. rewrite (rl_iterate_ok s l H) in E. inversion E. reflexivity. Qed.
