(* LogDB/Proofs.v — sequence packing, filters as subsequences, table-level facts about INSERT OR IGNORE and Truncate (C15 item 3), and the insert lemmas, generic in the table, that
   the canonical-tables proofs use. *)
From Coq Require Import List NArith ZArith Bool Lia ZifyN ZifyNat ZifyBool Sorted.
From Verif Require Import Chain.Model LogDB.Model.
Import ListNotations.
Open Scope N_scope.
Local Ltac Zify.zify_post_hook ::= Z.div_mod_to_equations.

Definition seq_ok (b t l : N) : Prop := b <= max_block /\ t <= max_txi /\ l <= max_logi.

Lemma seq_of_some b t l : seq_ok b t l -> seq_of b t l = Some (b * 34359738368 + t * 1048576 + l).
Proof.
  unfold seq_ok, seq_of, max_block, max_txi, max_logi. intros [Hb [Ht Hl]].
  destruct (N.ltb_spec 268435455 b); [lia|]. destruct (N.ltb_spec 32767 t); [lia|]. destruct (N.ltb_spec 1048575 l); [lia|]. reflexivity.
Qed.
Lemma seq_of_none b t l : ~ seq_ok b t l -> seq_of b t l = None.
Proof.
  unfold seq_ok, seq_of, max_block, max_txi, max_logi. intros H.
  destruct (N.ltb_spec 268435455 b); [reflexivity|]. destruct (N.ltb_spec 32767 t); [reflexivity|].
  destruct (N.ltb_spec 1048575 l); [reflexivity|]. lia.
Qed.
Lemma seq_of_inv b t l s : seq_of b t l = Some s -> seq_ok b t l /\ s = b * 34359738368 + t * 1048576 + l.
Proof.
  unfold seq_ok, seq_of, max_block, max_txi, max_logi.
  destruct (N.ltb_spec 268435455 b); [discriminate|]. destruct (N.ltb_spec 32767 t); [discriminate|].
  destruct (N.ltb_spec 1048575 l); [discriminate|]. intros E. injection E as <-. lia.
Qed.

Lemma seq_pack_inj_mono_lemma b1 t1 l1 s1 b2 t2 l2 s2 :
  seq_of b1 t1 l1 = Some s1 -> seq_of b2 t2 l2 = Some s2 ->
  (s1 < s2 <-> b1 < b2 \/ (b1 = b2 /\ (t1 < t2 \/ (t1 = t2 /\ l1 < l2)))) /\
  (s1 = s2 -> b1 = b2 /\ t1 = t2 /\ l1 = l2) /\
  seq_block s1 = b1 /\ seq_txi s1 = t1 /\ seq_logi s1 = l1 /\ s1 < 9223372036854775808.
Proof.
  intros H1 H2. apply seq_of_inv in H1. apply seq_of_inv in H2.
  destruct H1 as [[A1 [A2 A3]] ->]. destruct H2 as [[B1 [B2 B3]] ->].
  unfold seq_block, seq_txi, seq_logi, max_block, max_txi, max_logi in *. repeat split; try lia.
Qed.

Inductive sublist {A} : list A -> list A -> Prop :=
| sub_nil : sublist [] []
| sub_skip x l m : sublist l m -> sublist l (x :: m)
| sub_take x l m : sublist l m -> sublist (x :: l) (x :: m).

Lemma sublist_refl {A} (l : list A) : sublist l l.
Proof. induction l; [constructor | apply sub_take; assumption]. Qed.
Lemma sublist_nil {A} (l : list A) : sublist [] l.
Proof. induction l; [constructor | apply sub_skip; assumption]. Qed.
Lemma sublist_trans {A} (a b c : list A) : sublist a b -> sublist b c -> sublist a c.
Proof.
  intros H1 H2. revert a H1. induction H2; intros a H1.
  - exact H1.
  - apply sub_skip. apply IHsublist. exact H1.
  - inversion H1; subst; [apply sub_skip; apply IHsublist; assumption | apply sub_take; apply IHsublist; assumption].
Qed.
Lemma sublist_filter {A} (f : A -> bool) l : sublist (filter f l) l.
Proof. induction l as [|x l IH]; cbn; [constructor|]. destruct (f x); [apply sub_take | apply sub_skip]; exact IH. Qed.
Lemma sublist_dropN {A} (l : list A) : forall n, sublist (dropN n l) l.
Proof. induction l as [|x l IH]; intros n; cbn; [constructor|]. destruct (n =? 0); [apply sublist_refl | apply sub_skip; apply IH]. Qed.
Lemma sublist_takeN {A} (l : list A) : forall n, sublist (takeN n l) l.
Proof. induction l as [|x l IH]; intros n; cbn; [constructor|]. destruct (n =? 0); [apply sublist_nil | apply sub_take; apply IH]. Qed.
Lemma sublist_in {A} (a b : list A) x : sublist a b -> In x a -> In x b.
Proof. induction 1; cbn; intuition. Qed.
Lemma sublist_app {A} (a b c d : list A) : sublist a b -> sublist c d -> sublist (a ++ c) (b ++ d).
Proof. induction 1; cbn; intros; [assumption | apply sub_skip; auto | apply sub_take; auto]. Qed.
Lemma sublist_rev {A} (a b : list A) : sublist a b -> sublist (rev a) (rev b).
Proof.
  induction 1; cbn; [constructor| |].
  - rewrite <- (app_nil_r (rev l)). apply sublist_app; [assumption | apply sub_skip; constructor].
  - apply sublist_app; [assumption | apply sublist_refl].
Qed.

Definition in_range (o : fopts) (s : N) : Prop :=
  match fo_range o with
  | None => True
  | Some (from, to) => exists lo hi, seq_of from 0 0 = Some lo /\ seq_of to max_txi max_logi = Some hi /\ lo <= s <= hi
  end.

(* every filter result is an order-preserving subsequence of the table (of the reversed table for DESC) whose
   rows all satisfy range and criteria; without LIMIT it contains every such row; with LIMIT off,lim it is exactly
   the window [off, off+lim) of that list *)
Lemma run_filter_spec {A} (seq : A -> N) (crit : A -> bool) (o : fopts) (rows out : list A) :
  run_filter seq crit o rows = Some out ->
  exists full,
    sublist full (if fo_desc o then rev rows else rows) /\
    (forall x, In x full <-> In x rows /\ crit x = true /\ in_range o (seq x)) /\
    out = match fo_page o with None => full | Some (off, lim) => takeN lim (dropN off full) end /\
    sublist out full.
Proof.
  unfold run_filter. intros H.
  set (ranged := match fo_range o with
                 | None => Some rows
                 | Some (from, to) => match seq_of from 0 0, seq_of to max_txi max_logi with
                                      | Some lo, Some hi => Some (filter (fun x => (lo <=? seq x) && (seq x <=? hi)) rows)
                                      | _, _ => None end end) in *.
  destruct ranged as [rs|] eqn:Er; [|discriminate].
  assert (Hrs : sublist rs rows /\ forall x, In x rs <-> In x rows /\ in_range o (seq x)).
  { unfold ranged, in_range in *. destruct (fo_range o) as [[from to]|].
    - destruct (seq_of from 0 0) as [lo|]; [|discriminate]. destruct (seq_of to max_txi max_logi) as [hi|]; [|discriminate].
      injection Er as <-. split; [apply sublist_filter|]. intros x. rewrite filter_In, andb_true_iff, !N.leb_le. split.
      + intros [Hin [H1 H2]]. split; [exact Hin|]. exists lo, hi. auto.
      + intros [Hin [lo' [hi' [E1 [E2 Hr]]]]]. injection E1 as <-. injection E2 as <-. tauto.
    - injection Er as <-. split; [apply sublist_refl|]. tauto. }
  destruct Hrs as [S1 M1].
  exists (if fo_desc o then rev (filter crit rs) else filter crit rs). split; [|split; [|split]].
  - destruct (fo_desc o); [apply sublist_rev|]; (eapply sublist_trans; [apply sublist_filter | exact S1]).
  - intros x. assert (In x (filter crit rs) <-> In x rows /\ crit x = true /\ in_range o (seq x)) by (rewrite filter_In, M1; tauto).
    destruct (fo_desc o); [rewrite <- in_rev|]; exact H0.
  - destruct (fo_page o) as [[off lim]|]; [|congruence].
    destruct ((two63 <=? off) || (two63 <=? lim)); [discriminate | congruence].
  - destruct (fo_page o) as [[off lim]|]; [|injection H as <-; apply sublist_refl].
    destruct ((two63 <=? off) || (two63 <=? lim)); [discriminate|]. injection H as <-.
    eapply sublist_trans; [apply sublist_takeN | apply sublist_dropN].
Qed.

Lemma filter_id {A} (f : A -> bool) l : (forall x, In x l -> f x = true) -> filter f l = l.
Proof.
  induction l as [|a l IH]; intros H; cbn [filter]; [reflexivity|]. rewrite (H a (or_introl eq_refl)).
  f_equal. apply IH. intros x Hx. apply H. right. exact Hx.
Qed.
Lemma filter_none {A} (f : A -> bool) l : (forall x, In x l -> f x = false) -> filter f l = [].
Proof.
  induction l as [|a l IH]; intros H; cbn [filter]; [reflexivity|]. rewrite (H a (or_introl eq_refl)).
  apply IH. intros x Hx. apply H. right. exact Hx.
Qed.

(* both tables at once: a table keyed by `key` whose INSERT OR IGNORE is `ins` *)
Section Ins.
  Context {A : Type} (key : A -> N).

  (* keys strictly ascending, all in [k, k') *)
  Fixpoint asc_in (k k' : N) (rows : list A) : Prop :=
    match rows with [] => k <= k' | x :: t => k <= key x /\ asc_in (key x + 1) k' t end.

  Lemma asc_in_app m m' k' a b : m <= m' -> asc_in m' k' b -> forall k, asc_in k m a -> asc_in k k' (a ++ b).
  Proof.
    intros Hm Hb. induction a as [|x a IH]; intros k Ha; cbn [asc_in app] in *.
    - destruct b; cbn [asc_in] in *; [lia | split; [lia | apply Hb]].
    - split; [apply Ha | apply IH, Ha].
  Qed.

  Variable ins : A -> list A -> list A.
  Hypothesis ins_eq : forall x l, ins x l =
    match l with [] => [x] | y :: t => if key x =? key y then l else if key x <? key y then x :: l else y :: ins x t end.

  Lemma ins_in_weak x l y : In y (ins x l) -> y = x \/ In y l.
  Proof.
    induction l as [|h t IH]; rewrite ins_eq; cbn [In]; [intros [<-|[]]; left; reflexivity|].
    destruct (key x =? key h); [cbn [In]; tauto|].
    destruct (key x <? key h); cbn [In]; [intros [<-|H]; [left; reflexivity | right; exact H]|].
    intros [<-|H]; [tauto|]. destruct (IH H); tauto.
  Qed.

  Lemma ins_frame x l0 l : (forall y, In y l0 -> key y < key x) -> ins x (l0 ++ l) = l0 ++ ins x l.
  Proof.
    induction l0 as [|h t IH]; intros H; [reflexivity|]. cbn [app]. rewrite ins_eq.
    pose proof (H h (or_introl eq_refl)). destruct (N.eqb_spec (key x) (key h)); [lia|].
    destruct (N.ltb_spec (key x) (key h)); [lia|]. f_equal. apply IH. intros y Hy. apply H. right. exact Hy.
  Qed.

  Lemma ins_sorted x l : StronglySorted (fun a b => key a < key b) l -> StronglySorted (fun a b => key a < key b) (ins x l).
  Proof.
    induction l as [|h t IH]; intros S; rewrite ins_eq; [repeat constructor|].
    inversion S as [|h' t' St Ft]; subst.
    destruct (N.eqb_spec (key x) (key h)) as [E|NE]; [exact S|].
    destruct (N.ltb_spec (key x) (key h)) as [Hlt|Hge].
    - constructor; [exact S|]. constructor; [exact Hlt|]. rewrite Forall_forall in *. intros z Hz. specialize (Ft z Hz). lia.
    - constructor; [apply IH; exact St|]. rewrite Forall_forall in *. intros z Hz.
      apply ins_in_weak in Hz. destruct Hz as [->|Hz]; [lia | apply Ft; exact Hz].
  Qed.

  Lemma filter_ins s x l : s <= key x -> filter (fun y => key y <? s) (ins x l) = filter (fun y => key y <? s) l.
  Proof.
    intros Hx. assert (Fx : (key x <? s) = false) by (apply N.ltb_ge; exact Hx).
    induction l as [|h t IH]; rewrite ins_eq; cbn [filter]; [rewrite Fx; reflexivity|].
    destruct (key x =? key h); [reflexivity|]. destruct (key x <? key h); cbn [filter]; [rewrite Fx | rewrite IH]; reflexivity.
  Qed.

  Definition puts (rows l : list A) : list A := fold_left (fun l x => ins x l) rows l.

  Lemma puts_frame k l0 rows : (forall y, In y l0 -> key y < k) -> Forall (fun x => k <= key x) rows ->
    forall l, puts rows (l0 ++ l) = l0 ++ puts rows l.
  Proof.
    intros H0. induction 1 as [|x rows Hx _ IH]; intros l; cbn [puts fold_left]; [reflexivity|].
    rewrite ins_frame by (intros y Hy; specialize (H0 y Hy); lia). apply IH.
  Qed.

  Lemma puts_append rows : forall l k k', (forall y, In y l -> key y < k) -> asc_in k k' rows -> puts rows l = l ++ rows.
  Proof.
    induction rows as [|x rows IH]; intros l k k' Hl H; [symmetry; apply app_nil_r|].
    destruct H as [Hx H]. change (puts (x :: rows) l) with (puts rows (ins x l)). rewrite <- (app_nil_r l) at 1. rewrite ins_frame, ins_eq by (intros y Hy; specialize (Hl y Hy); lia).
    rewrite (IH (l ++ [x]) (key x + 1) k'), <- app_assoc; [reflexivity | | exact H].
    intros y Hy. apply in_app_or in Hy. destruct Hy as [Hy|[<-|[]]]; [specialize (Hl y Hy)|]; lia.
  Qed.
End Ins.

Lemma ins_ev_eq x l : ins_ev x l =
  match l with [] => [x] | y :: t => if er_seq x =? er_seq y then l else if er_seq x <? er_seq y then x :: l else y :: ins_ev x t end.
Proof. destruct l; reflexivity. Qed.
Lemma ins_tr_eq x l : ins_tr x l =
  match l with [] => [x] | y :: t => if tr_seq x =? tr_seq y then l else if tr_seq x <? tr_seq y then x :: l else y :: ins_tr x t end.
Proof. destruct l; reflexivity. Qed.
Definition ins_ev_in_weak := ins_in_weak er_seq ins_ev ins_ev_eq.
Definition ins_tr_in_weak := ins_in_weak tr_seq ins_tr ins_tr_eq.

Definition ev_sorted (l : list evrow) : Prop := StronglySorted (fun a b => er_seq a < er_seq b) l.

Lemma ins_ev_keeps x l y : In y l -> In y (ins_ev x l).
Proof.
  induction l as [|h t IH]; cbn [ins_ev In]; [tauto|].
  destruct (er_seq x =? er_seq h); [cbn [In]; tauto|]. destruct (er_seq x <? er_seq h); cbn [In]; [tauto|].
  intros [<-|H]; [tauto | right; apply IH; exact H].
Qed.

Lemma ins_ev_sorted x l : ev_sorted l -> ev_sorted (ins_ev x l).
Proof. exact (ins_sorted er_seq ins_ev ins_ev_eq x l). Qed.

(* where OR IGNORE bites: a row whose position key is already present is silently dropped, the stale row stays *)
Lemma ins_ev_stale x l z : ev_sorted l -> In z l -> er_seq z = er_seq x -> ins_ev x l = l.
Proof.
  unfold ev_sorted. induction l as [|h t IH]; intros S Hz E; [destruct Hz|]. cbn [ins_ev].
  inversion S as [|h' t' St Ft]; subst.
  destruct (N.eqb_spec (er_seq x) (er_seq h)) as [_|NE]; [reflexivity|].
  destruct Hz as [<-|Hz]; [congruence|].
  rewrite Forall_forall in Ft. specialize (Ft z Hz).
  destruct (N.ltb_spec (er_seq x) (er_seq h)); [lia|]. f_equal. eapply IH; eauto.
Qed.

Lemma ins_ev_fresh x l : (forall z, In z l -> er_seq z <> er_seq x) -> In x (ins_ev x l).
Proof.
  induction l as [|h t IH]; intros H; cbn [ins_ev]; [left; reflexivity|].
  destruct (N.eqb_spec (er_seq x) (er_seq h)) as [E|NE]; [exfalso; apply (H h); [left; reflexivity | congruence]|].
  destruct (er_seq x <? er_seq h); [left; reflexivity|]. right. apply IH. intros z Hz. apply H. right. exact Hz.
Qed.

(* Truncate(n) keeps exactly the rows of blocks below n; so every later insert for a block >= n is fresh *)
Lemma truncate_spec n db db' : truncate n db = Some db' ->
  (n <= max_block) /\
  (forall x : evrow, In x (db_events db') <-> In x (db_events db) /\ er_seq x < n * 34359738368) /\
  (forall x : trrow, In x (db_transfers db') <-> In x (db_transfers db) /\ tr_seq x < n * 34359738368).
Proof.
  unfold truncate. destruct (seq_of n 0 0) as [s|] eqn:E; [|discriminate]. intros H. injection H as <-.
  apply seq_of_inv in E. destruct E as [[Hn _] ->]. split; [exact Hn|]. cbn [db_events db_transfers].
  split; intros x; rewrite filter_In, N.ltb_lt; split; intros [H1 H2]; split; auto; lia.
Qed.

Lemma truncate_sorted n db db' : truncate n db = Some db' -> ev_sorted (db_events db) -> ev_sorted (db_events db').
Proof.
  unfold truncate. destruct (seq_of n 0 0) as [s|]; [|discriminate]. intros H. injection H as <-. cbn [db_events].
  unfold ev_sorted. induction 1 as [|h t St IH Ft]; cbn [filter]; [constructor|].
  destruct (er_seq h <? s); [|exact IH]. constructor; [exact IH|].
  rewrite Forall_forall in *. intros z Hz. apply filter_In in Hz. apply Ft. apply Hz.
Qed.

Lemma no_stale_after_truncate n db db' b t l s x :
  truncate n db = Some db' -> n <= b -> seq_of b t l = Some s -> er_seq x = s ->
  In x (ins_ev x (db_events db')).
Proof.
  intros T Hb E Ex. apply ins_ev_fresh. intros z Hz. destruct (truncate_spec _ _ _ T) as [_ [He _]].
  apply He in Hz. destruct Hz as [_ Hlt]. apply seq_of_inv in E. destruct E as [_ ->]. lia.
Qed.
