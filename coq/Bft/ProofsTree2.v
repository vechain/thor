(* Bft/ProofsTree2.v — more block-tree facts used by the run-level arguments: chains do not depend on which well-formed
   super-repository they are computed in; blocks of one chain are comparable; has_block is transitive; every stored block
   has a leaf above it. *)
From Coq Require Import List NArith ZArith Bool Lia.
From Coq Require Import ZifyN ZifyNat ZifyBool.
From Verif Require Import Common.Util Bft.Tree Bft.Model Bft.Quorum Bft.ProofsTally Bft.ProofsChain Bft.ProofsSuffix
  Bft.ProofsNode Bft.ProofsFinal Bft.ProofsMonotone Bft.Safety.
Import ListNotations.
Open Scope N_scope.

Lemma blk_eqb_eq a b : blk_eqb a b = true -> a = b.
Proof.
  unfold blk_eqb. intros H. repeat (apply andb_prop in H; destruct H as [H ?]).
  destruct a, b; cbn in *. apply N.eqb_eq in H, H3, H2, H0. apply eqb_prop in H1. subst. reflexivity.
Qed.

Lemma stored_unique r x y : wf_repo r -> In x r -> In y r -> b_id x = b_id y -> x = y.
Proof.
  intros Hwf Hx Hy E. pose proof (chain_of_stored r x Hwf Hx) as F1. pose proof (chain_of_stored r y Hwf Hy) as F2.
  rewrite E, F2 in F1. inversion F1. reflexivity.
Qed.

(* a grounded chain inside a well-formed repository is determined by its head *)
Lemma grounded_chain_unique s : wf_repo s -> forall l1 l2 x t1 t2, l1 = x :: t1 -> l2 = x :: t2 ->
  grounded l1 -> grounded l2 -> incl l1 s -> incl l2 s -> l1 = l2.
Proof.
  intros Hwf l1. induction l1 as [|a l1 IH]; intros l2 x t1 t2 E1 E2 G1 G2 I1 I2; [discriminate|].
  inversion E1; subst a l1. subst l2. f_equal.
  destruct t1 as [|p1 t1'], t2 as [|p2 t2']; [reflexivity | | |].
  - cbn in G1, G2. lia.
  - cbn in G1, G2. lia.
  - pose proof G1 as G1'. pose proof G2 as G2'. cbn in G1, G2. destruct G1 as [P1 [N1 G1]]. destruct G2 as [P2 [N2 G2]].
    assert (Hp : p1 = p2).
    { apply (stored_unique s); [exact Hwf | apply I1; right; left; reflexivity | apply I2; right; left; reflexivity | congruence]. }
    subst p2. apply (IH (p1 :: t2') p1 t1' t2' eq_refl eq_refl).
    + exact (grounded_tail _ _ _ G1').
    + exact (grounded_tail _ _ _ G2').
    + intros z Hz. apply I1. right. exact Hz.
    + intros z Hz. apply I2. right. exact Hz.
Qed.

Lemma sub_chain r s x : wf_repo r -> wf_repo s -> incl r s -> In x r -> chain_of r (b_id x) = chain_of s (b_id x).
Proof.
  intros Wr Ws Hsub Hx.
  destruct (chain_of_in r x Wr Hx) as [t1 [E1 G1]]. destruct (chain_of_in s x Ws (Hsub x Hx)) as [t2 [E2 G2]].
  rewrite E1, E2. apply (grounded_chain_unique s Ws _ _ x t1 t2 eq_refl eq_refl G1 G2).
  - rewrite <- E1. intros z Hz. apply Hsub. exact (chain_incl _ _ _ Hz).
  - rewrite <- E2. intros z Hz. exact (chain_incl _ _ _ Hz).
Qed.

Lemma sub_has_block r s x id : wf_repo r -> wf_repo s -> incl r s -> In x r ->
  has_block r (b_id x) id = has_block s (b_id x) id.
Proof. intros Wr Ws Hsub Hx. unfold has_block. rewrite (sub_chain r s x Wr Ws Hsub Hx). reflexivity. Qed.

Lemma sub_block_at r s x n : wf_repo r -> wf_repo s -> incl r s -> In x r ->
  block_at r (b_id x) n = block_at s (b_id x) n.
Proof. intros Wr Ws Hsub Hx. unfold block_at. rewrite (sub_chain r s x Wr Ws Hsub Hx). reflexivity. Qed.

Lemma block_at_exists r x n : wf_repo r -> In x r -> n <= b_num x ->
  exists y, block_at r (b_id x) n = Some y /\ b_num y = n /\ In y (chain_of r (b_id x)).
Proof.
  intros Hwf Hx Hn.
  destruct (chain_at r (b_id x) x n Hwf (chain_of_stored r x Hwf Hx) Hn) as [l1 [y [l2 [E [Hy [_ [Hb _]]]]]]].
  exists y. split; [exact Hb|]. split; [exact Hy|]. rewrite E, in_app_iff. right. left. reflexivity.
Qed.

Lemma has_block_iff_in r x y : wf_repo r -> In x r -> In y r ->
  (has_block r (b_id x) (b_id y) = true <-> In y (chain_of r (b_id x))).
Proof.
  intros Hwf Hx Hy. split.
  - intros H. destruct (has_block_stored _ _ _ H) as [z [Hz E]].
    rewrite (stored_unique r y z Hwf Hy (chain_incl _ _ _ Hz) (eq_sym E)). exact Hz.
  - intros Hin. destruct (chain_of_in r x Hwf Hx) as [t [Ht Hg]].
    unfold has_block, chain_has. change (idnum (b_id y)) with (b_num y).
    rewrite Ht in *. rewrite (at_num_self (x :: t) Hg y Hin). apply N.eqb_refl.
Qed.

(* two stored blocks on one chain are comparable: the higher one has the lower one on its chain *)
Lemma chain_members_comparable r t x y : wf_repo r -> In t r -> In x (chain_of r (b_id t)) -> In y (chain_of r (b_id t)) ->
  b_num y <= b_num x -> has_block r (b_id x) (b_id y) = true.
Proof.
  intros Hwf Ht Hx Hy Hle.
  pose proof (chain_incl _ _ _ Hy) as Hyr.
  apply (has_block_inner r (b_id t) x (b_id y) Hwf Hx Hle); [exists t; exact (chain_of_stored r t Hwf Ht)|].
  apply (has_block_iff_in r t y Hwf Ht Hyr). exact Hy.
Qed.

Lemma on_one_chain r t x y : wf_repo r -> In t r -> In x r -> In y r ->
  has_block r (b_id t) (b_id x) = true -> has_block r (b_id t) (b_id y) = true ->
  has_block r (b_id x) (b_id y) = true \/ has_block r (b_id y) (b_id x) = true.
Proof.
  intros Hwf Ht Hx Hy H1 H2.
  apply (has_block_iff_in r t x Hwf Ht Hx) in H1. apply (has_block_iff_in r t y Hwf Ht Hy) in H2.
  destruct (N.le_ge_cases (b_num y) (b_num x)) as [H|H]; [left | right];
    apply (chain_members_comparable r t); assumption.
Qed.

Lemma has_block_trans r x y z : wf_repo r -> In x r -> In y r -> In z r ->
  has_block r (b_id x) (b_id y) = true -> has_block r (b_id y) (b_id z) = true -> has_block r (b_id x) (b_id z) = true.
Proof.
  intros Hwf Hx Hy Hz H1 H2.
  destruct (ancestor_suffix r (b_id x) y Hwf H1) as [l1 E].
  apply (has_block_iff_in r y z Hwf Hy Hz) in H2.
  apply (has_block_iff_in r x z Hwf Hx Hz). rewrite E, in_app_iff. right. exact H2.
Qed.

Lemma has_block_num r x y : wf_repo r -> In x r -> In y r -> has_block r (b_id x) (b_id y) = true -> b_num y <= b_num x.
Proof.
  intros Hwf Hx Hy H. apply (has_block_iff_in r x y Hwf Hx Hy) in H. exact (chain_num_le r x y Hwf Hx H).
Qed.

(* conflict is symmetric and excluded by comparability *)
Lemma no_conflict_of_comparable r a b :
  has_block r a b = true \/ has_block r b a = true -> conflict r a b = false.
Proof. unfold conflict. intros [H|H]; rewrite H; cbn; [reflexivity | apply andb_false_r]. Qed.

(* the chain of a stored block continues with the chain of its parent *)
Lemma chain_step r x p : wf_repo r -> In x r -> In p r -> b_parent x = b_id p -> 0 < b_num x ->
  chain_of r (b_id x) = x :: chain_of r (b_id p).
Proof.
  intros Hwf Hx Hp E Hpos. destruct (chain_of_in r x Hwf Hx) as [t [Ht Hg]].
  destruct t as [|p' t']; [cbn in Hg; lia|].
  pose proof Hg as Hg'. cbn in Hg. destruct Hg as [Hpar _].
  assert (Hp' : In p' r). { apply (chain_incl r (b_id x)). rewrite Ht. right. left. reflexivity. }
  assert (p' = p) by (apply (stored_unique r); [exact Hwf | exact Hp' | exact Hp | congruence]). subst p'.
  rewrite Ht. f_equal. symmetry. apply (chain_suffix r Hwf (b_id x) [x] p t'). exact Ht.
Qed.

(* a child stored in a well-formed repository sits above its parent, so every block has a leaf above it *)
Lemma child_above l1 x l2 ch : wf_repo (l1 ++ x :: l2) -> In ch (l1 ++ x :: l2) -> b_parent ch = b_id x -> 0 < b_num ch -> In ch l1.
Proof.
  induction l1 as [|h l1 IH]; intros Hwf Hin E Hpos.
  - cbn [app] in *. exfalso. destruct Hin as [<-|Hin].
    + (* x its own parent *) cbn in Hwf. destruct Hwf as [Hw [Hf Hp]]. destruct l2 as [|z l2']; [lia|].
      destruct Hp as [p [Hp _]]. destruct (find_blk_id _ _ _ Hp) as [Hid Hpin]. apply known_in in Hpin. rewrite Hid, E in Hpin.
      rewrite Hpin in Hf. discriminate.
    + (* ch below x: its parent is below ch, but x is above *)
      cbn in Hwf. destruct Hwf as [Hw [Hf _]].
      destruct (in_split _ _ Hin) as [la [lb Es]]. rewrite Es in Hw.
      assert (Hw2 : wf_repo (ch :: lb)).
      { clear -Hw. induction la as [|a la IH]; [exact Hw|]. cbn [app] in Hw. cbn in Hw. apply IH. tauto. }
      cbn in Hw2. destruct Hw2 as [_ [_ Hp]]. destruct lb as [|z lb']; [lia|].
      destruct Hp as [p [Hp _]]. destruct (find_blk_id _ _ _ Hp) as [Hid Hpin].
      assert (In p l2). { rewrite Es, in_app_iff. right. right. exact Hpin. }
      apply known_in in H. rewrite Hid, E in H. rewrite H in Hf. discriminate.
  - cbn [app] in *. destruct Hin as [<-|Hin]; [left; reflexivity|]. right. cbn in Hwf. apply IH; tauto.
Qed.

Lemma leaf_above r : wf_repo r ->
  (forall z, In z r -> b_num z = 0 -> known r (b_parent z) = false) ->   (* the root names no stored block as its parent *)
  forall x, In x r -> exists h, In h r /\ is_leaf r h = true /\ In x (chain_of r (b_id h)).
Proof.
  intros Hwf Hroot.
  assert (Hgen : forall n l1 x l2, length l1 = n -> r = l1 ++ x :: l2 ->
                 exists h, In h r /\ is_leaf r h = true /\ In x (chain_of r (b_id h))).
  { induction n as [n IH] using lt_wf_ind. intros l1 x l2 Hlen Er.
    assert (Hx : In x r) by (rewrite Er, in_app_iff; right; left; reflexivity).
    destruct (is_leaf r x) eqn:El.
    - exists x. split; [exact Hx|]. split; [exact El|]. apply chain_self; assumption.
    - unfold is_leaf in El. apply negb_false_iff in El. apply existsb_exists in El. destruct El as [ch [Hch E]]. apply N.eqb_eq in E.
      assert (Hpos : 0 < b_num ch).
      { destruct (N.eq_dec (b_num ch) 0) as [Z|Z]; [|lia]. exfalso.
        pose proof (Hroot ch Hch Z) as Hk. rewrite E, (known_in r x Hx) in Hk. discriminate. }
      assert (Hch1 : In ch l1) by (apply (child_above l1 x l2 ch); [rewrite <- Er; exact Hwf | rewrite <- Er; exact Hch | exact E | exact Hpos]).
      destruct (in_split _ _ Hch1) as [la [lb Ea]].
      destruct (IH (length la) ltac:(rewrite <- Hlen, Ea, app_length; cbn; lia) la ch (lb ++ x :: l2) eq_refl
                  ltac:(rewrite Er, Ea, <- app_assoc; reflexivity)) as [h [Hh [Hl Hin]]].
      exists h. split; [exact Hh|]. split; [exact Hl|].
      destruct (in_split _ _ Hin) as [c1 [c2 Ec]]. rewrite Ec, in_app_iff. right. right.
      pose proof (chain_suffix r Hwf (b_id h) c1 ch c2 Ec) as Hs.
      rewrite (chain_step r ch x Hwf Hch Hx E Hpos) in Hs. inversion Hs. apply chain_self; assumption. }
  intros x Hx. destruct (in_split _ _ Hx) as [l1 [l2 E]]. exact (Hgen (length l1) l1 x l2 eq_refl E).
Qed.
