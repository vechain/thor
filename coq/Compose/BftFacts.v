(* Compose/BftFacts.v — what the compositions with the Bft node model (TipRefine, SyncStep, CrashBft) need to know about
   Bft.Model.import / add_and_commit without unfolding them; `known` of a repository with one more block; the chain of a
   stored non-root block of a well-formed repository. *)
From Coq Require Import List NArith Bool Lia.
From Verif Require Import Bft.Tree Bft.Model Bft.ProofsChain Bft.ProofsNode.
Import ListNotations.
Open Scope N_scope.

Lemma known_cons b r id : known (b :: r) id = (b_id b =? id) || known r id.
Proof. unfold known, find_blk. cbn [find]. destruct (b_id b =? id); reflexivity. Qed.

(* AddBlock + CommitBlock: the block is stored and best moves by Select whatever CommitBlock answers; the code is 0 or
   100 + CommitBlock's error *)
Lemma add_and_commit_eq guard c nd b pk :
  add_and_commit guard c nd b pk =
  (mkN (b :: n_repo nd) (if select c (n_repo nd) (n_eng nd) (best_blk nd) b then b_id b else n_best nd)
       (fst (commit_block guard c (b :: n_repo nd) (n_eng nd) b pk)),
   if snd (commit_block guard c (b :: n_repo nd) (n_eng nd) b pk) =? 0 then 0
   else 100 + snd (commit_block guard c (b :: n_repo nd) (n_eng nd) b pk)).
Proof. unfold add_and_commit. destruct (commit_block _ _ _ _ _ _). reflexivity. Qed.

Lemma add_and_commit_code guard c nd b pk :
  snd (add_and_commit guard c nd b pk) = 0 \/ 100 < snd (add_and_commit guard c nd b pk).
Proof. rewrite add_and_commit_eq. cbn [snd]. destruct (_ =? 0) eqn:E; [left; reflexivity | right; lia]. Qed.

(* the code of a block that import does not hand to add_and_commit *)
Definition refusal (nd : node) (b : blk) : N :=
  if known (n_repo nd) (b_id b) then 1 else if known (n_repo nd) (b_parent b) then 3 else 2.

(* import: the three guards as one boolean (TipRefine.storesb, CrashBft.stores); a refused block leaves the node as it was *)
Lemma import_eq guard c nd b :
  import guard c nd b =
  if negb (known (n_repo nd) (b_id b)) && known (n_repo nd) (b_parent b) && accepts (n_repo nd) (n_eng nd) (b_parent b)
  then add_and_commit guard c nd b false else (nd, refusal nd b).
Proof.
  unfold import, refusal. destruct (known _ (b_id b)); [reflexivity|]. destruct (known _ (b_parent b)); [|reflexivity].
  destruct (accepts _ _ _); reflexivity.
Qed.

Lemma refusal_cases nd b : refusal nd b = 1 \/ refusal nd b = 2 \/ refusal nd b = 3.
Proof. unfold refusal. destruct (known _ (b_id b)); [|destruct (known _ (b_parent b))]; auto. Qed.

(* the chain of a stored non-root block: the block, then its parent's chain *)
Lemma chain_of_cons r id x : wf_repo r -> find_blk r id = Some x -> b_num x <> 0 ->
  chain_of r id = x :: chain_of r (b_parent x).
Proof.
  intros W Hf Hn0. destruct (chain_of_known r W id x Hf) as [t [Ht Hg]]. destruct t as [|p t'].
  - cbn in Hg. contradiction.
  - rewrite Ht. f_equal. cbn in Hg. destruct Hg as [Hpar _]. rewrite Hpar. symmetry.
    exact (chain_suffix r W id [x] p t' Ht).
Qed.
