(* Properties/C08.v — the statements, each proved by one call into Ledger/, TxExec/ and BaseFee/, and examples.  "VET is conserved; VTHO changes only by fees burned and rewards issued; the base fee
   moves by at most 1/8 per block, never below its floor, and is a function of the parent header alone."
   Totals are over any duplicate-free address list `dom` that contains the addresses an operation touches (every other
   account is left untouched: ledger_untouched). *)
From Coq Require Import ZArith List Bool Lia.
From Verif Require Import Ledger.Model Ledger.Proofs TxExec.Model TxExec.Proofs TxExec.ProofsEffects TxExec.ProofsBlock TxExec.ProofsAdopt BaseFee.Model BaseFee.Proofs.
Import ListNotations.
Open Scope Z_scope.

(* ---------------------------------------------------------------- ledger primitives *)
(* 0. EXACT totals along any list of ledger primitives (transfers, energy add / sub / move, self-destructs, reward distribution):
      total VET falls by exactly what self-destructs to self destroy (`burned`), total VTHO at block time changes by adds - subs +
      issued rewards minus what they destroy.  This is the full statement; 1-3 are its corollaries. *)
Theorem ledger_totals_exact T S os l dom : NoDup dom -> (forall o, In o os -> covers dom o) ->
  sum_bal dom (l_acc (apply_ops T S l os)) = sum_bal dom (l_acc l) - fst (burned T S l os) /\
  sum_eng T S dom (l_acc (apply_ops T S l os)) = sum_eng T S dom (l_acc l) + energy_delta_ops T S l os - snd (burned T S l os).
Proof. exact (ops_totals_exact T S os l dom). Qed.

(* 1. (partial form of the property's first sentence: the restriction is exactly F5) every ledger primitive other than a
      self-destruct whose beneficiary is the contract itself preserves the total VET *)
Theorem vet_conserved_partial T S os l dom : NoDup dom ->
  (forall o, In o os -> covers dom o /\ self_destruct_to_self o = false) ->
  sum_bal dom (l_acc (apply_ops T S l os)) = sum_bal dom (l_acc l).
Proof. exact (vet_conserved_ops T S os l dom). Qed.

(* 2. SELFDESTRUCT with beneficiary = self burns exactly the contract's VET and VTHO (F5) *)
Theorem suicide_self_burns T S l c dom : NoDup dom -> In c dom ->
  sum_bal dom (l_acc (apply_op T S l (OSuicide c c))) = sum_bal dom (l_acc l) - a_bal (l_acc l c) /\
  sum_eng T S dom (l_acc (apply_op T S l (OSuicide c c))) = sum_eng T S dom (l_acc l) - energy_at T S (l_acc l c).
Proof. exact (suicide_self_burns_lemma T S l c dom). Qed.

(* the unrestricted statement of the property, and its refutation by the faithful model *)
Definition vet_conserved_statement : Prop :=
  forall T S os l dom, NoDup dom -> (forall o, In o os -> covers dom o) ->
  sum_bal dom (l_acc (apply_ops T S l os)) = sum_bal dom (l_acc l).
Theorem vet_conserved_refuted : ~ vet_conserved_statement.
Proof.
  intros H.
  specialize (H 100 1000 [OSuicide 7 7] (mkL (fun a => if a =? 7 then mkAcc 1000 777 50 else empty_acc) 0 0 0) [7]
                ltac:(repeat constructor; intros []) ltac:(intros o [<-|[]] a [<-|[<-|[]]]; left; reflexivity)).
  vm_compute in H. discriminate.
Qed.

Theorem ledger_untouched T S l o a : ~ In a (touches o) -> l_acc (apply_op T S l o) a = l_acc l a.
Proof. exact (untouched_op T S l o a). Qed.

(* 3. without self-destructs to self: total energy at block time changes by exactly adds - successful subs + issued rewards *)
Theorem vtho_delta T S os l dom : NoDup dom ->
  (forall o, In o os -> covers dom o /\ self_destruct_to_self o = false) ->
  sum_eng T S dom (l_acc (apply_ops T S l os)) = sum_eng T S dom (l_acc l) + energy_delta_ops T S l os.
Proof. exact (vtho_delta_ops T S os l dom). Qed.

(* ---------------------------------------------------------------- transactions and blocks *)
Section C08.
  Variables W O : Type.
  Variable clause_result : env -> txn -> nat -> Z -> state W -> cres W O.
  Variable write_credit : Z -> Z -> Z -> W -> W.

  (* The EVM is an oracle.  That a clause moves funds ONLY through ledger primitives is part of the oracle's TYPE: a clause result
     carries cr_ops : list op and its effect on the ledger is apply_ops of that list (TxExec.Model.cres_state) — this is assumed
     by typing, not proved about an EVM, and it is what the harness checks on real code (every leaf's change is explained by the
     receipt's transfers and energy events).  What the primitives conserve is then proved, not assumed.
     The premises are PER EXECUTION: tx_ops_ok dom e t ci st0 speaks about the clauses this transaction actually executes on this
     state (tx_effects): the primitives of its non-failing clauses are transfers / energy moves / self-destructs (clause_kind: not
     the wrapper's fee operations) and touch only addresses of dom.  dom may depend on the transaction and the state; for a block
     it is the union of the per-transaction sets (effs_ok_mono), and flow_ops_ok asks tx_ops_ok of exactly the adopted
     transactions on the states they are adopted on. *)

  (* 4. one transaction, EXACT: total VTHO after = before + reward - paid - VTHO burned by self-destructs to self; total VET
        after = before - VET burned.  tx_burned is (0,0) when the transaction reverts (state restored). *)
  Theorem tx_totals_exact e t ci st0 st rc dom :
    let T := e_time e in let S := e_stop e in
    tx_ops_ok W O clause_result dom e t ci st0 -> NoDup dom -> In (r_payer O rc) dom -> In (e_benef e) dom ->
    exec_tx W O clause_result write_credit e t ci st0 = Done W O st rc ->
    sum_eng T S dom (l_acc (fst st)) =
      sum_eng T S dom (l_acc (fst st0)) + r_reward O rc - r_paid O rc - snd (tx_burned W O clause_result e t ci st0) /\
    sum_bal dom (l_acc (fst st)) = sum_bal dom (l_acc (fst st0)) - fst (tx_burned W O clause_result e t ci st0).
  Proof. exact (tx_totals_exact_lemma W O clause_result write_credit e t ci st0 st rc dom). Qed.

  (* a per-transaction address set may be enlarged (to the block's union) *)
  Theorem tx_ops_ok_mono dom dom' e t ci st0 :
    incl dom dom' -> tx_ops_ok W O clause_result dom e t ci st0 -> tx_ops_ok W O clause_result dom' e t ci st0.
  Proof. intros I. exact (effs_ok_mono W O dom dom' _ I). Qed.

  (* 5. a whole block (adopted txs, rejected ones reverted, staking reward when PoS is active), EXACT, F5 blocks included:
        total VTHO after = before + sum of rewards - sum of paid + staking reward - burned; total VET after = before - burned,
        burned = sum over the adopted transactions of what their self-destructs to self destroyed (flow_burned) *)
  Theorem block_totals_exact e dom txs st staking deleg used st' rcs :
    let T := e_time e in let S := e_stop e in
    flow_ops_ok W O clause_result write_credit dom e 0 txs st -> NoDup dom -> In (e_benef e) dom ->
    (match staking with Some _ => In deleg dom | None => True end) ->
    block_flow W O clause_result write_credit e txs st staking deleg = (used, st', rcs) ->
    Forall (fun rc => In (r_payer O rc) dom) rcs ->
    sum_eng T S dom (l_acc (fst st')) =
      sum_eng T S dom (l_acc (fst st)) + sum_reward O rcs - sum_paid O rcs
      + (match staking with Some (reward, _, _, _) => reward | None => 0 end)
      - snd (flow_burned W O clause_result write_credit e 0 txs st) /\
    sum_bal dom (l_acc (fst st')) = sum_bal dom (l_acc (fst st)) - fst (flow_burned W O clause_result write_credit e 0 txs st).
  Proof. exact (block_totals_exact_lemma W O clause_result write_credit e dom txs st staking deleg used st' rcs). Qed.

  (* 5a. the same for the packer's Adopt in full (all pre-checks, known-tx and dependency bookkeeping) *)
  Theorem flow_full_totals_exact e fe dom txs fs st fs' st' rcs :
    let T := e_time e in let S := e_stop e in
    flow_full_ops_ok W O clause_result write_credit dom e fe fs txs st -> NoDup dom -> In (e_benef e) dom ->
    adopt_all_full W O clause_result write_credit e fe fs txs st [] = (fs', st', rcs) ->
    Forall (fun rc => In (r_payer O rc) dom) rcs ->
    sum_eng T S dom (l_acc (fst st')) = sum_eng T S dom (l_acc (fst st)) + sum_reward O rcs - sum_paid O rcs
                                        - snd (flow_full_burned W O clause_result write_credit e fe fs txs st) /\
    sum_bal dom (l_acc (fst st')) = sum_bal dom (l_acc (fst st)) - fst (flow_full_burned W O clause_result write_credit e fe fs txs st).
  Proof.
    intros T S N ND HB H HP.
    destruct (adopt_all_full_totals W O clause_result write_credit e fe dom ND HB txs fs st [] fs' st' rcs N H HP) as [new [E [A B]]].
    cbn in E. subst new. split; assumption.
  Qed.

  (* 5c. the property's sentences as stated, for every block in which no executed clause of an adopted transaction self-destructs
         to itself: VET conserved, VTHO changes by rewards - paid + staking reward *)
  Theorem vtho_delta_block e dom txs st staking deleg used st' rcs :
    let T := e_time e in let S := e_stop e in
    flow_ops_ok W O clause_result write_credit dom e 0 txs st -> flow_no_self W O clause_result write_credit e 0 txs st ->
    NoDup dom -> In (e_benef e) dom -> (match staking with Some _ => In deleg dom | None => True end) ->
    block_flow W O clause_result write_credit e txs st staking deleg = (used, st', rcs) ->
    Forall (fun rc => In (r_payer O rc) dom) rcs ->
    sum_eng T S dom (l_acc (fst st')) =
      sum_eng T S dom (l_acc (fst st)) + sum_reward O rcs - sum_paid O rcs
      + (match staking with Some (reward, _, _, _) => reward | None => 0 end) /\
    sum_bal dom (l_acc (fst st')) = sum_bal dom (l_acc (fst st)).
  Proof.
    intros T S N NS ND HB HD H HP.
    destruct (block_totals_exact_lemma W O clause_result write_credit e dom txs st staking deleg used st' rcs N ND HB HD H HP) as [A B].
    rewrite (flow_burned_none W O clause_result write_credit e txs 0 st NS) in A, B. cbn [fst snd] in A, B. fold T S in A. split; lia.
  Qed.

  Theorem vtho_delta_tx e t ci st0 st rc dom :
    let T := e_time e in let S := e_stop e in
    tx_ops_ok W O clause_result dom e t ci st0 -> tx_no_self W O clause_result e t ci st0 ->
    NoDup dom -> In (r_payer O rc) dom -> In (e_benef e) dom ->
    exec_tx W O clause_result write_credit e t ci st0 = Done W O st rc ->
    sum_eng T S dom (l_acc (fst st)) = sum_eng T S dom (l_acc (fst st0)) + r_reward O rc - r_paid O rc /\
    sum_bal dom (l_acc (fst st)) = sum_bal dom (l_acc (fst st0)).
  Proof.
    intros T S N NS ND HP HB H.
    destruct (tx_totals_exact_lemma W O clause_result write_credit e t ci st0 st rc dom N ND HP HB H) as [A B].
    rewrite (tx_burned_none W O clause_result e t ci st0 NS) in A, B. cbn [fst snd] in A, B. fold T S in A. split; lia.
  Qed.

  (* 5b. per account (dom = [a]) and over any address set for which the executed clauses are energy-quiet (every primitive is a
         VET transfer or touches no address of the set — so also a payer that sends or receives VET in its clauses): exactly the
         payer is charged gasUsed x price (= r_paid, C07 gas_bounds), exactly the beneficiary receives the reward, nobody else's
         VTHO moves; VET of the set unchanged when no primitive touches it *)
  Theorem energy_delta_any_set e t ci st0 st rc dom :
    let T := e_time e in let S := e_stop e in
    tx_ops_quiet W O clause_result dom e t ci st0 -> NoDup dom ->
    exec_tx W O clause_result write_credit e t ci st0 = Done W O st rc ->
    sum_eng T S dom (l_acc (fst st)) = sum_eng T S dom (l_acc (fst st0))
        + (if member (e_benef e) dom then r_reward O rc else 0) - (if member (r_payer O rc) dom then r_paid O rc else 0) /\
    (tx_ops_avoid W O clause_result dom e t ci st0 -> sum_bal dom (l_acc (fst st)) = sum_bal dom (l_acc (fst st0))).
  Proof. exact (energy_delta_any_set_lemma W O clause_result write_credit e t ci st0 st rc dom). Qed.

  (* 6. the price is the effective price of the transaction (legacy: base price scaled by the coefficient; dynamic: min(maxFee,
        maxPriority + baseFee)), never below the block base fee; the payer is the delegator if there is one, else the origin or —
        with enough user credit on the common To — the To contract or its selected, still sponsoring sponsor *)
  Theorem payer_and_price e t ci st0 st rc :
    exec_tx W O clause_result write_credit e t ci st0 = Done W O st rc ->
    r_price O rc = effective_price e t (match e_base_fee e with Some bf => bf | None => 0 end) /\
    (match t_delegator t with
     | Some d => r_payer O rc = d
     | None => r_payer O rc = t_origin t \/
               (exists to, common_to (t_clauses t) = Some to /\ t_gas t * r_price O rc <= k_credit ci /\
                           (r_payer O rc = to \/ (k_is_sponsor ci = true /\ r_payer O rc = k_sponsor ci)))
     end).
  Proof. exact (payer_and_price_lemma W O clause_result write_credit e t ci st0 st rc). Qed.

  Theorem price_ge_basefee e t ci st0 st rc bf :
    exec_tx W O clause_result write_credit e t ci st0 = Done W O st rc -> e_base_fee e = Some bf -> bf <= r_price O rc.
  Proof. exact (price_ge_basefee_lemma W O clause_result write_credit e t ci st0 st rc bf). Qed.
End C08.

(* ---------------------------------------------------------------- base fee *)
(* 7. for MinGasLimit <= gasLimit <= (2^64-1)/75 (no uint64 wrap of gasLimit*75), gasUsed <= gasLimit, parent base fee >= floor:
      the next base fee is >= the floor and differs from the parent's by at most 1/8 *)
Theorem basefee_bounds galactica pnum gl gu pb :
  0 <= galactica -> galactica < pnum + 1 < two32 ->
  min_gas_limit <= gl <= max_nowrap_gas_limit -> 0 <= gu <= gl -> initial_base_fee <= pb ->
  exists next, calc_base_fee galactica pnum gl gu pb = BfFee next /\
    initial_base_fee <= next /\ Z.abs (next - pb) <= pb / 8.
Proof. exact (basefee_bounds_lemma galactica pnum gl gu pb). Qed.

(* 7b. direction: a parent exactly at its gas target floor(75% of its gas limit) leaves the base fee unchanged; below the target
       it never rises; above it strictly rises *)
Theorem basefee_direction galactica pnum gl gu pb :
  0 <= galactica -> galactica < pnum + 1 < two32 ->
  min_gas_limit <= gl <= max_nowrap_gas_limit -> 0 <= gu <= gl -> initial_base_fee <= pb ->
  exists next, calc_base_fee galactica pnum gl gu pb = BfFee next /\
    (gu = gl * 75 / 100 -> next = pb) /\ (gu < gl * 75 / 100 -> next <= pb) /\ (gu > gl * 75 / 100 -> pb < next).
Proof. intros Hg Hn Hgl Hgu. apply basefee_direction_lemma; auto. lia. Qed.

Theorem basefee_first_galactica_block galactica pnum gl gu pb :
  pnum + 1 < two32 -> 0 <= pnum -> pnum + 1 = galactica -> calc_base_fee galactica pnum gl gu pb = BfFee initial_base_fee.
Proof. exact (basefee_first_block galactica pnum gl gu pb). Qed.

Theorem basefee_none_before_fork galactica pnum gl gu pb :
  pnum + 1 < two32 -> 0 <= pnum -> pnum + 1 < galactica -> calc_base_fee galactica pnum gl gu pb = BfNone.
Proof. exact (basefee_before_fork galactica pnum gl gu pb). Qed.

(* 7c. the floor precondition of 7 / 7b is an invariant of the chain: along any run of post-fork headers whose base fees are
       produced by the recurrence (the fork block carries initial_base_fee), every base fee is >= the floor *)
Theorem basefee_chain_ge_floor galactica hs pnum pb :
  0 <= galactica -> galactica < pnum + 1 -> pnum + Z.of_nat (length hs) < two32 ->
  Forall (fun h => min_gas_limit <= fst h <= max_nowrap_gas_limit /\ 0 <= snd h <= fst h) hs ->
  initial_base_fee <= pb ->
  exists fs, chain_fees galactica pnum pb hs = Some fs /\ length fs = length hs /\ Forall (fun f => initial_base_fee <= f) fs.
Proof. exact (basefee_chain_lemma galactica hs pnum pb). Qed.

(* the no-wrap bound is a precondition of basefee_bounds, not a convenience: above it the 1/8 bound fails *)
Theorem basefee_wrap_example :
  exists gl gu pb next, max_nowrap_gas_limit < gl < two64 /\ 0 <= gu <= gl /\ initial_base_fee <= pb /\
    calc_base_fee 1 5 gl gu pb = BfFee next /\ pb / 8 < Z.abs (next - pb).
Proof. exact basefee_wrap_example_lemma. Qed.

(* non-vacuity *)
Example ex_basefee : calc_base_fee 1 5 40000000 40000000 10000000000000 = BfFee 10416666666666
                     /\ min_gas_limit <= 40000000 <= max_nowrap_gas_limit
                     /\ chain_fees 1 5 10000000000000 [(40000000, 40000000); (40000000, 0); (40000003, 30000002)]
                        = Some [10416666666666; 10000000000000; 10000000000000].
Proof. vm_compute. repeat split; try discriminate; reflexivity. Qed.
Example ex_ledger_ops :
  let l := mkL (fun a => if a =? 1 then mkAcc 1000 500 50 else if a =? 2 then mkAcc 7 0 0 else empty_acc) 0 0 0 in
  let os := [OTransfer 1 2 300; OEnergyMove 1 3 100; OSuicide 2 3; OEnergySub 1 50; OEnergyAdd 9 5; OSuicide 3 3] in
  let dom := [1; 2; 3; 9] in
  NoDup dom /\ (forall o, In o os -> covers dom o) /\
  sum_bal dom (l_acc l) = 1007 /\ sum_bal dom (l_acc (apply_ops 100 1000 l os)) = 700 /\
  sum_eng 100 1000 dom (l_acc l) = 500 /\ sum_eng 100 1000 dom (l_acc (apply_ops 100 1000 l os)) = 355 /\
  energy_delta_ops 100 1000 l os = -45 /\ burned 100 1000 l os = (307, 100).
Proof.
  cbv zeta. split; [repeat constructor; cbn; intuition discriminate|]. split.
  - intros o Ho a Ha. cbn in Ho. repeat (destruct Ho as [<-|Ho]; [cbn in Ha; cbn; intuition (subst; auto)|]). contradiction.
  - vm_compute. repeat split; reflexivity.
Qed.

(* a block with a transaction that reverts (tx_b: its 2nd clause fails), one that cannot start (tx_c: max fee below the base fee),
   one whose 2nd clause self-destructs contract 7 to itself (tx_a: F5, 986 wei and 170 VTHO-wei destroyed), and a PoS staking
   reward of 3000 split with the delegator contract 88: the oracle satisfies clause_ops_ok, and both sides of block_totals_exact
   are evaluated *)
Definition ex8_oracle (_ : env) (t : txn) (i : nat) (g : Z) (st : state Z) : cres Z Z :=
  mkCres Z Z (g / 2) 0 (Nat.eqb i 1 && (t_gas t =? 99999))
         (if Nat.eqb i 0 then [OTransfer 1 2 5; OEnergyMove 1 2 1000] else [OSuicide 7 7]) (snd st) 0.
Definition ex8_wc (_ _ c w : Z) : Z := w.
Definition ex8_env := mkEnv 100 1000 5 3 10000000 (Some 10000000000000) 1000000000000000 300000000000000000 77 10.
Definition ex8_led : ledger :=
  mkL (fun a => if a =? 1 then mkAcc 1000 90000000000000000000 50 else if a =? 7 then mkAcc 986 170 50 else empty_acc) 0 0 0.
Definition ex8_ci := mkCI 0 0 false false.
Definition tx_a := mkTx true 200000 [mkClause (Some 2) 0 0 5; mkClause (Some 7) 0 0 0] 0 20000000000000 500 1 true None true 0 0 0 false.
Definition tx_b := mkTx true 99999 [mkClause (Some 2) 0 0 5; mkClause (Some 7) 0 0 0] 0 20000000000000 500 1 true None true 0 0 0 false.
Definition tx_c := mkTx true 200000 [mkClause (Some 2) 0 0 5] 0 5 0 1 true None true 0 0 0 false.
Definition dom8 := [1; 2; 7; 77; 88].

Example ex8_clause_ops_ok : clause_ops_ok Z Z ex8_oracle dom8 /\ NoDup dom8 /\
  (forall e t ci st0, tx_ops_ok Z Z ex8_oracle dom8 e t ci st0).
Proof.
  assert (G : clause_ops_ok Z Z ex8_oracle dom8); [|split; [exact G|split; [repeat constructor; cbn; intuition discriminate|apply clause_ops_ok_tx; exact G]]].
  intros e t i g st _ o Ho. cbn in Ho. destruct (Nat.eqb i 0).
  - destruct Ho as [<-|[<-|[]]]; (split; [reflexivity|intros a Ha; cbn in Ha; cbn; intuition (subst; auto)]).
  - destruct Ho as [<-|[]]. split; [reflexivity|intros a Ha; cbn in Ha; cbn; intuition (subst; auto)].
Qed.

Example ex8_block : exists st rcs,
  let txs := [(tx_b, ex8_ci); (tx_c, ex8_ci); (tx_a, ex8_ci)] in
  block_flow Z Z ex8_oracle ex8_wc ex8_env txs (ex8_led, 0) (Some (3000, 0, 0, true)) 88 = (243500, st, rcs) /\
  map (fun rc => (r_gas_used Z rc, r_reverted Z rc, r_payer Z rc)) rcs = [(84250, true, 1); (159250, false, 1)] /\
  flow_burned Z Z ex8_oracle ex8_wc ex8_env 0 txs (ex8_led, 0) = (986, 170) /\
  sum_bal dom8 (l_acc ex8_led) = 1986 /\ sum_bal dom8 (l_acc (fst st)) = 1000 /\
  sum_eng 100 1000 dom8 (l_acc ex8_led) = 90000000000000000170 /\
  sum_eng 100 1000 dom8 (l_acc (fst st)) = 87565000000000003000 /\
  sum_reward Z rcs = 121750000 /\ sum_paid Z rcs = 2435000000121750000 /\
  view 100 1000 (fst st) 88 = (0, 2100) /\ view 100 1000 (fst st) 7 = (0, 0).
Proof. eexists _, _. cbv zeta. split; [vm_compute; reflexivity|]. vm_compute. repeat split; reflexivity. Qed.

(* an oracle whose touched addresses DEPEND ON THE TRANSACTION: every clause transfers its value from the transaction's origin to
   the clause's target.  No single finite set serves all transactions; the per-execution premise is discharged by a theorem for
   EVERY transaction with dom = origin :: targets (ex9_tx_ops_ok), two transactions with disjoint address sets {1,2} and {3,4}
   are packed into one block, and vtho_delta_block is APPLIED (not just evaluated) with the union. *)
Definition ex9_oracle (_ : env) (t : txn) (i : nat) (g : Z) (st : state Z) : cres Z Z :=
  mkCres Z Z (g / 2) 0 false
         (match nth_error (t_clauses t) i with
          | Some c => match c_to c with Some to => [OTransfer (t_origin t) to (c_value c)] | None => [] end
          | None => [] end) (snd st) 0.
Definition targets (t : txn) : list Z := flat_map (fun c => match c_to c with Some a => [a] | None => [] end) (t_clauses t).

Lemma ex9_tx_ops_ok e t ci st0 : tx_ops_ok Z Z ex9_oracle (t_origin t :: targets t) e t ci st0 /\ tx_no_self Z Z ex9_oracle e t ci st0.
Proof.
  assert (K : forall p o, In p (tx_effects Z Z ex9_oracle e t ci st0) -> In o (cr_ops Z Z (snd p)) ->
              exists c to, In c (t_clauses t) /\ c_to c = Some to /\ o = OTransfer (t_origin t) to (c_value c)).
  { intros p o Hp Ho. destruct (tx_effects_in Z Z ex9_oracle _ _ _ _ _ Hp) as [j [g [s E]]]. rewrite E in Ho. cbn in Ho.
    destruct (nth_error (t_clauses t) j) as [c|] eqn:N; [|contradiction]. destruct (c_to c) as [to|] eqn:T; [|contradiction].
    destruct Ho as [<-|[]]. exists c, to. split; [eapply nth_error_In; exact N|split; [exact T|reflexivity]]. }
  split.
  - intros p Hp _ o Ho. destruct (K p o Hp Ho) as [c [to [Hc [Ht ->]]]]. split; [reflexivity|].
    intros a [<-|[<-|[]]]; [left; reflexivity|right]. unfold targets. apply in_flat_map. exists c. split; [exact Hc|rewrite Ht; left; reflexivity].
  - intros p o Hp Ho. destruct (K p o Hp Ho) as [c [to [_ [_ ->]]]]. reflexivity.
Qed.

Definition ex9_env := mkEnv 100 1000 5 3 10000000 (Some 10000000000000) 1000000000000000 300000000000000000 77 10.
Definition ex9_led : ledger :=
  mkL (fun a => if a =? 1 then mkAcc 1000 90000000000000000000 50 else if a =? 3 then mkAcc 500 80000000000000000000 60 else empty_acc) 0 0 0.
Definition tx9a := mkTx true 100000 [mkClause (Some 2) 0 0 7] 0 20000000000000 500 1 true None true 0 0 0 false.
Definition tx9b := mkTx true 100000 [mkClause (Some 4) 0 0 9] 0 20000000000000 500 3 true None true 0 0 0 false.
Definition dom9 := [1; 2; 3; 4; 77].

Example ex9_block_conserves : forall used st' rcs,
  block_flow Z Z ex9_oracle ex8_wc ex9_env [(tx9a, ex8_ci); (tx9b, ex8_ci)] (ex9_led, 0) None 0 = (used, st', rcs) ->
  sum_bal dom9 (l_acc (fst st')) = 1500 /\
  sum_eng 100 1000 dom9 (l_acc (fst st')) = 170000000000000000000 + sum_reward Z rcs - sum_paid Z rcs /\
  map (r_payer Z) rcs = [1; 3] /\ view 100 1000 (fst st') 2 = (7, 0) /\ view 100 1000 (fst st') 4 = (9, 0).
Proof.
  intros used st' rcs H.
  assert (OK : flow_ops_ok Z Z ex9_oracle ex8_wc dom9 ex9_env 0 [(tx9a, ex8_ci); (tx9b, ex8_ci)] (ex9_led, 0)).
  { apply flow_forall_in. intros t ci st [E|[E|[]]]; inversion E; subst;
      (eapply tx_ops_ok_mono; [|apply ex9_tx_ops_ok]; intros a [<-|[<-|[]]]; cbn; tauto). }
  assert (NS : flow_no_self Z Z ex9_oracle ex8_wc ex9_env 0 [(tx9a, ex8_ci); (tx9b, ex8_ci)] (ex9_led, 0)).
  { apply flow_forall_global. intros t ci st. apply ex9_tx_ops_ok. }
  assert (ND : NoDup dom9) by (repeat constructor; cbn; intuition discriminate).
  assert (P : map (r_payer Z) rcs = [1; 3] /\ view 100 1000 (fst st') 2 = (7, 0) /\ view 100 1000 (fst st') 4 = (9, 0)).
  { vm_compute in H. inversion H; subst. vm_compute. repeat split; reflexivity. }
  assert (HP : Forall (fun rc => In (r_payer Z rc) dom9) rcs).
  { destruct P as [P _]. clear - P. destruct rcs as [|a [|b [|c r]]]; try discriminate. cbn in P. inversion P as [[Pa Pb]].
    repeat constructor; [rewrite Pa|rewrite Pb]; cbn; tauto. }
  destruct (vtho_delta_block Z Z ex9_oracle ex8_wc ex9_env dom9 _ _ None 0 used st' rcs OK NS ND ltac:(cbn; tauto) I H HP) as [A B].
  split; [rewrite B; vm_compute; reflexivity|]. split; [|exact P].
  change (e_time ex9_env) with 100 in A. change (e_stop ex9_env) with 1000 in A. rewrite A.
  replace (sum_eng 100 1000 dom9 (l_acc (fst (ex9_led, 0)))) with 170000000000000000000 by (vm_compute; reflexivity). lia.
Qed.

Print Assumptions ledger_totals_exact.
Print Assumptions vet_conserved_partial.
Print Assumptions suicide_self_burns.
Print Assumptions vet_conserved_refuted.
Print Assumptions ledger_untouched.
Print Assumptions vtho_delta.
Print Assumptions tx_totals_exact.
Print Assumptions tx_ops_ok_mono.
Print Assumptions block_totals_exact.
Print Assumptions flow_full_totals_exact.
Print Assumptions vtho_delta_block.
Print Assumptions vtho_delta_tx.
Print Assumptions energy_delta_any_set.
Print Assumptions payer_and_price.
Print Assumptions price_ge_basefee.
Print Assumptions basefee_bounds.
Print Assumptions basefee_direction.
Print Assumptions basefee_first_galactica_block.
Print Assumptions basefee_none_before_fork.
Print Assumptions basefee_chain_ge_floor.
Print Assumptions basefee_wrap_example.
