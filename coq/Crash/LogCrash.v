(* Crash/LogCrash.v — the log database as the node's second store (C13 / C15).
   cmd/thor/node/block_exec.go commitBlock, for a block that becomes best: state commit (main db), bft.Select, writeLogs =
   ONE transaction of the log database (Truncate + Write... + Commit; anchors logdb/logdb.go Writer, cmd/thor/node
   block_exec.go writeLogs), then Repository.AddBlock (main db: index trie, block bulk), then bft.CommitBlock.  A block that
   does not become best touches the main database only.
   At block level the main database is wp-chain's repository model (Chain/Model.v): the key-value cuts of Crash/Model.v
   before the block bulk read as "block absent", the cuts after it as "block present and complete"
   (crash_inv / orphans_unreachable; the position of the log commit among the key-value batches is
   Crash/ProofsDual.v).  So one import is at most two atomic node updates, a crash keeps a prefix of them, and the start
   runs syncLogDB (LogDB/Model.v sync_logdb, proved in LogDB/ProofsSync.v: sync_reestablishes_canonical). *)
From Coq Require Import List NArith Bool Lia.
From Verif Require Import Chain.Model Chain.Proofs Chain.ProofsWalk Chain.ProofsSys Chain.ProofsPath
  LogDB.Model LogDB.Proofs LogDB.ProofsCanon LogDB.ProofsRows LogDB.ProofsSync.
Import ListNotations.
Open Scope N_scope.

Record node := mkNode { n_repo : repo; n_log : logdb }.

(* the atomic updates of one import, in order *)
Inductive lstep := LCommit (db' : logdb) | LAdd (r' : repo).

Definition do_lstep (n : node) (x : lstep) : node :=
  match x with
  | LCommit d => mkNode (n_repo n) d
  | LAdd r' => mkNode r' (n_log n)
  end.

(* commitBlock: None = the import fails before any write ("write logs" / "add block" errors) *)
Definition import_lsteps (n : node) (b : blk) (conf : N) (best : bool) : option (list lstep) :=
  let r := n_repo n in
  match (if best then write_logs r (n_log n) b (r_best r) else Some (n_log n)), add_block r b conf best with
  | Some d, Some r' => Some ((if best then [LCommit d] else []) ++ [LAdd r'])
  | _, _ => None
  end.

(* the node a crash after the first j updates leaves *)
Definition lcut (n : node) (b : blk) (conf : N) (best : bool) (j : nat) : option node :=
  match import_lsteps n b conf best with
  | Some l => Some (fold_left do_lstep (firstn j l) n)
  | None => None
  end.

(* the start: syncLogDB against the repository found on disk *)
Definition lrestart (n : node) : option node :=
  match sync_logdb (n_repo n) (n_log n) with
  | Some d => Some (mkNode (n_repo n) d)
  | None => None
  end.

Definition log_canonical (n : node) : Prop :=
  forall st, is_path (n_repo n) (r_best (n_repo n)) st ->
    rows_of_path (n_repo n) st = Some (n_log n) /\
    db_events (n_log n) = chain_events (n_repo n) st /\ db_transfers (n_log n) = chain_transfers (n_repo n) st.

(* ---- syncLogDB reads the chain of the best block only: a block stored beside it changes nothing *)

Section SideAdd.
  Variables (g gp : N) (r r' : repo) (b : blk) (conf : N).
  Hypothesis W : wf g gp r.
  Hypothesis V : valid_add r b conf.
  Hypothesis A : add_block r b conf false = Some r'.

  Lemma side_best : r_best r' = r_best r.
  Proof. rewrite (add_best r r' b conf false A). reflexivity. Qed.

  Lemma side_get_block_id h n : stored r h -> get_block_id r' h n = get_block_id r h n.
  Proof.
    intros [s Hs]. unfold get_block_id. rewrite (add_summary_old r r' b conf false V A h s Hs), Hs.
    rewrite (add_root_old g gp r r' b conf false W V A h s Hs). reflexivity.
  Qed.

  Lemma side_seek_walk db fuel : forall h, stored r h -> seek_walk r' db fuel h = seek_walk r db fuel h.
  Proof.
    induction fuel as [|f IH]; intros h [s Hs]; [reflexivity|]. cbn [seek_walk].
    destruct (num_of h =? 0) eqn:E0; [reflexivity|]. destruct (has_block_id db h) as [[|]|]; try reflexivity.
    rewrite (add_summary_old r r' b conf false V A h s Hs), Hs.
    assert (Hne : h <> g).
    { intro X. subst h. rewrite (w_gnum _ _ _ W) in E0. discriminate. }
    destruct (w_par _ _ _ W h s Hs Hne) as (ps & Hps & _). apply IH. exists ps. exact Hps.
  Qed.

  Lemma side_write_range head : stored r head -> forall n i db, write_range r' head n i db = write_range r head n i db.
  Proof.
    intros Hh. induction n as [|n IH]; intros i db; [reflexivity|]. cbn [write_range].
    rewrite (side_get_block_id head i Hh).
    destruct (get_block_id r head i) as [id| |] eqn:E; try reflexivity.
    apply (get_block_id_spec g gp r W head i id Hh) in E. destruct E as [Ea _].
    destruct (anc_stored _ _ _ Ea) as [_ [s Hs]].
    rewrite (get_block_old g gp r r' b conf false id s W V A Hs).
    destruct (get_block r id) as [[s' b']|]; [|reflexivity]. destruct (write_block b' db); auto.
  Qed.

  Lemma side_sync db : sync_logdb r' db = sync_logdb r db.
  Proof.
    pose proof (w_best _ _ _ W) as Sb.
    assert (Eseek : seek_position r' db = seek_position r db).
    { unfold seek_position. rewrite side_best. destruct (num_of (r_best r) =? 0); [reflexivity|].
      destruct (num_of (newest_block_id db) =? 0); [reflexivity|]. destruct (newest_block_id db =? r_best r); [reflexivity|].
      rewrite (side_get_block_id _ _ Sb).
      match goal with |- match ?X with _ => _ end = _ => destruct X as [h| |] eqn:E end; try reflexivity.
      apply (get_block_id_spec g gp r W _ _ h Sb) in E. destruct E as [Ea _].
      apply side_seek_walk. apply (proj2 (anc_stored _ _ _ Ea)). }
    unfold sync_logdb. rewrite Eseek, side_best. destruct (seek_position r db) as [p| |]; try reflexivity.
    destruct (num_of (r_best r) <? p); [reflexivity|].
    destruct (truncate _ db); [|reflexivity]. apply side_write_range. exact Sb.
  Qed.
End SideAdd.

(* ---- every cut of an import, then the start *)

Section Cuts.
  Variables g gp tag : N.
  Hypothesis Hg : num_of g = 0.

  Lemma imported_canonical r db : imported g gp tag r db -> log_canonical (mkNode r db).
  Proof.
    intros I st P. cbn [n_repo n_log] in *.
    pose proof (imported_reachable _ _ _ _ _ I) as R.
    pose proof (logdb_tracks_canonical_lemma g gp tag Hg r db I st P) as H. split; auto.
    apply (rows_of_path_flat r st (reachable_wf_body _ _ _ _ _ Hg R) (path_desc g gp r (reachable_wf _ _ _ _ _ Hg R) _ _ P)). exact H.
  Qed.

  (* on a state of the uninterrupted run the re-sync changes nothing *)
  Lemma sync_on_imported r db d : imported g gp tag r db -> sync_logdb r db = Some d -> d = db.
  Proof.
    intros I Hs. pose proof (imported_reachable _ _ _ _ _ I) as R.
    pose proof (reachable_wf _ _ _ _ _ Hg R) as W. pose proof (reachable_wf_body _ _ _ _ _ Hg R) as WB.
    destruct (path_exists g gp r W (r_best r) (w_best _ _ _ W)) as [st P].
    pose proof (logdb_tracks_canonical_lemma g gp tag Hg r db I st P) as H1.
    pose proof (sync_reestablishes_lemma g gp r W WB (r_best r) st st db P P H1 d Hs) as H2. congruence.
  Qed.

  (* the cut between the log commit and AddBlock: the tables hold the rows of a block the repository does not know;
     the re-sync brings back the tables of the repository's best block — the state before the import *)
  Lemma sync_after_log_commit r db b conf db' d :
    imported g gp tag r db -> valid_add r b conf -> write_logs r db b (r_best r) = Some db' ->
    (exists r', add_block r b conf true = Some r') ->
    sync_logdb r db' = Some d -> d = db.
  Proof.
    intros I V Hw [r1 A1] Hs. pose proof (imported_reachable _ _ _ _ _ I) as R.
    pose proof (reachable_wf _ _ _ _ _ Hg R) as W. pose proof (reachable_wf_body _ _ _ _ _ Hg R) as WB.
    (* the same block stored beside the chain *)
    destruct (add_parent _ _ _ _ _ A1) as [ps [Hps _]].
    assert (A : exists r', add_block r b conf false = Some r') by (unfold add_block; rewrite Hps; eauto).
    destruct A as [r' A].
    assert (I' : imported g gp tag r' db) by (eapply imp_side; eauto).
    pose proof (imported_reachable _ _ _ _ _ I') as R'.
    pose proof (reachable_wf _ _ _ _ _ Hg R') as W'. pose proof (reachable_wf_body _ _ _ _ _ Hg R') as WB'.
    destruct (path_exists g gp r W (r_best r) (w_best _ _ _ W)) as [st_o Po].
    destruct (path_exists g gp r W (b_parent b) (ex_intro _ ps Hps)) as [st_p Pp].
    pose proof (logdb_tracks_canonical_lemma g gp tag Hg r db I st_o Po) as Ho.
    destruct (write_logs_canonical g gp Hg r db b db' st_o st_p W WB Po Pp Ho Hw) as [dp [Hdp Hfin]].
    (* in r' the tables db' are the canonical tables of block b *)
    assert (Px : is_path r' (b_id b) (b_id b :: st_p)).
    { eapply path_step.
      - rewrite (add_summary _ _ _ _ _ A), N.eqb_refl. reflexivity.
      - rewrite (add_gen r r' b conf false A), (w_gen _ _ _ W). apply (add_ne_g g gp r b conf W V).
      - cbn [s_parent]. eapply path_mono; eauto. }
    assert (Hx : rows_of_path r' (b_id b :: st_p) = Some db').
    { cbn [rows_of_path]. rewrite (rows_of_path_old g gp r r' b conf false st_p W V A), Hdp, (get_block_new r r' b conf false A); [exact Hfin|].
      intros a Ha. apply (path_members g gp r W _ _ Pp) in Ha. apply (proj2 (anc_stored _ _ _ Ha)). }
    assert (Pb : is_path r' (r_best r') st_o).
    { rewrite (side_best r r' b conf A). eapply path_mono; eauto. }
    rewrite <- (side_sync g gp r r' b conf W V A db') in Hs.
    pose proof (sync_reestablishes_lemma g gp r' W' WB' (b_id b) (b_id b :: st_p) st_o db' Px Pb Hx d Hs) as H2.
    pose proof (logdb_tracks_canonical_lemma g gp tag Hg r' db I' st_o Pb) as H3. congruence.
  Qed.

  (* C13 for the log database: a crash after ANY prefix of the atomic updates of ANY import, after ANY history, followed
     by the start-up re-sync, gives a state of the uninterrupted run — the one before the import or the one after it — and
     the log tables are the logs of the canonical chain of the repository found on disk *)
  Theorem log_crash_resync r db b conf best j n' n'' :
    imported g gp tag r db -> valid_add r b conf ->
    lcut (mkNode r db) b conf best j = Some n' -> lrestart n' = Some n'' ->
    imported g gp tag (n_repo n'') (n_log n'') /\ log_canonical n'' /\
    (n'' = mkNode r db \/
     exists l, import_lsteps (mkNode r db) b conf best = Some l /\ n'' = fold_left do_lstep l (mkNode r db)).
  Proof.
    intros I V Hc Hr. unfold lcut in Hc. destruct (import_lsteps (mkNode r db) b conf best) as [l|] eqn:El; [|discriminate].
    injection Hc as <-. unfold import_lsteps in El. cbn [n_repo n_log] in El.
    assert (Done : forall n, imported g gp tag (n_repo n) (n_log n) -> lrestart n = Some n'' -> n'' = n).
    { intros n In Hn. unfold lrestart in Hn. destruct (sync_logdb (n_repo n) (n_log n)) as [d|] eqn:Es; [|discriminate].
      injection Hn as <-. rewrite (sync_on_imported _ _ d In Es). destruct n; reflexivity. }
    assert (Fin : forall n, imported g gp tag (n_repo n) (n_log n) -> n'' = n ->
              imported g gp tag (n_repo n'') (n_log n'') /\ log_canonical n'').
    { intros n In ->. split; auto. destruct n as [rn dn]. apply imported_canonical. exact In. }
    destruct best.
    - destruct (write_logs r db b (r_best r)) as [d1|] eqn:Hw; [|discriminate].
      destruct (add_block r b conf true) as [r1|] eqn:A; [|discriminate]. injection El as <-. cbn [app] in *.
      assert (I1 : imported g gp tag r1 d1) by (eapply imp_best; eauto).
      destruct j as [|[|j]]; cbn [firstn fold_left do_lstep n_repo n_log] in *.
      + (* before the log commit *)
        pose proof (Done (mkNode r db) I Hr) as E. destruct (Fin (mkNode r db) I E). subst. auto.
      + (* after the log commit, before AddBlock *)
        unfold lrestart in Hr. cbn [n_repo n_log] in Hr. destruct (sync_logdb r d1) as [d|] eqn:Es; [|discriminate].
        pose proof (sync_after_log_commit r db b conf d1 d I V Hw (ex_intro _ r1 A) Es) as Ed. subst d. injection Hr as <-.
        destruct (Fin (mkNode r db) I eq_refl). auto.
      + (* after AddBlock *)
        rewrite firstn_nil in Hr. cbn [fold_left] in Hr.
        pose proof (Done (mkNode r1 d1) I1 Hr) as E. destruct (Fin (mkNode r1 d1) I1 E). subst. split; auto. split; auto.
        right. eexists; split; reflexivity.
    - destruct (add_block r b conf false) as [r1|] eqn:A; [|discriminate]. injection El as <-. cbn [app] in *.
      assert (I1 : imported g gp tag r1 db) by (eapply imp_side; eauto).
      destruct j as [|j]; cbn [firstn fold_left do_lstep n_repo n_log] in *.
      + pose proof (Done (mkNode r db) I Hr) as E. destruct (Fin (mkNode r db) I E). subst. auto.
      + rewrite firstn_nil in Hr. cbn [fold_left] in Hr.
        pose proof (Done (mkNode r1 db) I1 Hr) as E. destruct (Fin (mkNode r1 db) I1 E). subst. split; auto. split; auto.
        right. eexists; split; reflexivity.
  Qed.
End Cuts.
