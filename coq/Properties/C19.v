(* Properties/C19.v — statements only.  "Sync converges to the peer's better chain; hostile peer input is
   harmless" — the parts decided by proof: the common-ancestor search (comm/sync.go findCommonAncestor) returns the
   last common height for every head < 2^31 within 2*log2 head + 4 probes and without uint32 wrap; the batch
   decoder forwards exactly the well-formed in-sequence prefix; the stream handed to import is consecutively
   numbered for every peer; an honest peer's preferred chain becomes best, for every batch cut. *)
From Coq Require Import List NArith Bool Lia.
From Verif Require Import Common.Util Sync.Model Sync.Proofs Sync.ProofsDownload Sync.ProofsConverge
  Sync.ModelRPC Sync.ProofsRPC.
From Verif Require Compose.SyncOrder.
Import ListNotations.
Open Scope N_scope.

(* 1. ancestor_correct: for every head < 2^31 and every monotone overlap predicate true at genesis, the search
      returns the LARGEST height <= head at which the chains agree; it needs at most 2*log2 head + 4 probes;
      the uint32 operations of the code (start+end, mid+1, mid-1, head-backward, backward<<1) are modelled with
      explicit wrap and the result shows no wrap changes the outcome under the bound. *)
Theorem ancestor_correct (P : N -> bool) head fuel :
  monotone P -> P 0 = true -> head < 2147483648 -> (ancestor_fuel head <= fuel)%nat ->
  exists L, find_common_ancestor (fun n => Some (P n)) head fuel = Anc L /\
            L <= head /\ P L = true /\ forall m, L < m -> m <= head -> P m = false.
Proof. exact (ancestor_correct_all P head fuel). Qed.

(* the last common height is unique, so "the" ancestor is well defined *)
Theorem last_common_unique P head L L' : is_last P head L -> is_last P head L' -> L = L'.
Proof. exact (is_last_unique P head L L'). Qed.

(* 2. a failed probe (peer error, time-out, local lookup error) is reported as a failure at that height and is
      never turned into an ancestor; every returned ancestor is 0 or a height that was probed equal *)
Theorem ancestor_fail_sound ov head fuel a :
  find_common_ancestor ov head fuel = Fail a -> ov a = None.
Proof. exact (fca_fail_sound ov head fuel a). Qed.

Theorem ancestor_result_probed ov head fuel r :
  find_common_ancestor ov head fuel = Anc r -> r = 0 \/ ov r = Some true.
Proof. exact (fca_result_probed ov head fuel r). Qed.

(* 2b. whatever the peer answers (inconsistent, failing), the search ends within the probe budget: it never loops *)
Theorem ancestor_terminates ov head fuel :
  head < 2147483648 -> (ancestor_fuel head <= fuel)%nat -> find_common_ancestor ov head fuel <> NoFuel.
Proof. intro H. exact (fca_terminates ov head H fuel). Qed.

(* 3. bad_batch_rejected (as coded: per block, in order): the decoder forwards the decoded longest prefix of
      blocks that are well-formed and numbered start+i; the first offending block and everything behind it in the
      batch never reaches import, and the status names the offence.  (Blocks of the same batch that precede
      the offending one ARE forwarded — the code checks block by block — and still face full validation.) *)
Theorem bad_batch_rejected (Raw Blk : Type) hn db raws start l st :
  decode_batch Raw Blk hn db start 0 raws = (l, st) ->
  exists pre post,
    raws = pre ++ post /\ length pre = length l /\
    (forall k r, nth_error pre k = Some r -> good Raw Blk hn db start (0 + N.of_nat k) r /\ db r = nth_error l k) /\
    match st with
    | DlDone => post = []
    | _ => exists r t, post = r :: t /\ offending Raw Blk hn db start (0 + N.of_nat (length pre)) r st
    end.
Proof. exact (decode_batch_spec Raw Blk hn db raws start 0 l st). Qed.

(* 4. whatever the peer answers (any batches, any fuel), the blocks handed to import are numbered
      from, from+1, from+2, ... (mod 2^32) with no gap, repeat or reordering *)
Theorem stream_in_sequence (Raw Blk : Type) hn db (num : Blk -> N) peer fuel from l st :
  (forall r b n, db r = Some b -> hn r = Some n -> num b = n) ->
  download_stream Raw Blk hn db peer from fuel = (l, st) ->
  forall k b, nth_error l k = Some b -> num b = wrap32 (from + N.of_nat k).
Proof. intros H. exact (ProofsDownload.stream_in_sequence Raw Blk hn db num H peer fuel from l st). Qed.

(* 4b. without wrap: as long as from + (blocks handed over) stays below 2^32 the numbers are from + k themselves *)
Theorem stream_in_sequence_nowrap (Raw Blk : Type) hn db (num : Blk -> N) peer fuel from l st :
  (forall r b n, db r = Some b -> hn r = Some n -> num b = n) ->
  download_stream Raw Blk hn db peer from fuel = (l, st) -> from + N.of_nat (length l) <= 4294967296 ->
  forall k b, nth_error l k = Some b -> num b = from + N.of_nat k.
Proof.
  intros H Hd Hb k b Hk. rewrite (ProofsDownload.stream_in_sequence Raw Blk hn db num H peer fuel from l st Hd k b Hk).
  assert (k < length l)%nat by (apply nth_error_Some; congruence). apply wrap32_small. lia.
Qed.

(* 5. an honest peer's chain is delivered whole, for every choice of batch boundaries *)
Theorem download_complete (Blk : Type) (num : Blk -> N) rc cut fuel from :
  (forall n b, nth_error rc n = Some b -> num b = N.of_nat n) ->
  N.of_nat (length rc) < 4294967296 ->
  (forall n, (1 <= cut n <= max_batch)%nat) ->
  (length rc - N.to_nat from < fuel)%nat -> from < 4294967296 ->
  download_stream Blk Blk (fun b => Some (num b)) (fun b => Some b) (honest_peer Blk rc cut) from fuel
    = (skipn (N.to_nat from) rc, DlDone).
Proof. intros H1 H2 H3. exact (download_honest Blk num rc H1 H2 cut H3 fuel from). Qed.

(* 6. sync_converges.  Assumed (and only this): the node's select `better` is a strict weak order; ids identify
      blocks (hash collision freeness); both chains are parent-linked lists by height with the same genesis; the
      local best chain is in the local store and `best` is maximal in the store; every block of the peer's chain
      passes the node's validation once its parent is stored; the peer's head is preferred by the node's own
      select over the local best and over the other blocks of the peer's chain; the peer answers honestly with
      arbitrary batch cuts.  Then: the ancestor search returns the last common height a, the download delivers
      the peer's chain above a, every block is imported, and the node's best block is the peer's head —
      whatever the prior local chain and wherever the two diverge. *)
Theorem sync_converges (Blk : Type) (bid parent num : Blk -> N) valid better
        (lc rc : list Blk) (st : node Blk) (cut : N -> nat) (h : Blk) fuel fuel2 :
  (forall x y, better x y = true -> better y x = false) ->
  (forall x y z, better x z = true -> better x y = true \/ better y z = true) ->
  (forall x y, bid x = bid y -> x = y) ->
  chain_linked Blk bid parent lc -> chain_linked Blk bid parent rc ->
  best_max Blk better st -> (forall b, In b lc -> In b (store Blk st)) ->
  same_at Blk bid lc rc 0 = true -> lc <> [] ->
  N.of_nat (length lc - 1) < 2147483648 ->
  (forall n b, nth_error rc n = Some b -> num b = N.of_nat n) ->
  N.of_nat (length rc) < 4294967296 ->
  (forall b, In b rc -> valid b = true) ->
  (forall n, (1 <= cut n <= max_batch)%nat) ->
  nth_error rc (length rc - 1) = Some h ->
  better h (best Blk st) = true ->
  (forall b, In b rc -> b <> h -> better h b = true) ->
  (ancestor_fuel (N.of_nat (length lc - 1)) <= fuel)%nat -> (length rc < fuel2)%nat ->
  exists a l st',
    find_common_ancestor (fun n => Some (same_at Blk bid lc rc n)) (N.of_nat (length lc - 1)) fuel = Anc a /\
    is_last (same_at Blk bid lc rc) (N.of_nat (length lc - 1)) a /\
    download_stream Blk Blk (fun b => Some (num b)) (fun b => Some b) (honest_peer Blk rc cut) (a + 1) fuel2
      = (l, DlDone) /\
    import_all Blk bid parent valid better st l = (st', true) /\
    best Blk st' = h.
Proof.
  intros. eapply sync_converges_thm; eauto.
Qed.

(* 7. hostile peer input — the part that is proved.  NOTE: the hostile_* theorems below are INVERSIONS of the
      transcription `serve` (they read back its guards); their content is that the transcription has these guards and
      no other path to an effect — what ties the transcription to comm/handle_rpc.go and p2psrv/rpc/rpc.go is the
      per-message drop/keep comparison of the harness, not a proof.  `serve` models the effects on repository, block
      feed, announcement loop and tx pool; the per-peer bookkeeping of the handlers (MarkBlock, MarkTransaction,
      UpdateHead, txsToSync) is not modelled, "read-only" below means "no such effect".
      rpc.Serve + comm.handleRPC as accept/reject functions
      (Sync/ModelRPC.v; decoding itself is an input): nothing of a message reaches the node (block feed -> import,
      announcement fetch, tx pool) unless its frame is within the size limit of its class (10 MiB; tx messages
      64 KiB + 1 KiB) AND it decodes as the type of its message code; messages above the limit, undecodable ones and
      unknown codes disconnect the peer; all other codes are answered read-only; a result is delivered only to the call
      waiting for that code.  NOT proved (exercised by the harness only): that decoding and the handlers never
      panic on any byte string, and that the read-only answers do not write to the store. *)
Theorem hostile_effect_guarded pending m :
  touches_node (serve pending mcode_eqb m) = true ->
  m_size m <= max_msg_size /\ m_arg_ok m = true /\ (exists id, m_env m = Some (id, false)) /\
  match serve pending mcode_eqb m with
  | RFeedBlock => m_code m = CNewBlock
  | RAnnounce => m_code m = CNewBlockID
  | RPoolAdd => m_code m = CNewTx /\ m_size m <= max_tx_msg_size
  | _ => False
  end.
Proof. exact (effect_guarded pending m). Qed.

Theorem hostile_oversize_dropped pending m : max_msg_size < m_size m -> serve pending mcode_eqb m = RDrop.
Proof. exact (oversize_dropped pending m). Qed.

Theorem hostile_undecodable_dropped pending m :
  m_env m = None \/ (exists id, m_env m = Some (id, false) /\ m_arg_ok m = false) -> serve pending mcode_eqb m = RDrop.
Proof. exact (undecodable_dropped pending m). Qed.

Theorem hostile_unknown_code_dropped pending m id :
  m_env m = Some (id, false) -> m_code m = CUnknown -> serve pending mcode_eqb m = RDrop.
Proof. exact (unknown_code_dropped pending m id). Qed.

Theorem hostile_other_codes_read_only pending m :
  match m_code m with CNewBlock | CNewBlockID | CNewTx => False | _ => True end ->
  touches_node (serve pending mcode_eqb m) = false.
Proof. exact (other_codes_read_only pending m). Qed.

Theorem hostile_result_guarded pending m :
  serve pending mcode_eqb m = RDeliver ->
  exists id, m_env m = Some (id, true) /\ pending id = Some (m_code m) /\ m_arg_ok m = true.
Proof. exact (result_guarded pending m). Qed.

(* a peer that announces an id and then answers the node's GetBlockByID inconsistently (another block, several
   blocks, a malformed one, a wrong body) gets nothing into the block feed *)
Theorem hostile_announcement_fetch_guarded announced answer id :
  fetch_accept announced answer = FFeed id -> id = announced /\ answer = [(Some announced, true)].
Proof. exact (fetch_guarded announced answer id). Qed.

(* and whatever stream of blocks reaches import (download stream, block feed), from whatever peer: only blocks that
   pass the node's validation with a stored parent enter the store, and best moves only to such a block.
   (`valid` abstracts consensus.Process + bft.Accepts: C02.) *)
Theorem hostile_import_sound (Blk : Type) bid parent valid better l st st' ok :
  import_all Blk bid parent valid better st l = (st', ok) ->
  (forall x, In x (store Blk st') -> In x (store Blk st) \/
             (In x l /\ valid x = true /\ known Blk bid st' (parent x) = true)) /\
  (best Blk st' = best Blk st \/ (In (best Blk st') l /\ valid (best Blk st') = true)).
Proof. exact (import_all_sound Blk bid parent valid better l st st' ok). Qed.


(* ancestor_correct: head 1000, chains agree up to 617 *)
Example ancestor_example :
  find_common_ancestor (fun n => Some (n <=? 617)) 1000 (ancestor_fuel 1000) = Anc 617.
Proof. vm_compute. reflexivity. Qed.

Example ancestor_hyps_example : monotone (fun n => n <=? 617) /\ (0 <=? 617) = true.
Proof.
  split; [|reflexivity]. intros n m Hle H. apply N.leb_le in H. apply N.leb_le. lia.
Qed.

(* the bound matters: with head >= 2^31 the modelled uint32 midpoint wraps and the search returns a wrong
   height (the bisection leaves the interval) — the code is correct only under the bound of the theorem *)
Example ancestor_wrap_example :
  find_common_ancestor (fun n => Some (n <=? 4000000000)) 4294967295 200 <> Anc 4000000000.
Proof. vm_compute. discriminate. Qed.

(* bad batch: third block out of sequence -> two forwarded, status names the offence *)
Example bad_batch_example :
  decode_batch (N * bool) N (fun r => Some (fst r)) (fun r => if snd r then Some (fst r) else None)
               5 0 [(5, true); (6, true); (8, true); (9, true)] = ([5; 6], DlBrokenSequence).
Proof. vm_compute. reflexivity. Qed.

(* sync_converges: local chain 0-1-2, peer's chain 0-1-12-13 (diverging at height 2), select = larger key *)
Definition ex_parent (b : N) : N := match b with 1 => 0 | 2 => 1 | 12 => 1 | 13 => 12 | _ => 0 end.
Definition ex_num (b : N) : N := match b with 1 => 1 | 2 => 2 | 12 => 2 | 13 => 3 | _ => 0 end.
Definition ex_better (x y : N) : bool := y <? x.

Example sync_converges_example :
  exists a l st',
    find_common_ancestor (fun n => Some (same_at N (fun b => b) [0; 1; 2] [0; 1; 12; 13] n)) 2 20 = Anc a /\
    a = 1 /\ l = [12; 13] /\
    import_all N (fun b => b) ex_parent (fun _ => true) ex_better (mkNode N [2; 1; 0] 2) l = (st', true) /\
    best N st' = 13.
Proof.
  destruct (sync_converges N (fun b => b) ex_parent ex_num (fun _ => true) ex_better
              [0; 1; 2] [0; 1; 12; 13] (mkNode N [2; 1; 0] 2) (fun _ => 1%nat) 13 20 20)
    as [a [l [st' [H1 [H2 [H3 [H4 H5]]]]]]].
  - unfold ex_better. intros x y H. apply N.ltb_lt in H. apply N.ltb_ge. lia.
  - unfold ex_better. intros x y z H. apply N.ltb_lt in H.
    destruct (y <? x) eqn:E; auto. right. apply N.ltb_ge in E. apply N.ltb_lt. lia.
  - auto.
  - intros n x y H1 H2.
    repeat (destruct n as [|n]; cbn in H1, H2; try discriminate;
            try (inversion H1; inversion H2; subst; reflexivity)).
  - intros n x y H1 H2.
    repeat (destruct n as [|n]; cbn in H1, H2; try discriminate;
            try (inversion H1; inversion H2; subst; reflexivity)).
  - intros x Hx. cbn in Hx. unfold ex_better. cbn [best]. apply N.ltb_ge.
    destruct Hx as [<-|[<-|[<-|[]]]]; lia.
  - intros b Hb. cbn in *. tauto.
  - reflexivity.
  - discriminate.
  - cbn. lia.
  - intros n b H.
    repeat (destruct n as [|n]; cbn in H; try discriminate; try (inversion H; subst; reflexivity)).
  - cbn. lia.
  - auto.
  - intros n. cbn. unfold max_batch. lia.
  - reflexivity.
  - reflexivity.
  - intros b Hb Hne. unfold ex_better. apply N.ltb_lt. cbn in Hb.
    destruct Hb as [<-|[<-|[<-|[<-|[]]]]]; try lia; congruence.
  - vm_compute. lia.
  - cbn. lia.
  - exists a, l, st'.
    assert (Ea : a = 1).
    { vm_compute in H1. inversion H1. reflexivity. }
    subst a. vm_compute in H3. inversion H3. subst l. auto.
Qed.

(* the hypothesis of stream_in_sequence (the body decodes the header whose number was checked) on the oracle's instance *)
Example body_header_example :
  forall (r : N * bool) (b n : N),
    (if snd r then Some (fst r) else None) = Some b -> Some (fst r) = Some n -> (fun x : N => x) b = n.
Proof. intros [x [|]] b n H1 H2; cbn in *; congruence. Qed.

Example serve_example :
  serve (fun _ => None) mcode_eqb (mkMsg CNewTx 70000 (Some (5, false)) true) = RDrop /\
  serve (fun _ => None) mcode_eqb (mkMsg CNewTx 300 (Some (0, false)) true) = RPoolAdd /\
  serve (fun _ => None) mcode_eqb (mkMsg CNewBlock 300 (Some (0, false)) false) = RDrop /\
  serve (fun _ => None) mcode_eqb (mkMsg CGetBlocksFromNumber 9 (Some (77, true)) true) = RIgnore /\
  fetch_accept 9 [(Some 8, true)] = FRejected /\ fetch_accept 9 [(Some 9, true)] = FFeed 9.
Proof. vm_compute. repeat split; reflexivity. Qed.


(* C19 <-> C04 (Compose/SyncOrder.v).  sync_converges instantiated with the REAL fork choice of Bft/Model.v:
   Blk := N (block ids read in a universe tree U that holds every block either side knows, so ids identify blocks
   trivially), better i j := ProofsNode.beats c U (block i) (block j) — quality from the definitions, then total score,
   then smaller id, i.e. bft.Select (select_is_sbetter) — and the node := the Sync view (ids of the repository, best
   id) of a Bft node.  The hypotheses "better is asymmetric", "better is negatively transitive", "best is maximal in the
   store" and "ids identify blocks" of sync_converges are DISCHARGED: the first two hold for the order outright
   (bft_order_strict_weak), the third follows from C04's node invariant `inv c nd` (best_is_max), which holds along
   every import history (C04 import_history_invariants).  The remaining premises are those of sync_converges. *)
Theorem bft_order_strict_weak (c : Bft.Model.cfg) (U : Bft.Tree.repo) :
  (forall x y, Compose.SyncOrder.sbetter c U x y = true -> Compose.SyncOrder.sbetter c U y x = false) /\
  (forall x y z, Compose.SyncOrder.sbetter c U x z = true ->
                 Compose.SyncOrder.sbetter c U x y = true \/ Compose.SyncOrder.sbetter c U y z = true) /\
  (forall x y : N, Compose.SyncOrder.sbid x = Compose.SyncOrder.sbid y -> x = y).
Proof.
  exact (conj (Compose.SyncOrder.sbetter_asym c U) (conj (Compose.SyncOrder.sbetter_cotrans c U) Compose.SyncOrder.sbid_inj)).
Qed.

Theorem bft_node_best_max (c : Bft.Model.cfg) (U : Bft.Tree.repo) (nd : Bft.Model.node) :
  Bft.ProofsNode.inv c nd -> Bft.Tree.wf_repo U -> (forall x, In x (Bft.Model.n_repo nd) -> In x U) ->
  best_max N (Compose.SyncOrder.sbetter c U) (Compose.SyncOrder.sync_node nd).
Proof. exact (Compose.SyncOrder.inv_gives_best_max c U nd). Qed.

Theorem sync_converges_bft_order (c : Bft.Model.cfg) (U : Bft.Tree.repo) (nd : Bft.Model.node)
        (num : N -> N) (valid : N -> bool) (lc rc : list N) (cut : N -> nat) (h : N) fuel fuel2 :
  Bft.ProofsNode.inv c nd -> Bft.Tree.wf_repo U -> (forall x, In x (Bft.Model.n_repo nd) -> In x U) ->
  chain_linked N Compose.SyncOrder.sbid (Compose.SyncOrder.sparent U) lc ->
  chain_linked N Compose.SyncOrder.sbid (Compose.SyncOrder.sparent U) rc ->
  (forall b, In b lc -> In b (store N (Compose.SyncOrder.sync_node nd))) ->
  same_at N Compose.SyncOrder.sbid lc rc 0 = true ->
  N.of_nat (length lc - 1) < 2147483648 ->
  (forall n b, nth_error rc n = Some b -> num b = N.of_nat n) ->
  N.of_nat (length rc) < 4294967296 ->
  (forall b, In b rc -> valid b = true) ->
  (forall n, (1 <= cut n <= max_batch)%nat) ->
  nth_error rc (length rc - 1) = Some h ->
  Compose.SyncOrder.sbetter c U h (best N (Compose.SyncOrder.sync_node nd)) = true ->
  (forall b, In b rc -> b <> h -> Compose.SyncOrder.sbetter c U h b = true) ->
  (ancestor_fuel (N.of_nat (length lc - 1)) <= fuel)%nat -> (length rc < fuel2)%nat ->
  exists a l st',
    find_common_ancestor (fun n => Some (same_at N Compose.SyncOrder.sbid lc rc n)) (N.of_nat (length lc - 1)) fuel = Anc a /\
    is_last (same_at N Compose.SyncOrder.sbid lc rc) (N.of_nat (length lc - 1)) a /\
    download_stream N N (fun b => Some (num b)) (fun b => Some b) (honest_peer N rc cut) (a + 1) fuel2 = (l, DlDone) /\
    import_all N Compose.SyncOrder.sbid (Compose.SyncOrder.sparent U) valid (Compose.SyncOrder.sbetter c U)
               (Compose.SyncOrder.sync_node nd) l = (st', true) /\
    best N st' = h.
Proof. exact (Compose.SyncOrder.sync_converges_bft_order c U nd num valid lc rc cut h fuel fuel2). Qed.

(* non-vacuity: a fork where the local branch (best l5: quality 1, total score 200) has the higher total score and the
   peer's branch (head m7: quality 2, total score 7) the higher quality; all hypotheses of sync_converges_bft_order are
   discharged on it (Compose.SyncOrder.sync_converges_bft_order_example) and the peer's head becomes best *)
Example sync_converges_bft_order_example :
  exists a l st',
    find_common_ancestor (fun n => Some (same_at N Compose.SyncOrder.sbid Compose.SyncOrder.ex_lc Compose.SyncOrder.ex_rc n)) 5 20 = Anc a /\
    a = 3 /\ l = map Bft.Tree.b_id (map Compose.SyncOrder.ex_m [4; 5; 6; 7]) /\
    import_all N Compose.SyncOrder.sbid (Compose.SyncOrder.sparent Compose.SyncOrder.ex_U) (fun _ => true)
               (Compose.SyncOrder.sbetter Compose.SyncOrder.ex_cfg Compose.SyncOrder.ex_U)
               (Compose.SyncOrder.sync_node Compose.SyncOrder.ex_nd) l = (st', true) /\
    best N st' = Bft.Tree.b_id (Compose.SyncOrder.ex_m 7).
Proof. exact Compose.SyncOrder.sync_converges_bft_order_example. Qed.

(* C19 <-> C04, second round (Compose/SyncStep.v): the STEP simulation.  Sync's `valid` is instantiated with
   bft.Accepts (valid_bft U fin: fin has number 0 or lies on the chain, in the universe tree U, of the block's parent) and
   Sync's import / import_all are shown to BE the Bft node's import / handleBlockStream seen through sync_node, in a
   fixed finalized context; then sync_converges is restated about the real node.  Side conditions, stated explicitly:
   fin_fixed (finalized does not move during the stream) and no_commit_error (CommitBlock does not fail during the
   stream; after such a failure the Go node has stored the block AND aborts the stream, an outcome Sync's model does not
   have).  no_commit_error is discharged for the repaired code (guard = true) by C04's commit_block_total; fin_fixed is
   dropped for one-chain streams — what an honest peer's download is — because finalized only moves along the imported
   chain; it cannot be dropped in general (fin_moves_valid_is_not_a_function). *)
From Verif Require Compose.SyncStep.

Theorem bft_accepts_is_valid (c : Bft.Model.cfg) (U : Bft.Tree.repo) (nd : Bft.Model.node) (b : Bft.Tree.blk) (fin : N) :
  Bft.ProofsNode.inv c nd -> Bft.Tree.wf_repo U -> (forall x, In x (Bft.Model.n_repo nd) -> In x U) -> In b U ->
  Bft.Tree.known (Bft.Model.n_repo nd) (Bft.Tree.b_parent b) = true -> Bft.Model.e_fin (Bft.Model.n_eng nd) = fin ->
  Bft.Model.accepts (Bft.Model.n_repo nd) (Bft.Model.n_eng nd) (Bft.Tree.b_parent b) =
  Compose.SyncStep.valid_bft U fin (Bft.Tree.b_id b).
Proof. exact (Compose.SyncStep.valid_bft_is_accepts c U nd b fin). Qed.

(* one block: codes 0 / 1 -> Some (Sync view of Bft's next node); codes 2 / 3 -> None; a CommitBlock error (100+) ->
   Some as far as the state goes (bft_step_commit_error) *)
Theorem bft_step_sim (c : Bft.Model.cfg) (guard : bool) (U : Bft.Tree.repo) (nd : Bft.Model.node) (b : Bft.Tree.blk) (fin : N) :
  0 < Bft.Model.c_L c -> Bft.ProofsNode.inv c nd -> Bft.Tree.wf_repo U -> (forall x, In x (Bft.Model.n_repo nd) -> In x U) ->
  In b U -> Bft.Model.e_fin (Bft.Model.n_eng nd) = fin ->
  import N Compose.SyncOrder.sbid (Compose.SyncOrder.sparent U) (Compose.SyncStep.valid_bft U fin)
         (Compose.SyncOrder.sbetter c U) (Compose.SyncOrder.sync_node nd) (Bft.Tree.b_id b) =
  if Compose.SyncStep.rejected (snd (Bft.Model.import guard c nd b)) then None
  else Some (Compose.SyncOrder.sync_node (fst (Bft.Model.import guard c nd b))).
Proof. exact (Compose.SyncStep.step_sim c guard U nd b fin). Qed.

Theorem bft_step_commit_error (c : Bft.Model.cfg) (guard : bool) (U : Bft.Tree.repo) (nd : Bft.Model.node)
        (b : Bft.Tree.blk) (fin : N) (nd' : Bft.Model.node) (code : N) :
  0 < Bft.Model.c_L c -> Bft.Tree.wf_repo U -> Bft.ProofsNode.inv c nd -> (forall x, In x (Bft.Model.n_repo nd) -> In x U) ->
  In b U -> Bft.Model.e_fin (Bft.Model.n_eng nd) = fin -> Bft.Model.import guard c nd b = (nd', code) -> 100 <= code ->
  import N Compose.SyncOrder.sbid (Compose.SyncOrder.sparent U) (Compose.SyncStep.valid_bft U fin)
         (Compose.SyncOrder.sbetter c U) (Compose.SyncOrder.sync_node nd) (Bft.Tree.b_id b) =
    Some (Compose.SyncOrder.sync_node nd') /\
  Bft.Model.n_repo nd' = b :: Bft.Model.n_repo nd.
Proof. intros HL WU. exact (Compose.SyncStep.step_commit_error c HL guard U WU nd b fin nd' code). Qed.

(* a stream: Sync's import_all = Bft's handleBlockStream (same stopping point, same verdict) through sync_node *)
Theorem bft_stream_sim (c : Bft.Model.cfg) (guard : bool) (U : Bft.Tree.repo) (fin : N) (l : list Bft.Tree.blk) (nd : Bft.Model.node) :
  0 < Bft.Model.c_L c -> Bft.Tree.wf_repo U -> Bft.ProofsNode.inv c nd -> (forall x, In x (Bft.Model.n_repo nd) -> In x U) ->
  (forall b, In b l -> In b U) ->
  Compose.SyncStep.fin_fixed c guard nd l fin -> Compose.SyncStep.no_commit_error c guard nd l ->
  import_all N Compose.SyncOrder.sbid (Compose.SyncOrder.sparent U) (Compose.SyncStep.valid_bft U fin)
             (Compose.SyncOrder.sbetter c U) (Compose.SyncOrder.sync_node nd) (map Bft.Tree.b_id l) =
  (Compose.SyncOrder.sync_node (fst (Compose.SyncStep.import_stream c guard nd l)), snd (Compose.SyncStep.import_stream c guard nd l)).
Proof. intros HL WU. exact (Compose.SyncStep.stream_sim c HL guard U WU fin l nd). Qed.

Theorem bft_stream_sim_ok (c : Bft.Model.cfg) (guard : bool) (U : Bft.Tree.repo) (fin : N) (l : list Bft.Tree.blk) (nd : Bft.Model.node) :
  0 < Bft.Model.c_L c -> Bft.Tree.wf_repo U -> Bft.ProofsNode.inv c nd -> (forall x, In x (Bft.Model.n_repo nd) -> In x U) ->
  (forall b, In b l -> In b U) ->
  Compose.SyncStep.fin_fixed c guard nd l fin -> Compose.SyncStep.codes_ok c guard nd l ->
  import_all N Compose.SyncOrder.sbid (Compose.SyncOrder.sparent U) (Compose.SyncStep.valid_bft U fin)
             (Compose.SyncOrder.sbetter c U) (Compose.SyncOrder.sync_node nd) (map Bft.Tree.b_id l) =
  (Compose.SyncOrder.sync_node (Bft.ProofsNode.import_all c guard nd l), true).
Proof. intros HL WU. exact (Compose.SyncStep.stream_sim_ok c HL guard U WU fin l nd). Qed.

(* one chain hanging off a stored block: finalized may move, nothing is refused *)
Theorem bft_stream_sim_chain (c : Bft.Model.cfg) (guard : bool) (U : Bft.Tree.repo) (fin0 : N) (l : list Bft.Tree.blk)
        (nd : Bft.Model.node) (prev : N) :
  0 < Bft.Model.c_L c -> Bft.Tree.wf_repo U ->
  Bft.ProofsNode.inv c nd -> Bft.ProofsMonotone.fin_ok nd -> (forall x, In x (Bft.Model.n_repo nd) -> In x U) ->
  (forall b, In b l -> In b U) -> (forall b, In b l -> Bft.Tree.b_num b <> 0) ->
  Compose.SyncStep.linked_from prev l -> Bft.Tree.known (Bft.Model.n_repo nd) prev = true ->
  (Bft.Model.e_fin (Bft.Model.n_eng nd) = fin0 \/ Bft.Model.accepts (Bft.Model.n_repo nd) (Bft.Model.n_eng nd) prev = true) ->
  (forall b, In b l -> Bft.Tree.known (Bft.Model.n_repo nd) (Bft.Tree.b_id b) = false ->
             Compose.SyncStep.valid_bft U fin0 (Bft.Tree.b_id b) = true) ->
  Compose.SyncStep.no_commit_error c guard nd l ->
  import_all N Compose.SyncOrder.sbid (Compose.SyncOrder.sparent U) (Compose.SyncStep.valid_bft U fin0)
             (Compose.SyncOrder.sbetter c U) (Compose.SyncOrder.sync_node nd) (map Bft.Tree.b_id l) =
  (Compose.SyncOrder.sync_node (Bft.ProofsNode.import_all c guard nd l), true) /\
  Compose.SyncStep.codes_ok c guard nd l.
Proof. intros HL WU. exact (Compose.SyncStep.stream_sim_chain c HL guard U WU fin0 l nd prev). Qed.

(* C04 commit_block_total, relative to a universe: the repaired CommitBlock does not fail on any stream *)
Theorem bft_no_commit_error_guarded (c : Bft.Model.cfg) (U : Bft.Tree.repo) (l : list Bft.Tree.blk) (nd : Bft.Model.node) :
  0 < Bft.Model.c_L c -> Bft.Tree.wf_repo U -> Bft.ProofsNode.inv c nd -> Bft.ProofsCommit.fin_cp c nd ->
  (forall x, In x (Bft.Model.n_repo nd) -> In x U) -> (forall b, In b l -> In b U) ->
  Compose.SyncStep.no_commit_error c true nd l.
Proof. intros HL WU. exact (Compose.SyncStep.no_commit_error_guarded c U HL WU l nd). Qed.

(* sync_converges on the real node, finalized fixed: premises of sync_converges_bft_order with `valid` replaced by what
   bft.Accepts means (asked only of blocks the node does not store), plus 0 < epoch length and "U holds the peer's chain" *)
Theorem sync_converges_bft_node (c : Bft.Model.cfg) (guard : bool) (U : Bft.Tree.repo) (nd : Bft.Model.node) (fin : N)
        (num : N -> N) (lc rc : list N) (cut : N -> nat) (h : N) fuel fuel2 :
  0 < Bft.Model.c_L c ->
  Bft.ProofsNode.inv c nd -> Bft.Tree.wf_repo U -> (forall x, In x (Bft.Model.n_repo nd) -> In x U) ->
  (forall i, In i rc -> Bft.Tree.known U i = true) ->
  chain_linked N Compose.SyncOrder.sbid (Compose.SyncOrder.sparent U) lc ->
  chain_linked N Compose.SyncOrder.sbid (Compose.SyncOrder.sparent U) rc ->
  (forall b, In b lc -> In b (store N (Compose.SyncOrder.sync_node nd))) ->
  same_at N Compose.SyncOrder.sbid lc rc 0 = true ->
  N.of_nat (length lc - 1) < 2147483648 ->
  (forall n b, nth_error rc n = Some b -> num b = N.of_nat n) ->
  N.of_nat (length rc) < 4294967296 ->
  (forall i, In i rc -> Bft.Tree.known (Bft.Model.n_repo nd) i = false ->
     Bft.Tree.idnum fin = 0 \/ Bft.Tree.has_block U (Compose.SyncOrder.sparent U i) fin = true) ->
  (forall n, (1 <= cut n <= max_batch)%nat) ->
  nth_error rc (length rc - 1) = Some h ->
  Compose.SyncOrder.sbetter c U h (best N (Compose.SyncOrder.sync_node nd)) = true ->
  (forall b, In b rc -> b <> h -> Compose.SyncOrder.sbetter c U h b = true) ->
  (ancestor_fuel (N.of_nat (length lc - 1)) <= fuel)%nat -> (length rc < fuel2)%nat ->
  exists a l,
    find_common_ancestor (fun n => Some (same_at N Compose.SyncOrder.sbid lc rc n)) (N.of_nat (length lc - 1)) fuel = Anc a /\
    is_last (same_at N Compose.SyncOrder.sbid lc rc) (N.of_nat (length lc - 1)) a /\
    download_stream N N (fun b => Some (num b)) (fun b => Some b) (honest_peer N rc cut) (a + 1) fuel2 = (l, DlDone) /\
    l = skipn (N.to_nat (a + 1)) rc /\
    (Compose.SyncStep.fin_fixed c guard nd (map (Compose.SyncOrder.blk_of U) l) fin ->
     Compose.SyncStep.no_commit_error c guard nd (map (Compose.SyncOrder.blk_of U) l) ->
     let nd' := Bft.ProofsNode.import_all c guard nd (map (Compose.SyncOrder.blk_of U) l) in
     import_all N Compose.SyncOrder.sbid (Compose.SyncOrder.sparent U) (Compose.SyncStep.valid_bft U fin)
                (Compose.SyncOrder.sbetter c U) (Compose.SyncOrder.sync_node nd) l = (Compose.SyncOrder.sync_node nd', true) /\
     Compose.SyncStep.codes_ok c guard nd (map (Compose.SyncOrder.blk_of U) l) /\
     Bft.ProofsNode.inv c nd' /\ Bft.Model.n_best nd' = h).
Proof. exact (Compose.SyncStep.sync_converges_bft_node c guard U nd fin num lc rc cut h fuel fuel2). Qed.

(* ... finalized free to move (the download is one chain): fin is the node's finalized id when the download starts *)
Theorem sync_converges_bft_node_chain (c : Bft.Model.cfg) (guard : bool) (U : Bft.Tree.repo) (nd : Bft.Model.node)
        (num : N -> N) (lc rc : list N) (cut : N -> nat) (h : N) fuel fuel2 :
  0 < Bft.Model.c_L c ->
  Bft.ProofsNode.inv c nd -> Bft.ProofsMonotone.fin_ok nd -> Bft.Tree.wf_repo U ->
  (forall x, In x (Bft.Model.n_repo nd) -> In x U) ->
  (forall i, In i rc -> Bft.Tree.known U i = true) ->
  chain_linked N Compose.SyncOrder.sbid (Compose.SyncOrder.sparent U) lc ->
  chain_linked N Compose.SyncOrder.sbid (Compose.SyncOrder.sparent U) rc ->
  (forall b, In b lc -> In b (store N (Compose.SyncOrder.sync_node nd))) ->
  same_at N Compose.SyncOrder.sbid lc rc 0 = true ->
  N.of_nat (length lc - 1) < 2147483648 ->
  (forall n b, nth_error rc n = Some b -> num b = N.of_nat n) -> (forall i, In i rc -> num i = Bft.Tree.idnum i) ->
  N.of_nat (length rc) < 4294967296 ->
  (forall i, In i rc -> Bft.Tree.known (Bft.Model.n_repo nd) i = false ->
     Bft.Tree.idnum (Bft.Model.e_fin (Bft.Model.n_eng nd)) = 0 \/
     Bft.Tree.has_block U (Compose.SyncOrder.sparent U i) (Bft.Model.e_fin (Bft.Model.n_eng nd)) = true) ->
  (forall n, (1 <= cut n <= max_batch)%nat) ->
  nth_error rc (length rc - 1) = Some h ->
  Compose.SyncOrder.sbetter c U h (best N (Compose.SyncOrder.sync_node nd)) = true ->
  (forall b, In b rc -> b <> h -> Compose.SyncOrder.sbetter c U h b = true) ->
  (ancestor_fuel (N.of_nat (length lc - 1)) <= fuel)%nat -> (length rc < fuel2)%nat ->
  exists a l,
    find_common_ancestor (fun n => Some (same_at N Compose.SyncOrder.sbid lc rc n)) (N.of_nat (length lc - 1)) fuel = Anc a /\
    is_last (same_at N Compose.SyncOrder.sbid lc rc) (N.of_nat (length lc - 1)) a /\
    download_stream N N (fun b => Some (num b)) (fun b => Some b) (honest_peer N rc cut) (a + 1) fuel2 = (l, DlDone) /\
    l = skipn (N.to_nat (a + 1)) rc /\
    (Compose.SyncStep.no_commit_error c guard nd (map (Compose.SyncOrder.blk_of U) l) ->
     let nd' := Bft.ProofsNode.import_all c guard nd (map (Compose.SyncOrder.blk_of U) l) in
     import_all N Compose.SyncOrder.sbid (Compose.SyncOrder.sparent U)
                (Compose.SyncStep.valid_bft U (Bft.Model.e_fin (Bft.Model.n_eng nd)))
                (Compose.SyncOrder.sbetter c U) (Compose.SyncOrder.sync_node nd) l = (Compose.SyncOrder.sync_node nd', true) /\
     Compose.SyncStep.codes_ok c guard nd (map (Compose.SyncOrder.blk_of U) l) /\
     Bft.ProofsNode.inv c nd' /\ Bft.Model.n_best nd' = h).
Proof. exact (Compose.SyncStep.sync_converges_bft_node_chain c guard U nd num lc rc cut h fuel fuel2). Qed.

(* ... and for the repaired code (guard = true) with finalized at a checkpoint number: no side condition about the run *)
Theorem sync_converges_bft_node_guarded (c : Bft.Model.cfg) (U : Bft.Tree.repo) (nd : Bft.Model.node)
        (num : N -> N) (lc rc : list N) (cut : N -> nat) (h : N) fuel fuel2 :
  0 < Bft.Model.c_L c ->
  Bft.ProofsNode.inv c nd -> Bft.ProofsMonotone.fin_ok nd -> Bft.ProofsCommit.fin_cp c nd -> Bft.Tree.wf_repo U ->
  (forall x, In x (Bft.Model.n_repo nd) -> In x U) ->
  (forall i, In i rc -> Bft.Tree.known U i = true) ->
  chain_linked N Compose.SyncOrder.sbid (Compose.SyncOrder.sparent U) lc ->
  chain_linked N Compose.SyncOrder.sbid (Compose.SyncOrder.sparent U) rc ->
  (forall b, In b lc -> In b (store N (Compose.SyncOrder.sync_node nd))) ->
  same_at N Compose.SyncOrder.sbid lc rc 0 = true ->
  N.of_nat (length lc - 1) < 2147483648 ->
  (forall n b, nth_error rc n = Some b -> num b = N.of_nat n) -> (forall i, In i rc -> num i = Bft.Tree.idnum i) ->
  N.of_nat (length rc) < 4294967296 ->
  (forall i, In i rc -> Bft.Tree.known (Bft.Model.n_repo nd) i = false ->
     Bft.Tree.idnum (Bft.Model.e_fin (Bft.Model.n_eng nd)) = 0 \/
     Bft.Tree.has_block U (Compose.SyncOrder.sparent U i) (Bft.Model.e_fin (Bft.Model.n_eng nd)) = true) ->
  (forall n, (1 <= cut n <= max_batch)%nat) ->
  nth_error rc (length rc - 1) = Some h ->
  Compose.SyncOrder.sbetter c U h (best N (Compose.SyncOrder.sync_node nd)) = true ->
  (forall b, In b rc -> b <> h -> Compose.SyncOrder.sbetter c U h b = true) ->
  (ancestor_fuel (N.of_nat (length lc - 1)) <= fuel)%nat -> (length rc < fuel2)%nat ->
  exists a l,
    find_common_ancestor (fun n => Some (same_at N Compose.SyncOrder.sbid lc rc n)) (N.of_nat (length lc - 1)) fuel = Anc a /\
    is_last (same_at N Compose.SyncOrder.sbid lc rc) (N.of_nat (length lc - 1)) a /\
    download_stream N N (fun b => Some (num b)) (fun b => Some b) (honest_peer N rc cut) (a + 1) fuel2 = (l, DlDone) /\
    l = skipn (N.to_nat (a + 1)) rc /\
    let nd' := Bft.ProofsNode.import_all c true nd (map (Compose.SyncOrder.blk_of U) l) in
    import_all N Compose.SyncOrder.sbid (Compose.SyncOrder.sparent U)
               (Compose.SyncStep.valid_bft U (Bft.Model.e_fin (Bft.Model.n_eng nd)))
               (Compose.SyncOrder.sbetter c U) (Compose.SyncOrder.sync_node nd) l = (Compose.SyncOrder.sync_node nd', true) /\
    Compose.SyncStep.codes_ok c true nd (map (Compose.SyncOrder.blk_of U) l) /\
    Bft.ProofsNode.inv c nd' /\ Bft.Model.n_best nd' = h.
Proof. exact (Compose.SyncStep.sync_converges_bft_node_guarded c U nd num lc rc cut h fuel fuel2). Qed.

(* non-vacuity (Compose/SyncStep.v section 6).  Instance with a NON-genesis finalized block m2 (epoch length 2): local
   head l7 (quality 2, total score 200), peer's chain g..m7 resp. g..m9; the common ancestor is height 5; finalized is m2
   at the arrival of m6 and m7 (fixed-finalized statement) and moves to m4 and m6 while m6..m9 are imported (guarded
   statement); every import has code 0 and the peer's head becomes the Bft node's best block. *)
Example sync_converges_bft_node_example :
  Bft.Tree.idnum Compose.SyncStep.ex2_fin <> 0 /\
  exists a l,
    find_common_ancestor (fun n => Some (same_at N Compose.SyncOrder.sbid Compose.SyncStep.ex2_lc Compose.SyncStep.ex2_rc7 n)) 7 20 = Anc a /\
    a = 5 /\ l = map Bft.Tree.b_id (map Compose.SyncStep.ex2_m [6; 7]) /\
    let nd' := Bft.ProofsNode.import_all Compose.SyncStep.ex2_cfg true Compose.SyncStep.ex2_nd
                 (map (Compose.SyncOrder.blk_of Compose.SyncStep.ex2_U) l) in
    import_all N Compose.SyncOrder.sbid (Compose.SyncOrder.sparent Compose.SyncStep.ex2_U)
               (Compose.SyncStep.valid_bft Compose.SyncStep.ex2_U Compose.SyncStep.ex2_fin)
               (Compose.SyncOrder.sbetter Compose.SyncStep.ex2_cfg Compose.SyncStep.ex2_U)
               (Compose.SyncOrder.sync_node Compose.SyncStep.ex2_nd) l = (Compose.SyncOrder.sync_node nd', true) /\
    Compose.SyncStep.codes_ok Compose.SyncStep.ex2_cfg true Compose.SyncStep.ex2_nd
      (map (Compose.SyncOrder.blk_of Compose.SyncStep.ex2_U) l) /\
    Bft.ProofsNode.inv Compose.SyncStep.ex2_cfg nd' /\ Bft.Model.n_best nd' = Bft.Tree.b_id (Compose.SyncStep.ex2_m 7).
Proof. exact Compose.SyncStep.sync_converges_bft_node_example. Qed.

Example sync_converges_bft_node_guarded_example :
  exists a l,
    find_common_ancestor (fun n => Some (same_at N Compose.SyncOrder.sbid Compose.SyncStep.ex2_lc Compose.SyncStep.ex2_rc9 n)) 7 20 = Anc a /\
    a = 5 /\ l = map Bft.Tree.b_id (map Compose.SyncStep.ex2_m [6; 7; 8; 9]) /\
    let nd' := Bft.ProofsNode.import_all Compose.SyncStep.ex2_cfg true Compose.SyncStep.ex2_nd
                 (map (Compose.SyncOrder.blk_of Compose.SyncStep.ex2_U) l) in
    import_all N Compose.SyncOrder.sbid (Compose.SyncOrder.sparent Compose.SyncStep.ex2_U)
               (Compose.SyncStep.valid_bft Compose.SyncStep.ex2_U Compose.SyncStep.ex2_fin)
               (Compose.SyncOrder.sbetter Compose.SyncStep.ex2_cfg Compose.SyncStep.ex2_U)
               (Compose.SyncOrder.sync_node Compose.SyncStep.ex2_nd) l = (Compose.SyncOrder.sync_node nd', true) /\
    Compose.SyncStep.codes_ok Compose.SyncStep.ex2_cfg true Compose.SyncStep.ex2_nd
      (map (Compose.SyncOrder.blk_of Compose.SyncStep.ex2_U) l) /\
    Bft.ProofsNode.inv Compose.SyncStep.ex2_cfg nd' /\ Bft.Model.n_best nd' = Bft.Tree.b_id (Compose.SyncStep.ex2_m 9) /\
    Bft.Model.e_fin (Bft.Model.n_eng nd') = Bft.Tree.b_id (Compose.SyncStep.ex2_m 6).
Proof. exact Compose.SyncStep.sync_converges_bft_node_guarded_example. Qed.

(* why fin_fixed cannot be dropped for arbitrary streams: the fork block f4 is imported (code 0) when it arrives before
   m7 and refused (code 3) when it arrives after m7 has moved finalized from m2 to m4, while Sync's state-independent
   `valid` at fin = m2 accepts it in both orders *)
Example fin_moves_valid_is_not_a_function :
  Bft.Safety.import_codes true Compose.SyncStep.ex2_cfg Compose.SyncStep.ex2_nd
    ([Compose.SyncStep.ex2_f4] ++ map Compose.SyncStep.ex2_m [6; 7]) = [0; 0; 0] /\
  Bft.Safety.import_codes true Compose.SyncStep.ex2_cfg Compose.SyncStep.ex2_nd
    (map Compose.SyncStep.ex2_m [6; 7] ++ [Compose.SyncStep.ex2_f4]) = [0; 0; 3] /\
  Compose.SyncStep.valid_bft Compose.SyncStep.ex2_U Compose.SyncStep.ex2_fin (Bft.Tree.b_id Compose.SyncStep.ex2_f4) = true /\
  Compose.SyncStep.valid_bft Compose.SyncStep.ex2_U (Bft.Tree.b_id (Compose.SyncStep.ex2_m 4)) (Bft.Tree.b_id Compose.SyncStep.ex2_f4) = false /\
  snd (import_all N Compose.SyncOrder.sbid (Compose.SyncOrder.sparent Compose.SyncStep.ex2_U)
         (Compose.SyncStep.valid_bft Compose.SyncStep.ex2_U Compose.SyncStep.ex2_fin)
         (Compose.SyncOrder.sbetter Compose.SyncStep.ex2_cfg Compose.SyncStep.ex2_U)
         (Compose.SyncOrder.sync_node Compose.SyncStep.ex2_nd)
         (map Bft.Tree.b_id (map Compose.SyncStep.ex2_m [6; 7] ++ [Compose.SyncStep.ex2_f4]))) = true /\
  ~ Compose.SyncStep.fin_fixed Compose.SyncStep.ex2_cfg true Compose.SyncStep.ex2_nd
      (map Compose.SyncStep.ex2_m [6; 7] ++ [Compose.SyncStep.ex2_f4]) Compose.SyncStep.ex2_fin.
Proof. exact Compose.SyncStep.fin_moves_valid_is_not_a_function. Qed.

Print Assumptions ancestor_example.
Print Assumptions ancestor_hyps_example.
Print Assumptions ancestor_wrap_example.
Print Assumptions bad_batch_example.
Print Assumptions ancestor_terminates.
Print Assumptions stream_in_sequence_nowrap.
Print Assumptions hostile_effect_guarded.
Print Assumptions hostile_oversize_dropped.
Print Assumptions hostile_undecodable_dropped.
Print Assumptions hostile_unknown_code_dropped.
Print Assumptions hostile_other_codes_read_only.
Print Assumptions hostile_result_guarded.
Print Assumptions hostile_announcement_fetch_guarded.
Print Assumptions hostile_import_sound.
Print Assumptions ancestor_correct.
Print Assumptions last_common_unique.
Print Assumptions ancestor_fail_sound.
Print Assumptions ancestor_result_probed.
Print Assumptions bad_batch_rejected.
Print Assumptions stream_in_sequence.
Print Assumptions download_complete.
Print Assumptions sync_converges.
Print Assumptions sync_converges_example.
Print Assumptions bft_order_strict_weak.
Print Assumptions bft_node_best_max.
Print Assumptions sync_converges_bft_order.
Print Assumptions sync_converges_bft_order_example.
Print Assumptions bft_accepts_is_valid.
Print Assumptions bft_step_sim.
Print Assumptions bft_step_commit_error.
Print Assumptions bft_stream_sim.
Print Assumptions bft_stream_sim_ok.
Print Assumptions bft_stream_sim_chain.
Print Assumptions bft_no_commit_error_guarded.
Print Assumptions sync_converges_bft_node.
Print Assumptions sync_converges_bft_node_chain.
Print Assumptions sync_converges_bft_node_guarded.
Print Assumptions sync_converges_bft_node_example.
Print Assumptions sync_converges_bft_node_guarded_example.
Print Assumptions fin_moves_valid_is_not_a_function.
