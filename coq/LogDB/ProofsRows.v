(* LogDB/ProofsRows.v — "writing a block above every stored key appends its rows": Write into tables whose keys are
   all below the block's range appends exactly the rows the receipts prescribe (block_events / block_transfers);
   hence the rows of a path are the concatenation, in chain order, of the per-block rows. *)
From Coq Require Import List NArith Bool Lia ZifyN ZifyNat ZifyBool.
From Verif Require Import Chain.Model Chain.Proofs Chain.ProofsWalk Chain.ProofsSys Chain.ProofsPath
  LogDB.Model LogDB.Proofs LogDB.ProofsCanon.
Import ListNotations.
Open Scope N_scope.

Section SpecAsc.
  Variables bid bnum btime : N.

  Lemma spec_events_asc txid origin txi clause evs : forall ec,
    asc_in er_seq (pack bnum txi ec) (pack bnum txi (ec + lenN evs)) (spec_events bid bnum btime txid origin txi clause ec evs).
  Proof.
    unfold lenN. induction evs as [|e evs IH]; intros ec; cbn [spec_events asc_in length er_seq]; [unfold pack; lia|].
    split; [lia|]. replace (pack bnum txi ec + 1) with (pack bnum txi (ec + 1)) by (unfold pack; lia).
    replace (ec + N.of_nat (S (length evs))) with (ec + 1 + N.of_nat (length evs)) by lia. apply IH.
  Qed.
  Lemma spec_transfers_asc txid origin txi clause trs : forall tc,
    asc_in tr_seq (pack bnum txi tc) (pack bnum txi (tc + lenN trs)) (spec_transfers bid bnum btime txid origin txi clause tc trs).
  Proof.
    unfold lenN. induction trs as [|t trs IH]; intros tc; cbn [spec_transfers asc_in length tr_seq]; [unfold pack; lia|].
    split; [lia|]. replace (pack bnum txi tc + 1) with (pack bnum txi (tc + 1)) by (unfold pack; lia).
    replace (tc + N.of_nat (S (length trs))) with (tc + 1 + N.of_nat (length trs)) by lia. apply IH.
  Qed.

  Lemma spec_outputs_ev_asc txid origin txi outs : forall clause ec,
    asc_in er_seq (pack bnum txi ec) (pack bnum txi (ec + count_ev outs)) (spec_outputs_ev bid bnum btime txid origin txi clause ec outs).
  Proof.
    induction outs as [|[evs trs] outs IH]; intros clause ec; cbn [spec_outputs_ev count_ev asc_in]; [unfold pack; lia|].
    rewrite N.add_assoc. eapply asc_in_app; [apply N.le_refl | apply IH | apply spec_events_asc].
  Qed.
  Lemma spec_outputs_tr_asc txid origin txi outs : forall clause tc,
    asc_in tr_seq (pack bnum txi tc) (pack bnum txi (tc + count_tr outs)) (spec_outputs_tr bid bnum btime txid origin txi clause tc outs).
  Proof.
    induction outs as [|[evs trs] outs IH]; intros clause tc; cbn [spec_outputs_tr count_tr asc_in]; [unfold pack; lia|].
    rewrite N.add_assoc. eapply asc_in_app; [apply N.le_refl | apply IH | apply spec_transfers_asc].
  Qed.

  Lemma spec_receipts_ev_asc rcs : forall txs txi ec, exists k',
    asc_in er_seq (pack bnum txi ec) k' (spec_receipts_ev bid bnum btime txs rcs txi ec).
  Proof.
    induction rcs as [|rc rcs IH]; intros txs txi ec; cbn [spec_receipts_ev]; [exists (pack bnum txi ec); apply N.le_refl|].
    destruct (IH (tl txs) (txi + 1) (ec + count_ev (rc_outs rc))) as [k' H]. exists k'.
    eapply asc_in_app; [|exact H | apply spec_outputs_ev_asc]. unfold pack. lia.
  Qed.
  Lemma spec_receipts_tr_asc rcs : forall txs txi tc, exists k',
    asc_in tr_seq (pack bnum txi tc) k' (spec_receipts_tr bid bnum btime txs rcs txi tc).
  Proof.
    induction rcs as [|rc rcs IH]; intros txs txi tc; cbn [spec_receipts_tr]; [exists (pack bnum txi tc); apply N.le_refl|].
    destruct (IH (tl txs) (txi + 1) (tc + count_tr (rc_outs rc))) as [k' H]. exists k'.
    eapply asc_in_app; [|exact H | apply spec_outputs_tr_asc]. unfold pack. lia.
  Qed.
End SpecAsc.

Theorem write_block_appends b d d' : write_block b d = Some d' -> below (num_of (b_id b) * two35) d ->
  db_events d' = db_events d ++ block_events b /\ db_transfers d' = db_transfers d ++ block_transfers b.
Proof.
  intros H [B1 B2]. destruct (write_block_some _ _ _ H) as [-> _]. unfold block_events, block_transfers, put. cbn [db_events db_transfers].
  destruct (spec_receipts_ev_asc (b_id b) (num_of (b_id b)) (b_time b) (b_rcs b) (b_txs b) 0 0) as [ke He].
  destruct (spec_receipts_tr_asc (b_id b) (num_of (b_id b)) (b_time b) (b_rcs b) (b_txs b) 0 0) as [kt Ht].
  split; [eapply (puts_append er_seq ins_ev ins_ev_eq); [|exact He] | eapply (puts_append tr_seq ins_tr ins_tr_eq); [|exact Ht]];
    intros x Hx; [specialize (B1 x Hx) | specialize (B2 x Hx)]; unfold pack, two35 in *; lia.
Qed.

(* the rows of a path (heights descending) are the per-block rows concatenated in chain order *)
Lemma rows_of_path_flat r st : wf_body r -> desc st -> forall d, rows_of_path r st = Some d ->
  db_events d = chain_events r st /\ db_transfers d = chain_transfers r st.
Proof.
  intros WB. unfold desc. induction 1 as [|x st St IH Ft]; intros d H; cbn [rows_of_path] in H.
  - injection H as <-. auto.
  - destruct (rows_of_path r st) as [d0|] eqn:E0; [|discriminate].
    destruct (get_block r x) as [[s bx]|] eqn:Eb; [|discriminate].
    destruct (IH d0 eq_refl) as [I1 I2]. cbn [chain_events chain_transfers]. rewrite Eb, <- I1, <- I2.
    apply write_block_appends; [exact H|]. rewrite (get_block_id_eq r WB _ _ _ Eb).
    apply (rows_below r WB st d0 (num_of x) E0). rewrite Forall_forall in Ft. exact Ft.
Qed.
