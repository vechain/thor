(* EVM/ProofsGas.v — the interpreter's gas functions (Model.v: mem_gas, call_gas; transcribed from gas_table.go / gas.go) equal
   the declarative specification of GasSpec.v; C_mem is monotone and expansion costs add up. *)
From Coq Require Import ZArith Bool Lia.
From Verif Require Import EVM.Word EVM.ProofsALU EVM.Model EVM.GasSpec.
Open Scope Z_scope.

Lemma mem_total_mono a b : 0 <= a <= b -> mem_total a <= mem_total b.
Proof.
  intros H. unfold mem_total. assert (a * a <= b * b) by nia.
  assert (a * a / 512 <= b * b / 512) by (apply Z.div_le_mono; lia). lia.
Qed.
Lemma mem_gas_nonneg msize n g : 0 <= msize -> mem_gas msize n = Some g -> 0 <= g.
Proof.
  intros Hm. unfold mem_gas. destruct (n =? 0). { inversion 1; lia. }
  destruct (1099511627744 <? n). { discriminate. }
  destruct (Z.ltb_spec msize (to_words n * 32)); inversion 1; [|lia].
  assert (0 <= msize / 32) by (apply Z.div_pos; lia).
  assert (msize / 32 < to_words n) by (apply Z.div_lt_upper_bound; lia).
  pose proof (mem_total_mono (msize / 32) (to_words n)). lia.
Qed.
Lemma oadd_some a b c : oadd a b = Some c -> exists x, a = Some x /\ c = x + b.
Proof. unfold oadd. destruct a as [x|]; [|discriminate]. destruct (W64 <=? x + b); [discriminate|]. inversion 1. eauto. Qed.
Lemma to_words_nonneg x : 0 <= x -> 0 <= to_words x.
Proof. intros. unfold to_words. apply Z.div_pos; lia. Qed.
Lemma bit_len_nonneg x : 0 <= bit_len x.
Proof. unfold bit_len. destruct (x <=? 0). lia. pose proof (Z.log2_nonneg x). lia. Qed.
Lemma alu_gas_pos a st : 3 <= alu_gas a st.
Proof.
  destruct a; cbn [alu_gas]; try lia.
  pose proof (bit_len_nonneg (nthz st 1)).
  assert (0 <= (bit_len (nthz st 1) + 7) / 8) by (apply Z.div_pos; lia). lia.
Qed.
Lemma call_gas_nonneg avail base c : 0 <= c -> 0 <= call_gas avail base c.
Proof.
  intros Hc. unfold call_gas. set (a := (avail - base) mod W64).
  assert (0 <= a < W64). { apply Z.mod_pos_bound. rewrite W64_eq. lia. }
  assert (a / 64 <= a). { apply Z.div_le_upper_bound; lia. }
  destruct ((W64 <=? c) || (a - a / 64 <? c)); lia.
Qed.

Lemma mem_total_is_mem_cost w : mem_total w = mem_cost w.
Proof. unfold mem_total, mem_cost. rewrite Z.pow_2_r. lia. Qed.

Lemma mem_cost_monotone a b : 0 <= a <= b -> mem_cost a <= mem_cost b.
Proof. intros. rewrite <- !mem_total_is_mem_cost. apply mem_total_mono; assumption. Qed.

Lemma expansion_cost_nonneg a b : 0 <= a <= b -> 0 <= expansion_cost a b.
Proof. intros H. unfold expansion_cost. pose proof (mem_cost_monotone a b H). lia. Qed.

Lemma expansion_cost_additive a b c : expansion_cost a b + expansion_cost b c = expansion_cost a c.
Proof. unfold expansion_cost. lia. Qed.

(* memoryGasCost: memory currently holds ow words; the instruction needs the range [off, off+len) (len > 0 case folded into
   need = off + len, need = 0 for len = 0); within the 0xffffffffe0 bound the charge is C_mem(new) - C_mem(old) *)
Theorem mem_gas_matches_spec ow need :
  0 <= ow -> 0 <= need -> to_words need * 32 <= 1099511627744 ->
  mem_gas (32 * ow) (to_words need * 32) = Some (expansion_cost ow (Z.max ow (to_words need))).
Proof.
  intros How Hn Hb. unfold mem_gas, expansion_cost.
  assert (Hw : 0 <= to_words need) by (apply to_words_nonneg; assumption).
  assert (Hdiv : 32 * ow / 32 = ow) by (rewrite Z.mul_comm; apply Z.div_mul; lia).
  assert (Hidem : to_words (to_words need * 32) = to_words need).
  { unfold to_words at 1. replace (to_words need * 32 + 31) with (31 + to_words need * 32) by lia.
    rewrite Z.div_add by lia. rewrite (Z.div_small 31 32) by lia. lia. }
  destruct (Z.eqb_spec (to_words need * 32) 0) as [E|E].
  { assert (to_words need = 0) by lia. rewrite H. rewrite Z.max_l by lia. f_equal. lia. }
  destruct (Z.ltb_spec 1099511627744 (to_words need * 32)); [lia|].
  rewrite Hidem, Hdiv, !mem_total_is_mem_cost.
  destruct (Z.ltb_spec (32 * ow) (to_words need * 32)).
  - rewrite Z.max_r by lia. reflexivity.
  - rewrite Z.max_l by lia. f_equal. lia.
Qed.

(* the word count the interpreter resizes to is the specification's words_after *)
Lemma words_after_to_words ow off len : 0 <= off -> 0 < len ->
  words_after ow off len = Z.max ow (to_words (off + len)).
Proof. intros. unfold words_after, to_words. destruct (Z.eqb_spec len 0); [lia|reflexivity]. Qed.

(* callGas (EIP-150): for a call whose own cost is affordable, the callee receives min(requested, L(available - base)) *)
Theorem call_gas_matches_spec avail base req :
  0 <= base <= avail -> avail < W64 -> 0 <= req ->
  call_gas avail base req = callee_gas avail base req.
Proof.
  intros Hb Ha Hr. unfold call_gas, callee_gas, all_but_one_64th.
  rewrite (Z.mod_small (avail - base)) by lia.
  set (g := avail - base - (avail - base) / 64).
  assert (Hg : 0 <= g < W64).
  { unfold g. assert (0 <= (avail - base) / 64 <= avail - base).
    { split. apply Z.div_pos; lia. apply Z.div_le_upper_bound; lia. } lia. }
  destruct (Z.leb_spec W64 req); cbn [orb]. { rewrite Z.min_r by lia. reflexivity. }
  destruct (Z.ltb_spec g req). { rewrite Z.min_r by lia. reflexivity. } rewrite Z.min_l by lia. reflexivity.
Qed.

(* ... and a call whose own cost exceeds the available gas can never pass the gas check, whatever the wrapped uint64
   subtraction in callGas produced *)
Theorem call_gas_unaffordable avail base req :
  0 <= avail < base -> base < W64 -> 0 <= req ->
  W64 <= base + call_gas avail base req \/ avail < base + call_gas avail base req.
Proof.
  intros Ha Hb Hr. right. pose proof (call_gas_nonneg avail base req Hr). lia.
Qed.
