(* Validation/ProofsRules.v — the validator model accepts exactly the blocks on which every catalogue rule holds;
   classification of rejections; rejected imports leave the repository unchanged. *)
From Coq Require Import List NArith ZArith Bool Lia.
From Coq Require Import ZifyN ZifyNat ZifyBool.
From Verif Require Import Common.Util Sched.Model Sched.Proofs Sched.ProofsUpdates BaseFee.Model BaseFee.Proofs Header.Rules Header.Proofs Validation.Body Validation.Catalogue.
Import ListNotations.
Open Scope N_scope.

Lemma props_pks cs : map fst (pks cs) = props cs.
Proof. unfold pks, props. rewrite map_map. reflexivity. Qed.

Lemma find_me_in_seq me cs mep : find_me me (props cs) = Some mep -> In me (addrs (seq_of me (pks cs))).
Proof.
  intros Hf. apply find_me_in in Hf. destruct Hf as [Hin Ha]. rewrite <- props_pks in Hin. exact (me_in_seq me (pks cs) mep Hin Ha).
Qed.

Lemma lookup_none_iff k m : lookup k m = None <-> ~ In k (map fst m).
Proof.
  unfold lookup. induction m as [|[a b] m IH]; cbn [find map fst In].
  - tauto.
  - destruct (N.eqb_spec a k) as [E|E].
    + split; [discriminate | intros C; exfalso; apply C; left; exact E].
    + rewrite IH. tauto.
Qed.

Definition body_rules (cfg : config) (num feats : N) (txs : list txn) : Prop :=
  Forall (fun t => t_origin_ok t = true /\ t_delegator_ok t = true) txs /\
  (c_blocklist cfg <= num -> Forall (fun t => t_origin_blocked t = false /\ t_delegator_blocked t = false) txs) /\
  Forall (fun t => t_chain_tag t = c_chain_tag cfg) txs /\
  Forall (fun t => t_ref t <= num) txs /\
  Forall (fun t => num <= t_ref t + t_exp t) txs /\
  (num < c_galactica cfg -> Forall (fun t => t_type t = 0) txs) /\
  Forall (fun t => N.land (t_features t) feats = t_features t /\ t_unused t = false) txs.

Definition tx_rules (cfg : config) (num feats : N) (t : txn) : Prop :=
  (t_origin_ok t = true /\ t_delegator_ok t = true) /\
  (c_blocklist cfg <= num -> t_origin_blocked t = false /\ t_delegator_blocked t = false) /\
  t_chain_tag t = c_chain_tag cfg /\ t_ref t <= num /\ num <= t_ref t + t_exp t /\
  (num < c_galactica cfg -> t_type t = 0) /\
  (N.land (t_features t) feats = t_features t /\ t_unused t = false).

(* a chain of guards `if c then bad else rest` gives a good result iff every guard is off *)
Lemma ite_neq_iff {A} (c : bool) (a x y : A) : a <> y -> (if c then a else x) = y <-> c = false /\ x = y.
Proof. intros Hn. destruct c; [split; [intros E; contradiction | intros [C _]; discriminate] | tauto]. Qed.

Lemma tx_body_check_iff cfg num feats t : tx_body_check cfg num feats t = None <-> tx_rules cfg num feats t.
Proof.
  unfold tx_body_check, tx_rules. rewrite !ite_neq_iff by discriminate.
  rewrite !andb_false_iff, !negb_false_iff, !N.eqb_eq, !N.leb_gt, !N.ltb_ge.
  split.
  - intros (A1 & A2 & A3 & A4 & A5 & A6 & A7 & A8 & A9 & A10 & _).
    repeat split; auto; intros; [destruct A2 | destruct A4 | destruct A8]; auto; lia.
  - intros ((B1 & B2) & B3 & B4 & B5 & B6 & B7 & B8 & B9).
    destruct (N.lt_ge_cases num (c_blocklist cfg)), (N.lt_ge_cases num (c_galactica cfg));
      repeat split; auto; try (right; apply B3; assumption); try (right; apply B7; assumption); left; assumption.
Qed.

Lemma body_txs_check_iff cfg num feats txs :
  body_txs_check cfg num feats txs = None <-> Forall (tx_rules cfg num feats) txs.
Proof.
  induction txs as [|t l IH]; cbn [body_txs_check].
  - split; auto.
  - destruct (tx_body_check cfg num feats t) eqn:E.
    + split; [discriminate|]. intros H. inversion H as [|? ? H1 _]; subst. apply tx_body_check_iff in H1. congruence.
    + apply tx_body_check_iff in E. rewrite IH. split; [intros; constructor; auto | intros H; inversion H; auto].
Qed.

Lemma body_rules_iff cfg num feats txs : Forall (tx_rules cfg num feats) txs <-> body_rules cfg num feats txs.
Proof.
  unfold body_rules. rewrite !Forall_forall. unfold tx_rules. split.
  - intros H. repeat split; intros; apply H; assumption.
  - intros (H1 & H2 & H3 & H4 & H5 & H6 & H7) t Ht.
    exact (conj (H1 t Ht) (conj (fun Hb => H2 Hb t Ht) (conj (H3 t Ht) (conj (H4 t Ht) (conj (H5 t Ht)
            (conj (fun Hg => H6 Hg t Ht) (H7 t Ht))))))).
Qed.

(* IsTheTime = "after the parent, on the interval grid, and the signer owns that slot" (C05's is_the_time_iff) *)
Lemma is_the_time_iff_owner k hsh pt T cs me t :
  sched_is_the_time k hsh pt T cs me t = true <->
  pt < t /\ (t - pt) mod T = 0 /\ slot_owner k hsh pt T cs me t = Some me.
Proof.
  destruct k; cbn [sched_is_the_time slot_owner]; try apply is_scheduled_iff.
  rewrite is_the_time_v1_iff. split.
  - intros (H1 & H2 & p & Hw & Hp). rewrite Hw. cbn. rewrite Hp. auto.
  - intros (H1 & H2 & H3). split; [exact H1|]. split; [exact H2|].
    destruct (whose_turn hsh (actives_v1 me (props cs)) t) as [p|]; cbn in H3; [|discriminate].
    exists p. split; [reflexivity|]. congruence.
Qed.

Definition proposer_rules (cfg : config) (pv : pview) (parent h : header) (s : N) (mep : proposer) : Prop :=
  let k := kind_of cfg pv (h_number parent + 1) in
  let us := sched_updates k (pv_hash pv) (h_time parent) (c_interval cfg) (pv_cands pv) mep (pv_total pv) (h_time h) in
  h_signer h = Some s /\ find_me s (props (pv_cands pv)) = Some mep /\
  sched_is_the_time k (pv_hash pv) (h_time parent) (c_interval cfg) (pv_cands pv) s (h_time h) = true /\
  h_total_score h = wrap64 (h_total_score parent + snd us) /\
  (pv_pos pv = true -> forall bnf, leader_beneficiary s (pv_cands pv) = Some bnf -> h_beneficiary h = bnf).

Lemma benef_check_iff (pos : bool) s cs bf ups ups' :
  (if pos then match leader_beneficiary s cs with
               | Some b => if b =? bf then POk ups else PBad (Critical 24)
               | None => POk ups
               end
   else POk ups) = POk ups' <->
  (pos = true -> forall bnf, leader_beneficiary s cs = Some bnf -> bf = bnf) /\ ups' = ups.
Proof.
  destruct pos; [destruct (leader_beneficiary s cs) as [b|]; [destruct (N.eqb_spec b bf) as [E|E]|]|].
  2:{ split; [discriminate | intros [C _]; elim E; symmetry; exact (C eq_refl b eq_refl)]. }
  all: split; [intros E'; injection E' as <-; split; [intros Hp b' Hb'; congruence | reflexivity] | intros [_ ->]; reflexivity].
Qed.

Lemma validate_proposer_ok_iff cfg pv parent h ups :
  validate_proposer cfg pv parent h = POk ups <->
  exists s mep, proposer_rules cfg pv parent h s mep /\
    ups = fst (sched_updates (kind_of cfg pv (h_number parent + 1)) (pv_hash pv) (h_time parent) (c_interval cfg)
                             (pv_cands pv) mep (pv_total pv) (h_time h)).
Proof.
  unfold validate_proposer, proposer_rules. cbv zeta.
  destruct (h_signer h) as [s|]; [|split; [discriminate | intros (s & mep & (C & _) & _); discriminate]].
  destruct (find_me s (props (pv_cands pv))) as [mep|] eqn:Ef;
    [|split; [discriminate | intros (s' & mep & (C1 & C2 & _) & _); congruence]].
  rewrite !ite_neq_iff by discriminate. rewrite benef_check_iff, !negb_false_iff, N.eqb_eq. split.
  - intros (Ht & Es & Hb & ->). exists s, mep. repeat split; auto.
  - intros (s' & mep' & (C1 & C2 & C3 & C4 & C5) & ->). injection C1 as <-. rewrite Ef in C2. injection C2 as <-. auto.
Qed.

Lemma receipts_root_ok_iff b r :
  receipts_root_ok b r = true <-> h_receipts_root (b_header b) = r \/ b_rr_fix b = Some r.
Proof.
  unfold receipts_root_ok. rewrite orb_true_iff, N.eqb_eq. destruct (b_rr_fix b) as [x|].
  - rewrite N.eqb_eq. split; (intros [H|H]; [left; exact H | right; congruence]).
  - split; [intros [H|H]; [left; exact H | discriminate] | intros [H|H]; [left; exact H | discriminate]].
Qed.

Lemma Forall_eqb (P : N -> Prop) l i : Forall P l -> existsb (N.eqb i) l = true -> P i.
Proof.
  intros F E. apply existsb_exists in E. destruct E as (x & Hin & E). apply N.eqb_eq in E. subst x.
  exact (proj1 (Forall_forall P l) F i Hin).
Qed.

Lemma by_rule_list (P : N -> Prop) l :
  Forall P l -> (forall i, existsb (N.eqb i) l = false -> P i) -> forall i, P i.
Proof. intros F O i. destruct (existsb (N.eqb i) l) eqn:E; [exact (Forall_eqb P l i F E) | exact (O i E)]. Qed.

Lemma existsb_sub l l' i :
  forallb (fun x => existsb (N.eqb x) l') l = true -> existsb (N.eqb i) l = true -> existsb (N.eqb i) l' = true.
Proof.
  intros S E. apply existsb_exists in E. destruct E as (x & Hin & E). apply N.eqb_eq in E. subst x.
  exact (proj1 (forallb_forall _ l) S i Hin).
Qed.

(* the numbers of the catalogue's rules, by the stage of Process that checks them *)
Definition header_ids : list N := [1;2;3;4;5;6;7;8;9;10;11;12].
Definition proposer_ids : list N := [20;21;22;23].
Definition body_ids : list N := [30;31;32;33;34;35;36;37].
Definition exec_ids : list N := [40;41;42;43;44;45;46;47].
Definition catalogue_ids : list N := header_ids ++ proposer_ids ++ body_ids ++ exec_ids.

Section Proofs.
  Variable State : Type.
  Variable exec : bctx -> State -> txn -> option (State * receipt).
  Variable apply_updates : bool -> N -> State -> list (N * bool) -> State.
  Variable rewards : bctx -> State -> option State.
  Variable sanity : State -> bool.
  Variable root_of_state : State -> N.
  Variable root_of_receipts : list receipt -> N.
  Variable root_of_txs : list txn -> N.
  Variable has_tx : N -> N -> bool.
  Variable find_meta : N -> option bool.

  Notation run := (run State exec).
  Notation verify_txs := (verify_txs State exec has_tx find_meta).
  Notation known := (known has_tx).
  Notation dep_check := (dep_check find_meta).
  Notation dep_rule := (dep_rule find_meta).
  Notation deps_ok := (deps_ok find_meta).

  Fixpoint fresh (seen : list N) (l : list txn) : Prop :=
    match l with
    | [] => True
    | t :: l' => ~ In (t_id t) seen /\ has_tx (t_id t) (t_ref t) = false /\ fresh (t_id t :: seen) l'
    end.

  Lemma fresh_spec l : forall seen,
    fresh seen l <-> NoDup (map t_id l) /\ (forall x, In x (map t_id l) -> ~ In x seen) /\
                     Forall (fun t => has_tx (t_id t) (t_ref t) = false) l.
  Proof.
    induction l as [|t l IH]; intros seen; cbn [fresh map].
    - split; [intros _; repeat split; [constructor | intros x [] | constructor] | auto].
    - rewrite IH. split.
      + intros (Hn & Hh & Hd & Hs & Hf). repeat split.
        * constructor; [intros C; apply (Hs _ C); left; reflexivity | exact Hd].
        * intros x [<-|Hx]; [exact Hn | intros C; apply (Hs _ Hx); right; exact C].
        * constructor; auto.
      + intros (Hd & Hs & Hf). inversion Hd as [|? ? Hni Hd']; subst. inversion Hf as [|? ? Hh Hf']; subst.
        repeat split; auto.
        * apply Hs. left; reflexivity.
        * intros x Hx [<-|C]; [contradiction | apply (Hs x); [right; exact Hx | exact C]].
  Qed.

  Lemma known_false_iff proc t :
    known proc t = false <-> ~ In (t_id t) (map fst proc) /\ has_tx (t_id t) (t_ref t) = false.
  Proof.
    unfold Body.known. destruct (lookup (t_id t) proc) eqn:E.
    - split; [discriminate|]. intros [C _]. apply lookup_none_iff in C. congruence.
    - apply lookup_none_iff in E. tauto.
  Qed.

  Lemma dep_check_ok_iff proc t : dep_check proc t = DepOk <-> dep_rule proc t.
  Proof.
    unfold Body.dep_check, Catalogue.dep_rule. destruct (t_dep t) as [d|]; [|tauto].
    destruct (lookup d proc) as [[|]|].
    - split; [discriminate | intros [C|[C _]]; discriminate].
    - split; [intros _; left; reflexivity | reflexivity].
    - destruct (find_meta d) as [[|]|].
      + split; [discriminate | intros [C|[_ C]]; discriminate].
      + split; [intros _; right; auto | reflexivity].
      + split; [discriminate | intros [C|[_ C]]; discriminate].
  Qed.

  Lemma total_gas_cons r rs : total_gas (r :: rs) = r_gas r + total_gas rs.
  Proof. reflexivity. Qed.

  Lemma verify_txs_iff ctx txs : forall st proc used stf rs u,
    verify_txs ctx txs st proc used = VOk State stf rs u <->
    run ctx st txs = Some (stf, rs) /\ u = used + total_gas rs /\
    fresh (map fst proc) txs /\ deps_ok proc txs rs /\ (txs <> [] -> u <= x_gas_limit ctx).
  Proof.
    (* the loop compares the running gas total with the limit after each transaction only: an empty body puts no
       bound on `used`, hence the premise txs <> [] of the last conjunct *)
    induction txs as [|t l IH]; intros st proc used stf rs u; cbn [Body.verify_txs Catalogue.run fresh].
    - split.
      + intros E. inversion E; subst. unfold total_gas. cbn. repeat split; auto; try lia. intros C; contradiction.
      + intros (E & -> & _). inversion E; subst. unfold total_gas. cbn. rewrite N.add_0_r. reflexivity.
    - split.
      + destruct (known proc t) eqn:Ek; [discriminate|]. destruct (dep_check proc t) eqn:Ed; try discriminate.
        destruct (exec ctx st t) as [[st' r]|]; [|discriminate].
        destruct (N.ltb_spec (x_gas_limit ctx) (used + r_gas r)) as [Hl|Hl]; [discriminate|].
        destruct (verify_txs ctx l st' _ _) as [stf' rs' u'|v] eqn:Ev; [|discriminate].
        intros E. inversion E; subst. apply IH in Ev. destruct Ev as (Er & -> & Ef & Edp & Eg).
        apply known_false_iff in Ek. apply dep_check_ok_iff in Ed. rewrite Er, total_gas_cons.
        repeat split; auto; try apply Ek; try lia.
        intros _. destruct l; [inversion Er; subst; unfold total_gas; cbn; lia | specialize (Eg ltac:(discriminate)); lia].
      + intros (Er & -> & (F1 & F2 & F3) & Edp & Eg).
        destruct (exec ctx st t) as [[st' r]|]; [|discriminate].
        destruct (run ctx st' l) as [[stf' rs']|] eqn:Er'; [|discriminate]. inversion Er; subst.
        destruct Edp as [D1 D2]. specialize (Eg ltac:(discriminate)). rewrite total_gas_cons in *.
        rewrite (proj2 (known_false_iff proc t) (conj F1 F2)), (proj2 (dep_check_ok_iff proc t) D1).
        rewrite (proj2 (N.ltb_ge _ _)) by lia.
        rewrite (proj2 (IH st' _ _ stf rs' (used + r_gas r + total_gas rs'))); [f_equal; lia|].
        repeat split; auto. intros _; lia.
  Qed.

  Notation process := (process State exec apply_updates rewards sanity root_of_state root_of_receipts root_of_txs has_tx find_meta).
  Notation verify_block := (verify_block State exec rewards sanity root_of_state root_of_receipts has_tx find_meta).
  Notation rule_holds := (rule_holds State exec apply_updates rewards sanity root_of_state root_of_receipts root_of_txs has_tx find_meta).
  Notation all_rules := (all_rules State exec apply_updates rewards sanity root_of_state root_of_receipts root_of_txs has_tx find_meta).

  Definition final_state (pos : bool) (ctx : bctx) (stf : State) : State :=
    if pos then match rewards ctx stf with Some s => s | None => stf end else stf.

  Definition verify_rules (pos : bool) (parent : header) (b : block) (st1 stf : State) (rs : list receipt) : Prop :=
    let h := b_header b in let ctx := ctx_of_header parent h in
    run ctx st1 (b_txs b) = Some (stf, rs) /\
    fresh [] (b_txs b) /\ deps_ok [] (b_txs b) rs /\
    h_gas_used h = total_gas rs /\ (h_receipts_root h = root_of_receipts rs \/ b_rr_fix b = Some (root_of_receipts rs)) /\
    (pos = true -> sanity stf = true /\ rewards ctx stf <> None) /\
    h_state_root h = root_of_state (final_state pos ctx stf).

  Lemma final_check_iff (pos : bool) ctx stf root rcs st2 rcs' :
    match (if pos then
             if negb (sanity stf) then inr (Critical 57)
             else match rewards ctx stf with None => inr (Other 58) | Some s => inl s end
           else inl stf) with
    | inr v => Rejected State v
    | inl s => if negb (root =? root_of_state s) then Rejected State (Critical 59) else Accepted State s rcs
    end = Accepted State st2 rcs' <->
    (pos = true -> sanity stf = true /\ rewards ctx stf <> None) /\ root = root_of_state (final_state pos ctx stf) /\
    st2 = final_state pos ctx stf /\ rcs' = rcs.
  Proof.
    unfold final_state. destruct pos; [destruct (sanity stf); [destruct (rewards ctx stf)|]|]; cbn [negb];
      try (split; [discriminate | intros [C _]; destruct (C eq_refl); congruence]).
    all: rewrite ite_neq_iff by discriminate; rewrite negb_false_iff, N.eqb_eq; split;
      [intros [E1 E2]; injection E2 as <- <-; repeat split; auto; discriminate | intros (_ & E & -> & ->); auto].
  Qed.

  Lemma verify_block_iff pos parent b st1 st2 rcs :
    h_gas_used (b_header b) <= h_gas_limit (b_header b) ->
    verify_block pos parent b st1 = Accepted State st2 rcs <->
    exists stf, verify_rules pos parent b st1 stf rcs /\ st2 = final_state pos (ctx_of_header parent (b_header b)) stf.
  Proof.
    intros Hgas. unfold Body.verify_block, verify_rules. cbv zeta.
    destruct (verify_txs _ (b_txs b) st1 [] 0) as [stf rs u|v] eqn:Ev.
    - apply verify_txs_iff in Ev. destruct Ev as (Er & -> & Ef & Ed & Eg).
      rewrite !ite_neq_iff by discriminate. rewrite !negb_false_iff, N.eqb_eq, N.add_0_l, final_check_iff, receipts_root_ok_iff. split.
      + intros (E1 & E2 & E3 & E4 & -> & ->). exists stf. repeat split; auto; apply E3; assumption.
      + intros (stf' & (Er' & _ & _ & E1 & E2 & E3 & E4) & ->). rewrite Er in Er'. injection Er' as <- <-. repeat split; auto; apply E3; assumption.
    - split; [discriminate|]. intros (stf & (Er & Ef & Ed & Eg & _) & _).
      assert (X : verify_txs (ctx_of_header parent (b_header b)) (b_txs b) st1 [] 0 = VOk State stf rcs (0 + total_gas rcs)).
      { apply verify_txs_iff. repeat split; auto. intros _. unfold ctx_of_header. cbn [x_gas_limit]. lia. }
      congruence.
  Qed.

  (* Process accepts with (state, receipts) iff the block satisfies the rules, in normal form *)
  Definition accept_cond (cfg : config) (pv : pview) (parent : header) (st0 : State) (b : block) (now : N)
             (st2 : State) (rcs : list receipt) : Prop :=
    let h := b_header b in let num := h_number parent + 1 in
    h_features h = features_at cfg num /\
    header_rules cfg parent h now /\
    exists s mep, proposer_rules cfg pv parent h s mep /\
      h_txs_root h = root_of_txs (b_txs b) /\
      body_rules cfg num (h_features h) (b_txs b) /\
      exists stf,
        verify_rules (pv_pos pv) parent b
          (apply_updates (pv_pos pv) num st0
             (fst (sched_updates (kind_of cfg pv num) (pv_hash pv) (h_time parent) (c_interval cfg) (pv_cands pv) mep
                                 (pv_total pv) (h_time h)))) stf rcs /\
        st2 = final_state (pv_pos pv) (ctx_of_header parent h) stf.

  Definition wf_gas (parent : header) (b : block) : Prop :=
    h_gas_limit (b_header b) < two64 /\ h_gas_limit parent < two64.

  Theorem process_accept_iff cfg pv parent st0 b now st2 rcs : wf_gas parent b ->
    process cfg pv parent st0 b now = Accepted State st2 rcs <-> accept_cond cfg pv parent st0 b now st2 rcs.
  Proof.
    intros [Wg Wp]. unfold Body.process, accept_cond. cbv zeta. split.
    - destruct (N.eqb_spec (h_features (b_header b)) (features_at cfg (h_number parent + 1))) as [Ef|]; cbn [negb]; [|discriminate].
      destruct (validate_header cfg parent (b_header b) now) eqn:Eh; try discriminate.
      apply (validate_header_accept_iff _ _ _ _ Wg Wp) in Eh.
      destruct (validate_proposer cfg pv parent (b_header b)) as [ups|v] eqn:Ep; [|discriminate].
      apply validate_proposer_ok_iff in Ep. destruct Ep as (s & mep & Ep & ->).
      destruct (N.eqb_spec (h_txs_root (b_header b)) (root_of_txs (b_txs b))) as [Er|]; cbn [negb]; [|discriminate].
      destruct (body_txs_check _ _ _ _) eqn:Eb; [discriminate|]. apply body_txs_check_iff, body_rules_iff in Eb.
      rewrite verify_block_iff by apply Eh. intros (stf & Hv & ->).
      split; [exact Ef|]. split; [exact Eh|]. exists s, mep. split; [exact Ep|].
      split; [exact Er|]. split; [exact Eb|]. exists stf. split; [exact Hv | reflexivity].
    - intros (Hf & Hh & s & mep & Hp & Hr & Hb & stf & Hv & ->).
      rewrite (proj2 (N.eqb_eq _ _) Hf), (proj2 (validate_header_accept_iff _ _ _ _ Wg Wp) Hh). cbn [negb].
      rewrite (proj2 (validate_proposer_ok_iff _ _ _ _ _) (ex_intro _ s (ex_intro _ mep (conj Hp eq_refl)))).
      rewrite (proj2 (N.eqb_eq _ _) Hr), (proj2 (body_txs_check_iff _ _ _ _) (proj2 (body_rules_iff _ _ _ _) Hb)). cbn [negb].
      apply verify_block_iff; [apply Hh|]. exists stf. split; [exact Hv | reflexivity].
  Qed.

  Notation the_run := (the_run State exec apply_updates).

  Lemma the_proposer_unique pv b mep mep' :
    Catalogue.the_proposer pv b mep -> Catalogue.the_proposer pv b mep' -> mep' = mep.
  Proof. intros (s & H1 & H2) (s' & H3 & H4). congruence. Qed.

  Lemma on_the_run cfg pv parent st0 b stf rs (P : State -> list receipt -> Prop) :
    the_run cfg pv parent st0 b stf rs -> P stf rs -> forall stf' rs', the_run cfg pv parent st0 b stf' rs' -> P stf' rs'.
  Proof.
    intros (mep & T & R) HP stf' rs' (mep' & T' & R'). rewrite (the_proposer_unique _ _ _ _ T T'), R in R'.
    injection R' as <- <-. exact HP.
  Qed.

  Lemma header_rules_hold cfg pv parent st0 b now :
    h_features (b_header b) = features_at cfg (h_number parent + 1) -> header_rules cfg parent (b_header b) now ->
    Forall (rule_holds cfg pv parent st0 b now) header_ids.
  Proof.
    intros Hf (H1 & H2 & H3 & H4 & H5 & H6 & H7 & H8 & H9 & H10 & H11).
    repeat (apply Forall_cons; [assumption|]). apply Forall_nil.
  Qed.

  Lemma proposer_rules_hold cfg pv parent st0 b now s mep :
    proposer_rules cfg pv parent (b_header b) s mep -> Forall (rule_holds cfg pv parent st0 b now) proposer_ids.
  Proof.
    intros (P1 & P2 & P3 & P4 & P5).
    assert (TP : Catalogue.the_proposer pv b mep) by (exists s; auto).
    repeat apply Forall_cons; [| | | |apply Forall_nil].
    - exists mep. exact TP.
    - intros mep' T. rewrite (the_proposer_unique _ _ _ _ TP T), (proj2 (find_me_in _ _ _ P2)).
      apply is_the_time_iff_owner, P3.
    - intros mep' T. rewrite (the_proposer_unique _ _ _ _ TP T). exact P4.
    - intros Hpos s' bnf Hs Hl. rewrite P1 in Hs. injection Hs as <-. exact (P5 Hpos _ Hl).
  Qed.

  Lemma body_rules_hold cfg pv parent st0 b now :
    h_txs_root (b_header b) = root_of_txs (b_txs b) ->
    body_rules cfg (h_number parent + 1) (h_features (b_header b)) (b_txs b) ->
    Forall (rule_holds cfg pv parent st0 b now) body_ids.
  Proof.
    intros Hr (B1 & B2 & B3 & B4 & B5 & B6 & B7). repeat (apply Forall_cons; [assumption|]). apply Forall_nil.
  Qed.

  Lemma verify_rules_hold cfg pv parent st0 b now mep stf rs : Catalogue.the_proposer pv b mep ->
    verify_rules (pv_pos pv) parent b (start_state State apply_updates cfg pv parent st0 b mep) stf rs ->
    Forall (rule_holds cfg pv parent st0 b now) exec_ids.
  Proof.
    intros TP (V1 & V2 & V3 & V4 & V5 & V6 & V7).
    assert (TR : the_run cfg pv parent st0 b stf rs) by (exists mep; split; assumption).
    apply (fresh_spec (b_txs b) []) in V2. destruct V2 as (V2a & _ & V2b).
    repeat apply Forall_cons; [| | | | | | | |apply Forall_nil].
    - split; assumption.
    - intros mep' T. rewrite (the_proposer_unique _ _ _ _ TP T). exists stf, rs. exact V1.
    - exact (on_the_run _ _ _ _ _ _ _ _ TR V3).
    - exact (on_the_run _ _ _ _ _ _ _ _ TR V4).
    - exact (on_the_run _ _ _ _ _ _ _ _ TR V5).
    - intros Hpos. exact (on_the_run _ _ _ _ _ _ _ _ TR (proj1 (V6 Hpos))).
    - intros Hpos. exact (on_the_run _ _ _ _ _ _ _ _ TR (proj2 (V6 Hpos))).
    - exact (on_the_run _ _ _ _ _ _ _ _ TR V7).
  Qed.

  Lemma off_catalogue cfg pv parent st0 b now i :
    existsb (N.eqb i) catalogue_ids = false -> rule_holds cfg pv parent st0 b now i.
  Proof.
    (* rule numbers are below 64: six binary digits decide whether i is listed; off the list rule_holds i is True *)
    destruct i as [|p]; [intros _; exact I|].
    do 6 (try destruct p as [p|p|]); try (intros _; exact I); cbn; discriminate.
  Qed.

  Theorem accept_cond_iff_rules cfg pv parent st0 b now :
    (exists st2 rcs, accept_cond cfg pv parent st0 b now st2 rcs) <-> all_rules cfg pv parent st0 b now.
  Proof.
    split.
    - intros (st2 & rcs & Hf & Hh & s & mep & Hp & Hroot & Hb & stf & Hv & _).
      unfold Catalogue.all_rules. apply (by_rule_list _ catalogue_ids); [|apply off_catalogue].
      repeat (apply Forall_app; split).
      + exact (header_rules_hold _ _ _ _ _ _ Hf Hh).
      + exact (proposer_rules_hold _ _ _ _ _ _ _ _ Hp).
      + exact (body_rules_hold _ _ _ _ _ _ Hroot Hb).
      + destruct Hp as (P1 & P2 & _). apply (verify_rules_hold _ _ _ _ _ _ mep stf rcs); [exists s; auto | exact Hv].
    - intros A. destruct (A 20) as (mep & TP). destruct (A 41 mep TP) as (stf & rs & Hrun).
      assert (TR : the_run cfg pv parent st0 b stf rs) by (exists mep; split; [exact TP | exact Hrun]).
      pose proof TP as (s & Hs & Hfm). pose proof (proj2 (find_me_in _ _ _ Hfm)) as Ha.
      exists (final_state (pv_pos pv) (ctx_of_header parent (b_header b)) stf), rs.
      split; [exact (A 12)|]. split.
      { exact (conj (A 1) (conj (A 2) (conj (A 3) (conj (A 4) (conj (A 5) (conj (A 6) (conj (A 7) (conj (A 8)
                 (conj (A 9) (conj (A 10) (A 11))))))))))). }
      exists s, mep. split.
      { split; [exact Hs|]. split; [exact Hfm|]. split.
        - apply is_the_time_iff_owner. split; [exact (A 1)|]. split; [exact (A 2)|].
          rewrite <- Ha. exact (A 21 _ TP).
        - split; [exact (A 22 _ TP)|]. intros Hpos bnf Hl. exact (A 23 Hpos _ _ Hs Hl). }
      split; [exact (A 30)|]. split.
      { exact (conj (A 31) (conj (A 32) (conj (A 33) (conj (A 34) (conj (A 35) (conj (A 36) (A 37))))))). }
      exists stf. split; [|reflexivity].
      split; [exact Hrun|]. split.
      { apply fresh_spec. destruct (A 40) as [N1 N2]. repeat split; auto. }
      split; [exact (A 42 _ _ TR)|]. split; [exact (A 43 _ _ TR)|]. split; [exact (A 44 _ _ TR)|]. split.
      { intros Hpos. split; [exact (A 45 Hpos _ _ TR) | exact (A 46 Hpos _ _ TR)]. }
      exact (A 47 _ _ TR).
  Qed.

  Theorem accept_iff_rules_lemma cfg pv parent st0 b now : 0 < c_interval cfg -> wf_gas parent b ->
    (exists st2 rcs, process cfg pv parent st0 b now = Accepted State st2 rcs) <-> all_rules cfg pv parent st0 b now.
  Proof.
    intros _ W. rewrite <- accept_cond_iff_rules. split; intros (st2 & rcs & H); exists st2, rcs; apply (process_accept_iff _ _ _ _ _ _ _ _ W); exact H.
  Qed.

  Definition parent_sane (cfg : config) (parent : header) : Prop :=
    base_fee_nil_deref cfg parent = false /\ expected_base_fee cfg parent <> BfPanics.

  (* parent_sane is an invariant of accepted chains: a header that passed the header rules (as a child of its own parent)
     and whose gas limit is below the uint64 wrap of gasLimit*75 is a sane parent.  The bound is a premise: the gas limit
     may rise by 1/1024 per block, so no chain invariant keeps it below (2^64-1)/75 ~ 2.4e17 (about 23 000 maximal
     upward steps above any deployed value). *)
  Theorem accepted_parent_is_sane cfg gp parent now :
    header_rules cfg gp parent now -> h_number parent = h_number gp + 1 -> h_number parent + 1 < 4294967296 ->
    (Z.of_N (h_gas_limit parent) <= max_nowrap_gas_limit)%Z -> parent_sane cfg parent.
  Proof.
    intros (_ & _ & _ & _ & _ & (Hfloor & _) & _ & _ & _ & (Hb1 & Hb2)) Hn Hlt Hgl.
    unfold parent_sane, base_fee_nil_deref, expected_base_fee. rewrite <- Hn in Hb1, Hb2. split.
    - destruct (N.ltb_spec (c_galactica cfg) (h_number parent + 1)) as [H|H]; [|reflexivity]. cbn [andb].
      destruct (Hb2 ltac:(lia)) as (bf & E & _). rewrite E. reflexivity.
    - unfold calc_base_fee. rewrite Z.mod_small by (unfold BaseFee.Model.two32; lia).
      destruct (_ <? _)%Z; [discriminate|]. destruct (_ =? _)%Z; [discriminate|].
      rewrite gas_target_nowrap by lia.
      destruct (_ =? _)%Z; [discriminate|].
      assert (T : (0 < Z.of_N (h_gas_limit parent) * 75 / 100)%Z) by lia.
      destruct (Z.eqb_spec (Z.of_N (h_gas_limit parent) * 75 / 100) 0); [lia|].
      destruct (_ >? _)%Z; discriminate.
  Qed.

  Lemma validate_header_class cfg parent h now v : parent_sane cfg parent ->
    validate_header cfg parent h now = v ->
    match v with Future => now + c_interval cfg < h_time h | Panics => False | Other _ => False | _ => True end.
  Proof.
    (* the checks in the order of validate_header: time, interval, future, gas used, score, gas limit, signature and
       alpha, com, then the base fee; only the future check answers Future, only a panicking CalcBaseFee answers Panics *)
    intros [S1 S2]. unfold validate_header, base_fee_check.
    destruct (h_time h <=? h_time parent); [intros <-; exact I|].
    destruct (negb _); [intros <-; exact I|].
    destruct (N.ltb_spec (now + c_interval cfg) (h_time h)) as [H3|H3]; [intros <-; exact H3|].
    destruct (h_gas_limit h <? h_gas_used h); [intros <-; exact I|].
    destruct (h_total_score h <=? h_total_score parent); [intros <-; exact I|].
    destruct (negb _); [intros <-; exact I|].
    destruct (sig_alpha_check cfg parent h); [intros <-; exact I|].
    destruct (_ && _); [intros <-; exact I|].
    destruct (_ <? _).
    - destruct (h_base_fee h); intros <-; exact I.
    - destruct (h_base_fee h); [|intros <-; exact I]. rewrite S1.
      destruct (expected_base_fee cfg parent); [intros <-; exact I | | contradiction].
      destruct (_ =? _)%Z; intros <-; exact I.
  Qed.

  Lemma validate_proposer_class cfg pv parent h v : validate_proposer cfg pv parent h = PBad v -> is_critical v = true.
  Proof.
    (* signer recovered, listed, its turn, score, then (PoS) the beneficiary: every refusal is Critical *)
    unfold validate_proposer. destruct (h_signer h); [|intros E; inversion E; reflexivity].
    destruct (find_me _ _); [|intros E; inversion E; reflexivity].
    destruct (negb _); [intros E; inversion E; reflexivity|].
    destruct (negb _); [intros E; inversion E; reflexivity|].
    destruct (pv_pos pv); [|discriminate].
    destruct (leader_beneficiary _ _); [|discriminate].
    destruct (_ =? _); [discriminate | intros E; inversion E; reflexivity].
  Qed.

  Lemma verify_txs_class ctx txs : forall st proc used v,
    verify_txs ctx txs st proc used = VBad State v ->
    is_critical v = true \/ ((exists r, v = Other r) /\ run ctx st txs = None).
  Proof.
    induction txs as [|t l IH]; intros st proc used v; cbn [Body.verify_txs Catalogue.run]; [discriminate|].
    destruct (known proc t); [intros E; inversion E; left; reflexivity|].
    destruct (dep_check proc t); try (intros E; inversion E; left; reflexivity).
    destruct (exec ctx st t) as [[st' r]|]; [|intros E; inversion E; right; split; [eexists; reflexivity | reflexivity]].
    destruct (_ <? _); [intros E; inversion E; left; reflexivity|].
    destruct (verify_txs ctx l st' _ _) eqn:Ev; [discriminate|].
    intros E. inversion E; subst. apply IH in Ev. destruct Ev as [C|[Ho Hr]]; [left; exact C|].
    right. split; [exact Ho|]. rewrite Hr. reflexivity.
  Qed.

  Theorem process_reject_class cfg pv parent st0 b now v : parent_sane cfg parent ->
    process cfg pv parent st0 b now = Rejected State v ->
    match v with
    | Critical _ => True
    | Future => ~ rule_holds cfg pv parent st0 b now 3
    | Other _ => ~ rule_holds cfg pv parent st0 b now 41 \/ ~ rule_holds cfg pv parent st0 b now 46
    | Accept | Panics => False
    end.
  Proof.
    (* features, header, proposer, txs root, body, then verify_block: transaction loop, gas used, receipts root,
       (PoS) sanity and reward hook, state root *)
    intros Sane. unfold Body.process.
    destruct (negb _); [intros E; inversion E; exact I|].
    destruct (validate_header cfg parent (b_header b) now) eqn:Eh.
    2,3,4,5: intros E; inversion E; subst; apply (validate_header_class _ _ _ _ _ Sane) in Eh; auto.
    2:{ intros C. cbv beta iota zeta delta [Catalogue.rule_holds] in C. cbv iota in Eh. lia. }
    destruct (validate_proposer cfg pv parent (b_header b)) as [ups|pv'] eqn:Ep.
    2:{ intros E. inversion E; subst. apply validate_proposer_class in Ep. destruct v; try discriminate; exact I. }
    apply validate_proposer_ok_iff in Ep. destruct Ep as (s & mep & (P1 & P2 & _) & ->).
    destruct (negb _); [intros E; inversion E; exact I|].
    destruct (body_txs_check _ _ _ _); [intros E; inversion E; exact I|].
    unfold Body.verify_block.
    match goal with |- context [verify_txs ?c ?t ?s0 [] 0] => destruct (verify_txs c t s0 [] 0) as [stf rs u|bad] eqn:Ev end.
    - destruct (negb _); [intros E; inversion E; exact I|].
      destruct (negb _); [intros E; inversion E; exact I|].
      apply verify_txs_iff in Ev. destruct Ev as (Er & _).
      assert (TR : the_run cfg pv parent st0 b stf rs).
      { exists mep. split; [exists s; auto | exact Er]. }
      destruct (pv_pos pv) eqn:Epos.
      + destruct (negb (sanity stf)); [intros E; inversion E; exact I|].
        destruct (rewards _ stf) eqn:Erw.
        * destruct (negb _); [intros E; inversion E; exact I | discriminate].
        * intros E; inversion E; subst. right. cbn [Catalogue.rule_holds]. intros C. exact (C Epos _ _ TR Erw).
      + destruct (negb _); [intros E; inversion E; exact I | discriminate].
    - intros E. inversion E; subst bad. apply verify_txs_class in Ev. destruct Ev as [C|[[r ->] Hr]].
      + destruct v; try discriminate; exact I.
      + left. cbn [Catalogue.rule_holds]. intros C.
        assert (TP : Catalogue.the_proposer pv b mep) by (exists s; auto).
        destruct (C mep TP) as (stf & rs & T2).
        unfold start_state, updates_and_score in T2. rewrite Hr in T2. discriminate.
  Qed.

  Lemma breach_verdict cfg pv parent st0 b now : 0 < c_interval cfg -> wf_gas parent b -> parent_sane cfg parent ->
    ~ all_rules cfg pv parent st0 b now ->
    exists v, process cfg pv parent st0 b now = Rejected State v /\
      match v with
      | Critical _ => True
      | Future => ~ rule_holds cfg pv parent st0 b now 3
      | Other _ => ~ rule_holds cfg pv parent st0 b now 41 \/ ~ rule_holds cfg pv parent st0 b now 46
      | Accept | Panics => False
      end.
  Proof.
    intros HT W Sane Hn. destruct (process cfg pv parent st0 b now) as [st2 rcs|v] eqn:Ep.
    - exfalso. apply Hn. apply (accept_iff_rules_lemma _ _ _ _ _ _ HT W). exists st2, rcs. exact Ep.
    - exists v. split; [reflexivity | exact (process_reject_class _ _ _ _ _ _ _ Sane Ep)].
  Qed.

  (* ANY breach (one rule or several) of a block that is not from the future and whose transactions and reward hook
     execute is rejected with a consensus-critical error *)
  Theorem rule_breach_rejected_critical_lemma cfg pv parent st0 b now :
    0 < c_interval cfg -> wf_gas parent b -> parent_sane cfg parent ->
    ~ all_rules cfg pv parent st0 b now ->
    rule_holds cfg pv parent st0 b now 3 -> rule_holds cfg pv parent st0 b now 41 -> rule_holds cfg pv parent st0 b now 46 ->
    exists r, process cfg pv parent st0 b now = Rejected State (Critical r).
  Proof.
    intros HT W Sane Hn H3 H41 H46. destruct (breach_verdict _ _ _ _ _ _ HT W Sane Hn) as (v & Ep & C).
    destruct v as [| |r|r|]; try contradiction; [exists r; exact Ep|].
    exfalso. destruct C as [C|C]; apply C; assumption.
  Qed.

  (* a single departure from a valid block: exactly one catalogue rule fails (crypto reports unchanged or not: they are
     part of the rules) => consensus-critical rejection, unless the failing rule is one the code classes otherwise *)
  Theorem single_mutation_rejected_lemma cfg pv parent st0 b now i :
    0 < c_interval cfg -> wf_gas parent b -> parent_sane cfg parent ->
    ~ rule_holds cfg pv parent st0 b now i ->
    (forall j, j <> i -> rule_holds cfg pv parent st0 b now j) ->
    non_critical_rule i = false ->
    exists r, process cfg pv parent st0 b now = Rejected State (Critical r).
  Proof.
    intros HT W Sane Hi Hothers Hnc. destruct (breach_verdict _ _ _ _ _ _ HT W Sane (fun A => Hi (A i))) as (v & Ep & C).
    unfold non_critical_rule in Hnc. apply orb_false_iff in Hnc. destruct Hnc as [Hnc H46].
    apply orb_false_iff in Hnc. destruct Hnc as [H3 H41].
    apply N.eqb_neq in H3, H41, H46.
    destruct v as [| |r|r|]; try contradiction.
    + exfalso. apply C. apply Hothers. congruence.
    + exists r. exact Ep.
    + exfalso. destruct C as [C|C]; apply C; apply Hothers; congruence.
  Qed.

  (* the rules Process checks before it executes any transaction: header, proposer, txs root, body *)
  Definition pre_exec_rule (i : N) : bool :=
    existsb (N.eqb i) [1;2;4;5;6;7;8;9;10;11;12;20;21;22;23;30;31;32;33;34;35;36;37].

  Definition pre_cond (cfg : config) (pv : pview) (parent : header) (b : block) (now : N) : Prop :=
    let h := b_header b in let num := h_number parent + 1 in
    h_features h = features_at cfg num /\ header_rules cfg parent h now /\
    (exists s mep, proposer_rules cfg pv parent h s mep) /\
    h_txs_root h = root_of_txs (b_txs b) /\ body_rules cfg num (h_features h) (b_txs b).

  Lemma pre_cond_rules cfg pv parent st0 b now i :
    pre_cond cfg pv parent b now -> pre_exec_rule i = true -> rule_holds cfg pv parent st0 b now i.
  Proof.
    intros (Hf & Hh & (s & mep & Hp) & Hroot & Hb) Hi.
    apply (Forall_eqb _ (header_ids ++ proposer_ids ++ body_ids)).
    - repeat (apply Forall_app; split).
      + exact (header_rules_hold _ _ _ _ _ _ Hf Hh).
      + exact (proposer_rules_hold _ _ _ _ _ _ _ _ Hp).
      + exact (body_rules_hold _ _ _ _ _ _ Hroot Hb).
    - revert Hi. apply existsb_sub. reflexivity.
  Qed.

  (* an `Other`-class rejection comes out of the transaction loop / reward hook: everything checked before held *)
  Lemma other_class_after_pre_checks cfg pv parent st0 b now r : wf_gas parent b -> parent_sane cfg parent ->
    process cfg pv parent st0 b now = Rejected State (Other r) -> pre_cond cfg pv parent b now.
  Proof.
    intros [Wg Wp] Sane. unfold Body.process, pre_cond.
    destruct (N.eqb_spec (h_features (b_header b)) (features_at cfg (h_number parent + 1))) as [Ef|Ef]; cbn [negb]; [|discriminate].
    destruct (validate_header cfg parent (b_header b) now) eqn:Eh;
      try (intros E; inversion E; subst; apply (validate_header_class _ _ _ _ _ Sane) in Eh; contradiction); try discriminate.
    apply (validate_header_accept_iff _ _ _ _ Wg Wp) in Eh.
    destruct (validate_proposer cfg pv parent (b_header b)) as [ups|v] eqn:Ep.
    2:{ intros E. inversion E; subst. apply validate_proposer_class in Ep. discriminate. }
    apply validate_proposer_ok_iff in Ep. destruct Ep as (s & mep & Ep & _).
    destruct (N.eqb_spec (h_txs_root (b_header b)) (root_of_txs (b_txs b))) as [Er|Er]; cbn [negb]; [|discriminate].
    destruct (body_txs_check _ _ _ _) eqn:Eb; [discriminate|].
    apply body_txs_check_iff, body_rules_iff in Eb. intros _.
    split; [exact Ef|]. split; [exact Eh|]. split; [exists s, mep; exact Ep|]. split; [exact Er | exact Eb].
  Qed.

  (* a breach of ANY rule checked before execution is consensus-critical, whether or not the transactions would execute
     (e.g. an unrecoverable origin, which also makes the runtime refuse the tx) — only the clock rule 3 is needed *)
  Theorem pre_execution_breach_rejected_critical_lemma cfg pv parent st0 b now i :
    0 < c_interval cfg -> wf_gas parent b -> parent_sane cfg parent ->
    rule_holds cfg pv parent st0 b now 3 -> pre_exec_rule i = true -> ~ rule_holds cfg pv parent st0 b now i ->
    exists r, process cfg pv parent st0 b now = Rejected State (Critical r).
  Proof.
    intros HT W Sane H3 Hpre Hi. destruct (breach_verdict _ _ _ _ _ _ HT W Sane (fun A => Hi (A i))) as (v & Ep & C).
    destruct v as [| |r|r|]; try contradiction; [exists r; exact Ep|].
    exfalso. apply Hi. apply (pre_cond_rules _ _ _ _ _ _ _ (other_class_after_pre_checks _ _ _ _ _ _ _ W Sane Ep) Hpre).
  Qed.

  (* a rejected block breaks some rule *)
  Theorem rejected_not_accepting cfg pv parent st0 b now v : 0 < c_interval cfg -> wf_gas parent b ->
    process cfg pv parent st0 b now = Rejected State v -> ~ all_rules cfg pv parent st0 b now.
  Proof.
    intros HT W E A. apply (accept_iff_rules_lemma _ _ _ _ _ _ HT W) in A. destruct A as (? & ? & A). congruence.
  Qed.

  Notation import := (import State exec apply_updates rewards sanity root_of_state root_of_receipts root_of_txs has_tx find_meta).

  (* REMARK (follows the shape of executeAndCommitBlock in the model: every write is issued after cons.Process returned nil):
     a rejected block issues no repository write, hence leaves the repository as it was.  On the implementation this is
     what the harness tests (Process level and on a real node.Node); node-local state outside the repository (the
     validators cache — Remove(parent) also runs for rejected blocks —, the seeder cache) is not part of `repo`. *)
  Lemma rejected_issues_no_write known ps ba v b conflicts best :
    import_writes State known ps ba (Rejected State v) b conflicts best = [].
  Proof. unfold import_writes. destruct known, ps, ba; reflexivity. Qed.

  Theorem rejected_leaves_no_trace_lemma cfg pv parent st0 rp b now conflicts known ps ba best rp' v :
    import cfg pv parent st0 rp b now conflicts known ps ba best = (rp', Rejected State v) -> rp' = rp.
  Proof.
    unfold Body.import. intros E. inversion E as [[E1 E2]]. rewrite E2. rewrite rejected_issues_no_write. reflexivity.
  Qed.

  Theorem accepted_import_writes cfg pv parent st0 rp b now conflicts best rp' st rcs :
    0 < c_interval cfg -> wf_gas parent b ->
    import cfg pv parent st0 rp b now conflicts false true true best = (rp', Accepted State st rcs) ->
    rp_blocks State rp' = (b, rcs, conflicts) :: rp_blocks State rp /\ rp_states State rp' = st :: rp_states State rp /\
    all_rules cfg pv parent st0 b now.
  Proof.
    intros HT W. unfold Body.import. intros E. inversion E as [[E1 E2]]. rewrite E2. cbn.
    repeat split. apply (accept_iff_rules_lemma _ _ _ _ _ _ HT W). eauto.
  Qed.
End Proofs.
