(* Compose/ReplayExamples.v — non-vacuity of Compose/Replay.v: the fork history of Chain/Examples.v (tx 1001 on both
   siblings at height 2, tx 1002 depending on it and reverting, a reorganisation) is a history of blocks accepted by C02's
   Process run with C09's repository lookups; concrete blocks on which both models reject with the same verdict. *)
From Coq Require Import List NArith Bool Lia.
From Verif Require Import Common.Util Sched.Model Header.Rules Validation.Body Validation.ProofsRules Compose.Replay.
From Verif Require Chain.Model Chain.Proofs Chain.Examples Chain.ProofsChainInv.
Import ListNotations.
Open Scope N_scope.

Module CE := Verif.Chain.Examples.

(* execution: state = a number, a tx adds its id, uses 21000 gas, tx 1002 reverts; a tx with less than 21000 gas does not execute *)
Definition x_exec (c : bctx) (st : N) (t : txn) : option (N * receipt) :=
  if t_gas t <? 21000 then None else Some (st + t_id t, mkRc 21000 (t_id t =? 1002) 5).
Definition x_process (r : CM.repo) (p : N) cfg pv parent b now :=
  process_on N x_exec (fun _ _ st _ => st) (fun _ st => Some (st + 1)) (fun _ => true) (fun st => st)
             (fun rs => N.of_nat (length rs)) (fun ts => N.of_nat (length ts)) r p cfg pv parent 7 b now.

(* PoA v2 as in Properties/C02.v, chain tag 7 (the tag of the example repository) *)
Definition x_cfg := mkCfg 0 0 0 0 1000 10 7.
Definition x_cands := [ mkC (mkP 11 true 0) 2 111 None; mkC (mkP 22 true 0) 1 222 None ].
Definition x_pv := mkPV false x_cands 0 (fun _ => 0).
Definition x_parent (n : N) := mkH n 1000 10000000 0 0 50 0 1 777 0 (0, 0) false None 146 (Some 11) (Some (0, 0)).
Definition x_block (n : N) (txs : list txn) :=
  mkB (mkH (n + 1) 1010 10000000 222 (21000 * N.of_nat (length txs)) 52 (N.of_nat (length txs)) 1
           (7 + sumN (map t_id txs)) (N.of_nat (length txs)) (32, 777) true None 146 (Some 22) (Some (32, 4242))) txs None.
Definition v1 := mkTx 1001 true false true false 7 1 10 0 0 false 21000 true None.          (* the view of CE.ex_t1 *)
Definition v2 := mkTx 1002 true false true false 7 0 5 0 0 false 21000 true (Some 1001).   (* the view of CE.ex_t2 *)

Example views : same_tx v1 CE.ex_t1 /\ same_tx v2 CE.ex_t2.
Proof. split; unfold same_tx; cbn; auto. Qed.

Definition x_U (t : CM.txrec) : Prop := t = CE.ex_t1 \/ t = CE.ex_t2.

Lemma x_adm r cb best n txs st rcs :
  Forall2 same_tx txs (CM.b_txs cb) -> CM.num_of (CM.b_id cb) = n + 1 -> CM.r_tag r = 7 ->
  map CM.rc_rev (CM.b_rcs cb) = map r_reverted rcs ->
  x_process r (CM.b_parent cb) x_cfg x_pv (x_parent n) (x_block n txs) 1005 = Accepted N st rcs ->
  (forall t, In t (CM.b_txs cb) -> x_U t) ->
  c02_accepted N x_exec (fun _ _ st _ => st) (fun _ st => Some (st + 1)) (fun _ => true) (fun st => st)
               (fun rs => N.of_nat (length rs)) (fun ts => N.of_nat (length ts)) x_U r cb best.
Proof.
  intros H1 H2 H3 H4 H5 H6. split; [|exact H6].
  exists x_cfg, x_pv, (x_parent n), 7, (x_block n txs), 1005, st, rcs. split; [|split; [exact H4 | exact H5]].
  split; [exact H1|]. split; [exact H2 | symmetry; exact H3].
Qed.

(* 1. all premises of c02_history_is_c09_history / c02_chain_at_most_once_in_window / c02_chain_dependency hold on the
      example history: each of its four blocks (two empty ones, [1001], [1001; 1002 reverting]) was accepted by Process *)
Example fork_history_accepted_by_c02 :
  (forall t1 t2, x_U t1 -> x_U t2 -> CM.tx_id t1 = CM.tx_id t2 -> t1 = t2) /\
  CM.num_of CE.ex_g = 0 /\ CM.num_of CE.ex_gp = CM.max_u32 /\
  CP.reachable CE.ex_g CE.ex_gp CE.ex_tag
    (c02_accepted N x_exec (fun _ _ st _ => st) (fun _ st => Some (st + 1)) (fun _ => true) (fun st => st)
                  (fun rs => N.of_nat (length rs)) (fun ts => N.of_nat (length ts)) x_U) CE.ex_r4.
Proof.
  split.
  { intros t1 t2 [->| ->] [->| ->]; cbn; intros E; try reflexivity; discriminate. }
  split; [vm_compute; reflexivity|]. split; [vm_compute; reflexivity|].
  apply CE.ex_reachable.
  - apply (x_adm _ _ _ 0 [] 7 []); [apply Forall2_nil | vm_compute; reflexivity | reflexivity | reflexivity | vm_compute; reflexivity | intros t []].
  - apply (x_adm _ _ _ 1 [v1] 1008 [mkRc 21000 false 5]);
      [repeat (apply Forall2_cons || apply Forall2_nil); apply views | vm_compute; reflexivity | reflexivity | reflexivity | vm_compute; reflexivity |].
    intros t [<-|[]]. left. reflexivity.
  - apply (x_adm _ _ _ 1 [v1; v2] 2010 [mkRc 21000 false 5; mkRc 21000 true 5]);
      [repeat (apply Forall2_cons || apply Forall2_nil); apply views | vm_compute; reflexivity | reflexivity | reflexivity | vm_compute; reflexivity |].
    intros t [<-|[<-|[]]]; [left | right]; reflexivity.
  - apply (x_adm _ _ _ 2 [] 7 []); [apply Forall2_nil | vm_compute; reflexivity | reflexivity | reflexivity | vm_compute; reflexivity | intros t []].
Qed.

(* ... so the composed theorem applies to it *)
Example fork_history_is_c09_history :
  CP.reachable CE.ex_g CE.ex_gp CE.ex_tag (Chain.ProofsChainInv.accepted x_U) CE.ex_r4.
Proof.
  destruct fork_history_accepted_by_c02 as (_ & Hg & Hgp & R).
  exact (c02_history_is_c09_history N x_exec _ _ _ _ _ _ _ _ _ x_U CE.ex_r4 Hg Hgp R).
Qed.

(* 2. same verdict, concretely: on top of the reorganised chain (head (3,1) over (2,2)) both models reject
      - tx 1001 again                          : C02 code 50, C09 V_exists
      - a tx depending on the reverted 1002    : C02 code 52, C09 V_deprev
      - a tx depending on an unknown id        : C02 code 51, C09 V_depbroken
      - an expired tx (ref 0, expiration 3)    : C02 code 37, C09 V_expired
      - a tx of another chain                  : C02 code 35, C09 V_tag
      - a tx referring to a future block       : C02 code 36, C09 V_future
      and on the OTHER branch (head (2,1), where 1002 was never included) the tx depending on 1002 is rejected as
      dependency-not-found by both, tx 1001 as a duplicate by both *)
Definition top (txs : list txn) := x_process CE.ex_r4 (CE.bid 3 1) x_cfg x_pv (x_parent 3) (x_block 3 txs) 1005.
Definition ctop (txs : list txn) := CM.validate CE.ex_r4 (CM.mkB (CE.bid 4 1) (CE.bid 3 1) 40 (map (tx_of 50) txs) [CE.ex_rc false]).
Definition side (txs : list txn) := x_process CE.ex_r4 (CE.bid 2 1) x_cfg x_pv (x_parent 2) (x_block 2 txs) 1005.
Definition cside (txs : list txn) := CM.validate CE.ex_r4 (CM.mkB (CE.bid 3 2) (CE.bid 2 1) 40 (map (tx_of 50) txs) [CE.ex_rc false]).
Definition w (id tag ref exp : N) (dep : option N) := mkTx id true false true false tag ref exp 0 0 false 21000 true dep.

Example same_verdicts :
  top [v1] = Rejected N (Critical 50) /\ ctop [v1] = CM.V_exists /\
  top [w 1003 7 0 9 (Some 1002)] = Rejected N (Critical 52) /\ ctop [w 1003 7 0 9 (Some 1002)] = CM.V_deprev /\
  top [w 1003 7 0 9 (Some 4444)] = Rejected N (Critical 51) /\ ctop [w 1003 7 0 9 (Some 4444)] = CM.V_depbroken /\
  top [w 1003 7 0 3 None] = Rejected N (Critical 37) /\ ctop [w 1003 7 0 3 None] = CM.V_expired /\
  top [w 1003 8 0 9 None] = Rejected N (Critical 35) /\ ctop [w 1003 8 0 9 None] = CM.V_tag /\
  top [w 1003 7 5 9 None] = Rejected N (Critical 36) /\ ctop [w 1003 7 5 9 None] = CM.V_future /\
  side [w 1003 7 0 9 (Some 1002)] = Rejected N (Critical 51) /\ cside [w 1003 7 0 9 (Some 1002)] = CM.V_depbroken /\
  side [v1] = Rejected N (Critical 50) /\ cside [v1] = CM.V_exists /\
  top [w 1003 7 0 9 (Some 1001)] = Accepted N 1010 [mkRc 21000 false 5] /\ ctop [w 1003 7 0 9 (Some 1001)] = CM.V_ok.
Proof. vm_compute. repeat split. Qed.

(* the premise lookups_total of the loop / block theorems holds there (through C09's theorems 2 and 4) *)
Example lookups_total_example : lookups_total CE.ex_r4 (CE.bid 3 1) /\ lookups_total CE.ex_r4 (CE.bid 2 1).
Proof.
  destruct fork_history_accepted_by_c02 as (_ & Hg & Hgp & R).
  split; apply (lookups_total_reachable _ _ _ _ _ _ Hg Hgp R); eexists; vm_compute; reflexivity.
Qed.

(* ... and process_replay_reject_same_verdict instantiated on the duplicate *)
Example reject_theorem_applies : ctop [v1] = CM.V_exists.
Proof.
  apply (process_replay_reject_same_verdict N x_exec (fun _ _ st _ => st) (fun _ st => Some (st + 1)) (fun _ => true) (fun st => st)
           (fun rs => N.of_nat (length rs)) (fun ts => N.of_nat (length ts)) x_cfg x_pv (x_parent 3) 7 (x_block 3 [v1]) 1005
           CE.ex_r4 _ 50 CM.V_exists).
  - split; [apply same_txs_of|]. split; [vm_compute; reflexivity | reflexivity].
  - exact (proj1 lookups_total_example).
  - intros ctx st1 E. vm_compute in E. injection E as <- <-. vm_compute. reflexivity.
  - vm_compute. reflexivity.
  - reflexivity.
Qed.
