(* Bft/ProofsWitness2.v — concrete runs for the run-level safety statements:
   SIB: two sibling epochs (same parent epoch, conflicting checkpoints 4X / 4Y) are both committed with quality 2 by the
        same honest validators in a valid run with one Byzantine validator of four: the statement
        "committed epochs of equal quality have non-conflicting checkpoints" is false of the vote rule as coded (both votes
        are allowed because each checkpoint descends from the most recent justified checkpoint); what is safe is what gets
        FINALIZED (the quality-1 checkpoint, here genesis for both).
   F4 facts: the F4 run satisfies the visibility premise and exhibits the shape the gap theorems predict. *)
From Coq Require Import List NArith Bool Lia.
From Verif Require Import Common.Util Bft.Tree Bft.Model Bft.Quorum Bft.Safety Bft.ProofsWitness Bft.ProofsChain
  Bft.ProofsFind Bft.ProofsOrder Bft.ProofsSafety Bft.ProofsFast Bft.ProofsRun Bft.ProofsLink Bft.ProofsGap.
Import ListNotations.
Open Scope N_scope.

Definition sx4 := bk 4 3 1 1 true 13.  Definition sx5 := bk 5 3 3 2 true 14.
Definition sx6 := bk 6 3 3 4 true 15.  Definition sx7 := bk 7 3 3 4 true 16.
Definition sy4 := bk 4 2 1 4 true 16.  Definition sy5 := bk 5 2 2 1 true 17.
Definition sy6 := bk 6 2 2 2 true 18.  Definition sy7 := bk 7 2 2 4 true 19.
Definition sib_run : list event :=
  [ P 0%nat c1; I 1%nat c1; I 2%nat c1; P 1%nat c2; I 0%nat c2; I 2%nat c2; P 2%nat c3; I 0%nat c3; I 1%nat c3;
    P 0%nat sx4; I 1%nat sx4; P 1%nat sx5; I 0%nat sy4; P 0%nat sy5; I 1%nat sy4; I 1%nat sy5; P 1%nat sy6;
    I 2%nat sx4; I 2%nat sx5; I 2%nat sx6; I 2%nat sx7; I 2%nat sy4; I 2%nat sy5; I 2%nat sy6; I 2%nat sy7 ].

(* fast evaluation of the visibility premise *)
Definition votes_visible_at2 (c : cfg) (nd : node) : bool :=
  let r := n_repo nd in let e := n_eng nd in
  let hq := s_q (state_fast c (chain_of r (b_id (best_blk nd)))) in
  forallb (fun x => negb (b_signer x =? e_master e) || negb (hq - 1 <=? s_q (state_fast c (chain_of r (b_id x)))) ||
                    (idnum (e_fin e) <=? b_num x)) r.
Fixpoint votes_visible_b2 (c : cfg) (w : list node) (evs : list event) : bool :=
  match evs with
  | [] => true
  | ev :: t =>
      match ev with
      | EPropose i b => match nth_error w i with Some nd => votes_visible_at2 c nd | None => true end
      | _ => true
      end && votes_visible_b2 c (step_plain true c w ev) t
  end.
Lemma forallb_ext' {A} (f g : A -> bool) l : (forall x, f x = g x) -> forallb f l = forallb g l.
Proof. intros H. induction l as [|x l IH]; [reflexivity|]. cbn. rewrite H, IH. reflexivity. Qed.
Lemma votes_visible_fast c evs : forall w, votes_visible_b c w evs = votes_visible_b2 c w evs.
Proof.
  induction evs as [|ev t IH]; intros w; [reflexivity|]. cbn [votes_visible_b votes_visible_b2]. rewrite IH. f_equal.
  destruct ev as [i b|i b|i]; try reflexivity. destruct (nth_error w i) as [nd|]; [|reflexivity].
  unfold votes_visible_at, votes_visible_at2, Verif.Bft.ProofsNode.qual. cbv zeta. rewrite quality_pure_fast.
  apply forallb_ext'. intros x. rewrite quality_pure_fast. reflexivity.
Qed.

Lemma sib_valid : valid_run_b true cfg4 [4] f4_world [gen] sib_run = true.
Proof. vm_compute. reflexivity. Qed.

Lemma sib_root : known (seen_after [gen] sib_run) (b_parent gen) = false.
Proof. vm_compute. reflexivity. Qed.

Lemma sib_visible : votes_visible_b cfg4 f4_world sib_run = true.
Proof. rewrite votes_visible_fast. vm_compute. reflexivity. Qed.

Lemma in_by_eqb l x : existsb (blk_eqb x) l = true -> In x l.
Proof. intros E. apply existsb_exists in E. destruct E as [y [Hy E]]. rewrite (Verif.Bft.ProofsTree2.blk_eqb_eq x y E). exact Hy. Qed.

Lemma sib_committed :
  In sx7 (seen_after [gen] sib_run) /\ In sy7 (seen_after [gen] sib_run) /\
  state_pure cfg4 (chain_of (seen_after [gen] sib_run) (b_id sx7)) = mkS 2 true true /\
  state_pure cfg4 (chain_of (seen_after [gen] sib_run) (b_id sy7)) = mkS 2 true true /\
  block_at (seen_after [gen] sib_run) (b_id sx7) (checkpoint 4 (b_num sx7)) = Some sx4 /\
  block_at (seen_after [gen] sib_run) (b_id sy7) (checkpoint 4 (b_num sy7)) = Some sy4 /\
  conflict (seen_after [gen] sib_run) (b_id sx4) (b_id sy4) = true.
Proof.
  split; [apply in_by_eqb; vm_compute; reflexivity|]. split; [apply in_by_eqb; vm_compute; reflexivity|].
  rewrite !state_pure_fast. vm_compute. repeat split; reflexivity.
Qed.

Theorem same_quality_commit_exclusive_refuted_lemma : ~ same_quality_commit_exclusive_statement true.
Proof.
  intros H. destruct cfg4_side as [N1 [N2 [D [T S]]]].
  destruct sib_committed as [I1 [I2 [S1 [S2 [C1 [C2 Hc]]]]]].
  specialize (H cfg4 gen [1;2;3] [4] sib_run ltac:(reflexivity) eq_refl eq_refl N1 N2 D T S sib_valid). cbv zeta in H.
  specialize (H sx7 sy7 sx4 sy4 I1 I2). rewrite S1, S2 in H. specialize (H eq_refl eq_refl).
  unfold quality_pure in H. rewrite S1, S2 in H. specialize (H eq_refl C1 C2). rewrite Hc in H. discriminate H.
Qed.

(* the sibling run as an instance of the gap-0 theorem: both committed epochs finalize genesis *)
Lemma sib_gap0_instance :
  let t := seen_after [gen] sib_run in
  finalizing cfg4 t sx7 /\ finalizing cfg4 t sy7 /\ Qof cfg4 t sx7 = Qof cfg4 t sy7 /\
  first_epoch cfg4 t sx7 0 /\ block_at t (b_id sx7) (0 * 4) = Some gen /\
  first_epoch cfg4 t sy7 0 /\ block_at t (b_id sy7) (0 * 4) = Some gen.
Proof.
  cbv zeta. destruct sib_committed as [I1 [I2 [S1 [S2 _]]]].
  assert (F1 : finalizing cfg4 (seen_after [gen] sib_run) sx7).
  { split; [exact I1|]. split; [vm_compute; reflexivity|]. unfold quality_pure. rewrite S1. split; [reflexivity | vm_compute; reflexivity]. }
  assert (F2 : finalizing cfg4 (seen_after [gen] sib_run) sy7).
  { split; [exact I2|]. split; [vm_compute; reflexivity|]. unfold quality_pure. rewrite S2. split; [reflexivity | vm_compute; reflexivity]. }
  split; [exact F1|]. split; [exact F2|]. unfold Qof, quality_pure. rewrite S1, S2. split; [reflexivity|].
  unfold first_epoch, q_epoch. rewrite !quality_pure_fast.
  split; [split; [vm_compute; reflexivity | intros k Hk; lia]|]. split; [vm_compute; reflexivity|].
  split; [split; [vm_compute; reflexivity | intros k Hk; lia] | vm_compute; reflexivity].
Qed.

Lemma f4_root : known (seen_after [gen] f4_run) (b_parent gen) = false.
Proof. vm_compute. reflexivity. Qed.

Lemma f4_visible : votes_visible_b cfg4 f4_world f4_run = true.
Proof. rewrite votes_visible_fast. vm_compute. reflexivity. Qed.

Lemma f4_gap_instance :
  let t := seen_after [gen] f4_run in
  finalizing cfg4 t x11 /\ finalizing cfg4 t y19 /\ Qof cfg4 t x11 = 3 /\ Qof cfg4 t y19 = 5 /\
  first_epoch cfg4 t x11 1 /\ block_at t (b_id x11) (1 * 4) = Some x4 /\
  first_epoch cfg4 t y19 3 /\ block_at t (b_id y19) (3 * 4) = Some y12.
Proof.
  cbv zeta. unfold finalizing, first_epoch, q_epoch, Qof. rewrite !state_pure_fast, !quality_pure_fast.
  split; [split; [apply in_by_eqb; vm_compute; reflexivity | vm_compute; repeat split; reflexivity]|].
  split; [split; [apply in_by_eqb; vm_compute; reflexivity | vm_compute; repeat split; reflexivity]|].
  split; [vm_compute; reflexivity|]. split; [vm_compute; reflexivity|].
  split; [split; [vm_compute; reflexivity|]|].
  { intros k Hk. assert (k = 0) by lia. subst k. rewrite quality_pure_fast. vm_compute. reflexivity. }
  split; [vm_compute; reflexivity|].
  split; [split; [vm_compute; reflexivity|] | vm_compute; reflexivity].
  intros k Hk. assert (Hc : k = 0 \/ k = 1 \/ k = 2) by lia. destruct Hc as [-> | [-> | ->]]; rewrite quality_pure_fast; vm_compute; reflexivity.
Qed.

(* the F4 history until 18Y; then node 0 (v1, best block 18Y) imports 10X and 11X: the import finalizes 4X while the best
   block stays on Y (higher quality); its own proposal of the store point 19Y (no Accepts test in proposeAndCommit) then
   finalizes 12Y, which conflicts with 4X: finalized does not move along its own ancestry on ONE honest node. *)
Definition y19own := bk 19 4 2 1 true 70.
Definition f17_prefix : list event :=
  [ P 0%nat c1; I 1%nat c1; I 2%nat c1; P 1%nat c2; I 0%nat c2; I 2%nat c2; P 2%nat c3; I 0%nat c3; I 1%nat c3;
    P 0%nat y4; I 1%nat y4; P 1%nat y5;
    P 2%nat x4; I 0%nat x4; P 0%nat x5; I 2%nat x5; I 2%nat x6; P 2%nat x7; P 2%nat x8;
    I 0%nat x6; I 0%nat x7; I 0%nat x8; P 0%nat x9;
    I 1%nat x4; I 1%nat x5; I 1%nat x6; I 1%nat x7; I 1%nat x8; I 1%nat x9; I 1%nat x10; P 1%nat x11;
    I 0%nat y5; I 0%nat y6; I 0%nat y7; P 0%nat y8;
    I 2%nat y4; I 2%nat y5; I 2%nat y6; I 2%nat y7; I 2%nat y8; I 2%nat x9; P 2%nat y9;
    I 0%nat y9; I 0%nat y10; I 0%nat y11; P 0%nat y12;
    I 2%nat y10; I 2%nat y11; I 2%nat y12; P 2%nat y13;
    I 0%nat y13; I 0%nat y14; I 0%nat y15; P 0%nat y16;
    I 2%nat y14; I 2%nat y15; I 2%nat y16; P 2%nat y17;
    I 0%nat y17; I 0%nat y18; I 0%nat x10; I 0%nat x11 ].
Definition f17_run : list event := f17_prefix ++ [P 0%nat y19own].

(* the world after the prefix, evaluated once *)
Definition f17_world : list node := Eval vm_compute in world_after cfg4 f4_world f17_prefix.
Lemma f17_world_eq : world_after cfg4 f4_world f17_prefix = f17_world.
Proof. vm_compute. reflexivity. Qed.

Lemma f17_witness :
  valid_run_b true cfg4 [4] f4_world [gen] f17_run = true /\
  (exists nd, nth_error (world_after cfg4 f4_world f17_prefix) 0 = Some nd /\
              e_fin (n_eng nd) = b_id x4 /\ n_best nd = b_id y18 /\
              has_block (n_repo nd) (n_best nd) (e_fin (n_eng nd)) = false /\ honest_ok cfg4 nd y19own = true) /\
  (exists nd', nth_error (world_after cfg4 f4_world f17_run) 0 = Some nd' /\ e_fin (n_eng nd') = b_id y12 /\
               has_block (n_repo nd') (e_fin (n_eng nd')) (b_id x4) = false) /\
  conflict (seen_after [gen] f17_run) (b_id x4) (b_id y12) = true.
Proof.
  assert (E : world_after cfg4 f4_world f17_run = step_plain true cfg4 f17_world (P 0%nat y19own)).
  { unfold f17_run, world_after. rewrite fold_left_app. exact (f_equal (fun w => step_plain true cfg4 w _) f17_world_eq). }
  unfold f17_run at 1. rewrite valid_run_app, E, f17_world_eq.
  split; [vm_compute; reflexivity|]. split; [eexists; split; [reflexivity | vm_compute; repeat split; reflexivity]|].
  split; [eexists; split; [vm_compute; reflexivity | vm_compute; split; reflexivity] | vm_compute; reflexivity].
Qed.
