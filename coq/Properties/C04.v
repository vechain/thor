(* Properties/C04.v — the statements of C04 with the runs they speak of (lb, live_run, main_chain); proofs cite
   Bft/Proofs*.v, two short ones are given here.  "Nodes that have seen the same blocks agree on best block and finality; a late
   valid block descending from finalized is imported without error; the incremental tally equals the tally rebuilt
   from the definitions."  The model is Bft/Model.v (tied to bft.Engine / bft.justifier by the correspondence run). *)
From Coq Require Import List NArith Bool Lia.
From Verif Require Import Common.Util Bft.Tree Bft.Model Bft.Quorum Bft.ProofsTally Bft.ProofsChain Bft.ProofsSearch
  Bft.ProofsNode Bft.Safety Bft.ProofsWitness Bft.ProofsCommit Bft.ProofsOrder Bft.ProofsOrder2 Bft.ProofsOrder3 Bft.ProofsOrder4
  Bft.ProofsLive Bft.ProofsVote Bft.ProofsJustified Bft.ProofsFork Bft.ProofsSafety Bft.ProofsRun Bft.ProofsGap Bft.ProofsWitness2.
From Verif Require Compose.SyncOrder.
Import ListNotations.
Open Scope N_scope.

(* 1. the tally (votes map, COM count, COM weight, justified weight, summary) is a function of the *set* of
      (signer, COM bit, weight) fed to AddBlock: permutations, duplicates, splits do not matter *)
Theorem tally_order_independent (w : N -> N) pq tv tw (l1 l2 : list (N * (bool * N))) :
  weighed w l1 -> weighed w l2 -> (forall x, In x l1 <-> In x l2) ->
  js_equiv (tally_votes pq tv tw l1) (tally_votes pq tv tw l2) /\
  summarize (tally_votes pq tv tw l1) = summarize (tally_votes pq tv tw l2).
Proof.
  intros W1 W2 Hs. pose proof (tally_order_independent_lemma w pq tv tw l1 l2 W1 W2 Hs) as H.
  split; [exact H | exact (js_equiv_summarize _ _ H)].
Qed.

(* 2. computeState's cache-hit path (the parent's justifier, however it was built, plus the new block) gives the same
      state as the rebuild from the checkpoint (the block first, then its ancestors) *)
Theorem incremental_eq_scratch c pq segp segp' b :
  (forall x, In x segp <-> In x segp') ->
  summarize (add_blk c (tally c pq segp') b) = summarize (tally c pq (b :: segp)).
Proof. intros Hs. apply js_equiv_summarize. exact (incremental_eq_scratch_lemma c pq segp segp' b Hs). Qed.

(* 2b. what the tally IS, declaratively (no reference to AddBlock): the votes map holds exactly the distinct signers of the
       segment, each with its weight; a signer's recorded vote is COM iff every block it signed in the segment is COM; the
       counters are the sums over that map; the thresholds are the configured ones.  Both the incremental and the rebuilt
       tally satisfy it (they are the same fold), so "equals the tally recomputed from the definitions" has a definition. *)
Theorem tally_is_declarative_spec c pq seg :
  let js := tally c pq seg in
  NoDup (keys (j_votes js)) /\ (forall s, In s (keys (j_votes js)) <-> In s (signers seg)) /\
  (forall s v, In (s, v) (j_votes js) -> v_w v = weight_of c s) /\
  j_jw js = sumf v_w (j_votes js) /\ j_com js = sumf f_one (j_votes js) /\ j_comw js = sumf f_comw (j_votes js) /\
  j_tv js = thr_votes c /\ j_tw js = thr_weight c /\
  (forall s v, In (s, v) (j_votes js) -> v_com v = allcom (map (vote_of c) seg) s).
Proof. exact (tally_keys c pq seg). Qed.

(* 3. along any import history (any tree, any parent-before-child order, duplicates, refused blocks) of a node: the
      repository stays well formed, every persisted quality record equals the quality computed from the definitions
      (no records, no caches: state_pure), and the best block beats every other stored block in the total order
      (quality from the definitions, then total score, then smaller id) *)
Theorem import_history_invariants c guard g master bs : 0 < c_L c -> b_num g = 0 ->
  (forall nd b, inv c nd -> In b bs -> valid_child (n_repo nd) b) ->
  inv c (import_all c guard (init_node g master) bs).
Proof. intros HL Hg Hv. apply import_all_inv; [exact HL | apply init_inv; exact Hg | exact Hv]. Qed.

Theorem stored_quality_is_from_scratch c nd x : 0 < c_L c -> inv c nd -> In x (n_repo nd) ->
  s_q (compute_state c (n_repo nd) (e_qs (n_eng nd)) x) = quality_pure c (chain_of (n_repo nd) (b_id x)).
Proof. intros HL Hi Hin. exact (compute_state_stored c HL _ _ x (inv_wf c nd Hi) (inv_qs c nd Hi) Hin). Qed.

Theorem stored_state_is_from_scratch c nd x : 0 < c_L c -> inv c nd -> In x (n_repo nd) ->
  compute_state c (n_repo nd) (e_qs (n_eng nd)) x = state_pure c (chain_of (n_repo nd) (b_id x)).
Proof. intros HL Hi Hin. exact (compute_state_stored_full c HL _ _ x (inv_wf c nd Hi) (inv_qs c nd Hi) Hin). Qed.

Theorem best_is_max c nd x : inv c nd -> In x (n_repo nd) -> b_id x <> n_best nd ->
  beats c (n_repo nd) (best_blk nd) x = true.
Proof. intros Hi. exact (inv_max c nd Hi x). Qed.

(* two nodes holding the same set of blocks (whatever the arrival orders, duplicates, restarts — restart keeps
   repository, records and best pointer) report the same best block *)
Theorem best_order_independent c n1 n2 : 0 < c_L c -> inv c n1 -> inv c n2 ->
  (forall x, In x (n_repo n1) <-> In x (n_repo n2)) ->
  (forall x, In x (n_repo n1) -> qual c (n_repo n1) x = qual c (n_repo n2) x) ->
  n_best n1 = n_best n2.
Proof. intros HL. exact (same_repo_same_best c HL n1 n2). Qed.

(* the premise on qualities is derivable (chains are a function of the set) *)
Theorem best_is_function_of_stored_set c n1 n2 : 0 < c_L c -> inv c n1 -> inv c n2 ->
  (forall x, In x (n_repo n1) <-> In x (n_repo n2)) -> n_best n1 = n_best n2.
Proof.
  intros HL I1 I2 Hset. apply (same_repo_same_best c HL n1 n2 I1 I2 Hset). intros x Hx. unfold qual.
  rewrite (chain_of_set_eq _ _ (b_id x) (inv_wf c _ I1) (inv_wf c _ I2) Hset). reflexivity.
Qed.

(* 3b. import_set_order_independent (first sentence, for consistent trees: in every well-formed repository drawn from the
       tree all finalizing blocks — committed store points of quality > 1 — lie on one chain).  Two nodes run arbitrary
       histories of deliveries (any order in which the model accepts them, duplicates, unknown parents, refused blocks)
       and restarts over the tree; if they end up storing the same set of blocks they hold the same best block and the
       same finalized checkpoint.  finalized is characterised as a function of the set (fin_char): the checkpoint of the
       first epoch, on the chain of the highest finalizing block B, whose store point carries quality Q_B - 1. *)
Theorem import_set_order_independent c U g m1 m2 h1 h2 : 0 < c_L c ->
  tree_consistent c U -> b_num g = 0 -> In g U ->
  (forall b, In (Some b) h1 \/ In (Some b) h2 -> In b U) ->
  (forall nd b, inv c nd -> In (Some b) h1 \/ In (Some b) h2 -> valid_child (n_repo nd) b) ->
  let n1 := run_node c (init_node g m1) h1 in
  let n2 := run_node c (init_node g m2) h2 in
  (forall x, In x (n_repo n1) <-> In x (n_repo n2)) ->
  n_best n1 = n_best n2 /\ e_fin (n_eng n1) = e_fin (n_eng n2).
Proof. intros HL. exact (import_set_order_independent_lemma c HL U g m1 m2 h1 h2). Qed.

Theorem finalized_is_function_of_set c r1 r2 f1 f2 : 0 < c_L c ->
  wf_repo r1 -> wf_repo r2 -> (forall x, In x r1 <-> In x r2) -> consistent c r1 ->
  fin_char c r1 f1 -> fin_char c r2 f2 -> f1 = f2.
Proof. intros HL. exact (fin_char_unique c HL r1 r2 f1 f2). Qed.

(* chains (hence qualities, per-block states) do not depend on the storage order *)
Theorem chain_is_function_of_set r1 r2 id : wf_repo r1 -> wf_repo r2 -> (forall x, In x r1 <-> In x r2) ->
  chain_of r1 id = chain_of r2 id.
Proof. exact (chain_of_set_eq r1 r2 id). Qed.

(* Justified().  The one-entry cache is keyed by (store point, finalized) since the repair in /repo (942a798); the model
   carries both variants (justified_gen keyed).
   (i)   after ANY history of imports, own proposals, restarts and Justified() queries a warm cache answers exactly what a
         cold cache answers (no hypothesis on the tree);
   (ii)  hence two nodes that store the same set and hold the same finalized checkpoint answer the same, whatever their
         histories of queries and restarts were;
   (iii) with the entry keyed by the store point only (the code before the repair) this is false: on a CONSISTENT tree two
         nodes with the same stored blocks, best block and finalized checkpoint answer 8W and 12W (F15, replayed on the real
         engine, fixed). *)
Theorem justified_independent_of_cache_history c g master h :
  let nd := run_nev c (init_node g master) h in
  snd (justified c (n_repo nd) (n_eng nd) (best_blk nd)) = snd (justified c (n_repo nd) (clear_jc (n_eng nd)) (best_blk nd)).
Proof. exact (justified_history_independent_of_cache c g master h). Qed.

Theorem justified_order_independent c n1 n2 : 0 < c_L c -> inv c n1 -> inv c n2 -> node_jc c n1 -> node_jc c n2 ->
  (forall x, In x (n_repo n1) <-> In x (n_repo n2)) -> e_fin (n_eng n1) = e_fin (n_eng n2) ->
  snd (justified c (n_repo n1) (n_eng n1) (best_blk n1)) = snd (justified c (n_repo n2) (n_eng n2) (best_blk n2)).
Proof.
  intros HL I1 I2 J1 J2 Hset Hfin.
  rewrite (justified_cache_transparent c _ _ _ J1), (justified_cache_transparent c _ _ _ J2).
  assert (Hb : best_blk n1 = best_blk n2).
  { pose proof (best_is_function_of_stored_set c n1 n2 HL I1 I2 Hset) as E. unfold best_blk. rewrite <- E.
    destruct (inv_best c _ I1) as [b1 H1]. rewrite H1. destruct (find_blk_id _ _ _ H1) as [Hid Hin].
    rewrite <- Hid. rewrite (chain_of_stored _ b1 (inv_wf c _ I2) (proj1 (Hset b1) Hin)). reflexivity. }
  rewrite Hb. apply (justified_set_eq c HL); try reflexivity; try assumption;
    [exact (inv_wf c _ I1) | exact (inv_wf c _ I2) | exact (inv_qs c _ I1) | exact (inv_qs c _ I2)].
Qed.

(* the node invariants and the cache invariant along every history of imports, own proposals (on a stored parent), restarts and
   queries whose blocks carry their parent's number plus one - so the premises `inv` / `node_jc` of justified_order_independent
   are established, not assumed, for nodes reached from genesis *)
Theorem inv_along_histories_with_queries c g master h : 0 < c_L c -> b_num g = 0 ->
  (forall nd b, inv c nd -> In b (nev_blocks h) -> valid_child (n_repo nd) b) ->
  inv c (run_nev c (init_node g master) h).
Proof. intros HL Hg Hv. apply (run_nev_inv c HL h); [apply init_inv; assumption | exact Hv]. Qed.

Theorem justified_order_independent_along_histories c g m1 m2 h1 h2 : 0 < c_L c -> b_num g = 0 ->
  (forall nd b, inv c nd -> In b (nev_blocks h1) \/ In b (nev_blocks h2) -> valid_child (n_repo nd) b) ->
  let n1 := run_nev c (init_node g m1) h1 in
  let n2 := run_nev c (init_node g m2) h2 in
  (forall x, In x (n_repo n1) <-> In x (n_repo n2)) -> e_fin (n_eng n1) = e_fin (n_eng n2) ->
  snd (justified c (n_repo n1) (n_eng n1) (best_blk n1)) = snd (justified c (n_repo n2) (n_eng n2) (best_blk n2)).
Proof.
  intros HL Hg Hv n1 n2 Hset Hfin. apply (justified_order_independent c n1 n2 HL); try assumption.
  - apply inv_along_histories_with_queries; try assumption. intros nd b Hi Hb. apply Hv; [exact Hi | left; exact Hb].
  - apply inv_along_histories_with_queries; try assumption. intros nd b Hi Hb. apply Hv; [exact Hi | right; exact Hb].
  - apply run_nev_jc. exact Logic.I.
  - apply run_nev_jc. exact Logic.I.
Qed.

Theorem node_jc_along_histories c g master h : node_jc c (run_nev c (init_node g master) h).
Proof. apply run_nev_jc. exact Logic.I. Qed.

Theorem justified_stale_cache_before_repair :
  n_repo (j_node_a false) = n_repo j_node_b /\ n_best (j_node_a false) = n_best j_node_b /\
  e_fin (n_eng (j_node_a false)) = e_fin (n_eng j_node_b) /\ e_fin (n_eng j_node_b) = b_id (js 12) /\
  snd (justified_gen false cfg4 (n_repo (j_node_a false)) (n_eng (j_node_a false)) (best_blk (j_node_a false))) = Ok (b_id (jw 8)) /\
  snd (justified_gen false cfg4 (n_repo j_node_b) (n_eng j_node_b) (best_blk j_node_b)) = Ok (b_id (jw 12)) /\
  snd (justified cfg4 (n_repo (j_node_a true)) (n_eng (j_node_a true)) (best_blk (j_node_a true))) = Ok (b_id (jw 12)).
Proof. exact stale_cache_witness. Qed.

(* the gap between "stored" and "received": the same blocks received in another parent-before-child order (branch S before
   branch W of the consistent tree j_tree) are not all stored - Accepts refuses W once 12S is finalized - and the node reports
   another best block.  So best/finalized/justified are functions of the set STORED (what the theorems above say), not of
   the set received; this is the behaviour C03 demands ("blocks that do not descend from it are refused"). *)
Theorem received_order_matters :
  (forall b, In (Some b) j_h1 <-> In (Some b) j_h3) /\
  n_best (run_node cfg4 (init_node gen 1) j_h1) = b_id (jw 20) /\ n_best (run_node cfg4 (init_node gen 1) j_h3) = b_id (js 19) /\
  length (n_repo (run_node cfg4 (init_node gen 1) j_h1)) = 37%nat /\ length (n_repo (run_node cfg4 (init_node gen 1) j_h3)) = 20%nat /\
  e_fin (n_eng (run_node cfg4 (init_node gen 1) j_h1)) = e_fin (n_eng (run_node cfg4 (init_node gen 1) j_h3)).
Proof. exact received_order_matters_witness. Qed.

(* 4. quality never decreases along a chain and grows by at most one per block *)
Theorem quality_monotone c b t : 0 < c_L c -> grounded (b :: t) ->
  quality_pure c t <= quality_pure c (b :: t) <= quality_pure c t + 1.
Proof. intros HL. exact (quality_step c HL b t). Qed.

(* 5. "a valid block that descends from the finalized checkpoint is imported without error however late it arrives".
      Statement (Bft/Safety.v): for every genesis, every list of numbered blocks delivered in any order (with duplicates,
      unknown parents, blocks off the finalized branch), no import ends in a CommitBlock error (codes >= 100); the only
      outcomes are imported / known / parent missing / refused by Accepts.  Proved for the code with the F1 guard;
      refuted for the code before the repair (witness: the late fork inside the finalized epoch). *)
Theorem commit_block_total : commit_block_total_statement true.
Proof. exact commit_block_total_lemma. Qed.

(* one step of it: on the accepted path the result code is 0 and the invariants are kept *)
Theorem accepted_block_imports_without_error c nd b : 0 < c_L c ->
  inv c nd -> fin_cp c nd -> valid_child (n_repo nd) b ->
  snd (import true c nd b) < 100 /\ inv c (fst (import true c nd b)) /\ fin_cp c (fst (import true c nd b)).
Proof. intros HL. exact (import_ok c HL nd b). Qed.

Theorem commit_block_error_refuted : ~ commit_block_total_statement false.
Proof. exact commit_block_error_refuted_lemma. Qed.

Theorem commit_block_total_partial (q : N -> N) (n Q : N) :
  2 <= n -> (forall i, i + 1 < n -> q i <= q (i + 1) <= q i + 1) ->
  q (n - 1) = Q -> q (n - 1) = q (n - 2) + 1 -> 1 < Q ->
  forall f, (forall i, i < n -> f i = Ok (Q - 1 <=? q i)) ->
  exists m, bsearch (S (N.to_nat n)) f 0 n = Ok m /\ m < n /\ q m = Q - 1.
Proof. exact (search_total_lemma q n Q). Qed.

Theorem committed_implies_justified c pq seg :
  s_comm (summarize (tally c pq seg)) = true -> s_just (summarize (tally c pq seg)) = true.
Proof. exact (committed_implies_justified_lemma c pq seg). Qed.

(* non-vacuity *)
Example tally_example :
  let l1 := [(1, (true, 5)); (2, (true, 7)); (1, (false, 5)); (3, (true, 1))] in
  let l2 := [(3, (true, 1)); (1, (false, 5)); (2, (true, 7)); (1, (true, 5)); (2, (true, 7))] in
  summarize (tally_votes 2 0 8 l1) = mkS 3 true false /\ summarize (tally_votes 2 0 8 l2) = mkS 3 true false.
Proof. vm_compute. split; reflexivity. Qed.

Example f1_tree_imports_with_guard :
  import_codes true cfg4 (init_node gen 1) f1_blocks = [0;0;0;0;0;0;0;0;0;0;0;0;0;0] /\
  import_codes false cfg4 (init_node gen 1) f1_blocks = [0;0;0;0;0;0;0;0;0;0;0;0;0;103].
Proof. split; [exact f1_guarded_ok | exact f1_unguarded_fails]. Qed.

(* non-vacuity of import_set_order_independent's hypotheses: the 12-block main chain of the F1 tree is a consistent tree
   holding two finalizing blocks (the ends of epochs 1 and 2) *)
Definition main_chain : list blk := rev (gen :: map a [1;2;3;4;5;6;7;8;9;10;11]).
Example consistent_tree_example :
  tree_consistent cfg4 main_chain /\
  finalizing cfg4 main_chain (a 7) /\ finalizing cfg4 main_chain (a 11).
Proof.
  split; [apply single_chain_consistent; vm_compute; intuition reflexivity|].
  split; (split; [vm_compute; tauto | split; [vm_compute; reflexivity | split; [vm_compute; reflexivity | vm_compute; reflexivity]]]).
Qed.

(* a FORKED consistent tree (two branches of 17 and 16 blocks after a common prefix, one finalizing block) and two different
   histories over it (different orders, a duplicate, restarts) that end up storing the same set: every hypothesis of
   import_set_order_independent is discharged, and finalized really moved (12S) while best is on the other branch (20W) *)
Example forked_consistent_tree_example :
  tree_consistent cfg4 j_tree /\ In gen j_tree /\
  (forall b, In (Some b) j_h1 \/ In (Some b) j_h2 -> In b j_tree) /\
  (forall nd b, inv cfg4 nd -> In (Some b) j_h1 \/ In (Some b) j_h2 -> valid_child (n_repo nd) b) /\
  (forall x, In x (n_repo (run_node cfg4 (init_node gen 1) j_h1)) <-> In x (n_repo (run_node cfg4 (init_node gen 2) j_h2))) /\
  j_h1 <> j_h2 /\
  n_best (run_node cfg4 (init_node gen 1) j_h1) = b_id (jw 20) /\ e_fin (n_eng (run_node cfg4 (init_node gen 1) j_h1)) = b_id (js 12).
Proof.
  split; [exact j_tree_consistent|]. split; [|exact j_histories_instance].
  assert (H : existsb (blk_eqb gen) j_tree = true) by (vm_compute; reflexivity).
  apply existsb_exists in H. destruct H as [y [Hy E]]. rewrite (Verif.Bft.ProofsTree2.blk_eqb_eq gen y E). exact Hy.
Qed.

(* tree_consistent is STRICTLY stronger than C03's safety conclusion: the tree of C03's valid one-Byzantine-of-four run sib_run,
   in which no two finalized checkpoints conflict (both committed epochs finalize genesis), is not consistent - its two
   finalizing blocks 7X and 7Y lie on different branches.  import_set_order_independent says nothing about such trees. *)
Theorem tree_consistent_stronger_than_safety : ~ tree_consistent cfg4 (seen_after [gen] sib_run).
Proof.
  intros H. destruct cfg4_side as [N1 [_ [D _]]].
  destruct (world_prefix cfg4 ltac:(reflexivity) gen eq_refl [4] [1;2;3] D N1 sib_run [] ltac:(rewrite app_nil_r; exact sib_valid)
              ltac:(rewrite app_nil_r; exact sib_root)) as [Hw _].
  pose proof (wg_wf cfg4 gen [4] [1;2;3] _ _ Hw) as Hwf.
  destruct sib_gap0_instance as [F1 [F2 _]].
  destruct (H _ Hwf ltac:(intros x Hx; exact Hx) sx7 sy7 F1 F2) as [E|E]; vm_compute in E; discriminate E.
Qed.

Example search_example : (* qualities 1,2,2,3 per epoch, committed epoch has quality 3: the search finds index 1 *)
  bsearch 5 (fun i => Ok (2 <=? nth (N.to_nat i) [1;2;2;3] 0)) 0 4 = Ok 1.
Proof. vm_compute. reflexivity. Qed.

(* ------------------------------------------------------------------ composition *)

(* C04 <-> C19 (Compose/SyncOrder.v).  The total order of best_is_max is a strict weak order on ALL blocks (no distinct-id
   hypothesis: two blocks are incomparable only if they carry the same id), it is bft.Select on the block about to be
   imported, and the node invariant gives the premise "best is maximal in the store" of C19's sync_converges for the Sync
   view of the node (ids of the repository, best id; order read in any well-formed tree U that contains the repository -
   chains and qualities of stored blocks are the same in the repository and in U).  Together these discharge the order
   hypotheses of sync_converges (Properties/C19.v sync_converges_bft_order). *)
Theorem beats_strict_weak_order c r :
  (forall x y, beats c r x y = true -> beats c r y x = false) /\
  (forall x y z, beats c r x z = true -> beats c r x y = true \/ beats c r y z = true) /\
  (forall x y, beats c r x y = false -> beats c r y x = false -> b_id x = b_id y).
Proof. exact (Compose.SyncOrder.beats_strict_weak_order c r). Qed.

Theorem select_is_the_order c U nd b p : 0 < c_L c -> inv c nd -> wf_repo U ->
  (forall x, In x (b :: n_repo nd) -> In x U) ->
  known (n_repo nd) (b_id b) = false -> find_blk (n_repo nd) (b_parent b) = Some p -> b_num b = b_num p + 1 ->
  select c (n_repo nd) (n_eng nd) (best_blk nd) b = Compose.SyncOrder.sbetter c U (b_id b) (n_best nd).
Proof. exact (Compose.SyncOrder.select_is_sbetter c U nd b p). Qed.

Theorem quality_stable_under_growth c r1 r2 x : wf_repo r1 -> wf_repo r2 -> (forall y, In y r1 -> In y r2) -> In x r1 ->
  chain_of r2 (b_id x) = chain_of r1 (b_id x) /\ qual c r2 x = qual c r1 x.
Proof.
  intros W1 W2 Hs Hx.
  exact (conj (Compose.SyncOrder.chain_of_sub_stored r1 r2 x W1 W2 Hs Hx) (Compose.SyncOrder.qual_sub c r1 r2 x W1 W2 Hs Hx)).
Qed.

Theorem best_is_max_gives_sync_best_max c U nd : inv c nd -> wf_repo U -> (forall x, In x (n_repo nd) -> In x U) ->
  Sync.ProofsDownload.best_max N (Compose.SyncOrder.sbetter c U) (Compose.SyncOrder.sync_node nd).
Proof. exact (Compose.SyncOrder.inv_gives_best_max c U nd). Qed.

(* non-vacuity: the node of Compose/SyncOrder.v's fork (local branch of higher total score, other branch of higher quality) *)
Example best_is_max_gives_sync_best_max_example :
  inv Compose.SyncOrder.ex_cfg Compose.SyncOrder.ex_nd /\ wf_repo Compose.SyncOrder.ex_U /\
  (forall x, In x (n_repo Compose.SyncOrder.ex_nd) -> In x Compose.SyncOrder.ex_U) /\
  n_best Compose.SyncOrder.ex_nd = b_id Compose.SyncOrder.ex_l5 /\
  Compose.SyncOrder.sbetter Compose.SyncOrder.ex_cfg Compose.SyncOrder.ex_U (b_id (Compose.SyncOrder.ex_m 7)) (n_best Compose.SyncOrder.ex_nd) = true /\
  select Compose.SyncOrder.ex_cfg (n_repo Compose.SyncOrder.ex_nd) (n_eng Compose.SyncOrder.ex_nd) (best_blk Compose.SyncOrder.ex_nd)
         (Compose.SyncOrder.ex_m 4)
    = Compose.SyncOrder.sbetter Compose.SyncOrder.ex_cfg Compose.SyncOrder.ex_U (b_id (Compose.SyncOrder.ex_m 4)) (n_best Compose.SyncOrder.ex_nd).
Proof.
  split; [exact Compose.SyncOrder.ex_inv|]. split; [exact Compose.SyncOrder.ex_wf|]. split; [exact Compose.SyncOrder.ex_incl|].
  split; [exact (proj1 Compose.SyncOrder.ex_wins_by_quality)|].
  split; [exact (proj2 (proj2 (proj2 (proj2 Compose.SyncOrder.ex_wins_by_quality)))) | exact Compose.SyncOrder.select_is_sbetter_example].
Qed.

(* how the oracle's observed runs relate to the plain transition system of the theorems: `step` (what `run` / `run_f 0` iterate) is
   the plain step followed by the two observation calls Justified() and ShouldVote(best) on the node that moved; these leave
   repository, best block, finalized, quality records and master untouched (they may fill the one-entry cache and create the
   votes record, which is why the observed and the plain run are not literally equal). *)
Theorem observed_step_is_plain_step_on_core_state guard c w ev :
  map core (fst (Verif.Bft.Model.step guard c w ev)) = map core (step_plain guard c w ev).
Proof. exact (step_is_plain_step_then_observation guard c w ev). Qed.

(* The FINALITY fork height.  The oracle runs `run_f F` (Bft/Model.v, second half): the engine and the node with
   forkConfig.FINALITY = F as the code uses it (zero state below F, no walk below F, first round counted from F / L, the
   checkpoint search starts at getCheckPoint(F), the node consults Select / CommitBlock / ShouldVote only at or after F);
   the correspondence run draws F = 0, aligned and unaligned values.  Every theorem of this file is about FINALITY = 0,
   which is exactly the F = 0 instance of what the oracle runs: *)
Theorem oracle_run_at_finality_0_is_the_verified_model guard c w evs : run_f 0 guard c w evs = run guard c w evs.
Proof. exact (run_f0 guard c evs w). Qed.

Print Assumptions tally_order_independent.
Print Assumptions incremental_eq_scratch.
Print Assumptions import_history_invariants.
Print Assumptions stored_quality_is_from_scratch.
Print Assumptions best_is_max.
Print Assumptions best_order_independent.
Print Assumptions import_set_order_independent.
Print Assumptions finalized_is_function_of_set.
Print Assumptions chain_is_function_of_set.
Print Assumptions justified_independent_of_cache_history.
Print Assumptions justified_order_independent.
Print Assumptions node_jc_along_histories.
Print Assumptions inv_along_histories_with_queries.
Print Assumptions justified_order_independent_along_histories.
Print Assumptions tree_consistent_stronger_than_safety.
Print Assumptions justified_stale_cache_before_repair.
Print Assumptions received_order_matters.
Print Assumptions tally_is_declarative_spec.
Print Assumptions stored_state_is_from_scratch.
Print Assumptions best_is_function_of_stored_set.
Print Assumptions quality_monotone.
Print Assumptions commit_block_total.
Print Assumptions accepted_block_imports_without_error.
Print Assumptions commit_block_error_refuted.
Print Assumptions commit_block_total_partial.
Print Assumptions committed_implies_justified.
Print Assumptions beats_strict_weak_order.
Print Assumptions select_is_the_order.
Print Assumptions quality_stable_under_growth.
Print Assumptions best_is_max_gives_sync_best_max.
Print Assumptions best_is_max_gives_sync_best_max_example.
Print Assumptions oracle_run_at_finality_0_is_the_verified_model.
Print Assumptions observed_step_is_plain_step_on_core_state.
