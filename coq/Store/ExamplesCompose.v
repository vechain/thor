(* Store/ExamplesCompose.v — one store holding the accounts trie (name 0) and a storage trie (name 2), deduped partition
   factor 1 (df = Some 1), three blocks committing both, one round [0,2): instances of the History theorems for a storage
   trie (whose checkpointed root stays live), of state_read_preserved, of prune_round_cps_for and of the cache theorems
   with a non-empty cache. *)
From Coq Require Import List NArith Bool Arith Lia.
From Verif Require Import Trie.Model Store.Model Store.Proofs Store.ProofsCommit Store.ProofsReach Store.ProofsPrune Store.ProofsLink
  Store.ProofsCompose Store.ExamplesPrune.
Import ListNotations.

Definition zs0 : store nat := mkStore nat [] [] 2%N (Some 1%N).
Definition cmn (name : N) (s : store nat) (v : ver) (n : wnode nat) : store nat :=
  commit nat s name v (snd (wstore nat bigT false v [] n)).
Definition zs1 := cmn 2 zs0 v0 xn0.
Definition zs2 := cmn 0 zs1 v0 xn0.
Definition zs3 := cmn 2 zs2 v1 xn1.
Definition zs4 := cmn 0 zs3 v1 xn1.
Definition zs5 := cmn 2 zs4 v2 xn2.
Definition zs6 := cmn 0 zs5 v2 xn2.
Definition zchain : list (ver * node nat) := [(v2, xt2); (v1, xt1); (v0, xt0)].

Ltac other_tac := apply H_other; [|left; discriminate].

Lemma zH0 : History nat 0 zs6 zchain 0.
Proof.
  assert (H1 : History nat 0 zs1 [] 0) by (other_tac; apply H_init; reflexivity).
  assert (H2 : History nat 0 zs2 [(v0, xt0)] 0).
  { commit_tac 0%N zs1 (@nil (ver * node nat)) 0%N v0 xn0 xt0 H1. intros q w r T. unfold xn0, leaf in T. wtop_inv. }
  assert (H3 : History nat 0 zs3 [(v0, xt0)] 0) by (other_tac; exact H2).
  assert (H4 : History nat 0 zs4 [(v1, xt1); (v0, xt0)] 0).
  { commit_tac 0%N zs3 [(v0, xt0)] 0%N v1 xn1 xt1 H3. intros q w r T. unfold xn1, leaf in T. wtop_inv. cbn [fst]. reach_branch. }
  assert (H5 : History nat 0 zs5 [(v1, xt1); (v0, xt0)] 0) by (other_tac; exact H4).
  commit_tac 0%N zs5 [(v1, xt1); (v0, xt0)] 0%N v2 xn2 xt2 H5. intros q w r T. unfold xn2, leaf in T. wtop_inv. cbn [fst]. reach_branch.
Qed.

Lemma zH2 : History nat 2 zs6 zchain 0.
Proof.
  assert (H1 : History nat 2 zs1 [(v0, xt0)] 0).
  { commit_tac 2%N zs0 (@nil (ver * node nat)) 0%N v0 xn0 xt0 (H_init nat 2 zs0 0%N eq_refl). intros q w r T. unfold xn0, leaf in T. wtop_inv. }
  assert (H2 : History nat 2 zs2 [(v0, xt0)] 0) by (other_tac; exact H1).
  assert (H3 : History nat 2 zs3 [(v1, xt1); (v0, xt0)] 0).
  { commit_tac 2%N zs2 [(v0, xt0)] 0%N v1 xn1 xt1 H2. intros q w r T. unfold xn1, leaf in T. wtop_inv. cbn [fst]. reach_branch. }
  assert (H4 : History nat 2 zs4 [(v1, xt1); (v0, xt0)] 0) by (other_tac; exact H3).
  assert (H5 : History nat 2 zs5 zchain 0).
  { commit_tac 2%N zs4 [(v1, xt1); (v0, xt0)] 0%N v2 xn2 xt2 H4. intros q w r T. unfold xn2, leaf in T. wtop_inv. cbn [fst]. reach_branch. }
  other_tac. exact H5.
Qed.

(* the round [0,2) through the executable prune_round on both tries *)
Definition ztries : list (N * ver) := [(0%N, v1); (2%N, v1)].
Definition zround := Eval vm_compute in prune_round nat 10 zs6 ztries 0 2.
Definition zs7 : store nat := match zround with Some (s, _) => s | None => zs6 end.
Definition zcps := match zround with Some (_, c) => c | None => [] end.

Example z_round_is_prune : prune_round nat 10 zs6 ztries 0 2 = Some (zs7, zcps) /\ zs7 = prune nat zs6 zcps 0 2.
Proof. split; vm_compute; reflexivity. Qed.

(* prune_round_cps_for gives the checkpoint premise for both tries *)
Example z_cps_for : exists nodesA nodesS,
  checkpoint_nodes nat 10 zs6 0 v1 0 = Some nodesA /\ cps_for nat 0 zcps nodesA /\
  checkpoint_nodes nat 10 zs6 2 v1 0 = Some nodesS /\ cps_for nat 2 zcps nodesS.
Proof.
  assert (ND : NoDup (map fst ztries)) by (repeat constructor; cbn; intuition discriminate).
  destruct (prune_round_cps_for nat 10 zs6 ztries 0%N 2%N zs7 zcps 0%N v1 (proj1 z_round_is_prune) ND) as [nA [A1 A2]]; [left; reflexivity|].
  destruct (prune_round_cps_for nat 10 zs6 ztries 0%N 2%N zs7 zcps 2%N v1 (proj1 z_round_is_prune) ND) as [nS [S1 S2]]; [right; left; reflexivity|].
  exists nA, nS. auto.
Qed.

(* a state read after the round: block 2's account root, and the storage root (v1) its leaf is taken to name — the root the
   round checkpointed, in the deleted partition, served from the deduped space (partition 1/1) — reads the same trie *)
Example z_state_read : exists f0, forall f, (f0 <= f)%nat ->
  read_through_account nat f zs6 v2 2 v1 = Some xt1 /\
  read_through_account nat f (prune nat zs6 zcps 0 2) v2 2 v1 = Some xt1.
Proof.
  destruct z_cps_for as [nA [nS [A1 [A2 [S1 S2]]]]].
  apply (state_read_preserved nat zs6 2%N [(v2, xt2)] (v1, xt1) [(v0, xt0)] [(v2, xt2)] (v1, xt1) [(v0, xt0)] 0%N 0%N 2%N zcps
           10%nat nA 10%nat nS v2 xt2 v1 xt1); auto.
  - exact zH0.
  - exact zH2.
  - cbn; lia.
  - cbn; lia.
  - repeat constructor; cbn; lia.
  - cbn; lia.
  - repeat constructor; cbn; lia.
  - cbn; lia.
  - left; reflexivity.
  - right; left; reflexivity.
Qed.

Example z_reads_computed :
  open_root nat 10 zs7 2 v1 = Some xt1 /\ open_root nat 10 zs7 0 v1 = None /\
  hist_find nat (hist nat zs7) 2 [] v1 = None /\ read_through_account nat 10 zs7 v2 2 v1 = Some xt1.
Proof. repeat split; vm_compute; reflexivity. Qed.

(* a non-empty cache: it holds the branch node of the accounts trie (path [1], version v0) as read before the round *)
Definition zcache : list nat -> ver -> option (snode nat) :=
  fun p w => if path_eqb p [1%nat] && ver_eqb w v0 then sget nat zs6 0 p w else None.

Example z_cache : (exists b, zcache [1%nat] v0 = Some b) /\ cache_coherent nat zcache (sget nat zs6 0) /\
  Res nat (cached_get nat zcache (sget nat (prune nat zs6 zcps 0 2) 0)) [] (SRef v2) xt2.
Proof.
  assert (Hc : cache_coherent nat zcache (sget nat zs6 0)).
  { intros p w b H. unfold zcache in H. destruct (path_eqb p [1%nat] && ver_eqb w v0); [exact H|discriminate]. }
  split; [eexists; vm_compute; reflexivity|]. split; [exact Hc|].
  destruct z_cps_for as [nA [_ [A1 [A2 _]]]].
  apply (cache_survives_round nat 0%N zs6 [(v2, xt2)] (v1, xt1) [(v0, xt0)] 0%N 0%N 2%N zcps 10%nat nA zcache v2 xt2); auto.
  - exact zH0.
  - cbn; lia.
  - cbn; lia.
  - repeat constructor; cbn; lia.
  - cbn; lia.
  - left; reflexivity.
Qed.
