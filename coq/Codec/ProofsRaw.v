(* Codec/ProofsRaw.v — the two-phase block decode (block.DecodeRawBlock + RawBlock.Decode) accepts exactly what the
   one-phase decode (rlp.DecodeBytes into block.Block) accepts and yields the same block. *)
From Coq Require Import List NArith ZArith Bool Lia.
From Coq Require Import ZifyN ZifyNat ZifyBool.
From Verif Require Import Codec.Model Codec.ProofsRLP Codec.ProofsComb Codec.ProofsObjects.
Import ListNotations.
Open Scope N_scope.

Lemma c_tx_rsized : rsized c_tx.
Proof.
  intros x rest. cbn [wfp c_tx enc]. destruct (t_dyn x).
  - intros [W Hl]. apply rsize_str. rewrite lenN_cons.
    assert (Hne : enc c_dyn x <> []) by (apply c_dyn_nonempty; exact W).
    destruct (enc c_dyn x) as [|e0 et]; [congruence|]. rewrite lenN_cons in *. unfold two64. lia.
  - intros [[_ Hl] _]. cbn [enc c_legacy cmap cpmap cwrap]. apply rsize_list. exact Hl.
Qed.

(* the transactions part of the two-phase decode: DecodeRawBlock keeps the raw list after counting its values (rlp.CountValues),
   RawBlock.Decode decodes it later *)
Definition txs_two_phase (p1 : bytes) : option (list tx) :=
  match dec c_raw p1 with
  | Some (raw, []) =>
    match shead raw with
    | Some (KList, content, _) =>
      match rcount (length content) None content 0 with
      | Some _ => dec_exact (cslice c_tx) raw
      | None => None end
    | _ => None end
  | _ => None end.

Lemma txs_two_phase_agrees p1 : txs_two_phase p1 = dec_exact (cslice c_tx) p1.
Proof.
  destruct cslice_tx_ok as [S C]. unfold txs_two_phase.
  destruct (dec_exact (cslice c_tx) p1) as [txs|] eqn:E.
  - pose proof E as E0. apply (dec_exact_sound _ _ _ S) in E. destruct E as [-> [Wl Hlen]].
    cbn [enc cslice dec c_raw] in *.
    rewrite (shead_list_end _ Hlen), <- enc_list_head, (shead_list_end _ Hlen).
    rewrite (rcount_spec c_tx None c_tx_rsized c_tx_nonempty txs Wl); [exact E0|lia|exact I].
  - destruct (dec c_raw p1) as [[raw [|? ?]]|] eqn:Er; try reflexivity.
    apply (proj1 c_raw_ok) in Er. destruct Er as [Er _]. cbn [enc c_raw] in Er. rewrite app_nil_r in Er. subst raw.
    destruct (shead p1) as [[[k content] r]|]; [|reflexivity]. destruct k; try reflexivity.
    destruct (rcount (length content) None content 0); [exact E|reflexivity].
Qed.

Theorem two_phase_agrees_l b : go_decode_block_raw b = go_decode_block b.
Proof.
  unfold go_decode_block_raw, dec_block_two_phase, dec_rawblock, go_decode_block, rawblock_decode.
  unfold dec_exact at 2. cbn [dec c_block cmap cpmap cwrap cpair].
  destruct (shead b) as [[[[] p] r]|]; try reflexivity.
  destruct (dec c_header p) as [[h p1]|]; [|destruct r; reflexivity].
  destruct r; [|destruct (dec (cslice c_tx) p1) as [[txs [|? ?]]|]; reflexivity].
  (* the raw phase is txs_two_phase p1 with the header carried along; every way it fails is a way dec_exact fails *)
  pose proof (txs_two_phase_agrees p1) as Ht. unfold txs_two_phase in Ht.
  destruct (dec c_raw p1) as [[raw [|? ?]]|];
    [destruct (shead raw) as [[[[] content] ?]|];
       [| |destruct (rcount (length content) None content 0); [cbn [rb_raw_txs rb_header]; rewrite Ht|]|]| |];
    unfold dec_exact in *; destruct (dec (cslice c_tx) p1) as [[txs [|? ?]]|]; try discriminate; reflexivity.
Qed.
