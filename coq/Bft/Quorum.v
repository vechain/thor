(* Bft/Quorum.v — quorum intersection for exactly the thresholds of justifier.Summarize:
   votes > n*2/3 (integer division) in vote-count mode, weight > total*2/3 in weight mode. *)
From Coq Require Import List NArith ZArith Bool Lia Permutation.
From Coq Require Import ZifyN ZifyNat ZifyBool.
From Verif Require Import Common.Util.
Import ListNotations.
Open Scope N_scope.
Ltac Zify.zify_post_hook ::= Z.div_mod_to_equations.

Definition mem (l : list N) (x : N) : bool := existsb (N.eqb x) l.
Definition inter (a b : list N) : list N := filter (mem b) a.
Definition diff (a b : list N) : list N := filter (fun x => negb (mem b x)) a.
Definition sumw (w : N -> N) (l : list N) : N := sumN (map w l).

Lemma mem_In l x : mem l x = true <-> In x l.
Proof.
  unfold mem. rewrite existsb_exists. split.
  - intros [y [Hy E]]. apply N.eqb_eq in E. subst. exact Hy.
  - intros H. exists x. split; [exact H | apply N.eqb_refl].
Qed.

Lemma inter_In a b x : In x (inter a b) <-> In x a /\ In x b.
Proof. unfold inter. rewrite filter_In, mem_In. tauto. Qed.

Lemma NoDup_filter {A} (f : A -> bool) l : NoDup l -> NoDup (filter f l).
Proof.
  induction 1 as [|x l Hx Hl IH]; cbn; [constructor|].
  destruct (f x); [constructor; [rewrite filter_In; tauto | exact IH] | exact IH].
Qed.

Lemma length_split (f : N -> bool) l :
  (length (filter f l) + length (filter (fun x => negb (f x)) l))%nat = length l.
Proof. induction l as [|x l IH]; cbn; [reflexivity|]. destruct (f x); cbn; lia. Qed.

Lemma sumw_split w (f : N -> bool) l :
  sumw w (filter f l) + sumw w (filter (fun x => negb (f x)) l) = sumw w l.
Proof. unfold sumw. induction l as [|x l IH]; cbn; [reflexivity|]. destruct (f x); cbn; lia. Qed.

Lemma NoDup_app_disjoint {A} (a b : list A) :
  NoDup a -> NoDup b -> (forall x, In x a -> ~ In x b) -> NoDup (a ++ b).
Proof.
  induction 1 as [|x a Hx Ha IH]; cbn; intros Hb Hd; [exact Hb|].
  constructor.
  - rewrite in_app_iff. intros [H|H]; [contradiction | exact (Hd x (or_introl eq_refl) H)].
  - apply IH; [exact Hb | intros y Hy; apply Hd; right; exact Hy].
Qed.

Lemma sumw_app w p q : sumw w (p ++ q) = sumw w p + sumw w q.
Proof. unfold sumw. induction p as [|z p IH]; cbn; [reflexivity | rewrite IH; lia]. Qed.

(* weight of a duplicate-free sublist is bounded by the weight of any duplicate-free superset *)
Lemma sumw_incl w l : forall u, NoDup l -> incl l u -> sumw w l <= sumw w u.
Proof.
  induction l as [|x l IH]; intros u Hnd Hin; [cbn; lia|].
  inversion Hnd as [|? ? Hx Hl]; subst.
  destruct (in_split x u (Hin x (or_introl eq_refl))) as [u1 [u2 ->]].
  assert (Hin' : incl l (u1 ++ u2)).
  { intros y Hy. assert (Hy' := Hin y (or_intror Hy)). rewrite in_app_iff in *. cbn in Hy'.
    destruct Hy' as [H|[H|H]]; [left; exact H | subst; contradiction | right; exact H]. }
  specialize (IH _ Hl Hin'). rewrite sumw_app in *. unfold sumw in *. cbn. lia.
Qed.

(* the members of a outside b, followed by b: still duplicate-free, still inside u *)
Lemma diff_app u a b : NoDup a -> NoDup b -> incl a u -> incl b u -> NoDup (diff a b ++ b) /\ incl (diff a b ++ b) u.
Proof.
  intros Ha Hb Hia Hib. split.
  - apply NoDup_app_disjoint; [apply NoDup_filter; exact Ha | exact Hb |].
    intros x Hx Hxb. unfold diff in Hx. rewrite filter_In in Hx. destruct Hx as [_ Hx].
    apply mem_In in Hxb. rewrite Hxb in Hx. discriminate.
  - intros x Hx. rewrite in_app_iff in Hx. destruct Hx as [Hx|Hx]; [|exact (Hib x Hx)].
    unfold diff in Hx. rewrite filter_In in Hx. exact (Hia x (proj1 Hx)).
Qed.

Lemma diff_app_bound u a b : NoDup a -> NoDup b -> incl a u -> incl b u ->
  (length (diff a b) + length b <= length u)%nat.
Proof.
  intros Ha Hb Hia Hib. destruct (diff_app u a b Ha Hb Hia Hib) as [Hn Hi].
  rewrite <- app_length. exact (NoDup_incl_length Hn Hi).
Qed.

Lemma diff_app_bound_w w u a b : NoDup a -> NoDup b -> incl a u -> incl b u ->
  sumw w (diff a b) + sumw w b <= sumw w u.
Proof.
  intros Ha Hb Hia Hib. destruct (diff_app u a b Ha Hb Hia Hib) as [Hn Hi].
  rewrite <- sumw_app. exact (sumw_incl w _ u Hn Hi).
Qed.

(* vote-count mode: two sets of more than n*2/3 signers among at most n candidates share more than (n-1)/3 *)
Lemma quorum_intersection_count_lemma (n : N) (u a b : list N) :
  NoDup a -> NoDup b -> incl a u -> incl b u -> N.of_nat (length u) <= n ->
  n * 2 / 3 < N.of_nat (length a) -> n * 2 / 3 < N.of_nat (length b) ->
  (n - 1) / 3 < N.of_nat (length (inter a b)).
Proof.
  intros Ha Hb Hia Hib Hn H1 H2.
  pose proof (length_split (mem b) a) as Hs. fold (inter a b) in Hs. fold (diff a b) in Hs.
  pose proof (diff_app_bound u a b Ha Hb Hia Hib) as Hd.
  lia.
Qed.

Lemma more_than_excludes (s f : list N) : NoDup s -> NoDup f -> (length f < length s)%nat ->
  exists x, In x s /\ ~ In x f.
Proof.
  intros Hs Hf Hlt.
  pose proof (length_split (mem f) s) as Hsp.
  assert (Hle : (length (filter (mem f) s) <= length f)%nat).
  { apply NoDup_incl_length; [apply NoDup_filter; exact Hs|]. intros x Hx. rewrite filter_In, mem_In in Hx. tauto. }
  destruct (filter (fun x => negb (mem f x)) s) as [|x t] eqn:E; [cbn in Hsp; lia|].
  exists x. assert (Hx : In x (filter (fun x => negb (mem f x)) s)) by (rewrite E; left; reflexivity).
  rewrite filter_In in Hx. destruct Hx as [Hxs Hxf]. split; [exact Hxs|].
  intros Hin. apply mem_In in Hin. rewrite Hin in Hxf. discriminate.
Qed.

(* hence, with fewer than a third Byzantine, a common member outside the Byzantine set *)
Lemma quorum_honest_member_count (n : N) (u a b byz : list N) :
  NoDup a -> NoDup b -> NoDup byz -> incl a u -> incl b u -> N.of_nat (length u) <= n ->
  3 * N.of_nat (length byz) < n ->
  n * 2 / 3 < N.of_nat (length a) -> n * 2 / 3 < N.of_nat (length b) ->
  exists x, In x a /\ In x b /\ ~ In x byz.
Proof.
  intros Ha Hb Hf Hia Hib Hn Hbyz H1 H2.
  pose proof (quorum_intersection_count_lemma n u a b Ha Hb Hia Hib Hn H1 H2) as Hq.
  destruct (more_than_excludes (inter a b) byz) as [x [Hx Hnf]].
  - apply NoDup_filter; exact Ha.
  - exact Hf.
  - lia.
  - apply inter_In in Hx. exists x. tauto.
Qed.

(* weight mode: two sets each weighing more than total*2/3 share more than a third of the total *)
Lemma quorum_intersection_weight_lemma (w : N -> N) (total : N) (u a b : list N) :
  NoDup u -> NoDup a -> NoDup b -> incl a u -> incl b u -> sumw w u <= total ->
  total * 2 / 3 < sumw w a -> total * 2 / 3 < sumw w b ->
  total < 3 * sumw w (inter a b).
Proof.
  intros Hu Ha Hb Hia Hib Ht H1 H2.
  pose proof (sumw_split w (mem b) a) as Hs. fold (inter a b) in Hs. fold (diff a b) in Hs.
  pose proof (diff_app_bound_w w u a b Ha Hb Hia Hib) as Hd.
  lia.
Qed.

Lemma quorum_honest_member_weight (w : N -> N) (total : N) (u a b byz : list N) :
  NoDup u -> NoDup a -> NoDup b -> NoDup byz -> incl a u -> incl b u -> incl byz u -> sumw w u <= total ->
  3 * sumw w byz < total ->
  total * 2 / 3 < sumw w a -> total * 2 / 3 < sumw w b ->
  exists x, In x a /\ In x b /\ ~ In x byz.
Proof.
  intros Hu Ha Hb Hf Hia Hib Hif Ht Hbyz H1 H2.
  pose proof (quorum_intersection_weight_lemma w total u a b Hu Ha Hb Hia Hib Ht H1 H2) as Hq.
  (* if every common member were Byzantine, the common weight would be at most the Byzantine weight *)
  pose proof (sumw_split w (mem byz) (inter a b)) as Hsp.
  assert (Hle : sumw w (filter (mem byz) (inter a b)) <= sumw w byz).
  { apply sumw_incl; [apply NoDup_filter, NoDup_filter; exact Ha|]. intros x Hx. rewrite filter_In, mem_In in Hx. tauto. }
  destruct (filter (fun x => negb (mem byz x)) (inter a b)) as [|x t] eqn:E.
  - unfold sumw in Hsp at 2. cbn in Hsp. lia.
  - exists x. assert (Hx : In x (filter (fun x => negb (mem byz x)) (inter a b))) by (rewrite E; left; reflexivity).
    rewrite filter_In, inter_In in Hx. destruct Hx as [[Hxa Hxb] Hxf]. repeat split; try assumption.
    intros Hin. apply mem_In in Hin. rewrite Hin in Hxf. discriminate.
Qed.
