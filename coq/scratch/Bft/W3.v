(* The proposal clause of Bft/ProofsMonotone2.v, and a variant of its witness history: the same imports, but a block 15W
   (score 61) that the node does not accept as an honest proposal (the Eval sentences show the answers). *)
From Coq Require Import List NArith ZArith Bool Lia.
From Coq Require Import ZifyN ZifyNat ZifyBool.
From Verif Require Import Common.Util Bft.Tree Bft.Model Bft.Quorum Bft.ProofsTally Bft.ProofsChain Bft.ProofsSuffix
  Bft.ProofsNode Bft.ProofsFinal Bft.ProofsMonotone Bft.ProofsCommit Bft.Safety Bft.ProofsSafety Bft.ProofsCasts Bft.ProofsRun
  Bft.ProofsWitness Bft.ProofsMonotone2.
Import ListNotations.
Open Scope N_scope.

Section Mono2.
Variable c : cfg.
Hypothesis HL : 0 < c_L c.

Theorem propose_monotone nd b : inv c nd -> fin_ok nd -> honest_ok c nd b = true -> known (n_repo nd) (b_id b) = false ->
  has_block (n_repo nd) (n_best nd) (e_fin (n_eng nd)) = true ->       (* the best block descends from finalized *)
  let nd' := fst (fst (propose true c nd b)) in
  has_block (n_repo nd') (e_fin (n_eng nd')) (e_fin (n_eng nd)) = true /\
  has_block (n_repo nd') (b_id b) (e_fin (n_eng nd)) = true /\ fin_ok nd'.
Proof. exact (ProofsMonotone2.propose_monotone c HL nd b). Qed.
End Mono2.

(* ---------------------------------------------------------------- without the premise *)
(* node of validator 1; validators 2,3,4 Byzantine.  Branch W (tail 2): epochs 1,2 justified without COM, epoch 3 (12W..14W)
   all COM; branch S (tail 3): epoch 1 justified, epoch 2 (8S..11S) all COM -> importing 11S finalizes 4S while the best
   block stays 14W (higher quality); packing the store point 15W then finalizes 8W, which is not a descendant of 4S. *)
Definition wb (k signer : N) (com : bool) : blk := bk k 2 (if k =? 4 then 1 else 2) signer com (k * 4).
Definition sb (k signer : N) (com : bool) : blk := bk k 3 (if k =? 4 then 1 else 3) signer com k.
Definition p1 := bk 1 1 1 2 false 4.  Definition p2 := bk 2 1 1 3 false 8.  Definition p3 := bk 3 1 1 4 false 12.
Definition pm_imports : list blk :=
  [p1; p2; p3; wb 4 2 false; wb 5 3 false; wb 6 4 false; wb 7 2 false; wb 8 2 false; wb 9 3 false; wb 10 4 false; wb 11 2 false;
   wb 12 2 true; wb 13 3 true; wb 14 4 true;
   sb 4 2 false; sb 5 3 false; sb 6 4 false; sb 7 2 false; sb 8 2 true; sb 9 3 true; sb 10 4 true; sb 11 2 true].
Definition pm_node : node := import_all cfg4 true (init_node gen 1) pm_imports.
Eval vm_compute in (e_fin (n_eng pm_node), n_best pm_node, b_id (sb 4 2 false), b_id (wb 14 4 true), import_codes true cfg4 (init_node gen 1) pm_imports).
Definition w15 : blk := bk 15 2 2 1 true 61.
Eval vm_compute in (honest_ok cfg4 pm_node w15, snd (should_vote cfg4 (n_repo pm_node) (n_eng pm_node) (b_parent w15))).
Eval vm_compute in (let nd' := fst (fst (propose true cfg4 pm_node w15)) in (e_fin (n_eng nd'), b_id (wb 8 2 false), snd (fst (propose true cfg4 pm_node w15)))).
