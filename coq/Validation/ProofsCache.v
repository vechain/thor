(* Validation/ProofsCache.v — the candidate cache never changes a verdict: the cachers maintain "the entry for a block is
   what a fresh read of the state after that block gives", so a warm validator judges every block exactly as a cold one
   (and reads the proposer list the packer reads: authority.Candidates = AllCandidates + Pick). *)
From Coq Require Import List NArith Arith Bool Lia.
From Verif Require Import Common.Util Sched.Model Header.Rules Validation.Cache.
Import ListNotations.
Open Scope N_scope.

Definition ckey (c : acand) : N * N := (ac_master c, ac_endorsor c).

Lemma select_pick_idx funded limit l : forall pre have,
  select (pre ++ l) (pick_idx funded limit l (length pre) have) = cands_walk funded limit l have.
Proof.
  induction l as [|c t IH]; intros pre have; cbn [pick_idx cands_walk]; [reflexivity|].
  destruct (have <? limit); [|reflexivity].
  assert (E : pre ++ c :: t = (pre ++ [c]) ++ t) by (rewrite <- app_assoc; reflexivity).
  assert (L : length (pre ++ [c]) = S (length pre)) by (rewrite app_length; cbn; lia).
  destruct (funded (ac_master c) (ac_endorsor c)).
  - cbn [select]. rewrite nth_error_app2 by lia. rewrite Nat.sub_diag. cbn [nth_error].
    f_equal. rewrite E, <- L. apply IH.
  - rewrite E, <- L. apply IH.
Qed.

(* authority.Candidates(check, max) = proposers of NewCandidates(AllCandidates).Pick(check) *)
Theorem candidates_eq_all_pick funded limit l :
  snd (pick (new_candidates l) funded limit) = cands_walk funded limit l 0.
Proof. unfold pick, new_candidates. cbn [ce_sat ce_list is_nil snd]. apply (select_pick_idx funded limit l [] 0). Qed.

Lemma pick_idx_ext f g limit l l' : map ckey l = map ckey l' ->
  (forall c, In c l -> f (ac_master c) (ac_endorsor c) = g (ac_master c) (ac_endorsor c)) ->
  forall i have, pick_idx f limit l i have = pick_idx g limit l' i have.
Proof.
  revert l'. induction l as [|c t IH]; intros [|c' t'] Hk Hf i have; try discriminate; [reflexivity|].
  cbn [pick_idx]. cbn [map] in Hk. unfold ckey at 1 2 in Hk. injection Hk as K1 K2 K3.
  pose proof (Hf c (or_introl eq_refl)) as Hc. rewrite <- K1, <- K2. rewrite <- Hc.
  assert (Hf' : forall x, In x t -> f (ac_master x) (ac_endorsor x) = g (ac_master x) (ac_endorsor x)) by (intros; apply Hf; right; auto).
  destruct (have <? limit); [|reflexivity].
  destruct (f (ac_master c) (ac_endorsor c)); [f_equal|]; apply IH; auto.
Qed.

Lemma update_keys e u : map ckey (ce_list (update_entry e u)) = map ckey (ce_list e).
Proof.
  unfold update_entry. cbn [ce_list]. rewrite map_map. apply map_ext. intros c.
  destruct (ac_master c =? fst u); reflexivity.
Qed.

Lemma fold_update_sat ups : forall e, ce_sat (fold_left update_entry ups e) = ce_sat e.
Proof. induction ups as [|u t IH]; intros e; cbn [fold_left]; [reflexivity|]. rewrite IH. reflexivity. Qed.

Lemma fold_update_keys ups : forall e, map ckey (ce_list (fold_left update_entry ups e)) = map ckey (ce_list e).
Proof. induction ups as [|u t IH]; intros e; cbn [fold_left]; [reflexivity|]. rewrite IH. apply update_keys. Qed.

Lemma fold_update_list ups : forall l s, ce_list (fold_left update_entry ups (mkCE l s)) = apply_updates_list l ups.
Proof. unfold apply_updates_list. induction ups as [|u t IH]; intros l s; [reflexivity | apply IH]. Qed.

Lemma existsb_endorsor_keys l l' a : map ckey l = map ckey l' ->
  existsb (fun c => ac_endorsor c =? a) l = existsb (fun c => ac_endorsor c =? a) l'.
Proof.
  revert l'. induction l as [|c t IH]; intros [|c' t'] H; try discriminate; [reflexivity|].
  cbn [map] in H. inversion H as [[K1 K2 K3]]. cbn [existsb]. rewrite K2. f_equal. apply IH. exact K3.
Qed.

(* where the first stated hypothesis of the PoA theorem holds on the code as it is: two or more listed nodes *)
Lemma state_updates_agree l ups : length l <> 1%nat -> state_apply_updates l ups = apply_updates_list l ups.
Proof. destruct l as [|a [|b t]]; cbn [length state_apply_updates]; intros H; try reflexivity. contradiction. Qed.

(* ... and where it does not: the sole listed node (observed on the implementation by the harness: the cached flag differs
   from the state's; verdicts still agree there because the node is eligible as the signer either way) *)
Lemma sole_node_cache_flag_diverges :
  exists l ups, state_apply_updates l ups <> apply_updates_list l ups.
Proof. exists [mkAC 7 8 false], [(7, true)]. vm_compute. discriminate. Qed.

(* `run` is any of the four runs of Cache.v, given by its two equations *)
Lemma run_is_cold {C S R} (ok : C -> Prop) (good : S -> Prop) (step : C -> S -> C * R) (cold : S -> R)
      (run : C -> list S -> list R) :
  (forall c, run c [] = []) -> (forall c s t, run c (s :: t) = let '(c', r) := step c s in r :: run c' t) ->
  (forall c s, ok c -> good s -> ok (fst (step c s)) /\ snd (step c s) = cold s) ->
  forall steps c, ok c -> Forall good steps -> run c steps = map cold steps.
Proof.
  intros Hnil Hcons Hstep. induction steps as [|s t IH]; intros c Hc Hs; [apply Hnil|].
  inversion Hs as [|? ? Hg Ht]; subst. destruct (Hstep c s Hc Hg) as [Hc' Hr].
  rewrite Hcons. destruct (step c s) as [c' r]. cbn [fst snd] in Hc', Hr. subst r. cbn [map]. f_equal. apply IH; assumption.
Qed.

Section CacheProofs.
  Variable Blk : Type.
  Variable blk_eqb : Blk -> Blk -> bool.
  Hypothesis blk_eqb_spec : forall a b, blk_eqb a b = true <-> a = b.
  Variable R : Type.

  Variable child : Blk -> Blk -> Prop.           (* b is a block whose parent is p *)

  Variable all_of : Blk -> list acand.
  Variable funded_of : Blk -> N -> N -> bool.
  Variable mbp_of : Blk -> N.
  Variable hayabusa_of : Blk -> bool.
  Variable judge : list acand -> Blk -> Blk -> R * option (list (N * bool) * events).

  Notation poa_fresh := (poa_fresh Blk all_of funded_of mbp_of).
  Notation poa_step := (poa_step Blk blk_eqb R all_of funded_of mbp_of hayabusa_of judge).
  Notation poa_run := (poa_run Blk blk_eqb R all_of funded_of mbp_of hayabusa_of judge).
  Notation poa_proposers := (poa_proposers Blk blk_eqb all_of funded_of mbp_of).
  Notation pget := (pget Blk blk_eqb).

  (* THE STATED HYPOTHESES: the candidate list and the endorsement selection change only through what the cacher
     watches.  For an accepted child b of p (judged on the fresh proposer list) with scheduler updates ups and events ev:
     - without an Authority event, the list after b is the list after p with the activity updates applied
       (true of the code for two or more listed nodes: state_updates_agree; NOT for a sole listed node, whose flag
       authority.Update does not write: sole_node_cache_flag_diverges — the theorem does not cover that corner);
     - without a Params event, a Staker event (from HAYABUSA on) and a VET transfer from/to an endorsor of the list,
       the balance check of every listed pair and the proposer limit are the same after b as after p
       (this includes: the check for height n+2 on b's state equals the check for height n+1 on p's state). *)
  Hypothesis list_changes_only_by_authority_events : forall p b ups ev,
    child p b -> snd (judge (poa_fresh p) p b) = Some (ups, ev) -> ev_authority ev = false ->
    all_of b = apply_updates_list (all_of p) ups.
  Hypothesis selection_changes_only_by_watched_events : forall p b ups ev,
    child p b -> snd (judge (poa_fresh p) p b) = Some (ups, ev) ->
    (hayabusa_of b && ev_staker ev) = false -> ev_params ev = false ->
    (forall a, In a (ev_parties ev) -> existsb (fun c => ac_endorsor c =? a) (all_of p) = false) ->
    (forall c, In c (all_of p) -> funded_of b (ac_master c) (ac_endorsor c) = funded_of p (ac_master c) (ac_endorsor c)) /\
    mbp_of b = mbp_of p.

  Definition entry_ok (e : centry) (b : Blk) : Prop :=
    ce_list e = all_of b /\
    (ce_sat e = [] \/ ce_sat e = pick_idx (funded_of b) (mbp_of b) (all_of b) 0 0).

  Definition pcache_ok (c : pcache Blk) : Prop := forall b e, pget c b = Some e -> entry_ok e b.

  Lemma pick_ok e p : entry_ok e p ->
    pick e (funded_of p) (mbp_of p) =
    (mkCE (all_of p) (pick_idx (funded_of p) (mbp_of p) (all_of p) 0 0), poa_fresh p).
  Proof.
    intros [Hl Hs]. unfold pick, Cache.poa_fresh. rewrite Hl.
    assert (S : (if is_nil (ce_sat e) then pick_idx (funded_of p) (mbp_of p) (all_of p) 0 0 else ce_sat e) =
                pick_idx (funded_of p) (mbp_of p) (all_of p) 0 0).
    { destruct Hs as [-> | ->]; [reflexivity|]. destruct (pick_idx _ _ _ _ _); reflexivity. }
    rewrite S. f_equal. apply (select_pick_idx (funded_of p) (mbp_of p) (all_of p) [] 0).
  Qed.

  Lemma poa_proposers_fresh c p : pcache_ok c ->
    poa_proposers c p = (mkCE (all_of p) (pick_idx (funded_of p) (mbp_of p) (all_of p) 0 0), poa_fresh p).
  Proof.
    intros Hc. unfold Cache.poa_proposers. destruct (pget c p) as [e|] eqn:E.
    - apply pick_ok. apply Hc. exact E.
    - apply pick_ok. split; [reflexivity | left; reflexivity].
  Qed.

  (* one validation keeps the cache invariant, and the warm verdict is the cold verdict *)
  Theorem poa_step_ok c p b : pcache_ok c -> child p b ->
    pcache_ok (fst (poa_step c p b)) /\ snd (poa_step c p b) = fst (judge (poa_fresh p) p b).
  Proof.
    intros Hc Hch. unfold Cache.poa_step. rewrite (poa_proposers_fresh c p Hc).
    destruct (judge (poa_fresh p) p b) as [r [[ups ev]|]] eqn:Ej'; [|split; [exact Hc | reflexivity]].
    assert (Ej : snd (judge (poa_fresh p) p b) = Some (ups, ev)) by (rewrite Ej'; reflexivity).
    split; [|reflexivity].
    set (e1 := mkCE (all_of p) (pick_idx (funded_of p) (mbp_of p) (all_of p) 0 0)).
    set (e2 := fold_left update_entry ups e1).
    assert (L2 : ce_list e2 = apply_updates_list (all_of p) ups) by (unfold e2, e1; apply fold_update_list).
    assert (S2 : ce_sat e2 = pick_idx (funded_of p) (mbp_of p) (all_of p) 0 0) by (unfold e2; rewrite fold_update_sat; reflexivity).
    assert (K2 : map ckey (ce_list e2) = map ckey (all_of p)) by (unfold e2; rewrite fold_update_keys; reflexivity).
    unfold poa_handle. destruct (ev_authority ev) eqn:Ea; [exact Hc|].
    pose proof (list_changes_only_by_authority_events p b ups ev Hch Ej Ea) as HA.
    assert (Hnew : forall e, entry_ok e b -> pcache_ok ((b, e) :: c)).
    { intros e He b' e'. cbn [Cache.pget]. destruct (blk_eqb b b') eqn:Eb.
      - apply blk_eqb_spec in Eb. subst b'. intros X. inversion X; subst. exact He.
      - apply Hc. }
    destruct ((hayabusa_of b && ev_staker ev) || ev_params ev || existsb (is_endorsor e2) (ev_parties ev)) eqn:Ew; cbn [fst].
    - apply Hnew. split; [cbn [invalidate ce_list]; rewrite L2, HA; reflexivity | left; reflexivity].
    - apply orb_false_iff in Ew. destruct Ew as [Ew E3]. apply orb_false_iff in Ew. destruct Ew as [E1 E2].
      assert (Hpar : forall a, In a (ev_parties ev) -> existsb (fun c => ac_endorsor c =? a) (all_of p) = false).
      { intros a Ha. rewrite <- (existsb_endorsor_keys (ce_list e2) (all_of p) a K2).
        destruct (existsb (fun c => ac_endorsor c =? a) (ce_list e2)) eqn:X; [|reflexivity].
        assert (Y : existsb (is_endorsor e2) (ev_parties ev) = true) by (apply existsb_exists; exists a; split; [exact Ha | exact X]).
        congruence. }
      destruct (selection_changes_only_by_watched_events p b ups ev Hch Ej E1 E2 Hpar) as [HF HM].
      apply Hnew. split; [rewrite L2, HA; reflexivity|]. right. rewrite S2, HM.
      apply pick_idx_ext.
      + rewrite HA, <- L2. symmetry. exact K2.
      + intros x Hx. symmetry. apply HF. exact Hx.
  Qed.

  Theorem poa_run_is_cold steps : forall c, pcache_ok c -> Forall (fun pb => child (fst pb) (snd pb)) steps ->
    poa_run c steps = map (fun pb => fst (judge (poa_fresh (fst pb)) (fst pb) (snd pb))) steps.
  Proof.
    revert steps. apply (run_is_cold pcache_ok _ (fun c pb => poa_step c (fst pb) (snd pb))); [reflexivity | |].
    - intros c [p b] t. reflexivity.
    - intros c [p b]. apply poa_step_ok.
  Qed.

  (* with an LRU that may drop any entries between validations *)
  Definition only_loses_p (evict : pcache Blk -> pcache Blk) : Prop :=
    forall c b e, pget (evict c) b = Some e -> pget c b = Some e.

  Theorem poa_run_lossy_is_cold steps : forall c, pcache_ok c ->
    Forall (fun s => only_loses_p (fst s) /\ child (fst (snd s)) (snd (snd s))) steps ->
    poa_run_lossy Blk blk_eqb R all_of funded_of mbp_of hayabusa_of judge c steps =
    map (fun s => fst (judge (poa_fresh (fst (snd s))) (fst (snd s)) (snd (snd s)))) steps.
  Proof.
    revert steps. apply (run_is_cold pcache_ok _ (fun c s => poa_step (fst s c) (fst (snd s)) (snd (snd s)))); [reflexivity | |].
    - intros c [ev [p b]] t. reflexivity.
    - intros c [ev [p b]] Hc [Hev Hpb]. apply poa_step_ok; [|exact Hpb]. intros x e X. exact (Hc _ _ (Hev _ _ _ X)).
  Qed.

  Variable hk_of : Blk -> bool.
  Variable leaders_of : Blk -> list cand.
  Variable leaders_pre : Blk -> list cand.        (* staker.LeaderGroup() on the state after the block, before the child's SyncPOS *)
  Variable sjudge : list cand -> Blk -> Blk -> R * option (list (N * bool) * events).

  Notation pos_step := (pos_step Blk blk_eqb R hk_of leaders_of sjudge).
  Notation pos_run := (pos_run Blk blk_eqb R hk_of leaders_of sjudge).
  Notation pos_leaders := (pos_leaders Blk blk_eqb hk_of leaders_of).
  Notation sget := (sget Blk blk_eqb).
  Notation sremove := (sremove Blk blk_eqb).

  (* THE STATED HYPOTHESES: the leader group (members, weights, online flags, beneficiaries) changes only through
     housekeeping at the child's SyncPOS (reported as Updates), the scheduler's online/offline updates, and
     setBeneficiary (which emits BeneficiarySet) *)
  Hypothesis housekeeping_reports_changes : forall p, hk_of p = false -> leaders_of p = leaders_pre p.
  Hypothesis leaders_change_only_by_watched_events : forall p b ev,
    child p b -> snd (sjudge (leaders_of p) p b) = Some ([], ev) -> ev_beneficiary_set ev = false ->
    leaders_pre b = leaders_of p.

  Definition scache_ok (c : scache Blk) : Prop := forall b l, sget c b = Some l -> l = leaders_pre b.

  Lemma sget_sremove c p b : sget (sremove c p) b = if blk_eqb p b then None else sget c b.
  Proof.
    induction c as [|[k e] t IH]; cbn [Cache.sremove Cache.sget]; [destruct (blk_eqb p b); reflexivity|].
    destruct (blk_eqb k p) eqn:Ekp.
    - apply blk_eqb_spec in Ekp. subst k. rewrite IH. destruct (blk_eqb p b); reflexivity.
    - cbn [Cache.sget]. rewrite IH. destruct (blk_eqb k b) eqn:Ekb; [|reflexivity].
      apply blk_eqb_spec in Ekb. subst k. destruct (blk_eqb p b) eqn:X; [|reflexivity].
      apply blk_eqb_spec in X. subst p. rewrite (proj2 (blk_eqb_spec b b) eq_refl) in Ekp. discriminate.
  Qed.

  Lemma sremove_ok c p : scache_ok c -> scache_ok (sremove c p).
  Proof. intros Hc b l. rewrite sget_sremove. destruct (blk_eqb p b); [discriminate | apply Hc]. Qed.

  Lemma pos_leaders_fresh c p : scache_ok c -> pos_leaders c p = leaders_of p.
  Proof.
    intros Hc. unfold Cache.pos_leaders. destruct (hk_of p) eqn:Eh.
    - rewrite sget_sremove. rewrite (proj2 (blk_eqb_spec p p) eq_refl). reflexivity.
    - destruct (sget c p) as [l|] eqn:E; [|reflexivity].
      apply Hc in E. subst l. rewrite <- (housekeeping_reports_changes p Eh). destruct (leaders_of p); reflexivity.
  Qed.

  Theorem pos_step_ok c p b : scache_ok c -> child p b ->
    scache_ok (fst (pos_step c p b)) /\ snd (pos_step c p b) = fst (sjudge (leaders_of p) p b).
  Proof.
    intros Hc Hch. unfold Cache.pos_step. rewrite (pos_leaders_fresh c p Hc).
    assert (Hc1 : scache_ok (if hk_of p then sremove c p else c)) by (destruct (hk_of p); [apply sremove_ok|]; exact Hc).
    destruct (sjudge (leaders_of p) p b) as [r [[ups ev]|]] eqn:Ej'; [|split; [exact Hc1 | reflexivity]].
    assert (Ej : snd (sjudge (leaders_of p) p b) = Some (ups, ev)) by (rewrite Ej'; reflexivity).
    split; [|reflexivity]. cbn [fst].
    destruct ups as [|u t]; cbn [is_nil andb]; [|exact Hc1].
    destruct (ev_beneficiary_set ev) eqn:Eb; cbn [negb]; [exact Hc1|].
    intros b' l'. cbn [Cache.sget]. destruct (blk_eqb b b') eqn:E.
    - apply blk_eqb_spec in E. subst b'. intros X. inversion X; subst.
      symmetry. apply (leaders_change_only_by_watched_events p b ev Hch Ej Eb).
    - apply Hc1.
  Qed.

  Theorem pos_run_is_cold steps : forall c, scache_ok c -> Forall (fun pb => child (fst pb) (snd pb)) steps ->
    pos_run c steps = map (fun pb => fst (sjudge (leaders_of (fst pb)) (fst pb) (snd pb))) steps.
  Proof.
    revert steps. apply (run_is_cold scache_ok _ (fun c pb => pos_step c (fst pb) (snd pb))); [reflexivity | |].
    - intros c [p b] t. reflexivity.
    - intros c [p b]. apply pos_step_ok.
  Qed.

  Definition only_loses_s (evict : scache Blk -> scache Blk) : Prop :=
    forall c b l, sget (evict c) b = Some l -> sget c b = Some l.

  Theorem pos_run_lossy_is_cold steps : forall c, scache_ok c ->
    Forall (fun s => only_loses_s (fst s) /\ child (fst (snd s)) (snd (snd s))) steps ->
    pos_run_lossy Blk blk_eqb R hk_of leaders_of sjudge c steps =
    map (fun s => fst (sjudge (leaders_of (fst (snd s))) (fst (snd s)) (snd (snd s)))) steps.
  Proof.
    revert steps. apply (run_is_cold scache_ok _ (fun c s => pos_step (fst s c) (fst (snd s)) (snd (snd s)))); [reflexivity | |].
    - intros c [ev [p b]] t. reflexivity.
    - intros c [ev [p b]] Hc [Hev Hpb]. apply pos_step_ok; [|exact Hpb]. intros x e X. exact (Hc _ _ (Hev _ _ _ X)).
  Qed.
End CacheProofs.
