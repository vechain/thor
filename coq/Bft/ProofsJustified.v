(* Bft/ProofsJustified.v — Justified()'s one-entry cache.  With the cache entry keyed by (store point, finalized) the cache
   is transparent along every history of imports, own proposals, restarts and Justified() queries: a node with a warm
   cache answers exactly what a node with a cold cache (e.g. restarted) answers.  With the entry keyed by the store point
   only (the code before the repair) it is not: a concrete consistent tree on which two nodes storing the same blocks,
   with the same best block and the same finalized checkpoint, answer differently.
   Then: a checkable criterion for tree_consistent with a forked example tree, and the oracle's observed `step` as
   `step_plain` followed by an observation that leaves the core of the node alone. *)
From Coq Require Import List NArith ZArith Bool Lia.
From Coq Require Import ZifyN ZifyNat ZifyBool.
From Verif Require Import Common.Util Bft.Tree Bft.Model Bft.Quorum Bft.ProofsTally Bft.ProofsChain Bft.ProofsSuffix
  Bft.ProofsNode Bft.ProofsFinal Bft.ProofsCommit Bft.ProofsOrder Bft.ProofsOrder2 Bft.ProofsOrder3 Bft.ProofsOrder4
  Bft.Safety Bft.ProofsSafety Bft.ProofsWitness Bft.ProofsTree2 Bft.ProofsFast.
Import ListNotations.
Open Scope N_scope.

(* a query touches nothing but the one-entry cache *)
Lemma justified_keeps_core c r e best :
  let e' := fst (justified c r e best) in e_qs e' = e_qs e /\ e_fin e' = e_fin e /\ e_master e' = e_master e /\ e_casts e' = e_casts e.
Proof.
  unfold justified, justified_gen. cbv zeta. destruct (b_num best <? c_L c - 1); [cbn; tauto|].
  destruct (block_at r (b_id best) _) as [sb|]; [|cbn; tauto].
  destruct (match e_jc e with Some (search, f, value) => _ | None => None end); [cbn; tauto|].
  destruct (get_q (e_qs e) (b_id sb) =? 0); [cbn; tauto|]. destruct (find_cp c r (e_qs e) _ _ _); cbn; tauto.
Qed.

Section Cache.
Variable c : cfg.
Notation L := (c_L c).

Definition jc_ok (r : repo) (qs : list (N * N)) (jc : option (N * N * N)) : Prop :=
  match jc with
  | None => True
  | Some (s, f, v) => (exists x, In x r /\ b_id x = s) /\ get_q qs s <> 0 /\ find_cp c r qs (get_q qs s) f s = Ok v
  end.

Definition clear_jc (e : engine) : engine := mkE (e_master e) (e_fin e) (e_qs e) (e_casts e) None.

(* a warm cache answers what a cold cache answers *)
Theorem justified_cache_transparent r e best : jc_ok r (e_qs e) (e_jc e) ->
  snd (justified c r e best) = snd (justified c r (clear_jc e) best).
Proof.
  intros Hok. unfold justified, justified_gen, clear_jc. cbn [e_fin e_qs e_jc e_master e_casts].
  destruct (b_num best <? L - 1); [reflexivity|].
  destruct (block_at r (b_id best) _) as [sb|]; [|reflexivity].
  assert (Hcold : forall X : engine * res N,
            snd (if get_q (e_qs e) (b_id sb) =? 0 then (e, Ok (e_fin e)) else
                 match find_cp c r (e_qs e) (get_q (e_qs e) (b_id sb)) (e_fin e) (b_id sb) with
                 | Ok id => (mkE (e_master e) (e_fin e) (e_qs e) (e_casts e) (Some (b_id sb, e_fin e, id)), Ok id)
                 | Err code => (e, Err code) end) =
            snd (if get_q (e_qs e) (b_id sb) =? 0 then (mkE (e_master e) (e_fin e) (e_qs e) (e_casts e) None, Ok (e_fin e)) else
                 match find_cp c r (e_qs e) (get_q (e_qs e) (b_id sb)) (e_fin e) (b_id sb) with
                 | Ok id => (mkE (e_master e) (e_fin e) (e_qs e) (e_casts e) (Some (b_id sb, e_fin e, id)), Ok id)
                 | Err code => (mkE (e_master e) (e_fin e) (e_qs e) (e_casts e) None, Err code) end)).
  { intros _. destruct (get_q (e_qs e) (b_id sb) =? 0); [reflexivity|]. destruct (find_cp _ _ _ _ _ _); reflexivity. }
  destruct (e_jc e) as [[[s f] v]|]; [|exact (Hcold (e, Err 0))].
  destruct ((s =? b_id sb) && (negb true || (f =? e_fin e))) eqn:Hit; [|exact (Hcold (e, Err 0))].
  cbn [negb orb] in Hit. apply andb_prop in Hit. destruct Hit as [E1 E2]. apply N.eqb_eq in E1, E2. subst s f.
  destruct Hok as [_ [Hq Hf]]. apply N.eqb_neq in Hq. rewrite Hq, Hf. reflexivity.
Qed.

Lemma justified_keeps_jc r e best : jc_ok r (e_qs e) (e_jc e) ->
  let e' := fst (justified c r e best) in jc_ok r (e_qs e') (e_jc e') /\ e_qs e' = e_qs e /\ e_fin e' = e_fin e /\ e_master e' = e_master e.
Proof.
  intros Hok. unfold justified, justified_gen. cbv zeta.
  destruct (b_num best <? L - 1); [cbn; tauto|].
  destruct (block_at r (b_id best) _) as [sb|] eqn:Esb; [|cbn; tauto].
  destruct (match e_jc e with Some (search, f, value) => _ | None => None end) as [v|]; [cbn; tauto|].
  destruct (get_q (e_qs e) (b_id sb) =? 0) eqn:Eq; [cbn; tauto|].
  destruct (find_cp c r (e_qs e) _ (e_fin e) (b_id sb)) as [id|code] eqn:Ef; [|cbn; tauto].
  cbn [fst e_qs e_jc e_fin e_master jc_ok]. apply N.eqb_neq in Eq. repeat split; try assumption.
  exists sb. split; [|reflexivity]. destruct (block_at_num _ _ _ _ Esb) as [_ H]. exact (chain_incl _ _ _ H).
Qed.

(* storing a fresh block (with or without a new quality record) does not disturb the entry *)
Lemma quality_at_fresh b r qs qs' x n : known r (b_id b) = false -> In x r ->
  (forall id, id <> b_id b -> get_q qs' id = get_q qs id) ->
  quality_at (b :: r) qs' (b_id x) n = quality_at r qs (b_id x) n.
Proof.
  intros Hf Hx Hq. unfold quality_at, block_at.
  assert (Hne : b_id b <> b_id x) by (intros E; rewrite E, (known_in r x Hx) in Hf; discriminate).
  rewrite (chain_of_fresh b r (b_id x) Hne).
  destruct (at_num (chain_of r (b_id x)) n) as [y|] eqn:Ey; [|reflexivity].
  unfold at_num in Ey. apply find_some in Ey. destruct Ey as [Hy _]. apply chain_incl in Hy.
  rewrite Hq; [reflexivity|]. intros E. rewrite <- E, (known_in r y Hy) in Hf. discriminate.
Qed.

Lemma find_cp_fresh b r qs qs' x t f : known r (b_id b) = false -> In x r ->
  (forall id, id <> b_id b -> get_q qs' id = get_q qs id) ->
  find_cp c (b :: r) qs' t f (b_id x) = find_cp c r qs t f (b_id x).
Proof.
  intros Hf Hx Hq. apply find_cp_ext; [exact (chain_of_fresh b r (b_id x) (fresh_not_in r _ x Hf Hx))|].
  intros m. exact (quality_at_fresh b r qs qs' x _ Hf Hx Hq).
Qed.

Lemma jc_ok_fresh b r qs qs' jc : known r (b_id b) = false ->
  (forall id, id <> b_id b -> get_q qs' id = get_q qs id) -> jc_ok r qs jc -> jc_ok (b :: r) qs' jc.
Proof.
  intros Hf Hq Hok. destruct jc as [[[s f] v]|]; [|exact Logic.I]. destruct Hok as [[x [Hx Es]] [Hne Hfc]]. subst s.
  assert (Hnb : b_id x <> b_id b) by (intros E; rewrite <- E, (known_in r x Hx) in Hf; discriminate).
  cbn [jc_ok]. rewrite (Hq _ Hnb). split; [exists x; split; [right; exact Hx | reflexivity]|]. split; [exact Hne|].
  rewrite (find_cp_fresh b r qs qs' x _ f Hf Hx Hq). exact Hfc.
Qed.

Lemma add_and_commit_jc nd b packing : known (n_repo nd) (b_id b) = false ->
  jc_ok (n_repo nd) (e_qs (n_eng nd)) (e_jc (n_eng nd)) ->
  let nd' := fst (add_and_commit true c nd b packing) in jc_ok (n_repo nd') (e_qs (n_eng nd')) (e_jc (n_eng nd')).
Proof.
  intros Hf Hok. cbv zeta. unfold add_and_commit.
  destruct (commit_block_fields true c (b :: n_repo nd) (n_eng nd) b packing) as [_ [Hj [Hq _]]].
  destruct (commit_block true c (b :: n_repo nd) (n_eng nd) b packing) as [e' err]. cbn [fst n_repo n_eng] in *.
  rewrite Hj. apply (jc_ok_fresh b (n_repo nd) (e_qs (n_eng nd)) (e_qs e') _ Hf); [|exact Hok].
  intros id Hne. rewrite Hq. destruct (storepoint L (b_num b) =? b_num b); [|reflexivity].
  apply get_q_cons_other. intros E. apply Hne. symmetry. exact E.
Qed.

Inductive nev := NImport (b : blk) | NPropose (b : blk) | NRestart | NQuery.

Definition nstep (nd : node) (ev : nev) : node :=
  match ev with
  | NImport b => fst (import true c nd b)
  | NPropose b => if known (n_repo nd) (b_id b) || negb (known (n_repo nd) (b_parent b)) then nd   (* a node packs on a stored block *)
                  else fst (fst (propose true c nd b))
  | NRestart => restart nd
  | NQuery => mkN (n_repo nd) (n_best nd) (fst (justified c (n_repo nd) (n_eng nd) (best_blk nd)))
  end.
Definition run_nev (nd : node) (h : list nev) : node := fold_left nstep h nd.

Definition node_jc (nd : node) : Prop := jc_ok (n_repo nd) (e_qs (n_eng nd)) (e_jc (n_eng nd)).

Lemma nstep_jc nd ev : node_jc nd -> node_jc (nstep nd ev).
Proof.
  intros Hok. destruct ev as [b|b| |]; cbn [nstep].
  - destruct (import_cases true c nd b) as [[k [E _]]|[Ek [_ [_ E]]]]; rewrite E; [exact Hok|]. apply add_and_commit_jc; assumption.
  - destruct (known (n_repo nd) (b_id b)) eqn:Ek; [exact Hok|]. cbn [orb]. destruct (negb (known (n_repo nd) (b_parent b))); [exact Hok|]. unfold propose.
    pose proof (should_vote_keeps c (n_repo nd) (n_eng nd) (b_parent b)) as Hk. cbv zeta in Hk.
    assert (Hjc : e_jc (fst (should_vote c (n_repo nd) (n_eng nd) (b_parent b))) = e_jc (n_eng nd))
      by (rewrite should_vote_fst; reflexivity).
    destruct (should_vote c (n_repo nd) (n_eng nd) (b_parent b)) as [e1 v]. cbn [fst] in *. destruct Hk as [Hq _].
    destruct v as [vb|code]; cbn [fst].
    + pose proof (add_and_commit_jc (mkN (n_repo nd) (n_best nd) e1) b true) as H. cbn [n_repo n_eng] in H.
      rewrite Hq, Hjc in H. specialize (H Ek Hok). destruct (add_and_commit true c _ b true) as [nd' code]. exact H.
    + unfold node_jc. cbn [n_repo n_eng]. rewrite Hq, Hjc. exact Hok.
  - exact Logic.I.
  - unfold node_jc. cbn [n_repo n_eng]. exact (proj1 (justified_keeps_jc (n_repo nd) (n_eng nd) (best_blk nd) Hok)).
Qed.

Theorem run_nev_jc h : forall nd, node_jc nd -> node_jc (run_nev nd h).
Proof. induction h as [|ev t IH]; intros nd H; [exact H|]. cbn [run_nev fold_left]. apply IH. apply nstep_jc. exact H. Qed.

Definition nev_blocks (h : list nev) : list blk :=
  flat_map (fun ev => match ev with NImport b => [b] | NPropose b => [b] | _ => [] end) h.

(* the node invariants along such histories (blocks carry the number of their parent plus one) *)
Theorem run_nev_inv (HL : 0 < c_L c) h : forall nd, inv c nd ->
  (forall nd' b, inv c nd' -> In b (nev_blocks h) -> valid_child (n_repo nd') b) -> inv c (run_nev nd h).
Proof.
  induction h as [|ev t IH]; intros nd Hi Hv; [exact Hi|]. cbn [run_nev fold_left]. apply IH.
  - destruct ev as [b|b| |]; cbn [nstep].
    + apply import_inv; [exact HL | exact Hi | apply Hv; [exact Hi | cbn; left; reflexivity]].
    + destruct (known (n_repo nd) (b_id b)) eqn:Ek; [exact Hi|]. cbn [orb]. destruct (known (n_repo nd) (b_parent b)) eqn:Ep; cbn [negb]; [|exact Hi].
      apply propose_inv; [exact HL | exact Hi | apply Hv; [exact Hi | cbn; left; reflexivity] | exact Ek | exact Ep].
    + apply restart_inv. exact Hi.
    + apply inv_eng_irrelevant; [exact Hi | exact (proj1 (justified_keeps_core c (n_repo nd) (n_eng nd) (best_blk nd)))].
  - intros nd' b Hi' Hb. apply Hv; [exact Hi'|]. destruct ev as [b0|b0| |]; cbn; try (right; exact Hb); exact Hb.
Qed.

(* after ANY history the answer of Justified() is the answer of a cold cache *)
Theorem justified_history_independent_of_cache g master h :
  let nd := run_nev (init_node g master) h in
  snd (justified c (n_repo nd) (n_eng nd) (best_blk nd)) = snd (justified c (n_repo nd) (clear_jc (n_eng nd)) (best_blk nd)).
Proof. cbv zeta. apply justified_cache_transparent. apply (run_nev_jc h). exact Logic.I. Qed.
End Cache.

(* n = 4, L = 4.  Common prefix 1..3.  Branch W (tail 2, high scores): epochs 1 and 2 justified without COM, epochs 3, 4 by one
   signer, head 20W - the best block throughout.  Branch S (tail 3): epochs 1, 2 by one signer, epoch 3 justified, epoch 4
   all COM: importing 19S finalizes 12S while the best block stays 20W.  Node A asked Justified() before S arrived. *)
Definition jrot (num : N) : N := nth (N.to_nat (num mod 4)) [1;2;3;1] 1.
Definition jw (num : N) : blk :=
  bk num 2 (if num =? 4 then 1 else 2) (if (num / 4 =? 1) || (num / 4 =? 2) then jrot num else 1) false (12 + 4 * (num - 3)).
Definition js (num : N) : blk :=
  bk num 3 (if num =? 4 then 1 else 3) (if (num / 4 =? 1) || (num / 4 =? 2) then 2 else jrot num) (num / 4 =? 4) (12 + (num - 3)).
Definition jp1 := bk 1 1 1 1 false 4.  Definition jp2 := bk 2 1 1 2 false 8.  Definition jp3 := bk 3 1 1 3 false 12.
Definition j_common_w : list blk := [jp1; jp2; jp3] ++ map jw [4;5;6;7;8;9;10;11;12;13;14;15;16;17;18;19;20].
Definition j_s : list blk := map js [4;5;6;7;8;9;10;11;12;13;14;15;16;17;18;19].

Definition j_after_w : node := import_all cfg4 true (init_node gen 1) j_common_w.
Definition j_node_a (keyed : bool) : node :=
  import_all cfg4 true (mkN (n_repo j_after_w) (n_best j_after_w)
                            (fst (justified_gen keyed cfg4 (n_repo j_after_w) (n_eng j_after_w) (best_blk j_after_w)))) j_s.
Definition j_node_b : node := import_all cfg4 true (init_node gen 1) (j_common_w ++ j_s).

Lemma stale_cache_witness :
  n_repo (j_node_a false) = n_repo j_node_b /\ n_best (j_node_a false) = n_best j_node_b /\
  e_fin (n_eng (j_node_a false)) = e_fin (n_eng j_node_b) /\ e_fin (n_eng j_node_b) = b_id (js 12) /\
  snd (justified_gen false cfg4 (n_repo (j_node_a false)) (n_eng (j_node_a false)) (best_blk (j_node_a false))) = Ok (b_id (jw 8)) /\
  snd (justified_gen false cfg4 (n_repo j_node_b) (n_eng j_node_b) (best_blk j_node_b)) = Ok (b_id (jw 12)) /\
  snd (justified cfg4 (n_repo (j_node_a true)) (n_eng (j_node_a true)) (best_blk (j_node_a true))) = Ok (b_id (jw 12)).
Proof. vm_compute. repeat split; reflexivity. Qed.

Lemma tree_consistent_criterion c U : wf_repo U ->
  (forall B1 B2, finalizing c U B1 -> finalizing c U B2 ->
     has_block U (b_id B1) (b_id B2) = true \/ has_block U (b_id B2) (b_id B1) = true) ->
  tree_consistent c U.
Proof.
  intros HwU Hc r Hwr Hsub B1 B2 [I1 [S1 [C1 Q1]]] [I2 [S2 [C2 Q2]]].
  rewrite (sub_chain r U B1 Hwr HwU Hsub I1) in C1, Q1. rewrite (sub_chain r U B2 Hwr HwU Hsub I2) in C2, Q2.
  rewrite (sub_has_block r U B1 _ Hwr HwU Hsub I1), (sub_has_block r U B2 _ Hwr HwU Hsub I2).
  apply Hc; (split; [apply Hsub; assumption | tauto]).
Qed.

Definition fin_b (c : cfg) (U : repo) (B : blk) : bool :=
  (storepoint (c_L c) (b_num B) =? b_num B) && s_comm (state_fast c (chain_of U (b_id B))) && (1 <? s_q (state_fast c (chain_of U (b_id B)))).

Lemma finalizing_fin_b c U B : finalizing c U B -> In B (filter (fin_b c U) U).
Proof.
  intros [HI [HS [HC HQ]]]. apply filter_In. split; [exact HI|]. unfold fin_b. rewrite <- state_pure_fast.
  rewrite HC. apply N.eqb_eq in HS. rewrite HS. cbn [andb]. apply N.ltb_lt. exact HQ.
Qed.

(* the W / S tree above: two branches of 17 and 16 blocks, one finalizing block (19S) *)
Definition j_tree : repo := n_repo j_node_b.

Lemma j_tree_wf : wf_repo j_tree.
Proof.
  assert (H : inv cfg4 j_node_b).
  { unfold j_node_b. apply import_all_inv; [reflexivity | apply init_inv; reflexivity|].
    intros nd b _ Hb p Hp. destruct (find_blk_id _ _ _ Hp) as [Hid _].
    assert (Hall : forallb (fun b => b_num b =? idnum (b_parent b) + 1) (j_common_w ++ j_s) = true) by (vm_compute; reflexivity).
    rewrite forallb_forall in Hall. specialize (Hall b Hb). apply N.eqb_eq in Hall. rewrite Hall, <- Hid. reflexivity. }
  exact (inv_wf cfg4 _ H).
Qed.

Lemma j_tree_consistent : tree_consistent cfg4 j_tree.
Proof.
  apply (tree_consistent_criterion cfg4 j_tree j_tree_wf). intros B1 B2 H1 H2.
  apply finalizing_fin_b in H1. apply finalizing_fin_b in H2.
  assert (E : filter (fin_b cfg4 j_tree) j_tree = [js 19]) by (vm_compute; reflexivity).
  rewrite E in H1, H2. destruct H1 as [<-|[]]. destruct H2 as [<-|[]]. left. vm_compute. reflexivity.
Qed.

(* two different histories over the forked tree: node 1 takes W then S with a duplicate and a restart; node 2 interleaves the
   branches (19S last in both: a node that finalizes 12S first refuses the rest of W - the stored sets then differ, which is
   why the theorem compares nodes that STORE the same set) *)
Fixpoint interleave {A} (l1 l2 : list A) : list A :=
  match l1, l2 with
  | [], _ => l2
  | x :: t1, [] => l1
  | x :: t1, y :: t2 => x :: y :: interleave t1 t2
  end.
Definition j_h1 : list (option blk) := map Some j_common_w ++ [None; Some (jw 9)] ++ map Some j_s.
Definition j_h2 : list (option blk) :=
  map Some [jp1; jp2; jp3] ++ None :: map Some (interleave (map jw [4;5;6;7;8;9;10;11;12;13;14;15;16;17;18;19;20]) (map js [4;5;6;7;8;9;10;11;12;13;14;15;16;17;18])) ++ [Some (js 19)].

(* the two final nodes as normal forms: each history is run once here, the facts below are read off the values *)
Definition j_end1 : node := Eval vm_compute in run_node cfg4 (init_node gen 1) j_h1.
Definition j_end2 : node := Eval vm_compute in run_node cfg4 (init_node gen 2) j_h2.
Lemma j_end1_eq : run_node cfg4 (init_node gen 1) j_h1 = j_end1. Proof. vm_compute. reflexivity. Qed.
Lemma j_end2_eq : run_node cfg4 (init_node gen 2) j_h2 = j_end2. Proof. vm_compute. reflexivity. Qed.

Lemma j_histories_instance :
  (forall b, In (Some b) j_h1 \/ In (Some b) j_h2 -> In b j_tree) /\
  (forall nd b, inv cfg4 nd -> In (Some b) j_h1 \/ In (Some b) j_h2 -> valid_child (n_repo nd) b) /\
  (forall x, In x (n_repo (run_node cfg4 (init_node gen 1) j_h1)) <-> In x (n_repo (run_node cfg4 (init_node gen 2) j_h2))) /\
  j_h1 <> j_h2 /\
  n_best (run_node cfg4 (init_node gen 1) j_h1) = b_id (jw 20) /\ e_fin (n_eng (run_node cfg4 (init_node gen 1) j_h1)) = b_id (js 12).
Proof.
  assert (Hmem : forall l x, existsb (blk_eqb x) l = true -> In x l).
  { intros l x E. apply existsb_exists in E. destruct E as [y [Hy E]]. rewrite (blk_eqb_eq x y E). exact Hy. }
  assert (Hopt : forall (h : list (option blk)) b, In (Some b) h -> existsb (fun o => match o with Some y => blk_eqb b y | None => false end) h = true).
  { intros h b Hin. apply existsb_exists. exists (Some b). split; [exact Hin|]. unfold blk_eqb. rewrite !N.eqb_refl, eqb_reflx. reflexivity. }
  assert (Hall : forall b, In (Some b) j_h1 \/ In (Some b) j_h2 -> In b (j_common_w ++ j_s)).
  { intros b Hb.
    assert (Hsub : forall h, forallb (fun o => match o with Some y => existsb (blk_eqb y) (j_common_w ++ j_s) | None => true end) h = true ->
                    In (Some b) h -> In b (j_common_w ++ j_s)).
    { intros h Hf Hin. rewrite forallb_forall in Hf. exact (Hmem _ _ (Hf (Some b) Hin)). }
    destruct Hb as [Hb|Hb]; [apply (Hsub j_h1) | apply (Hsub j_h2)]; try exact Hb; vm_compute; reflexivity. }
  rewrite j_end1_eq, j_end2_eq.
  split; [|split; [|split; [|split]]].
  - intros b Hb. apply Hmem. specialize (Hall b Hb).
    assert (Hf : forallb (fun y => existsb (blk_eqb y) j_tree) (j_common_w ++ j_s) = true) by (vm_compute; reflexivity).
    rewrite forallb_forall in Hf. exact (Hf b Hall).
  - intros nd b _ Hb p Hp. destruct (find_blk_id _ _ _ Hp) as [Hid _]. specialize (Hall b Hb).
    assert (Hn : forallb (fun b => b_num b =? idnum (b_parent b) + 1) (j_common_w ++ j_s) = true) by (vm_compute; reflexivity).
    rewrite forallb_forall in Hn. specialize (Hn b Hall). apply N.eqb_eq in Hn. rewrite Hn, <- Hid. reflexivity.
  - assert (H12 : forallb (fun y => existsb (blk_eqb y) (n_repo j_end2)) (n_repo j_end1) = true) by (vm_compute; reflexivity).
    assert (H21 : forallb (fun y => existsb (blk_eqb y) (n_repo j_end1)) (n_repo j_end2) = true) by (vm_compute; reflexivity).
    rewrite forallb_forall in H12, H21. intros x. split; intros Hx; apply Hmem; [exact (H12 x Hx) | exact (H21 x Hx)].
  - intros E. assert (Hl : nth 3 j_h1 None = nth 3 j_h2 None) by (rewrite E; reflexivity). vm_compute in Hl. discriminate.
  - vm_compute. split; reflexivity.
Qed.

(* the same blocks RECEIVED in another parent-before-child order (S before W): importing 19S finalizes 12S, after which every
   block of W is refused by Accepts (C03: "blocks that do not descend from it are refused"), so the node stores fewer
   blocks and reports another best block.  Best/finalized are functions of the set STORED, not of the set received. *)
Definition j_h3 : list (option blk) := map Some ([jp1; jp2; jp3] ++ j_s ++ map jw [4;5;6;7;8;9;10;11;12;13;14;15;16;17;18;19;20]).

Definition j_end3 : node := Eval vm_compute in run_node cfg4 (init_node gen 1) j_h3.
Lemma j_end3_eq : run_node cfg4 (init_node gen 1) j_h3 = j_end3. Proof. vm_compute. reflexivity. Qed.

Lemma received_order_matters_witness :
  (forall b, In (Some b) j_h1 <-> In (Some b) j_h3) /\
  n_best (run_node cfg4 (init_node gen 1) j_h1) = b_id (jw 20) /\ n_best (run_node cfg4 (init_node gen 1) j_h3) = b_id (js 19) /\
  length (n_repo (run_node cfg4 (init_node gen 1) j_h1)) = 37%nat /\ length (n_repo (run_node cfg4 (init_node gen 1) j_h3)) = 20%nat /\
  e_fin (n_eng (run_node cfg4 (init_node gen 1) j_h1)) = e_fin (n_eng (run_node cfg4 (init_node gen 1) j_h3)).
Proof.
  split; [|rewrite j_end1_eq, j_end3_eq; vm_compute; repeat split; reflexivity].
  assert (Hmem : forall (l : list (option blk)) b, existsb (fun o => match o with Some y => blk_eqb b y | None => false end) l = true -> In (Some b) l).
  { intros l b E. apply existsb_exists in E. destruct E as [[y|] [Hy E]]; [|discriminate]. rewrite (blk_eqb_eq b y E). exact Hy. }
  assert (Hsub : forall h h' : list (option blk),
            forallb (fun o => match o with Some y => existsb (fun o' => match o' with Some z => blk_eqb y z | None => false end) h' | None => true end) h = true ->
            forall b, In (Some b) h -> In (Some b) h').
  { intros h h' Hf b Hin. rewrite forallb_forall in Hf. exact (Hmem h' b (Hf (Some b) Hin)). }
  intros b. split; [apply (Hsub j_h1 j_h3) | apply (Hsub j_h3 j_h1)]; vm_compute; reflexivity.
Qed.

(* `step` = the plain transition (`import` / `propose` / `restart`, the functions all theorems are about) followed by `observe`
   on the node that moved; `observe` calls Justified() and ShouldVote(best), which may only fill the one-entry cache and
   create the votes record: repository, best block, finalized, quality records and master are those of the plain step. *)
Definition core (nd : node) : repo * N * N * list (N * N) * N :=
  (n_repo nd, n_best nd, e_fin (n_eng nd), e_qs (n_eng nd), e_master (n_eng nd)).

Lemma observe_core c nd code pre ob : core (fst (observe c nd code pre ob)) = core nd.
Proof.
  unfold observe, core. pose proof (justified_keeps_core c (n_repo nd) (n_eng nd) (best_blk nd)) as Hj. cbv zeta in Hj.
  destruct (justified c (n_repo nd) (n_eng nd) (best_blk nd)) as [e1 j]. cbn [fst] in Hj.
  pose proof (should_vote_keeps c (n_repo nd) e1 (n_best nd)) as Hs. cbv zeta in Hs.
  destruct (should_vote c (n_repo nd) e1 (n_best nd)) as [e2 v]. cbn [fst n_repo n_best n_eng] in *.
  destruct Hj as [A [B [C _]]]. destruct Hs as [D [E F]]. rewrite D, E, F, A, B, C. reflexivity.
Qed.

Lemma map_set_nth_core (w : list node) i x y : nth_error w i = Some y -> core x = core y -> map core (set_nth w i x) = map core w.
Proof.
  revert i. induction w as [|a w IH]; intros i Hn E; [destruct i; discriminate|]. destruct i; cbn in *.
  - inversion Hn; subst. rewrite E. reflexivity.
  - rewrite (IH i Hn E). reflexivity.
Qed.

Lemma set_nth_twice {A} (w : list A) i x y : set_nth (set_nth w i x) i y = set_nth w i y.
Proof. revert i. induction w as [|a w IH]; intros [|i]; cbn; try reflexivity. rewrite IH. reflexivity. Qed.

Lemma nth_set_nth_same {A} (w : list A) i x y : nth_error w i = Some y -> nth_error (set_nth w i x) i = Some x.
Proof. revert i. induction w as [|a w IH]; intros [|i] H; cbn in *; try discriminate; [reflexivity | exact (IH i H)]. Qed.

Theorem step_is_plain_step_then_observation guard c w ev :
  map core (fst (Verif.Bft.Model.step guard c w ev)) = map core (step_plain guard c w ev).
Proof.
  destruct ev as [i b|i b|i]; cbn [Verif.Bft.Model.step step_plain]; destruct (nth_error w i) as [nd|] eqn:En; try reflexivity.
  - destruct (import guard c nd b) as [nd1 code]. pose proof (observe_core c nd1 code (Ok false) (Some b)) as H.
    destruct (observe c nd1 code (Ok false) (Some b)) as [nd2 o]. cbn [fst] in *.
    rewrite <- (set_nth_twice w i nd1 nd2). apply map_set_nth_core with (y := nd1); [apply (nth_set_nth_same w i nd1 nd En) | exact H].
  - destruct (propose guard c nd b) as [[nd1 code] v]. pose proof (observe_core c nd1 code v (Some b)) as H.
    destruct (observe c nd1 code v (Some b)) as [nd2 o]. cbn [fst] in *.
    rewrite <- (set_nth_twice w i nd1 nd2). apply map_set_nth_core with (y := nd1); [apply (nth_set_nth_same w i nd1 nd En) | exact H].
  - pose proof (observe_core c (restart nd) 0 (Ok false) None) as H.
    destruct (observe c (restart nd) 0 (Ok false) None) as [nd2 o]. cbn [fst] in *.
    rewrite <- (set_nth_twice w i (restart nd) nd2). apply map_set_nth_core with (y := restart nd); [apply (nth_set_nth_same w i _ nd En) | exact H].
Qed.
