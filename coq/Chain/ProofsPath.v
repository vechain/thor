(* Chain/ProofsPath.v — paths as lists: every stored block has one, it lists exactly the ancestors in descending
   height; the path of c splits at the fork point with o into Exclude(c, o) (reversed) and the common path. *)
From Coq Require Import List NArith Bool Lia ZifyN ZifyNat ZifyBool Wf_nat Sorted.
From Verif Require Import Chain.Model Chain.Proofs Chain.ProofsWalk Chain.ProofsSys.
Import ListNotations.
Open Scope N_scope.

Definition desc (l : list N) : Prop := StronglySorted (fun a b => num_of b < num_of a) l.

(* two lists strictly sorted by height with the same members are equal *)
Lemma asc_unique l1 : forall l2, asc l1 -> asc l2 -> (forall a, In a l1 <-> In a l2) -> l1 = l2.
Proof.
  unfold asc. induction l1 as [|h1 t1 IH]; intros l2 S1 S2 M.
  - destruct l2 as [|h2 t2]; [reflexivity|]. exfalso. apply (M h2). left. reflexivity.
  - destruct l2 as [|h2 t2]; [exfalso; apply (M h1); left; reflexivity|].
    inversion S1 as [|? ? St1 F1]; subst. inversion S2 as [|? ? St2 F2]; subst.
    rewrite Forall_forall in F1, F2.
    assert (E : h1 = h2).
    { assert (I1 : In h1 (h2 :: t2)) by (apply M; left; reflexivity).
      assert (I2 : In h2 (h1 :: t1)) by (apply M; left; reflexivity).
      destruct I1 as [E|I1]; [congruence|]. destruct I2 as [E|I2]; [congruence|].
      pose proof (F2 _ I1). pose proof (F1 _ I2). lia. }
    subst h2. f_equal. apply IH; auto. intros a. split; intros Ha.
    + assert (I : In a (h1 :: t2)) by (apply M; right; exact Ha). destruct I as [E|I]; [|exact I].
      subst a. pose proof (F1 _ Ha). lia.
    + assert (I : In a (h1 :: t1)) by (apply M; right; exact Ha). destruct I as [E|I]; [|exact I].
      subst a. pose proof (F2 _ Ha). lia.
Qed.

Lemma desc_rev_asc l : desc l -> asc (rev l).
Proof.
  unfold desc, asc. induction 1 as [|h t St IH Ft]; cbn [rev]; [constructor|].
  assert (Hall : forall a, In a (rev t) -> num_of a < num_of h).
  { intros a Ha. apply in_rev in Ha. rewrite Forall_forall in Ft. apply Ft. exact Ha. }
  clear St Ft. induction (rev t) as [|x l IHl]; cbn [app]; [repeat constructor|].
  inversion IH as [|? ? Sl Fl]; subst. constructor.
  - apply IHl; auto. intros a Ha. apply Hall. right. exact Ha.
  - rewrite Forall_forall in *. intros a Ha. apply in_app_or in Ha. destruct Ha as [Ha|[<-|[]]]; [apply Fl; exact Ha|].
    apply Hall. left. reflexivity.
Qed.

Lemma desc_app_lt pre suf : desc (pre ++ suf) -> forall a b, In a pre -> In b suf -> num_of b < num_of a.
Proof.
  unfold desc. induction pre as [|h t IH]; intros S a b Ha Hb; [destruct Ha|]. cbn [app] in S.
  inversion S as [|? ? St Ft]; subst. destruct Ha as [<-|Ha]; [|eapply IH; eauto].
  rewrite Forall_forall in Ft. apply Ft. apply in_or_app. right. exact Hb.
Qed.

Lemma desc_app_l pre suf : desc (pre ++ suf) -> desc pre.
Proof.
  unfold desc. induction pre as [|h t IH]; intros S; [constructor|]. cbn [app] in S.
  inversion S as [|? ? St Ft]; subst. constructor; [apply IH; exact St|].
  rewrite Forall_forall in *. intros a Ha. apply Ft. apply in_or_app. left. exact Ha.
Qed.

Section Paths.
  Variables (g gp : N) (r : repo).
  Hypothesis W : wf g gp r.

  Lemma path_exists h : stored r h -> exists st, is_path r h st.
  Proof.
    remember (N.to_nat (num_of h)) as k eqn:Hk. revert h Hk.
    induction k as [k IH] using lt_wf_ind. intros h Hk [s Hs].
    destruct (N.eq_dec h g) as [->|Hg].
    - exists [g]. rewrite <- (w_gen _ _ _ W). constructor.
    - destruct (w_par _ _ _ W _ _ Hs Hg) as [ps [Hps [En _]]].
      destruct (IH (N.to_nat (num_of (s_parent s))) ltac:(lia) (s_parent s) eq_refl (ex_intro _ ps Hps)) as [st Hst].
      exists (h :: st). eapply path_step; eauto. rewrite (w_gen _ _ _ W). exact Hg.
  Qed.

  Lemma path_members h st : is_path r h st -> forall a, In a st <-> anc r h a.
  Proof.
    induction 1 as [|h s l Hs Hg Hp IH]; intros a.
    - rewrite (w_gen _ _ _ W). cbn [In]. split.
      + intros [<-|[]]. eapply anc_refl. apply (w_gsum _ _ _ W).
      + intros Ha. left. symmetry. apply (anc_gen_inv g gp r W). exact Ha.
    - cbn [In]. rewrite IH. split.
      + intros [<-|Ha]; [eapply anc_refl; eauto | eapply anc_step; eauto].
      + intros Ha. inversion Ha as [|h' s' a' Hs' Hg' Hp']; subst; [left; reflexivity|].
        right. rewrite Hs in Hs'. injection Hs' as <-. exact Hp'.
  Qed.

  Lemma path_desc h st : is_path r h st -> desc st.
  Proof.
    unfold desc. induction 1 as [|h s l Hs Hg Hp IH]; [repeat constructor|].
    constructor; [exact IH|]. apply Forall_forall. intros a Ha.
    apply (path_members _ _ Hp) in Ha. pose proof (anc_height g gp r W _ _ Ha).
    rewrite (w_gen _ _ _ W) in Hg. destruct (w_par _ _ _ W _ _ Hs Hg) as [ps [_ [En _]]]. lia.
  Qed.

  (* the path of c splits into the blocks that are not on o's chain and the path of the fork point *)
  Lemma split_path c o st : is_path r c st -> stored r o ->
    exists pre suf F, st = pre ++ suf /\ is_path r F suf /\ anc r o F /\ anc r c F /\
                      (forall a, In a pre -> ~ anc r o a).
  Proof.
    intros Hp So. induction Hp as [|h s l Hs Hg Hp IH].
    - exists [], [r_gen r], (r_gen r). rewrite (w_gen _ _ _ W). repeat split.
      + rewrite <- (w_gen _ _ _ W). constructor.
      + apply (anc_to_gen g gp r W). exact So.
      + eapply anc_refl. apply (w_gsum _ _ _ W).
      + intros a [].
    - destruct (has_block_spec g gp r W o h So) as [v [_ Hv]]. destruct v.
      + exists [], (h :: l), h. repeat split.
        * eapply path_step; eauto.
        * apply Hv. reflexivity.
        * eapply anc_refl; eauto.
        * intros a [].
      + destruct IH as [pre [suf [F [E [PF [AoF [AcF Hpre]]]]]]].
        exists (h :: pre), suf, F. repeat split; auto.
        * cbn [app]. congruence.
        * eapply anc_step; eauto.
        * intros a [<-|Ha]; [intros X; apply Hv in X; discriminate | apply Hpre; exact Ha].
  Qed.

  (* Exclude(c, o) is that prefix, oldest first; both splits share the same fork path *)
  Lemma exclude_is_prefix c o st_c st_o : is_path r c st_c -> is_path r o st_o ->
    exists pre_c pre_o suf,
      st_c = pre_c ++ suf /\ st_o = pre_o ++ suf /\
      exclude r c o = Ok (rev pre_c) /\ exclude r o c = Ok (rev pre_o).
  Proof.
    intros Pc Po.
    pose proof (path_stored g gp r W _ _ Pc) as Sc. pose proof (path_stored g gp r W _ _ Po) as So.
    destruct (split_path c o st_c Pc So) as [pre_c [suf_c [Fc [Ec [PFc [AoFc [AcFc Hc]]]]]]].
    destruct (split_path o c st_o Po Sc) as [pre_o [suf_o [Fo [Eo [PFo [AcFo [AoFo Ho]]]]]]].
    (* the two fork points coincide *)
    assert (Fc_in : In Fo suf_c).
    { assert (I : In Fo st_c) by (apply (path_members _ _ Pc); exact AcFo).
      rewrite Ec in I. apply in_app_or in I. destruct I as [I|I]; [|exact I]. exfalso. apply (Hc _ I). exact AoFo. }
    assert (Fo_in : In Fc suf_o).
    { assert (I : In Fc st_o) by (apply (path_members _ _ Po); exact AoFc).
      rewrite Eo in I. apply in_app_or in I. destruct I as [I|I]; [|exact I]. exfalso. apply (Ho _ I). exact AcFc. }
    apply (path_members _ _ PFc) in Fc_in. apply (path_members _ _ PFo) in Fo_in.
    assert (EF : Fc = Fo).
    { pose proof (anc_height g gp r W _ _ Fc_in). pose proof (anc_height g gp r W _ _ Fo_in).
      symmetry. apply (anc_same_height g gp r W _ _ Fc_in). lia. }
    subst Fo. assert (Es : suf_o = suf_c) by (eapply path_unique; eauto). subst suf_o.
    exists pre_c, pre_o, suf_c. split; [exact Ec|]. split; [exact Eo|].
    (* Exclude by uniqueness of sorted lists *)
    assert (Ex : forall c o st pre suf F, is_path r c st -> stored r o -> st = pre ++ suf -> is_path r F suf -> anc r o F ->
                 (forall a, In a pre -> ~ anc r o a) -> exclude r c o = Ok (rev pre)).
    { clear - W. intros c o st pre suf F Pc So E PF AoF Hpre.
      pose proof (path_stored g gp r W _ _ Pc) as Sc.
      destruct (exclude_spec g gp r W c o Sc So) as [l [El [Ml Sl]]]. rewrite El. f_equal.
      apply asc_unique; auto.
      - apply desc_rev_asc. apply (desc_app_l pre suf). rewrite <- E. eapply path_desc; eauto.
      - intros a. rewrite Ml, <- in_rev. split.
        + intros [Ha Hn]. apply (path_members _ _ Pc) in Ha. rewrite E in Ha. apply in_app_or in Ha.
          destruct Ha as [Ha|Ha]; [exact Ha|]. exfalso. apply Hn. apply (path_members _ _ PF) in Ha.
          eapply anc_trans; eauto.
        + intros Ha. split; [|apply Hpre; exact Ha]. apply (path_members _ _ Pc). rewrite E. apply in_or_app. left. exact Ha. }
    split; [eapply Ex; eauto | eapply Ex; eauto].
  Qed.
End Paths.

(* blocks stored before an AddBlock keep their content *)
Lemma get_block_old g gp r r' b conf best id s :
  wf g gp r -> valid_add r b conf -> add_block r b conf best = Some r' ->
  get_summary r id = Some s -> get_block r' id = get_block r id.
Proof.
  intros W V A Hs. unfold get_block.
  rewrite (add_summary_old _ _ _ _ _ V A _ _ Hs), Hs, (add_body_old g gp r r' b conf best W V A id s Hs). reflexivity.
Qed.

Lemma get_block_new r r' b conf best :
  add_block r b conf best = Some r' ->
  get_block r' (b_id b) = Some (mkS (b_id b) (b_parent b) (map tx_id (b_txs b)) conf, b).
Proof.
  intros A. unfold get_block. rewrite (add_summary _ _ _ _ _ A), N.eqb_refl.
  destruct (add_parent _ _ _ _ _ A) as [ps [_ ->]]. cbn [r_body save_block s_conf]. rewrite afind2_cons.
  replace (eq2 _ _) with true by (symmetry; apply eq2_spec; reflexivity). reflexivity.
Qed.
