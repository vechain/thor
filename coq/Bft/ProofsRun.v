(* Bft/ProofsRun.v — invariants of every node along any event history (import, own proposal with Mark, restart) and of
   the whole world along any valid run: node invariants, finalized is a stored checkpoint, the votes record covers every
   own block at or above finalized, every repository is a well-formed part of the global tree (so chains, qualities and
   states are the same wherever they are computed), and every block signed by an honest validator is stored at that
   validator's own node. *)
From Coq Require Import List NArith ZArith Bool Lia.
From Coq Require Import ZifyN ZifyNat ZifyBool.
From Verif Require Import Common.Util Bft.Tree Bft.Model Bft.Quorum Bft.ProofsTally Bft.ProofsChain Bft.ProofsSuffix
  Bft.ProofsNode Bft.ProofsFinal Bft.ProofsMonotone Bft.ProofsCommit Bft.ProofsOrder Bft.ProofsOrder2 Bft.ProofsVote
  Bft.Safety Bft.ProofsSafety Bft.ProofsTree2 Bft.ProofsCasts.
Import ListNotations.
Open Scope N_scope.

Section NodeSteps.
Variable c : cfg.
Hypothesis HL : 0 < c_L c.
Notation L := (c_L c).

Record node_good (nd : node) : Prop := mkNG {
  ng_inv : inv c nd;
  ng_fincp : fin_cp c nd;
  ng_finst : exists f, find_blk (n_repo nd) (e_fin (n_eng nd)) = Some f;
  ng_root : root_free (n_repo nd);
  ng_casts : casts_ok c nd }.

Lemma init_good g master : b_num g = 0 -> known [g] (b_parent g) = false -> node_good (init_node g master).
Proof.
  intros Hg Hp. constructor.
  - apply init_inv; assumption.
  - apply init_fin_cp; assumption.
  - exists g. cbn. unfold find_blk. cbn. rewrite N.eqb_refl. reflexivity.
  - intros z [<-|[]] _. exact Hp.
  - exact I.
Qed.

Lemma restart_good nd : node_good nd -> node_good (restart nd).
Proof.
  intros [Hi Hf Hs Hr Hc]. constructor; try assumption.
  - apply restart_inv. exact Hi.
  - exact I.
Qed.

Lemma best_in nd : inv c nd -> In (best_blk nd) (n_repo nd) /\ b_id (best_blk nd) = n_best nd.
Proof.
  intros Hi. destruct (inv_best c _ Hi) as [bb Hbb]. unfold best_blk. rewrite Hbb.
  destruct (find_blk_id _ _ _ Hbb). tauto.
Qed.

Lemma add_and_commit_shape nd b packing :
  let nd' := fst (add_and_commit true c nd b packing) in
  n_repo nd' = b :: n_repo nd /\ e_master (n_eng nd') = e_master (n_eng nd) /\
  (n_best nd' = n_best nd \/ n_best nd' = b_id b).
Proof. exact (add_and_commit_node true c nd b packing). Qed.

Lemma add_and_commit_fin_le nd b packing :
  idnum (e_fin (n_eng nd)) <= idnum (e_fin (n_eng (fst (add_and_commit true c nd b packing)))) /\
  exists f, In f (b :: n_repo nd) /\ (find_blk (n_repo nd) (e_fin (n_eng nd)) <> None -> b_id f = e_fin (n_eng (fst (add_and_commit true c nd b packing)))).
Proof.
  unfold add_and_commit. pose proof (commit_block_finalized true c (b :: n_repo nd) (n_eng nd) b packing) as H. cbv zeta in H.
  destruct (commit_block true c (b :: n_repo nd) (n_eng nd) b packing) as [e' err]. cbn [fst n_eng] in *.
  destruct H as [->|[x [Hx [-> Hle]]]].
  - split; [lia|]. destruct (find_blk (n_repo nd) (e_fin (n_eng nd))) as [f|] eqn:E.
    + exists f. destruct (find_blk_id _ _ _ E). split; [right; assumption | intros _; assumption].
    + exists b. split; [left; reflexivity | intros H; contradiction].
  - split; [exact Hle|]. exists x. split; [exact (chain_incl _ _ _ Hx) | reflexivity].
Qed.

Lemma find_blk_in r x : wf_repo r -> In x r -> find_blk r (b_id x) = Some x.
Proof. intros. apply chain_of_stored; assumption. Qed.

Theorem add_and_commit_good nd b (packing : bool) :
  node_good nd -> known (n_repo nd) (b_id b) = false -> known (n_repo nd) (b_parent b) = true ->
  valid_child (n_repo nd) b -> root_free (b :: n_repo nd) ->
  (if packing return Prop then b_signer b = e_master (n_eng nd) /\ b_parent b = n_best nd /\ e_casts (n_eng nd) <> None
   else b_signer b <> e_master (n_eng nd)) ->
  node_good (fst (add_and_commit true c nd b packing)) /\ snd (add_and_commit true c nd b packing) = 0.
Proof.
  intros [Hi Hfc Hfs Hroot Hca] Hfresh Hpk Hvc Hroot' Hsig.
  pose proof (add_and_commit_inv c HL true nd b false Hi Hfresh Hpk Hvc) as Hi0.
  destruct (add_and_commit_ok c HL nd b Hi Hfc Hfresh Hpk Hvc) as [Herr0 Hfc0].
  pose proof (add_and_commit_fin_le nd b packing) as [Hfle [f [Hfin Hfid]]].
  pose proof (add_and_commit_shape nd b packing) as [Hrepo [Hmaster _]]. cbv zeta in Hrepo, Hmaster.
  pose proof (inv_wf c _ Hi) as Hwf.
  destruct (child_setup c HL _ (e_qs (n_eng nd)) b Hwf (inv_qs c _ Hi) Hfresh Hpk Hvc) as [_ [_ [_ [Hwf0 [_ [_ Hcs]]]]]].
  destruct (best_in nd Hi) as [Hbin Hbid].
  (* the engine after the import-flavoured CommitBlock *)
  unfold add_and_commit in *. set (r := n_repo nd) in *. set (e := n_eng nd) in *.
  pose proof (commit_block_casts c true (b :: r) e b) as [Hcasts1 Hmaster1].
  pose proof (commit_block_packing c true (b :: r) e b) as Hpack.
  destruct (commit_block true c (b :: r) e b false) as [e1 err] eqn:Ecb. cbn [fst snd n_repo n_eng n_best] in *.
  assert (Herr : err = 0) by (destruct (err =? 0) eqn:E; [apply N.eqb_eq in E; exact E | lia]). subst err.
  set (best' := if select c r e (best_blk nd) b then b_id b else n_best nd) in *.
  assert (HQ : qual c r (best_blk nd) <= qual c (b :: r) (best_blk (mkN (b :: r) best' e1))).
  { rewrite <- (qual_fresh c b r (best_blk nd) Hwf0 Hbin).
    apply (head_quality_monotone c HL (mkN (b :: r) best' e1) (best_blk nd) Hi0). right. exact Hbin. }
  destruct packing.
  - destruct Hsig as [Hs [Hpar Hsome]]. rewrite Hpack in *. cbn [negb N.eqb] in *. rewrite Hcasts1 in *.
    destruct (e_casts e) as [ca|] eqn:Eca; [|contradiction].
    destruct (cp_of_exists c HL (b :: r) b Hwf0 ltac:(left; reflexivity)) as [cpb [Ecp _]]. unfold cp_of in Ecp. rewrite Ecp in *.
    cbn [fst snd n_repo n_eng n_best e_fin e_master e_casts] in *. split; [|reflexivity].
    set (e2 := mkE (e_master e1) (e_fin e1) (e_qs e1) (Some (mark ca (b_id cpb) (s_q (compute_state c (b :: r) (e_qs e) b)))) (e_jc e1)).
    assert (Hi2 : inv c (mkN (b :: r) best' e2)) by (apply (inv_eng_irrelevant c (mkN (b :: r) best' e1) e2 Hi0); reflexivity).
    constructor; cbn [n_repo n_eng n_best].
    + exact Hi2.
    + exact Hfc0.
    + unfold e2. cbn [e_fin]. exists f. rewrite <- (Hfid ltac:(destruct Hfs as [f0 ->]; discriminate)). apply find_blk_in; assumption.
    + exact Hroot'.
    + unfold casts_ok. cbn [n_repo n_eng e_casts e_master e_fin].
      change (best_blk (mkN (b :: r) best' e2)) with (best_blk (mkN (b :: r) best' e1)).
      unfold e2. cbn [e_casts e_master e_fin]. rewrite Hcs. change (s_q (state_pure c (chain_of (b :: r) (b_id b)))) with (qual c (b :: r) b).
      unfold casts_ok in Hca. fold e r in Hca. rewrite Eca in Hca.
      rewrite Hmaster1.
      apply (casts_inv_mark c HL b r (qual c r (best_blk nd)) _ (e_master e) (idnum (e_fin e)) (idnum (e_fin e1)) ca cpb); try assumption.
      * (* the new block sits on the best block *)
        unfold qual. rewrite chain_of_head, Hpar, <- Hbid.
        destruct (chain_of_known r Hwf _ _ (find_blk_in r _ Hwf Hbin)) as [t [Ht Hg]].
        assert (Hgb : grounded (b :: chain_of r (b_id (best_blk nd)))).
        { rewrite Ht. cbn [grounded]. split; [rewrite Hpar; symmetry; exact Hbid|]. split; [|exact Hg].
          apply Hvc. rewrite Hpar, <- Hbid. apply find_blk_in; assumption. }
        pose proof (quality_step c HL b _ Hgb). lia.
      * apply (head_quality_monotone c HL (mkN (b :: r) best' e1) b Hi0). left. reflexivity.
  - rewrite Ecb in *. cbn [fst snd n_repo n_eng n_best] in *. split; [|reflexivity]. constructor; cbn [n_repo n_eng n_best].
    + exact Hi0.
    + exact Hfc0.
    + exists f. rewrite <- (Hfid ltac:(destruct Hfs as [f0 ->]; discriminate)). apply find_blk_in; assumption.
    + exact Hroot'.
    + unfold casts_ok in *. cbn [n_repo n_eng]. rewrite Hcasts1, Hmaster1. fold e r in Hca.
      destruct (e_casts e) as [ca|]; [|exact I].
      apply (casts_inv_import c HL b r (qual c r (best_blk nd)) _ (e_master e) (idnum (e_fin e))); assumption.
Qed.

Theorem import_good nd b : node_good nd -> valid_child (n_repo nd) b ->
  (known (n_repo nd) (b_id b) = true \/ b_signer b <> e_master (n_eng nd)) -> root_free (b :: n_repo nd) ->
  node_good (fst (import true c nd b)).
Proof.
  intros Hg Hvc Hs Hroot. destruct (import_cases true c nd b) as [[k [-> _]]|[Ek [Ep [_ ->]]]]; [exact Hg|].
  destruct Hs as [Hs|Hs]; [rewrite Hs in Ek; discriminate|].
  exact (proj1 (add_and_commit_good nd b false Hg Ek Ep Hvc Hroot Hs)).
Qed.

Lemma honest_ok_facts nd b : honest_ok c nd b = true ->
  b_signer b = e_master (n_eng nd) /\ b_parent b = n_best nd /\ b_num b = b_num (best_blk nd) + 1 /\
  exists v, snd (should_vote c (n_repo nd) (n_eng nd) (b_parent b)) = Ok v /\ v = b_com b.
Proof.
  unfold honest_ok. intros H. repeat (apply andb_prop in H; destruct H as [H ?]).
  apply N.eqb_eq in H, H4, H3. split; [exact H|]. split; [exact H4|]. split; [exact H3|].
  destruct (snd (should_vote _ _ _ _)) as [v|]; [|discriminate]. exists v. split; [reflexivity | apply eqb_prop; assumption].
Qed.

(* an own proposal of an honest node: ShouldVote leaves a good node nd1 that differs from nd in the votes record only
   (now present); b is a valid child of the best block, and the proposal is add_and_commit on nd1 *)
Lemma propose_split nd b : node_good nd -> honest_ok c nd b = true ->
  exists e1, let nd1 := mkN (n_repo nd) (n_best nd) e1 in
    node_good nd1 /\ e_fin e1 = e_fin (n_eng nd) /\ e_master e1 = e_master (n_eng nd) /\ e_casts e1 <> None /\
    valid_child (n_repo nd) b /\ known (n_repo nd) (b_parent b) = true /\
    fst (propose true c nd b) = add_and_commit true c nd1 b true.
Proof.
  intros Hg Hok. destruct (honest_ok_facts nd b Hok) as [Hs [Hpar [Hnum [v [Hv _]]]]].
  pose proof Hg as [Hi Hfc Hfs Hrt Hca]. destruct (best_in nd Hi) as [Hbin Hbid].
  unfold propose.
  pose proof (should_vote_keeps c (n_repo nd) (n_eng nd) (b_parent b)) as Hk. cbv zeta in Hk.
  pose proof (should_vote_casts_ok c HL nd (b_parent b) Hi Hrt Hca) as Hsc. cbv zeta in Hsc.
  destruct (should_vote c (n_repo nd) (n_eng nd) (b_parent b)) as [e1 v0]. cbn [fst snd] in *. subst v0.
  destruct Hk as [Hq1 [Hf1 Hm1]]. destruct Hsc as [Hc1 Hsome]. exists e1. cbv zeta.
  split; [|split; [exact Hf1 | split; [exact Hm1 | split; [exact Hsome | split; [|split]]]]].
  - constructor; cbn [n_repo n_eng n_best].
    + apply inv_eng_irrelevant; assumption.
    + unfold fin_cp in *. cbn [n_eng]. rewrite Hf1. exact Hfc.
    + rewrite Hf1. exact Hfs.
    + exact Hrt.
    + exact Hc1.
  - intros p Hp. rewrite Hpar, <- Hbid, (find_blk_in _ _ (inv_wf c _ Hi) Hbin) in Hp. inversion Hp; subst p. exact Hnum.
  - rewrite Hpar, <- Hbid. apply known_in. exact Hbin.
  - destruct (add_and_commit true c _ b true) as [nd' code]. reflexivity.
Qed.

Theorem propose_good nd b : node_good nd -> honest_ok c nd b = true -> known (n_repo nd) (b_id b) = false ->
  root_free (b :: n_repo nd) ->
  let nd' := fst (fst (propose true c nd b)) in
  node_good nd' /\ n_repo nd' = b :: n_repo nd /\ e_master (n_eng nd') = e_master (n_eng nd) /\
  snd (fst (propose true c nd b)) = 0.
Proof.
  intros Hg Hok Hfresh Hroot. destruct (honest_ok_facts nd b Hok) as [Hs [Hpar _]].
  destruct (propose_split nd b Hg Hok) as [e1 [Hg1 [_ [Hm1 [Hsome [Hvc [Hpk E]]]]]]]. cbv zeta in *. rewrite E.
  destruct (add_and_commit_good _ b true Hg1 Hfresh Hpk Hvc Hroot) as [Hg' Herr].
  { cbn [n_eng n_best]. rewrite Hm1. split; [exact Hs|]. split; [exact Hpar | exact Hsome]. }
  pose proof (add_and_commit_shape (mkN (n_repo nd) (n_best nd) e1) b true) as [Hrepo [Hmast _]]. cbv zeta in Hrepo, Hmast.
  split; [exact Hg'|]. split; [exact Hrepo|]. split; [rewrite Hmast; exact Hm1 | exact Herr].
Qed.
End NodeSteps.

Lemma import_repo_mono guard c nd b x : In x (n_repo nd) -> In x (n_repo (fst (import guard c nd b))).
Proof.
  intros Hx. destruct (import_cases guard c nd b) as [[k [-> _]]|[_ [_ [_ ->]]]]; [exact Hx|].
  rewrite (proj1 (add_and_commit_node guard c nd b false)). right. exact Hx.
Qed.

Lemma import_master guard c nd b : e_master (n_eng (fst (import guard c nd b))) = e_master (n_eng nd).
Proof.
  destruct (import_cases guard c nd b) as [[k [-> _]]|[_ [_ [_ ->]]]]; [reflexivity|].
  exact (proj1 (proj2 (add_and_commit_node guard c nd b false))).
Qed.

Lemma nth_error_set_nth {A} (l : list A) i x : forall j,
  nth_error (set_nth l i x) j = if Nat.eqb i j then (match nth_error l i with Some _ => Some x | None => None end) else nth_error l j.
Proof.
  revert i. induction l as [|a l IH]; intros i j.
  - cbn. destruct i, j; cbn; try reflexivity. destruct (Nat.eqb i j); reflexivity.
  - destruct i, j; cbn [set_nth nth_error Nat.eqb]; try reflexivity. apply IH.
Qed.

Lemma map_set_nth {A B} (f : A -> B) (l : list A) i x y : nth_error l i = Some y -> f x = f y -> map f (set_nth l i x) = map f l.
Proof.
  revert i. induction l as [|a l IH]; intros i Hn E; [destruct i; discriminate|].
  destruct i; cbn in *.
  - inversion Hn; subst. rewrite E. reflexivity.
  - rewrite (IH i Hn E). reflexivity.
Qed.

Lemma known_incl r s id : incl r s -> known r id = true -> known s id = true.
Proof.
  intros Hs H. apply known_find in H. destruct H as [x Hx]. destruct (find_blk_id _ _ _ Hx) as [Hid Hin].
  rewrite <- Hid. apply known_in. exact (Hs x Hin).
Qed.

Lemma unknown_incl r s id : incl r s -> known s id = false -> known r id = false.
Proof. intros Hs H. destruct (known r id) eqn:E; [|reflexivity]. rewrite (known_incl r s id Hs E) in H. discriminate. Qed.

Lemma seen_after_incl evs : forall seen, incl seen (seen_after seen evs).
Proof.
  induction evs as [|ev t IH]; intros seen x Hx; [exact Hx|].
  destruct ev as [i b|i b|i]; cbn [seen_after]; apply IH; try exact Hx; [destruct (known seen (b_id b)); [exact Hx | right; exact Hx] | right; exact Hx].
Qed.

Lemma seen_after_app pre : forall s post, seen_after s (pre ++ post) = seen_after (seen_after s pre) post.
Proof. induction pre as [|ev t IH]; intros s post; [reflexivity|]. destruct ev; cbn [app seen_after]; apply IH. Qed.

Lemma wf_child_num s b p : wf_repo s -> In b s -> In p s -> b_id p = b_parent b -> b_num b <> 0 -> b_num b = b_num p + 1.
Proof.
  induction s as [|a s IH]; intros Hwf Hb Hp E Hn; [destruct Hb|].
  pose proof Hwf as Hwf0. cbn in Hwf. destruct Hwf as [Hw [Hf Hpar]].
  destruct Hb as [->|Hb].
  - destruct s as [|z s']; [contradiction|]. destruct Hpar as [p' [Hp' Hnum]].
    destruct (find_blk_id _ _ _ Hp') as [Hid Hin].
    assert (p = p') by (apply (stored_unique (b :: z :: s')); [exact Hwf0 | exact Hp | right; exact Hin | congruence]). subst p'. exact Hnum.
  - destruct Hp as [->|Hp]; [|exact (IH Hw Hb Hp E Hn)].
    (* the parent above its child: impossible *)
    exfalso. destruct (in_split _ _ Hb) as [la [lb Es]].
    assert (Hw2 : wf_repo (b :: lb)).
    { rewrite Es in Hw. clear -Hw. induction la as [|x la IH]; [exact Hw|]. cbn [app] in Hw. cbn in Hw. apply IH. tauto. }
    cbn in Hw2. destruct Hw2 as [_ [_ Hpb]]. destruct lb as [|z lb']; [contradiction|].
    destruct Hpb as [p' [Hp' _]]. destruct (find_blk_id _ _ _ Hp') as [Hid Hin].
    assert (In p' s) by (rewrite Es, in_app_iff; right; right; exact Hin).
    apply known_in in H. rewrite Hid, <- E in H. rewrite H in Hf. discriminate.
Qed.

Section World.
Variable c : cfg.
Hypothesis HL : 0 < c_L c.
Variable g : blk.
Hypothesis Hg : b_num g = 0.
Variables byz masters : list N.
Hypothesis Hdisj : forall m, In m masters -> ~ In m byz.
Hypothesis Hnd : NoDup masters.

Definition world_after (w : list node) (evs : list event) : list node := fold_left (step_plain true c) evs w.

(* the per-event check and the new global tree of valid_run_b *)
Definition ev_check (w : list node) (seen : repo) (ev : event) : bool * repo :=
  match ev with
  | EPropose i b =>
      (match nth_error w i with
       | Some nd => negb (mem byz (b_signer b)) && negb (known seen (b_id b)) && honest_ok c nd b
       | None => false end, b :: seen)
  | EImport i b =>
      match find_blk seen (b_id b) with
      | Some b' => (blk_eqb b b', seen)
      | None => (mem byz (b_signer b) &&
                 match find_blk seen (b_parent b) with Some p => b_num b =? b_num p + 1 | None => false end, b :: seen)
      end
  | ERestart _ => (true, seen)
  end.

Lemma valid_run_cons w seen ev t :
  valid_run_b true c byz w seen (ev :: t) =
  fst (ev_check w seen ev) && valid_run_b true c byz (step_plain true c w ev) (snd (ev_check w seen ev)) t.
Proof. cbn [valid_run_b]. unfold ev_check. destruct ev as [i b|i b|i]; try reflexivity. destruct (find_blk seen (b_id b)); reflexivity. Qed.

Lemma seen_after_cons seen ev t : forall w, seen_after seen (ev :: t) = seen_after (snd (ev_check w seen ev)) t.
Proof.
  intros w. destruct ev as [i b|i b|i]; cbn [seen_after ev_check snd]; try reflexivity.
  unfold known. destruct (find_blk seen (b_id b)); reflexivity.
Qed.

Record world_good (w : list node) (seen : repo) : Prop := mkWG {
  wg_wf : wf_repo seen;
  wg_gin : In g seen;
  wg_last : forall d, last seen d = g;
  wg_root : known seen (b_parent g) = false;
  wg_masters : map (fun nd => e_master (n_eng nd)) w = masters;
  wg_nodes : forall i nd, nth_error w i = Some nd ->
     node_good c nd /\ incl (n_repo nd) seen /\ In g (n_repo nd) /\
     (forall x, In x seen -> b_signer x = e_master (n_eng nd) -> In x (n_repo nd));
  wg_signers : forall x, In x seen -> x = g \/ In (b_signer x) byz \/ In (b_signer x) masters }.

Lemma root_free_sub seen r : wf_repo seen -> (forall d, last seen d = g) -> known seen (b_parent g) = false ->
  incl r seen -> root_free r.
Proof.
  intros Hwf Hl Hk Hsub z Hz Hn.
  assert (z = g) by (rewrite <- (Hl z); apply (zero_is_root seen Hwf z z (Hsub z Hz) Hn)). subst z.
  exact (unknown_incl r seen _ Hsub Hk).
Qed.

Lemma valid_child_sub seen r b : wf_repo seen -> (forall d, last seen d = g) -> known seen (b_parent g) = false ->
  incl r seen -> In b seen -> valid_child r b.
Proof.
  intros Hwf Hl Hk Hsub Hb p Hp. destruct (find_blk_id _ _ _ Hp) as [Hid Hin].
  destruct (N.eq_dec (b_num b) 0) as [Z|Z].
  - exfalso. assert (b = g) by (rewrite <- (Hl b); apply (zero_is_root seen Hwf b b Hb Z)). subst b.
    pose proof (known_in seen p (Hsub p Hin)) as Hk'. rewrite Hid, Hk in Hk'. discriminate.
  - apply (wf_child_num seen b p Hwf Hb (Hsub p Hin) Hid Z).
Qed.

Lemma master_index w i j ni nj : map (fun nd => e_master (n_eng nd)) w = masters ->
  nth_error w i = Some ni -> nth_error w j = Some nj -> e_master (n_eng ni) = e_master (n_eng nj) -> i = j.
Proof.
  intros Hm Hi Hj E.
  assert (A : nth_error masters i = Some (e_master (n_eng ni))) by (rewrite <- Hm; exact (map_nth_error (fun nd => e_master (n_eng nd)) i w Hi)).
  assert (B : nth_error masters j = Some (e_master (n_eng nj))) by (rewrite <- Hm; exact (map_nth_error (fun nd => e_master (n_eng nd)) j w Hj)).
  rewrite <- E in B. apply (proj1 (NoDup_nth_error masters) Hnd i j); [apply nth_error_Some; rewrite A; discriminate | congruence].
Qed.

Lemma master_in w i ni : map (fun nd => e_master (n_eng nd)) w = masters -> nth_error w i = Some ni -> In (e_master (n_eng ni)) masters.
Proof. intros Hm Hi. rewrite <- Hm. apply in_map_iff. exists ni. split; [reflexivity | exact (nth_error_In _ _ Hi)]. Qed.

Lemma incl_cons_both {A} (b : A) r s : incl r s -> incl (b :: r) (b :: s).
Proof. intros H x [<-|Hx]; [left; reflexivity | right; exact (H x Hx)]. Qed.

Lemma seen_cons w seen b p : world_good w seen -> known seen (b_id b) = false ->
  find_blk seen (b_parent b) = Some p -> b_num b = b_num p + 1 ->
  wf_repo (b :: seen) /\ forall d, last (b :: seen) d = g.
Proof.
  intros Hw Hfresh Hp Hnum. destruct seen as [|s0 ss]; [destruct (wg_gin _ _ Hw)|].
  split; [|exact (wg_last _ _ Hw)]. cbn. split; [exact (wg_wf _ _ Hw)|]. split; [exact Hfresh|]. exists p. split; assumption.
Qed.

(* a Byzantine block enters the global tree: no node owes it to anybody *)
Lemma world_good_cons_byz w seen b p : world_good w seen -> In (b_signer b) byz -> known seen (b_id b) = false ->
  find_blk seen (b_parent b) = Some p -> b_num b = b_num p + 1 -> known (b :: seen) (b_parent g) = false ->
  world_good w (b :: seen).
Proof.
  intros Hw Hbz Hfresh Hp Hnum Hroot'. destruct (seen_cons w seen b p Hw Hfresh Hp Hnum) as [Hwf' Hlast'].
  destruct Hw as [Hwf Hgin Hlast Hrootk Hmast Hnodes Hsig]. constructor; try assumption.
  - right. exact Hgin.
  - intros j nj Hj. destruct (Hnodes j nj Hj) as [G [S [Gr O]]]. split; [exact G|]. split; [intros x Hx; right; exact (S x Hx)|].
    split; [exact Gr|]. intros x [<-|Hx] Hs; [|exact (O x Hx Hs)].
    exfalso. apply (Hdisj (b_signer b)); [rewrite Hs; exact (master_in w j nj Hmast Hj) | exact Hbz].
  - intros x [<-|Hx]; [right; left; exact Hbz | exact (Hsig x Hx)].
Qed.

(* node i replaced by a good node with the same master and a larger repository; what is new in the global tree is signed
   by that master and stored there *)
Lemma world_good_set_nth w seen seen' i nd nd' : world_good w seen -> nth_error w i = Some nd ->
  wf_repo seen' -> (forall d, last seen' d = g) -> known seen' (b_parent g) = false -> incl seen seen' ->
  (forall x, In x seen' -> In x seen \/ b_signer x = e_master (n_eng nd) /\ In x (n_repo nd')) ->
  node_good c nd' -> e_master (n_eng nd') = e_master (n_eng nd) -> incl (n_repo nd') seen' -> incl (n_repo nd) (n_repo nd') ->
  world_good (set_nth w i nd') seen'.
Proof.
  intros [Hwf Hgin Hlast Hrootk Hmast Hnodes Hsig] En Hwf' Hlast' Hroot' Hinc Hnew Hgood' Hm' Hsub' Hmono.
  constructor; try assumption.
  - exact (Hinc g Hgin).
  - rewrite (map_set_nth _ w i _ nd En); [exact Hmast | exact Hm'].
  - intros j nj Hj. rewrite nth_error_set_nth, En in Hj. destruct (Nat.eqb i j) eqn:Eij.
    + inversion Hj; subst nj. destruct (Hnodes i nd En) as [_ [_ [Gr O]]].
      split; [exact Hgood'|]. split; [exact Hsub'|]. split; [exact (Hmono g Gr)|].
      intros x Hx Hs. rewrite Hm' in Hs. destruct (Hnew x Hx) as [Hx0|[_ Hin]]; [exact (Hmono x (O x Hx0 Hs)) | exact Hin].
    + destruct (Hnodes j nj Hj) as [G [S [Gr O]]]. split; [exact G|]. split; [intros x Hx; exact (Hinc x (S x Hx))|].
      split; [exact Gr|]. intros x Hx Hs. destruct (Hnew x Hx) as [Hx0|[Hsi _]]; [exact (O x Hx0 Hs)|].
      exfalso. rewrite Hsi in Hs. pose proof (master_index w i j nd nj Hmast En Hj Hs) as Hij. subst j.
      rewrite Nat.eqb_refl in Eij. discriminate.
  - intros x Hx. destruct (Hnew x Hx) as [Hx0|[Hsi _]]; [exact (Hsig x Hx0)|].
    right. right. rewrite Hsi. exact (master_in w i nd Hmast En).
Qed.

Lemma import_seen w seen i b : world_good w seen -> In b seen -> world_good (step_plain true c w (EImport i b)) seen.
Proof.
  intros Hw Hbin. cbn [step_plain]. destruct (nth_error w i) as [nd|] eqn:En; [|exact Hw].
  pose proof Hw as [Hwf _ Hlast Hrootk _ Hnodes _]. destruct (Hnodes i nd En) as [Hgood [Hsub [_ Hown]]].
  apply (world_good_set_nth w seen seen i nd _ Hw En Hwf Hlast Hrootk (incl_refl _)).
  - intros x Hx. left. exact Hx.
  - apply (import_good c HL nd b Hgood).
    + exact (valid_child_sub seen (n_repo nd) b Hwf Hlast Hrootk Hsub Hbin).
    + destruct (N.eq_dec (b_signer b) (e_master (n_eng nd))) as [E|E]; [left; apply known_in; apply Hown; assumption | right; exact E].
    + apply (root_free_sub seen); try assumption. intros x [<-|Hx]; [exact Hbin | exact (Hsub x Hx)].
  - apply import_master.
  - intros x Hx. destruct (import_repo_incl true c nd b x Hx) as [->|H]; [exact Hbin | exact (Hsub x H)].
  - intros x. apply import_repo_mono.
Qed.

Theorem world_step w seen ev : world_good w seen -> fst (ev_check w seen ev) = true ->
  known (snd (ev_check w seen ev)) (b_parent g) = false ->
  world_good (step_plain true c w ev) (snd (ev_check w seen ev)).
Proof.
  intros Hw Hok Hroot'. pose proof Hw as [Hwf Hgin Hlast Hrootk Hmast Hnodes Hsig].
  destruct ev as [i b|i b|i]; cbn [ev_check fst snd] in *.
  - (* EImport: of a block already made, or of a new Byzantine one, which first joins the global tree *)
    destruct (find_blk seen (b_id b)) as [b'|] eqn:Ef; cbn [fst snd] in *.
    + apply blk_eqb_eq in Hok. subst b'. apply import_seen; [exact Hw | exact (proj2 (find_blk_id _ _ _ Ef))].
    + apply andb_prop in Hok. destruct Hok as [Hbz Hpar]. apply mem_In in Hbz.
      destruct (find_blk seen (b_parent b)) as [p|] eqn:Ep; [|discriminate]. apply N.eqb_eq in Hpar.
      apply import_seen; [|left; reflexivity].
      apply (world_good_cons_byz w seen b p); try assumption. unfold known. rewrite Ef. reflexivity.
  - (* EPropose *)
    cbn [step_plain]. destruct (nth_error w i) as [nd|] eqn:En; [|discriminate].
    apply andb_prop in Hok. destruct Hok as [Hok Hhon]. apply andb_prop in Hok. destruct Hok as [_ Hfresh].
    apply negb_true_iff in Hfresh.
    destruct (Hnodes i nd En) as [Hgood [Hsub _]].
    destruct (honest_ok_facts c nd b Hhon) as [Hs [Hpar [Hnum _]]].
    destruct (best_in c nd (ng_inv c nd Hgood)) as [Hbin Hbid].
    destruct (seen_cons w seen b (best_blk nd) Hw Hfresh) as [Hwf' Hlast'];
      [rewrite Hpar, <- Hbid; apply find_blk_in; [exact Hwf | exact (Hsub _ Hbin)] | exact Hnum |].
    assert (Hsub' : incl (b :: n_repo nd) (b :: seen)) by (apply incl_cons_both; exact Hsub).
    destruct (propose_good c HL nd b Hgood Hhon (unknown_incl _ _ _ Hsub Hfresh)
                (root_free_sub (b :: seen) _ Hwf' Hlast' Hroot' Hsub')) as [Hgood' [Hrepo' [Hm' _]]].
    apply (world_good_set_nth w seen (b :: seen) i nd _ Hw En Hwf' Hlast' Hroot'); try assumption; try rewrite Hrepo'.
    + intros x Hx. right. exact Hx.
    + intros x [<-|Hx]; [right; split; [exact Hs | left; reflexivity] | left; exact Hx].
    + exact Hsub'.
    + intros x Hx. right. exact Hx.
  - (* ERestart *)
    cbn [step_plain]. destruct (nth_error w i) as [nd|] eqn:En; [|exact Hw].
    destruct (Hnodes i nd En) as [G [S _]].
    apply (world_good_set_nth w seen seen i nd _ Hw En Hwf Hlast Hrootk (incl_refl _));
      [intros x Hx; left; exact Hx | apply restart_good; exact G | reflexivity | exact S | apply incl_refl].
Qed.

Lemma valid_run_app pre : forall w seen post,
  valid_run_b true c byz w seen (pre ++ post) =
  valid_run_b true c byz w seen pre && valid_run_b true c byz (world_after w pre) (seen_after seen pre) post.
Proof.
  induction pre as [|ev t IH]; intros w seen post; [reflexivity|].
  cbn [app]. rewrite !valid_run_cons, IH, (seen_after_cons seen ev t w). cbn [world_after fold_left]. rewrite andb_assoc. reflexivity.
Qed.

Theorem world_run evs : forall w seen, world_good w seen -> valid_run_b true c byz w seen evs = true ->
  known (seen_after seen evs) (b_parent g) = false ->
  world_good (world_after w evs) (seen_after seen evs).
Proof.
  induction evs as [|ev t IH]; intros w seen Hw Hv Hr; [exact Hw|].
  rewrite valid_run_cons in Hv. apply andb_prop in Hv. destruct Hv as [Hok Hv].
  rewrite (seen_after_cons seen ev t w) in Hr |- *. cbn [world_after fold_left].
  apply IH; [|exact Hv | exact Hr].
  apply world_step; [exact Hw | exact Hok|].
  exact (unknown_incl _ _ _ (seen_after_incl t _) Hr).
Qed.

Lemma init_world : (forall m, In m masters -> True) -> known [g] (b_parent g) = false ->
  world_good (map (init_node g) masters) [g].
Proof.
  intros _ Hk. constructor.
  - cbn. repeat split; try reflexivity; exact Hg.
  - left. reflexivity.
  - intros d. reflexivity.
  - exact Hk.
  - rewrite map_map. cbn. apply map_id.
  - intros i nd Hn. apply nth_error_In in Hn. apply in_map_iff in Hn. destruct Hn as [m [<- _]].
    split; [apply init_good; assumption|]. cbn. split; [intros x Hx; exact Hx|]. split; [left; reflexivity | intros x Hx _; exact Hx].
  - intros x [<-|[]]. left. reflexivity.
Qed.

Theorem world_prefix pre post : valid_run_b true c byz (map (init_node g) masters) [g] (pre ++ post) = true ->
  known (seen_after [g] (pre ++ post)) (b_parent g) = false ->
  world_good (world_after (map (init_node g) masters) pre) (seen_after [g] pre) /\
  valid_run_b true c byz (world_after (map (init_node g) masters) pre) (seen_after [g] pre) post = true /\
  incl (seen_after [g] pre) (seen_after [g] (pre ++ post)).
Proof.
  intros Hv Hr. rewrite valid_run_app in Hv. apply andb_prop in Hv. destruct Hv as [Hv1 Hv2].
  assert (Hincl : incl (seen_after [g] pre) (seen_after [g] (pre ++ post))) by (rewrite seen_after_app; apply seen_after_incl).
  split; [|split; [exact Hv2 | exact Hincl]].
  apply world_run; [apply init_world; [tauto|] | exact Hv1 |].
  - exact (unknown_incl _ _ _ (seen_after_incl (pre ++ post) [g]) Hr).
  - exact (unknown_incl _ _ _ Hincl Hr).
Qed.
End World.
