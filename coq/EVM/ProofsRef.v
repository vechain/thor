(* EVM/ProofsRef.v — the interpreter model refines the independent reference semantics of RefSpec.v: for every program, state
   and amount of fuel, a finished run of Model.run is a run of the reference (same result class, return data, gas left, world),
   or the reference is silent because the run left the fragment. *)
From Coq Require Import ZArith List Bool Lia.
From Verif Require Import EVM.Word EVM.ProofsALU EVM.Model EVM.ProofsRun EVM.GasSpec EVM.ProofsGas EVM.RefSpec.
Import ListNotations.
Open Scope Z_scope.

Definition BOUND : Z := 1099511627744.

Lemma dropz_0 {A} (l : list A) : dropz 0 l = l.
Proof. destruct l; reflexivity. Qed.
Lemma dropz_succ {A} (l : list A) : forall i x t, dropz i l = x :: t -> 0 <= i -> dropz (i + 1) l = t.
Proof.
  induction l as [|y l IH]; intros i x t H Hi; cbn [dropz] in *. discriminate.
  destruct (Z.leb_spec i 0).
  - assert (i = 0) by lia. subst i. injection H as _ Ht. cbn. rewrite <- Ht. apply dropz_0.
  - destruct (Z.leb_spec (i + 1) 0); [lia|]. replace (i + 1 - 1) with (i - 1 + 1) by lia. apply IH with x; [exact H|lia].
Qed.
Lemma nthz_dropz (l : list Z) : forall i x t, dropz i l = x :: t -> 0 <= i -> nthz l i = x /\ i < zlen l.
Proof.
  induction l as [|y l IH]; intros i x t H Hi; cbn [dropz nthz zlen] in *. discriminate.
  pose proof (zlen_nonneg l).
  destruct (Z.leb_spec i 0).
  - inversion H; subst. split; [reflexivity|lia].
  - destruct (IH (i - 1) x t H ltac:(lia)). split; [assumption|lia].
Qed.
Lemma dropz_nil_ge (l : list Z) : forall i, 0 <= i -> dropz i l = [] -> zlen l <= i.
Proof.
  induction l as [|y l IH]; intros i Hi H; cbn [dropz zlen] in *; [exact Hi|].
  destruct (Z.leb_spec i 0); [discriminate|]. specialize (IH (i - 1) ltac:(lia) H). lia.
Qed.

(* d is an instruction position reachable from the instruction position p *)
Inductive ipos_from (code : list Z) (p : Z) : Z -> Prop :=
  | IF_here : ipos_from code p p
  | IF_next d : 0 <= p < zlen code -> ipos_from code (p + 1 + operand_len (nthz code p)) d -> ipos_from code p d.

Lemma instr_pos_from code p d : instr_pos code p -> ipos_from code p d -> instr_pos code d.
Proof. intros Hp H. induction H; [exact Hp|]. apply IHipos_from. apply IP_next; assumption. Qed.
Lemma ipos_from_trans code p q d : ipos_from code p q -> ipos_from code q d -> ipos_from code p d.
Proof. intros H1 H2. induction H1; [exact H2|]. apply IF_next; auto. Qed.
Lemma instr_pos_is_from code d : instr_pos code d -> ipos_from code 0 d.
Proof.
  induction 1. apply IF_here. eapply ipos_from_trans; [exact IHinstr_pos|]. apply IF_next; [assumption|apply IF_here].
Qed.
Lemma operand_len_nonneg b : 0 <= operand_len b.
Proof. unfold operand_len. destruct ((96 <=? b) && (b <=? 127)) eqn:E; [|lia]. apply andb_prop in E. destruct E as [E _]. apply Z.leb_le in E. lia. Qed.
Lemma ipos_from_ge code p d : ipos_from code p d -> p <= d.
Proof. induction 1; [lia|]. pose proof (operand_len_nonneg (nthz code p)). lia. Qed.
Lemma ipos_from_skip code p d : ipos_from code p d -> p < d -> 0 <= p < zlen code ->
  p + 1 + operand_len (nthz code p) <= d.
Proof. intros H Hlt Hp. inversion H; subst; [lia|]. apply ipos_from_ge in H1. exact H1. Qed.

(* the scan of the model: suf = code from position i on; the next instruction starts at i + skip *)
Lemma is_code_from_spec code : forall suf i skip d, dropz i code = suf -> 0 <= i -> 0 <= skip -> i <= d ->
  (suf = [] -> zlen code <= i) ->
  is_code_from suf skip i d = true <-> (d < zlen code /\ ipos_from code (i + skip) d).
Proof.
  intros suf. induction suf as [|b suf IH]; intros i skip d Hd Hi Hs Hid Hnil.
  - cbn. split; [discriminate|]. intros (H & _). specialize (Hnil eq_refl). lia.
  - destruct (nthz_dropz code i b suf Hd Hi) as (Hb & Hlen).
    pose proof (dropz_succ code i b suf Hd Hi) as Hd'.
    assert (Hnil' : suf = [] -> zlen code <= i + 1).
    { intros ->. apply dropz_nil_ge; [lia|exact Hd']. }
    cbn [is_code_from].
    destruct (Z.eqb_spec i d) as [->|Hne].
    + (* at the target *)
      split.
      * intros H. apply Z.eqb_eq in H. subst skip. rewrite Z.add_0_r. split; [lia|apply IF_here].
      * intros (_ & H). apply Z.eqb_eq. apply ipos_from_ge in H. lia.
    + destruct (Z.ltb_spec 0 skip).
      * rewrite (IH (i + 1) (skip - 1) d Hd' ltac:(lia) ltac:(lia) ltac:(lia) Hnil').
        replace (i + 1 + (skip - 1)) with (i + skip) by lia. reflexivity.
      * assert (skip = 0) by lia. subst skip. rewrite Z.add_0_r.
        change (if (96 <=? b) && (b <=? 127) then b - 95 else 0) with (operand_len b).
        rewrite (IH (i + 1) (operand_len b) d Hd' ltac:(lia) (operand_len_nonneg b) ltac:(lia) Hnil').
        rewrite <- Hb. split.
        -- intros (H1 & H2). split; [exact H1|]. apply IF_next; [lia|exact H2].
        -- intros (H1 & H2). split; [exact H1|]. inversion H2; subst; [lia|assumption].
Qed.

Lemma valid_jumpdest_ref cx d : c_codelen cx = zlen (c_code cx) -> zlen (c_code cx) < W64 -> 0 <= d ->
  valid_jumpdest cx d = true <-> R_valid_dest (c_code cx) d.
Proof.
  intros Hlen Hb Hd. unfold valid_jumpdest, R_valid_dest. rewrite Hlen.
  assert (Hspec : is_code_from (c_code cx) 0 0 d = true <-> d < zlen (c_code cx) /\ ipos_from (c_code cx) (0 + 0) d).
  { apply is_code_from_spec; try lia. destruct (c_code cx); [reflexivity|reflexivity]. intros ->. cbn. lia. }
  split.
  - intros H. apply andb_prop in H. destruct H as (H & H4). apply andb_prop in H. destruct H as (H & H3).
    apply andb_prop in H. destruct H as (H1 & H2). apply Z.ltb_lt in H2. apply Z.eqb_eq in H3.
    apply Hspec in H4. destruct H4 as (_ & H4). repeat split; try lia; try assumption.
    apply (instr_pos_from _ 0); [apply IP_start|exact H4].
  - intros (H1 & H2 & H3). apply instr_pos_is_from in H1.
    assert (H4 : is_code_from (c_code cx) 0 0 d = true) by (apply Hspec; split; [lia|exact H1]).
    rewrite H4. rewrite H3. replace (d <? W64) with true by (symmetry; apply Z.ltb_lt; lia).
    replace (d <? zlen (c_code cx)) with true by (symmetry; apply Z.ltb_lt; lia). reflexivity.
Qed.

(* 34359738367 = BOUND / 32 is the largest word count the memory bound admits; up to it C_mem stays below 2^62
   (4611686018427387904), so the sums of the gas table stay below 2^64 and oadd never overflows *)
Lemma mem_cost_small w : 0 <= w <= 34359738367 -> 0 <= mem_cost w < 4611686018427387904.
Proof.
  intros H. unfold mem_cost. rewrite Z.pow_2_r.
  assert (0 <= w * w <= 34359738367 * 34359738367) by nia.
  assert (0 <= w * w / 512 <= 34359738367 * 34359738367 / 512).
  { split. apply Z.div_pos; lia. apply Z.div_le_mono; lia. }
  assert (E : 34359738367 * 34359738367 / 512 = 2305843009079476224) by reflexivity. lia.
Qed.

Lemma to_words_bound need : 0 <= need -> (to_words need * 32 <= BOUND <-> need <= BOUND).
Proof.
  intros H. unfold to_words, BOUND.
  pose proof (Z.div_mod (need + 31) 32 ltac:(lia)). pose proof (Z.mod_pos_bound (need + 31) 32 ltac:(lia)). lia.
Qed.

(* what the model computes for an access [off, off+len), against the specification *)
Lemma mem_facts ow off len (calc : option Z) :
  0 <= ow -> 32 * ow <= BOUND -> 0 <= off -> 0 <= len ->
  calc = calc_mem off len ->
  (R_addressable off len ->
     exists need, calc = Some need /\ (W64 <=? to_words need * 32) = false /\
       mem_gas (32 * ow) (to_words need * 32) = Some (expansion_cost ow (words_after ow off len)) /\
       Z.max (32 * ow) (to_words need * 32) = 32 * words_after ow off len /\
       0 <= words_after ow off len <= 34359738367 /\ ow <= words_after ow off len) /\
  (~ R_addressable off len ->
     calc = None \/ exists need, calc = Some need /\
       ((W64 <=? to_words need * 32) = true \/ mem_gas (32 * ow) (to_words need * 32) = None)).
Proof.
  intros How Hb Hoff Hlen Hc. unfold calc_mem in Hc. unfold R_addressable. fold BOUND.
  assert (HW : W64 = 18446744073709551616) by reflexivity.
  split.
  - intros Ha. destruct (Z.eq_dec len 0) as [->|Hl0].
    + exists 0. rewrite Hc. change (W64 <=? 0) with false. cbn [Z.eqb].
      change (to_words 0 * 32) with 0. change (W64 <=? 0) with false.
      unfold words_after. cbn [Z.eqb]. repeat split; try reflexivity; try (unfold BOUND in *; lia).
      unfold mem_gas. cbn [Z.eqb]. unfold expansion_cost. f_equal. lia.
    + destruct Ha as [?|Ha]; [lia|].
      exists (off + len). rewrite Hc.
      destruct (Z.leb_spec W64 len); [unfold BOUND in *; lia|]. destruct (Z.eqb_spec len 0); [lia|].
      destruct (Z.leb_spec W64 off); [unfold BOUND in *; lia|]. destruct (Z.leb_spec W64 (off + len)); [unfold BOUND in *; lia|].
      assert (Hn : to_words (off + len) * 32 <= BOUND) by (apply to_words_bound; lia).
      rewrite words_after_to_words by lia. split; [reflexivity|]. split. { apply Z.leb_gt. unfold BOUND in *. lia. }
      split. { apply mem_gas_matches_spec; try lia. exact Hn. }
      pose proof (to_words_nonneg (off + len)). unfold BOUND in *. repeat split; try lia.
  - intros Hna. assert (Hl0 : len <> 0) by lia. assert (Hbig : BOUND < off + len) by lia.
    rewrite Hc. destruct (Z.leb_spec W64 len); [left; reflexivity|]. destruct (Z.eqb_spec len 0); [lia|].
    destruct (Z.leb_spec W64 off); [left; reflexivity|]. destruct (Z.leb_spec W64 (off + len)); [left; reflexivity|].
    right. exists (off + len). split; [reflexivity|].
    assert (Hn : BOUND < to_words (off + len) * 32). { pose proof (to_words_bound (off + len) ltac:(lia)). lia. }
    destruct (Z.leb_spec W64 (to_words (off + len) * 32)); [left; reflexivity|]. right.
    unfold mem_gas. destruct (Z.eqb_spec (to_words (off + len) * 32) 0); [unfold BOUND in *; lia|].
    fold BOUND. destruct (Z.ltb_spec BOUND (to_words (off + len) * 32)); [reflexivity|lia].
Qed.

Definition cwf (cx : ctx) : Prop := c_codelen cx = zlen (c_code cx) /\ zlen (c_code cx) < W64.
Definition rinv (s : mstate) : Prop :=
  stack_ok (s_stack s) /\ (exists ow, 0 <= ow /\ s_msize s = 32 * ow /\ 32 * ow <= BOUND) /\ 0 <= s_gas s.

Lemma mem_req_calc i st : in_fragment i = true ->
  mem_req i st = calc_mem (fst (R_range i st)) (snd (R_range i st)).
Proof. destruct i; try discriminate; reflexivity. Qed.

Definition is_sstore (i : instr) : bool := match i with I_SSTORE => true | _ => false end.
Lemma pre_frag_eq E cx s i : cwf cx -> decode_at (e_fork E) (fetch cx s) = Some i -> in_fragment i = true ->
  pre E cx s =
  (let st := s_stack s in
   if zlen st <? R_delta i then P_halt (fail E_underflow s)
   else if 1024 <? zlen st + R_alpha i - R_delta i then P_halt (fail E_overflow s)
   else if c_static cx && is_sstore i then P_halt (fail E_write s)
   else match mem_req i st with
        | None => P_halt (fail E_gasoverflow s)
        | Some need =>
            let newsize := to_words need * 32 in
            if W64 <=? newsize then P_halt (fail E_gasoverflow s)
            else match gas_cost cx s i newsize with
                 | None => P_halt (fail E_oog s)
                 | Some (cost, cg, w') =>
                     if s_gas s <? cost then P_halt (fail E_oog s)
                     else
                       let grow := (0 <? newsize) && (s_msize s <? newsize) in
                       let mem' := if grow then s_mem s ++ zeros (newsize - s_msize s) else s_mem s in
                       let msize' := if grow then newsize else s_msize s in
                       P_ok i (mkSt (s_pc s) st mem' msize' (s_gas s - cost) (s_ret s) w' (s_cc s)) cg
                 end
        end).
Proof.
  intros (Hlen & _) Hdec Hfrag. unfold pre. rewrite Hlen. fold (fetch cx s). rewrite Hdec.
  destruct i; try discriminate; cbn [stack_req R_delta R_alpha writes unsupported is_sstore orb andb];
    rewrite ?andb_false_r; reflexivity.
Qed.

Definition ref_w1 (cx : ctx) (s : mstate) (i : instr) : world :=
  match i with
  | I_SSTORE =>
      if negb (sload (s_world s) (c_addr cx) (nthz (s_stack s) 0) =? 0) && (nthz (s_stack s) 1 =? 0)
      then add_refund (s_world s) 15000 else s_world s
  | _ => s_world s
  end.

(* the state in which the reference executes a fragment instruction: memory grown, gas charged, SSTORE's refund added *)
Definition frag_s1 (cx : ctx) (s : mstate) (i : instr) : mstate :=
  mkSt (s_pc s) (s_stack s) (R_mem s i) (Z.max (s_msize s) (32 * R_words s i)) (s_gas s - R_cost cx s i) (s_ret s)
       (ref_w1 cx s i) (s_cc s).

Lemma exp_bytes_model e : (bit_len e + 7) / 8 = exp_bytes e.
Proof.
  unfold bit_len, exp_bytes. destruct (Z.leb_spec e 0); [reflexivity|].
  replace (Z.log2 e + 1 + 7) with (Z.log2 e + 1 * 8) by lia. rewrite Z.div_add by lia. reflexivity.
Qed.

Lemma gas_cost_frag cx s i ow newsize :
  in_fragment i = true -> stack_ok (s_stack s) -> s_msize s = 32 * ow -> 0 <= ow <= R_words s i -> R_words s i <= 34359738367 ->
  mem_gas (s_msize s) newsize = Some (expansion_cost ow (R_words s i)) ->
  gas_cost cx s i newsize = Some (R_cost cx s i, 0, ref_w1 cx s i).
Proof.
  intros Hfrag Hst Hms How Hw Hmg. unfold R_cost. rewrite Hms, (Z.mul_comm 32 ow), Z.div_mul by lia.
  pose proof (mem_cost_small ow ltac:(lia)) as B1. pose proof (mem_cost_small (R_words s i) ltac:(lia)) as B2.
  pose proof (ProofsGas.mem_cost_monotone ow (R_words s i) ltac:(lia)) as B3.
  assert (HW : W64 = 18446744073709551616) by reflexivity.
  set (x := expansion_cost ow (R_words s i)) in *. assert (Hx : 0 <= x < 4611686018427387904) by (unfold x, expansion_cost; lia).
  assert (Hadd : forall c, 0 <= c <= 1000 -> oadd (Some x) c = Some (x + c)).
  { intros c Hc. unfold oadd. destruct (Z.leb_spec W64 (x + c)); [lia|reflexivity]. }
  assert (Hx0 : R_range i (s_stack s) = (0, 0) -> x = 0).
  { intros E. unfold x, R_words. rewrite E. unfold words_after. cbn [Z.eqb].
    rewrite Hms, (Z.mul_comm 32 ow), Z.div_mul by lia. unfold expansion_cost. lia. }
  rewrite Hms in Hmg.
  destruct i; try discriminate; cbn [gas_cost R_instr_cost ref_w1]; rewrite ?Hms, ?Hmg, ?Hadd by lia;
    try (rewrite (Hx0 eq_refl));
    unfold G_zero, G_base, G_verylow, G_low, G_mid, G_high, G_jumpdest, G_sload;
    try (rewrite ?Z.add_0_r, ?Z.add_0_l; reflexivity); try (rewrite (Z.add_comm _ x); reflexivity).
  - (* ALU *) destruct a; cbn [alu_gas]; unfold G_verylow, G_low, G_mid, G_exp, G_expbyte; try (rewrite ?Z.add_0_r; reflexivity).
    rewrite exp_bytes_model.
    replace (10 + 50 * exp_bytes (nthz (s_stack s) 1) + 0) with (10 + exp_bytes (nthz (s_stack s) 1) * 50) by lia. reflexivity.
  - (* SSTORE *)
    unfold G_sset, G_sreset.
    destruct (sload (s_world s) (c_addr cx) (nthz (s_stack s) 0) =? 0) eqn:Ec; destruct (nthz (s_stack s) 1 =? 0) eqn:Ey;
      cbn [negb andb]; rewrite ?Z.add_0_r; reflexivity.
Qed.

Lemma range_nonneg i st : stack_ok st -> 0 <= fst (R_range i st) /\ 0 <= snd (R_range i st).
Proof.
  intros H. pose proof (nthz_ok st H 0) as [? _]. pose proof (nthz_ok st H 1) as [? _].
  destruct i; cbn [R_range fst snd]; lia.
Qed.

(* the first five disjuncts of Z: everything that is decided before the instruction executes *)
Definition pre_exc (cx : ctx) (s : mstate) (i : instr) : Prop :=
  let st := s_stack s in
  zlen st < R_delta i \/ 1024 < zlen st - R_delta i + R_alpha i \/ (c_static cx = true /\ i = I_SSTORE) \/
  ~ R_addressable (fst (R_range i st)) (snd (R_range i st)) \/ s_gas s < R_cost cx s i.

Lemma frag_pre E cx s i : cwf cx -> rinv s -> decode_at (e_fork E) (fetch cx s) = Some i -> in_fragment i = true ->
  (pre_exc cx s i /\ exists e, pre E cx s = P_halt (fail e s)) \/
  (~ pre_exc cx s i /\
   pre E cx s = P_ok i (frag_s1 cx s i) 0 /\
   32 * R_words s i <= BOUND /\ 0 <= R_words s i).
Proof.
  intros Hc (Hst & (ow & How & Hms & Hb) & Hg) Hdec Hfrag.
  rewrite (pre_frag_eq E cx s i Hc Hdec Hfrag). cbv zeta. unfold pre_exc.
  destruct (Z.ltb_spec (zlen (s_stack s)) (R_delta i)). { left. split; [left; assumption|eexists; reflexivity]. }
  destruct (Z.ltb_spec 1024 (zlen (s_stack s) + R_alpha i - R_delta i)). { left. split; [right; left; lia|eexists; reflexivity]. }
  destruct (c_static cx && is_sstore i) eqn:Est.
  { left. apply andb_prop in Est. destruct Est as (E1 & E2). split; [|eexists; reflexivity].
    right; right; left. split; [exact E1|]. destruct i; try discriminate; reflexivity. }
  assert (Hnst : ~ (c_static cx = true /\ i = I_SSTORE)).
  { intros (E1 & ->). rewrite E1 in Est. discriminate. }
  destruct (range_nonneg i (s_stack s) Hst) as (Hoff & Hlen).
  set (off := fst (R_range i (s_stack s))) in *. set (len := snd (R_range i (s_stack s))) in *.
  assert (Hrw : R_words s i = words_after ow off len).
  { unfold R_words, off, len. destruct (R_range i (s_stack s)) as [o l]. cbn [fst snd].
    rewrite Hms, (Z.mul_comm 32 ow), Z.div_mul by lia. reflexivity. }
  destruct (mem_facts ow off len (mem_req i (s_stack s)) How Hb Hoff Hlen (mem_req_calc i (s_stack s) Hfrag)) as (Hyes & Hno).
  assert (Hdec_a : R_addressable off len \/ ~ R_addressable off len).
  { unfold R_addressable. destruct (Z.eq_dec len 0); [left; left; assumption|].
    destruct (Z_le_dec (off + len) 1099511627744); [left; right; assumption|right; intros [?|?]; lia]. }
  destruct Hdec_a as [Ha|Hna].
  - destruct (Hyes Ha) as (need & Ecalc & Ew64 & Emg & Emax & Hwb & Hge).
    rewrite Ecalc, Ew64. rewrite <- Hms in Emg. rewrite <- Hrw in Emg.
    rewrite (gas_cost_frag cx s i ow (to_words need * 32) Hfrag Hst Hms ltac:(lia) ltac:(lia) Emg).
    destruct (Z.ltb_spec (s_gas s) (R_cost cx s i)).
    { left. split; [right; right; right; right; assumption|eexists; reflexivity]. }
    right. split. { intros [?|[?|[?|[?|?]]]]; try lia; contradiction. }
    split; [|rewrite Hrw; unfold BOUND; lia].
    unfold frag_s1, R_mem. rewrite Hrw, <- Emax, Hms.
    destruct (Z_lt_dec (32 * ow) (to_words need * 32)).
    + assert (E1 : (32 * ow <? to_words need * 32) = true) by (apply Z.ltb_lt; lia).
      assert (E2 : (0 <? to_words need * 32) = true) by (apply Z.ltb_lt; lia).
      rewrite !Z.max_r by lia. rewrite ?E1, ?E2. reflexivity.
    + assert (E1 : (32 * ow <? to_words need * 32) = false) by (apply Z.ltb_ge; lia).
      assert (E3 : (32 * ow <? 32 * ow) = false) by (apply Z.ltb_ge; lia).
      rewrite !Z.max_l by lia. rewrite ?E1, ?E3, ?andb_false_r. reflexivity.
  - left. split; [right; right; right; left; exact Hna|].
    destruct (Hno Hna) as [Em|(need & Em & [E2|E2])].
    + rewrite Em. eexists; reflexivity.
    + rewrite Em, E2. eexists; reflexivity.
    + rewrite Em. destruct (W64 <=? to_words need * 32); [eexists; reflexivity|].
      assert (Hgc : gas_cost cx s i (to_words need * 32) = None).
      { rewrite <- Hms in E2. destruct i; try discriminate; cbn [gas_cost]; rewrite ?E2; try reflexivity;
          exfalso; apply Hna; left; reflexivity. }
      rewrite Hgc. eexists; reflexivity.
Qed.

Lemma exc_split cx s i : R_exceptional cx s i <->
  pre_exc cx s i \/ (i = I_JUMP /\ ~ R_valid_dest (c_code cx) (nthz (s_stack s) 0)) \/
  (i = I_JUMPI /\ nthz (s_stack s) 1 <> 0 /\ ~ R_valid_dest (c_code cx) (nthz (s_stack s) 0)).
Proof. unfold R_exceptional, pre_exc. cbv zeta. tauto. Qed.

Lemma alu_arity_delta op : alu_arity op = R_delta (I_ALU op).
Proof. destruct op; reflexivity. Qed.

Lemma sload_sstore w a k v a' k' :
  sload (sstore w a k v) a' k' = if (a' =? a) && (k' =? k) then v else sload w a' k'.
Proof.
  unfold sload, sstore, set_store. cbn [w_store sload_l].
  rewrite (Z.eqb_sym a a'), (Z.eqb_sym k k'). reflexivity.
Qed.

Ltac eff_start := unfold R_effect; cbv zeta; cbn [s_gas s_msize s_ret s_cc s_pc s_stack s_mem s_world frag_s1 upd].

Lemma frag_exec E cx s i : cwf cx -> rinv s -> in_fragment i = true -> ~ pre_exc cx s i ->
  32 * R_words s i <= BOUND -> 0 <= R_words s i ->
  (R_exceptional cx s i /\ exists e, exec_plain E cx i (frag_s1 cx s i) = fail e (frag_s1 cx s i)) \/
  (~ R_exceptional cx s i /\ exists o data,
     ((i = I_STOP /\ o = O_ok /\ data = []) \/
      (i = I_RETURN /\ o = O_ok /\ data = mslice (R_mem s i) (nthz (s_stack s) 0) (nthz (s_stack s) 1)) \/
      (i = I_REVERT /\ o = O_revert /\ data = mslice (R_mem s i) (nthz (s_stack s) 0) (nthz (s_stack s) 1))) /\
     exec_plain E cx i (frag_s1 cx s i) = S_halt (mkRes o data (s_gas s - R_cost cx s i) (s_world s) (s_cc s))) \/
  (~ R_exceptional cx s i /\ i <> I_STOP /\ i <> I_RETURN /\ i <> I_REVERT /\
   exists s2, exec_plain E cx i (frag_s1 cx s i) = S_next s2 /\ R_effect E cx s i s2 /\ rinv s2).
Proof.
  intros (Hclen & Hcb) (Hst & (ow & How & Hms & Hb) & Hg) Hfrag Hnpre Hwb Hw0.
  assert (Hgas : R_cost cx s i <= s_gas s). { unfold pre_exc in Hnpre. cbv zeta in Hnpre. lia. }
  assert (Hnj : i <> I_JUMP -> i <> I_JUMPI -> ~ R_exceptional cx s i).
  { intros N1 N2 Hx. apply exc_split in Hx. destruct Hx as [?|[(?&_)|(?&_)]]; contradiction. }
  pose proof (nthz_ok _ Hst) as Hn. pose proof (dropz_ok _ Hst) as Hd.
  assert (Hinv2 : forall pc' st' mem' w', stack_ok st' ->
            rinv (mkSt pc' st' mem' (Z.max (s_msize s) (32 * R_words s i)) (s_gas s - R_cost cx s i) (s_ret s) w' (s_cc s))).
  { intros. unfold rinv. cbn [s_stack s_msize s_gas]. split; [assumption|]. split; [|lia].
    exists (Z.max ow (R_words s i)). rewrite Hms. unfold BOUND in *. lia. }
  pose proof (valid_jumpdest_ref cx (nthz (s_stack s) 0) Hclen Hcb (proj1 (Hn 0))) as Hv.
  (* every instruction that only replaces the stack (and steps the pc) goes the same way *)
  destruct i; try discriminate;
    try (right; right; split; [apply Hnj; discriminate|]; repeat split; try discriminate;
         eexists; split; [reflexivity|]; split;
         [eff_start; unfold pushw; rewrite ?wrap_mod, ?Hclen; repeat split; reflexivity
         |apply Hinv2; first [apply pushw_ok, Hd|apply pushw_ok, Hst|apply swap_ok, Hst|apply Hd|apply Hst]]; fail).
  - (* STOP *) right; left. split; [apply Hnj; discriminate|]. exists O_ok, []. split; [left; auto|reflexivity].
  - (* ALU *) right; right. split; [apply Hnj; discriminate|]. repeat split; try discriminate.
    eexists. split; [reflexivity|]. split.
    + eff_start. unfold pushw. rewrite wrap_mod, alu_matches_math_lemma by apply Hn. rewrite alu_arity_delta.
      repeat split; reflexivity.
    + apply Hinv2; apply pushw_ok, Hd.
  - (* MSTORE8 *) right; right. split; [apply Hnj; discriminate|]. repeat split; try discriminate.
    eexists. split; [reflexivity|]. split.
    + eff_start. change 255 with (Z.ones 8). rewrite Z.land_ones by lia. repeat split; reflexivity.
    + apply Hinv2; apply Hd.
  - (* SSTORE *) right; right. split; [apply Hnj; discriminate|]. repeat split; try discriminate.
    eexists. split; [reflexivity|]. split.
    + eff_start. cbn [ref_w1]. repeat split; try reflexivity; try (destruct (negb _ && _); reflexivity).
      * intros a' k'. rewrite sload_sstore. destruct (negb _ && _); reflexivity.
      * rewrite andb_comm.
        destruct ((nthz (s_stack s) 1 =? 0) && negb (sload (s_world s) (c_addr cx) (nthz (s_stack s) 0) =? 0));
          cbn; unfold R_sclear; lia.
    + apply Hinv2; apply Hd.
  - (* JUMP *)
    cbn [exec_plain]. cbn [frag_s1 s_stack].
    destruct (valid_jumpdest cx (nthz (s_stack s) 0)) eqn:Ev.
    + right; right. assert (Hvd : R_valid_dest (c_code cx) (nthz (s_stack s) 0)) by (apply Hv; reflexivity).
      split. { intros Hx. apply exc_split in Hx. destruct Hx as [?|[(_&?)|(?&_)]]; [contradiction|contradiction|discriminate]. }
      repeat split; try discriminate. eexists. split; [reflexivity|]. split.
      * eff_start. repeat split; reflexivity.
      * apply Hinv2; apply Hd.
    + left. split. { apply exc_split. right; left. split; [reflexivity|]. intros Hvd. apply Hv in Hvd. congruence. }
      eexists; reflexivity.
  - (* JUMPI *)
    cbn [exec_plain]. cbn [frag_s1 s_stack].
    destruct (Z.eqb_spec (nthz (s_stack s) 1) 0) as [Ez|Enz]; cbn [negb].
    + right; right.
      split. { intros Hx. apply exc_split in Hx. destruct Hx as [?|[(?&_)|(_&?&_)]]; [contradiction|discriminate|contradiction]. }
      repeat split; try discriminate. eexists. split; [reflexivity|]. split.
      * eff_start. rewrite Ez. cbn [Z.eqb]. repeat split; reflexivity.
      * apply Hinv2; apply Hd.
    + destruct (valid_jumpdest cx (nthz (s_stack s) 0)) eqn:Ev.
      * right; right. assert (Hvd : R_valid_dest (c_code cx) (nthz (s_stack s) 0)) by (apply Hv; reflexivity).
        split. { intros Hx. apply exc_split in Hx. destruct Hx as [?|[(?&_)|(_&_&?)]]; [contradiction|discriminate|contradiction]. }
        repeat split; try discriminate. eexists. split; [reflexivity|]. split.
        -- eff_start. destruct (Z.eqb_spec (nthz (s_stack s) 1) 0); [contradiction|]. repeat split; reflexivity.
        -- apply Hinv2; apply Hd.
      * left. split. { apply exc_split. right; right. repeat split; try assumption. intros Hvd. apply Hv in Hvd. congruence. }
        eexists; reflexivity.
  - (* MSIZE *) right; right. split; [apply Hnj; discriminate|]. repeat split; try discriminate.
    eexists. split; [reflexivity|]. split.
    + eff_start. unfold pushw. rewrite wrap_mod.
      assert (Ew : R_words s I_MSIZE = ow).
      { unfold R_words. cbn [R_range]. unfold words_after. cbn [Z.eqb]. rewrite Hms, (Z.mul_comm 32 ow), Z.div_mul by lia. reflexivity. }
      rewrite Ew, Hms, Z.max_id. repeat split; try reflexivity.
    + apply Hinv2; apply pushw_ok, Hst.
  - (* JUMPDEST *) right; right. split; [apply Hnj; discriminate|]. repeat split; try discriminate.
    eexists. split; [reflexivity|]. split; [eff_start; cbn [R_delta]; rewrite dropz_0; repeat split; reflexivity|apply Hinv2; apply Hst].
  - (* RETURN *) right; left. split; [apply Hnj; discriminate|]. eexists O_ok, _. split; [right; left; auto|reflexivity].
  - (* REVERT *) right; left. split; [apply Hnj; discriminate|]. eexists O_revert, _. split; [right; right; auto|reflexivity].
Qed.

Definition res_matches (r : fres) (rr : rres) : Prop :=
  match rr with
  | RR_outside _ _ => True
  | RR_fail => exists e, r_out r = O_err e
  | RR_done o d g w => r_out r = o /\ r_data r = d /\ r_gas r = g /\ r_world r = w
  end.

Lemma nthz_in (l : list Z) : forall i, In (nthz l i) (0 :: l).
Proof.
  induction l as [|x l IH]; intros i; cbn [nthz]. left; reflexivity.
  destruct (i <=? 0). right; left; reflexivity. destruct (IH (i - 1)) as [E|Hin]; [left; exact E|right; right; exact Hin].
Qed.
Lemma fetch_in cx s : In (fetch cx s) (0 :: c_code cx).
Proof. unfold fetch. destruct (s_pc s <? zlen (c_code cx)); [apply nthz_in|left; reflexivity]. Qed.

(* the reference is silent (RR_outside) only if the code contains a byte that decodes to an instruction outside the fragment *)
Definition leaves_fragment (E : env) (cx : ctx) : Prop :=
  exists b i, In b (0 :: c_code cx) /\ decode_at (e_fork E) b = Some i /\ in_fragment i = false.

Theorem run_refines_reference fuel : forall E cx s, cwf cx -> rinv s -> r_out (run fuel E cx s) <> O_fuel ->
  exists rr, ref_run E cx s rr /\ res_matches (run fuel E cx s) rr /\ (forall pc i, rr = RR_outside pc i -> leaves_fragment E cx).
Proof.
  induction fuel as [|f IH]; intros E cx s Hc Hinv Hnf. { cbn in Hnf. congruence. }
  cbn [run] in *.
  destruct (decode_at (e_fork E) (fetch cx s)) as [i|] eqn:Hdec.
  2:{ (* invalid opcode *)
      assert (Hpre : pre E cx s = P_halt (fail E_invalid s)).
      { unfold pre. rewrite (proj1 Hc). fold (fetch cx s). rewrite Hdec. reflexivity. }
      exists RR_fail. split; [apply RRun_stop, RS_invalid; exact Hdec|]. split; [|discriminate].
      unfold step. rewrite Hpre. cbn. eexists; reflexivity. }
  destruct (in_fragment i) eqn:Hfrag.
  2:{ exists (RR_outside (s_pc s) i). split; [apply RRun_stop; eapply RS_outside; eassumption|]. split; [exact I|].
      intros _ _ _. exists (fetch cx s), i. split; [apply fetch_in|]. split; assumption. }
  destruct (frag_pre E cx s i Hc Hinv Hdec Hfrag) as [(Hexc & e & Hpre)|(Hnexc & Hpre & Hwb & Hw0)].
  - exists RR_fail. split.
    + apply RRun_stop. eapply RS_exc; [eassumption|assumption|]. apply exc_split. left; exact Hexc.
    + split; [|discriminate]. unfold step. rewrite Hpre. cbn. eexists; reflexivity.
  - assert (Hstep : forall runf, step runf E cx s = exec_plain E cx i (frag_s1 cx s i)).
    { intros runf. unfold step. rewrite Hpre. destruct i; try discriminate; reflexivity. }
    rewrite Hstep in *.
    destruct (frag_exec E cx s i Hc Hinv Hfrag Hnexc Hwb Hw0) as [(Hx & e & Hex)|[(Hnx & o & data & Hcase & Hex)|(Hnx & N1 & N2 & N3 & s2 & Hex & Heff & Hinv2)]].
    + exists RR_fail. split; [apply RRun_stop; eapply RS_exc; eassumption|]. split; [|discriminate]. rewrite Hex. cbn. eexists. reflexivity.
    + exists (RR_done o data (s_gas s - R_cost cx s i) (s_world s)). split.
      * apply RRun_stop. eapply RS_halt; eassumption.
      * split; [|discriminate]. rewrite Hex. cbn. repeat split; reflexivity.
    + rewrite Hex in *. destruct (IH E cx s2 Hc Hinv2 Hnf) as (rr & Hrun & Hm).
      exists rr. split; [|exact Hm]. eapply RRun_step; [|exact Hrun]. eapply RS_ok; eassumption.
Qed.

Lemma initial_rinv gas w cc : 0 <= gas -> rinv (mkSt 0 [] [] 0 gas [] w cc).
Proof. intros. unfold rinv. cbn. split; [constructor|]. split; [exists 0; unfold BOUND; lia|lia]. Qed.

(* what the caller of a frame observes for a reference result: success keeps the frame's world; REVERT keeps data and gas but
   restores the entry world w; an exceptional halt yields no data, no gas and the entry world *)
Definition call_matches (w : world) (r : fres) (rr : rres) : Prop :=
  match rr with
  | RR_outside _ _ => True
  | RR_fail => (exists e, r_out r = O_err e) /\ r_data r = [] /\ r_gas r = 0 /\ r_world r = w
  | RR_done O_ok d g w' => r_out r = O_ok /\ r_data r = d /\ r_gas r = g /\ r_world r = w'
  | RR_done O_revert d g _ => r_out r = O_revert /\ r_data r = d /\ r_gas r = g /\ r_world r = w
  | RR_done _ _ _ _ => True
  end.

Theorem call_top_refines_reference fuel E static to v input gas w :
  let w1 := transfer w (e_origin E) to v in
  let code := code_of w1 to in
  let cx0 := mkCtx to (e_origin E) v code (zlen code) input static 1 in
  let s0 := mkSt 0 [] [] 0 gas [] w1 0 in
  (negb (v =? 0) && (balance w (e_origin E) <? v)) = false ->        (* the origin can pay the value *)
  precompile E to = false ->
  (negb (exists_acct w to) && (v =? 0)) = false ->                    (* not the "no such account" shortcut *)
  code <> [] -> zlen code < W64 -> 0 <= gas ->
  r_out (call_top fuel E static to v input gas w) <> O_fuel ->
  exists rr, ref_run E cx0 s0 rr /\ call_matches w (call_top fuel E static to v input gas w) rr /\
             (forall pc i, rr = RR_outside pc i -> leaves_fragment E cx0).
Proof.
  cbv zeta. intros Hbal Hpre Hex Hcode Hlen Hgas Hnf.
  unfold call_top, do_call in *. change (1024 <? 0) with false in *. cbv iota in *.
  rewrite Hbal, Hpre in *. cbn [andb] in *. rewrite Hex in *.
  set (w1 := transfer w (e_origin E) to v) in *.
  destruct (code_of w1 to) as [|b0 code'] eqn:Ecode; [congruence|].
  change (0 + 1) with 1 in *.
  set (cx0 := mkCtx to (e_origin E) v (b0 :: code') (zlen (b0 :: code')) input static 1) in *.
  set (s0 := mkSt 0 [] [] 0 gas [] w1 0) in *.
  assert (Hc : cwf cx0) by (split; [reflexivity|exact Hlen]).
  assert (Hnf0 : r_out (run fuel E cx0 s0) <> O_fuel).
  { intros Hf. rewrite Hf in Hnf. apply Hnf. reflexivity. }
  destruct (run_refines_reference fuel E cx0 s0 Hc (initial_rinv gas w1 0 Hgas) Hnf0) as (rr & Hrun & Hm & Hout).
  exists rr. split; [exact Hrun|]. split; [|exact Hout].
  destruct rr as [|pc i|o d g w']; cbn [res_matches call_matches] in *.
  - destruct Hm as (e & He). rewrite He. cbn. repeat split; try reflexivity. eexists; reflexivity.
  - exact I.
  - destruct Hm as (Ho & Hd & Hg & Hw). destruct o; try exact I.
    + rewrite Ho. repeat split; assumption.
    + rewrite Ho. cbn. repeat split; try assumption; reflexivity.
Qed.
