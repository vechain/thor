(* State/ProofsCommit.v — what Stage leaves in the accounts trie (staged_leaf_spec), and from it: a state re-opened on the
   committed root reads the old state back (reopen_reads_back_lemma), the explicit storage root (staged_sroot_lemma,
   named_storage_spec), the staged trie is again a legal, secure base (stage_base_ok, stage_secure), and two histories with
   the same content commit to the same consensus view (state_root_content_lemma, state_root_content_pre_lemma). *)
From Coq Require Import List NArith Bool Arith Lia.
From Verif Require Import Trie.Model Trie.Keys Trie.ProofsWf Trie.Theorems Trie.ProofsProj.
From Verif Require Import State.StackedMap State.Assoc State.ProofsSM State.Model State.ProofsJournal State.ProofsState State.ProofsReplay State.ProofsStage.
Import ListNotations.
Open Scope N_scope.

Definition with_sroot (x : account) (sr : option strie) : account :=
  mkAcc (a_bal x) (a_eng x) (a_bt x) (a_master x) (a_codehash x) sr.

Lemma is_empty_with_sroot x sr : is_empty (with_sroot x sr) = is_empty x.
Proof. reflexivity. Qed.

Section CM.
  Variable hk hs : N -> list nat.
  Variable trimkey : N -> bytes.
  Hypothesis hk_valid : forall a, vkey (hk a).
  Hypothesis hk_inj : forall a b, hk a = hk b -> a = b.
  Hypothesis hs_valid : forall k, vkey (hs k).
  Hypothesis hs_inj : forall a b, hs a = hs b -> a = b.

  Notation src := (src hk hs).

  (* ---- the leaf Stage writes for a changed record (State.Stage's loop body + saveAccount) ---- *)
  Definition staged_data (major minor : N) (c : changed) : account * ameta :=
    if negb (is_empty (c_data c)) then
      match c_storage c with
      | Some ((_ :: _) as m) =>
        (with_sroot (c_data c) (Some (save_storage hs trimkey (base_strie c) m)), mkMeta (m_sid (c_meta c)) major minor)
      | _ => (c_data c, c_meta c)
      end
    else (c_data c, c_meta c).

  Definition staged_leaf (major minor : N) (c : changed) : option aleaf :=
    let '(data, meta) := staged_data major minor c in
    if is_empty data then None
    else Some (data, match a_sroot data with Some _ => Some meta | None => None end).

  Lemma stage_account_eq major minor t c :
    stage_account hk hs trimkey major minor t c =
    trie_update aleaf never t (hk (c_addr c)) (staged_leaf major minor c).
  Proof.
    unfold stage_account, staged_leaf, staged_data.
    destruct (negb (is_empty (c_data c))); [destruct (c_storage c) as [[|p m]|]|];
      cbn; destruct (is_empty _); reflexivity.
  Qed.

  Lemma ch_find_none a l : ~ In a (map c_addr l) -> ch_find a l = None.
  Proof.
    induction l as [|c l IH]; cbn; auto. intros H.
    destruct (c_addr c =? a) eqn:E; [apply N.eqb_eq in E; tauto|apply IH; tauto].
  Qed.

  Lemma fold_stage_get major minor chs : forall t a,
    wfc aleaf t -> NoDup (map c_addr chs) ->
    trie_get aleaf (fold_left (stage_account hk hs trimkey major minor) chs t) (hk a) =
    match ch_find a chs with
    | Some c => staged_leaf major minor c
    | None => trie_get aleaf t (hk a)
    end.
  Proof.
    induction chs as [|c chs IH]; cbn [fold_left ch_find map]; intros t a Ht Hn; auto.
    inversion Hn; subst.
    rewrite IH by (auto; apply stage_account_wf; auto).
    rewrite stage_account_eq.
    rewrite (get_update aleaf never never_sound) by auto.
    destruct (c_addr c =? a) eqn:E.
    - apply N.eqb_eq in E; subst a. rewrite ch_find_none by auto.
      destruct (vkey_eq_dec (hk (c_addr c)) (hk (c_addr c))); congruence.
    - destruct (ch_find a chs); auto.
      destruct (vkey_eq_dec (hk (c_addr c)) (hk a)) as [Q|]; auto.
      apply hk_inj in Q. subst. rewrite N.eqb_refl in E. discriminate.
  Qed.

  (* ---- the records keep distinct addresses and distinct storage keys ---- *)
  Definition stor_nodup (c : changed) : Prop :=
    match c_storage c with Some m => NoDup (map fst m) | None => True end.

  Lemma ch_set_nodup c l : NoDup (map c_addr l) -> NoDup (map c_addr (ch_set c l)).
  Proof.
    assert (K : forall l, map c_addr l = map fst (keyed l)) by (intros; unfold keyed; rewrite map_map; reflexivity).
    rewrite !K, ch_set_assoc. apply (assoc_set_nodup N N.eqb N.eqb_eq).
  Qed.

  Lemma ch_set_forall (Q : changed -> Prop) c l : Forall Q l -> Q c -> Forall Q (ch_set c l).
  Proof.
    induction l as [|c' l IH]; cbn; intros H Hc; [repeat constructor; auto|].
    inversion H; subst. destruct (c_addr c' =? c_addr c); constructor; auto.
  Qed.

  Lemma get_changed_nodup s a chs : Forall stor_nodup chs -> stor_nodup (get_changed hk s a chs).
  Proof.
    intros H. unfold get_changed. destruct (ch_find a chs) as [c|] eqn:F.
    - apply ch_find_in in F. rewrite Forall_forall in H. apply H, F.
    - destruct (load_account hk (st_base s) a). exact I.
  Qed.

  Lemma rp_shape s major minor J :
    NoDup (map c_addr (rp_chs hk s major minor J)) /\ Forall stor_nodup (rp_chs hk s major minor J).
  Proof.
    induction J as [|e J IH] using rev_ind; [split; constructor|].
    unfold rp_chs in *. rewrite rp_snoc. destruct (rp hk s major minor J) as [[chs codes] cnt]. cbn [fst] in IH.
    destruct IH as [ND F]. pose proof (get_changed_nodup s) as G.
    assert (Set1 : forall c, stor_nodup c -> NoDup (map c_addr (ch_set c chs)) /\ Forall stor_nodup (ch_set c chs))
      by (split; [apply ch_set_nodup|apply ch_set_forall]; auto).
    destruct e as [[a|a|a b k|a] [x|code h|raw|b']]; cbn [replay1 fst]; try solve [split; auto]; try (apply Set1; exact I).
    - apply Set1. apply G, F.
    - destruct (m_sid _); apply Set1; unfold stor_nodup; cbn [c_storage]; specialize (G a chs F); unfold stor_nodup in G;
        (destruct (c_storage _); [rewrite kv_set_assoc; apply (assoc_set_nodup N N.eqb N.eqb_eq); auto|repeat constructor; auto]).
  Qed.

  Definition raw_of (o : option sleaf) : bytes := match o with Some (v, _) => v | None => [] end.

  Lemma save_storage_wf m : forall t, wfc sleaf t -> wfc sleaf (save_storage hs trimkey t m).
  Proof.
    induction m as [|[k v] m IH]; cbn; intros; auto. apply IH. apply update_wf_root; auto.
  Qed.

  Lemma save_storage_get m : forall t k, wfc sleaf t -> NoDup (map fst m) ->
    raw_of (trie_get sleaf (save_storage hs trimkey t m) (hs k)) =
    match kv_find k (Some m) with Some r => r | None => raw_of (trie_get sleaf t (hs k)) end.
  Proof.
    induction m as [|[k0 v0] m IH]; intros t k Ht Hn; [reflexivity|].
    inversion Hn; subst. cbn [save_storage].
    rewrite IH by (auto; apply update_wf_root; auto).
    cbn [kv_find assoc]. rewrite (get_update sleaf never never_sound) by auto.
    destruct (N.eqb_spec k k0) as [->|E].
    - destruct (assoc N N.eqb k0 m) eqn:Q.
      + exfalso. apply H1. apply (assoc_in_keys N N.eqb N.eqb_eq). eauto.
      + destruct (vkey_eq_dec (hs k0) (hs k0)); try congruence. destruct v0; reflexivity.
    - cbn. destruct (assoc N N.eqb k m); auto.
      destruct (vkey_eq_dec (hs k0) (hs k)) as [Q|]; auto. apply hs_inj in Q. congruence.
  Qed.

  (* tries hold secure keys only; a storage trie holds no empty value (saveStorage deletes a slot written empty), so two storage
     tries that read the same at every slot hold the same keys *)
  Definition stor_keys_ok (t : strie) : Prop :=
    forall k v m, vkey k -> trie_get sleaf t k = Some (v, m) -> (exists j, k = hs j) /\ v <> [].
  Definition secure_base (base : atrie) : Prop :=
    (forall k l, vkey k -> trie_get aleaf base k = Some l -> exists a, k = hk a) /\
    (forall a acc m t, trie_get aleaf base (hk a) = Some (acc, m) -> a_sroot acc = Some t -> stor_keys_ok t).

  Lemma stor_keys_ok_nil : stor_keys_ok Nil.
  Proof. intros k v m _ H. destruct k; cbn in H; discriminate. Qed.

  Lemma secure_base_nil : secure_base Nil.
  Proof. split; intros; discriminate. Qed.

  Lemma save_storage_keys_ok m : forall t, wfc sleaf t -> stor_keys_ok t -> stor_keys_ok (save_storage hs trimkey t m).
  Proof.
    induction m as [|[k0 v0] m IH]; cbn [save_storage]; intros t Ht Hok; auto.
    apply IH; [apply update_wf_root; auto|].
    intros k v mm Hk H.
    rewrite (get_update sleaf never never_sound) in H by auto.
    destruct (vkey_eq_dec (hs k0) k) as [E|E].
    - destruct v0; [discriminate|]. inversion H; subst. split; [eexists; reflexivity|discriminate].
    - eapply Hok; eauto.
  Qed.

  Lemma fold_stage_get_other major minor chs : forall t k,
    wfc aleaf t -> vkey k -> (forall c, In c chs -> hk (c_addr c) <> k) ->
    trie_get aleaf (fold_left (stage_account hk hs trimkey major minor) chs t) k = trie_get aleaf t k.
  Proof.
    induction chs as [|c chs IH]; cbn [fold_left]; intros t k Ht Hk Hne; auto.
    rewrite IH; auto.
    - rewrite stage_account_eq. rewrite (get_update aleaf never never_sound) by auto.
      destruct (vkey_eq_dec (hk (c_addr c)) k) as [E|E]; auto. exfalso. apply (Hne c); auto. left; auto.
    - apply stage_account_wf; auto.
    - intros c' I. apply Hne. right; auto.
  Qed.

  Definition base_ok (base : atrie) : Prop :=
    wfc aleaf base /\
    (forall a acc m t, trie_get aleaf base (hk a) = Some (acc, m) -> a_sroot acc = Some t -> wfc sleaf t) /\
    (forall a acc m, trie_get aleaf base (hk a) = Some (acc, m) -> is_empty acc = false).

  Lemma base_ok_nil : base_ok Nil.
  Proof. split; [left; reflexivity|]. split; intros; discriminate. Qed.

  Definition same_fields (y x : account) : Prop :=
    a_bal y = a_bal x /\ a_eng y = a_eng x /\ a_bt y = a_bt x /\ a_master y = a_master x /\ a_codehash y = a_codehash x.

  Section Final.
    Variable s : state.
    Variable major minor : N.
    Hypothesis Hgood : good hk hs s.
    Hypothesis Hbase : base_ok (st_base s).

    Let L := stack (st_sm s).
    Let g := src s.
    Let J := jof L.
    Let chs := rp_chs hk s major minor J.
    Let T := stage hk hs trimkey s major minor.

    Lemma stage_is_fold : T = fold_left (stage_account hk hs trimkey major minor) chs (st_base s).
    Proof.
      unfold T, stage, stage_changes, chs, rp_chs, rp, J, jof, L, sm_journal.
      destruct (fold_left (replay1 hk s major minor) (flat_map journal (stack (st_sm s))) ([], [], 0)) as [[c cs] n].
      reflexivity.
    Qed.

    Lemma journal_ok_J : journal_ok J. Proof. apply Hgood. Qed.
    Lemma levels_ok_L : Forall level_ok L. Proof. apply Hgood. Qed.

    (* the reads of the state in terms of its journal *)
    Lemma jacc_vacc a : jacc hk s J a = vacc g L a.
    Proof.
      unfold jacc, vacc. rewrite aget_jlast by apply levels_ok_L. fold J.
      destruct (jlast (KAcc a) J) as [v|] eqn:F; [|reflexivity].
      pose proof (journal_ok_wt J journal_ok_J _ _ F) as W. destruct v; cbn in W; try contradiction. reflexivity.
    Qed.

    Lemma sroot_top a : a_sroot (vacc g L a) = if vbar g L a =? 0 then a_sroot (base_acc hk s a) else None.
    Proof. apply Hgood. Qed.

    Lemma vstor_jraw a k : vstor g L a k =
      match jraw J a k with Some r => r | None => base_storage hs (vacc g L a) k end.
    Proof.
      unfold vstor, jraw, J. rewrite (jbar_vbar g L a (src_is_ok hk hs s) levels_ok_L), aget_jlast by apply levels_ok_L. fold J.
      destruct (jlast (KStor a (vbar g L a) k) J) as [v|] eqn:F.
      - pose proof (journal_ok_wt J journal_ok_J _ _ F) as W. destruct v; cbn in W; try contradiction. reflexivity.
      - unfold base_storage. rewrite sroot_top. unfold g. cbn. destruct (vbar (src s) L a =? 0); reflexivity.
    Qed.

    (* a storage trie named by an account record of the state is one of the base *)
    Lemma sroot_base (Q : strie -> Prop) a t :
      (forall a acc m t, trie_get aleaf (st_base s) (hk a) = Some (acc, m) -> a_sroot acc = Some t -> Q t) ->
      a_sroot (vacc g L a) = Some t -> Q t.
    Proof.
      intros HQ. rewrite sroot_top. destruct (vbar g L a =? 0); [|discriminate].
      unfold base_acc, load_account.
      destruct (trie_get aleaf (st_base s) (hk a)) as [[acc [m|]]|] eqn:E; cbn; intros R; try discriminate; eapply HQ; eauto.
    Qed.

    (* the storage trie Stage starts from at an address *)
    Definition start_trie (a : N) : strie := match a_sroot (vacc g L a) with Some t => t | None => Nil end.

    Lemma start_trie_wf a : wfc sleaf (start_trie a).
    Proof.
      unfold start_trie. destruct (a_sroot (vacc g L a)) eqn:R; [|left; reflexivity].
      apply (sroot_base (wfc sleaf) a); auto. apply Hbase.
    Qed.

    (* the storage root of a committed record: the state's own when no slot was written under the current barrier, else
       the root of the pending writes p saved over the trie the record named *)
    Definition staged_root (a : N) (sr : option strie) : Prop :=
      (sr = a_sroot (vacc g L a) /\ forall k, jraw J a k = None) \/
      (exists p, p <> [] /\ NoDup (map fst p) /\ sr = Some (save_storage hs trimkey (start_trie a) p) /\
                 forall k, kv_find k (Some p) = jraw J a k).

    (* the leaf Stage leaves at an address: none for an empty account; otherwise the account record of the state with
       its storage root kept when no slot was written under the current barrier, and else replaced by the root of
       the pending writes saved over the trie the record named *)
    Lemma staged_leaf_spec a :
      let x := vacc g L a in
      if is_empty x then trie_get aleaf T (hk a) = None
      else exists sr m, trie_get aleaf T (hk a) = Some (with_sroot x sr, m) /\
           staged_root a sr.
    Proof.
      intros x. unfold staged_root. fold x. assert (Xx : x = with_sroot x (a_sroot x)) by (destruct x; reflexivity).
      destruct (rp_shape s major minor J) as [ND SN]. fold chs in ND, SN.
      rewrite stage_is_fold, fold_stage_get by (auto; apply Hbase).
      pose proof (replay_spec hk s major minor J journal_ok_J a) as RS. fold chs in RS.
      destruct (ch_find a chs) as [c|] eqn:F; cbn [record_ok] in RS.
      - destruct RS as [Cd Cs]. rewrite jacc_vacc in Cd. fold x in Cd.
        apply ch_find_in in F. rewrite Forall_forall in SN. pose proof (SN c (proj1 F)) as Sn.
        unfold stor_nodup in Sn. unfold staged_leaf, staged_data, base_strie. rewrite Cd. fold (start_trie a).
        destruct (is_empty x) eqn:Ex; cbn [negb]; [rewrite Ex; reflexivity|].
        destruct (c_storage c) as [[|p m]|]; cbn [a_sroot]; rewrite ?Ex.
        + exists (a_sroot x). eexists. rewrite <- Xx. split; [reflexivity|]. left. split; auto. intros k. rewrite <- Cs. reflexivity.
        + rewrite is_empty_with_sroot, Ex.
          eexists _, _. split; [reflexivity|]. right. exists (p :: m). repeat split; auto. discriminate.
        + exists (a_sroot x). eexists. rewrite <- Xx. split; [reflexivity|]. left. split; auto. intros k. rewrite <- Cs. reflexivity.
      - destruct RS as [A [B C]].
        assert (Xb : x = base_acc hk s a) by (unfold x; rewrite <- jacc_vacc; unfold jacc; rewrite A; reflexivity).
        rewrite Xb. unfold base_acc, load_account.
        destruct (trie_get aleaf (st_base s) (hk a)) as [[acc m]|] eqn:Q.
        + destruct Hbase as [_ [_ Ne]]. replace (fst (let (acc0, o) := (acc, m) in match o with Some m0 => (acc0, m0) | None => (acc0, empty_meta) end)) with acc by (destruct m; reflexivity).
          rewrite (Ne a acc m Q). exists (a_sroot acc), m. split; [destruct acc; reflexivity|]. left. split; auto.
          intros k. unfold jraw. rewrite C. reflexivity.
        + reflexivity.
    Qed.

    (* either way the committed record reads the storage the state reads *)
    Lemma staged_storage a sr :
      staged_root a sr ->
      forall k, base_storage hs (with_sroot (vacc g L a) sr) k = vstor g L a k.
    Proof.
      intros Hc k. rewrite vstor_jraw. destruct Hc as [[-> Hn]|[p [_ [Hp [-> Hk]]]]].
      - rewrite Hn. reflexivity.
      - rewrite <- Hk. unfold base_storage at 1. cbn [a_sroot with_sroot].
        change (raw_of (trie_get sleaf (save_storage hs trimkey (start_trie a) p) (hs k)) =
                match kv_find k (Some p) with Some r => r | None => base_storage hs (vacc g L a) k end).
        rewrite save_storage_get by (auto; apply start_trie_wf). destruct (kv_find k (Some p)); auto.
        unfold start_trie, base_storage. destruct (a_sroot (vacc g L a)); reflexivity.
    Qed.

    (* reads of the freshly re-opened state *)
    Let s' := commit_reopen hk hs trimkey s major minor.

    (* what a stored leaf, or its absence, says of the account and its storage as the state reads them *)
    Lemma leaf_facts a :
      let x := get_account hk hs s a in
      match trie_get aleaf T (hk a) with
      | Some (acc, _) => is_empty x = false /\ same_fields acc x /\
                         forall k, base_storage hs acc k = get_raw_storage hk hs s a k
      | None => is_empty x = true
      end.
    Proof.
      intros x. destruct (getters_view hk hs s (proj1 (proj1 Hgood)) a) as [Gx [_ Gs]]. fold g L in Gx, Gs.
      pose proof (staged_leaf_spec a) as Sp. cbv zeta in Sp. unfold x. rewrite Gx.
      destruct (is_empty (vacc g L a)); [rewrite Sp; reflexivity|].
      destruct Sp as [sr [m [-> Hc]]]. split; auto. split; [repeat split|].
      intros k. rewrite Gs. apply staged_storage, Hc.
    Qed.

    Theorem reopen_reads_back_lemma a :
      let x := get_account hk hs s a in
      let y := get_account hk hs s' a in
      (is_empty x = true -> y = empty_account /\ forall k, get_raw_storage hk hs s' a k = []) /\
      (is_empty x = false -> same_fields y x /\ forall k, get_raw_storage hk hs s' a k = get_raw_storage hk hs s a k).
    Proof.
      intros x y.
      assert (Ey : y = match trie_get aleaf T (hk a) with Some (acc, _) => acc | None => empty_account end) by apply reopen_reads.
      assert (Eraw : forall k, get_raw_storage hk hs s' a k = base_storage hs y k).
      { intros k. unfold y, get_raw_storage, get_barrier, get_account, sget, s', commit_reopen, open, sm_get, sm_new.
        cbn -[trie_get stage]. reflexivity. }
      clearbody y. pose proof (leaf_facts a) as LF. cbv zeta in LF. fold x in LF.
      destruct (trie_get aleaf T (hk a)) as [[acc m]|]; subst y.
      - destruct LF as [Ne [SF St]]. split; [congruence|]. intros _. split; auto. intros k. rewrite Eraw. apply St.
      - split; [|congruence]. intros _. split; auto.
    Qed.

    (* every storage trie a committed leaf names satisfies what holds of the empty trie and of the base's storage tries
       and is kept by saveStorage *)
    Lemma leaf_sroot (Q : strie -> Prop) :
      Q Nil -> (forall t p, wfc sleaf t -> Q t -> Q (save_storage hs trimkey t p)) ->
      (forall a acc m t, trie_get aleaf (st_base s) (hk a) = Some (acc, m) -> a_sroot acc = Some t -> Q t) ->
      forall a acc m t, trie_get aleaf T (hk a) = Some (acc, m) -> a_sroot acc = Some t -> Q t.
    Proof.
      intros Q0 Qs Qb a acc m t Et Ht. pose proof (staged_leaf_spec a) as Sp. cbv zeta in Sp.
      destruct (is_empty (vacc g L a)); [congruence|]. destruct Sp as [sr [m' [Et' Hc]]].
      rewrite Et in Et'. inversion Et'; subst acc m'. cbn in Ht. subst sr.
      destruct Hc as [[Hs _]|[p [_ [_ [Hs _]]]]].
      - eapply sroot_base; eauto.
      - inversion Hs; subst t. apply Qs; [apply start_trie_wf|]. unfold start_trie.
        destruct (a_sroot (vacc g L a)) eqn:R; auto. eapply sroot_base; eauto.
    Qed.

    (* the staged trie is again a legal base: the invariant is inductive over Stage/Commit/re-open chains *)
    Theorem stage_base_ok : base_ok T.
    Proof.
      split; [apply stage_wf; auto; apply Hbase|]. split.
      - apply (leaf_sroot (wfc sleaf)); [left; reflexivity|intros; apply save_storage_wf; auto|apply Hbase].
      - intros a acc m Et. pose proof (staged_leaf_spec a) as Sp. cbv zeta in Sp.
        destruct (is_empty (vacc g L a)) eqn:Ex; [congruence|]. destruct Sp as [sr [m' [Et' _]]].
        rewrite Et in Et'. inversion Et'. exact Ex.
    Qed.

    (* a storage slot of the account was written in this block under its current barrier *)
    Definition stor_written (a : N) : Prop := exists k r, jraw J a k = Some r.

    (* the explicit storage root (state.go Stage: `if len(c.storage) > 0 { … c.data.StorageRoot = sTrie.Hash() }`);
       what it claims is said at Properties/C06.v staged_storage_root *)
    Theorem staged_sroot_lemma a :
      let x := get_account hk hs s a in
      let y := get_account hk hs s' a in
      is_empty x = false ->
      (stor_written a -> exists st, a_sroot y = Some st) /\
      (~ stor_written a -> a_sroot y = a_sroot x) /\
      (forall st, a_sroot y = Some st ->
         wfc sleaf st /\ forall k, raw_of (trie_get sleaf st (hs k)) = get_raw_storage hk hs s a k).
    Proof.
      intros x y Hx.
      destruct (getters_view hk hs s (proj1 (proj1 Hgood)) a) as [Gx [_ Gs]]. fold g L in Gx, Gs.
      assert (Ey : y = match trie_get aleaf T (hk a) with Some (acc, _) => acc | None => empty_account end) by apply reopen_reads.
      clearbody y. pose proof (staged_leaf_spec a) as Sp. cbv zeta in Sp. unfold x in *. rewrite Gx in *. rewrite Hx in Sp.
      destruct Sp as [sr [m [Et Hc]]]. rewrite Et in Ey. subst y. cbn [a_sroot with_sroot].
      split; [|split].
      - (* written: a storage trie is named *)
        intros [k [r Hw]]. destruct Hc as [[_ Hn]|[p [_ [_ [-> _]]]]]; [rewrite Hn in Hw; discriminate|eauto].
      - (* not written: carried over *)
        intros Hn. destruct Hc as [[-> _]|[[|[k0 v0] p] [Np [_ [_ Hk]]]]]; [reflexivity|congruence|].
        exfalso. apply Hn. exists k0, v0. rewrite <- Hk. cbn. rewrite N.eqb_refl. reflexivity.
      - (* a named trie holds the storage *)
        intros st Hst. split; [apply (proj1 (proj2 stage_base_ok) a _ m st Et); exact Hst|].
        intros k. rewrite Gs, <- (staged_storage a sr Hc k). unfold base_storage. cbn [a_sroot with_sroot]. rewrite Hst. reflexivity.
    Qed.

    (* Stage keeps the key hygiene: the staged trie holds secure keys only, its storage tries hold secure keys and no
       empty value — so the premise `secure_base` is inductive over chains of blocks, like base_ok *)
    Hypothesis Hsec : secure_base (st_base s).

    Theorem stage_secure : secure_base T.
    Proof.
      split.
      - intros k l Hk Q. rewrite stage_is_fold in Q.
        destruct (in_dec (list_eq_dec Nat.eq_dec) k (map (fun c => hk (c_addr c)) chs)) as [I|I].
        + apply in_map_iff in I. destruct I as [c [E _]]. eexists. symmetry. exact E.
        + rewrite fold_stage_get_other in Q; auto; [|apply Hbase|].
          * destruct Hsec as [S1 _]. eapply S1; eauto.
          * intros c Ic E. apply I. apply in_map_iff. exists c. auto.
      - apply (leaf_sroot stor_keys_ok); [apply stor_keys_ok_nil|intros; apply save_storage_keys_ok; auto|apply Hsec].
    Qed.
  End Final.

  (* the consensus view of a leaf: the five fields and the consensus view of the storage trie *)
  Lemma cview_leaf_eq (l1 l2 : aleaf) : same_fields (fst l1) (fst l2) ->
    option_map cview_storage (a_sroot (fst l1)) = option_map cview_storage (a_sroot (fst l2)) -> cview_leaf l1 = cview_leaf l2.
  Proof. intros [a1 [a2 [a3 [a4 a5]]]] E. unfold cview_leaf. rewrite a1, a2, a3, a4, a5, E. reflexivity. Qed.

  Lemma same_fields_via y1 x1 x2 y2 : same_fields y1 x1 -> same_fields x1 x2 -> same_fields y2 x2 -> same_fields y1 y2.
  Proof. intros [a1 [a2 [a3 [a4 a5]]]] [b1 [b2 [b3 [b4 b5]]]] [c1 [c2 [c3 [c4 c5]]]]. repeat split; congruence. Qed.

  Lemma same_fields_empty y x : same_fields y x -> is_empty y = is_empty x.
  Proof. intros [A [B [_ [C D]]]]. unfold is_empty. rewrite A, B, C, D. reflexivity. Qed.

  (* Properties/C06.v state_root_depends_only_on_content, on the consensus view *)
  Theorem state_root_content_lemma base codes ops1 ops2 ma1 mi1 ma2 mi2 :
    base_ok base -> secure_base base -> Forall state_op ops1 -> Forall state_op ops2 ->
    let s1 := run_state hk hs ops1 (open base codes) in
    let s2 := run_state hk hs ops2 (open base codes) in
    (forall a, same_fields (get_account hk hs s1 a) (get_account hk hs s2 a) /\
               (forall k, get_raw_storage hk hs s1 a k = get_raw_storage hk hs s2 a k) /\
               (a_sroot (get_account hk hs (commit_reopen hk hs trimkey s1 ma1 mi1) a) = None <->
                a_sroot (get_account hk hs (commit_reopen hk hs trimkey s2 ma2 mi2) a) = None)) ->
    cview (stage hk hs trimkey s1 ma1 mi1) = cview (stage hk hs trimkey s2 ma2 mi2).
  Proof.
    intros Hb Hsec H1 H2 s1 s2 Hc.
    destruct (reachable_good hk hs base codes ops1 H1) as [G1 D1]. fold s1 in G1, D1.
    destruct (reachable_good hk hs base codes ops2 H2) as [G2 D2]. fold s2 in G2, D2.
    rewrite <- D1 in Hb, Hsec. pose proof Hb as Hb2. pose proof Hsec as Hsec2. rewrite D1, <- D2 in Hb2, Hsec2.
    set (T1 := stage hk hs trimkey s1 ma1 mi1). set (T2 := stage hk hs trimkey s2 ma2 mi2).
    pose proof (stage_base_ok s1 ma1 mi1 G1 Hb) as [W1 [SW1 _]]. fold T1 in W1, SW1.
    pose proof (stage_base_ok s2 ma2 mi2 G2 Hb2) as [W2 [SW2 _]]. fold T2 in W2, SW2.
    pose proof (stage_secure s1 ma1 mi1 G1 Hb Hsec) as [K1 SK1]. fold T1 in K1, SK1.
    pose proof (stage_secure s2 ma2 mi2 G2 Hb2 Hsec2) as [K2 SK2]. fold T2 in K2, SK2.
    (* the leaf at an address: stored with the fields and storage of the state, or absent for an empty account *)
    pose proof (leaf_facts s1 ma1 mi1 G1 Hb) as F1. pose proof (leaf_facts s2 ma2 mi2 G2 Hb2) as F2.
    cbv zeta in F1, F2. fold T1 in F1. fold T2 in F2.
    unfold cview. apply (Trie.ProofsProj.canonical_projection aleaf caccount cview_leaf T1 T2 W1 W2).
    intros k Hk.
    destruct (trie_get aleaf T1 k) as [[acc1 m1]|] eqn:Q1; destruct (trie_get aleaf T2 k) as [[acc2 m2]|] eqn:Q2; cbn [option_map]; auto.
    - (* both stored: same fields, same storage view *)
      destruct (K1 k _ Hk Q1) as [a Ea]. subst k.
      specialize (F1 a). specialize (F2 a). rewrite Q1 in F1. rewrite Q2 in F2.
      destruct F1 as [_ [SF1 RS1]]. destruct F2 as [_ [SF2 RS2]].
      destruct (Hc a) as [SF [RS NS]]. rewrite !(reopen_reads hk hs trimkey) in NS. fold T1 T2 in NS. rewrite Q1, Q2 in NS.
      f_equal. apply cview_leaf_eq; [exact (same_fields_via _ _ _ _ SF1 SF SF2)|]. cbn [fst].
      destruct (a_sroot acc1) as [st1|] eqn:R1; destruct (a_sroot acc2) as [st2|] eqn:R2; cbn [option_map]; auto.
      + f_equal. unfold cview_storage.
        apply (Trie.ProofsProj.canonical_projection sleaf bytes (fun l : sleaf => fst l) st1 st2); [eapply SW1; eauto|eapply SW2; eauto|].
        intros k' Hk'.
        pose proof (SK1 a acc1 m1 st1 Q1 R1) as O1. pose proof (SK2 a acc2 m2 st2 Q2 R2) as O2.
        (* both tries read, at every storage key, the slot of the states *)
        assert (X : forall j, raw_of (trie_get sleaf st1 (hs j)) = raw_of (trie_get sleaf st2 (hs j))).
        { intros j. generalize (RS1 j) (RS2 j). unfold base_storage. rewrite R1, R2. unfold raw_of. intros -> ->. apply RS. }
        destruct (trie_get sleaf st1 k') as [[v1 n1]|] eqn:E1; destruct (trie_get sleaf st2 k') as [[v2 n2]|] eqn:E2; cbn [option_map fst]; auto.
        * destruct (O1 k' v1 n1 Hk' E1) as [[j Ej] _]. subst k'. specialize (X j). rewrite E1, E2 in X. cbn in X. congruence.
        * exfalso. destruct (O1 k' v1 n1 Hk' E1) as [[j Ej] Nv]. subst k'. specialize (X j). rewrite E1, E2 in X. auto.
        * exfalso. destruct (O2 k' v2 n2 Hk' E2) as [[j Ej] Nv]. subst k'. specialize (X j). rewrite E1, E2 in X. auto.
      + exfalso. destruct NS as [_ NS]. specialize (NS eq_refl). discriminate.
      + exfalso. destruct NS as [NS _]. specialize (NS eq_refl). discriminate.
    - (* stored on one side only: the emptiness of the account differs *)
      exfalso. destruct (K1 k _ Hk Q1) as [a Ea]. subst k.
      specialize (F1 a). specialize (F2 a). rewrite Q1 in F1. rewrite Q2 in F2.
      destruct (Hc a) as [SF _]. apply same_fields_empty in SF. destruct F1. congruence.
    - exfalso. destruct (K2 k _ Hk Q2) as [a Ea]. subst k.
      specialize (F1 a). specialize (F2 a). rewrite Q1 in F1. rewrite Q2 in F2.
      destruct (Hc a) as [SF _]. apply same_fields_empty in SF. destruct F2. congruence.
  Qed.

  (* the flag of state_root_content_lemma on the states BEFORE Stage: the committed leaf of an address names a storage trie
     iff the account is not empty and either a slot was written in this block under the current barrier or the record
     names a storage trie already *)
  Definition named_storage (s : state) (a : N) : Prop :=
    is_empty (get_account hk hs s a) = false /\
    (stor_written s a \/ a_sroot (get_account hk hs s a) <> None).

  Lemma named_storage_spec s major minor :
    good hk hs s -> base_ok (st_base s) ->
    forall a, a_sroot (get_account hk hs (commit_reopen hk hs trimkey s major minor) a) = None <-> ~ named_storage s a.
  Proof.
    intros A Hb a.
    destruct (is_empty (get_account hk hs s a)) eqn:E.
    - destruct (reopen_reads_back_lemma s major minor A Hb a) as [RE _]. cbv zeta in RE. destruct (RE E) as [Y _].
      rewrite Y. split; [intros _ [X _]; rewrite E in X; discriminate|reflexivity].
    - destruct (staged_sroot_lemma s major minor A Hb a E) as [S1 [S2 _]].
      split.
      + intros Hn [_ [W|R]].
        * destruct (S1 W) as [st Hst]. rewrite Hst in Hn. discriminate.
        * assert (NW : ~ stor_written s a) by (intros W; destruct (S1 W) as [st Hst]; rewrite Hst in Hn; discriminate).
          rewrite (S2 NW) in Hn. contradiction.
      + intros Hn.
        assert (NW : ~ stor_written s a) by (intros W; apply Hn; split; auto).
        rewrite (S2 NW). destruct (a_sroot (get_account hk hs s a)) eqn:R; auto.
        exfalso. apply Hn. split; auto. right. rewrite R. discriminate.
  Qed.

  Theorem state_root_content_pre_lemma base codes ops1 ops2 ma1 mi1 ma2 mi2 :
    base_ok base -> secure_base base -> Forall state_op ops1 -> Forall state_op ops2 ->
    let s1 := run_state hk hs ops1 (open base codes) in
    let s2 := run_state hk hs ops2 (open base codes) in
    (forall a, same_fields (get_account hk hs s1 a) (get_account hk hs s2 a) /\
               (forall k, get_raw_storage hk hs s1 a k = get_raw_storage hk hs s2 a k) /\
               (named_storage s1 a <-> named_storage s2 a)) ->
    cview (stage hk hs trimkey s1 ma1 mi1) = cview (stage hk hs trimkey s2 ma2 mi2).
  Proof.
    intros Hb Hsec H1 H2 s1 s2 Hc.
    apply state_root_content_lemma; auto. fold s1 s2. intros a.
    destruct (Hc a) as [F [S N]]. split; auto. split; auto.
    destruct (reachable_good hk hs base codes ops1 H1) as [A1 D1]. fold s1 in A1, D1.
    destruct (reachable_good hk hs base codes ops2 H2) as [A2 D2]. fold s2 in A2, D2.
    rewrite (named_storage_spec s1 ma1 mi1 A1 ltac:(rewrite D1; auto) a).
    rewrite (named_storage_spec s2 ma2 mi2 A2 ltac:(rewrite D2; auto) a).
    tauto.
  Qed.
End CM.
