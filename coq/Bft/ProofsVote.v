(* Bft/ProofsVote.v — ShouldVote on a node that has seen only one chain (every stored block is on the chain of every
   later one): the answer is COM exactly when the new block is not in the first round and the parent's quality is
   positive — whatever the node voted before, before or after a restart (casts rebuilt or live). *)
From Coq Require Import List NArith ZArith Bool Lia.
From Coq Require Import ZifyN ZifyNat ZifyBool.
From Verif Require Import Common.Util Bft.Tree Bft.Model Bft.Quorum Bft.ProofsTally Bft.ProofsChain Bft.ProofsSearch
  Bft.ProofsSuffix Bft.ProofsNode Bft.ProofsFinal Bft.ProofsCommit Bft.ProofsFind Bft.ProofsLive2 Bft.ProofsMonotone.
Import ListNotations.
Open Scope N_scope.

Lemma grounded_chain_self r : grounded r -> match r with x :: _ => chain_of r (b_id x) = r | [] => True end.
Proof.
  induction r as [|x t IH]; intros Hg; [exact I|]. rewrite chain_of_head. destruct t as [|p t'].
  - reflexivity.
  - cbn in Hg. destruct Hg as [Hpar [_ Hgt]]. rewrite Hpar. specialize (IH Hgt). cbn beta iota in IH. rewrite IH. reflexivity.
Qed.

Lemma linear_chain r : grounded r -> wf_repo r -> forall l1 x l2, r = l1 ++ x :: l2 -> chain_of r (b_id x) = x :: l2.
Proof.
  intros Hg Hwf l1 x l2 E. destruct r as [|h t]; [destruct l1; discriminate|].
  pose proof (grounded_chain_self (h :: t) Hg) as Hs. cbn beta iota in Hs.
  apply (chain_suffix (h :: t) Hwf (b_id h) l1 x l2). rewrite Hs. exact E.
Qed.

Lemma linear_has_block r x y : grounded r -> wf_repo r -> In x r -> In y r -> b_num y <= b_num x ->
  has_block r (b_id x) (b_id y) = true.
Proof.
  intros Hg Hwf Hx Hy Hle. destruct (in_split _ _ Hx) as [l1 [l2 E]].
  unfold has_block, chain_has. rewrite (linear_chain r Hg Hwf l1 x l2 E).
  assert (Hgx : grounded (x :: l2)). { apply (grounded_app l1); [rewrite <- E; exact Hg | discriminate]. }
  assert (Hyin : In y (x :: l2)).
  { rewrite E in Hy. rewrite in_app_iff in Hy. destruct Hy as [Hy|Hy]; [|exact Hy]. exfalso.
    pose proof (grounded_above l1 x l2 y ltac:(rewrite <- E; exact Hg) Hy). lia. }
  change (idnum (b_id y)) with (b_num y). rewrite (at_num_self (x :: l2) Hgx y Hyin). apply N.eqb_refl.
Qed.

Section Vote.
Variable c : cfg.
Hypothesis HL : 0 < c_L c.
Notation L := (c_L c).

(* in the first epoch the parent quality is 0 *)
Lemma epoch0_pq ch : grounded ch -> forall b t, ch = b :: t -> b_num b < L -> fst (epoch_info c ch) = 0.
Proof.
  induction ch as [|b0 t0 IH]; intros Hg b t E Hlt; [discriminate|]. inversion E; subst b0 t0. clear E.
  cbn [epoch_info]. destruct (b_num b =? 0) eqn:E0; [reflexivity|]. apply N.eqb_neq in E0.
  destruct (is_checkpoint L (b_num b)) eqn:Ecp.
  - pose proof (checkpoint_pos_ge _ HL _ Ecp ltac:(lia)). lia.
  - cbn [fst]. destruct t as [|p t']; [cbn in Hg; lia|]. cbn in Hg. destruct Hg as [_ [Hn Hgt]].
    apply (IH Hgt p t' eq_refl). lia.
Qed.

(* the keys of the votes record are ids of stored blocks *)
Definition casts_stored (r : repo) (ca : list (N * N)) : Prop := forall kv, In kv ca -> exists x, In x r /\ fst kv = b_id x.

Lemma mark_stored r ca x q : casts_stored r ca -> In x r -> casts_stored r (mark ca (b_id x) q).
Proof.
  intros H Hx kv [<-|Hin]; [exists x; split; [exact Hx | reflexivity]|].
  apply filter_In in Hin. apply H. tauto.
Qed.

Lemma merge_max_stored r ca x q : casts_stored r ca -> In x r -> casts_stored r (merge_max ca (b_id x) q).
Proof.
  intros H Hx. unfold merge_max. destruct (find _ ca) as [kv|].
  - destruct (snd kv <? q); [apply mark_stored; assumption | exact H].
  - intros kv [<-|Hin]; [exists x; split; [exact Hx | reflexivity] | apply H; exact Hin].
Qed.

Lemma new_casts_stored r e : casts_stored r (new_casts c r e).
Proof.
  unfold new_casts.
  assert (Hgen : forall hs ca, casts_stored r ca -> casts_stored r (fold_left (fun ca h =>
      let ch := chain_of r (b_id h) in
      match own_latest (e_master e) (idnum (e_fin e)) ch with
      | None => ca
      | Some x => match at_num ch (checkpoint L (b_num x)) with
                  | None => ca
                  | Some cpb => merge_max ca (b_id cpb) (s_q (compute_state c r (e_qs e) x))
                  end
      end) hs ca)).
  { induction hs as [|h hs IH]; intros ca Hca; [exact Hca|]. cbn [fold_left]. apply IH.
    destruct (own_latest _ _ _) as [x|]; [|exact Hca].
    destruct (at_num _ _) as [cpb|] eqn:Ea; [|exact Hca].
    apply merge_max_stored; [exact Hca|]. unfold at_num in Ea. apply find_some in Ea. exact (chain_incl _ _ _ (proj1 Ea)). }
  apply Hgen. intros kv [].
Qed.

Theorem should_vote_linear r e p a :
  grounded r -> wf_repo r -> qs_ok c r (e_qs e) -> In p r ->
  match e_casts e with Some ca => casts_stored r ca | None => True end ->
  idnum (e_fin e) = a * L ->
  (* finalized lies at least one epoch below the parent's epoch whenever that epoch is not justified yet *)
  (s_just (state_pure c (chain_of r (b_id p))) = false -> L <= b_num p -> a * L + L <= checkpoint L (b_num p)) ->
  snd (should_vote c r e (b_id p)) =
  Ok (negb ((b_num p + 1) / L =? 0) && (0 <? quality_pure c (chain_of r (b_id p)))).
Proof.
  intros Hg Hwf Hqs Hp Hca Hfin Hbelow.
  pose proof (chain_of_stored r p Hwf Hp) as Hfp.
  destruct (in_split _ _ Hp) as [l1 [l2 Er]].
  pose proof (linear_chain r Hg Hwf l1 p l2 Er) as HC.
  assert (HgC : grounded (p :: l2)). { apply (grounded_app l1); [rewrite <- Er; exact Hg | discriminate]. }
  unfold should_vote.
  set (ca := match e_casts e with Some ca => ca | None => new_casts c r e end).
  assert (Hcas : casts_stored r ca).
  { unfold ca. destruct (e_casts e); [exact Hca | apply new_casts_stored]. }
  change (idnum (b_id p)) with (b_num p).
  destruct ((b_num p + 1) / L =? 0) eqn:Efirst; [reflexivity|]. cbn [negb andb].
  rewrite Hfp. rewrite (compute_state_stored_full c HL r (e_qs e) p Hwf Hqs Hp).
  set (C := chain_of r (b_id p)) in *. fold (quality_pure c C).
  destruct (quality_pure c C =? 0) eqn:Eq0.
  { apply N.eqb_eq in Eq0. rewrite Eq0. reflexivity. }
  apply N.eqb_neq in Eq0. assert (Hqpos : (0 <? quality_pure c C) = true) by (apply N.ltb_lt; lia). rewrite Hqpos.
  apply N.eqb_neq in Efirst.
  (* the most recent justified checkpoint is a stored block *)
  assert (Hrecent : exists z, In z r /\
    (if s_just (state_pure c C)
     then match block_at r (b_id p) (checkpoint L (b_num p)) with Some x => Ok (b_id x) | None => Err 4 end
     else match block_at r (b_id p) (storepoint L (b_num p - L)) with
          | None => Err 4
          | Some prev => find_cp c r (e_qs e) (quality_pure c C) (e_fin e) (b_id prev)
          end) = Ok (b_id z)).
  { destruct (s_just (state_pure c C)) eqn:Ej.
    - destruct (chain_at r (b_id p) p (checkpoint L (b_num p)) Hwf Hfp) as [_ [x [_ [_ [_ [_ [Hb [_ [Hx _]]]]]]]]];
        [apply checkpoint_le; exact HL|].
      rewrite Hb. exists x. split; [exact Hx | reflexivity].
    - (* not justified yet: the parent is beyond the first epoch *)
      assert (Hge : L <= b_num p).
      { destruct (N.lt_ge_cases (b_num p) L) as [Hlt|Hge]; [|exact Hge]. exfalso.
        pose proof (quality_head c C) as Hqh. rewrite Ej in Hqh.
        rewrite (epoch0_pq C ltac:(rewrite HC; exact HgC) p l2 HC Hlt) in Hqh. lia. }
      specialize (Hbelow eq_refl Hge). rewrite (storepoint_prev_epoch L HL _ Hge).
      change (checkpoint L (b_num p)) with (b_num p / L * L) in Hbelow.
      pose proof (checkpoint_le L HL (b_num p)) as Hcle. change (checkpoint L (b_num p)) with (b_num p / L * L) in Hcle.
      set (kp := b_num p / L) in *.
      assert (Hkp1 : 1 <= kp) by (apply N.div_le_lower_bound; lia).
      destruct (chain_at r (b_id p) p ((kp - 1) * L + L - 1) Hwf Hfp)
        as [_ [prev [l3 [_ [Hprev [Hs [Hb [Hprev_chain [Hprev_in _]]]]]]]]]; [nia|].
      rewrite Hb. pose proof (chain_of_stored r prev Hwf Hprev_in) as Hfprev.
      (* the head quality equals the quality at the previous store point *)
      assert (Hhq : quality_pure c C = quality_pure c (chain_of r (b_id prev))).
      { rewrite (quality_head c C), Ej.
        rewrite (epoch_info_fst c HL C ltac:(rewrite HC; exact HgC) p l2 HC);
          change (checkpoint L (b_num p)) with (kp * L); [|nia].
        rewrite (store_before L HL kp Hkp1), Hprev_chain. unfold C. rewrite Hs. reflexivity. }
      assert (Ha : a <= kp - 1) by nia.
      destruct (find_cp_general c HL r (e_qs e) (e_fin e) (b_id prev) prev a (kp - 1) (quality_pure c C) Hwf Hqs
                  Hfprev Hfin Hprev Ha) as [m [y [Hfc [_ [Hy _]]]]].
      + rewrite Hhq, <- (q_epoch_head c r (b_id prev) prev (kp - 1) Hwf Hfprev Hprev).
        apply (q_epoch_mono c HL r (b_id prev) prev (kp - 1) Hwf Hfprev Hprev); lia.
      + rewrite Hhq. lia.
      + rewrite Hfc. exists y. split; [exact (block_at_in _ _ _ _ Hy) | reflexivity]. }
  destruct Hrecent as [z [Hz Hrec]].
  change (s_q (state_pure c C)) with (quality_pure c C) in *.
  rewrite Hrec. cbn [snd]. f_equal.
  apply forallb_forall. intros kv Hkv. destruct (Hcas kv Hkv) as [x [Hx Hid]]. rewrite Hid.
  destruct ((idnum (e_fin e) <=? idnum (b_id x)) && (quality_pure c C - 1 <=? snd kv)); [|reflexivity].
  change (idnum (b_id z)) with (b_num z). change (idnum (b_id x)) with (b_num x).
  destruct (b_num z <? b_num x) eqn:Ecmp.
  - apply N.ltb_lt in Ecmp. apply linear_has_block; try assumption. lia.
  - apply N.ltb_ge in Ecmp. apply linear_has_block; assumption.
Qed.
End Vote.
