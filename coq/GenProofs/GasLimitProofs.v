(* GenProofs/GasLimitProofs.v — lemmas over the GENERATED translation of block/gas_limit.go (coq/Gen/GasLimit.v).
   They are re-checked against the regenerated definitions on every run. *)
From Coq Require Import ZArith Bool Lia.
From Verif Require Import Common.GoInt Gen.GasLimit.
Open Scope Z_scope.
Local Ltac Zify.zify_post_hook ::= Z.div_mod_to_equations.

Definition u64 (x : Z) : Prop := 0 <= x < 18446744073709551616.
Definition min_gas_limit : Z := 1000000.
Definition bound_divisor : Z := 1024.

(* the validator-side rule: exactly "at least the floor and within parent/1024 of the parent" *)
Theorem is_valid_spec gl parent : u64 gl -> u64 parent ->
  GasLimit_IsValid gl parent = true <->
  min_gas_limit <= gl /\ Z.abs (gl - parent) <= parent / bound_divisor.
Proof.
  unfold u64, min_gas_limit, bound_divisor, GasLimit_IsValid. intros Hg Hp. rewrite (wrapU64_id gl) by lia.
  destruct (Z.ltb_spec gl 1000000) as [H1|H1]; [split; [discriminate|lia]|].
  destruct (Z.ltb_spec parent gl) as [H2|H2]; drop_wraps; rewrite Z.leb_le; lia.
Qed.

Lemma min64_spec a b : min64 a b = Z.min a b.
Proof. unfold min64. destruct (Z.ltb_spec b a); lia. Qed.

Ltac split_ltb :=
  repeat match goal with |- context [?a <? ?b] => destruct (Z.ltb_spec a b) end.

Lemma adjust_up parent d : u64 parent -> 0 < d <= parent / 1024 ->
  GasLimit_Adjust parent d = if 18446744073709551615 - d <? parent then 18446744073709551615 else parent + d.
Proof.
  unfold u64. intros Hp Hd. unfold GasLimit_Adjust. rewrite !min64_spec.
  destruct (Z.ltb_spec 0 d) as [_|]; [|lia]. drop_wraps.
  rewrite Z.min_l by lia. drop_wraps. split_ltb; drop_wraps; lia.
Qed.

Lemma adjust_down parent d : u64 parent -> 0 <= d <= parent / 1024 ->
  GasLimit_Adjust parent (- d) = if parent <? 1000000 + d then 1000000 else parent - d.
Proof.
  unfold u64. intros Hp Hd. unfold GasLimit_Adjust. rewrite !min64_spec.
  destruct (Z.ltb_spec 0 (- d)) as [|_]; [lia|]. replace (- - d) with d by lia. drop_wraps.
  rewrite Z.min_l by lia. drop_wraps. split_ltb; drop_wraps; lia.
Qed.

Lemma qualify_cases target parent : u64 target -> u64 parent -> min_gas_limit <= parent ->
  GasLimit_Qualify target parent =
    if parent <? target
    then (let d := Z.min (target - parent) (parent / 1024) in
          if 18446744073709551615 - d <? parent then 18446744073709551615 else parent + d)
    else (let d := Z.min (parent - target) (parent / 1024) in
          if parent <? 1000000 + d then 1000000 else parent - d).
Proof.
  unfold u64, min_gas_limit. intros Ht Hp Hmin. unfold GasLimit_Qualify. rewrite !min64_spec. drop_wraps.
  destruct (Z.ltb_spec parent target) as [H1|H1]; cbv zeta; drop_wraps;
    [apply adjust_up|apply adjust_down]; unfold u64; lia.
Qed.

(* the packer-side computation always lands inside the validator-side rule *)
Theorem qualify_is_valid target parent : u64 target -> u64 parent -> min_gas_limit <= parent ->
  GasLimit_IsValid (GasLimit_Qualify target parent) parent = true.
Proof.
  intros Ht Hp Hmin. apply is_valid_spec; trivial; rewrite (qualify_cases target parent Ht Hp Hmin);
    unfold u64, min_gas_limit, bound_divisor in *; cbv zeta; split_ltb; lia.
Qed.

(* Qualify moves towards the target and never past it *)
Theorem qualify_towards_target target parent : u64 target -> u64 parent -> min_gas_limit <= parent -> min_gas_limit <= target ->
  Z.min target parent <= GasLimit_Qualify target parent <= Z.max target parent.
Proof.
  intros Ht Hp Hmin Hmt. rewrite (qualify_cases target parent Ht Hp Hmin).
  unfold u64, min_gas_limit in *. cbv zeta. split_ltb; lia.
Qed.
