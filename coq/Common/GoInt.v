(* Common/GoInt.v — fixed-width Go integer semantics used by the generated (go2v) definitions. *)
From Coq Require Import ZArith Lia.
Open Scope Z_scope.

Definition wrapU (w : Z) (x : Z) : Z := x mod 2 ^ w.
Definition wrapS (w : Z) (x : Z) : Z := (x + 2 ^ (w - 1)) mod 2 ^ w - 2 ^ (w - 1).

Definition inU (w x : Z) : Prop := 0 <= x < 2 ^ w.
Definition inS (w x : Z) : Prop := - 2 ^ (w - 1) <= x < 2 ^ (w - 1).

Lemma wrapU_id w x : inU w x -> wrapU w x = x.
Proof. unfold inU, wrapU. intros. apply Z.mod_small. lia. Qed.

Lemma wrapU_range w x : 0 < w -> inU w (wrapU w x).
Proof. unfold inU, wrapU. intros. apply Z.mod_pos_bound. apply Z.pow_pos_nonneg; lia. Qed.

Lemma pow2_half w : 0 < w -> 2 ^ w = 2 * 2 ^ (w - 1) /\ 0 < 2 ^ (w - 1).
Proof.
  intros Hw. split; [|apply Z.pow_pos_nonneg; lia].
  replace w with (1 + (w - 1)) at 1 by lia. rewrite Z.pow_add_r by lia. reflexivity.
Qed.

Lemma wrapS_id w x : 0 < w -> inS w x -> wrapS w x = x.
Proof. unfold inS, wrapS. intros Hw H. destruct (pow2_half w Hw). rewrite Z.mod_small; lia. Qed.

Lemma wrapS_range w x : 0 < w -> inS w (wrapS w x).
Proof.
  intros Hw. pose proof (wrapU_range w (x + 2 ^ (w - 1)) Hw). destruct (pow2_half w Hw).
  unfold inS, wrapS, inU, wrapU in *. lia.
Qed.

(* The widths the translated fragments use.  [unwrap] exposes a wrap as a [mod] by the numeral, which [lia] can read;
   the three instances below remove a wrap whose argument is in range, and [drop_wraps] removes every wrap of the goal
   whose argument [lia] can show to be in range (innermost first: an outer wrap is opaque to [lia] until then). *)
Ltac unwrap :=
  unfold wrapU, wrapS in *;
  change (2 ^ 32) with 4294967296 in *;
  change (2 ^ 64) with 18446744073709551616 in *;
  change (2 ^ (64 - 1)) with 9223372036854775808 in *.

Lemma wrapU32_id x : 0 <= x < 4294967296 -> wrapU 32 x = x.
Proof. exact (wrapU_id 32 x). Qed.
Lemma wrapU64_id x : 0 <= x < 18446744073709551616 -> wrapU 64 x = x.
Proof. exact (wrapU_id 64 x). Qed.
Lemma wrapS64_id x : - 9223372036854775808 <= x < 9223372036854775808 -> wrapS 64 x = x.
Proof. exact (wrapS_id 64 x eq_refl). Qed.

Ltac drop_wraps :=
  repeat match goal with
  | |- context [wrapU 32 ?x] => rewrite (wrapU32_id x) by lia
  | |- context [wrapU 64 ?x] => rewrite (wrapU64_id x) by lia
  | |- context [wrapS 64 ?x] => rewrite (wrapS64_id x) by lia
  end.
