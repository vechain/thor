(* Bft/ProofsCommit.v — CommitBlock (with the F1 guard) never fails on a block the node accepts:
   findCheckpointByQuality's search always lands on a store point carrying exactly quality q-1.
   Hence no import of a numbered block fails in CommitBlock (commit_block_total). *)
From Coq Require Import List NArith ZArith Bool Lia.
From Coq Require Import ZifyN ZifyNat ZifyBool.
From Verif Require Import Common.Util Bft.Tree Bft.Model Bft.Quorum Bft.ProofsTally Bft.ProofsChain Bft.ProofsSearch
  Bft.ProofsSuffix Bft.ProofsNode Bft.ProofsFinal Bft.ProofsFind Bft.Safety.
Import ListNotations.
Open Scope N_scope.

Section Commit.
Variable c : cfg.
Hypothesis HL : 0 < c_L c.
Notation L := (c_L c).

Definition qs_ok (r : repo) (qs : list (N * N)) : Prop :=
  forall x, In x r -> storepoint L (b_num x) = b_num x -> get_q qs (b_id x) = qual c r x.

Definition fin_cp (nd : node) : Prop := is_checkpoint L (idnum (e_fin (n_eng nd))) = true.

Lemma commit_block_no_error r e b :
  wf_repo r -> find_blk r (b_id b) = Some b ->
  qs_ok r (if storepoint L (b_num b) =? b_num b then (b_id b, s_q (compute_state c r (e_qs e) b)) :: e_qs e else e_qs e) ->
  compute_state c r (e_qs e) b = state_pure c (chain_of r (b_id b)) ->
  is_checkpoint L (idnum (e_fin e)) = true ->
  snd (commit_block true c r e b false) = 0.
Proof.
  intros Hwf Hb Hqs Hcs Hfc. unfold commit_block.
  destruct (storepoint L (b_num b) =? b_num b) eqn:Esp; [|reflexivity].
  rewrite Hcs in Hqs |- *. fold (quality_pure c (chain_of r (b_id b))) in Hqs |- *.
  destruct (s_comm (state_pure c (chain_of r (b_id b))) && (1 <? quality_pure c (chain_of r (b_id b))) &&
            (negb true || (idnum (e_fin e) <? checkpoint L (b_num b)))) eqn:Econd; [|reflexivity].
  apply andb_prop in Econd. destruct Econd as [Econd Eg]. apply andb_prop in Econd. destruct Econd as [Ecomm _].
  cbn [negb orb] in Eg. apply N.ltb_lt in Eg. apply N.eqb_eq in Esp.
  pose proof (is_checkpoint_mul L HL _ Hfc) as Hfa.
  pose proof (storepoint_form L HL _ Esp) as Hkb.
  set (a := idnum (e_fin e) / L) in *. set (kb := b_num b / L) in *.
  assert (Hak : a < kb) by (change (checkpoint L (b_num b)) with (kb * L) in Eg; nia).
  assert (Hjust : s_just (state_pure c (chain_of r (b_id b))) = true).
  { unfold state_pure in *. apply committed_implies_justified_lemma. exact Ecomm. }
  destruct (find_cp_committed c HL r _ (e_fin e) (b_id b) b a kb Hwf Hqs Hb Hfa Hkb Hak Hjust) as [m [y [Hid _]]].
  rewrite Hid. reflexivity.
Qed.

(* the accepted path of import: result code 0, invariants kept, finalized stays a checkpoint number *)
Theorem add_and_commit_ok nd b :
  inv c nd -> fin_cp nd -> known (n_repo nd) (b_id b) = false -> known (n_repo nd) (b_parent b) = true ->
  valid_child (n_repo nd) b ->
  snd (add_and_commit true c nd b false) = 0 /\ fin_cp (fst (add_and_commit true c nd b false)).
Proof.
  intros Hi Hfc Hfresh Hpk Hvc. pose proof (inv_qs c _ Hi) as Hqs. unfold fin_cp in *.
  destruct (child_setup c HL _ _ b (inv_wf c _ Hi) Hqs Hfresh Hpk Hvc) as [p [_ [_ [Hwf' [Hfb [_ Hcs]]]]]].
  set (r := n_repo nd) in *. set (e := n_eng nd) in *.
  pose proof (commit_block_no_error (b :: r) e b Hwf' Hfb (child_qs c _ _ b Hwf' Hqs Hcs) Hcs Hfc) as Herr.
  destruct (commit_block_import true c (b :: r) e b) as [_ [_ [_ [_ Hfin]]]].
  unfold add_and_commit. fold r e.
  destruct (commit_block true c (b :: r) e b false) as [e' err]. cbn [fst snd n_eng] in *. subst err.
  split; [reflexivity|]. destruct Hfin as [->|[m [y [Hy ->]]]]; [exact Hfc|].
  (* the new finalized block sits at start + m*L *)
  destruct (block_at_num _ _ _ _ Hy) as [Hny _]. change (idnum (b_id y)) with (b_num y).
  rewrite Hny, (is_checkpoint_mul L HL _ Hfc), <- N.mul_add_distr_r.
  unfold is_checkpoint. apply N.eqb_eq. apply checkpoint_mul. exact HL.
Qed.

Theorem import_ok nd b : inv c nd -> fin_cp nd -> valid_child (n_repo nd) b ->
  snd (import true c nd b) < 100 /\ inv c (fst (import true c nd b)) /\ fin_cp (fst (import true c nd b)).
Proof.
  intros Hi Hfc Hvc. split; [|split; [exact (import_inv c HL true nd b Hi Hvc)|]];
    (destruct (import_cases true c nd b) as [[k [E Hk]]|[Ek [Ep [_ E]]]]; rewrite E;
     [|pose proof (add_and_commit_ok nd b Hi Hfc Ek Ep Hvc) as [H0 H1]]).
  - cbn. lia.
  - rewrite H0. lia.
  - exact Hfc.
  - exact H1.
Qed.

Lemma init_fin_cp g master : b_num g = 0 -> fin_cp (init_node g master).
Proof.
  intros Hg. unfold fin_cp. cbn. change (idnum (b_id g)) with (b_num g). rewrite Hg.
  unfold is_checkpoint, checkpoint. rewrite N.div_0_l by lia. reflexivity.
Qed.
End Commit.

Lemma import_repo_incl guard c nd b x : In x (n_repo (fst (import guard c nd b))) -> x = b \/ In x (n_repo nd).
Proof.
  destruct (import_cases guard c nd b) as [[k [E _]]|[_ [_ [_ E]]]]; rewrite E; [tauto|].
  rewrite (proj1 (add_and_commit_node guard c nd b false)). intros [H|H]; [left; symmetry; exact H | right; exact H].
Qed.

Theorem commit_block_total_lemma : commit_block_total_statement true.
Proof.
  intros c g master bs HL [Hg Hnum].
  assert (Hgen : forall rest nd, inv c nd -> fin_cp c nd -> (forall x, In x (n_repo nd) -> In x (g :: bs)) ->
                 (forall b, In b rest -> In b bs) ->
                 forall code, In code (import_codes true c nd rest) -> code < 100).
  { induction rest as [|b rest IH]; intros nd Hi Hfc Hsub Hrest code Hin; [destruct Hin|].
    cbn [import_codes] in Hin.
    assert (Hvc : valid_child (n_repo nd) b).
    { intros p Hp. destruct (find_blk_id _ _ _ Hp) as [Hid Hpin]. apply (Hnum b p); [apply Hrest; left; reflexivity | apply Hsub; exact Hpin | exact Hid]. }
    destruct (import_ok c HL nd b Hi Hfc Hvc) as [Hcode [Hi' Hfc']].
    destruct (import true c nd b) as [nd' code0] eqn:Eimp. cbn [fst snd] in *.
    destruct Hin as [<-|Hin]; [exact Hcode|].
    apply (IH nd' Hi' Hfc'); [| intros b' Hb'; apply Hrest; right; exact Hb' | exact Hin].
    intros x Hx. pose proof (import_repo_incl true c nd b x) as H. rewrite Eimp in H. cbn [fst] in H.
    destruct (H Hx) as [->|Hx']; [right; apply Hrest; left; reflexivity | apply Hsub; exact Hx']. }
  apply (Hgen bs (init_node g master)).
  - apply init_inv; assumption.
  - apply init_fin_cp; assumption.
  - cbn. intros x [<-|[]]. left. reflexivity.
  - tauto.
Qed.
