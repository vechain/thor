(* EVM/ProofsRefund.v — the refund counter of the world (statedb.AddRefund / GetRefund) never decreases along a run, at any
   depth, whatever the outcome: the refund halves of ProofsRun.run_world / frame_world / do_create_world.
   Consumer: Compose/EvmOracle.v (C07's oracle_ok, clause `refund counter >= 0`). *)
From Coq Require Import ZArith List Bool Lia.
From Verif Require Import EVM.Word EVM.Model EVM.ProofsRun.
Import ListNotations.
Open Scope Z_scope.

Lemma run_refund fuel : forall E cx s, w_refund (s_world s) <= w_refund (r_world (run fuel E cx s)).
Proof. intros E cx s. apply run_world. Qed.

Theorem frame_refund fuel E self cs vs static d k to v args gas w cc :
  w_refund w <= w_refund (r_world (do_call (run fuel E) E self cs vs static d k to v args gas w cc)).
Proof. apply frame_world. Qed.

Theorem call_top_refund fuel E static to v input gas w :
  w_refund w <= w_refund (r_world (call_top fuel E static to v input gas w)).
Proof. apply frame_refund. Qed.

Theorem create_refund fuel E self static d addr init v gas w cc :
  w_refund w <= w_refund (r_world (do_create (run fuel E) E self static d addr init v gas w cc)).
Proof. apply do_create_world. intros cx' s'. apply run_world. Qed.
