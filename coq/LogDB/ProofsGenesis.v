(* LogDB/ProofsGenesis.v — genesis rows.  cmd/thor/utils.go:initChainRepository writes the events / transfers the genesis
   builder emitted into the log db at every start (Writer.Write(genesisBlock, one receipt), block number 0, INSERT OR
   IGNORE), while NewRepository stores the genesis block WITHOUT receipts.  So in a running node the tables are
   "genesis rows ++ what the import history wrote".  This file shows that such rows (any rows with keys below block 1)
   are a frame: Truncate at a height >= 1, Write of a block of height >= 1 and hence writeLogs commute with them, and
   the invariant of ProofsCanon lifts: after every import history starting from tables db0 below block 1, the tables
   are db0's rows followed by the logs of the canonical chain. *)
From Coq Require Import List NArith Bool Lia ZifyN ZifyNat ZifyBool.
From Verif Require Import Chain.Model Chain.Proofs Chain.ProofsWalk Chain.ProofsSys Chain.ProofsPath
  LogDB.Model LogDB.Proofs LogDB.ProofsCanon LogDB.ProofsRows.
Import ListNotations.
Open Scope N_scope.

Definition frame (d0 d : logdb) : logdb := mkDB (db_events d0 ++ db_events d) (db_transfers d0 ++ db_transfers d).

Lemma put_frame d0 es ts d : below two35 d0 -> Forall (fun x => two35 <= er_seq x) es -> Forall (fun x => two35 <= tr_seq x) ts ->
  put es ts (frame d0 d) = frame d0 (put es ts d).
Proof.
  intros [B1 B2] Fe Ft. unfold put, frame. cbn [db_events db_transfers].
  rewrite (puts_frame er_seq ins_ev ins_ev_eq two35 _ es B1 Fe), (puts_frame tr_seq ins_tr ins_tr_eq two35 _ ts B2 Ft). reflexivity.
Qed.

Lemma write_block_frame d0 b d : below two35 d0 -> 1 <= num_of (b_id b) ->
  write_block b (frame d0 d) = option_map (frame d0) (write_block b d).
Proof.
  intros B0 Hb. destruct (write_block_put b) as [[|] [F E]]; rewrite !E; [|reflexivity]. destruct (F eq_refl) as [Fe Ft].
  cbn [option_map]. f_equal. apply put_frame; [exact B0 | |]; (eapply Forall_impl; [|eassumption]); cbn; unfold two35; lia.
Qed.

Lemma truncate_frame d0 n d : below two35 d0 -> 1 <= n -> truncate n (frame d0 d) = option_map (frame d0) (truncate n d).
Proof.
  intros [B1 B2] Hn. unfold truncate. destruct (seq_of n 0 0) as [s|] eqn:E; [|reflexivity].
  apply seq_of_inv in E. destruct E as [_ Es]. unfold frame. cbn [option_map db_events db_transfers].
  rewrite !filter_app, (filter_id _ (db_events d0)), (filter_id _ (db_transfers d0)); [reflexivity | |];
    intros x Hx; apply N.ltb_lt; [specialize (B2 x Hx) | specialize (B1 x Hx)]; unfold two35 in *; lia.
Qed.

Section FrameLogs.
  Variables (g gp : N) (r : repo) (d0 : logdb).
  Hypothesis W : wf g gp r.
  Hypothesis WB : wf_body r.
  Hypothesis B0 : below two35 d0.

  Lemma write_ids_frame ids : forall d, (forall a, In a ids -> 1 <= num_of a) ->
    write_ids r ids (frame d0 d) = option_map (frame d0) (write_ids r ids d).
  Proof.
    induction ids as [|x ids IH]; intros d Hn; cbn [write_ids]; [reflexivity|].
    destruct (get_block r x) as [[s b]|] eqn:Eb; [|reflexivity].
    rewrite (write_block_frame d0 b d B0) by (rewrite (get_block_id_eq r WB _ _ _ Eb); apply Hn; left; reflexivity).
    destruct (write_block b d) as [d'|]; [|reflexivity]. cbn [option_map]. apply IH. intros a Ha. apply Hn. right. exact Ha.
  Qed.

  (* the blocks Exclude returns are never genesis *)
  Lemma exclude_above_genesis c o l : stored r c -> stored r o -> exclude r c o = Ok l -> forall a, In a l -> 1 <= num_of a.
  Proof.
    intros Sc So E a Ha. destruct (exclude_spec g gp r W c o Sc So) as [l' [E' [M _]]]. rewrite E in E'. injection E' as <-.
    apply M in Ha. destruct Ha as [Ha Hn]. destruct (N.eq_dec (num_of a) 0) as [E0|]; [|lia]. exfalso. apply Hn.
    rewrite (stored_height0 g gp r W a (proj2 (anc_stored _ _ _ Ha)) E0). apply (anc_to_gen g gp r W). exact So.
  Qed.

  Lemma write_logs_frame d nb : stored r (b_parent nb) -> 1 <= num_of (b_id nb) ->
    write_logs r (frame d0 d) nb (r_best r) = option_map (frame d0) (write_logs r d nb (r_best r)).
  Proof.
    intros Sp Hnb. unfold write_logs. pose proof (w_best _ _ _ W) as Sb.
    destruct (exclude r (r_best r) (b_parent nb)) as [ob| |] eqn:E1; try reflexivity.
    assert (T : match ob with [] => Some (frame d0 d) | f :: _ => truncate (num_of f) (frame d0 d) end =
                option_map (frame d0) (match ob with [] => Some d | f :: _ => truncate (num_of f) d end)).
    { destruct ob as [|f rest]; [reflexivity|]. apply truncate_frame; [exact B0|].
      apply (exclude_above_genesis _ _ _ Sb Sp E1). left. reflexivity. }
    rewrite T. destruct (match ob with [] => Some d | f :: _ => truncate (num_of f) d end) as [d1|]; [|reflexivity]. cbn [option_map].
    destruct (exclude r (b_parent nb) (r_best r)) as [nbr| |] eqn:E2; try reflexivity.
    rewrite write_ids_frame by (apply (exclude_above_genesis _ _ _ Sp Sb E2)).
    destruct (write_ids r nbr d1) as [d2|]; [|reflexivity]. cbn [option_map]. apply write_block_frame; auto.
  Qed.
End FrameLogs.

(* import histories of a node whose log db already holds rows of block 0 (the genesis logs) *)
Inductive imported_from (g gp tag : N) (d0 : logdb) : repo -> logdb -> Prop :=
| impf_init : imported_from g gp tag d0 (init_repo g gp tag) d0
| impf_side r db b conf r' : imported_from g gp tag d0 r db -> valid_add r b conf -> add_block r b conf false = Some r' ->
                             imported_from g gp tag d0 r' db
| impf_best r db b conf r' db' : imported_from g gp tag d0 r db -> valid_add r b conf ->
                                 write_logs r db b (r_best r) = Some db' -> add_block r b conf true = Some r' ->
                                 imported_from g gp tag d0 r' db'.

Lemma imported_from_frame g gp tag d0 r D : num_of g = 0 -> below two35 d0 -> imported_from g gp tag d0 r D ->
  exists db, imported g gp tag r db /\ D = frame d0 db.
Proof.
  intros Hg B0. induction 1 as [|r D b conf r' I [db [Idb ->]] V A|r D b conf r' D' I [db [Idb ->]] V Hw A].
  - exists empty_db. split; [constructor|]. unfold frame. cbn. rewrite !app_nil_r. destruct d0; reflexivity.
  - exists db. split; [eapply imp_side; eauto | reflexivity].
  - pose proof (imported_reachable _ _ _ _ _ Idb) as R. pose proof (reachable_wf _ _ _ _ _ Hg R) as W.
    pose proof (reachable_wf_body _ _ _ _ _ Hg R) as WB.
    destruct (add_parent _ _ _ _ _ A) as [ps [Hps _]].
    rewrite (write_logs_frame g gp r d0 W WB B0 db b (ex_intro _ ps Hps)) in Hw by (destruct V as [_ [E _]]; lia).
    destruct (write_logs r db b (r_best r)) as [db'|] eqn:E; [|discriminate]. injection Hw as <-.
    exists db'. split; [eapply imp_best; eauto | reflexivity].
Qed.
