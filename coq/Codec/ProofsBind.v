(* Codec/ProofsBind.v — id / hash / root binding stated on the byte strings the Go code feeds to Blake2b
   (go_signing_tx, go_marshal_tx, header_signing_bytes_any, the DeriveRoot pairs), with the collision-freeness of the
   hash as the NAMED hypothesis H_inj, and again without it (equal hashes give equal signed fields or an explicit collision);
   the receipts' binary form; the two byte strings (F2) that decode but do not re-encode to themselves. *)
From Coq Require Import List NArith ZArith Bool Lia.
From Coq Require Import ZifyN ZifyNat ZifyBool.
From Verif Require Import Codec.Model Codec.ProofsRLP Codec.ProofsComb Codec.ProofsObjects Codec.ProofsTop
  Codec.ProofsSign Codec.ProofsNorm Codec.ProofsAcc.
Import ListNotations.
Open Scope N_scope.

(* what is signed: every field of the Go object but the signature *)
Definition strip_sig (t : tx) : tx :=
  mkTx (t_dyn t) (t_chain_tag t) (t_block_ref t) (t_expiration t) (t_clauses t) (t_gpc t) (t_max_prio t) (t_max_fee t)
       (t_gas t) (t_depends t) (t_nonce t) (t_reserved t) [].
Definition signed_part (t : tx) : tx := strip_sig (norm_tx t).       (* norm_tx t is the Go object *)

Definition of_legacy_sign (p : N * (N * (N * (list clause * (N * (N * (nilable * (N * reserved)))))))) : tx :=
  let '(ct, (br, (ex, (cl, (gpc, (gas, (dep, (nonce, res)))))))) := p in mkTx false ct br ex cl gpc 0 0 gas dep nonce res [].
Definition of_dyn_sign (p : N * (N * (N * (list clause * (N * (N * (N * (nilable * (N * reserved))))))))) : tx :=
  let '(ct, (br, (ex, (cl, (prio, (fee, (gas, (dep, (nonce, res))))))))) := p in mkTx true ct br ex cl 0 prio fee gas dep nonce res [].
Lemma legacy_strip t : wfp c_legacy t -> strip_sig t = of_legacy_sign (legacy_sign_tuple t).
Proof.
  intros [_ H]. destruct t as [dy ct br ex cl gpc pr fe gas dep no res sg]. cbn in H. inversion H; subst. reflexivity.
Qed.
Lemma dyn_strip t : wfp c_dyn t -> strip_sig t = of_dyn_sign (dyn_sign_tuple t).
Proof.
  intros [_ H]. destruct t as [dy ct br ex cl gpc pr fe gas dep no res sg]. cbn in H. inversion H; subst. reflexivity.
Qed.

Lemma wf_bin_of_tx t : wfp c_tx t -> wf_bin t.
Proof. unfold wf_bin. cbn [wfp c_tx]. destruct (t_dyn t); [intros [W _]; exact W|trivial]. Qed.

(* equal SigningHash() preimages => equal signed fields (for the Go objects of any two decodable transactions) *)
Theorem go_signing_injective_l t1 t2 : wfp c_tx t1 -> wfp c_tx t2 ->
  go_signing_tx t1 = go_signing_tx t2 -> signed_part t1 = signed_part t2.
Proof.
  intros W1 W2 E. unfold go_signing_tx in E. unfold signed_part.
  pose proof (proj1 (lp_tx t1 W1)) as N1. pose proof (proj1 (lp_tx t2 W2)) as N2.
  set (n1 := norm_tx t1) in *. set (n2 := norm_tx t2) in *.
  pose proof (tx_signing_injective_l n1 n2 (tx_sign_wf n1 N1) (tx_sign_wf n2 N2) E) as [Ed Et].
  pose proof (wf_bin_of_tx n1 N1) as B1. pose proof (wf_bin_of_tx n2 N2) as B2. unfold wf_bin in *.
  rewrite <- Ed in B2. destruct (t_dyn n1).
  - rewrite (dyn_strip n1 B1), (dyn_strip n2 B2), Et. reflexivity.
  - rewrite (legacy_strip n1 B1), (legacy_strip n2 B2), Et. reflexivity.
Qed.
(* equal Hash() preimages (MarshalBinary) => equal Go objects, signature included *)
Theorem go_marshal_injective_l t1 t2 : wfp c_tx t1 -> wfp c_tx t2 ->
  go_marshal_tx t1 = go_marshal_tx t2 -> norm_tx t1 = norm_tx t2.
Proof.
  intros W1 W2 E. unfold go_marshal_tx in E.
  apply tx_marshal_inj; [apply wf_bin_of_tx, lp_tx, W1|apply wf_bin_of_tx, lp_tx, W2|exact E].
Qed.

(* headers: the preimage of SigningHash() for every header *)
Definition with_ext (h : header) (e : ext) : header :=
  mkHeader (h_parent h) (h_timestamp h) (h_gas_limit h) (h_beneficiary h) (h_gas_used h) (h_total_score h) (h_trf h)
           (h_state_root h) (h_receipts_root h) (h_sig h) e.
(* what a header signs: all fields but the signature; the extension only when it carries a base fee *)
Definition header_signed_view (h : header) :=
  match x_basefee (h_ext h) with Some _ => header_sign_tuple h | None => header_sign_tuple (with_ext h ext_default) end.

Lemma header_any_is_view h : header_signing_bytes_any h = enc (cwrap header_sign_fields) (header_signed_view h).
Proof.
  unfold header_signing_bytes_any, header_signed_view, header_signing_bytes. destruct (x_basefee (h_ext h)); [reflexivity|].
  unfold header_sign9_fields, header_sign_fields, header_sign_tuple, with_ext.
  cbn [enc cpair cwrap fst snd h_parent h_timestamp h_gas_limit h_beneficiary h_gas_used h_total_score h_trf h_state_root h_receipts_root h_ext].
  change (enc c_ext ext_default) with (@nil N). rewrite app_nil_r. reflexivity.
Qed.
Lemma header_view_wf h : wfp c_header h -> wfp (cwrap header_sign_fields) (header_signed_view h).
Proof.
  intros W. unfold header_signed_view. destruct (x_basefee (h_ext h)); [apply header_sign_wf; exact W|].
  destruct W as [[W Hl] _]. unfold c_header, c_header_gen in *.
  cbn [wfp enc cpair cwrap header_fields header_sign_fields header_sign_tuple with_ext fst snd
       h_parent h_timestamp h_gas_limit h_beneficiary h_gas_used h_total_score h_trf h_state_root h_receipts_root h_ext] in *.
  change (enc c_ext ext_default) with (@nil N). change (wfp c_ext ext_default) with (ext_default = ext_default).
  rewrite !lenN_app in *. rewrite lenN_nil. split; [tauto|lia].
Qed.
Theorem header_signing_any_injective_l h1 h2 : wfp c_header h1 -> wfp c_header h2 ->
  header_signing_bytes_any h1 = header_signing_bytes_any h2 -> header_signed_view h1 = header_signed_view h2.
Proof.
  intros W1 W2 E. rewrite !header_any_is_view in E.
  exact (codec_inj _ _ _ header_sign_ok (header_view_wf h1 W1) (header_view_wf h2 W2) E).
Qed.
(* with a base fee the view is the full ten-field tuple *)
Lemma view_basefee h : x_basefee (h_ext h) <> None -> header_signed_view h = header_sign_tuple h.
Proof. unfold header_signed_view. destruct (x_basefee (h_ext h)); [reflexivity|congruence]. Qed.

Lemma app_inj_len {A} (a b c d : list A) : length c = length d -> a ++ c = b ++ d -> a = b /\ c = d.
Proof.
  intros Hl E. assert (Hab : length a = length b).
  { apply (f_equal (@length A)) in E. rewrite !app_length in E. lia. }
  revert b Hab E. induction a as [|x a IH]; intros [|y b] Hab E; try discriminate.
  - split; [reflexivity|exact E].
  - cbn in E. inversion E; subst. destruct (IH b) as [-> ->]; [cbn in Hab; lia|assumption|]. tauto.
Qed.

Section Hash.
  Variable H : bytes -> bytes.                                   (* Blake2b-256 *)
  Hypothesis H_inj : forall a b, H a = H b -> a = b.             (* collision-freeness on the preimages below *)

  Definition go_tx_signing_hash (t : tx) : bytes := H (go_signing_tx t).              (* Transaction.SigningHash() *)
  Definition go_tx_hash (t : tx) : bytes := H (go_marshal_tx t).                      (* Transaction.Hash() *)
  (* Transaction.ID(): Blake2b(signingHash, origin); the zero id when the signature does not recover (origin = None) *)
  Definition go_tx_id (t : tx) (origin : option bytes) : bytes :=
    match origin with Some o => H (go_tx_signing_hash t ++ o) | None => repeat 0 32 end.
  Definition go_header_signing_hash (h : header) : bytes := H (header_signing_bytes_any h).
  (* Header.ID() before its first four bytes are overwritten with the block number *)
  Definition go_header_id_hash (h : header) (signer : bytes) : bytes := H (go_header_signing_hash h ++ signer).

  Theorem tx_signing_hash_binds_l t1 t2 : wfp c_tx t1 -> wfp c_tx t2 ->
    signed_part t1 <> signed_part t2 -> go_tx_signing_hash t1 <> go_tx_signing_hash t2.
  Proof. intros W1 W2 Hd E. apply Hd. apply go_signing_injective_l; [assumption|assumption|]. apply H_inj, E. Qed.
  Theorem tx_id_binds_l t1 t2 o1 o2 : wfp c_tx t1 -> wfp c_tx t2 -> length o1 = length o2 ->
    signed_part t1 <> signed_part t2 -> go_tx_id t1 (Some o1) <> go_tx_id t2 (Some o2).
  Proof.
    intros W1 W2 Hl Hd E. cbn [go_tx_id] in E. apply H_inj in E. apply app_inj_len in E; [|exact Hl]. destruct E as [E _].
    exact (tx_signing_hash_binds_l t1 t2 W1 W2 Hd E).
  Qed.
  Theorem tx_hash_binds_l t1 t2 : wfp c_tx t1 -> wfp c_tx t2 -> norm_tx t1 <> norm_tx t2 -> go_tx_hash t1 <> go_tx_hash t2.
  Proof. intros W1 W2 Hd E. apply Hd. apply go_marshal_injective_l; [assumption|assumption|]. apply H_inj, E. Qed.
  Theorem header_signing_hash_binds_l h1 h2 : wfp c_header h1 -> wfp c_header h2 ->
    header_signed_view h1 <> header_signed_view h2 -> go_header_signing_hash h1 <> go_header_signing_hash h2.
  Proof. intros W1 W2 Hd E. apply Hd. apply header_signing_any_injective_l; [assumption|assumption|]. apply H_inj, E. Qed.
  Theorem header_id_binds_l h1 h2 s1 s2 : wfp c_header h1 -> wfp c_header h2 -> length s1 = length s2 ->
    header_signed_view h1 <> header_signed_view h2 -> go_header_id_hash h1 s1 <> go_header_id_hash h2 s2.
  Proof.
    intros W1 W2 Hl Hd E. unfold go_header_id_hash in E. apply H_inj in E. apply app_inj_len in E; [|exact Hl]. destruct E as [E _].
    exact (header_signing_hash_binds_l h1 h2 W1 W2 Hd E).
  Qed.
End Hash.

Lemma receipt_unmarshal_sound_l b r : receipt_unmarshal b = Some r ->
  b = receipt_marshal r /\ wfp (c_receipt_body (rc_dyn r)) r.
Proof.
  unfold receipt_unmarshal, receipt_marshal. destruct b as [|x b']; [discriminate|]. destruct (127 <? x) eqn:E.
  - intros H. apply (dec_exact_sound _ _ _ (proj1 (c_receipt_body_ok false))) in H. destruct H as [Hb W].
    rewrite (c_receipt_body_flag _ _ W). tauto.
  - destruct b' as [|y b'']; [discriminate|]. intros H. apply dec_typed_receipt_sound in H. destruct H as [Hb W].
    rewrite (c_receipt_body_flag _ _ W). tauto.
Qed.
Lemma receipt_unmarshal_complete_l r : wfp (c_receipt_body (rc_dyn r)) r -> receipt_unmarshal (receipt_marshal r) = Some r.
Proof.
  unfold receipt_unmarshal, receipt_marshal. destruct (rc_dyn r) eqn:Ed; intros W.
  - cbn [N.ltb N.compare]. pose proof (c_receipt_body_nonempty true r W) as Hne.
    destruct (enc (c_receipt_body true) r) as [|e0 et] eqn:Ee; [congruence|]. cbn [dec_typed_receipt N.eqb Pos.eqb].
    rewrite <- Ee. apply dec_exact_complete; [apply c_receipt_body_ok|exact W].
  - destruct (cwrap_first _ _ : exists x rest, enc (c_receipt_body false) r = x :: rest /\ 192 <= x) as [x [rest [E Hx]]].
    rewrite E. cbv beta iota. destruct (127 <? x) eqn:E2; [|exfalso; lia]. rewrite <- E.
    apply (dec_exact_complete (c_receipt_body false)); [apply c_receipt_body_ok|exact W].
Qed.
Definition wf_rbin (r : receipt) : Prop := wfp (c_receipt_body (rc_dyn r)) r.
Theorem receipts_values_determine_l l1 l2 : Forall wf_rbin l1 -> Forall wf_rbin l2 ->
  map go_marshal_receipt l1 = map go_marshal_receipt l2 -> l1 = l2.
Proof.
  apply map_inj_on. intros a b Wa Wb E. unfold go_marshal_receipt in E.
  pose proof (receipt_unmarshal_complete_l a Wa) as Ha. pose proof (receipt_unmarshal_complete_l b Wb) as Hb.
  rewrite E in Ha. congruence.
Qed.

(* F2 witnesses, one per nil position *)
Definition f2_depends_witness : bytes := [202; 128; 128; 128; 192; 128; 128; 192; 128; 192; 128].
Definition f2_clause_witness : bytes := [206; 128; 128; 128; 196; 195; 192; 128; 128; 128; 128; 128; 128; 192; 128].
Lemma tx_depends_nil_refuted_l : exists t, go_decode_tx f2_depends_witness = Some t /\ is_nil_list (t_depends t) = true /\
  existsb (fun c => is_nil_list (c_to c)) (t_clauses t) = false /\ go_reencode_tx t <> f2_depends_witness.
Proof. eexists. split; [vm_compute; reflexivity|]. split; [reflexivity|]. split; [reflexivity|]. vm_compute. discriminate. Qed.
Lemma tx_clause_nil_refuted_l : exists t, go_decode_tx f2_clause_witness = Some t /\ is_nil_list (t_depends t) = false /\
  existsb (fun c => is_nil_list (c_to c)) (t_clauses t) = true /\ go_reencode_tx t <> f2_clause_witness.
Proof. eexists. split; [vm_compute; reflexivity|]. split; [reflexivity|]. split; [reflexivity|]. vm_compute. discriminate. Qed.
Lemma tx_decode_canonical_statement_refuted_l : ~ (forall b t, go_decode_tx b = Some t -> go_reencode_tx t = b).
Proof. intros S. destruct tx_depends_nil_refuted_l as [t [Hd [_ [_ Hn]]]]. exact (Hn (S _ _ Hd)). Qed.

(* re-encoding and decoding again gives the same Go object, hence the same hash / id preimages *)
Lemma norm_nil_idem v : norm_nil (norm_nil v) = norm_nil v.
Proof. destruct v; reflexivity. Qed.
Lemma norm_tx_idem t : norm_tx (norm_tx t) = norm_tx t.
Proof.
  destruct t as [dy ct br ex cl gpc pr fe gas dep no res sg]. unfold norm_tx.
  cbn [t_depends t_clauses t_dyn t_chain_tag t_block_ref t_expiration t_gpc t_max_prio t_max_fee t_gas t_nonce t_reserved t_sig].
  rewrite norm_nil_idem. f_equal. rewrite map_map. apply map_ext. intros [to v d]. unfold norm_clause. cbn [c_to c_value c_data].
  rewrite norm_nil_idem. reflexivity.
Qed.
Theorem tx_reencode_same_object_l b t : go_decode_tx b = Some t ->
  go_decode_tx (go_reencode_tx t) = Some (norm_tx t) /\
  go_signing_tx (norm_tx t) = go_signing_tx t /\ go_marshal_tx (norm_tx t) = go_marshal_tx t.
Proof.
  intros H. apply tx_decode_sound_l in H. destruct H as [_ W]. split.
  - unfold go_reencode_tx. apply tx_roundtrip_l. exact (proj1 (lp_tx t W)).
  - unfold go_signing_tx, go_marshal_tx. rewrite norm_tx_idem. split; reflexivity.
Qed.

(* collision-extraction forms (no hypothesis on H):
   equal hashes / ids give equal signed fields OR an explicit collision of H *)
Definition collision (H : bytes -> bytes) : Prop := exists a b, a <> b /\ H a = H b.
Lemma hash_eq_cases (H : bytes -> bytes) a b : H a = H b -> a = b \/ collision H.
Proof. intros E. destruct (list_eq_dec N.eq_dec a b) as [e|n]; [left; exact e|right; exists a, b; split; assumption]. Qed.

Section Extract.
  Variable H : bytes -> bytes.
  Theorem tx_signing_hash_extract_l t1 t2 : wfp c_tx t1 -> wfp c_tx t2 ->
    go_tx_signing_hash H t1 = go_tx_signing_hash H t2 -> signed_part t1 = signed_part t2 \/ collision H.
  Proof.
    intros W1 W2 E. destruct (hash_eq_cases H _ _ E) as [e|c]; [left|right; exact c]. exact (go_signing_injective_l t1 t2 W1 W2 e).
  Qed.
  Theorem tx_id_extract_l t1 t2 o1 o2 : wfp c_tx t1 -> wfp c_tx t2 -> length o1 = length o2 ->
    go_tx_id H t1 (Some o1) = go_tx_id H t2 (Some o2) -> signed_part t1 = signed_part t2 \/ collision H.
  Proof.
    intros W1 W2 Hl E. cbn [go_tx_id] in E. destruct (hash_eq_cases H _ _ E) as [e|c]; [|right; exact c].
    apply app_inj_len in e; [|exact Hl]. destruct e as [e _]. exact (tx_signing_hash_extract_l t1 t2 W1 W2 e).
  Qed.
  Theorem tx_hash_extract_l t1 t2 : wfp c_tx t1 -> wfp c_tx t2 ->
    go_tx_hash H t1 = go_tx_hash H t2 -> norm_tx t1 = norm_tx t2 \/ collision H.
  Proof.
    intros W1 W2 E. destruct (hash_eq_cases H _ _ E) as [e|c]; [left|right; exact c]. exact (go_marshal_injective_l t1 t2 W1 W2 e).
  Qed.
  Theorem header_signing_hash_extract_l h1 h2 : wfp c_header h1 -> wfp c_header h2 ->
    go_header_signing_hash H h1 = go_header_signing_hash H h2 -> header_signed_view h1 = header_signed_view h2 \/ collision H.
  Proof.
    intros W1 W2 E. destruct (hash_eq_cases H _ _ E) as [e|c]; [left|right; exact c]. exact (header_signing_any_injective_l h1 h2 W1 W2 e).
  Qed.
  Theorem header_id_extract_l h1 h2 s1 s2 : wfp c_header h1 -> wfp c_header h2 -> length s1 = length s2 ->
    go_header_id_hash H h1 s1 = go_header_id_hash H h2 s2 -> header_signed_view h1 = header_signed_view h2 \/ collision H.
  Proof.
    intros W1 W2 Hl E. unfold go_header_id_hash in E. destruct (hash_eq_cases H _ _ E) as [e|c]; [|right; exact c].
    apply app_inj_len in e; [|exact Hl]. destruct e as [e _]. exact (header_signing_hash_extract_l h1 h2 W1 W2 e).
  Qed.
  (* the two F2 wire forms of one Go object have the same signing hash, id and hash, whatever H is *)
  Theorem f2_pair_same_id_l b t o : go_decode_tx b = Some t ->
    exists t', go_decode_tx (go_reencode_tx t) = Some t' /\ go_tx_id H t' o = go_tx_id H t o /\ go_tx_hash H t' = go_tx_hash H t.
  Proof.
    intros Hd. destruct (tx_reencode_same_object_l b t Hd) as [H1 [H2 H3]]. exists (norm_tx t). split; [exact H1|].
    unfold go_tx_id, go_tx_signing_hash, go_tx_hash. rewrite H2, H3. split; reflexivity.
  Qed.
End Extract.
