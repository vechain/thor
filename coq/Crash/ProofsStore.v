(* Crash/ProofsStore.v — the write-log store: what a batch does to [get]/[has], frames, monotone presence. *)
From Coq Require Import List NArith Bool Lia.
From Verif Require Import Crash.Model.
Import ListNotations.
Open Scope N_scope.

Lemma apply_batch_rev s w : apply_batch s w = rev w ++ s.
Proof.
  unfold apply_batch. revert s. induction w as [|o w IH]; intro s; simpl; auto.
  rewrite IH, <- app_assoc. reflexivity.
Qed.

Lemma apply_batch_app s w1 w2 : apply_batch s (w1 ++ w2) = apply_batch (apply_batch s w1) w2.
Proof. unfold apply_batch. apply fold_left_app. Qed.

Lemma apply_batch_cons s o w : apply_batch s (o :: w) = apply_batch (o :: s) w.
Proof. reflexivity. Qed.

Lemma apply_writes_app s w1 w2 : apply_writes s (w1 ++ w2) = apply_writes (apply_writes s w1) w2.
Proof. unfold apply_writes. apply fold_left_app. Qed.

Lemma apply_writes_snoc2 s ws w1 w2 : apply_writes s (ws ++ [w1; w2]) = apply_batch (apply_writes s (ws ++ [w1])) w2.
Proof. rewrite !apply_writes_app. reflexivity. Qed.

Lemma apply_writes_cons s w ws : apply_writes s (w :: ws) = apply_writes (apply_batch s w) ws.
Proof. reflexivity. Qed.

Lemma apply_writes_nil s : apply_writes s [] = s.
Proof. reflexivity. Qed.

(* the last operation of a batch on a key *)
Fixpoint last_op (k : key) (w : batch) : option op :=
  match w with
  | [] => None
  | o :: r => match last_op k r with
              | Some x => Some x
              | None => if key_eq_dec k (op_key o) then Some o else None
              end
  end.

Lemma get_cons_other o s k : k <> op_key o -> get (o :: s) k = get s k.
Proof. intro H. destruct o; simpl in *; destruct (key_eq_dec k k0); congruence. Qed.

Lemma get_apply_batch s w k :
  get (apply_batch s w) k =
  match last_op k w with
  | Some (Put _ v) => Some v
  | Some (Del _) => None
  | None => get s k
  end.
Proof.
  revert s. induction w as [|o w IH]; intro s; [reflexivity|].
  rewrite apply_batch_cons, IH. cbn [last_op].
  destruct (last_op k w) as [x|]; auto.
  destruct (key_eq_dec k (op_key o)) as [E|E].
  - destruct o; simpl in *; subst; destruct (key_eq_dec k0 k0); congruence.
  - apply get_cons_other; auto.
Qed.

Lemma get_apply_batch_ext s s' w k : get s k = get s' k -> get (apply_batch s w) k = get (apply_batch s' w) k.
Proof. intro E. rewrite !get_apply_batch. destruct (last_op k w) as [[? ?|?]|]; auto. Qed.

Lemma get_apply_writes_ext ws k : forall s s', get s k = get s' k -> get (apply_writes s ws) k = get (apply_writes s' ws) k.
Proof. induction ws as [|w r IH]; intros s s' E; simpl; auto. apply IH, get_apply_batch_ext, E. Qed.

Lemma last_op_none k w : (forall o, In o w -> op_key o <> k) -> last_op k w = None.
Proof.
  induction w as [|o w IH]; intro H; simpl; auto.
  rewrite IH by (intros; apply H; right; auto).
  destruct (key_eq_dec k (op_key o)); auto. exfalso. apply (H o); [left|]; auto.
Qed.

Lemma last_op_app k w1 w2 :
  last_op k (w1 ++ w2) = match last_op k w2 with Some x => Some x | None => last_op k w1 end.
Proof.
  induction w1 as [|o w1 IH]; simpl.
  - destruct (last_op k w2); auto.
  - rewrite IH. destruct (last_op k w2); auto.
Qed.

Lemma last_op_some_in k w o : last_op k w = Some o -> In o w /\ op_key o = k.
Proof.
  induction w as [|x w IH]; simpl; [discriminate|].
  destruct (last_op k w) as [y|].
  - intro H; inversion H; subst. destruct (IH eq_refl); auto.
  - destruct (key_eq_dec k (op_key x)); [|discriminate]. intro H; inversion H; subst; auto.
Qed.

Lemma get_frame s w k : (forall o, In o w -> op_key o <> k) -> get (apply_batch s w) k = get s k.
Proof. intro H. rewrite get_apply_batch, last_op_none; auto. Qed.

Lemma has_frame s w k : (forall o, In o w -> op_key o <> k) -> has (apply_batch s w) k = has s k.
Proof. intro H. unfold has. rewrite get_frame; auto. Qed.

Lemma get_frame_writes s ws k : (forall w o, In w ws -> In o w -> op_key o <> k) -> get (apply_writes s ws) k = get s k.
Proof.
  revert s. induction ws as [|w r IH]; intros s H; auto.
  rewrite apply_writes_cons, IH by (intros; eapply H; eauto; right; auto).
  apply get_frame. intros; eapply H; eauto. left; auto.
Qed.

Lemma apply_writes_concat ws : forall s, apply_writes s ws = apply_batch s (concat ws).
Proof.
  induction ws as [|w r IH]; intro s; simpl; auto.
  rewrite apply_batch_app. apply IH.
Qed.

Lemma last_op_none_inv k w : last_op k w = None -> forall o, In o w -> op_key o <> k.
Proof.
  induction w as [|x w IH]; simpl; [tauto|].
  destruct (last_op k w) as [y|]; [discriminate|].
  destruct (key_eq_dec k (op_key x)); [discriminate|].
  intros _ o [<-|Ho]; auto.
Qed.

Lemma in_firstn {A} j (l : list A) x : In x (firstn j l) -> In x l.
Proof. revert j. induction l as [|a l IH]; intros j H; destruct j; simpl in *; try tauto. destruct H; auto. right; eapply IH; eauto. Qed.

(* a batch that deletes nothing but chain-head entries *)
Definition nd_op (o : op) : bool :=
  match o with Put _ _ => true | Del (KHead _) => true | Del _ => false end.
Definition nd_batch (w : batch) : Prop := forall o, In o w -> nd_op o = true.

Definition is_head (k : key) : bool := match k with KHead _ => true | _ => false end.

Lemma has_mono s w k : nd_batch w -> is_head k = false -> has s k = true -> has (apply_batch s w) k = true.
Proof.
  intros Hnd Hk Hs. unfold has in *. rewrite get_apply_batch.
  destruct (last_op k w) as [o|] eqn:E; auto.
  destruct (last_op_some_in _ _ _ E) as [Hin Hkey].
  destruct o as [k1 v1|k1]; auto.
  specialize (Hnd _ Hin). simpl in *. subst k1. destruct k; simpl in *; congruence.
Qed.

Lemma has_put_in s w k v :
  In (Put k v) w -> (forall o, In o w -> o <> Del k) -> has (apply_batch s w) k = true.
Proof.
  intros Hin Hnd. unfold has. rewrite get_apply_batch.
  destruct (last_op k w) as [o|] eqn:E.
  - destruct (last_op_some_in _ _ _ E) as [Hi Hk]. destruct o; auto.
    simpl in Hk; subst. exfalso. apply (Hnd _ Hi); auto.
  - exfalso. revert E. clear Hnd. induction w as [|x w IH]; simpl in *; [tauto|].
    destruct Hin as [->|Hin].
    + destruct (last_op k w); [discriminate|]. simpl. destruct (key_eq_dec k k); [discriminate|congruence].
    + destruct (last_op k w); [discriminate|]. exfalso; apply IH; auto.
Qed.

Lemma get_put_last s w1 w2 k v :
  (forall o, In o w2 -> op_key o <> k) -> get (apply_batch s (w1 ++ Put k v :: w2)) k = Some v.
Proof.
  intro H. rewrite get_apply_batch, last_op_app. simpl.
  rewrite (last_op_none k w2) by auto. destruct (key_eq_dec k k); [auto|congruence].
Qed.

Lemma nd_batch_app w1 w2 : nd_batch w1 -> nd_batch w2 -> nd_batch (w1 ++ w2).
Proof. intros H1 H2 o Hin. apply in_app_or in Hin. destruct Hin; auto. Qed.

Lemma get_summary_frame s w id :
  (forall o, In o w -> op_key o <> KSummary id) -> get_summary (apply_batch s w) id = get_summary s id.
Proof. intro H. unfold get_summary. rewrite get_frame; auto. Qed.

Lemma stored_frame s w id :
  (forall o, In o w -> op_key o <> KSummary id) -> stored (apply_batch s w) id = stored s id.
Proof. intro H. unfold stored. rewrite get_summary_frame; auto. Qed.

Lemma get_id_frame s w k :
  (forall o, In o w -> op_key o <> k) -> get_id (apply_batch s w) k = get_id s k.
Proof. intro H. unfold get_id. rewrite get_frame; auto. Qed.

Lemma get_quality_frame s w id :
  (forall o, In o w -> op_key o <> KQuality id) -> get_quality (apply_batch s w) id = get_quality s id.
Proof. intro H. unfold get_quality. rewrite get_frame; auto. Qed.

Lemma stored_iff s id : stored s id = true <-> exists sm, get_summary s id = Some sm.
Proof. unfold stored. destruct (get_summary s id); split; eauto; [discriminate|intros (? & ?); discriminate]. Qed.

Lemma get_summary_stored s id sm : get_summary s id = Some sm -> stored s id = true.
Proof. intro H. apply stored_iff. eauto. Qed.

Lemma get_put s k v k' : get (apply_batch s [Put k v]) k' = if key_eq_dec k' k then Some v else get s k'.
Proof. reflexivity. Qed.

Lemma get_put_other s k v k' : k' <> k -> get (apply_batch s [Put k v]) k' = get s k'.
Proof. intro H. rewrite get_put. destruct (key_eq_dec k' k); [contradiction|reflexivity]. Qed.

Lemma get_summary_put_other s k v i : (forall j, k <> KSummary j) -> get_summary (apply_batch s [Put k v]) i = get_summary s i.
Proof. intro H. unfold get_summary. rewrite get_put_other; auto. Qed.

Lemma put_nd k v : nd_batch [Put k v].
Proof. intros o [<-|[]]. reflexivity. Qed.

Lemma get_quality_put s id q i : get_quality (apply_batch s [Put (KQuality id) (VNum q)]) i = if N.eq_dec i id then q else get_quality s i.
Proof.
  unfold get_quality. rewrite get_put. destruct (key_eq_dec (KQuality i) (KQuality id)) as [E|E]; destruct (N.eq_dec i id); congruence.
Qed.

Lemma get_quality_put_fin s f i : get_quality (apply_batch s [Put KFinalized (VId f)]) i = get_quality s i.
Proof. unfold get_quality. rewrite get_put_other; [reflexivity|discriminate]. Qed.

Lemma finalized_put s c f : finalized c (apply_batch s [Put KFinalized (VId f)]) = f.
Proof. reflexivity. Qed.

Lemma finalized_put_quality s c id q : finalized c (apply_batch s [Put (KQuality id) (VNum q)]) = finalized c s.
Proof. reflexivity. Qed.

(* no write changes or removes a summary *)
Definition keeps_summaries (s s' : store) : Prop := forall id sm, get_summary s id = Some sm -> get_summary s' id = Some sm.

Lemma keeps_frame s w : (forall o, In o w -> forall i, op_key o <> KSummary i) -> keeps_summaries s (apply_batch s w).
Proof. intros H id sm E. rewrite get_summary_frame; auto. Qed.

Lemma keeps_stored s s' id : keeps_summaries s s' -> stored s id = true -> stored s' id = true.
Proof. intros K H. apply stored_iff in H as (sm & E). eapply get_summary_stored, K, E. Qed.

Lemma keeps_put s k v : (forall i, k <> KSummary i) -> keeps_summaries s (apply_batch s [Put k v]).
Proof. intros H id sm E. rewrite get_summary_put_other; auto. Qed.

Lemma firstn_plus {A} (l : list A) : forall a d, firstn (a + d) l = firstn a l ++ firstn d (skipn a l).
Proof. induction l as [|x l IH]; intros a d; destruct a; simpl; auto; [destruct d; auto|f_equal; apply IH]. Qed.

Lemma firstn_length_app {A} (l1 l2 : list A) : firstn (length l1) (l1 ++ l2) = l1.
Proof. rewrite firstn_app, firstn_all, PeanoNat.Nat.sub_diag. apply app_nil_r. Qed.

Lemma firstn_app_le {A} j (l1 l2 : list A) : (j <= length l1)%nat -> firstn j (l1 ++ l2) = firstn j l1.
Proof. intro H. rewrite firstn_app. replace (j - length l1)%nat with 0%nat by lia. apply app_nil_r. Qed.

Fixpoint all_prefixes (P : store -> Prop) (s : store) (ws : list batch) : Prop :=
  P s /\ match ws with [] => True | w :: r => all_prefixes P (apply_batch s w) r end.

Lemma all_prefixes_firstn P s ws : all_prefixes P s ws -> forall j, P (apply_writes s (firstn j ws)).
Proof.
  revert s. induction ws as [|w r IH]; intros s H j.
  - destruct j; simpl; apply H.
  - destruct j; simpl; [apply H|]. apply IH. apply H.
Qed.

Lemma all_prefixes_head P s ws : all_prefixes P s ws -> P s.
Proof. destruct ws; simpl; tauto. Qed.

Lemma all_prefixes_last P s ws : all_prefixes P s ws -> P (apply_writes s ws).
Proof.
  intro H. pose proof (all_prefixes_firstn P s ws H (length ws)) as X. rewrite firstn_all in X. exact X.
Qed.

Lemma all_prefixes_app P s w1 w2 :
  all_prefixes P s w1 -> all_prefixes P (apply_writes s w1) w2 -> all_prefixes P s (w1 ++ w2).
Proof.
  revert s. induction w1 as [|w r IH]; intros s H1 H2; simpl in *.
  - exact H2.
  - split; [apply H1|]. apply IH; [apply H1|exact H2].
Qed.

Lemma all_prefixes_step (P : store -> Prop) s ws :
  P s -> (forall s' w, P s' -> In w ws -> P (apply_batch s' w)) -> all_prefixes P s ws.
Proof.
  revert s. induction ws as [|w r IH]; intros s H0 Hs; simpl; split; auto.
  apply IH; [apply Hs; simpl; auto|]. intros; apply Hs; simpl; auto.
Qed.
