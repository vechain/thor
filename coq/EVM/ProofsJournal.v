(* EVM/ProofsJournal.v — RevertToSnapshot after a snapshot undoes everything a frame did, whatever the frame and its nested
   frames (successful or failed) wrote: both stacked maps are back to exactly the levels they had, so every Get and the
   journal (logs, transfers) answer as at the snapshot. *)
From Coq Require Import ZArith List Bool Lia Arith.
From Verif Require Import EVM.Journal.
Import ListNotations.
Open Scope Z_scope.

Lemma pop_to_app (top base : smap) : pop_to (top ++ base) (length base) = base.
Proof.
  induction top as [|l top IH]; cbn [app].
  - destruct base as [|b base']; [reflexivity|]. cbn [pop_to]. rewrite Nat.leb_refl. reflexivity.
  - cbn [pop_to]. destruct (Nat.leb (length (l :: top ++ base)) (length base)) eqn:E.
    + apply Nat.leb_le in E. cbn [length] in E. rewrite app_length in E. lia.
    + exact IH.
Qed.

(* popping to a level above the base keeps the base and at least one level on top of it *)
Lemma pop_to_keeps (top base : smap) (d : nat) : top <> [] -> (length base < d)%nat ->
  exists top', top' <> [] /\ pop_to (top ++ base) d = top' ++ base.
Proof.
  intros Hne Hd. induction top as [|l top IH]; [congruence|]. cbn [app pop_to].
  destruct (Nat.leb (length (l :: top ++ base)) d) eqn:E.
  - exists (l :: top). split; [discriminate|reflexivity].
  - apply Nat.leb_gt in E. cbn [length] in E. rewrite app_length in E.
    destruct top as [|l2 top2]. { cbn in E. lia. }
    apply IH. discriminate.
Qed.

Lemma put_on_top (top base : smap) k v : top <> [] -> exists top', top' <> [] /\ put (top ++ base) k v = top' ++ base.
Proof. destruct top as [|l t]; [congruence|]. intros _. exists (((k, v) :: l) :: t). split; [discriminate|reflexivity]. Qed.

(* the base of a running frame: the levels both maps had right after the frame's snapshot, minus the fresh top levels *)
Definition above (s : sdb) (bst brepo : smap) : Prop :=
  exists tst trepo, tst <> [] /\ trepo <> [] /\ d_state s = tst ++ bst /\ d_repo s = trepo ++ brepo.

Lemma get_levels_put_top (sm : smap) k v : sm <> [] -> get_levels (put sm k v) k = Some v.
Proof. destruct sm as [|l t]; [congruence|]. intros _. cbn. rewrite Z.eqb_refl. reflexivity. Qed.

Section ActInd.
  Variable P : act -> Prop.
  Hypothesis Hs : forall k v, P (A_state k v).
  Hypothesis Hr : forall k v, P (A_repo k v).
  Hypothesis Hf : forall body failed, Forall P body -> P (A_frame body failed).
  Fixpoint act_ind' (a : act) : P a :=
    match a with
    | A_state k v => Hs k v
    | A_repo k v => Hr k v
    | A_frame body failed =>
        Hf body failed ((fix go (l : list act) : Forall P l :=
                           match l with [] => Forall_nil P | x :: t => Forall_cons x (act_ind' x) (go t) end) body)
    end.
End ActInd.

(* a frame body never touches the levels below the ones its snapshot created, and a failed frame restores its entry maps
   (plus the stateRevKey entry that Snapshot() leaves in the old top level of the repo) *)
Definition good (a : act) : Prop :=
  (forall s bst brepo, above s bst brepo -> above (run_act a s) bst brepo) /\
  (forall body, a = A_frame body true -> forall s, d_state s <> [] -> d_repo s <> [] ->
     run_act a s = mkSdb (d_state s) (put (d_repo s) SRK (Z.of_nat (depth (d_state s))))).

Lemma fold_above (body : list act) : Forall good body ->
  forall s bst brepo, above s bst brepo -> above (fold_left (fun st a' => run_act a' st) body s) bst brepo.
Proof.
  induction 1 as [|a l Ha Hl IH]; intros s bst brepo Hab; cbn [fold_left]; [exact Hab|].
  apply IH. apply (proj1 Ha). exact Hab.
Qed.

Lemma snapshot_above s : d_state s <> [] -> d_repo s <> [] ->
  let '(s1, rev) := snapshot s in
  rev = length (d_repo s) /\
  above s1 (d_state s) (put (d_repo s) SRK (Z.of_nat (depth (d_state s)))) /\
  (forall bst brepo, above s bst brepo -> above s1 bst brepo).
Proof.
  intros Hst Hrp. unfold snapshot, push. cbn.
  assert (Hlen : depth (put (d_repo s) SRK (Z.of_nat (depth (d_state s)))) = length (d_repo s)).
  { destruct (d_repo s); [congruence|reflexivity]. }
  split; [exact Hlen|]. split.
  - exists [[]], [[]]. repeat split; try discriminate.
  - intros bst brepo (tst & trepo & H1 & H2 & E1 & E2). cbn.
    destruct (put_on_top trepo brepo SRK (Z.of_nat (depth (d_state s))) H2) as (tr' & Hne & Ep).
    exists ([] :: tst), ([] :: tr'). repeat split; try discriminate.
    + rewrite E1. reflexivity.
    + rewrite E2, Ep. reflexivity.
Qed.

Lemma revert_restores s bst brepo0 srev :
  above s bst (put brepo0 SRK (Z.of_nat srev)) -> brepo0 <> [] -> srev = length bst ->
  revert_to s (length (put brepo0 SRK (Z.of_nat srev))) = mkSdb bst (put brepo0 SRK (Z.of_nat srev)).
Proof.
  intros (tst & trepo & H1 & H2 & E1 & E2) Hne Hs. unfold revert_to.
  rewrite E2, pop_to_app. rewrite get_levels_put_top by exact Hne.
  rewrite Nat2Z.id, E1, Hs, pop_to_app. reflexivity.
Qed.

Theorem all_acts_good (a : act) : good a.
Proof.
  induction a as [k v|k v|body failed IH] using act_ind'.
  - split; [|discriminate]. intros s bst brepo (tst & trepo & H1 & H2 & E1 & E2). cbn.
    destruct (put_on_top tst bst k v H1) as (t' & Hne & Ep).
    exists t', trepo. cbn. repeat split; auto. rewrite E1. exact Ep.
  - split; [|discriminate]. intros s bst brepo (tst & trepo & H1 & H2 & E1 & E2). cbn.
    destruct (put_on_top trepo brepo k v H2) as (t' & Hne & Ep).
    exists tst, t'. cbn. repeat split; auto. rewrite E2. exact Ep.
  - assert (Hrestore : forall s, d_state s <> [] -> d_repo s <> [] ->
              run_act (A_frame body true) s = mkSdb (d_state s) (put (d_repo s) SRK (Z.of_nat (depth (d_state s))))).
    { intros s Hst Hrp. cbn [run_act]. pose proof (snapshot_above s Hst Hrp) as Hsn.
      destruct (snapshot s) as [s1 rev]. destruct Hsn as (Erev & Hab & _).
      pose proof (fold_above body IH s1 _ _ Hab) as Hab2.
      rewrite Erev.
      replace (length (d_repo s)) with (length (put (d_repo s) SRK (Z.of_nat (depth (d_state s)))))
        by (destruct (d_repo s); [congruence|reflexivity]).
      apply revert_restores; [exact Hab2|exact Hrp|reflexivity]. }
    split.
    + intros s bst brepo Hab.
      assert (Hst : d_state s <> []). { destruct Hab as (tst & _ & H1 & _ & E1 & _). rewrite E1. destruct tst; [congruence|discriminate]. }
      assert (Hrp : d_repo s <> []). { destruct Hab as (_ & trepo & _ & H2 & _ & E2). rewrite E2. destruct trepo; [congruence|discriminate]. }
      destruct failed.
      * rewrite Hrestore by assumption.
        destruct Hab as (tst & trepo & H1 & H2 & E1 & E2).
        destruct (put_on_top trepo brepo SRK (Z.of_nat (depth (d_state s))) H2) as (t' & Hne & Ep).
        exists tst, t'. cbn. repeat split; auto. rewrite E2. exact Ep.
      * cbn [run_act]. pose proof (snapshot_above s Hst Hrp) as Hsn.
        destruct (snapshot s) as [s1 rev]. destruct Hsn as (_ & _ & Hkeep).
        apply (fold_above body IH). apply Hkeep. exact Hab.
    + intros body' E. inversion E; subst. exact Hrestore.
Qed.

Theorem failed_frame_restores_reads (body : list act) (s : sdb) (src : Z -> option Z) :
  d_state s <> [] -> d_repo s <> [] ->
  let s' := run_act (A_frame body true) s in
  d_state s' = d_state s /\
  (forall k, get src (d_state s') k = get src (d_state s) k) /\
  journal (d_state s') = journal (d_state s) /\
  (forall k, k <> SRK -> get src (d_repo s') k = get src (d_repo s) k) /\
  (forall k, k <> SRK -> filter (fun e => fst e =? k) (journal (d_repo s')) = filter (fun e => fst e =? k) (journal (d_repo s))).
Proof.
  intros Hst Hrp. cbn zeta. rewrite (proj2 (all_acts_good (A_frame body true)) body eq_refl s Hst Hrp). cbn [d_state d_repo].
  repeat split; try reflexivity.
  - intros k Hk. unfold get. destruct (d_repo s) as [|l t]; [congruence|]. cbn [put get_levels find_l].
    assert (E : (SRK =? k) = false) by (apply Z.eqb_neq; congruence). rewrite E. reflexivity.
  - intros k Hk. destruct (d_repo s) as [|l t]; [congruence|]. unfold journal. cbn [put map rev].
    assert (E : (SRK =? k) = false) by (apply Z.eqb_neq; congruence).
    rewrite !concat_app, !filter_app. f_equal. cbn [concat]. rewrite !app_nil_r, filter_app. cbn [filter fst].
    rewrite E. rewrite app_nil_r. reflexivity.
Qed.
