(* Compose/TipRefine.v — C14 <-> C04: the fork-choice premise `tip_rule` of the C14 reader theorems, discharged for the
   histories produced by the node model of coq/Bft.

   The C14 subscriber theorems (Chain/ProofsSys.v: reader_total, reader_quiescent_canonical, reads_converge; restated
   in Properties/C14.v as reader_converges / reader_reaches_best) are proved over Chain.Model histories
   `reachable g gp tag tip_rule r`, in which the `best` flag of every AddBlock is a free input constrained only by
   `tip_rule` (a block whose parent is the current best block becomes best).  Chain/TipRule.v proves that the fork choice
   of the Bft node model (Bft.Model.select) answers true for such a block; here the `best` flag of a Chain history IS
   that answer:

   * the two models encode ids differently.  Bft: id = number * 2^32 + rank, number = id / 2^32 (Bft.Tree.idnum);
     Chain: 32-byte ids, number = the first four bytes = shiftr id 224 (Chain.Model.num_of).  `cid` is the bridge:
     cid id = (idnum id) * 2^224 + id mod 2^32; it is injective and num_of (cid id) = idnum id.
   * a Bft block is abstracted to the Chain block with the mapped id / parent id and an empty body (`cblk`; the reader
     theorems do not look at bodies; timestamps, txs and receipts are not part of the Bft model).
   * `cimport` is the Chain-side step that mirrors Bft.Model.import: nothing when the import is refused (known block, parent
     missing, refused by Accepts), otherwise Chain.Model.add_block with conflicts = scan_conflicts (what
     guardBlockProcessing passes) and best := Bft.Model.select … — EXACTLY the flag Bft.Model.add_and_commit uses to
     move n_best (Node.commitBlock: becomeBest := bft.Select(...); repo.AddBlock(..., becomeBest)).
   * `sim` is the simulation relation (stored ids = image of the Bft repository under cid, same best block, Bft
     invariant, Chain history reachable under tip_rule); `init_sim`, `import_sim` prove it initially and across every
     import step; `bft_history_refines_chain` is the statement over whole import histories.
   * `reader_converges_on_bft_history`: hence the C14 reader conclusions hold on the Chain repository of every Bft
     import history; `bft_sys_refines` covers arbitrary interleavings of imports, own proposals (Bft.Model.propose,
     `propose_sim`) and restarts with reads.

   Premises that remain, per imported block (only for blocks that are actually stored, `storesb`): the height is the
   parent's + 1 (Bft.ProofsNode.valid_child), the total score is strictly above the parent's
   (consensus.validateBlockHeader: "block total score invalid" otherwise; the Bft model carries the score as data and
   does not check it), and the number is below 2^32-1 (Chain's valid_add).  The theorems hold for both values of the F1
   `guard` flag of Bft.Model.commit_block: add_and_commit stores the block and moves best whatever CommitBlock
   answers. *)
From Coq Require Import List NArith ZArith Bool Lia.
From Coq Require Import ZifyN ZifyNat ZifyBool.
From Verif Require Import Chain.Model Chain.Proofs Chain.ProofsWalk Chain.ProofsSys.
From Verif Require Bft.Tree Bft.Model Bft.ProofsChain Bft.ProofsNode Bft.ProofsCommit Chain.TipRule.
From Verif Require Import Compose.BftFacts.
Import ListNotations.
Open Scope N_scope.

Module BT := Verif.Bft.Tree.
Module BM := Verif.Bft.Model.
Module BC := Verif.Bft.ProofsChain.
Module BN := Verif.Bft.ProofsNode.

Definition cid (id : N) : N := N.shiftl (BT.idnum id) 224 + id mod BT.id_shift.

Local Transparent num_of.
Lemma cid_num id : num_of (cid id) = BT.idnum id.
Proof.
  unfold cid, num_of. rewrite N.shiftr_div_pow2, N.shiftl_mul_pow2.
  assert (Hp : 2 ^ 224 <> 0) by (apply N.pow_nonzero; discriminate).
  rewrite N.div_add_l by exact Hp. rewrite N.div_small; [apply N.add_0_r|].
  assert (H1 : id mod BT.id_shift < BT.id_shift) by (apply N.mod_lt; discriminate).
  assert (H2 : BT.id_shift < 2 ^ 224) by (vm_compute; reflexivity).
  eapply N.lt_trans; eassumption.
Qed.
Local Opaque num_of.

Lemma cid_inj a b : cid a = cid b -> a = b.
Proof.
  intros E. pose proof (f_equal num_of E) as En. rewrite !cid_num in En.
  unfold cid in E. rewrite En in E. apply N.add_cancel_l in E.
  assert (Hs : BT.id_shift <> 0) by discriminate.
  rewrite (N.div_mod a BT.id_shift Hs), (N.div_mod b BT.id_shift Hs).
  unfold BT.idnum in En. rewrite En, E. reflexivity.
Qed.

(* a Bft block seen as a Chain block: mapped id and parent id, empty body *)
Definition cblk (b : BT.blk) : blk := mkB (cid (BT.b_id b)) (cid (BT.b_parent b)) 0 [] [].

(* the block passes the three guards of import and is handed to add_and_commit *)
Definition storesb (nd : BM.node) (b : BT.blk) : bool :=
  negb (BT.known (BM.n_repo nd) (BT.b_id b)) && BT.known (BM.n_repo nd) (BT.b_parent b) &&
  BM.accepts (BM.n_repo nd) (BM.n_eng nd) (BT.b_parent b).

Lemma storesb_true nd b : storesb nd b = true ->
  BT.known (BM.n_repo nd) (BT.b_id b) = false /\ BT.known (BM.n_repo nd) (BT.b_parent b) = true /\
  BM.accepts (BM.n_repo nd) (BM.n_eng nd) (BT.b_parent b) = true.
Proof.
  unfold storesb. intros H. apply andb_true_iff in H. destruct H as [H H3]. apply andb_true_iff in H. destruct H as [H1 H2].
  apply negb_true_iff in H1. auto.
Qed.

Lemma import_refused guard c nd b : storesb nd b = false -> fst (BM.import guard c nd b) = nd.
Proof. intros H. rewrite import_eq. fold (storesb nd b). rewrite H. reflexivity. Qed.

Lemma import_stores guard c nd b : storesb nd b = true ->
  BM.import guard c nd b = BM.add_and_commit guard c nd b false.
Proof. intros H. rewrite import_eq. fold (storesb nd b). rewrite H. reflexivity. Qed.

Definition selected (c : BM.cfg) (nd : BM.node) (b : BT.blk) : bool :=
  BM.select c (BM.n_repo nd) (BM.n_eng nd) (BM.best_blk nd) b.

(* the AddBlock call that mirrors Bft.Model.add_and_commit: conflicts as guardBlockProcessing assigns them, best := Select *)
Definition cadd (c : BM.cfg) (nd : BM.node) (r : repo) (b : BT.blk) : repo :=
  match add_block r (cblk b) (scan_conflicts r (num_of (cid (BT.b_id b)))) (selected c nd b) with
  | Some r' => r'
  | None => r
  end.

Definition cimport (c : BM.cfg) (nd : BM.node) (r : repo) (b : BT.blk) : repo :=
  if storesb nd b then cadd c nd r b else r.

(* what the rest of the node guarantees about a block it stores (header validation).
   SIDE CONDITION: the score clause is enforced by consensus.validateBlockHeader on imported blocks only; own proposals are not
   validated, and under known finding F14 (PoS score rounds to 0) a packed block has its parent's total score, so the clause
   - and with it tip_rule for that history - fails there.  It holds for every PoA proposal and every PoS proposal outside F14. *)
Definition header_ok (nd : BM.node) (b : BT.blk) : Prop :=
  BN.valid_child (BM.n_repo nd) b /\
  (forall p, BT.find_blk (BM.n_repo nd) (BT.b_parent b) = Some p -> BT.b_score p < BT.b_score b) /\
  BT.b_num b < max_u32.

Record sim (c : BM.cfg) (gid gp tag : N) (nd : BM.node) (r : repo) : Prop := mkSim {
  sim_stored : forall x, stored r x <-> exists id, BT.known (BM.n_repo nd) id = true /\ x = cid id;
  sim_best   : r_best r = cid (BM.n_best nd);
  sim_inv    : BN.inv c nd;
  sim_reach  : reachable (cid gid) gp tag tip_rule r }.

Lemma init_sim c g master gp tag : BT.b_num g = 0 ->
  sim c (BT.b_id g) gp tag (BM.init_node g master) (init_repo (cid (BT.b_id g)) gp tag).
Proof.
  intros Hg. constructor.
  - intros x. unfold stored, get_summary, init_repo, BM.init_node. cbn [r_sums afind BM.n_repo]. split.
    + intros [s Hs]. destruct (N.eqb_spec (cid (BT.b_id g)) x) as [E|NE]; [|discriminate].
      exists (BT.b_id g). split; [|symmetry; exact E]. rewrite known_cons, N.eqb_refl. reflexivity.
    + intros [id [Hk ->]]. rewrite known_cons in Hk. cbn in Hk. rewrite orb_false_r in Hk. apply N.eqb_eq in Hk.
      rewrite Hk, N.eqb_refl. eexists. reflexivity.
  - reflexivity.
  - apply BN.init_inv. exact Hg.
  - apply reach_init.
Qed.

(* the engine's caches (casts, Justified()'s entry) play no part in the relation *)
Lemma sim_eng c gid gp tag nd r e' : sim c gid gp tag nd r -> BM.e_qs e' = BM.e_qs (BM.n_eng nd) ->
  sim c gid gp tag (BM.mkN (BM.n_repo nd) (BM.n_best nd) e') r.
Proof.
  intros [Sst Sbest [Hwf Hqs Hb Hm] Sreach] Eq. constructor; cbn [BM.n_repo BM.n_best]; try assumption.
  constructor; cbn [BM.n_repo BM.n_best BM.n_eng]; try assumption. rewrite Eq. exact Hqs.
Qed.

(* AddBlock + CommitBlock on the Bft side = one AddBlock on the Chain side that is valid (valid_add) and obeys tip_rule *)
Theorem add_and_commit_sim guard c gid gp tag nd r b pk : 0 < BM.c_L c ->
  sim c gid gp tag nd r ->
  BT.known (BM.n_repo nd) (BT.b_id b) = false -> BT.known (BM.n_repo nd) (BT.b_parent b) = true -> header_ok nd b ->
  sim c gid gp tag (fst (BM.add_and_commit guard c nd b pk)) (cadd c nd r b) /\
  exists conf best, valid_add r (cblk b) conf /\ tip_rule r (cblk b) best /\
                    add_block r (cblk b) conf best = Some (cadd c nd r b).
Proof.
  intros HL S Ek Ep [Hvc [Hsc Hnum]].
  destruct S as [Sst Sbest Sinv Sreach].
  destruct (proj1 (BC.known_find _ _) Ep) as [p Hp].
  destruct (BC.find_blk_id _ _ _ Hp) as [Hpid _].
  pose proof (Hvc p Hp) as Hn. pose proof (Hsc p Hp) as Hs.
  assert (Spar : stored r (cid (BT.b_parent b))) by (apply Sst; exists (BT.b_parent b); auto).
  destruct Spar as [ps Hps].
  set (conf := scan_conflicts r (num_of (cid (BT.b_id b)))).
  set (best := selected c nd b).
  assert (Ec : cadd c nd r b = match add_block r (cblk b) conf best with Some r' => r' | None => r end) by reflexivity.
  destruct (add_block r (cblk b) conf best) as [r'|] eqn:A.
  2:{ unfold add_block in A. change (b_parent (cblk b)) with (cid (BT.b_parent b)) in A. rewrite Hps in A. discriminate A. }
  rewrite Ec. clear Ec.
  assert (V : valid_add r (cblk b) conf).
  { unfold valid_add. change (b_id (cblk b)) with (cid (BT.b_id b)). change (b_parent (cblk b)) with (cid (BT.b_parent b)).
    rewrite !cid_num. repeat split.
    - destruct (get_summary r (cid (BT.b_id b))) as [s|] eqn:Hs'; [|reflexivity]. exfalso.
      assert (St : stored r (cid (BT.b_id b))) by (exists s; exact Hs').
      apply Sst in St. destruct St as [id [Hk E]]. apply cid_inj in E. subst id. rewrite Hk in Ek. discriminate Ek.
    - unfold BT.b_num in Hn. rewrite Hn, Hpid. reflexivity.
    - exact Hnum.
    - unfold conf. rewrite cid_num. reflexivity. }
  assert (T : tip_rule r (cblk b) best).
  { unfold tip_rule. change (b_parent (cblk b)) with (cid (BT.b_parent b)). rewrite Sbest. intros E.
    apply cid_inj in E. rewrite E in Hp.
    exact (proj1 (Chain.TipRule.child_of_best_is_selected c nd b p HL Sinv Hp E Hn Hs)). }
  split; [|exists conf, best; auto].
  pose proof (BN.add_and_commit_inv c HL guard nd b pk Sinv Ek Ep Hvc) as Sinv'.
  rewrite add_and_commit_eq in Sinv' |- *. fold (selected c nd b) in Sinv' |- *. fold best in Sinv' |- *.
  constructor; cbn [fst BM.n_repo BM.n_best] in *.
  - intros x. unfold stored. rewrite (add_summary r r' (cblk b) conf best A).
    change (b_id (cblk b)) with (cid (BT.b_id b)). destruct (N.eqb_spec (cid (BT.b_id b)) x) as [E|NE].
    + split; [|intros _; eexists; reflexivity]. intros _. exists (BT.b_id b). split; [|symmetry; exact E].
      rewrite known_cons, N.eqb_refl. reflexivity.
    + fold (stored r x). rewrite Sst. split; intros [id [Hk Ex]]; exists id; (split; [|exact Ex]).
      * rewrite known_cons, Hk. apply orb_true_r.
      * rewrite known_cons in Hk. apply orb_true_iff in Hk. destruct Hk as [Hk|Hk]; [|exact Hk].
        apply N.eqb_eq in Hk. subst x id. contradiction NE. reflexivity.
  - rewrite (add_best r r' (cblk b) conf best A), Sbest. destruct best; reflexivity.
  - exact Sinv'.
  - eapply reach_add; eauto.
Qed.

(* one import step.  The second conjunct says what happened on the Chain side: nothing, or one valid AddBlock call that
   obeys tip_rule *)
Theorem import_sim guard c gid gp tag nd r b : 0 < BM.c_L c ->
  sim c gid gp tag nd r -> (storesb nd b = true -> header_ok nd b) ->
  sim c gid gp tag (fst (BM.import guard c nd b)) (cimport c nd r b) /\
  (cimport c nd r b = r \/
   exists conf best, valid_add r (cblk b) conf /\ tip_rule r (cblk b) best /\
                     add_block r (cblk b) conf best = Some (cimport c nd r b)).
Proof.
  intros HL S Hh. unfold cimport. destruct (storesb nd b) eqn:Ea.
  2:{ rewrite (import_refused guard c nd b Ea). split; [exact S | left; reflexivity]. }
  destruct (storesb_true nd b Ea) as [Ek [Ep _]]. rewrite (import_stores guard c nd b Ea).
  destruct (add_and_commit_sim guard c gid gp tag nd r b false HL S Ek Ep (Hh eq_refl)) as [S' X]. auto.
Qed.

(* proposeAndCommit (the node's own blocks): ShouldVote only fills the casts; then the same AddBlock.  The packer builds
   a fresh block on a stored parent (no guards in Bft.Model.propose), so these two facts are premises here. *)
Lemma should_vote_keeps_qs c r e parent : BM.e_qs (fst (BM.should_vote c r e parent)) = BM.e_qs e.
Proof.
  unfold BM.should_vote. destruct ((BT.idnum parent + 1) / BM.c_L c =? 0); [reflexivity|].
  destruct (BT.find_blk r parent) as [p|]; [|reflexivity].
  destruct (BM.s_q _ =? 0); [reflexivity|].
  destruct (if BM.s_just _ then _ else _) as [recent|code]; reflexivity.
Qed.

Definition voted_node (c : BM.cfg) (nd : BM.node) (b : BT.blk) : BM.node :=
  BM.mkN (BM.n_repo nd) (BM.n_best nd) (fst (BM.should_vote c (BM.n_repo nd) (BM.n_eng nd) (BT.b_parent b))).

Definition cpropose (c : BM.cfg) (nd : BM.node) (r : repo) (b : BT.blk) : repo :=
  match snd (BM.should_vote c (BM.n_repo nd) (BM.n_eng nd) (BT.b_parent b)) with
  | BM.Ok _ => cadd c (voted_node c nd b) r b
  | BM.Err _ => r
  end.

Theorem propose_sim guard c gid gp tag nd r b : 0 < BM.c_L c ->
  sim c gid gp tag nd r ->
  BT.known (BM.n_repo nd) (BT.b_id b) = false -> BT.known (BM.n_repo nd) (BT.b_parent b) = true -> header_ok nd b ->
  sim c gid gp tag (fst (fst (BM.propose guard c nd b))) (cpropose c nd r b) /\
  (cpropose c nd r b = r \/
   exists conf best, valid_add r (cblk b) conf /\ tip_rule r (cblk b) best /\
                     add_block r (cblk b) conf best = Some (cpropose c nd r b)).
Proof.
  intros HL S Ek Ep Hh.
  pose proof (sim_eng c gid gp tag nd r _ S (should_vote_keeps_qs c (BM.n_repo nd) (BM.n_eng nd) (BT.b_parent b))) as S1.
  fold (voted_node c nd b) in S1.
  unfold BM.propose, cpropose. unfold voted_node in *.
  destruct (BM.should_vote c (BM.n_repo nd) (BM.n_eng nd) (BT.b_parent b)) as [e1 v]. cbn [fst snd] in *.
  destruct v as [vb|code]; cbn [fst].
  - destruct (add_and_commit_sim guard c gid gp tag _ r b true HL S1 Ek Ep Hh) as [S' X].
    destruct (BM.add_and_commit guard c _ b true) as [nd' code]. cbn [fst] in *. auto.
  - split; [exact S1 | left; reflexivity].
Qed.

Lemma restart_sim c gid gp tag nd r : sim c gid gp tag nd r -> sim c gid gp tag (BM.restart nd) r.
Proof. intros S. unfold BM.restart. apply sim_eng; [exact S | reflexivity]. Qed.

(* the two sides run in lock step *)
Fixpoint crun (guard : bool) (c : BM.cfg) (nd : BM.node) (r : repo) (bs : list BT.blk) : BM.node * repo :=
  match bs with
  | [] => (nd, r)
  | b :: t => crun guard c (fst (BM.import guard c nd b)) (cimport c nd r b) t
  end.

Lemma crun_node guard c bs : forall nd r, fst (crun guard c nd r bs) = BN.import_all c guard nd bs.
Proof. induction bs as [|b t IH]; intros nd r; [reflexivity|]. cbn [crun BN.import_all]. apply IH. Qed.

(* the Chain repository of a Bft import history: NewRepository, then one AddBlock per stored block *)
Definition chain_of_history (guard : bool) (c : BM.cfg) (g : BT.blk) (master gp tag : N) (bs : list BT.blk) : repo :=
  snd (crun guard c (BM.init_node g master) (init_repo (cid (BT.b_id g)) gp tag) bs).

(* the per-block premises, required in the states the history actually goes through and only for blocks that get stored *)
Fixpoint history_ok (guard : bool) (c : BM.cfg) (nd : BM.node) (bs : list BT.blk) : Prop :=
  match bs with
  | [] => True
  | b :: t => (storesb nd b = true -> header_ok nd b) /\ history_ok guard c (fst (BM.import guard c nd b)) t
  end.

Lemma crun_sim guard c gid gp tag : 0 < BM.c_L c -> forall bs nd r,
  sim c gid gp tag nd r -> history_ok guard c nd bs ->
  sim c gid gp tag (fst (crun guard c nd r bs)) (snd (crun guard c nd r bs)).
Proof.
  intros HL. induction bs as [|b t IH]; intros nd r S H; [exact S|].
  cbn [crun]. destruct H as [Hb Ht]. apply IH; [|exact Ht].
  exact (proj1 (import_sim guard c gid gp tag nd r b HL S Hb)).
Qed.

Theorem bft_history_refines_chain c guard g master gp tag bs :
  0 < BM.c_L c -> BT.b_num g = 0 -> history_ok guard c (BM.init_node g master) bs ->
  let nd := BN.import_all c guard (BM.init_node g master) bs in
  let r := chain_of_history guard c g master gp tag bs in
  num_of (cid (BT.b_id g)) = 0 /\
  reachable (cid (BT.b_id g)) gp tag tip_rule r /\
  (forall x, stored r x <-> exists id, BT.known (BM.n_repo nd) id = true /\ x = cid id) /\
  r_best r = cid (BM.n_best nd) /\
  BN.inv c nd.
Proof.
  intros HL Hg H nd r.
  pose proof (crun_sim guard c (BT.b_id g) gp tag HL bs _ _ (init_sim c g master gp tag Hg) H) as S.
  rewrite crun_node in S. fold nd in S. fold (chain_of_history guard c g master gp tag bs) in S. fold r in S.
  destruct S as [S1 S2 S3 S4]. split; [rewrite cid_num; exact Hg|]. auto.
Qed.

(* the same with the premises stated once and for all on the block tree the history is drawn from (the style of
   Bft.Safety.commit_block_total_statement): every block of the list whose parent is in the tree has the parent's
   number + 1 and a larger total score.  Orders, duplicates, orphans and blocks refused by Accepts are unrestricted. *)
Definition tree_ok (g : BT.blk) (bs : list BT.blk) : Prop :=
  (forall b p, In b bs -> In p (g :: bs) -> BT.b_id p = BT.b_parent b ->
               BT.b_num b = BT.b_num p + 1 /\ BT.b_score p < BT.b_score b) /\
  (forall b, In b bs -> BT.b_num b < max_u32).

Lemma tree_history_ok guard c g bs : tree_ok g bs -> forall rest nd,
  (forall x, In x (BM.n_repo nd) -> In x (g :: bs)) -> (forall b, In b rest -> In b bs) ->
  history_ok guard c nd rest.
Proof.
  intros [HT HN]. induction rest as [|b rest IH]; intros nd Hsub Hrest; [exact I|].
  cbn [history_ok]. assert (Hb : In b bs) by (apply Hrest; left; reflexivity). split.
  - intros _. repeat split.
    + intros p Hp. destruct (BC.find_blk_id _ _ _ Hp) as [Hid Hin]. exact (proj1 (HT b p Hb (Hsub p Hin) Hid)).
    + intros p Hp. destruct (BC.find_blk_id _ _ _ Hp) as [Hid Hin]. exact (proj2 (HT b p Hb (Hsub p Hin) Hid)).
    + exact (HN b Hb).
  - apply IH.
    + intros x Hx. destruct (Bft.ProofsCommit.import_repo_incl guard c nd b x Hx) as [->|Hx']; [right; exact Hb | exact (Hsub x Hx')].
    + intros b' Hb'. apply Hrest. right. exact Hb'.
Qed.

Theorem bft_tree_history_refines_chain c guard g master gp tag bs :
  0 < BM.c_L c -> BT.b_num g = 0 -> tree_ok g bs ->
  let nd := BN.import_all c guard (BM.init_node g master) bs in
  let r := chain_of_history guard c g master gp tag bs in
  num_of (cid (BT.b_id g)) = 0 /\
  reachable (cid (BT.b_id g)) gp tag tip_rule r /\
  (forall x, stored r x <-> exists id, BT.known (BM.n_repo nd) id = true /\ x = cid id) /\
  r_best r = cid (BM.n_best nd) /\
  BN.inv c nd.
Proof.
  intros HL Hg HT. apply bft_history_refines_chain; [exact HL | exact Hg |].
  apply (tree_history_ok guard c g bs HT bs).
  - cbn [BM.init_node BM.n_repo]. intros x [<-|[]]. left. reflexivity.
  - auto.
Qed.

(* a subscriber that starts, after any Bft import history, at any stored block holding the path to it: it is a `sys`
   state with the fork-choice premise discharged, so reads never fail, the stream applies to its stack, a quiescent
   subscriber holds the canonical chain, and it becomes quiescent at the node's best block (Bft's n_best) within
   height(best)+1 reads *)
Theorem reader_converges_on_bft_history c guard g master gp tag bs pos st :
  0 < BM.c_L c -> BT.b_num g = 0 -> history_ok guard c (BM.init_node g master) bs ->
  let nd := BN.import_all c guard (BM.init_node g master) bs in
  let r := chain_of_history guard c g master gp tag bs in
  is_path r pos st ->
  sys (cid (BT.b_id g)) gp tag r pos st /\
  r_best r = cid (BM.n_best nd) /\
  (exists l np st', read r pos = Ok (l, np) /\ apply_stream r st l = Some st' /\
      (forall a, In (a, true) l -> anc r pos a /\ ~ anc r (r_best r) a) /\
      (pos <> r_best r -> anc r (r_best r) np)) /\
  (forall np, read r pos = Ok ([], np) -> pos = r_best r /\ is_path r (r_best r) st) /\
  (exists k stB, (k <= N.to_nat (num_of (r_best r)) + 1)%nat /\
                 run_reads r k pos st = Some (r_best r, stB) /\ is_path r (r_best r) stB).
Proof.
  intros HL Hg H nd r P.
  destruct (bft_history_refines_chain c guard g master gp tag bs HL Hg H) as [Hg0 [R [_ [Eb _]]]].
  fold r in R, Eb. fold nd in Eb.
  assert (S : sys (cid (BT.b_id g)) gp tag r pos st) by (apply sys_start; assumption).
  split; [exact S|]. split; [exact Eb|]. split; [|split].
  - exact (reader_total _ gp tag Hg0 r pos st S).
  - intros np. exact (reader_quiescent_canonical _ gp tag Hg0 r pos st np S).
  - exact (reads_converge _ gp r (reachable_wf _ _ _ _ _ Hg0 R) (reachable_wf_body _ _ _ _ _ Hg0 R)
             (reachable_best_tip _ _ _ _ Hg0 R) pos st P).
Qed.

(* interleavings: the three events of the Bft node model — imports, own proposals (proposeAndCommit), restarts — each
   stored block with its per-block premises, between the reads of a subscriber.  Every such run is a `sys` run of C14
   (imports / proposals are sys_add steps or no-ops, a restart changes neither repository), with the two sides still in
   simulation; hence reader_total / reader_quiescent_canonical apply in every state of the run. *)
Section BftSys.
  Variables (c : BM.cfg) (guard : bool) (g : BT.blk) (master gp tag : N).
  Hypothesis HL : 0 < BM.c_L c.
  Hypothesis Hg : BT.b_num g = 0.

  Inductive bft_sys : BM.node -> repo -> N -> list N -> Prop :=
  | bsys_start bs pos st :
      history_ok guard c (BM.init_node g master) bs ->
      is_path (chain_of_history guard c g master gp tag bs) pos st ->
      bft_sys (BN.import_all c guard (BM.init_node g master) bs) (chain_of_history guard c g master gp tag bs) pos st
  | bsys_import nd r pos st b :
      bft_sys nd r pos st -> (storesb nd b = true -> header_ok nd b) ->
      bft_sys (fst (BM.import guard c nd b)) (cimport c nd r b) pos st
  | bsys_propose nd r pos st b :
      bft_sys nd r pos st ->
      BT.known (BM.n_repo nd) (BT.b_id b) = false -> BT.known (BM.n_repo nd) (BT.b_parent b) = true -> header_ok nd b ->
      bft_sys (fst (fst (BM.propose guard c nd b))) (cpropose c nd r b) pos st
  | bsys_restart nd r pos st : bft_sys nd r pos st -> bft_sys (BM.restart nd) r pos st
  | bsys_read nd r pos st l np st' :
      bft_sys nd r pos st -> read r pos = Ok (l, np) -> apply_stream r st l = Some st' -> bft_sys nd r np st'.

  Theorem bft_sys_refines nd r pos st : bft_sys nd r pos st ->
    sim c (BT.b_id g) gp tag nd r /\ sys (cid (BT.b_id g)) gp tag r pos st.
  Proof.
    induction 1 as [bs pos st H P | nd r pos st b _ [S Y] Hb | nd r pos st b _ [S Y] Ek Ep Hb | nd r pos st _ [S Y]
                   | nd r pos st l np st' _ [S Y] E Ap].
    - pose proof (crun_sim guard c (BT.b_id g) gp tag HL bs _ _ (init_sim c g master gp tag Hg) H) as S.
      rewrite crun_node in S. fold (chain_of_history guard c g master gp tag bs) in S.
      split; [exact S|]. apply sys_start; [exact (sim_reach _ _ _ _ _ _ S) | exact P].
    - destruct (import_sim guard c (BT.b_id g) gp tag nd r b HL S Hb) as [S' [E|[conf [best [V [T A]]]]]].
      + split; [exact S'|]. rewrite E. exact Y.
      + split; [exact S'|]. exact (sys_add _ _ _ r pos st (cblk b) conf best _ Y V T A).
    - destruct (propose_sim guard c (BT.b_id g) gp tag nd r b HL S Ek Ep Hb) as [S' [E|[conf [best [V [T A]]]]]].
      + split; [exact S'|]. rewrite E. exact Y.
      + split; [exact S'|]. exact (sys_add _ _ _ r pos st (cblk b) conf best _ Y V T A).
    - split; [apply restart_sim; exact S | exact Y].
    - split; [exact S|]. exact (sys_read _ _ _ r pos st l np st' Y E Ap).
  Qed.

  Corollary bft_sys_reader nd r pos st : bft_sys nd r pos st ->
    r_best r = cid (BM.n_best nd) /\ is_path r pos st /\
    (exists l np st', read r pos = Ok (l, np) /\ apply_stream r st l = Some st' /\
        (forall a, In (a, true) l -> anc r pos a /\ ~ anc r (r_best r) a) /\
        (pos <> r_best r -> anc r (r_best r) np)) /\
    (forall np, read r pos = Ok ([], np) -> pos = r_best r /\ is_path r (r_best r) st).
  Proof.
    intros B. destruct (bft_sys_refines nd r pos st B) as [S Y].
    assert (Hg0 : num_of (cid (BT.b_id g)) = 0) by (rewrite cid_num; exact Hg).
    split; [exact (sim_best _ _ _ _ _ _ S)|]. split; [exact (proj2 (sys_inv _ gp tag Hg0 _ _ _ Y))|]. split.
    - exact (reader_total _ gp tag Hg0 r pos st Y).
    - intros np. exact (reader_quiescent_canonical _ gp tag Hg0 r pos st np Y).
  Qed.
End BftSys.

(* genesis, x1, then the fork x2 / y2 on x1 (equal score: the smaller id x2 stays best), a duplicate of x1, an orphan,
   and y3 on y2: the node reorganises onto the y branch.  Epoch length 180: no block is justified, Select decides by
   total score and id. *)
Definition ex_cfg : BM.cfg := BM.mkCfg 180 3 false 0 [].
Definition ex_gen : BT.blk := BT.mkB (BT.mkid 0 1) 0 0 false 0.
Definition ex_x1 : BT.blk := BT.mkB (BT.mkid 1 1) (BT.mkid 0 1) 1 false 1.
Definition ex_x2 : BT.blk := BT.mkB (BT.mkid 2 1) (BT.mkid 1 1) 2 false 2.
Definition ex_y2 : BT.blk := BT.mkB (BT.mkid 2 2) (BT.mkid 1 1) 3 false 2.
Definition ex_orphan : BT.blk := BT.mkB (BT.mkid 5 1) (BT.mkid 4 1) 1 false 5.
Definition ex_y3 : BT.blk := BT.mkB (BT.mkid 3 1) (BT.mkid 2 2) 1 false 3.
Definition ex_bs : list BT.blk := [ex_x1; ex_x2; ex_y2; ex_x1; ex_orphan; ex_y3].
Definition ex_gp : N := N.shiftl max_u32 224.
Definition ex_repo : repo := chain_of_history true ex_cfg ex_gen 7 ex_gp 39 ex_bs.

Example ex_tree_ok : 0 < BM.c_L ex_cfg /\ BT.b_num ex_gen = 0 /\ tree_ok ex_gen ex_bs.
Proof.
  split; [reflexivity|]. split; [reflexivity|]. split.
  - intros b p Hb Hp E. cbn [ex_bs In] in Hb, Hp.
    repeat (destruct Hb as [<-|Hb]; [repeat (destruct Hp as [<-|Hp]; [try (vm_compute in E; discriminate E); vm_compute; split; reflexivity|]); destruct Hp|]).
    destruct Hb.
  - intros b Hb. cbn [ex_bs In] in Hb. repeat (destruct Hb as [<-|Hb]; [vm_compute; reflexivity|]). destruct Hb.
Qed.

(* the fork and the reorganisation on the Bft side, and the Chain repository computed by the abstraction: same best block
   (through cid), the four stored non-genesis blocks, and a subscriber left on the abandoned branch is led to the new
   canonical chain *)
Example ex_history :
  BM.n_best (BN.import_all ex_cfg true (BM.init_node ex_gen 7) [ex_x1; ex_x2; ex_y2]) = BT.mkid 2 1 /\
  BM.n_best (BN.import_all ex_cfg true (BM.init_node ex_gen 7) ex_bs) = BT.mkid 3 1 /\
  r_best ex_repo = cid (BT.mkid 3 1) /\
  map fst (r_sums ex_repo) = map cid [BT.mkid 3 1; BT.mkid 2 2; BT.mkid 2 1; BT.mkid 1 1; BT.mkid 0 1] /\
  read ex_repo (cid (BT.mkid 2 1)) = Ok ([(cid (BT.mkid 2 1), true); (cid (BT.mkid 2 2), false)], cid (BT.mkid 2 2)) /\
  run_reads ex_repo 2 (cid (BT.mkid 2 1)) (map cid [BT.mkid 2 1; BT.mkid 1 1; BT.mkid 0 1]) =
    Some (cid (BT.mkid 3 1), map cid [BT.mkid 3 1; BT.mkid 2 2; BT.mkid 1 1; BT.mkid 0 1]).
Proof. vm_compute. repeat split. Qed.

Example ex_path : is_path ex_repo (cid (BT.mkid 2 1)) (map cid [BT.mkid 2 1; BT.mkid 1 1; BT.mkid 0 1]).
Proof.
  assert (G : r_gen ex_repo = cid (BT.mkid 0 1)) by (vm_compute; reflexivity).
  cbn [map].
  eapply path_step; [vm_compute; reflexivity | vm_compute; discriminate |]. cbn [s_parent].
  eapply path_step; [vm_compute; reflexivity | vm_compute; discriminate |]. cbn [s_parent].
  rewrite <- G. apply path_gen.
Qed.

(* all hypotheses of the main theorems hold of the example: the theorems apply to it *)
Example ex_refines :
  reachable (cid (BT.b_id ex_gen)) ex_gp 39 tip_rule ex_repo /\
  sys (cid (BT.b_id ex_gen)) ex_gp 39 ex_repo (cid (BT.mkid 2 1)) (map cid [BT.mkid 2 1; BT.mkid 1 1; BT.mkid 0 1]).
Proof.
  destruct ex_tree_ok as [HL [Hg HT]].
  assert (H : history_ok true ex_cfg (BM.init_node ex_gen 7) ex_bs).
  { apply (tree_history_ok true ex_cfg ex_gen ex_bs HT ex_bs); [|auto].
    cbn [BM.init_node BM.n_repo]. intros x [<-|[]]. left. reflexivity. }
  (* sys_start on the reachable repository: going through reader_converges_on_bft_history would make the kernel compare its
     let-bound repository with ex_repo by evaluating both *)
  assert (R : reachable (cid (BT.b_id ex_gen)) ex_gp 39 tip_rule ex_repo)
    by exact (proj1 (proj2 (bft_history_refines_chain ex_cfg true ex_gen 7 ex_gp 39 ex_bs HL Hg H))).
  exact (conj R (sys_start _ ex_gp 39 ex_repo _ _ R ex_path)).
Qed.
