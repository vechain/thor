(* Staker/ProofsHist.v — from single operations to histories: every user operation and every block that is not an
   epoch boundary preserves the invariant and leaves the leader group (members, order, weights) and the total weight
   untouched; InvAll holds along every history provided the epoch-boundary step preserves it. *)
From Coq Require Import List NArith Bool Lia.
From Coq Require Import ZifyBool.
From Verif Require Import Common.Util Staker.Model Staker.Base Staker.Lists Staker.Inv Staker.ProofsStep Staker.ProofsUser.
Import ListNotations.
Open Scope N_scope.

Opaque e18 two64.

Definition is_block (o : op) : bool := match o with OBlock => true | _ => false end.

Lemma user_run_ok c o s s' x la lq :
  is_block o = false -> run_op c o s = Ok (s', x) -> WF s la lq -> Inv1 s -> InvA s -> user_ok s s' la lq.
Proof.
  intros Hb H Hwf Hi HA. destruct o; try discriminate; cbn [run_op] in H.
  - bstep H u G. eapply add_validation_ok; eauto.
  - bstep H u G. eapply increase_stake_ok; eauto.
  - bstep H u G. eapply decrease_stake_ok; eauto.
  - eapply signal_exit_ok; eauto.
  - bstep H r Hr. destruct r as [s1 y]. bstep H s2 Hp. inversion H; subst. eapply withdraw_stake_ok; eauto.
  - eapply set_online_ok; eauto.
  - eapply set_beneficiary_ok; eauto.
  - bstep H u G. eapply add_delegation_ok; eauto.
  - eapply signal_delegation_exit_ok; eauto.
  - bstep H r Hr. destruct r as [s1 y]. bstep H s2 Hp. inversion H; subst. eapply withdraw_delegation_ok; eauto.
  - eapply increase_reward_ok; eauto.
  - inversion H; subst. destruct Hi as [I1 I2 I3 I4 I5 I6 I7]. apply user_ok_same_vals; auto. constructor; cbn; auto.
  - inversion H; subst. destruct Hi as [I1 I2 I3 I4 I5 I6 I7]. apply user_ok_same_vals; auto. constructor; cbn; auto. lia.
Qed.

Lemma keeps_refl s la : keeps_active s s la.
Proof. split; auto. intros a v _ Hv. eauto. Qed.

Lemma user_step_ok c o s la lq :
  is_block o = false -> WF s la lq -> Inv1 s -> InvA s -> user_ok s (step c s o) la lq.
Proof.
  intros Hb Hwf Hi HA. unfold step. destruct (run_op c o s) as [[s' x]| |] eqn:E.
  - eapply user_run_ok; eauto.
  - exists lq. split; [auto|split; [auto|split; [apply keeps_refl|auto]]].
  - exists lq. split; [auto|split; [auto|split; [apply keeps_refl|auto]]].
Qed.

Lemma off_epoch_block_ok c s la lq :
  (blk s + 1) mod c_epoch c <> 0 -> WF s la lq -> Inv1 s -> InvA s -> user_ok s (step c s OBlock) la lq.
Proof.
  intros Hb Hwf [I1 I2 I3 I4 I5 I6 I7] HA. rewrite block_off_epoch by auto.
  apply user_ok_same_vals; auto. constructor; cbn; auto.
Qed.

Lemma ll_walk_seg s p h l fuel :
  seg s p h l None -> (length l <= fuel)%nat ->
  exists r, ll_walk fuel h s = Ok r /\ map fst r = l /\ forall a v, In (a, v) r -> getv s a = Some v.
Proof.
  revert p h fuel. induction l as [|a t IH]; intros p h fuel H Hf.
  - cbn in H. subst h. exists []. destruct fuel; cbn; repeat split; auto; intros ? ? [].
  - destruct H as [-> [v [Hv [Hp H]]]]. destruct fuel as [|f]; [cbn in Hf; lia|].
    destruct (IH (Some a) (v_next v) f H) as [r [Hr [Hm Hin]]]; [cbn in Hf; lia|].
    exists ((a, v) :: r). cbn [ll_walk]. rewrite Hv. cbn. rewrite Hr. cbn. repeat split; [f_equal; auto|].
    intros b vb [E|Hb]; [inversion E; subst; auto|auto].
Qed.

Lemma keys_length_le s l : NoDup l -> (forall a, In a l -> exists v, getv s a = Some v) -> (length l <= length (vals s))%nat.
Proof.
  intros Hnd Hin. rewrite <- (map_length fst (vals s)). apply NoDup_incl_length; auto.
  intros a Ha. destruct (Hin a Ha) as [v Hv]. apply (get_some_in_keys _ _ _ Hv).
Qed.

(* what the model's iteration over one of the two lists reports is exactly the abstract list, with the stored records *)
Lemma group_is_list w s l : wf_list s (get_ls w s) l ->
  exists r, iterate w s = Ok r /\ map fst r = l /\ forall a v, In (a, v) r -> getv s a = Some v.
Proof.
  intros [Hs Ht Hz Hn]. unfold iterate, walk_fuel.
  eapply ll_walk_seg; eauto. apply le_S. apply keys_length_le; auto.
  intros a Ha. eapply seg_in_get; eauto.
Qed.

Lemma leader_group_is_active_list s la lq : WF s la lq ->
  exists r, iterate true s = Ok r /\ map fst r = la /\ forall a v, In (a, v) r -> getv s a = Some v.
Proof. intros H. apply (group_is_list true), (wf_a _ _ _ H). Qed.

Definition leader_weights (s : st) : res (list (N * N)) :=
  r <- iterate true s;; Ok (map (fun av : N * validation => (fst av, v_weight (snd av))) r).

Lemma leader_weights_spec s la lq : WF s la lq ->
  exists ws, leader_weights s = Ok ws /\ map fst ws = la /\
             forall a w, In (a, w) ws -> exists v, getv s a = Some v /\ v_weight v = w.
Proof.
  intros Hwf. destruct (leader_group_is_active_list s la lq Hwf) as [r [Hr [Hm Hin]]].
  unfold leader_weights. rewrite Hr. cbn. eexists. split; [reflexivity|]. split.
  - rewrite map_map. cbn. exact Hm.
  - intros a w Hx. apply in_map_iff in Hx as [[b v] [E Hb]]. cbn in E. inversion E; subst. exists v. split; auto.
Qed.

Lemma weights_determined (l1 l2 : list (N * N)) :
  map fst l1 = map fst l2 -> NoDup (map fst l1) ->
  (forall a w1 w2, In (a, w1) l1 -> In (a, w2) l2 -> w1 = w2) -> l1 = l2.
Proof.
  revert l2. induction l1 as [|[a w] t IH]; intros [|[b x] t2] Hm Hnd Hw; cbn in *; try discriminate; auto.
  inversion Hm; subst. inversion Hnd; subst. f_equal.
  - f_equal. apply (Hw b); auto.
  - apply IH; auto. intros c w1 w2 Hc1 Hc2. apply (Hw c); auto.
Qed.

Lemma leader_weights_kept s s' la lq lq' :
  WF s la lq -> WF s' la lq' -> keeps_active s s' la -> leader_weights s' = leader_weights s /\ g_lw s' = g_lw s.
Proof.
  intros H1 H2 [K Kw]. split; auto.
  destruct (leader_weights_spec s la lq H1) as [w1 [E1 [M1 P1]]].
  destruct (leader_weights_spec s' la lq' H2) as [w2 [E2 [M2 P2]]].
  rewrite E1, E2. f_equal. apply weights_determined.
  - congruence.
  - rewrite M2. apply (wl_nodup _ _ _ (wf_a _ _ _ H2)).
  - intros a x2 x1 Hx2 Hx1. destruct (P1 a x1 Hx1) as [v1 [Hv1 <-]]. destruct (P2 a x2 Hx2) as [v2 [Hv2 <-]].
    assert (Hin : In a la) by (rewrite <- M1; apply in_map_iff; exists (a, v_weight v1); auto).
    destruct (K a v1 Hin Hv1) as [v' [Hv' Ew]]. congruence.
Qed.

Lemma InvAll_init d m : InvAll (init d m).
Proof.
  exists [], []. split; [|split].
  - constructor.
    + constructor; cbn; auto. constructor.
    + constructor; cbn; auto. constructor.
    + intros a v H. discriminate.
  - constructor; cbn; auto; try lia. intros id dd H. discriminate.
  - intros a _. reflexivity.
Qed.

(* the hypothesis of step_InvAll / run_InvAll: the epoch-boundary block step preserves InvAll (ProofsAll.v proves the
   stronger Full along every history without it) *)
Definition epoch_step_preserves (c : cfg) : Prop :=
  forall s, InvAll s -> (blk s + 1) mod c_epoch c = 0 -> InvAll (step c s OBlock).

Lemma step_InvAll c s o : epoch_step_preserves c -> InvAll s -> InvAll (step c s o).
Proof.
  intros He [la [lq [Hwf [Hi HA]]]]. destruct (is_block o) eqn:Eb.
  - destruct o; try discriminate. destruct (N.eq_dec ((blk s + 1) mod c_epoch c) 0) as [E|E].
    + apply He; auto. exists la, lq; auto.
    + destruct (off_epoch_block_ok c s la lq E Hwf Hi HA) as [lq' [H1 [H2 [_ H3]]]]. exists la, lq'; auto.
  - destruct (user_step_ok c o s la lq Eb Hwf Hi HA) as [lq' [H1 [H2 [_ H3]]]]. exists la, lq'; auto.
Qed.

Lemma run_InvAll c s ops : epoch_step_preserves c -> InvAll s -> InvAll (run c s ops).
Proof.
  intros He. revert s. induction ops as [|o t IH]; intros s H; cbn; auto.
  apply IH. apply step_InvAll; auto.
Qed.

(* histories without an epoch-boundary block *)
Fixpoint no_epoch_block (c : cfg) (s : st) (ops : list op) : Prop :=
  match ops with
  | [] => True
  | o :: t => (is_block o = true -> (blk s + 1) mod c_epoch c <> 0) /\ no_epoch_block c (step c s o) t
  end.

Lemma run_InvAll_no_epoch c s ops la lq :
  WF s la lq -> Inv1 s -> InvA s -> no_epoch_block c s ops ->
  exists lq', WF (run c s ops) la lq' /\ Inv1 (run c s ops) /\ InvA (run c s ops) /\
              leader_weights (run c s ops) = leader_weights s /\ g_lw (run c s ops) = g_lw s.
Proof.
  revert s lq. induction ops as [|o t IH]; intros s lq Hwf Hi HA Hn; cbn.
  - exists lq. split; [auto|split; [auto|split; [auto|split; reflexivity]]].
  - destruct Hn as [Hb Hn].
    assert (U : user_ok s (step c s o) la lq).
    { destruct (is_block o) eqn:Eb.
      - destruct o; try discriminate. apply off_epoch_block_ok; auto.
      - apply user_step_ok; auto. }
    destruct U as [lq1 [H1 [H2 [H3 H4]]]].
    destruct (IH (step c s o) lq1 H1 H2 H4 Hn) as [lq' [J1 [J2 [J3 [J4 J5]]]]].
    destruct (leader_weights_kept s (step c s o) la lq lq1 Hwf H1 H3) as [K1 K2].
    unfold run in *. exists lq'. split; [auto|split; [auto|split; [auto|split; congruence]]].
Qed.

Definition held (v : validation) : N := v_locked v + v_queued v + v_cooldown v + v_withdrawable v.

Lemma sumf_plus {V} (f g : V -> N) (m : list (N * V)) : sumf (fun v => f v + g v) m = sumf f m + sumf g m.
Proof. induction m as [|[k v] t IH]; cbn; [reflexivity|]. rewrite IH. lia. Qed.

Lemma effective_is_sum_of_holdings s : Inv1 s ->
  eff s = (sumf held (vals s) + sumf d_stake (dels s)) * e18 /\ eff s <= bal s /\
  g_lv s + g_q s + g_wd s + g_cd s = sumf held (vals s) + sumf d_stake (dels s).
Proof.
  intros [I1 I2 I3 I4 I5 I6 I7].
  assert (E : g_lv s + g_q s + g_wd s + g_cd s = sumf held (vals s) + sumf d_stake (dels s)).
  { unfold held. rewrite !sumf_plus. lia. }
  split; [rewrite I5, E; reflexivity|split; auto].
Qed.
