(* Crash/ProofsDual.v — where the log database's commit sits among the atomic writes of the main database during one
   import (cmd/thor/node/block_exec.go commitBlock): after the state commit and bft.Select, before Repository.AddBlock
   (index trie, block bulk) and bft.CommitBlock, and only for a block that becomes best.  Consequence for every cut of the
   combined write sequence: if the block is visible in the main database and it became best, its log commit has happened —
   the three block-level states of Crash/LogCrash.v ((absent, not logged), (absent, logged), (present, logged)) are all
   there is. *)
From Coq Require Import List NArith Bool Lia.
From Verif Require Import Crash.Model Crash.ProofsStore Crash.ProofsInv Crash.ProofsImport Crash.ProofsCrash
  Crash.ProofsEqv Crash.ProofsShape Crash.ProofsResumeAll Crash.ProofsFinalized Crash.ProofsQuality Crash.ProofsCatchUp.
Import ListNotations.
Open Scope N_scope.

Inductive wstep := WMain (w : batch) | WLog.

Definition mains (l : list wstep) : list batch := flat_map (fun x => match x with WMain w => [w] | WLog => [] end) l.

Definition becomes_best (c : cfg) (s : store) (b : blk) : bool :=
  precheck s b && accepts c s (b_parent b) && match select c s b with Some true => true | _ => false end.

Definition dual_steps (c : cfg) (s : store) (b : blk) : list wstep :=
  let ws := import_batches c s b in
  let k := length (state_batches b (conf_of s b)) in
  if becomes_best c s b then map WMain (firstn k ws) ++ WLog :: map WMain (skipn k ws) else map WMain ws.

Lemma mains_map ws : mains (map WMain ws) = ws.
Proof. induction ws as [|w r IH]; [reflexivity|]. cbn [map mains flat_map app]. f_equal. exact IH. Qed.

Lemma mains_app a b : mains (a ++ b) = mains a ++ mains b.
Proof. unfold mains. apply flat_map_app. Qed.

(* the main database sees exactly the writes of Crash/Model.v *)
Theorem dual_mains c s b : mains (dual_steps c s b) = import_batches c s b.
Proof.
  unfold dual_steps. destruct (becomes_best c s b); [|apply mains_map].
  rewrite mains_app. change (mains (WLog :: ?l)) with (mains l).
  rewrite !mains_map. apply firstn_skipn.
Qed.

Theorem side_block_has_no_log_commit c s b : becomes_best c s b = false -> ~ In WLog (dual_steps c s b).
Proof.
  intros H. unfold dual_steps. rewrite H. intro X. apply in_map_iff in X. destruct X as (w & E & _). discriminate.
Qed.

Lemma becomes_best_main c s b : becomes_best c s b = true -> main_case c s b true.
Proof.
  unfold becomes_best. intro H. apply andb_prop in H as [G H]. apply main_case_ok. split; [exact G|].
  destruct (select c s b) as [[|]|]; (reflexivity || discriminate).
Qed.

(* the import starts with the state commit *)
Lemma state_commit_first c s b ab : main_case c s b ab ->
  firstn (length (state_batches b (conf_of s b))) (import_batches c s b) = state_batches b (conf_of s b).
Proof. intro M. rewrite (main_case_batches c s b ab M). unfold pre_writes. rewrite <- app_assoc. apply firstn_length_app. Qed.

(* every cut of the combined sequence: a visible block that became best has its logs committed *)
Theorem visible_best_block_is_logged c s b j :
  becomes_best c s b = true ->
  let pre := firstn j (dual_steps c s b) in
  stored (apply_writes s (mains pre)) (b_id b) = true -> In WLog pre.
Proof.
  intros Hb pre Hs. pose proof (becomes_best_main c s b Hb) as M.
  pose proof (main_not_stored c s b true M) as Hns.
  unfold pre, dual_steps in *. rewrite Hb in *.
  rewrite (state_commit_first c s b true M) in *.
  set (sb := state_batches b (conf_of s b)) in *. set (ws := import_batches c s b) in *.
  destruct (PeanoNat.Nat.le_gt_cases j (length sb)) as [Hle|Hgt].
  - exfalso. rewrite firstn_app_le, firstn_map, mains_map in Hs by (rewrite map_length; lia).
    rewrite aux_writes_stored in Hs; [congruence|].
    intros w Hw. apply (state_batches_aux b (conf_of s b)). eapply in_firstn; eauto.
  - rewrite firstn_app, map_length. apply in_or_app. right.
    destruct (j - length sb)%nat as [|d] eqn:Ed; [lia|]. cbn [firstn]. left. reflexivity.
Qed.

(* ... and the log commit comes after the whole state commit of the block *)
Theorem log_commit_follows_state_commit c s b j :
  becomes_best c s b = true -> In WLog (firstn j (dual_steps c s b)) ->
  exists rest, mains (firstn j (dual_steps c s b)) = state_batches b (conf_of s b) ++ rest.
Proof.
  intros Hb Hin. pose proof (becomes_best_main c s b Hb) as M.
  unfold dual_steps in *. rewrite Hb in *.
  rewrite (state_commit_first c s b true M) in *.
  set (sb := state_batches b (conf_of s b)) in *. set (ws := import_batches c s b) in *.
  destruct (PeanoNat.Nat.le_gt_cases j (length sb)) as [Hle|Hgt].
  - exfalso. rewrite firstn_app_le, firstn_map in Hin by (rewrite map_length; lia).
    apply in_map_iff in Hin. destruct Hin as (w & E & _). discriminate.
  - rewrite firstn_app, firstn_all2 by (rewrite map_length; lia). rewrite mains_app, mains_map. eauto.
Qed.
