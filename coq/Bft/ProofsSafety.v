(* Bft/ProofsSafety.v — the proved parts of the multi-node safety argument (DESIGN §4, C03):
   the node invariants hold along ANY event history (import, own proposal, restart), hence
   Lemma A (the quality of the head an honest validator signs on never drops below that of anything it stored, in
   particular its own earlier blocks); Lemma B (a COM answer of ShouldVote certifies that every recorded own vote inside
   the window and at or above finalized is on one chain with the head's most recent justified checkpoint); and the
   intersection fact about two committed segments (they share more than (n-1)/3 validators all of whose votes in both
   segments are COM; with fewer than n/3 Byzantine one of them is honest).  The statement
   same_quality_commit_exclusive, defined at the end, is refuted in ProofsWitness2. *)
From Coq Require Import List NArith ZArith Bool Lia Permutation.
From Coq Require Import ZifyN ZifyNat ZifyBool.
From Verif Require Import Common.Util Bft.Tree Bft.Model Bft.Quorum Bft.ProofsTally Bft.ProofsChain Bft.ProofsNode
  Bft.ProofsLive Bft.Safety.
Import ListNotations.
Open Scope N_scope.

Section Events.
Variable c : cfg.
Hypothesis HL : 0 < c_L c.

Lemma should_vote_fst r e parent :
  fst (should_vote c r e parent) = with_casts e (match e_casts e with Some ca => ca | None => new_casts c r e end).
Proof.
  unfold should_vote. destruct ((idnum parent + 1) / c_L c =? 0); [reflexivity|].
  destruct (find_blk r parent) as [p|]; [|reflexivity].
  destruct (s_q _ =? 0); [reflexivity|].
  destruct (if s_just _ then _ else _); reflexivity.
Qed.

Lemma should_vote_keeps r e parent :
  let e' := fst (should_vote c r e parent) in
  e_qs e' = e_qs e /\ e_fin e' = e_fin e /\ e_master e' = e_master e.
Proof. rewrite should_vote_fst. cbn. tauto. Qed.

Lemma inv_eng_irrelevant nd e' : inv c nd -> e_qs e' = e_qs (n_eng nd) -> inv c (mkN (n_repo nd) (n_best nd) e').
Proof.
  intros [Hwf Hqs Hb Hm] Eq. constructor; cbn [n_repo n_best n_eng]; try assumption.
  - rewrite Eq. exact Hqs.
Qed.

Theorem propose_inv guard nd b : inv c nd -> valid_child (n_repo nd) b ->
  known (n_repo nd) (b_id b) = false -> known (n_repo nd) (b_parent b) = true ->
  inv c (fst (fst (propose guard c nd b))).
Proof.
  intros Hi Hvc Hf Hp. unfold propose.
  pose proof (should_vote_keeps (n_repo nd) (n_eng nd) (b_parent b)) as Hk. cbv zeta in Hk.
  destruct (should_vote c (n_repo nd) (n_eng nd) (b_parent b)) as [e1 v] eqn:Esv. cbn [fst] in Hk.
  pose proof (inv_eng_irrelevant nd e1 Hi (proj1 Hk)) as Hi1.
  destruct v as [vb|code]; cbn [fst].
  - pose proof (add_and_commit_inv c HL guard (mkN (n_repo nd) (n_best nd) e1) b true Hi1 Hf Hp Hvc) as H.
    destruct (add_and_commit guard c _ b true) as [nd' code]. exact H.
  - exact Hi1.
Qed.

Theorem restart_inv nd : inv c nd -> inv c (restart nd).
Proof. intros Hi. unfold restart. apply inv_eng_irrelevant; [exact Hi | reflexivity]. Qed.

(* Lemma A: whatever a node stores (in particular every block it proposed itself) has at most the quality of its best
   block, the block it proposes on next *)
Theorem head_quality_monotone nd x : inv c nd -> In x (n_repo nd) -> qual c (n_repo nd) x <= qual c (n_repo nd) (best_blk nd).
Proof.
  intros Hi Hin. destruct (inv_best c _ Hi) as [bb Hbb].
  destruct (N.eq_dec (b_id x) (n_best nd)) as [E|E].
  - assert (x = bb). { pose proof (chain_of_stored _ x (inv_wf c _ Hi) Hin) as F. rewrite E, Hbb in F. inversion F. reflexivity. }
    subst x. unfold best_blk. rewrite Hbb. lia.
  - pose proof (inv_max c _ Hi x Hin E) as Hb. unfold beats in Hb. lia.
Qed.
End Events.

Lemma should_vote_com_inv2 c r e parent e' : should_vote c r e parent = (e', Ok true) ->
  exists p recent ca,
    find_blk r parent = Some p /\ e_casts e' = Some ca /\ 0 < s_q (compute_state c r (e_qs e) p) /\
    (idnum parent + 1) / c_L c <> 0 /\
    (if s_just (compute_state c r (e_qs e) p)
     then match block_at r parent (checkpoint (c_L c) (b_num p)) with Some x => Ok (b_id x) | None => Err 4 end
     else match block_at r parent (storepoint (c_L c) (b_num p - c_L c)) with
          | None => Err 4
          | Some prev => find_cp c r (e_qs e) (s_q (compute_state c r (e_qs e) p)) (e_fin e) (b_id prev)
          end) = Ok recent /\
    (forall cp q, In (cp, q) ca -> idnum (e_fin e) <= idnum cp -> s_q (compute_state c r (e_qs e) p) - 1 <= q ->
       has_block r cp recent = true \/ has_block r recent cp = true).
Proof.
  unfold should_vote.
  destruct ((idnum parent + 1) / c_L c =? 0) eqn:E1; [intros H; inversion H|]. apply N.eqb_neq in E1.
  destruct (find_blk r parent) as [p|]; [|intros H; inversion H].
  destruct (s_q (compute_state c r (e_qs e) p) =? 0) eqn:E2; [intros H; inversion H|]. apply N.eqb_neq in E2.
  destruct (if s_just _ then _ else _) as [recent|code] eqn:Er; [|intros H; inversion H].
  intros H. injection H as He Hv. subst e'.
  exists p, recent, (match e_casts e with Some ca => ca | None => new_casts c r e end).
  split; [reflexivity|]. split; [reflexivity|]. split; [lia|]. split; [exact E1|]. split; [exact Er|].
  intros cp q Hin Hfin Hq. rewrite forallb_forall in Hv. specialize (Hv (cp, q) Hin). cbn [fst snd] in Hv.
  assert (A1 : (idnum (e_fin e) <=? idnum cp) = true) by (apply N.leb_le; exact Hfin).
  assert (A2 : (s_q (compute_state c r (e_qs e) p) - 1 <=? q) = true) by (apply N.leb_le; exact Hq).
  rewrite A1, A2 in Hv. cbn [andb] in Hv. destruct (idnum recent <? idnum cp); [left | right]; exact Hv.
Qed.

Theorem should_vote_com_inv c r e parent e' :
  should_vote c r e parent = (e', Ok true) ->
  exists p recent ca,
    find_blk r parent = Some p /\ e_casts e' = Some ca /\
    0 < s_q (compute_state c r (e_qs e) p) /\ (idnum parent + 1) / c_L c <> 0 /\
    (forall cp q, In (cp, q) ca -> idnum (e_fin e) <= idnum cp -> s_q (compute_state c r (e_qs e) p) - 1 <= q ->
       has_block r cp recent = true \/ has_block r recent cp = true).
Proof.
  intros H. destruct (should_vote_com_inv2 c r e parent e' H) as [p [recent [ca [Hp [Hca [Hq [H1 [_ Hwin]]]]]]]].
  exists p, recent, ca. tauto.
Qed.

Section Common.
Variable c : cfg.
Hypothesis Hpoa : thr_weight c = 0.     (* vote-count mode *)

(* the validators all of whose votes in the segment are COM *)
Definition com_voters (seg : list blk) : list N :=
  filter (fun s => allcom (map (vote_of c) seg) s) (signers seg).

Lemma com_voters_count pq seg : j_com (tally c pq seg) = N.of_nat (length (com_voters seg)).
Proof.
  destruct (tally_keys c pq seg) as [N1 [Hk [_ [_ [C1 [_ [_ [_ Hcom]]]]]]]].
  set (js := tally c pq seg) in *. rewrite C1.
  assert (Hperm : Permutation (keys (j_votes js)) (signers seg)).
  { apply NoDup_Permutation; [exact N1 | apply NoDup_nodup | exact Hk]. }
  assert (E : sumf f_one (j_votes js) =
              N.of_nat (length (filter (fun s => allcom (map (vote_of c) seg) s) (keys (j_votes js))))).
  { unfold sumf, f_one, keys. clear Hperm Hk C1. revert N1 Hcom. generalize (j_votes js) as vs.
    induction vs as [|[s v] vs IH]; intros N1 Hcom; [reflexivity|]. cbn [map sumN snd fst filter].
    rewrite (Hcom s v (or_introl eq_refl)).
    inversion N1 as [|? ? _ N2]; subst.
    rewrite IH; [|exact N2 | intros s' v' H; apply Hcom; right; exact H].
    destruct (allcom _ s); cbn [length]; lia. }
  rewrite E. unfold com_voters. f_equal.
  clear -Hperm. induction Hperm; cbn; try lia.
  - destruct (allcom _ x); cbn; lia.
  - destruct (allcom _ x), (allcom _ y); cbn; lia.
Qed.

(* two committed segments: more than (n-1)/3 validators voted COM (and nothing but COM) in both *)
Theorem double_commit_common_voters pq1 pq2 seg1 seg2 (u : list N) :
  incl (signers seg1) u -> incl (signers seg2) u -> N.of_nat (length u) <= c_mbp c -> c_pos c = false ->
  s_comm (summarize (tally c pq1 seg1)) = true -> s_comm (summarize (tally c pq2 seg2)) = true ->
  (c_mbp c - 1) / 3 < N.of_nat (length (inter (com_voters seg1) (com_voters seg2))).
Proof.
  intros H1 H2 Hu Hp C1 C2.
  assert (Hthr : thr_votes c = c_mbp c * 2 / 3) by (unfold thr_votes; rewrite Hp; reflexivity).
  assert (Hc : forall pq seg, s_comm (summarize (tally c pq seg)) = true -> c_mbp c * 2 / 3 < N.of_nat (length (com_voters seg))).
  { intros pq seg H. destruct (tally_keys c pq seg) as [_ [_ [_ [_ [_ [_ [T [TW _]]]]]]]].
    unfold summarize in H. cbn [s_comm] in H. rewrite TW, Hpoa, T in H. cbn [N.eqb] in H.
    rewrite com_voters_count, Hthr in H. apply N.ltb_lt. exact H. }
  apply (quorum_intersection_count_lemma (c_mbp c) u).
  - apply NoDup_filter. apply NoDup_nodup.
  - apply NoDup_filter. apply NoDup_nodup.
  - intros s Hs. apply H1. unfold com_voters in Hs. apply filter_In in Hs. tauto.
  - intros s Hs. apply H2. unfold com_voters in Hs. apply filter_In in Hs. tauto.
  - exact Hu.
  - exact (Hc pq1 seg1 C1).
  - exact (Hc pq2 seg2 C2).
Qed.

(* with fewer than a third Byzantine one of them is honest: it signed in both segments and every block it signed there
   carries COM *)
Theorem double_commit_honest_voter pq1 pq2 seg1 seg2 (u byz : list N) :
  incl (signers seg1) u -> incl (signers seg2) u -> N.of_nat (length u) <= c_mbp c -> c_pos c = false ->
  NoDup byz -> 3 * N.of_nat (length byz) < c_mbp c ->
  s_comm (summarize (tally c pq1 seg1)) = true -> s_comm (summarize (tally c pq2 seg2)) = true ->
  exists h, ~ In h byz /\
    (exists x, In x seg1 /\ b_signer x = h) /\ (forall x, In x seg1 -> b_signer x = h -> b_com x = true) /\
    (exists x, In x seg2 /\ b_signer x = h) /\ (forall x, In x seg2 -> b_signer x = h -> b_com x = true).
Proof.
  intros H1 H2 Hu Hp Hnb Hb C1 C2.
  pose proof (double_commit_common_voters pq1 pq2 seg1 seg2 u H1 H2 Hu Hp C1 C2) as Hq.
  destruct (more_than_excludes (inter (com_voters seg1) (com_voters seg2)) byz) as [h [Hh Hnb']].
  - apply NoDup_filter. apply NoDup_filter. apply NoDup_nodup.
  - exact Hnb.
  - lia.
  - apply inter_In in Hh. destruct Hh as [Ha Hb2]. exists h. split; [exact Hnb'|].
    assert (Hsplit : forall seg, In h (com_voters seg) ->
              (exists x, In x seg /\ b_signer x = h) /\ (forall x, In x seg -> b_signer x = h -> b_com x = true)).
    { intros seg Hin. unfold com_voters in Hin. apply filter_In in Hin. destruct Hin as [Hs Hall]. split.
      - unfold signers in Hs. apply nodup_In in Hs. apply in_map_iff in Hs. destruct Hs as [x [E Hx]]. exists x. tauto.
      - intros x Hx Es. unfold allcom in Hall. rewrite forallb_forall in Hall.
        specialize (Hall (vote_of c x) (in_map _ _ _ Hx)). cbn in Hall. rewrite Es, N.eqb_refl in Hall. exact Hall. }
    destruct (Hsplit seg1 Ha) as [A1 A2]. destruct (Hsplit seg2 Hb2) as [B1 B2]. tauto.
Qed.
End Common.

(* in a valid run with fewer than a third Byzantine no two epoch segments with conflicting checkpoints are both
   committed with the same resulting quality (global tree = every block made during the run).
   False of the vote rule as coded: ProofsWitness2.same_quality_commit_exclusive_refuted_lemma *)
Definition same_quality_commit_exclusive_statement (guard : bool) : Prop :=
  forall c g masters byz evs,
    0 < c_L c -> c_pos c = false -> b_num g = 0 -> NoDup masters -> NoDup byz -> (forall m, In m masters -> ~ In m byz) ->
    3 * N.of_nat (length byz) < c_mbp c -> N.of_nat (length masters + length byz) <= c_mbp c ->
    valid_run_b guard c byz (map (init_node g) masters) [g] evs = true ->
    let tree := seen_after [g] evs in
    forall b1 b2 cp1 cp2, In b1 tree -> In b2 tree ->
      s_comm (state_pure c (chain_of tree (b_id b1))) = true -> s_comm (state_pure c (chain_of tree (b_id b2))) = true ->
      quality_pure c (chain_of tree (b_id b1)) = quality_pure c (chain_of tree (b_id b2)) ->
      block_at tree (b_id b1) (checkpoint (c_L c) (b_num b1)) = Some cp1 ->
      block_at tree (b_id b2) (checkpoint (c_L c) (b_num b2)) = Some cp2 ->
      conflict tree (b_id cp1) (b_id cp2) = false.
