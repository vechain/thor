(* TxExec/Proofs.v — gas bounds, atomicity, not-started-no-change, block gas sum, price floor. *)
From Coq Require Import ZArith List Bool Lia.
From Verif Require Import Ledger.Model Ledger.Proofs TxExec.Model.
Import ListNotations.
Open Scope Z_scope.

Lemma fold_right_add_app {A} (f : A -> Z) l1 l2 :
  fold_right (fun x a => f x + a) 0 (l1 ++ l2) = fold_right (fun x a => f x + a) 0 l1 + fold_right (fun x a => f x + a) 0 l2.
Proof. induction l1; cbn [app fold_right]; [reflexivity|]. rewrite IHl1. lia. Qed.

Lemma safe_add_spec a b r : safe_add a b = Some r -> r = a + b.
Proof. unfold safe_add. destruct (_ <? _); intros H; inversion H; reflexivity. Qed.

Lemma intrinsic_loop_ge cs : forall tot r, Forall (fun c => 0 <= c_zeros c /\ 0 <= c_nonzeros c) cs ->
  intrinsic_loop cs tot = Some r -> tot <= r.
Proof.
  induction cs as [|c t IH]; intros tot r HF H; cbn in H; [inversion H; lia|].
  inversion HF as [|? ? [Hz Hn] HF']; subst.
  destruct (data_gas (c_zeros c) (c_nonzeros c)) as [g|] eqn:Eg; [|discriminate].
  destruct (safe_add tot g) as [t1|] eqn:E1; [|discriminate].
  destruct (safe_add t1 _) as [t2|] eqn:E2; [|discriminate].
  apply safe_add_spec in E1, E2. apply IH in H; [|exact HF'].
  assert (0 <= g).
  { unfold data_gas in Eg. destruct (_ =? 0); [inversion Eg; lia|].
    unfold safe_mul in Eg. destruct (4 * _ <? _); [|discriminate]. destruct (68 * _ <? _); [|discriminate].
    apply safe_add_spec in Eg. lia. }
  unfold clause_gas_creation, clause_gas in E2. destruct (c_to c); lia.
Qed.

Section ExecProofs.
  Variables W O : Type.
  Variable clause_result : env -> txn -> nat -> Z -> state W -> cres W O.
  Variable write_credit : Z -> Z -> Z -> W -> W.

  (* the only assumption about the EVM: it hands back no more gas than it was given, and a non-negative refund counter *)
  Definition oracle_ok : Prop :=
    forall e t i g st, 0 <= g -> 0 <= cr_left _ _ (clause_result e t i g st) <= g /\ 0 <= cr_refund _ _ (clause_result e t i g st).
  Definition cr_ok (cr : nat -> Z -> state W -> cres W O) : Prop :=
    forall i g st, 0 <= g -> 0 <= cr_left _ _ (cr i g st) <= g /\ 0 <= cr_refund _ _ (cr i g st).

  Definition log_ok (log : list (Z * Z * Z)) : Prop :=
    Forall (fun x => let '(gin, used, refund) := x in 0 <= refund /\ 2 * refund <= used /\ used <= gin) log.
  Definition log_used (log : list (Z * Z * Z)) : Z := fold_right (fun x a => let '(_, used, _) := x in used + a) 0 log.
  Definition log_refund (log : list (Z * Z * Z)) : Z := fold_right (fun x a => let '(_, _, rf) := x in rf + a) 0 log.

  Lemma log_used_app l1 l2 : log_used (l1 ++ l2) = log_used l1 + log_used l2.
  Proof. unfold log_used. induction l1 as [|[[? ?] ?] t IH]; cbn [app fold_right]; [reflexivity|]. rewrite IH. lia. Qed.
  Lemma log_refund_app l1 l2 : log_refund (l1 ++ l2) = log_refund l1 + log_refund l2.
  Proof. unfold log_refund. induction l1 as [|[[? ?] ?] t IH]; cbn [app fold_right]; [reflexivity|]. rewrite IH. lia. Qed.

  Lemma log_ok_half log : log_ok log -> 2 * log_refund log <= log_used log.
  Proof.
    intros B. induction B as [|[[gin used] rf] tl Hx _ IH]; [cbn; lia|].
    unfold log_refund, log_used in *. cbn [fold_right]. cbv beta iota in Hx. lia.
  Qed.

  Lemma step_facts g l rc : 0 <= l <= g -> 0 <= rc ->
    let used := g - l in let refund := Z.min (used / 2) rc in
    0 <= refund /\ 2 * refund <= used /\ used <= g /\ 0 <= l + refund <= g.
  Proof.
    intros H1 H2 used refund. subst used refund.
    pose proof (Z.div_mod (g - l) 2 ltac:(lia)). pose proof (Z.mod_pos_bound (g - l) 2 ltac:(lia)). lia.
  Qed.

  (* the gas accounting of the loop: what was handed out and not returned is what the log says was used less what it says was
     refunded (lft - lft' = Δused - Δrefund), each log entry within its own bounds *)
  Lemma run_clauses_inv cr T S (OK : cr_ok cr) cp cs : forall i lft st outs log lft' st' outs' rev log',
    0 <= lft -> log_ok log ->
    run_clauses W O cr T S cp i cs lft st outs log = (lft', st', outs', rev, log') ->
    0 <= lft' <= lft /\ log_ok log' /\
    lft - lft' = (log_used log' - log_used log) - (log_refund log' - log_refund log) /\
    (rev = true -> st' = cp /\ outs' = []) /\
    (rev = false -> length outs' = (length outs + length cs)%nat).
  Proof.
    induction cs as [|c rest IH]; intros i lft st outs log lft' st' outs' rev log' H0 HL H; cbn in H.
    - inversion H; subst. repeat split; try lia; auto; try discriminate.
    - destruct (OK i lft st H0) as [Hl Hr].
      set (r := cr i lft st) in *.
      pose proof (step_facts lft (cr_left _ _ r) (cr_refund _ _ r) Hl Hr) as [F1 [F2 [F3 F4]]]. cbv zeta in *.
      assert (HL' : log_ok (log ++ [(lft, lft - cr_left _ _ r, Z.min ((lft - cr_left _ _ r) / 2) (cr_refund _ _ r))])).
      { apply Forall_app. split; [exact HL|]. constructor; [|constructor]. cbv beta iota. lia. }
      destruct (cr_err _ _ r) eqn:E.
      + inversion H; subst. rewrite log_used_app, log_refund_app. cbn.
        split; [lia|]. split; [exact HL'|]. split; [lia|]. split; [intros _; split; reflexivity|discriminate].
      + apply IH in H; [|lia|exact HL']. destruct H as [A [B [C [D E']]]].
        rewrite log_used_app, log_refund_app in C. cbn in C.
        split; [lia|]. split; [exact B|]. split; [lia|]. split; [exact D|].
        intros Hrev. rewrite (E' Hrev), app_length. cbn. lia.
  Qed.

  Lemma pay_spec T S l who prepaid price tracked other b :
    pay T S l who prepaid price tracked other = inr b ->
    (b = mkBought price who tracked prepaid (fst (energy_sub T S l who prepaid)) /\ snd (energy_sub T S l who prepaid) = true)
    \/ other = inr b.
  Proof.
    unfold pay. destruct (energy_sub T S l who prepaid) as [l1 ok]. destruct ok; intros H.
    - left. inversion H. split; reflexivity.
    - right. exact H.
  Qed.

  (* who may pay for a transaction: the delegator, or the origin, or — within the user's credit — the contract all clauses
     call, or its sponsor *)
  Definition payer_ok (t : txn) (ci : credit_info) (price who : Z) : Prop :=
    match t_delegator t with
    | Some d => who = d
    | None => who = t_origin t \/
              (exists to, common_to (t_clauses t) = Some to /\ t_gas t * price <= k_credit ci /\
                          (who = to \/ (k_is_sponsor ci = true /\ who = k_sponsor ci)))
    end.

  (* what a successful buyGas establishes: the prepayment was taken from the payer at the effective price, which is not
     below the base fee *)
  Definition bought_ok (e : env) (t : txn) (ci : credit_info) (l : ledger) (b : bought) : Prop :=
    b_prepaid b = t_gas t * b_price b /\
    b_led b = fst (energy_sub (e_time e) (e_stop e) l (b_payer b) (b_prepaid b)) /\
    snd (energy_sub (e_time e) (e_stop e) l (b_payer b) (b_prepaid b)) = true /\
    (forall bf, e_base_fee e = Some bf -> bf <= b_price b) /\
    b_price b = effective_price e t (match e_base_fee e with Some bf => bf | None => 0 end) /\
    payer_ok t ci (b_price b) (b_payer b).

  Lemma buy_gas_spec e t ci l b : buy_gas e t ci l = inr b -> bought_ok e t ci l b.
  Proof.
    unfold buy_gas. destruct (if t_dynamic t then e_base_fee e else Some 0) as [bf0|] eqn:E0; [|discriminate].
    assert (EP : effective_price e t bf0 = effective_price e t (match e_base_fee e with Some bf => bf | None => 0 end)).
    { unfold effective_price. destruct (t_dynamic t); [rewrite E0|]; reflexivity. }
    set (price := effective_price e t bf0) in *.
    destruct (match e_base_fee e with Some bf => price <? bf | None => false end) eqn:EB; [discriminate|].
    assert (HP : forall bf, e_base_fee e = Some bf -> bf <= price).
    { intros bf Hbf. rewrite Hbf in EB. apply Z.ltb_ge in EB. exact EB. }
    (* bought_ok is closed under one more attempt to pay, by an admissible payer *)
    assert (G : forall who tr other, payer_ok t ci price who ->
              (forall b', other = inr b' -> bought_ok e t ci l b') ->
              forall b', pay (e_time e) (e_stop e) l who (t_gas t * price) price tr other = inr b' -> bought_ok e t ci l b').
    { intros who tr other Hw HO b' Hp. apply pay_spec in Hp. destruct Hp as [[-> Hs]|Hp]; [|auto].
      unfold bought_ok; cbn. repeat split; auto. }
    assert (G0 : forall b', (inl ErrInsufficientEnergy : start_err + bought) = inr b' -> bought_ok e t ci l b') by discriminate.
    unfold payer_ok in G. destruct (t_delegator t).
    - apply G; auto.
    - assert (Go : forall b', pay (e_time e) (e_stop e) l (t_origin t) (t_gas t * price) price false (inl ErrInsufficientEnergy) = inr b' ->
                   bought_ok e t ci l b') by (apply G; auto).
      destruct (common_to (t_clauses t)) as [to|]; [|apply Go].
      destruct (_ <=? k_credit ci) eqn:CR; [apply Z.leb_le in CR|apply Go].
      (* within the credit: the sponsor if there is one, then the contract, then the origin *)
      destruct (k_is_sponsor ci) eqn:SP; [apply G; [right; exists to; auto|]|]; (apply G; [right; exists to; auto|exact Go]).
  Qed.

  Lemma resolve_spec t ig : resolve t = inr ig -> intrinsic_gas (t_clauses t) = Some ig /\ ig <= t_gas t.
  Proof.
    unfold resolve. destruct (negb (t_sig_ok t)); [discriminate|].
    destruct (intrinsic_gas (t_clauses t)) as [g|]; [|discriminate].
    destruct (t_gas t <? g) eqn:E; [discriminate|]. apply Z.ltb_ge in E.
    repeat match goal with |- context [if ?c then _ else _] => destruct c; try discriminate end.
    intros H; inversion H; subst. split; [reflexivity|lia].
  Qed.

  Lemma intrinsic_pos cs ig : Forall (fun c => 0 <= c_zeros c /\ 0 <= c_nonzeros c) cs ->
    intrinsic_gas cs = Some ig -> tx_gas <= ig.
  Proof.
    intros HF H. destruct cs as [|c cs]; [cbn in H; inversion H; unfold tx_gas, clause_gas; lia|].
    unfold intrinsic_gas in H. apply intrinsic_loop_ge in H; auto.
  Qed.

  (* a transaction that ran to a receipt: the stages it passed, the clause loop, and the state and receipt built from them *)
  Lemma exec_tx_done e t ci st0 st rc :
    exec_tx W O clause_result write_credit e t ci st0 = Done W O st rc ->
    exists ig b lft st2 outs rev log,
      resolve t = inr ig /\ t_gas t <= e_gas_limit e /\ buy_gas e t ci (fst st0) = inr b /\
      run_clauses W O (clause_result e t) (e_time e) (e_stop e) (b_led b, snd st0) 0%nat (t_clauses t) (t_gas t - ig)
                  (b_led b, snd st0) [] [] = (lft, st2, outs, rev, log) /\
      let track := b_credit_tracked b && k_is_user ci in
      let credit' := k_credit ci - (b_prepaid b - lft * b_price b) in
      st = (energy_add (e_time e) (e_stop e) (energy_add (e_time e) (e_stop e) (fst st2) (b_payer b) (lft * b_price b))
                       (e_benef e) (reward_of e t (t_gas t - lft)),
            if track then match common_to (t_clauses t) with
                          | Some to => write_credit to (t_origin t) credit' (snd st2)
                          | None => snd st2
                          end
            else snd st2) /\
      rc = mkReceipt O (t_gas t - lft) ((t_gas t - lft) * b_price b) (reward_of e t (t_gas t - lft)) rev outs (b_payer b)
                     (b_price b) (if track then Some credit' else None) log.
  Proof.
    unfold exec_tx. destruct (resolve t) as [err|ig]; [discriminate|].
    destruct (e_gas_limit e <? t_gas t) eqn:EL; [discriminate|]. apply Z.ltb_ge in EL.
    destruct (buy_gas e t ci (fst st0)) as [err|b]; [discriminate|].
    destruct (t_ctx_err t); [discriminate|].
    destruct (run_clauses _ _ _ _ _ _ _ _ _ _ _ _) as [[[[lft st2] outs] rev] log] eqn:ERC.
    intros H; inversion H; subst. exists ig, b, lft, st2, outs, rev, log. repeat split; auto.
  Qed.

  Theorem gas_bounds_lemma (OK : oracle_ok) e t ci st0 st rc :
    exec_tx W O clause_result write_credit e t ci st0 = Done W O st rc ->
    exists ig, intrinsic_gas (t_clauses t) = Some ig /\
      ig <= r_gas_used O rc <= t_gas t /\
      t_gas t <= e_gas_limit e /\
      r_paid O rc = r_gas_used O rc * r_price O rc /\
      log_ok (r_clause_log O rc) /\
      r_gas_used O rc = ig + log_used (r_clause_log O rc) - log_refund (r_clause_log O rc) /\
      2 * log_refund (r_clause_log O rc) <= log_used (r_clause_log O rc).
  Proof.
    intros H. destruct (exec_tx_done _ _ _ _ _ _ H) as (ig & b & lft & st2 & outs & rev & log & ER & EL & _ & ERC & _ & ->).
    apply resolve_spec in ER. destruct ER as [EI Hig].
    cbn [r_gas_used r_paid r_reward r_reverted r_outputs r_payer r_price r_credit r_clause_log].
    apply (run_clauses_inv _ _ _ (OK e t)) in ERC; [|lia|constructor].
    destruct ERC as [A [B [C _]]]. change (log_used []) with 0 in C. change (log_refund []) with 0 in C.
    pose proof (log_ok_half log B).
    exists ig. repeat split; try lia; auto.
  Qed.

  Theorem tx_atomic_lemma (OK : oracle_ok) e t ci st0 st rc :
    exec_tx W O clause_result write_credit e t ci st0 = Done W O st rc -> r_reverted O rc = true ->
    let T := e_time e in let S := e_stop e in
    let prepaid := t_gas t * r_price O rc in
    let returned := (t_gas t - r_gas_used O rc) * r_price O rc in
    r_outputs O rc = [] /\
    snd (energy_sub T S (fst st0) (r_payer O rc) prepaid) = true /\
    fst st = energy_add T S (energy_add T S (fst (energy_sub T S (fst st0) (r_payer O rc) prepaid))
                                        (r_payer O rc) returned) (e_benef e) (r_reward O rc) /\
    (snd st = snd st0 \/
     exists to credit', r_credit O rc = Some credit' /\ common_to (t_clauses t) = Some to /\
                        snd st = write_credit to (t_origin t) credit' (snd st0)).
  Proof.
    intros H Hrev. destruct (exec_tx_done _ _ _ _ _ _ H) as (ig & b & lft & st2 & outs & rev & log & ER & _ & EB & ERC & -> & ->).
    apply buy_gas_spec in EB. destruct EB as [Hpre [Hled [Hok _]]].
    cbn in Hrev. subst rev. cbn.
    apply resolve_spec in ER. destruct ER as [_ Hig].
    apply (run_clauses_inv _ _ _ (OK e t)) in ERC; [|lia|constructor].
    destruct ERC as [_ [_ [_ [D _]]]]. destruct (D eq_refl) as [-> ->]. cbn [fst snd].
    rewrite <- Hpre.
    replace (t_gas t - (t_gas t - lft)) with lft by lia.
    split; [reflexivity|]. split; [exact Hok|]. split; [rewrite Hled; reflexivity|].
    destruct (b_credit_tracked b && k_is_user ci); [|left; reflexivity].
    destruct (common_to (t_clauses t)) as [to|]; [|left; reflexivity].
    right. eexists _, _. repeat split; reflexivity.
  Qed.

  (* a transaction that cannot start changes nothing (the ToContext failure leaves the debit: undone by the packer, below) *)
  Theorem not_started_unchanged_lemma e t ci st0 err st :
    exec_tx W O clause_result write_credit e t ci st0 = Failed W O err st -> err <> ErrContext -> st = st0.
  Proof.
    unfold exec_tx. destruct (resolve t); [intros H; inversion H; reflexivity|].
    destruct (_ <? t_gas t); [intros H; inversion H; reflexivity|].
    destruct (buy_gas _ _ _ _); [intros H; inversion H; reflexivity|].
    destruct (t_ctx_err t); [intros H; inversion H; congruence|].
    destruct (run_clauses _ _ _ _ _ _ _ _ _ _ _ _) as [[[[? ?] ?] ?] ?]. discriminate.
  Qed.

  Theorem adopt_rejected_unchanged_lemma e used t ci st0 st :
    adopt W O clause_result write_credit e used t ci st0 = Rejected W O st -> st = st0.
  Proof.
    unfold adopt. destruct (_ <? _); [intros H; inversion H; reflexivity|].
    destruct (exec_tx _ _ _ _ _ _ _ _); intros H; inversion H; reflexivity.
  Qed.

  Lemma adopt_adopted e used t ci st0 st rc :
    adopt W O clause_result write_credit e used t ci st0 = Adopted W O st rc ->
    (used + t_gas t) mod two64 <= e_gas_limit e /\ exec_tx W O clause_result write_credit e t ci st0 = Done W O st rc.
  Proof.
    unfold adopt. destruct (_ <? _) eqn:EM; [discriminate|]. apply Z.ltb_ge in EM.
    destruct (exec_tx _ _ _ _ _ _ _ _); intros H; inversion H; subst. auto.
  Qed.

  Definition sum_used (rcs : list (receipt O)) : Z := fold_right (fun rc a => r_gas_used O rc + a) 0 rcs.
  Lemma sum_used_app a b : sum_used (a ++ b) = sum_used a + sum_used b.
  Proof. apply fold_right_add_app. Qed.

  Theorem block_gas_lemma (OK : oracle_ok) e txs :
    2 * e_gas_limit e < two64 ->
    Forall (fun p => 0 <= t_gas (fst p) < two64 /\
                     Forall (fun c => 0 <= c_zeros c /\ 0 <= c_nonzeros c) (t_clauses (fst p))) txs ->
    forall used st rcs used' st' rcs',
    0 <= used <= e_gas_limit e -> used = sum_used rcs ->
    adopt_all W O clause_result write_credit e used txs st rcs = (used', st', rcs') ->
    used' = sum_used rcs' /\ 0 <= used' <= e_gas_limit e.
  Proof.
    intros HL HF. induction HF as [|[t ci] rest [Hg Hc] _ IH]; intros used st rcs used' st' rcs' Hu Hs H; cbn in H.
    - inversion H; subst. split; [reflexivity|lia].
    - cbn [fst] in *. destruct (adopt _ _ _ _ _ _ _ _ _) as [s1|s1 rc] eqn:EA.
      + apply IH in H; auto.
      + apply IH in H; auto.
        * apply adopt_adopted in EA. destruct EA as [EM EX].
          apply (gas_bounds_lemma OK) in EX. destruct EX as [ig [EI [[G1 G2] [G3 _]]]].
          pose proof (intrinsic_pos _ _ Hc EI). unfold tx_gas in *.
          rewrite Z.mod_small in EM by (unfold two64 in *; lia). lia.
        * rewrite sum_used_app. cbn. lia.
  Qed.

  Theorem price_ge_basefee_lemma e t ci st0 st rc bf :
    exec_tx W O clause_result write_credit e t ci st0 = Done W O st rc -> e_base_fee e = Some bf ->
    bf <= r_price O rc.
  Proof.
    intros H Hbf. destruct (exec_tx_done _ _ _ _ _ _ H) as (ig & b & lft & st2 & outs & rev & log & _ & _ & EB & _ & _ & ->).
    apply buy_gas_spec in EB. destruct EB as [_ [_ [_ [HP _]]]]. cbn. auto.
  Qed.

End ExecProofs.
