(* GenProofs/SequenceProofs.v — lemmas over the GENERATED translation of logdb/sequence.go (coq/Gen/Sequence.v). *)
From Coq Require Import ZArith Bool Lia.
From Verif Require Import Common.GoInt Gen.Sequence.
Open Scope Z_scope.
Local Ltac Zify.zify_post_hook ::= Z.div_mod_to_equations.

Definition seq_ok (b t l : Z) : Prop := 0 <= b <= 268435455 /\ 0 <= t <= 32767 /\ 0 <= l <= 1048575.
Definition pack (b t l : Z) : Z := b * 34359738368 + t * 1048576 + l.   (* b*2^35 + t*2^20 + l *)

Lemma land_shiftl_small hi lo k : 0 <= k -> 0 <= lo < 2 ^ k -> Z.land (Z.shiftl hi k) lo = 0.
Proof.
  intros Hk [Hlo0 Hlo1]. apply Z.bits_inj'. intros n Hn. rewrite Z.land_spec, Z.bits_0.
  destruct (Z.ltb_spec n k) as [H|H].
  - rewrite Z.shiftl_spec_low by assumption. reflexivity.
  - destruct (Z.eq_dec lo 0) as [->|Hne]; [rewrite Z.bits_0; apply andb_false_r|].
    assert (Hpos : 0 < lo) by (clear Hlo1; lia).
    assert (Hlog : Z.log2 lo < k) by (apply Z.log2_lt_pow2; assumption).
    rewrite (Z.bits_above_log2 lo n); [apply andb_false_r|assumption|clear Hlo1; lia].
Qed.

Lemma lor_mul_add hi lo k : 0 <= k -> 0 <= lo < 2 ^ k -> Z.lor (hi * 2 ^ k) lo = hi * 2 ^ k + lo.
Proof.
  intros Hk Hlo. rewrite <- Z.shiftl_mul_pow2 by lia.
  rewrite <- Z.lxor_lor, <- Z.add_nocarry_lxor by (apply land_shiftl_small; auto). reflexivity.
Qed.

(* the packed value is the arithmetic combination: no bit of one field overlaps another, nothing is truncated *)
Theorem new_sequence_value b t l : seq_ok b t l -> newSequence b t l = Some (pack b t l).
Proof.
  unfold seq_ok, newSequence, pack. intros [Hb [Ht Hl]].
  destruct (Z.ltb_spec 268435455 b); [lia|].
  destruct (Z.ltb_spec 32767 t); [lia|].
  destruct (Z.ltb_spec 1048575 l); [lia|].
  f_equal. drop_wraps. rewrite !Z.shiftl_mul_pow2 by lia. drop_wraps.
  (* inner lor: t*2^20 < 2^35; outer lor: b*2^35 + t*2^20 = (b*2^15 + t)*2^20 and l < 2^20 *)
  rewrite (lor_mul_add b) by lia.
  replace (b * 2 ^ 35 + t * 2 ^ 20) with ((b * 2 ^ 15 + t) * 2 ^ 20) by lia.
  rewrite lor_mul_add by lia. lia.
Qed.

Theorem new_sequence_rejects b t l : 0 <= b -> 0 <= t -> 0 <= l -> ~ seq_ok b t l -> newSequence b t l = None.
Proof.
  unfold seq_ok, newSequence. intros Hb Ht Hl Hn.
  destruct (Z.ltb_spec 268435455 b); [reflexivity|].
  destruct (Z.ltb_spec 32767 t); [reflexivity|].
  destruct (Z.ltb_spec 1048575 l); [reflexivity|]. lia.
Qed.

(* the accessors invert the packing *)
Theorem accessors_invert b t l : seq_ok b t l ->
  sequence_BlockNumber (pack b t l) = b /\ sequence_TxIndex (pack b t l) = t /\ sequence_LogIndex (pack b t l) = l.
Proof.
  unfold seq_ok, pack, sequence_BlockNumber, sequence_TxIndex, sequence_LogIndex. intros [Hb [Ht Hl]].
  rewrite (Z.land_ones _ 28), (Z.land_ones _ 15), (Z.land_ones _ 20), !Z.shiftr_div_pow2 by lia. unwrap.
  repeat split; lia.
Qed.

(* packing is injective and order-isomorphic to the lexicographic order on (block, tx, log) *)
Theorem pack_lex_lt b1 t1 l1 b2 t2 l2 : seq_ok b1 t1 l1 -> seq_ok b2 t2 l2 ->
  (pack b1 t1 l1 < pack b2 t2 l2 <-> b1 < b2 \/ (b1 = b2 /\ (t1 < t2 \/ (t1 = t2 /\ l1 < l2)))).
Proof. unfold seq_ok, pack. lia. Qed.

Theorem pack_injective b1 t1 l1 b2 t2 l2 : seq_ok b1 t1 l1 -> seq_ok b2 t2 l2 ->
  pack b1 t1 l1 = pack b2 t2 l2 -> b1 = b2 /\ t1 = t2 /\ l1 = l2.
Proof. unfold seq_ok, pack. lia. Qed.

Theorem pack_nonneg_int64 b t l : seq_ok b t l -> 0 <= pack b t l < 9223372036854775808.
Proof. unfold seq_ok, pack. lia. Qed.
