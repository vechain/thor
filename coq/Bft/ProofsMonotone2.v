(* Bft/ProofsMonotone2.v — the single-node clause of C03 for own proposals (proposeAndCommit has no Accepts test):
   a proposal on a best block that descends from finalized keeps finalized on its own ancestry; without that premise
   it does not: a node whose best block lies off its finalized branch (possible only when two conflicting branches both
   commit) can finalize a non-descendant by packing the store point of a committed epoch there (witness with three
   Byzantine validators of four).  finalized's NUMBER never decreases in any case. *)
From Coq Require Import List NArith ZArith Bool Lia.
From Coq Require Import ZifyN ZifyNat ZifyBool.
From Verif Require Import Common.Util Bft.Tree Bft.Model Bft.Quorum Bft.ProofsTally Bft.ProofsChain Bft.ProofsSuffix
  Bft.ProofsNode Bft.ProofsFinal Bft.ProofsMonotone Bft.ProofsCommit Bft.Safety Bft.ProofsSafety Bft.ProofsCasts Bft.ProofsRun
  Bft.ProofsWitness.
Import ListNotations.
Open Scope N_scope.

Section Mono2.
Variable c : cfg.
Hypothesis HL : 0 < c_L c.

(* the packing flavour of CommitBlock touches only the votes record *)
Lemma add_and_commit_packing_same nd b :
  let a := fst (add_and_commit true c nd b true) in let a' := fst (add_and_commit true c nd b false) in
  n_repo a = n_repo a' /\ n_best a = n_best a' /\ e_fin (n_eng a) = e_fin (n_eng a').
Proof.
  unfold add_and_commit. cbv zeta. rewrite commit_block_packing.
  destruct (commit_block true c (b :: n_repo nd) (n_eng nd) b false) as [e1 err].
  destruct (negb (err =? 0)); [cbn; tauto|].
  destruct (e_casts e1); [destruct (block_at _ _ _)|]; cbn; tauto.
Qed.

Theorem propose_monotone nd b : inv c nd -> fin_ok nd -> honest_ok c nd b = true -> known (n_repo nd) (b_id b) = false ->
  has_block (n_repo nd) (n_best nd) (e_fin (n_eng nd)) = true ->       (* the best block descends from finalized *)
  let nd' := fst (fst (propose true c nd b)) in
  has_block (n_repo nd') (e_fin (n_eng nd')) (e_fin (n_eng nd)) = true /\
  has_block (n_repo nd') (b_id b) (e_fin (n_eng nd)) = true /\ fin_ok nd'.
Proof.
  intros Hi Hfo Hok Hfresh Hdesc. destruct (honest_ok_facts c nd b Hok) as [Hs [Hpar [Hnum [v [Hv _]]]]].
  destruct (best_in c nd Hi) as [Hbin Hbid]. cbv zeta. unfold propose.
  pose proof (should_vote_keeps c (n_repo nd) (n_eng nd) (b_parent b)) as Hk. cbv zeta in Hk.
  destruct (should_vote c (n_repo nd) (n_eng nd) (b_parent b)) as [e1 v0] eqn:Esv. cbn [fst snd] in *. subst v0.
  destruct Hk as [Hq1 [Hf1 Hm1]].
  set (nd1 := mkN (n_repo nd) (n_best nd) e1).
  assert (Hi1 : inv c nd1) by (apply inv_eng_irrelevant; assumption).
  assert (Hfo1 : fin_ok nd1) by (unfold fin_ok, nd1 in *; cbn [n_repo n_eng]; rewrite Hf1; exact Hfo).
  assert (Hvc : valid_child (n_repo nd1) b).
  { intros p Hp. unfold nd1 in Hp. cbn [n_repo] in Hp. rewrite Hpar, <- Hbid in Hp.
    rewrite (find_blk_in _ _ (inv_wf c _ Hi) Hbin) in Hp. inversion Hp; subst p. exact Hnum. }
  assert (Hpk : known (n_repo nd1) (b_parent b) = true) by (unfold nd1; cbn [n_repo]; rewrite Hpar, <- Hbid; apply known_in; exact Hbin).
  assert (Hacc : accepts (n_repo nd1) (n_eng nd1) (b_parent b) = true).
  { unfold accepts, nd1. cbn [n_repo n_eng]. rewrite Hf1, Hpar. destruct (negb (idnum (e_fin (n_eng nd)) =? 0)); [exact Hdesc | reflexivity]. }
  destruct (add_and_commit_monotone c HL true nd1 b Hi1 Hfo1 Hfresh Hpk Hvc Hacc) as [H1 [H2 H3]].
  destruct (add_and_commit_packing_same nd1 b) as [Er [Eb Ef]]. cbv zeta in Er, Eb, Ef.
  destruct (add_and_commit true c nd1 b true) as [nd' code]. cbn [fst] in *.
  unfold nd1 in H1, H2. cbn [n_eng] in H1, H2. rewrite Hf1 in H1, H2.
  rewrite Er, Ef. split; [exact H2|]. split; [exact H1|].
  unfold fin_ok in *. rewrite Er, Ef. exact H3.
Qed.
End Mono2.

(* node of validator 1; validators 2,3,4 Byzantine.  Branch W (tail 2): epochs 1,2 justified without COM, epoch 3 (12W..14W)
   all COM; branch S (tail 3): epoch 1 justified, epoch 2 (8S..11S) all COM -> importing 11S finalizes 4S while the best
   block stays 14W (higher quality); packing the store point 15W then finalizes 8W, which is not a descendant of 4S. *)
Definition wb (k signer : N) (com : bool) : blk := bk k 2 (if k =? 4 then 1 else 2) signer com (k * 4).
Definition sb (k signer : N) (com : bool) : blk := bk k 3 (if k =? 4 then 1 else 3) signer com k.
Definition p1 := bk 1 1 1 2 false 4.  Definition p2 := bk 2 1 1 3 false 8.  Definition p3 := bk 3 1 1 4 false 12.
Definition pm_imports : list blk :=
  [p1; p2; p3; wb 4 2 false; wb 5 3 false; wb 6 4 false; wb 7 2 false; wb 8 2 false; wb 9 3 false; wb 10 4 false; wb 11 2 false;
   wb 12 2 true; wb 13 3 true; wb 14 4 true;
   sb 4 2 false; sb 5 3 false; sb 6 4 false; sb 7 2 false; sb 8 2 true; sb 9 3 true; sb 10 4 true; sb 11 2 true].
Definition pm_node : node := import_all cfg4 true (init_node gen 1) pm_imports.
Definition w15 : blk := bk 15 2 2 1 true 57.

Lemma propose_not_monotone_witness :
  honest_ok cfg4 pm_node w15 = true /\ e_fin (n_eng pm_node) = b_id (sb 4 2 false) /\
  let nd' := fst (fst (propose true cfg4 pm_node w15)) in
  e_fin (n_eng nd') = b_id (wb 8 2 false) /\ has_block (n_repo nd') (e_fin (n_eng nd')) (e_fin (n_eng pm_node)) = false /\
  has_block (n_repo pm_node) (n_best pm_node) (e_fin (n_eng pm_node)) = false.
Proof. vm_compute. repeat split; reflexivity. Qed.
