(* BaseFee/Proofs.v — bounds of the base fee recurrence. *)
From Coq Require Import ZArith Lia List.
Import ListNotations.
From Verif Require Import BaseFee.Model.
Open Scope Z_scope.

Lemma gas_target_nowrap gl : 0 <= gl <= max_nowrap_gas_limit -> gas_target gl = gl * 75 / 100.
Proof.
  intros H. unfold gas_target, gas_target_percentage.
  rewrite Z.mod_small; [reflexivity|].
  unfold max_nowrap_gas_limit, gas_target_percentage, two64 in *.
  change ((18446744073709551616 - 1) / 75) with 245956587649460688 in H. lia.
Qed.

Lemma target_bounds gl : 2 <= gl -> 0 < gl * 75 / 100 /\ gl - gl * 75 / 100 <= gl * 75 / 100 /\ gl * 75 / 100 <= gl.
Proof. intros H. pose proof (Z.div_mod (gl * 75) 100 ltac:(lia)). pose proof (Z.mod_pos_bound (gl*75) 100 ltac:(lia)). lia. Qed.

Lemma scaled_le pb d t c : 0 <= pb -> 0 <= d <= t -> 0 < t -> 0 < c -> 0 <= pb * d / t / c <= pb / c.
Proof.
  intros Hpb Hd Ht Hc. split.
  - apply Z.div_pos; [|lia]. apply Z.div_pos; [|lia]. apply Z.mul_nonneg_nonneg; lia.
  - apply Z.div_le_mono; [lia|]. apply Z.div_le_upper_bound; [lia|].
    rewrite (Z.mul_comm t pb). apply Z.mul_le_mono_nonneg_l; lia.
Qed.

(* after the fork block and without uint64 wrap, the next base fee is one of three closed forms in the target t = 75% of the
   parent's gas limit: unchanged at the target, up by an eighth of the relative excess (at least 1) above it, down by an eighth
   of the relative shortfall (not below the floor) under it *)
Lemma calc_base_fee_cases galactica pnum gl gu pb :
  0 <= galactica -> galactica < pnum + 1 < two32 -> min_gas_limit <= gl <= max_nowrap_gas_limit ->
  let t := gl * 75 / 100 in
  0 < t /\ gl - t <= t /\ t <= gl /\
  calc_base_fee galactica pnum gl gu pb =
    BfFee (if gu =? t then pb
           else if gu >? t then pb + Z.max (pb * (gu - t) / t / 8) 1
           else Z.max (pb - pb * (t - gu) / t / 8) initial_base_fee).
Proof.
  intros Hg0 Hn Hgl t. unfold calc_base_fee.
  rewrite Z.mod_small by (unfold two32 in *; lia).
  destruct (pnum + 1 <? galactica) eqn:E1; [apply Z.ltb_lt in E1; lia|].
  destruct (pnum + 1 =? galactica) eqn:E2; [apply Z.eqb_eq in E2; lia|].
  rewrite gas_target_nowrap by (unfold min_gas_limit in *; lia). fold t.
  destruct (target_bounds gl ltac:(unfold min_gas_limit in *; lia)) as [Ht [Hd Hle]]. fold t in Ht, Hd, Hle.
  repeat split; auto. destruct (gu =? t); [reflexivity|].
  destruct (t =? 0) eqn:E4; [apply Z.eqb_eq in E4; lia|]. destruct (gu >? t); reflexivity.
Qed.

Lemma basefee_bounds_lemma galactica pnum gl gu pb :
  0 <= galactica -> galactica < pnum + 1 < two32 ->
  min_gas_limit <= gl <= max_nowrap_gas_limit -> 0 <= gu <= gl -> initial_base_fee <= pb ->
  exists next, calc_base_fee galactica pnum gl gu pb = BfFee next /\
    initial_base_fee <= next /\ Z.abs (next - pb) <= pb / 8.
Proof.
  intros Hg0 Hn Hgl Hgu Hpb. destruct (calc_base_fee_cases galactica pnum gl gu pb Hg0 Hn Hgl) as [Ht [Hd [Hle E]]].
  eexists. split; [exact E|]. set (t := gl * 75 / 100) in *. unfold initial_base_fee in *.
  assert (H8 : 1 <= pb / 8) by (apply Z.div_le_lower_bound; lia).
  destruct (Z.eqb_spec gu t); [lia|]. destruct (Z.gtb_spec gu t).
  - pose proof (scaled_le pb (gu - t) t 8 ltac:(lia) ltac:(lia) Ht ltac:(lia)). lia.
  - pose proof (scaled_le pb (t - gu) t 8 ltac:(lia) ltac:(lia) Ht ltac:(lia)). lia.
Qed.

Lemma basefee_first_block galactica pnum gl gu pb :
  pnum + 1 < two32 -> 0 <= pnum -> pnum + 1 = galactica ->
  calc_base_fee galactica pnum gl gu pb = BfFee initial_base_fee.
Proof.
  intros H H0 E. unfold calc_base_fee. rewrite Z.mod_small by lia.
  rewrite (proj2 (Z.ltb_ge _ _)) by lia. rewrite (proj2 (Z.eqb_eq _ _)) by lia. reflexivity.
Qed.

Lemma basefee_before_fork galactica pnum gl gu pb :
  pnum + 1 < two32 -> 0 <= pnum -> pnum + 1 < galactica ->
  calc_base_fee galactica pnum gl gu pb = BfNone.
Proof.
  intros H H0 E. unfold calc_base_fee. rewrite Z.mod_small by lia.
  rewrite (proj2 (Z.ltb_lt _ _)) by lia. reflexivity.
Qed.

(* above the no-wrap bound the uint64 product gasLimit*75 wraps and the 1/8 bound fails: stated precondition *)
Lemma basefee_wrap_example_lemma :
  exists gl gu pb next, max_nowrap_gas_limit < gl < two64 /\ 0 <= gu <= gl /\ initial_base_fee <= pb /\
    calc_base_fee 1 5 gl gu pb = BfFee next /\ pb / 8 < Z.abs (next - pb).
Proof.
  exists (max_nowrap_gas_limit + 5), (max_nowrap_gas_limit + 5), initial_base_fee. eexists.
  split; [vm_compute; split; reflexivity|]. split; [vm_compute; split; discriminate|].
  split; [vm_compute; discriminate|]. split; [vm_compute; reflexivity|]. vm_compute. reflexivity.
Qed.

(* direction of the move: unchanged exactly at the gas target floor(75% of the gas limit), never up below it, strictly up above it *)
Lemma basefee_direction_lemma galactica pnum gl gu pb :
  0 <= galactica -> galactica < pnum + 1 < two32 ->
  min_gas_limit <= gl <= max_nowrap_gas_limit -> 0 <= gu -> initial_base_fee <= pb ->
  exists next, calc_base_fee galactica pnum gl gu pb = BfFee next /\
    (gu = gl * 75 / 100 -> next = pb) /\ (gu < gl * 75 / 100 -> next <= pb) /\ (gu > gl * 75 / 100 -> pb < next).
Proof.
  intros Hg0 Hn Hgl Hgu Hpb. destruct (calc_base_fee_cases galactica pnum gl gu pb Hg0 Hn Hgl) as [Ht [Hd [Hle E]]].
  eexists. split; [exact E|]. set (t := gl * 75 / 100) in *. unfold initial_base_fee in *.
  destruct (Z.eqb_spec gu t); [lia|]. destruct (Z.gtb_spec gu t); [lia|].
  pose proof (scaled_le pb (t - gu) t 8 ltac:(lia) ltac:(lia) Ht ltac:(lia)). lia.
Qed.

(* inductive closure: along any chain of post-fork headers whose base fees are produced by the recurrence (the fork block itself
   carries initial_base_fee, basefee_first_block), every base fee is >= the floor — the precondition `initial_base_fee <= pb` of
   basefee_bounds is therefore an invariant of the chain, not an extra assumption *)
Fixpoint chain_fees (galactica pnum pb : Z) (hs : list (Z * Z)) : option (list Z) :=
  match hs with
  | [] => Some []
  | (gl, gu) :: t =>
    match calc_base_fee galactica pnum gl gu pb with
    | BfFee n => match chain_fees galactica (pnum + 1) n t with Some l => Some (n :: l) | None => None end
    | _ => None
    end
  end.

Lemma basefee_chain_lemma galactica hs : forall pnum pb,
  0 <= galactica -> galactica < pnum + 1 -> pnum + Z.of_nat (length hs) < two32 ->
  Forall (fun h => min_gas_limit <= fst h <= max_nowrap_gas_limit /\ 0 <= snd h <= fst h) hs ->
  initial_base_fee <= pb ->
  exists fs, chain_fees galactica pnum pb hs = Some fs /\ length fs = length hs /\ Forall (fun f => initial_base_fee <= f) fs.
Proof.
  induction hs as [|[gl gu] t IH]; intros pnum pb Hg Hn Hl HF Hpb.
  - exists []. repeat split; constructor.
  - inversion HF as [|? ? [H1 H2] HF']; subst. cbn [fst snd] in *. cbn [length] in Hl. rewrite Nat2Z.inj_succ in Hl.
    destruct (basefee_bounds_lemma galactica pnum gl gu pb Hg ltac:(lia) H1 H2 Hpb) as [n [E [Hn1 _]]].
    cbn [chain_fees]. rewrite E.
    destruct (IH (pnum + 1) n Hg ltac:(lia) ltac:(lia) HF' Hn1) as [fs [E2 [L F]]]. rewrite E2.
    exists (n :: fs). split; [reflexivity|]. split; [cbn; lia|constructor; assumption].
Qed.
