(* Crash/ProofsCrash.v — every crash cut of every history satisfies the invariant; restart succeeds on it and the
   best block is fully readable; what the bft records can hold after a cut. *)
From Coq Require Import List NArith Bool Lia.
From Verif Require Import Crash.Model Crash.ProofsStore Crash.ProofsInv Crash.ProofsImport.
Import ListNotations.
Open Scope N_scope.

(* the trie-layer premise along the uninterrupted run *)
Fixpoint wf_hist (c : cfg) (s : store) (l : list blk) : Prop :=
  match l with [] => True | b :: r => wf_blk s b /\ wf_hist c (run1 c s b) r end.

Definition wf_blkb (s : store) (b : blk) : bool :=
  match get_summary s (b_parent b) with
  | Some psm => forallb (fun k => if in_dec key_eq_dec k (s_sreach psm) then true else false) (b_skeep b)
                && forallb (fun k => if in_dec key_eq_dec k (s_ireach psm) then true else false) (b_ikeep b)
  | None => true
  end.

Lemma wf_blkb_sound s b : wf_blkb s b = true -> wf_blk s b.
Proof.
  unfold wf_blkb. intros H psm E. rewrite E in H. apply andb_prop in H as [Hs Hi].
  rewrite forallb_forall in Hs, Hi.
  split; intros k Hk; [specialize (Hs k Hk) | specialize (Hi k Hk)]; destruct (in_dec _ _ _); (assumption || discriminate).
Qed.

Theorem history_all_prefixes c l : forall s,
  wf_cfg c -> Inv c s -> wf_hist c s l -> all_prefixes (Inv c) s (writes_of c s l).
Proof.
  induction l as [|b r IH]; intros s Hc I Hw; simpl.
  - auto.
  - destruct Hw as [Hb Hr].
    pose proof (import_all_prefixes c s b Hc I Hb) as A.
    apply all_prefixes_app; auto. apply IH; auto. apply all_prefixes_last; auto.
Qed.

Theorem crash_inv c s l k : wf_cfg c -> Inv c s -> wf_hist c s l -> Inv c (crash c s l k).
Proof. intros. unfold crash. apply all_prefixes_firstn. apply history_all_prefixes; auto. Qed.

Lemma run1_inv c s b : wf_cfg c -> Inv c s -> wf_blk s b -> Inv c (run1 c s b).
Proof. intros. unfold run1. apply all_prefixes_last, import_all_prefixes; auto. Qed.

Lemma run_inv c l : forall s, wf_cfg c -> Inv c s -> wf_hist c s l -> Inv c (run c s l).
Proof.
  induction l as [|b r IH]; intros s Hc I Hw; simpl; auto.
  destruct Hw as [Hb Hr]. apply IH; auto using run1_inv.
Qed.

Lemma commit_writes_keys c s id parent just comm w o :
  In w (writes_of_steps (commit_steps c s id parent just comm)) -> In o w ->
  op_key o = KQuality id \/ op_key o = KFinalized.
Proof.
  destruct (commit_steps_cases c s id parent just comm) as [[-> _]|(q & _ & _ & [->|(f & _ & ->)])];
    cbn [writes_of_steps flat_map app].
  - intros [].
  - intros [<-|[]] [<-|[]]; auto.
  - intros [<-|[]] [<-|[<-|[]]]; auto.
Qed.

Lemma repair_one_prefixes c s id : Inv c s -> all_prefixes (Inv c) s (repair_one c s id).
Proof.
  intro I. unfold repair_one.
  destruct (is_storepoint (c_L c) (num_of id) && negb (has s (KQuality id))); [|simpl; auto].
  destruct (get_summary s id) as [sm|] eqn:E; [|simpl; auto].
  apply commit_all_prefixes; auto. unfold stored. rewrite E. auto.
Qed.

Lemma repair_one_keys c s id w o : In w (repair_one c s id) -> In o w -> op_key o = KQuality id \/ op_key o = KFinalized.
Proof.
  unfold repair_one.
  destruct (is_storepoint (c_L c) (num_of id) && negb (has s (KQuality id))); [|intros []].
  destruct (get_summary s id) as [sm|]; [|intros []].
  apply commit_writes_keys.
Qed.

Lemma restart_store_inv c rep s :
  Inv c s -> Inv c (restart_store c rep s) /\ get_id (restart_store c rep s) KBest = get_id s KBest.
Proof.
  intro I. unfold restart_store. destruct rep; [|auto].
  generalize (scan_heads s (num_of (finalized c s))) as heads. intro heads.
  assert (G : forall st, Inv c st -> get_id st KBest = get_id s KBest ->
            Inv c (fold_left (fun st id => apply_writes st (repair_one c st id)) heads st) /\
            get_id (fold_left (fun st id => apply_writes st (repair_one c st id)) heads st) KBest = get_id s KBest).
  { induction heads as [|h r IH]; intros st Is Eb; simpl; auto.
    apply IH.
    - apply all_prefixes_last. apply repair_one_prefixes; auto.
    - rewrite <- Eb. unfold get_id. rewrite get_frame_writes; auto.
      intros w o Hw Ho E. destruct (repair_one_keys _ _ _ _ _ Hw Ho) as [X|X]; rewrite X in E; discriminate. }
  apply G; auto.
Qed.

Lemma Inv_readable c s id : wf_cfg c -> Inv c s -> stored s id = true -> readable s id = true.
Proof.
  intros Hc I Hs. unfold readable. unfold stored in Hs.
  destruct (get_summary s id) as [sm|] eqn:E; [|discriminate].
  destruct (inv_blocks c s I id sm E) as (Ht & Hsr & Hir & _).
  destruct (anc_total c s id 0 Hc I) as (a & Ha); [unfold stored; rewrite E; auto|lia|].
  rewrite Ha. rewrite !andb_true_iff. split; [split; [split|]|reflexivity].
  - apply forallb_forall. intros it Hit. apply andb_true_intro. apply Ht; auto.
  - apply forallb_forall. intros k Hk. apply Hsr; auto.
  - apply forallb_forall. intros k Hk. apply Hir; auto.
Qed.

(* on a store satisfying the invariant NewRepository's checks pass *)
Lemma restart_eq c rep s : wf_cfg c -> Inv c s ->
  exists best, get_id s KBest = Some best /\ stored s best = true /\
    restart c rep s = Some (restart_store c rep s, best, finalized c (restart_store c rep s)).
Proof.
  intros Hc I. destruct (inv_best c s I) as (best & Hb & Hs). exists best. split; auto. split; auto.
  unfold restart. rewrite Hb, Hs.
  destruct (anc_total c s best 0 Hc I Hs) as (a & Ha); [lia|]. rewrite Ha.
  assert (a = c_g c) by (eapply ancestor_genesis; eauto). subst a. rewrite N.eqb_refl. reflexivity.
Qed.

Theorem restart_ok c rep s : wf_cfg c -> Inv c s ->
  exists s' best fin, restart c rep s = Some (s', best, fin) /\ Inv c s' /\ get_id s' KBest = Some best /\
                      readable s' best = true /\ stored s' fin = true.
Proof.
  intros Hc I. destruct (restart_eq c rep s Hc I) as (best & Hb & Hs & ->).
  destruct (restart_store_inv c rep s I) as [I' Eb].
  exists (restart_store c rep s), best, (finalized c (restart_store c rep s)).
  assert (Hs' : stored (restart_store c rep s) best = true).
  { destruct (inv_best c _ I') as (b' & Hb' & Hs'). rewrite Eb, Hb in Hb'. inversion Hb'; subst; auto. }
  split; [reflexivity|]. split; [exact I'|]. split; [rewrite Eb; auto|]. split; [eapply Inv_readable; eauto|].
  unfold finalized. destruct (get_id (restart_store c rep s) KFinalized) as [f|] eqn:Ef.
  - eapply inv_fin; eauto.
  - destruct (restart_store_inv c rep s I) as [I2 _]. destruct (anc_total c _ best 0 Hc I2 Hs') as (g' & Hg'); [lia|].
    assert (g' = c_g c) by (eapply ancestor_genesis; eauto). subst g'. apply ancestor_stored in Hg'. tauto.
Qed.

(* a second crash, DURING the restart repair: the repair of a head issues at most one batch (the bft commit), and after any
   prefix of it the invariant holds again, so the next start succeeds with a readable best block *)
Theorem crash_during_repair_is_consistent c rep s id j : wf_cfg c -> Inv c s ->
  let s1 := apply_writes s (firstn j (repair_one c s id)) in
  Inv c s1 /\
  exists s' best fin, restart c rep s1 = Some (s', best, fin) /\ Inv c s' /\ readable s' best = true /\ stored s' fin = true.
Proof.
  intros Hc I s1.
  assert (I1 : Inv c s1) by (apply all_prefixes_firstn; apply repair_one_prefixes; auto).
  split; auto. destruct (restart_ok c rep s1 Hc I1) as (s' & best & fin & H1 & H2 & _ & H3 & H4).
  exists s', best, fin. auto.
Qed.

(* C13, first clause: for every history and EVERY cut position the node restarts and its best block's header, transactions,
   receipts, number index, state and ancestors are all there *)
Theorem crash_consistent c rep s0 hist k :
  wf_cfg c -> Inv c s0 -> wf_hist c s0 hist ->
  exists s' best fin, restart c rep (crash c s0 hist k) = Some (s', best, fin) /\
                      readable s' best = true /\ stored s' fin = true /\ Inv c s'.
Proof.
  intros Hc I Hw. destruct (restart_ok c rep (crash c s0 hist k) Hc (crash_inv c s0 hist k Hc I Hw))
    as (s' & best & fin & H1 & H2 & H3 & H4 & H5).
  exists s', best, fin. auto.
Qed.

(* ---- bft records after a cut: written after the block they refer to *)

Theorem bft_records_refer_to_stored_blocks c s0 hist k :
  wf_cfg c -> Inv c s0 -> wf_hist c s0 hist ->
  let s := crash c s0 hist k in
  (forall id, has s (KQuality id) = true -> stored s id = true /\ readable s id = true) /\
  (forall f, get_id s KFinalized = Some f -> stored s f = true /\ readable s f = true).
Proof.
  intros Hc I Hw s. pose proof (crash_inv c s0 hist k Hc I Hw) as Is. fold s in Is.
  split.
  - intros id H. pose proof (inv_quality c s Is id H). split; auto. eapply Inv_readable; eauto.
  - intros f H. pose proof (inv_fin c s Is f H). split; auto. eapply Inv_readable; eauto.
Qed.

Theorem genesis_inv L (g : blk) :
  num_of (b_id g) = 0 -> b_skeep g = [] -> b_ikeep g = [] -> Inv (mkCfg L (b_id g)) (genesis_store g).
Proof.
  intros Hn Hk Hi. unfold genesis_store.
  change (state_batches g 0 ++ [index_batch g 0; block_bulk g 0 true])
    with (state_batches g 0 ++ [index_batch g 0] ++ [block_bulk g 0 true]).
  rewrite app_assoc, apply_writes_app. cbn [apply_writes fold_left].
  (* before the bulk the store holds trie nodes and code only *)
  assert (Hnone : forall k, is_node k = false -> (forall h, k <> KCode h) ->
            get (apply_writes [] (state_batches g 0 ++ [index_batch g 0])) k = None).
  { intros k Hk1 Hk2. rewrite get_frame_writes; auto. intros w o Hw Ho. eapply aux_key_ne; eauto using pre_aux. }
  assert (Hnew : forall k, In k (s_sreach (summary_of g 0)) \/ In k (s_ireach (summary_of g 0)) ->
            is_node k = true /\ has (apply_writes [] (state_batches g 0 ++ [index_batch g 0])) k = true).
  { intro k. apply new_nodes_has. rewrite Hk, Hi. intros k' [[]|[]]. }
  apply bulk_inv; auto.
  - intros i smi H. unfold get_summary in H. rewrite Hnone in H; [discriminate|reflexivity|discriminate].
  - intros i H. unfold has in H. rewrite Hnone in H; [discriminate|reflexivity|discriminate].
  - intros f H. unfold get_id in H. rewrite Hnone in H; [discriminate|reflexivity|discriminate].
Qed.
