(* Bft/ProofsCasts.v — the votes record (casts.go) of a node along any history: its keys are distinct, every recorded
   quality is at most the quality of the node's best block, and every own block at or above the finalized number is
   COVERED: the record holds an entry whose checkpoint lies on one chain above (or is) the own block's checkpoint and whose
   quality is at least the own block's.  Holds for the live record (Mark overwrites) and for the record rebuilt after a
   restart (newCasts keeps only the latest own block per head, max-merged). *)
From Coq Require Import List NArith ZArith Bool Lia.
From Coq Require Import ZifyN ZifyNat ZifyBool.
From Verif Require Import Common.Util Bft.Tree Bft.Model Bft.Quorum Bft.ProofsTally Bft.ProofsChain Bft.ProofsSuffix
  Bft.ProofsNode Bft.ProofsFinal Bft.ProofsMonotone Bft.ProofsCommit Bft.ProofsOrder Bft.ProofsOrder2 Bft.ProofsVote
  Bft.Safety Bft.ProofsSafety Bft.ProofsTree2.
Import ListNotations.
Open Scope N_scope.

Definition ckeys (ca : list (N * N)) : list N := map fst ca.

Lemma mark_in ca k q k0 q0 : In (k0, q0) (mark ca k q) <-> (k0 = k /\ q0 = q) \/ (In (k0, q0) ca /\ k0 <> k).
Proof.
  unfold mark. cbn [In]. rewrite filter_In. cbn [fst]. split.
  - intros [H|[H1 H2]]; [inversion H; left; tauto | right; split; [exact H1|]]. apply negb_true_iff, N.eqb_neq in H2. exact H2.
  - intros [[-> ->]|[H1 H2]]; [left; reflexivity | right; split; [exact H1|]]. apply negb_true_iff, N.eqb_neq. exact H2.
Qed.

Lemma mark_nodup ca k q : NoDup (ckeys ca) -> NoDup (ckeys (mark ca k q)).
Proof.
  intros H. unfold mark, ckeys. cbn [map fst]. constructor.
  - intros Hin. apply in_map_iff in Hin. destruct Hin as [[k0 q0] [E Hin]]. apply filter_In in Hin. cbn [fst] in *.
    destruct Hin as [_ Hne]. subst k0. rewrite N.eqb_refl in Hne. discriminate.
  - clear -H. induction ca as [|[k0 q0] ca IH]; [constructor|]. cbn [filter fst]. inversion H as [|? ? Hn Hd]; subst.
    destruct (negb (k0 =? k)); [|exact (IH Hd)]. cbn [map fst]. constructor; [|exact (IH Hd)].
    intros Hin. apply Hn. apply in_map_iff in Hin. destruct Hin as [kv [E Hin]]. apply filter_In in Hin.
    apply in_map_iff. exists kv. split; [exact E | exact (proj1 Hin)].
Qed.

Lemma merge_max_nodup ca k q : NoDup (ckeys ca) -> NoDup (ckeys (merge_max ca k q)).
Proof.
  intros H. unfold merge_max. destruct (find _ ca) as [kv|] eqn:E.
  - destruct (snd kv <? q); [apply mark_nodup; exact H | exact H].
  - unfold ckeys. cbn [map fst]. constructor; [|exact H]. intros Hin. apply in_map_iff in Hin. destruct Hin as [[k0 q0] [E0 Hin]].
    cbn in E0. subst k0. exact (find_key_none ca k q0 E Hin).
Qed.

(* an entry survives merge_max with a value that can only grow *)
Lemma merge_max_keep ca k q k0 q0 : NoDup (ckeys ca) -> In (k0, q0) ca ->
  exists q1, In (k0, q1) (merge_max ca k q) /\ q0 <= q1.
Proof.
  intros Hn Hin. unfold merge_max. destruct (find _ ca) as [kv|] eqn:E.
  - destruct (snd kv <? q) eqn:Elt.
    + destruct (N.eq_dec k0 k) as [->|Hne].
      * rewrite (find_key_unique ca k kv q0 Hn E Hin) in Elt. cbn in Elt. exists q. split; [apply mark_in; left; tauto | lia].
      * exists q0. split; [apply mark_in; right; tauto | lia].
    + exists q0. split; [exact Hin | lia].
  - exists q0. split; [right; exact Hin | lia].
Qed.

Lemma merge_max_new ca k q : NoDup (ckeys ca) -> exists q1, In (k, q1) (merge_max ca k q) /\ q <= q1.
Proof.
  intros Hn. unfold merge_max. destruct (find _ ca) as [[k1 q1]|] eqn:E.
  - destruct (find_key_some ca k _ E) as [Hin Hk]. cbn in Hk. subst k1. cbn [snd]. destruct (q1 <? q) eqn:Elt.
    + exists q. split; [apply mark_in; left; tauto | lia].
    + exists q1. split; [exact Hin | lia].
  - exists q. split; [left; reflexivity | lia].
Qed.

Lemma merge_max_bound ca k q B : (forall k0 q0, In (k0, q0) ca -> q0 <= B) -> q <= B ->
  forall k0 q0, In (k0, q0) (merge_max ca k q) -> q0 <= B.
Proof.
  intros Hb Hq k0 q0. unfold merge_max. destruct (find _ ca) as [kv|].
  - destruct (snd kv <? q); [|apply Hb]. intros H. apply mark_in in H. destruct H as [[_ ->]|[H _]]; [exact Hq | exact (Hb _ _ H)].
  - intros [H|H]; [inversion H; subst; exact Hq | exact (Hb _ _ H)].
Qed.

Lemma own_latest_some m f l1 : forall x l2, b_signer x = m -> (forall y, In y l1 -> f < b_num y) ->
  exists z, own_latest m f (l1 ++ x :: l2) = Some z /\ In z (l1 ++ [x]) /\ b_signer z = m.
Proof.
  induction l1 as [|a l1 IH]; intros x l2 Hs Hab.
  - cbn. rewrite Hs, N.eqb_refl. exists x. split; [reflexivity|]. split; [left; reflexivity | exact Hs].
  - cbn [app own_latest]. destruct (b_signer a =? m) eqn:E.
    + apply N.eqb_eq in E. exists a. split; [reflexivity|]. split; [left; reflexivity | exact E].
    + assert (Hf : (b_num a <=? f) = false) by (apply N.leb_gt; apply Hab; left; reflexivity). rewrite Hf.
      destruct (IH x l2 Hs ltac:(intros y Hy; apply Hab; right; exact Hy)) as [z [Hz [Hin Hsz]]].
      exists z. split; [exact Hz|]. split; [right; exact Hin | exact Hsz].
Qed.

Lemma own_latest_in m f ch z : own_latest m f ch = Some z -> In z ch /\ b_signer z = m.
Proof.
  induction ch as [|a ch IH]; [discriminate|]. cbn [own_latest]. destruct (b_signer a =? m) eqn:E.
  - intros H. inversion H; subst. apply N.eqb_eq in E. split; [left; reflexivity | exact E].
  - destruct (b_num a <=? f); [discriminate|]. intros H. destruct (IH H). split; [right; assumption | assumption].
Qed.

Section Casts.
Variable c : cfg.
Hypothesis HL : 0 < c_L c.
Notation L := (c_L c).

Definition cp_of (r : repo) (x : blk) : option blk := block_at r (b_id x) (checkpoint L (b_num x)).

Record casts_inv (r : repo) (Qb master finnum : N) (ca : list (N * N)) : Prop := mkCI {
  ci_nodup : NoDup (ckeys ca);
  ci_stored : casts_stored r ca;
  ci_bound : forall k q, In (k, q) ca -> q <= Qb;
  ci_cover : forall x, In x r -> b_signer x = master -> finnum <= b_num x ->
    exists y q cpx, In (b_id y, q) ca /\ In y r /\ qual c r x <= q /\
                    cp_of r x = Some cpx /\ has_block r (b_id y) (b_id cpx) = true }.

Definition casts_ok (nd : node) : Prop :=
  match e_casts (n_eng nd) with
  | None => True
  | Some ca => casts_inv (n_repo nd) (qual c (n_repo nd) (best_blk nd)) (e_master (n_eng nd)) (idnum (e_fin (n_eng nd))) ca
  end.

Lemma checkpoint_mono n m : n <= m -> checkpoint L n <= checkpoint L m.
Proof. intros H. unfold checkpoint. pose proof (N.div_le_mono n m L ltac:(lia) H). nia. Qed.

Lemma cp_of_exists r x : wf_repo r -> In x r ->
  exists cpx, cp_of r x = Some cpx /\ b_num cpx = checkpoint L (b_num x) /\ In cpx (chain_of r (b_id x)).
Proof. intros Hwf Hx. apply block_at_exists; [exact Hwf | exact Hx | apply checkpoint_le; exact HL]. Qed.

(* the record rebuilt by newCasts *)
Section NewCasts.
Variables (r : repo) (e : engine) (Qb : N).
Hypothesis Hwf : wf_repo r.
Hypothesis Hqs : qs_ok c r (e_qs e).
Hypothesis Hroot : forall z, In z r -> b_num z = 0 -> known r (b_parent z) = false.
Hypothesis HQb : forall x, In x r -> qual c r x <= Qb.

Let F := (fun (ca : list (N * N)) (h : blk) =>
      let ch := chain_of r (b_id h) in
      match own_latest (e_master e) (idnum (e_fin e)) ch with
      | None => ca
      | Some x => match at_num ch (checkpoint (c_L c) (b_num x)) with
                  | None => ca
                  | Some cpb => merge_max ca (b_id cpb) (s_q (compute_state c r (e_qs e) x))
                  end
      end).

Lemma F_nodup ca h : NoDup (ckeys ca) -> NoDup (ckeys (F ca h)).
Proof.
  intros H. unfold F. cbv zeta. destruct (own_latest _ _ _) as [x|]; [|exact H].
  destruct (at_num _ _) as [cpb|]; [|exact H]. apply merge_max_nodup. exact H.
Qed.

Lemma F_keep ca h k0 q0 : NoDup (ckeys ca) -> In (k0, q0) ca -> exists q1, In (k0, q1) (F ca h) /\ q0 <= q1.
Proof.
  intros Hn Hin. unfold F. cbv zeta. destruct (own_latest _ _ _) as [x|]; [|exists q0; split; [exact Hin | lia]].
  destruct (at_num _ _) as [cpb|]; [|exists q0; split; [exact Hin | lia]]. apply merge_max_keep; assumption.
Qed.

Lemma F_bound ca h : In h r -> (forall k q, In (k, q) ca -> q <= Qb) -> forall k q, In (k, q) (F ca h) -> q <= Qb.
Proof.
  intros Hh Hb. unfold F. cbv zeta. destruct (own_latest _ _ _) as [x|] eqn:Eo; [|exact Hb].
  destruct (at_num _ _) as [cpb|]; [|exact Hb]. apply merge_max_bound; [exact Hb|].
  destruct (own_latest_in _ _ _ _ Eo) as [Hx _]. apply chain_incl in Hx.
  rewrite (compute_state_stored c HL r (e_qs e) x Hwf Hqs Hx). apply HQb. exact Hx.
Qed.

Lemma fold_F_nodup hs : forall ca, NoDup (ckeys ca) -> NoDup (ckeys (fold_left F hs ca)).
Proof. induction hs as [|h hs IH]; intros ca H; [exact H|]. cbn [fold_left]. apply IH. apply F_nodup. exact H. Qed.

Lemma fold_F_keep hs : forall ca k0 q0, NoDup (ckeys ca) -> In (k0, q0) ca ->
  exists q1, In (k0, q1) (fold_left F hs ca) /\ q0 <= q1.
Proof.
  induction hs as [|h hs IH]; intros ca k0 q0 Hn Hin; [exists q0; split; [exact Hin | lia]|].
  cbn [fold_left]. destruct (F_keep ca h k0 q0 Hn Hin) as [q1 [H1 Hle]].
  destruct (IH (F ca h) k0 q1 (F_nodup ca h Hn) H1) as [q2 [H2 Hle2]]. exists q2. split; [exact H2 | lia].
Qed.

Lemma fold_F_bound hs : forall ca, (forall h, In h hs -> In h r) -> (forall k q, In (k, q) ca -> q <= Qb) ->
  forall k q, In (k, q) (fold_left F hs ca) -> q <= Qb.
Proof.
  induction hs as [|h hs IH]; intros ca Hr Hb; [exact Hb|]. cbn [fold_left]. apply IH.
  - intros h' Hh'. apply Hr. right. exact Hh'.
  - apply F_bound; [apply Hr; left; reflexivity | exact Hb].
Qed.

Lemma fold_F_entry hs : forall ca h z cpz, NoDup (ckeys ca) -> In h hs -> In z r ->
  own_latest (e_master e) (idnum (e_fin e)) (chain_of r (b_id h)) = Some z ->
  at_num (chain_of r (b_id h)) (checkpoint L (b_num z)) = Some cpz ->
  exists q, In (b_id cpz, q) (fold_left F hs ca) /\ qual c r z <= q.
Proof.
  induction hs as [|h0 hs IH]; intros ca h z cpz Hn Hin Hz Eo Ea; [destruct Hin|].
  cbn [fold_left]. destruct Hin as [->|Hin].
  - assert (HF : F ca h = merge_max ca (b_id cpz) (qual c r z)).
    { unfold F. cbv zeta. rewrite Eo, Ea. rewrite (compute_state_stored c HL r (e_qs e) z Hwf Hqs Hz). reflexivity. }
    destruct (merge_max_new ca (b_id cpz) (qual c r z) Hn) as [q1 [H1 Hle]]. rewrite <- HF in H1.
    destruct (fold_F_keep hs (F ca h) _ _ (F_nodup ca h Hn) H1) as [q2 [H2 Hle2]]. exists q2. split; [exact H2 | lia].
  - apply (IH (F ca h0) h z cpz (F_nodup ca h0 Hn) Hin Hz Eo Ea).
Qed.

Theorem new_casts_inv : casts_inv r Qb (e_master e) (idnum (e_fin e)) (new_casts c r e).
Proof.
  pose proof (new_casts_stored c r e) as Hst.
  unfold new_casts in *. fold F in Hst |- *. constructor.
  - apply fold_F_nodup. constructor.
  - exact Hst.
  - apply fold_F_bound; [|intros k q []]. intros h Hh. unfold heads_from in Hh. apply filter_In in Hh. tauto.
  - intros x Hx Hs Hf.
    destruct (leaf_above r Hwf Hroot x Hx) as [h [Hh [Hleaf Hin]]].
    destruct (chain_of_in r h Hwf Hh) as [t [Ht Hg]].
    destruct (in_split _ _ Hin) as [l1 [l2 E]].
    assert (HgC : grounded (l1 ++ x :: l2)) by (rewrite <- E, Ht; exact Hg).
    assert (Hab : forall y, In y l1 -> idnum (e_fin e) < b_num y).
    { intros y Hy. pose proof (grounded_above l1 x l2 y HgC Hy). lia. }
    destruct (own_latest_some (e_master e) (idnum (e_fin e)) l1 x l2 Hs Hab) as [z [Eo [Hz1 Hsz]]]. rewrite <- E in Eo.
    assert (Hzc : In z (chain_of r (b_id h))). { rewrite E, in_app_iff. apply in_app_or in Hz1. destruct Hz1 as [H|[<-|[]]]; [left; exact H | right; left; reflexivity]. }
    assert (Hzr : In z r) by exact (chain_incl _ _ _ Hzc).
    assert (Hxz : b_num x <= b_num z).
    { apply in_app_or in Hz1. destruct Hz1 as [H|[<-|[]]]; [|lia]. pose proof (grounded_above l1 x l2 z HgC H). lia. }
    pose proof (chain_num_le r h z Hwf Hh Hzc) as Hnh.
    destruct (block_at_exists r h (checkpoint L (b_num z)) Hwf Hh ltac:(pose proof (checkpoint_le L HL (b_num z)); lia)) as [cpz [Ecz [Hcn Hcin]]].
    assert (Hhead : In h (heads_from r (idnum (e_fin e)))).
    { unfold heads_from. apply filter_In. split; [exact Hh|]. rewrite Hleaf. cbn [andb]. apply N.leb_le. lia. }
    destruct (fold_F_entry (heads_from r (idnum (e_fin e))) [] h z cpz ltac:(constructor) Hhead Hzr Eo Ecz) as [q [Hq Hle]].
    destruct (cp_of_exists r x Hwf Hx) as [cpx [Ecx [Hxn Hxin]]].
    exists cpz, q, cpx. split; [exact Hq|]. split; [exact (chain_incl _ _ _ Hcin)|]. split.
    + assert (Hxinz : In x (chain_of r (b_id z))).
      { apply (has_block_iff_in r z x Hwf Hzr Hx). apply (chain_members_comparable r h z x Hwf Hh Hzc Hin Hxz). }
      pose proof (qual_ancestor c HL r x z Hwf Hzr Hxinz). lia.
    + split; [exact Ecx|].
      apply (chain_members_comparable r h cpz cpx Hwf Hh Hcin).
      * rewrite E, in_app_iff. right. rewrite <- (chain_suffix r Hwf (b_id h) l1 x l2 E). exact Hxin.
      * rewrite Hcn, Hxn. apply checkpoint_mono. exact Hxz.
Qed.
End NewCasts.

Definition root_free (r : repo) : Prop := forall z, In z r -> b_num z = 0 -> known r (b_parent z) = false.

Theorem should_vote_casts_ok nd parent : inv c nd -> root_free (n_repo nd) -> casts_ok nd ->
  let nd1 := mkN (n_repo nd) (n_best nd) (fst (should_vote c (n_repo nd) (n_eng nd) parent)) in
  casts_ok nd1 /\ e_casts (n_eng nd1) <> None.
Proof.
  intros Hi Hroot Hc. cbv zeta. rewrite (should_vote_fst c). unfold casts_ok, with_casts. cbn [n_eng n_repo e_casts e_master e_fin].
  split; [|discriminate].
  change (best_blk (mkN (n_repo nd) (n_best nd) _)) with (best_blk nd).
  unfold casts_ok in Hc. destruct (e_casts (n_eng nd)) as [ca|]; [exact Hc|].
  apply new_casts_inv; [exact (inv_wf c _ Hi) | exact (inv_qs c _ Hi) | exact Hroot |].
  intros x Hx. apply head_quality_monotone; assumption.
Qed.

(* transport to a repository extended by a fresh block *)
Lemma cp_of_fresh b r x : wf_repo (b :: r) -> In x r -> cp_of (b :: r) x = cp_of r x.
Proof. intros Hwf Hx. unfold cp_of, block_at. rewrite chain_of_fresh; [reflexivity | exact (fresh_ne b r x Hwf Hx)]. Qed.

Lemma has_block_fresh b r y id : wf_repo (b :: r) -> In y r -> has_block (b :: r) (b_id y) id = has_block r (b_id y) id.
Proof. intros Hwf Hy. unfold has_block. rewrite chain_of_fresh; [reflexivity | exact (fresh_ne b r y Hwf Hy)]. Qed.

(* a block signed by somebody else is stored; finalized may move up; the best quality may grow *)
Lemma casts_inv_import b r Qb Qb' m f f' ca : wf_repo (b :: r) -> b_signer b <> m -> Qb <= Qb' -> f <= f' ->
  casts_inv r Qb m f ca -> casts_inv (b :: r) Qb' m f' ca.
Proof.
  intros Hwf Hs HQ Hf [Hn Hst Hb Hc]. constructor; [exact Hn | | intros k q H; specialize (Hb k q H); lia |].
  { intros kv Hkv. destruct (Hst kv Hkv) as [y [Hy E]]. exists y. split; [right; exact Hy | exact E]. }
  intros x [<-|Hx] Hsx Hfx; [contradiction|].
  destruct (Hc x Hx Hsx ltac:(lia)) as [y [q [cpx [H1 [H2 [H3 [H4 H5]]]]]]].
  exists y, q, cpx. split; [exact H1|]. split; [right; exact H2|]. split; [rewrite (qual_fresh c b r x Hwf Hx); exact H3|].
  split; [rewrite (cp_of_fresh b r x Hwf Hx); exact H4 | rewrite (has_block_fresh b r y _ Hwf H2); exact H5].
Qed.

(* an own block is stored and marked *)
Lemma casts_inv_mark b r Qb Qb' m f f' ca cpb : wf_repo (b :: r) -> b_signer b = m -> f <= f' ->
  Qb <= qual c (b :: r) b -> qual c (b :: r) b <= Qb' ->
  cp_of (b :: r) b = Some cpb ->
  casts_inv r Qb m f ca -> casts_inv (b :: r) Qb' m f' (mark ca (b_id cpb) (qual c (b :: r) b)).
Proof.
  intros Hwf Hs Hf HQ1 HQ2 Hcp [Hn Hst Hb Hc].
  assert (Hcpin : In cpb (b :: r)).
  { unfold cp_of in Hcp. destruct (block_at_num _ _ _ _ Hcp) as [_ H]. exact (chain_incl _ _ _ H). }
  constructor.
  - apply mark_nodup. exact Hn.
  - apply mark_stored; [|exact Hcpin]. intros kv Hkv. destruct (Hst kv Hkv) as [y [Hy E]]. exists y. split; [right; exact Hy | exact E].
  - intros k q H. apply mark_in in H. destruct H as [[_ ->]|[H _]]; [exact HQ2 | specialize (Hb k q H); lia].
  - intros x Hx Hsx Hfx. destruct Hx as [<-|Hx].
    + exists cpb, (qual c (b :: r) b), cpb. split; [apply mark_in; left; tauto|]. split; [exact Hcpin|]. split; [lia|].
      split; [exact Hcp | apply has_block_self; assumption].
    + destruct (Hc x Hx Hsx ltac:(lia)) as [y [q [cpx [H1 [H2 [H3 [H4 H5]]]]]]].
      assert (H3' : qual c (b :: r) x <= q) by (rewrite (qual_fresh c b r x Hwf Hx); exact H3).
      assert (H4' : cp_of (b :: r) x = Some cpx) by (rewrite (cp_of_fresh b r x Hwf Hx); exact H4).
      assert (H5' : has_block (b :: r) (b_id y) (b_id cpx) = true) by (rewrite (has_block_fresh b r y _ Hwf H2); exact H5).
      destruct (N.eq_dec (b_id y) (b_id cpb)) as [E|E].
      * assert (y = cpb) by (apply (stored_unique (b :: r)); [exact Hwf | right; exact H2 | exact Hcpin | exact E]). subst y.
        exists cpb, (qual c (b :: r) b), cpx. split; [apply mark_in; left; tauto|]. split; [exact Hcpin|].
        split; [specialize (Hb _ _ H1); lia|]. split; [exact H4' | exact H5'].
      * exists y, q, cpx. split; [apply mark_in; right; tauto|]. split; [right; exact H2|]. tauto.
Qed.

Lemma commit_block_casts guard r e b : e_casts (fst (commit_block guard c r e b false)) = e_casts e /\
  e_master (fst (commit_block guard c r e b false)) = e_master e.
Proof. destruct (commit_block_import guard c r e b) as [Hm [Hc _]]. split; assumption. Qed.
End Casts.
