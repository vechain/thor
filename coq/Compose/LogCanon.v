(* Compose/LogCanon.v — C15 <-> C14: the log tables stated over ancestry, with no reference to Exclude or to paths.

   C15 (LogDB/ProofsCanon.v, ProofsRows.v; Properties/C15.v logdb_tracks_canonical / logdb_is_canonical_logs) is stated
   over histories whose best-changing step is `write_logs`, which is DEFINED through Chain.Model.exclude (both ways), and
   its conclusion speaks of `is_path` lists.  C14 (Chain/ProofsWalk.v exclude_spec; Properties/C14.v
   exclude_is_difference) characterises Exclude(c, o) = Ok l by: l has exactly the members anc r c a /\ ~ anc r o a, and is
   ascending in height.  LogDB/ProofsCanon.v uses that fact inside a proof (through Chain/ProofsPath.v
   exclude_is_prefix); this file composes the two at the level of STATEMENTS:
   Exclude is replaced through exclude_spec (nothing else about it is used), the step `write_logs` by a specification over
   anc / num_of / block_events (`write_logs_spec`), and the C15 invariant is restated over ascending enumerations of ancestry. *)
From Coq Require Import List NArith Bool Lia ZifyN ZifyNat ZifyBool Sorted.
From Verif Require Import Chain.Model Chain.Proofs Chain.ProofsWalk Chain.ProofsSys Chain.ProofsPath
  LogDB.Model LogDB.Proofs LogDB.ProofsCanon LogDB.ProofsRows LogDB.ProofsGenesis LogDB.ProofsSync LogDB.ProofsVerify.
Import ListNotations.
Open Scope N_scope.

(* l is THE list of the blocks satisfying P, in strictly ascending height order *)
Definition ascending_enum (P : N -> Prop) (l : list N) : Prop := (forall a, In a l <-> P a) /\ asc l.

Lemma ascending_enum_unique P l1 l2 : ascending_enum P l1 -> ascending_enum P l2 -> l1 = l2.
Proof.
  intros [M1 A1] [M2 A2]. apply asc_unique; [exact A1 | exact A2|].
  intros a. rewrite M1, M2. tauto.
Qed.

(* the blocks on the chain of c that are not on the chain of o (C14's reading of Chain.Exclude) *)
Definition chain_diff (r : repo) (c o a : N) : Prop := anc r c a /\ ~ anc r o a.

(* C14 exclude_is_difference, turned into an equation: Exclude(c, o) IS the ascending enumeration of the difference *)
Lemma exclude_is_enum g gp r c o l : wf g gp r -> stored r c -> stored r o ->
  (exclude r c o = Ok l <-> ascending_enum (chain_diff r c o) l).
Proof.
  intros W Sc So. destruct (exclude_spec g gp r W c o Sc So) as [l0 [E0 [M0 A0]]]. split.
  - intros E. rewrite E in E0. injection E0 as <-. split; [exact M0 | exact A0].
  - intros H. rewrite E0. f_equal. apply (ascending_enum_unique (chain_diff r c o)); [split; assumption | exact H].
Qed.

Lemma asc_cons_inv x l : asc (x :: l) -> asc l /\ forall a, In a l -> num_of x < num_of a.
Proof. unfold asc. intros A. inversion A as [|x' l' Al Fl]; subst x' l'. rewrite Forall_forall in Fl. split; assumption. Qed.

Lemma enum_head_lowest (P : N -> Prop) f rest a : ascending_enum P (f :: rest) -> P a -> P f /\ num_of f <= num_of a.
Proof.
  intros [M A] Pa. split; [apply M; left; reflexivity|]. apply M in Pa. destruct Pa as [<-|Ha]; [lia|].
  destruct (asc_cons_inv _ _ A) as [_ Ff]. specialize (Ff a Ha). lia.
Qed.

Lemma ascending_enum_ext (P Q : N -> Prop) l : (forall a, P a <-> Q a) -> ascending_enum P l -> ascending_enum Q l.
Proof. intros H [M A]. split; [|exact A]. intros a. rewrite M. apply H. Qed.

(* against genesis: the ancestors of h other than genesis *)
Lemma exclude_gen_enum g gp r h l : wf g gp r -> stored r h ->
  (exclude r h g = Ok l <-> ascending_enum (fun a => anc r h a /\ a <> g) l).
Proof.
  intros W Sh. rewrite (exclude_is_enum g gp r h g l W Sh (ex_intro _ _ (w_gsum _ _ _ W))).
  assert (E : forall a, chain_diff r h g a <-> anc r h a /\ a <> g).
  { intros a. unfold chain_diff. split; intros [Ha Hn]; (split; [exact Ha|]).
    - intros ->. apply Hn. eapply anc_refl. apply (w_gsum _ _ _ W).
    - intros Hg. apply Hn. apply (anc_gen_inv g gp r W a Hg). }
  split; apply ascending_enum_ext; [exact E | intros a; symmetry; apply E].
Qed.

Lemma anc_dec g gp r h a : wf g gp r -> stored r h -> anc r h a \/ ~ anc r h a.
Proof.
  intros W Sh. destruct (has_block_spec g gp r W h a Sh) as [v [_ Hv]]. destruct v.
  - left. apply Hv. reflexivity.
  - right. intros H. apply Hv in H. discriminate.
Qed.

(* the rows the receipts of the blocks stored under the ids of l prescribe, concatenated in the order of l *)
Definition rows_ev (r : repo) (l : list N) : list evrow := concat (map (blk_events r) l).
Definition rows_tr (r : repo) (l : list N) : list trrow := concat (map (blk_transfers r) l).

Lemma rows_ev_cons r a l : rows_ev r (a :: l) = blk_events r a ++ rows_ev r l.
Proof. reflexivity. Qed.
Lemma rows_tr_cons r a l : rows_tr r (a :: l) = blk_transfers r a ++ rows_tr r l.
Proof. reflexivity. Qed.
Lemma chain_events_rows r st : chain_events r st = rows_ev r (rev st).
Proof. rewrite chain_events_eq. apply chain_rows_concat. Qed.
Lemma chain_transfers_rows r st : chain_transfers r st = rows_tr r (rev st).
Proof. rewrite chain_transfers_eq. apply chain_rows_concat. Qed.

(* membership in the rows of the blocks of an enumeration, for either table *)
Lemma in_block_rows {A} (sel : blk -> list A) r (P : N -> Prop) l x : (forall a, In a l <-> P a) ->
  In x (concat (map (fun a => match get_block r a with Some (_, b) => sel b | None => [] end) l)) <->
  exists a s b, P a /\ get_block r a = Some (s, b) /\ In x (sel b).
Proof.
  intros M. rewrite <- flat_map_concat_map, in_flat_map. split.
  - intros (a & Ha & Hx). destruct (get_block r a) as [[s b]|] eqn:Eb; [|destruct Hx]. exists a, s, b. rewrite <- M. auto.
  - intros (a & s & b & Ha & Eb & Hx). exists a. rewrite M, Eb. auto.
Qed.

Lemma below_mono hi hi' d : hi <= hi' -> below hi d -> below hi' d.
Proof. intros H [B1 B2]. split; intros x Hx; [specialize (B1 x Hx) | specialize (B2 x Hx)]; lia. Qed.

Section WriteIds.
  Variable r : repo.
  Hypothesis WB : wf_body r.

  (* Write of blocks of ascending heights above every stored key appends their rows *)
  Lemma write_ids_appends l : forall n d d', asc l -> (forall a, In a l -> n <= num_of a) -> below (n * two35) d ->
    write_ids r l d = Some d' ->
    db_events d' = db_events d ++ rows_ev r l /\ db_transfers d' = db_transfers d ++ rows_tr r l /\
    (forall m, n <= m -> (forall a, In a l -> num_of a < m) -> below (m * two35) d').
  Proof.
    induction l as [|x l IH]; intros n d d' A Hn B Hw; cbn [write_ids] in Hw.
    - injection Hw as <-. unfold rows_ev, rows_tr. cbn [map concat]. rewrite !app_nil_r. split; [reflexivity|]. split; [reflexivity|].
      intros m Hm _. eapply below_mono; [|exact B]. unfold two35. lia.
    - destruct (get_block r x) as [[s bx]|] eqn:Eb; [|discriminate].
      destruct (write_block bx d) as [d1|] eqn:Ew; [|discriminate].
      pose proof (get_block_id_eq r WB _ _ _ Eb) as Eid.
      pose proof (Hn x (or_introl eq_refl)) as Hx.
      assert (Bx : below (num_of x * two35) d) by (eapply below_mono; [|exact B]; unfold two35; lia).
      destruct (write_block_appends bx d d1 Ew) as [A1 A2]; [rewrite Eid; exact Bx|].
      pose proof (write_block_ext _ _ _ Ew) as X. rewrite Eid in X.
      assert (B1 : below ((num_of x + 1) * two35) d1) by (eapply ext_below; [exact X | lia |]; eapply below_mono; [|exact Bx]; unfold two35; lia).
      destruct (asc_cons_inv _ _ A) as [Al Fl].
      destruct (IH (num_of x + 1) d1 d' Al) as [I1 [I2 I3]]; [intros a Ha; specialize (Fl a Ha); lia | exact B1 | exact Hw |].
      rewrite rows_ev_cons, rows_tr_cons. unfold blk_events, blk_transfers. rewrite Eb, I1, I2, A1, A2, <- !app_assoc.
      split; [reflexivity|]. split; [reflexivity|]. intros m Hm Hlt. apply I3; [|intros a Ha; apply Hlt; right; exact Ha].
      pose proof (Hlt x (or_introl eq_refl)). lia.
  Qed.
End WriteIds.

(* old_best's blocks that the new block's chain does not have, and the parent's blocks that old_best's chain does not have *)
Definition old_branch (r : repo) (ob : N) (nb : blk) (a : N) : Prop := anc r ob a /\ ~ anc r (b_parent nb) a.
Definition new_branch (r : repo) (ob : N) (nb : blk) (a : N) : Prop := anc r (b_parent nb) a /\ ~ anc r ob a.
Definition lowest (P : N -> Prop) (f : N) : Prop := P f /\ forall a, P a -> num_of f <= num_of a.

(* the rows whose key lies below block n: what Truncate(n) leaves *)
Definition rows_below_block (n : N) (db : logdb) : logdb :=
  mkDB (filter (fun x => er_seq x <? n * two35) (db_events db)) (filter (fun x => tr_seq x <? n * two35) (db_transfers db)).

(* what survives of the tables: everything if old_best is on the new block's chain, else the rows below the lowest
   block of the old branch *)
Definition kept (r : repo) (ob : N) (nb : blk) (db dk : logdb) : Prop :=
  ((forall a, ~ old_branch r ob nb a) /\ dk = db) \/
  (exists f, lowest (old_branch r ob nb) f /\ dk = rows_below_block (num_of f) db).

Definition write_logs_spec (r : repo) (db : logdb) (nb : blk) (ob : N) (db' : logdb) : Prop :=
  exists dk ln,
    kept r ob nb db dk /\ ascending_enum (new_branch r ob nb) ln /\
    db_events db' = db_events dk ++ rows_ev r ln ++ block_events nb /\
    db_transfers db' = db_transfers dk ++ rows_tr r ln ++ block_transfers nb.

Lemma truncate_rows_below n db d1 : truncate n db = Some d1 -> d1 = rows_below_block n db.
Proof.
  unfold truncate. destruct (seq_of n 0 0) as [s|] eqn:E; [|discriminate]. intros H. injection H as <-.
  apply seq_of_inv in E. destruct E as [_ ->]. unfold rows_below_block, two35.
  replace (n * 34359738368 + 0 * 1048576 + 0) with (n * 34359738368) by lia. reflexivity.
Qed.

Lemma rows_below_block_below n db : below (n * two35) (rows_below_block n db).
Proof.
  split; intros x Hx; cbn [rows_below_block db_events db_transfers] in Hx; apply filter_In in Hx; destruct Hx as [_ Hx];
    apply N.ltb_lt in Hx; exact Hx.
Qed.

Section Step.
  Variables (g gp : N) (r : repo).
  Hypothesis W : wf g gp r.
  Hypothesis WB : wf_body r.
  Variables (ob : N) (nb : blk).
  Hypothesis So : stored r ob.
  Hypothesis Sp : stored r (b_parent nb).
  Let p := b_parent nb.

  (* below the lowest block of the old branch, old_best's chain is the parent's chain *)
  Lemma below_lowest_old f n : lowest (old_branch r ob nb) f -> n < num_of f ->
    exists a, anc r ob a /\ num_of a = n /\ anc r p a.
  Proof.
    intros [[Of Nf] Lf] Hlt. pose proof (anc_height g gp r W _ _ Of) as Hf.
    destruct (anc_total g gp r W ob So n ltac:(lia)) as [a [Oa Ea]]. exists a. split; [exact Oa|]. split; [exact Ea|].
    destruct (anc_dec g gp r p a W Sp) as [Pa|Na]; [exact Pa|]. pose proof (Lf a (conj Oa Na)). lia.
  Qed.

  Lemma new_above_lowest_old f a : lowest (old_branch r ob nb) f -> new_branch r ob nb a -> num_of f <= num_of a.
  Proof.
    intros Lf [Pa Na]. destruct (N.le_gt_cases (num_of f) (num_of a)) as [|Hlt]; [assumption|]. exfalso.
    destruct (below_lowest_old f (num_of a) Lf Hlt) as [a' [Oa' [Ea' Pa']]].
    apply Na. rewrite (anc_unique_at g gp r W p a a' Pa Pa' (eq_sym Ea')). exact Oa'.
  Qed.

  Lemma lowest_old_le f : lowest (old_branch r ob nb) f -> num_of f <= num_of p + 1.
  Proof.
    intros Lf. destruct (N.le_gt_cases (num_of f) (num_of p + 1)) as [|Hlt]; [assumption|]. exfalso.
    destruct (below_lowest_old f (num_of p + 1) Lf Hlt) as [a' [_ [Ea' Pa']]]. pose proof (anc_height g gp r W _ _ Pa'). lia.
  Qed.

  (* with no old branch, old_best is on the parent's chain and the new branch lies above it *)
  Lemma no_old_branch a : (forall x, ~ old_branch r ob nb x) -> new_branch r ob nb a -> num_of ob + 1 <= num_of a.
  Proof.
    intros Hno [Pa Na]. destruct So as [so Hso].
    assert (Po : anc r p ob).
    { destruct (anc_dec g gp r p ob W Sp) as [H|H]; [exact H|]. exfalso. apply (Hno ob). split; [eapply anc_refl; eauto | exact H]. }
    destruct (N.le_gt_cases (num_of ob + 1) (num_of a)) as [|Hlt]; [assumption|]. exfalso.
    apply Na. apply (anc_linear g gp r W p ob a Po Pa). lia.
  Qed.

  Theorem write_logs_meets_spec db db' :
    num_of (b_id nb) = num_of (b_parent nb) + 1 -> below ((num_of ob + 1) * two35) db ->
    write_logs r db nb ob = Some db' -> write_logs_spec r db nb ob db'.
  Proof.
    intros Hnum B Hw. unfold write_logs in Hw.
    destruct (exclude_spec g gp r W ob (b_parent nb) So Sp) as [lo [Elo Hlo]].
    destruct (exclude_spec g gp r W (b_parent nb) ob Sp So) as [ln [Eln Hln]].
    rewrite Elo, Eln in Hw.
    change (ascending_enum (old_branch r ob nb) lo) in Hlo. change (ascending_enum (new_branch r ob nb) ln) in Hln.
    destruct Hlo as [Mlo Alo]. pose proof Hln as [Mln Aln].
    (* the surviving rows and the height they lie below *)
    assert (K : forall d1, match lo with [] => Some db | f :: _ => truncate (num_of f) db end = Some d1 ->
                exists n, kept r ob nb db d1 /\ below (n * two35) d1 /\ (forall a, In a ln -> n <= num_of a) /\ n <= num_of p + 1).
    { intros d1 H1. destruct lo as [|f rest].
      - injection H1 as <-. assert (Hno : forall x, ~ old_branch r ob nb x) by (intros x Hx; apply Mlo in Hx; destruct Hx).
        exists (num_of ob + 1). split; [left; split; [exact Hno | reflexivity]|]. split; [exact B|]. split.
        + intros a Ha. apply Mln in Ha. apply no_old_branch; assumption.
        + destruct So as [so Hso]. destruct (anc_dec g gp r p ob W Sp) as [H|H].
          * pose proof (anc_height g gp r W _ _ H). lia.
          * exfalso. apply (Hno ob). split; [eapply anc_refl; eauto | exact H].
      - assert (Lf : lowest (old_branch r ob nb) f).
        { split; [apply Mlo; left; reflexivity|]. intros a Ha. exact (proj2 (enum_head_lowest _ f rest a (conj Mlo Alo) Ha)). }
        apply truncate_rows_below in H1. subst d1. exists (num_of f).
        split; [right; exists f; split; [exact Lf | reflexivity]|]. split; [apply rows_below_block_below|]. split.
        + intros a Ha. apply Mln in Ha. apply (new_above_lowest_old f a Lf Ha).
        + apply lowest_old_le. exact Lf. }
    destruct (match lo with [] => Some db | f :: _ => truncate (num_of f) db end) as [d1|] eqn:E1; [|discriminate].
    destruct (K d1 eq_refl) as [n [Kd [Bd [Hge Hle]]]].
    destruct (write_ids r ln d1) as [d2|] eqn:E2; [|discriminate].
    destruct (write_ids_appends r WB ln n d1 d2 Aln Hge Bd E2) as [A1 [A2 A3]].
    assert (B2 : below (num_of (b_id nb) * two35) d2).
    { rewrite Hnum. apply A3; [exact Hle|]. intros a Ha. apply Mln in Ha. destruct Ha as [Pa _].
      pose proof (anc_height g gp r W _ _ Pa). unfold p in *. lia. }
    destruct (write_block_appends nb d2 db' Hw B2) as [F1 F2].
    exists d1, ln. split; [exact Kd|]. split; [exact Hln|]. rewrite F1, F2, A1, A2, <- !app_assoc. auto.
  Qed.
End Step.

Lemma kept_functional r ob nb db d1 d2 : kept r ob nb db d1 -> kept r ob nb db d2 -> d1 = d2.
Proof.
  intros [[N1 ->]|[f1 [[P1 L1] ->]]] [[N2 ->]|[f2 [[P2 L2] ->]]]; [reflexivity | exfalso; apply (N1 _ P2) | exfalso; apply (N2 _ P1) |].
  pose proof (L1 _ P2). pose proof (L2 _ P1). replace (num_of f2) with (num_of f1) by lia. reflexivity.
Qed.

Theorem write_logs_spec_functional r db nb ob d1 d2 :
  write_logs_spec r db nb ob d1 -> write_logs_spec r db nb ob d2 -> d1 = d2.
Proof.
  intros [k1 [l1 [K1 [E1 [A1 B1]]]]] [k2 [l2 [K2 [E2 [A2 B2]]]]].
  pose proof (kept_functional _ _ _ _ _ _ K1 K2). pose proof (ascending_enum_unique _ _ _ E1 E2). subst k2 l2.
  destruct d1 as [e1 t1], d2 as [e2 t2]. cbn [db_events db_transfers] in *. congruence.
Qed.

(* Write of the block alone succeeds: every sequence number it needs passes the 28 / 15 / 20-bit range checks *)
Definition writable (b : blk) : Prop := exists d', write_block b empty_db = Some d'.

Lemma write_block_writable b d : (exists d', write_block b d = Some d') <-> writable b.
Proof.
  unfold writable. destruct (write_block_put b) as [[|] [_ E]]; rewrite !E.
  - split; intros _; eexists; reflexivity.
  - split; intros [d' H]; discriminate.
Qed.

Lemma write_block_none b d : write_block b d = None <-> ~ writable b.
Proof.
  rewrite <- (write_block_writable b d). destruct (write_block b d) as [d'|].
  - split; [discriminate|]. intros H. exfalso. apply H. eexists. reflexivity.
  - split; [|reflexivity]. intros _ [d' H]. discriminate.
Qed.

Lemma truncate_none n db : truncate n db = None <-> max_block < n.
Proof.
  unfold truncate, seq_of. destruct (N.ltb_spec max_block n) as [H|H].
  - split; [intros _; exact H | reflexivity].
  - cbn. split; [discriminate | lia].
Qed.

Lemma write_ids_some r l : forall d d', write_ids r l d = Some d' ->
  forall a, In a l -> exists s b, get_block r a = Some (s, b) /\ writable b.
Proof.
  induction l as [|x l IH]; intros d d' H a Ha; [destruct Ha|]. cbn [write_ids] in H.
  destruct (get_block r x) as [[s bx]|] eqn:Eb; [|discriminate].
  destruct (write_block bx d) as [d1|] eqn:Ew; [|discriminate].
  destruct Ha as [<-|Ha]; [|exact (IH d1 d' H a Ha)].
  exists s, bx. split; [exact Eb|]. apply (write_block_writable bx d). exists d1. exact Ew.
Qed.

Lemma write_ids_none r l : forall d, write_ids r l d = None ->
  exists a, In a l /\ (get_block r a = None \/ exists s b, get_block r a = Some (s, b) /\ ~ writable b).
Proof.
  induction l as [|x l IH]; intros d H; cbn [write_ids] in H; [discriminate|].
  destruct (get_block r x) as [[s bx]|] eqn:Eb; [|exists x; split; [left; reflexivity | left; exact Eb]].
  destruct (write_block bx d) as [d1|] eqn:Ew.
  - destruct (IH d1 H) as [a [Ha Hf]]. exists a. split; [right; exact Ha | exact Hf].
  - exists x. split; [left; reflexivity|]. right. exists s, bx. split; [exact Eb|]. apply (write_block_none bx d). exact Ew.
Qed.

Section StepFails.
  Variables (g gp : N) (r : repo).
  Hypothesis W : wf g gp r.
  Hypothesis WB : wf_body r.
  Variables (ob : N) (nb : blk).
  Hypothesis So : stored r ob.
  Hypothesis Sp : stored r (b_parent nb).

  (* on a well-formed repository with both blocks stored, writeLogs fails exactly where a sequence range check fails:
     the Truncate height, a block of the new branch, or the new block itself *)
  Theorem write_logs_fails_iff db :
    write_logs r db nb ob = None <->
    (exists f, lowest (old_branch r ob nb) f /\ max_block < num_of f) \/
    (exists a s b, new_branch r ob nb a /\ get_block r a = Some (s, b) /\ ~ writable b) \/
    ~ writable nb.
  Proof.
    unfold write_logs.
    destruct (exclude_spec g gp r W ob (b_parent nb) So Sp) as [lo [Elo Hlo]].
    destruct (exclude_spec g gp r W (b_parent nb) ob Sp So) as [ln [Eln Hln]].
    rewrite Elo, Eln.
    change (ascending_enum (old_branch r ob nb) lo) in Hlo. change (ascending_enum (new_branch r ob nb) ln) in Hln.
    destruct Hlo as [Mlo Alo]. destruct Hln as [Mln Aln].
    assert (Hlow : forall f, lowest (old_branch r ob nb) f -> exists f' rest, lo = f' :: rest /\ num_of f' = num_of f).
    { intros f [Pf Lf]. destruct lo as [|f' rest]; [apply Mlo in Pf; destruct Pf|]. exists f', rest. split; [reflexivity|].
      destruct (enum_head_lowest _ f' rest f (conj Mlo Alo) Pf) as [Pf' Hle]. pose proof (Lf f' Pf'). lia. }
    split.
    - intros H.
      destruct (match lo with [] => Some db | f :: _ => truncate (num_of f) db end) as [d1|] eqn:E1.
      + destruct (write_ids r ln d1) as [d2|] eqn:E2.
        * right. right. apply (write_block_none nb d2). exact H.
        * right. left. destruct (write_ids_none r ln d1 E2) as [a [Ha Hf]]. apply Mln in Ha.
          destruct Hf as [Hf|[s [b [Hb Hw]]]]; [|exists a, s, b; auto]. exfalso.
          destruct Ha as [Pa _]. destruct (proj2 (anc_stored r _ _ Pa)) as [s Hs].
          destruct (get_block_stored r WB a s Hs) as [b Hb]. congruence.
      + left. destruct lo as [|f rest]; [discriminate|]. exists f. split; [|apply (truncate_none (num_of f) db); exact E1].
        split; [apply Mlo; left; reflexivity|]. intros a Ha. exact (proj2 (enum_head_lowest _ f rest a (conj Mlo Alo) Ha)).
    - intros [[f [Lf Hmax]]|[[a [s [b [Pa [Hb Hw]]]]]|Hw]].
      + destruct (Hlow f Lf) as [f' [rest [-> En]]].
        assert (T : truncate (num_of f') db = None) by (apply truncate_none; lia). rewrite T. reflexivity.
      + destruct (match lo with [] => Some db | f :: _ => truncate (num_of f) db end) as [d1|]; [|reflexivity].
        destruct (write_ids r ln d1) as [d2|] eqn:E2; [|reflexivity]. exfalso.
        destruct (write_ids_some r ln d1 d2 E2 a (proj2 (Mln a) Pa)) as [s' [b' [Hb' Hw']]]. rewrite Hb in Hb'. injection Hb' as _ <-. tauto.
      + destruct (match lo with [] => Some db | f :: _ => truncate (num_of f) db end) as [d1|]; [|reflexivity].
        destruct (write_ids r ln d1) as [d2|]; [|reflexivity]. apply (write_block_none nb d2). exact Hw.
  Qed.

  (* hence: where it does not fail, the step is exactly the specification *)
  Theorem write_logs_iff_spec db db' :
    num_of (b_id nb) = num_of (b_parent nb) + 1 -> below ((num_of ob + 1) * two35) db ->
    write_logs r db nb ob <> None ->
    (write_logs r db nb ob = Some db' <-> write_logs_spec r db nb ob db').
  Proof.
    intros Hnum B Hok. split; [apply (write_logs_meets_spec g gp r W WB ob nb So Sp db db' Hnum B)|].
    intros Hs. destruct (write_logs r db nb ob) as [d|] eqn:E; [|contradiction]. f_equal.
    apply (write_logs_spec_functional r db nb ob d db'); [|exact Hs].
    apply (write_logs_meets_spec g gp r W WB ob nb So Sp db d Hnum B E).
  Qed.
End StepFails.

(* a sufficient range condition: block number, number of receipts and the two per-block log counts within 28 / 15 / 20 bits *)
Fixpoint rcs_count_ev (rcs : list receipt) : N := match rcs with [] => 0 | rc :: t => count_ev (rc_outs rc) + rcs_count_ev t end.
Fixpoint rcs_count_tr (rcs : list receipt) : N := match rcs with [] => 0 | rc :: t => count_tr (rc_outs rc) + rcs_count_tr t end.
Definition fits (b : blk) : Prop :=
  num_of (b_id b) <= max_block /\ lenN (b_rcs b) <= max_txi + 1 /\
  rcs_count_ev (b_rcs b) <= max_logi + 1 /\ rcs_count_tr (b_rcs b) <= max_logi + 1.

Lemma write_receipts_fits bid bnum btime rcs : bnum <= max_block -> forall txs txi d ec tc, txi + lenN rcs <= max_txi + 1 ->
  ec + rcs_count_ev rcs <= max_logi + 1 -> tc + rcs_count_tr rcs <= max_logi + 1 ->
  exists st', write_receipts bid bnum btime txs rcs txi (d, ec, tc) = Some st'.
Proof.
  intros Hb. unfold lenN. induction rcs as [|rc rcs IH]; intros txs txi d ec tc Ht He Hc; cbn [write_receipts rcs_count_ev rcs_count_tr length] in *.
  - eexists. reflexivity.
  - destruct (match txs with t :: _ => (tx_id t, tx_origin t) | [] => (0, 0) end) as [txid origin].
    destruct (write_outputs_put bid bnum btime txid origin txi (rc_outs rc) 0 ec tc) as [ok [_ [B E]]].
    rewrite E, B by lia. apply IH; lia.
Qed.

Lemma fits_writable b : fits b -> writable b.
Proof.
  intros [H1 [H2 [H3 H4]]]. unfold writable, write_block.
  destruct (write_receipts_fits (b_id b) (num_of (b_id b)) (b_time b) (b_rcs b) H1 (b_txs b) 0 empty_db 0 0) as [[[d' e'] t'] ->]; [lia | lia | lia|].
  eexists. reflexivity.
Qed.

Section PathEnum.
  Variables (g gp : N) (r : repo).
  Hypothesis W : wf g gp r.

  (* the path of h, read oldest first, is the ascending enumeration of h's ancestors *)
  Lemma path_enum h st : is_path r h st -> ascending_enum (anc r h) (rev st).
  Proof.
    intros P. split.
    - intros a. rewrite <- in_rev. apply (path_members g gp r W h st P).
    - apply desc_rev_asc. apply (path_desc g gp r W h st P).
  Qed.

  Lemma path_ends_gen h st : is_path r h st -> exists pre, st = pre ++ [g].
  Proof.
    induction 1 as [|h s l Hs Hg Hp [pre ->]].
    - exists []. rewrite (w_gen _ _ _ W). reflexivity.
    - exists (h :: pre). reflexivity.
  Qed.

  Lemma path_enum_nogen h pre : is_path r h (pre ++ [g]) -> ascending_enum (fun a => anc r h a /\ a <> g) (rev pre).
  Proof.
    intros P. pose proof (path_desc g gp r W h _ P) as D. split.
    - intros a. rewrite <- in_rev. split.
      + intros Ha. split; [apply (path_members g gp r W h _ P); apply in_or_app; left; exact Ha|].
        intros ->. pose proof (desc_app_lt pre [g] D g g Ha (or_introl eq_refl)). lia.
      + intros [Ha Hne]. apply (path_members g gp r W h _ P) in Ha. apply in_app_or in Ha. destruct Ha as [Ha|[Ha|[]]]; [exact Ha | congruence].
    - apply desc_rev_asc. apply (desc_app_l pre [g] D).
  Qed.

  (* prepending genesis to the enumeration of the other ancestors gives the enumeration of all ancestors *)
  Lemma enum_add_gen h l : stored r h -> ascending_enum (fun a => anc r h a /\ a <> g) l -> ascending_enum (anc r h) (g :: l).
  Proof.
    intros Sh HE. destruct (path_exists g gp r W h Sh) as [st P]. destruct (path_ends_gen h st P) as [pre ->].
    rewrite (ascending_enum_unique _ _ _ HE (path_enum_nogen h pre P)).
    pose proof (path_enum h _ P) as H. rewrite rev_app_distr in H. exact H.
  Qed.

  Hypothesis WB : wf_body r.

  (* the repository stores genesis without receipts: no rows *)
  Lemma genesis_no_rows : blk_events r g = [] /\ blk_transfers r g = [].
  Proof.
    pose proof (w_gsum _ _ _ W) as Hs. destruct (WB g _ Hs) as [b [B1 [B2 [B3 [B4 B5]]]]].
    cbn [s_txids s_conf] in *. symmetry in B3. apply map_eq_nil in B3. rewrite B3 in B5. cbn [length] in B5.
    destruct (b_rcs b) as [|rc rcs] eqn:Er; [|discriminate].
    unfold blk_events, blk_transfers, get_block. rewrite Hs. cbn [s_conf]. rewrite B1.
    unfold block_events, block_transfers. rewrite Er. split; reflexivity.
  Qed.
End PathEnum.

Definition tr_sorted (l : list trrow) : Prop := StronglySorted (fun a b => tr_seq a < tr_seq b) l.

Lemma ins_tr_sorted x l : tr_sorted l -> tr_sorted (ins_tr x l).
Proof. exact (ins_sorted tr_seq ins_tr ins_tr_eq x l). Qed.

Lemma ext_sorted lo hi d d' : ext lo hi d d' -> ev_sorted (db_events d) /\ tr_sorted (db_transfers d) ->
  ev_sorted (db_events d') /\ tr_sorted (db_transfers d').
Proof.
  induction 1 as [d|d d' x H IH Hx|d d' x H IH Hx]; intros S; [exact S| |]; destruct (IH S) as [S1 S2]; cbn [db_events db_transfers]; split; auto.
  - apply ins_ev_sorted. exact S1.
  - apply ins_tr_sorted. exact S2.
Qed.

Lemma rows_of_path_sorted r st : forall d, rows_of_path r st = Some d -> ev_sorted (db_events d) /\ tr_sorted (db_transfers d).
Proof.
  induction st as [|x st IH]; intros d H; cbn [rows_of_path] in H.
  - injection H as <-. split; constructor.
  - destruct (rows_of_path r st) as [d0|] eqn:E0; [|discriminate].
    destruct (get_block r x) as [[s bx]|] eqn:Eb; [|discriminate].
    eapply ext_sorted; [apply write_block_ext; exact H | apply IH; reflexivity].
Qed.

(* a key of block n's range lies below block m's range iff n < m *)
Lemma key_below_block n key m : n * two35 <= key < (n + 1) * two35 -> (key < m * two35 <-> n < m).
Proof. unfold two35. nia. Qed.

(* what a filter below key n keeps, when lying below n is a property P of the row's block *)
Lemma filter_below_iff {A} (key blockof : A -> N) (P : N -> Prop) n (l : list A) :
  (forall x, In x l -> (key x < n <-> ~ P (blockof x))) ->
  forall x, In x (filter (fun x => key x <? n) l) <-> In x l /\ ~ P (blockof x).
Proof. intros H x. rewrite filter_In, N.ltb_lt. split; intros [Hx Hc]; (split; [exact Hx|]); apply (H x Hx); exact Hc. Qed.

Section CanonAnc.
  Variables g gp tag : N.
  Hypothesis Hg : num_of g = 0.

  Lemma imported_path r db : imported g gp tag r db ->
    wf g gp r /\ wf_body r /\ exists st, is_path r (r_best r) st /\ rows_of_path r st = Some db.
  Proof.
    intros I. pose proof (imported_reachable _ _ _ _ _ I) as R. pose proof (reachable_wf _ _ _ _ _ Hg R) as W.
    split; [exact W|]. split; [exact (reachable_wf_body _ _ _ _ _ Hg R)|].
    destruct (path_exists g gp r W (r_best r) (w_best _ _ _ W)) as [st P]. exists st. split; [exact P|].
    exact (logdb_tracks_canonical_lemma g gp tag Hg r db I st P).
  Qed.

  (* after every import history the tables are the rows of best's ancestors in ascending height order *)
  Theorem logdb_is_ancestor_logs_all r db : imported g gp tag r db ->
    forall l, ascending_enum (anc r (r_best r)) l -> db_events db = rows_ev r l /\ db_transfers db = rows_tr r l.
  Proof.
    intros I l HE. destruct (imported_path r db I) as (W & WB & st & P & Hrows).
    rewrite (ascending_enum_unique _ _ _ HE (path_enum g gp r W _ _ P)).
    rewrite <- chain_events_rows, <- chain_transfers_rows.
    exact (rows_of_path_flat r st WB (path_desc g gp r W _ _ P) db Hrows).
  Qed.

  (* ... genesis (stored without receipts) left out of the enumeration *)
  Theorem logdb_is_ancestor_logs r db : imported g gp tag r db ->
    forall l, ascending_enum (fun a => anc r (r_best r) a /\ a <> g) l ->
      db_events db = rows_ev r l /\ db_transfers db = rows_tr r l.
  Proof.
    intros I l HE. destruct (imported_path r db I) as (W & WB & _).
    destruct (logdb_is_ancestor_logs_all r db I (g :: l) (enum_add_gen g gp r W _ l (w_best _ _ _ W) HE)) as [E1 E2].
    destruct (genesis_no_rows g gp r W WB) as [G1 G2].
    rewrite rows_ev_cons, G1 in E1. rewrite rows_tr_cons, G2 in E2. auto.
  Qed.

  (* the enumeration exists (and is unique): the statements are not vacuous in l *)
  Theorem ancestor_enum_exists r db : imported g gp tag r db ->
    exists l, ascending_enum (fun a => anc r (r_best r) a /\ a <> g) l.
  Proof.
    intros I. destruct (imported_path r db I) as (W & _ & st & P & _). destruct (path_ends_gen g gp r W _ st P) as [pre ->].
    exists (rev pre). apply (path_enum_nogen g gp r W _ pre P).
  Qed.

  (* membership form: a row is in the table iff the receipts of a block on best's chain prescribe it *)
  Theorem logdb_rows_membership r db : imported g gp tag r db ->
    (forall x, In x (db_events db) <-> exists a s b, anc r (r_best r) a /\ get_block r a = Some (s, b) /\ In x (block_events b)) /\
    (forall x, In x (db_transfers db) <-> exists a s b, anc r (r_best r) a /\ get_block r a = Some (s, b) /\ In x (block_transfers b)).
  Proof.
    intros I. destruct (imported_path r db I) as (W & _ & st & P & _).
    pose proof (path_enum g gp r W _ _ P) as HE. destruct (logdb_is_ancestor_logs_all r db I _ HE) as [E1 E2].
    destruct HE as [M _]. rewrite E1, E2. split; intros x.
    - exact (in_block_rows block_events r _ _ x M).
    - exact (in_block_rows block_transfers r _ _ x M).
  Qed.

  (* order: both tables are strictly ascending in the sequence key — by seq_pack_inj_mono the lexicographic order of
     (block number, tx index, log index) — and the rows of an ancestor carry its id and lie in its key range *)
  Theorem logdb_rows_ordered r db : imported g gp tag r db ->
    ev_sorted (db_events db) /\ tr_sorted (db_transfers db) /\
    (forall a, anc r (r_best r) a ->
       (forall x, In x (blk_events r a) -> er_block x = a /\ num_of a * two35 <= er_seq x < (num_of a + 1) * two35) /\
       (forall x, In x (blk_transfers r a) -> tr_block x = a /\ num_of a * two35 <= tr_seq x < (num_of a + 1) * two35)).
  Proof.
    intros I. destruct (imported_path r db I) as (W & WB & st & P & Hrows).
    destruct (rows_of_path_sorted r st db Hrows) as [S1 S2]. split; [exact S1|]. split; [exact S2|].
    intros a Ha. apply (path_members g gp r W _ _ P) in Ha.
    destruct (rows_bounds r WB st db Hrows a Ha) as [B1 B2].
    split; intros x Hx; (split; [|auto]); [apply (blk_events_block r WB a x Hx) | apply (blk_transfers_block r WB a x Hx)].
  Qed.

  (* the tables of a running node, which start with the genesis builder's rows of block 0 *)
  Theorem logdb_after_genesis_rows_is_ancestor_logs d0 r db : below two35 d0 -> imported_from g gp tag d0 r db ->
    forall l, ascending_enum (fun a => anc r (r_best r) a /\ a <> g) l ->
      db_events db = db_events d0 ++ rows_ev r l /\ db_transfers db = db_transfers d0 ++ rows_tr r l.
  Proof.
    intros B0 I l HE. destruct (imported_from_frame g gp tag d0 r db Hg B0 I) as [db1 [I1 ->]].
    destruct (logdb_is_ancestor_logs r db1 I1 l HE) as [E1 E2]. unfold frame. cbn [db_events db_transfers]. rewrite E1, E2. auto.
  Qed.

  (* ---- the best-changing step of an import history, over ancestry ---- *)
  Lemma imported_below r db : imported g gp tag r db -> below ((num_of (r_best r) + 1) * two35) db.
  Proof.
    intros I. destruct (imported_path r db I) as (W & WB & st & P & Hrows). apply (rows_below r WB st db _ Hrows).
    intros a Ha. apply (path_members g gp r W _ _ P) in Ha. pose proof (anc_height g gp r W _ _ Ha). lia.
  Qed.

  Theorem imported_step_meets_spec r db b conf r' db' : imported g gp tag r db -> valid_add r b conf ->
    write_logs r db b (r_best r) = Some db' -> add_block r b conf true = Some r' ->
    write_logs_spec r db b (r_best r) db'.
  Proof.
    intros I V Hw A. destruct (imported_path r db I) as (W & WB & _).
    destruct (add_parent _ _ _ _ _ A) as [ps [Hps _]].
    apply (write_logs_meets_spec g gp r W WB (r_best r) b (w_best _ _ _ W) (ex_intro _ ps Hps) db db'); [apply V | apply imported_below; exact I | exact Hw].
  Qed.

  (* on the tables of an import history, what the step keeps is exactly the rows whose block is not on the old branch *)
  Theorem kept_on_canonical r db nb dk : imported g gp tag r db -> stored r (b_parent nb) -> kept r (r_best r) nb db dk ->
    (forall x, In x (db_events dk) <-> In x (db_events db) /\ ~ old_branch r (r_best r) nb (er_block x)) /\
    (forall x, In x (db_transfers dk) <-> In x (db_transfers db) /\ ~ old_branch r (r_best r) nb (tr_block x)).
  Proof.
    intros I Sp K. destruct (imported_path r db I) as (W & _).
    destruct K as [[Hno ->]|[f [[[Of Nf] Lf] ->]]].
    { split; intros x; (split; [intros H; split; [exact H | apply Hno] | tauto]). }
    destruct (logdb_rows_ordered r db I) as [_ [_ Hrange]].
    destruct (logdb_rows_membership r db I) as [M1 M2].
    (* a block of best's chain is on the old branch iff it is at or above f *)
    assert (Hold : forall a, anc r (r_best r) a -> (old_branch r (r_best r) nb a <-> num_of f <= num_of a)).
    { intros a Ha. split; [intros Pa; apply Lf; exact Pa|]. intros Hle. split; [exact Ha|]. intros Pa. apply Nf.
      apply (anc_trans r _ a f Pa). apply (anc_linear g gp r W (r_best r) a f Ha Of Hle). }
    (* a row of the table lies below f's key range iff its block, which is on best's chain, is not on the old branch *)
    assert (Hrow : forall a key, anc r (r_best r) a -> num_of a * two35 <= key < (num_of a + 1) * two35 ->
              (key < num_of f * two35 <-> ~ old_branch r (r_best r) nb a)).
    { intros a key Ha Hr. rewrite (Hold a Ha), (key_below_block _ _ (num_of f) Hr). lia. }
    cbn [rows_below_block db_events db_transfers]. split; apply filter_below_iff; intros x Hx;
      [apply M1 in Hx | apply M2 in Hx]; destruct Hx as [a [s [b [Ha [Eb Hx]]]]].
    - assert (Hb : In x (blk_events r a)) by (unfold blk_events; rewrite Eb; exact Hx).
      destruct (proj1 (Hrange a Ha) x Hb) as [-> Hr]. exact (Hrow a _ Ha Hr).
    - assert (Hb : In x (blk_transfers r a)) by (unfold blk_transfers; rewrite Eb; exact Hx).
      destruct (proj2 (Hrange a Ha) x Hb) as [-> Hr]. exact (Hrow a _ Ha Hr).
  Qed.
End CanonAnc.
