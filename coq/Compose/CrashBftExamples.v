(* Compose/CrashBftExamples.v — non-vacuity of the Crash <-> Bft bridge (Compose/CrashBft.v) on the example history of
   Crash/Examples.v: genesis + seven blocks on one chain, epoch length 2, every block justified and committed on the crash
   side.  On the Bft side: one proposer slot (threshold 1 * 2 / 3 = 0, so one COM vote justifies and commits a round), every
   block signed by signer 1 with the COM bit.  All hypotheses of the bridge theorems are met; the coupling
   [flags_are_tallies] is CHECKED (vm_compute of the Bft tally against the stored flags) for the genesis store, for the
   store after the history and for a store resumed after the F6 cut; the abstraction of the final store is the Bft node
   that imported the seven blocks. *)
From Coq Require Import List NArith Bool Lia.
From Verif Require Import Crash.Model Crash.ProofsStore Crash.ProofsInv Crash.ProofsImport Crash.ProofsCrash Crash.Examples
  Crash.ProofsEqv Crash.ProofsShape Crash.ProofsResumeAll Crash.ProofsResume Crash.ProofsQuality.
From Verif Require Import Compose.CrashBft.
Import ListNotations.
Open Scope N_scope.

Definition xbc : BM.cfg := BM.mkCfg 2 1 false 0 [].
Definition xsg (id : N) : N := 1.
Definition xcm (id : N) : bool := true.
Definition xmaster : N := 9.

Definition xnode : BM.node := gnode tr_small xsg xcm xmaster ex_gen.
Definition xabs : store -> BM.node := abs ex_cfg tr_small xsg xcm xmaster.
Definition xrun : BM.node := BN.import_all xbc true xnode (map (ablk tr_small xsg xcm) ex_hist).

Lemma ex_small_gen : small (b_id ex_gen).
Proof. vm_compute. reflexivity. Qed.

Lemma ex_ids_ok : ids_ok small ex_hist.
Proof.
  intros b Hb. unfold ex_hist in Hb. cbn [In] in Hb.
  repeat (destruct Hb as [<-|Hb]; [split; [vm_compute; reflexivity | split; vm_compute; reflexivity]|]). destruct Hb.
Qed.

Lemma ex_flags_hist : flags_hist xbc tr_small xsg xcm xnode ex_hist.
Proof. apply flags_histb_sound. vm_compute. reflexivity. Qed.

Lemma ex_hist_ok : hist_ok ex_cfg xbc tr_small small xsg xcm ex_s0 xnode ex_hist.
Proof. apply hist_ok_intro; [exact ex_ids_ok | exact ex_wf_hist | exact ex_flags_hist]. Qed.

(* every hypothesis of the theorems of CrashBft.v's FromGenesis section holds of the example *)
Lemma ex_bridge_hypotheses :
  BM.c_L xbc = c_L ex_cfg /\
  (forall a, small a -> BT.idnum (tr_small a) = num_of a) /\
  (forall a b, small a -> small b -> (tr_small a <? tr_small b) = (a <? b)) /\
  wf_cfg2 ex_cfg /\ c_g ex_cfg = b_id ex_gen /\ b_skeep ex_gen = [] /\ b_ikeep ex_gen = [] /\
  b_just ex_gen = false /\ b_comm ex_gen = false /\ small (b_id ex_gen) /\
  wf_hist ex_cfg ex_s0 ex_hist /\ hist_ok ex_cfg xbc tr_small small xsg xcm ex_s0 xnode ex_hist.
Proof.
  split; [reflexivity|]. split; [exact tr_small_num|]. split; [exact tr_small_lt|]. split; [exact ex_wf_cfg2|].
  do 5 (split; [reflexivity|]). split; [exact ex_small_gen|]. split; [exact ex_wf_hist | exact ex_hist_ok].
Qed.

(* the store resumed after the F6 cut, evaluated once *)
Definition ex_resumed : option store :=
  Eval vm_compute in resume ex_cfg true (crash ex_cfg ex_s0 ex_hist f6_cut) (skipn 2 ex_hist).
Lemma ex_resumed_eq : resume ex_cfg true (crash ex_cfg ex_s0 ex_hist f6_cut) (skipn 2 ex_hist) = ex_resumed.
Proof. rewrite crash_blocks, ex_blocks_eq. vm_compute. reflexivity. Qed.

(* the coupling, checked: the flags stored with every block are the tally compute_state gives for it over the abstract node *)
Lemma ex_flags_are_tallies :
  flags_are_tallies ex_cfg xbc tr_small xsg xcm xmaster ex_s0 /\
  flags_are_tallies ex_cfg xbc tr_small xsg xcm xmaster (run ex_cfg ex_s0 ex_hist) /\
  match resume ex_cfg true (crash ex_cfg ex_s0 ex_hist f6_cut) (skipn 2 ex_hist) with
  | Some r => flags_are_tallies ex_cfg xbc tr_small xsg xcm xmaster r
  | None => False
  end.
Proof.
  rewrite run_blocks, ex_blocks_eq, ex_resumed_eq.
  unfold ex_resumed. repeat apply conj; apply flags_are_tallies_b_ok; vm_compute; reflexivity.
Qed.

Definition xrun_v : BM.node := Eval vm_compute in xrun.
Lemma xrun_eq : xrun = xrun_v.
Proof. vm_compute. reflexivity. Qed.

(* the history is not trivial on the Bft side either: seven blocks stored on top of genesis, best = block 7,
   finalized = block 4, quality records 1 2 3 4 at the store points 1 3 5 7; and the abstraction function applied to the
   store after the history gives exactly that node *)
Lemma ex_abs_is_bft_run :
  BM.n_repo (xabs (run ex_cfg ex_s0 ex_hist)) = BM.n_repo xrun /\
  BM.n_best (xabs (run ex_cfg ex_s0 ex_hist)) = BM.n_best xrun /\
  BM.e_fin (BM.n_eng (xabs (run ex_cfg ex_s0 ex_hist))) = BM.e_fin (BM.n_eng xrun) /\
  length (BM.n_repo xrun) = 8%nat /\
  BM.n_best xrun = tr_small (bid 7 7) /\ BM.e_fin (BM.n_eng xrun) = tr_small (bid 4 4) /\
  map (fun k => BM.get_q (BM.e_qs (BM.n_eng xrun)) (tr_small (bid k k))) [1; 3; 5; 7] = [1; 2; 3; 4] /\
  map (fun k => get_quality (run ex_cfg ex_s0 ex_hist) (bid k k)) [1; 3; 5; 7] = [1; 2; 3; 4].
Proof. rewrite run_blocks, ex_blocks_eq, xrun_eq. vm_compute. repeat split. Qed.

(* the store resumed after the F6 cut (between the block bulk and the quality record of block 3), abstracted: the same node *)
Lemma ex_resumed_abs :
  cut_in_import ex_cfg ex_s0 ex_hist f6_cut 2 /\
  option_map (fun r => (BM.n_repo (xabs r), BM.n_best (xabs r), BM.e_fin (BM.n_eng (xabs r))))
    (resume ex_cfg true (crash ex_cfg ex_s0 ex_hist f6_cut) (skipn 2 ex_hist)) =
  Some (BM.n_repo xrun, BM.n_best xrun, BM.e_fin (BM.n_eng xrun)).
Proof. split; [exact (proj1 f6_cut_position) | rewrite ex_resumed_eq, xrun_eq; vm_compute; reflexivity]. Qed.

(* the block tree of the example is a single chain, hence consistent (the premise of resumed_function_of_set) *)
Lemma ex_tree :
  BO3.tree_consistent xbc (BM.n_repo xrun) /\ In (ablk tr_small xsg xcm ex_gen) (BM.n_repo xrun) /\
  (forall b, In b ex_hist -> In (ablk tr_small xsg xcm b) (BM.n_repo xrun)).
Proof.
  rewrite xrun_eq. split; [|split].
  - apply BO3.single_chain_consistent; vm_compute; repeat split.
  - vm_compute. tauto.
  - intros b Hb. unfold ex_hist in Hb. cbn [In] in Hb.
    repeat (destruct Hb as [<-|Hb]; [vm_compute; tauto|]). destruct Hb.
Qed.
