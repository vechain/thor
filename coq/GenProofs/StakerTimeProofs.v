(* GenProofs/StakerTimeProofs.v — lemmas over the GENERATED translation (coq/Gen/StakerTime.v, tools/go2v) of the staker's
   time / period logic:  builtin/staker/validation/validation.go  IsOnline, IsPeriodEnd, NextPeriodTVL, CurrentIteration,
   CompletedIterations, CooldownEnded, CalculateWithdrawableVET, multiplier  and  builtin/staker/delegation/delegation.go
   Started, Ended, IsLocked.
   (a) their specifications in plain (unbounded) arithmetic, with the exact conditions under which no uint32 / uint64 wrap happens;
   (b) agreement with the hand-written model functions of C16/C17 (Staker/Model.v) on in-range inputs — the translation tie
       of that part of the model — together with the inputs on which the unbounded model and the fixed-width code differ.
   A struct parameter of the Go function is a group of arguments, one per field read (go2v); a `*uint32` field is an option. *)
From Coq Require Import ZArith NArith Bool Lia.
From Coq Require Import ZifyN ZifyBool.
From Verif Require Import Common.GoInt Gen.StakerTime Staker.Model.
Open Scope Z_scope.

(* ZifyN makes [lia] turn / and mod into their defining equations; ZifyBool lets it read boolean comparisons *)

Definition u8 (x : Z) : Prop := 0 <= x < 256.
Definition u32 (x : Z) : Prop := 0 <= x < 4294967296.
Definition u64 (x : Z) : Prop := 0 <= x < 18446744073709551616.

Lemma div_le_self a b : 0 <= a -> 0 < b -> 0 <= a / b <= a.
Proof.
  intros Ha Hb. split; [apply Z.div_pos; lia|].
  apply Z.div_le_upper_bound; [lia|]. nia.
Qed.

(* ================================================================== (0) characterisations
   The ONLY lemmas that look inside the generated definitions.  Each states the complete behaviour of one translated function
   in plain arithmetic (a wrap is an explicit `mod 2^32` / `mod 2^64`) and is proved by one generic tactic — case analysis on
   every `if` / `match` of the generated term, removal of the wraps that provably do not wrap, linear arithmetic — so that a
   behaviour-preserving rewrite of the Go function inside the fragment keeps the proof, and a behaviour change breaks it.
   Everything below (specifications, agreement with the model) is derived from these statements only. *)

Ltac case_step :=
  match goal with
  | H : Some _ = Some _ |- _ => injection H as H
  | H : Some _ = None |- _ => discriminate H
  | H : None = Some _ |- _ => discriminate H
  | |- context [match ?x with _ => _ end] => destruct x eqn:?
  | H : context [match ?x with _ => _ end] |- _ => destruct x eqn:?
  end.

Ltac pose_div_bounds :=
  repeat match goal with
  | |- context [?a / ?b] =>
    lazymatch b with Zpos _ => fail | _ => idtac end;
    lazymatch goal with H : 0 <= a / b <= a |- _ => fail | _ => idtac end;
    pose proof (div_le_self a b ltac:(unwrap; lia) ltac:(unwrap; lia))
  end.

Ltac fin := first [ reflexivity | discriminate | solve [exfalso; unwrap; lia] | solve [f_equal; unwrap; lia] | solve [unwrap; lia] ].

Ltac gen_crush :=
  cbv zeta; repeat case_step; cbv zeta; pose_div_bounds; drop_wraps; pose_div_bounds; drop_wraps; unwrap; fin.

Theorem current_iteration_char P CP St S c : u32 S -> u32 c ->
  Validation_CurrentIteration P CP St S c =
  if (St =? 0) || (St =? 1) then Some 0
  else if (St =? 3) || (0 <? CP) then Some CP
  else if (c <? S) || (P =? 0) then None
  else Some (((c - S) / P + 1) mod 4294967296).
Proof. unfold u32. intros HS Hc. unfold Validation_CurrentIteration. gen_crush. Qed.

Theorem completed_iterations_char P CP St S c :
  Validation_CompletedIterations P CP St S c =
  if (St =? 0) || (St =? 1) then Some 0
  else if St =? 3 then Some CP
  else match Validation_CurrentIteration P CP St S c with None => None | Some it => Some ((it - 1) mod 4294967296) end.
Proof. unfold Validation_CompletedIterations. gen_crush. Qed.

Theorem is_period_end_char P S c :
  Validation_IsPeriodEnd P S c = (((c - S) mod 4294967296) mod P =? 0).
Proof. unfold Validation_IsPeriodEnd. gen_crush. Qed.

Theorem cooldown_ended_char cd X c :
  Validation_CooldownEnded cd X c = match X with None => false | Some E => (E + cd) mod 4294967296 <=? c end.
Proof. unfold Validation_CooldownEnded. gen_crush. Qed.

Theorem withdrawable_char cd X Q CD W c : u64 W -> u64 CD -> u64 Q ->
  Validation_CalculateWithdrawableVET cd X Q CD W c =
  (W + (match X with None => 0 | Some E => if (E + cd) mod 4294967296 <=? c then CD else 0 end) + Q) mod 18446744073709551616.
Proof. unfold u64. intros HW HCD HQ. unfold Validation_CalculateWithdrawableVET, Validation_CooldownEnded. gen_crush. Qed.

Theorem is_online_spec X : Validation_IsOnline X = match X with None => true | Some _ => false end.
Proof. unfold Validation_IsOnline. gen_crush. Qed.

Theorem multiplier_spec L W : Validation_multiplier L W = if W =? L then 100 else 200.
Proof. unfold Validation_multiplier. gen_crush. Qed.

Theorem next_period_tvl_char L PU Q : u64 L -> u64 Q -> u64 PU ->
  Validation_NextPeriodTVL L PU Q =
  if (L + Q) mod 18446744073709551616 <? PU then None else Some ((L + Q) mod 18446744073709551616 - PU).
Proof. unfold u64. intros HL HQ HPU. unfold Validation_NextPeriodTVL. gen_crush. Qed.

Theorem started_spec F P CP St S c :
  Delegation_Started F P CP St S c =
  if (St =? 1) || (St =? 0) then Some false
  else match Validation_CurrentIteration P CP St S c with None => None | Some it => Some (F <=? it) end.
Proof. unfold Delegation_Started. gen_crush. Qed.

Theorem ended_char L F P CP St S c :
  Delegation_Ended L F P CP St S c =
  if St =? 1 then Some false
  else match Validation_CurrentIteration P CP St S c with
       | None => None
       | Some it => Some (((St =? 3) && negb (St =? 0) && (F <=? it)) || match L with None => false | Some l => l <? it end)
       end.
Proof. unfold Delegation_Ended, Delegation_Started. gen_crush. Qed.

Theorem is_locked_spec Stk L F P CP St S c :
  Delegation_IsLocked Stk L F P CP St S c =
  if Stk =? 0 then Some false
  else match Delegation_Started F P CP St S c, Delegation_Ended L F P CP St S c with
       | Some s, Some e => Some (s && negb e)
       | _, _ => None
       end.
Proof. unfold Delegation_IsLocked. gen_crush. Qed.

(* ================================================================== (a) specifications *)

(* a condition that linear arithmetic decides (ZifyBool reads the boolean operators) *)
Ltac decide_cond b v := replace b with v by lia.

(* Active: the stored count once an exit is signalled, else the count computed from the block number *)
Lemma current_iteration_running P CP St S c : u32 S -> u32 c -> St <> 0 -> St <> 1 -> St <> 3 ->
  Validation_CurrentIteration P CP St S c =
  if 0 <? CP then Some CP
  else if (c <? S) || (P =? 0) then None
  else Some (((c - S) / P + 1) mod 4294967296).
Proof.
  intros HS Hc H0 H1 H3. rewrite current_iteration_char by assumption.
  decide_cond (St =? 0) false. decide_cond (St =? 1) false. decide_cond (St =? 3) false. reflexivity.
Qed.

(* ---- Validation.CurrentIteration *)

(* Unknown / Queued: 0;  Exit: the stored count;  Active after signal-exit (CompletedPeriods > 0): the stored count *)
Theorem current_iteration_not_running P CP St S c : u32 S -> u32 c ->
  (St = 0 \/ St = 1 -> Validation_CurrentIteration P CP St S c = Some 0) /\
  (St = 3 -> Validation_CurrentIteration P CP St S c = Some CP) /\
  (St <> 0 -> St <> 1 -> 0 < CP -> Validation_CurrentIteration P CP St S c = Some CP).
Proof.
  intros HS Hc. rewrite current_iteration_char by assumption. repeat split.
  - intros [-> | ->]; reflexivity.
  - intros ->. reflexivity.
  - intros H0 H1 H. decide_cond (St =? 0) false. decide_cond (St =? 1) false. decide_cond (0 <? CP) true.
    rewrite orb_true_r. reflexivity.
Qed.

(* Active, no exit signalled: the errors … *)
Theorem current_iteration_active_errors P St S c : u32 S -> u32 c ->
  St <> 0 -> St <> 1 -> St <> 3 -> (c < S \/ P = 0) -> Validation_CurrentIteration P 0 St S c = None.
Proof.
  intros HS Hc H0 H1 H3 H. rewrite current_iteration_running by assumption.
  decide_cond ((c <? S) || (P =? 0)) true. reflexivity.
Qed.

(* … and the value: (currentBlock - StartBlock) / Period + 1, exactly (no uint32 wrap) whenever that number fits 32 bits *)
Theorem current_iteration_active_spec P St S c :
  St <> 0 -> St <> 1 -> St <> 3 -> u32 P -> u32 S -> u32 c -> 0 < P -> S <= c -> (c - S) / P + 1 < 4294967296 ->
  Validation_CurrentIteration P 0 St S c = Some ((c - S) / P + 1).
Proof.
  intros H0 H1 H3 HP HS Hc HP0 HSc Hfit. rewrite current_iteration_running by assumption.
  decide_cond ((c <? S) || (P =? 0)) false. cbv iota.
  pose proof (div_le_self (c - S) P ltac:(lia) HP0).
  rewrite Z.mod_small by lia. reflexivity.
Qed.

(* the hypothesis "fits" holds for every block number below 2^32 - 1 — the only wrapping input is
   currentBlock = 2^32 - 1, StartBlock = 0, Period = 1 (see [current_iteration_wraps_at_max_block]) *)
Corollary current_iteration_active_spec' P St S c :
  St <> 0 -> St <> 1 -> St <> 3 -> u32 P -> u32 S -> 0 < P -> S <= c -> 0 <= c < 4294967295 ->
  Validation_CurrentIteration P 0 St S c = Some ((c - S) / P + 1).
Proof.
  unfold u32. intros. pose proof (div_le_self (c - S) P ltac:(lia) ltac:(lia)).
  apply current_iteration_active_spec; unfold u32; lia.
Qed.

Example current_iteration_wraps_at_max_block : Validation_CurrentIteration 1 0 2 0 4294967295 = Some 0.
Proof. vm_compute. reflexivity. Qed.

(* the iteration never decreases with the block number, and once defined it stays defined *)
Theorem current_iteration_monotone P CP St S c c' a :
  u32 P -> u32 S -> 0 <= c -> c <= c' -> c' < 4294967295 ->
  Validation_CurrentIteration P CP St S c = Some a ->
  exists b, Validation_CurrentIteration P CP St S c' = Some b /\ a <= b.
Proof.
  intros HP HS Hc Hcc Hc'. rewrite !current_iteration_char by (unfold u32 in *; lia). unfold u32 in *.
  destruct ((St =? 0) || (St =? 1)); [intros [= <-]; exists 0; split; [reflexivity|lia]|].
  destruct ((St =? 3) || (0 <? CP)); [intros [= <-]; exists CP; split; [reflexivity|lia]|].
  destruct (c <? S) eqn:E; [discriminate|]. destruct (c' <? S) eqn:E'; [lia|].
  destruct (P =? 0) eqn:EP; [discriminate|]. cbn [orb]. cbv iota.
  pose proof (div_le_self (c - S) P ltac:(lia) ltac:(lia)).
  pose proof (div_le_self (c' - S) P ltac:(lia) ltac:(lia)).
  rewrite !Z.mod_small by lia. intros [= <-].
  eexists; split; [reflexivity|].
  pose proof (Z.div_le_mono (c - S) (c' - S) P ltac:(lia) ltac:(lia)). lia.
Qed.

(* ---- Validation.CompletedIterations *)

Theorem completed_iterations_spec P CP St S c : u32 S -> u32 c ->
  (St = 0 \/ St = 1 -> Validation_CompletedIterations P CP St S c = Some 0) /\
  (St = 3 -> Validation_CompletedIterations P CP St S c = Some CP) /\
  (St <> 0 -> St <> 1 -> St <> 3 -> u32 CP -> 0 < CP -> Validation_CompletedIterations P CP St S c = Some (CP - 1)) /\
  (St <> 0 -> St <> 1 -> St <> 3 -> CP = 0 -> u32 P -> 0 < P -> S <= c ->
     Validation_CompletedIterations P CP St S c = Some ((c - S) / P)).
Proof.
  intros HS Hc. rewrite completed_iterations_char. repeat split.
  - intros [-> | ->]; reflexivity.
  - intros ->. reflexivity.
  - intros H0 H1 H3 HCP H. rewrite current_iteration_running by assumption. unfold u32 in *.
    decide_cond (St =? 0) false. decide_cond (St =? 1) false. decide_cond (St =? 3) false. decide_cond (0 <? CP) true.
    cbn [orb]. cbv iota. rewrite Z.mod_small by lia. reflexivity.
  - intros H0 H1 H3 -> HP HP0 HSc. rewrite current_iteration_running by assumption. unfold u32 in *.
    decide_cond (St =? 0) false. decide_cond (St =? 1) false. decide_cond (St =? 3) false.
    decide_cond ((c <? S) || (P =? 0)) false. change (0 <? 0) with false. cbn [orb]. cbv iota.
    pose proof (div_le_self (c - S) P ltac:(lia) HP0) as Hd.
    (* even on the wrapping input the +1 / -1 cancel modulo 2^32 *)
    f_equal.
    destruct (Z.eq_dec ((c - S) / P) 4294967295) as [Eq|Ne].
    + rewrite Eq. reflexivity.
    + rewrite (Z.mod_small ((c - S) / P + 1)) by lia. rewrite Z.mod_small by lia. lia.
Qed.

(* ---- Validation.IsPeriodEnd   (Go panics for Period = 0: the divisor obligation of the translation) *)

Theorem is_period_end_spec P S c : u32 S -> u32 c -> S <= c -> 0 < P ->
  (Validation_IsPeriodEnd P S c = true <-> (c - S) mod P = 0).
Proof.
  unfold u32. intros HS Hc HSc HP. rewrite is_period_end_char.
  rewrite (Z.mod_small (c - S)) by lia. apply Z.eqb_eq.
Qed.

(* a period ends exactly at the blocks where the iteration number advances *)
Theorem period_end_iff_iteration_advances P S c : 0 < P -> S < c ->
  ((c - S) mod P = 0 <-> (c - S) / P = (c - 1 - S) / P + 1).
Proof.
  intros HP HSc.
  pose proof (Z.div_mod (c - S) P ltac:(lia)) as E1. pose proof (Z.mod_pos_bound (c - S) P HP) as B1.
  pose proof (Z.div_mod (c - 1 - S) P ltac:(lia)) as E2. pose proof (Z.mod_pos_bound (c - 1 - S) P HP) as B2.
  split; intros H; nia.
Qed.

(* before StartBlock the subtraction wraps: the code then tests (2^32 + current - StartBlock) mod Period *)
Theorem is_period_end_before_start P S c : u32 S -> u32 c -> c < S ->
  Validation_IsPeriodEnd P S c = ((4294967296 + c - S) mod P =? 0).
Proof.
  unfold u32. intros HS Hc HcS. rewrite is_period_end_char. f_equal. f_equal.
  replace (c - S) with ((4294967296 + c - S) + (-1) * 4294967296) by lia.
  rewrite Z.mod_add by lia. apply Z.mod_small. lia.
Qed.

(* ---- Validation.CooldownEnded / CalculateWithdrawableVET   (cd = thor.CooldownPeriod()) *)

Theorem cooldown_ended_spec cd E c :
  Validation_CooldownEnded cd None c = false /\
  (u32 (E + cd) -> Validation_CooldownEnded cd (Some E) c = (E + cd <=? c)).
Proof.
  rewrite !cooldown_ended_char. split; [reflexivity|]. unfold u32. intros H. rewrite Z.mod_small by lia. reflexivity.
Qed.

(* no range hypothesis: the (possibly wrapped) deadline does not depend on the block *)
Theorem cooldown_ended_monotone cd X c c' : c <= c' ->
  Validation_CooldownEnded cd X c = true -> Validation_CooldownEnded cd X c' = true.
Proof.
  intros Hcc. rewrite !cooldown_ended_char. destruct X as [E|]; [|discriminate].
  rewrite !Z.leb_le. lia.
Qed.

Theorem withdrawable_spec cd X Q CD W c : 0 <= W -> 0 <= CD -> 0 <= Q -> W + CD + Q < 18446744073709551616 ->
  Validation_CalculateWithdrawableVET cd X Q CD W c = W + (if Validation_CooldownEnded cd X c then CD else 0) + Q.
Proof.
  intros HW HCD HQ Hfit. rewrite withdrawable_char, cooldown_ended_char by (unfold u64; lia).
  destruct X as [E|]; [destruct ((E + cd) mod 4294967296 <=? c)|]; apply Z.mod_small; lia.
Qed.

Theorem withdrawable_monotone cd X Q CD W c c' : 0 <= W -> 0 <= CD -> 0 <= Q -> W + CD + Q < 18446744073709551616 -> c <= c' ->
  Validation_CalculateWithdrawableVET cd X Q CD W c <= Validation_CalculateWithdrawableVET cd X Q CD W c'.
Proof.
  intros HW HCD HQ Hfit Hcc. rewrite !withdrawable_spec by assumption.
  destruct (Validation_CooldownEnded cd X c) eqn:E.
  - rewrite (cooldown_ended_monotone cd X c c' Hcc E). lia.
  - destruct (Validation_CooldownEnded cd X c'); lia.
Qed.

(* ---- Validation.NextPeriodTVL *)

Theorem next_period_tvl_spec L PU Q : 0 <= L -> 0 <= Q -> 0 <= PU -> L + Q < 18446744073709551616 -> PU < 18446744073709551616 ->
  Validation_NextPeriodTVL L PU Q = if L + Q <? PU then None else Some (L + Q - PU).
Proof.
  intros HL HQ HPU Hfit HPU'. rewrite next_period_tvl_char by (unfold u64; lia). rewrite Z.mod_small by lia. reflexivity.
Qed.

(* ---- Delegation.Started / Ended / IsLocked *)

Theorem ended_spec L F P CP St S c :
  Delegation_Ended L F P CP St S c =
  if St =? 1 then Some false
  else match Validation_CurrentIteration P CP St S c with
       | None => None
       | Some it => Some (((St =? 3) && (F <=? it)) || match L with None => false | Some l => l <? it end)
       end.
Proof.
  rewrite ended_char. destruct (St =? 1); [reflexivity|].
  destruct (Validation_CurrentIteration P CP St S c) as [it|]; [|reflexivity].
  destruct (St =? 3) eqn:E3; [|reflexivity]. destruct (St =? 0) eqn:E0; [lia|reflexivity].
Qed.

(* Ended implies Started — for a delegation whose LastIteration, if set, is not before its FirstIteration (signalling the exit
   stores the current iteration of a started delegation, so every stored delegation satisfies this) *)
Theorem ended_implies_started L F P CP St S c : u32 S -> u32 c ->
  0 <= F -> (forall l, L = Some l -> F <= l) ->
  Delegation_Ended L F P CP St S c = Some true -> Delegation_Started F P CP St S c = Some true.
Proof.
  intros HS Hc HF HL. rewrite ended_spec, started_spec.
  destruct (St =? 1); [discriminate|]. cbn [orb].
  destruct (St =? 0) eqn:E0.
  - assert (St = 0) as -> by lia. rewrite current_iteration_char by assumption. cbn.
    destruct L as [l|]; [|discriminate]. specialize (HL l eq_refl). intros [= H]. lia.
  - destruct (Validation_CurrentIteration P CP St S c) as [it|]; [|discriminate].
    intros [= H]. f_equal. destruct (F <=? it) eqn:E; [reflexivity|].
    rewrite andb_false_r in H. cbn [orb] in H. destruct L as [l|]; [|discriminate].
    specialize (HL l eq_refl). lia.
Qed.

(* without that premise it fails: FirstIteration 5, LastIteration 2, current iteration 3 *)
Example ended_without_started_if_last_before_first :
  Delegation_Ended (Some 2) 5 10 0 2 0 25 = Some true /\ Delegation_Started 5 10 0 2 0 25 = Some false.
Proof. vm_compute. split; reflexivity. Qed.

Theorem is_locked_iff Stk L F P CP St S c :
  Delegation_IsLocked Stk L F P CP St S c = Some true <->
  Stk <> 0 /\ Delegation_Started F P CP St S c = Some true /\ Delegation_Ended L F P CP St S c = Some false.
Proof.
  rewrite is_locked_spec. destruct (Stk =? 0) eqn:E.
  - split; [discriminate|]. intros [H _]. lia.
  - destruct (Delegation_Started F P CP St S c) as [[|]|]; destruct (Delegation_Ended L F P CP St S c) as [[|]|]; cbn;
      split; try discriminate; try (intros [_ [H1 H2]]; discriminate); intros _; repeat split; lia.
Qed.

(* monotone in the block number: a started delegation stays started, an ended one stays ended *)
Theorem started_monotone F P CP St S c c' :
  u32 P -> u32 S -> 0 <= c -> c <= c' -> c' < 4294967295 ->
  Delegation_Started F P CP St S c = Some true -> Delegation_Started F P CP St S c' = Some true.
Proof.
  intros HP HS Hc Hcc Hc'. rewrite !started_spec. destruct ((St =? 1) || (St =? 0)); [discriminate|].
  destruct (Validation_CurrentIteration P CP St S c) as [a|] eqn:E; [|discriminate].
  destruct (current_iteration_monotone P CP St S c c' a HP HS Hc Hcc Hc' E) as [b [-> Hab]].
  intros [= H]. f_equal. lia.
Qed.

Theorem ended_monotone L F P CP St S c c' :
  u32 P -> u32 S -> 0 <= c -> c <= c' -> c' < 4294967295 ->
  Delegation_Ended L F P CP St S c = Some true -> Delegation_Ended L F P CP St S c' = Some true.
Proof.
  intros HP HS Hc Hcc Hc'. rewrite !ended_spec. destruct (St =? 1); [discriminate|].
  destruct (Validation_CurrentIteration P CP St S c) as [a|] eqn:E; [|discriminate].
  destruct (current_iteration_monotone P CP St S c c' a HP HS Hc Hcc Hc' E) as [b [-> Hab]].
  intros [= H]. f_equal. destruct (St =? 3); cbn [andb orb] in *; destruct L as [l|]; lia.
Qed.

(* ================================================================== (b) agreement with Staker/Model.v *)

(* the generated functions applied to the fields of a model record *)
Definition zo (o : option N) : option Z := match o with Some x => Some (Z.of_N x) | None => None end.
Definition res_Z (r : res N) : option Z := match r with Ok a => Some (Z.of_N a) | _ => None end.
Definition res_bool (r : res bool) : option bool := match r with Ok a => Some a | _ => None end.

Definition gen_current_iteration (v : validation) (b : N) : option Z :=
  Validation_CurrentIteration (Z.of_N (v_period v)) (Z.of_N (v_completed v)) (Z.of_N (v_status v)) (Z.of_N (v_start v)) (Z.of_N b).
Definition gen_is_period_end (v : validation) (b : N) : bool :=
  Validation_IsPeriodEnd (Z.of_N (v_period v)) (Z.of_N (v_start v)) (Z.of_N b).
Definition gen_cooldown_ended (c : cfg) (v : validation) (b : N) : bool :=
  Validation_CooldownEnded (Z.of_N (c_cooldown c)) (zo (v_exit v)) (Z.of_N b).
Definition gen_calc_withdrawable (c : cfg) (v : validation) (b : N) : Z :=
  Validation_CalculateWithdrawableVET (Z.of_N (c_cooldown c)) (zo (v_exit v)) (Z.of_N (v_queued v)) (Z.of_N (v_cooldown v))
    (Z.of_N (v_withdrawable v)) (Z.of_N b).
Definition gen_multiplier (v : validation) : Z := Validation_multiplier (Z.of_N (v_locked v)) (Z.of_N (v_weight v)).
Definition gen_next_period_tvl (v : validation) : option Z :=
  Validation_NextPeriodTVL (Z.of_N (v_locked v)) (Z.of_N (v_punlock v)) (Z.of_N (v_queued v)).
Definition gen_is_online (v : validation) : bool := Validation_IsOnline (zo (v_offline v)).
Definition gen_started (d : delegation) (v : validation) (b : N) : option bool :=
  Delegation_Started (Z.of_N (d_first d)) (Z.of_N (v_period v)) (Z.of_N (v_completed v)) (Z.of_N (v_status v)) (Z.of_N (v_start v)) (Z.of_N b).
Definition gen_ended (d : delegation) (v : validation) (b : N) : option bool :=
  Delegation_Ended (zo (d_last d)) (Z.of_N (d_first d)) (Z.of_N (v_period v)) (Z.of_N (v_completed v)) (Z.of_N (v_status v))
    (Z.of_N (v_start v)) (Z.of_N b).
Definition gen_is_locked (d : delegation) (v : validation) (b : N) : option bool :=
  Delegation_IsLocked (Z.of_N (d_stake d)) (zo (d_last d)) (Z.of_N (d_first d)) (Z.of_N (v_period v)) (Z.of_N (v_completed v))
    (Z.of_N (v_status v)) (Z.of_N (v_start v)) (Z.of_N b).

(* in-range: what the Go types guarantee for the stored fields and the block number *)
Definition n32 (x : N) : Prop := (x < 4294967296)%N.
Definition n64 (x : N) : Prop := (x < 18446744073709551616)%N.
Definition val_in_range (v : validation) : Prop := n32 (v_period v) /\ n32 (v_completed v) /\ n32 (v_start v).

Lemma status_consts : StatusUnknown = 0%N /\ StatusQueued = 1%N /\ StatusActive = 2%N /\ StatusExit = 3%N.
Proof. repeat split. Qed.

(* a comparison of injected naturals is the comparison of the naturals *)
Lemma of_N_eqb x y : (Z.of_N x =? Z.of_N y) = (x =? y)%N. Proof. lia. Qed.
Lemma of_N_ltb x y : (Z.of_N x <? Z.of_N y) = (x <? y)%N. Proof. lia. Qed.
Lemma of_N_leb x y : (Z.of_N x <=? Z.of_N y) = (x <=? y)%N. Proof. lia. Qed.

(* CurrentIteration: generated = model, for every block number below 2^32 - 1 *)
Theorem current_iteration_agrees v b : val_in_range v -> (b < 4294967295)%N ->
  gen_current_iteration v b = res_Z (current_iteration v b).
Proof.
  unfold val_in_range, n32. intros [HP [HC HS]] Hb.
  unfold gen_current_iteration. rewrite current_iteration_char by (unfold u32; lia).
  unfold current_iteration, StatusUnknown, StatusQueued, StatusExit.
  rewrite (of_N_eqb _ 0), (of_N_eqb _ 1), (of_N_eqb _ 3), (of_N_ltb 0), of_N_ltb, (of_N_eqb _ 0).
  destruct ((v_status v =? 0) || (v_status v =? 1))%N; [reflexivity|].
  destruct (v_status v =? 3)%N; [reflexivity|]. cbn [orb].
  destruct (0 <? v_completed v)%N; [reflexivity|].
  destruct (N.ltb_spec b (v_start v)); [reflexivity|].
  destruct (N.eqb_spec (v_period v) 0); [reflexivity|].
  cbn [orb res_Z]. f_equal.
  pose proof (div_le_self (Z.of_N b - Z.of_N (v_start v)) (Z.of_N (v_period v)) ltac:(lia) ltac:(lia)).
  rewrite Z.mod_small by lia.
  rewrite N2Z.inj_add, N2Z.inj_div, N2Z.inj_sub by lia. reflexivity.
Qed.

(* … and on the one remaining block number they differ exactly when the uint32 addition wraps: the model is unbounded there
   (documented in the header of Staker/Model.v: "wrap needs … block numbers >= 2^32"; a chain reaches that block after
   ~1360 years of 10 s blocks) *)
Example current_iteration_differs_at_max_block :
  let v := mkV 0 None 1 0 2 0 None None 0 0 0 0 0 0 None None in
  gen_current_iteration v 4294967295 = Some 0 /\ current_iteration v 4294967295 = Ok 4294967296%N.
Proof. vm_compute. split; reflexivity. Qed.

Theorem current_iteration_never_reverts v b : current_iteration v b <> Rev.
Proof.
  unfold current_iteration.
  repeat match goal with |- context [if ?c then _ else _] => destruct c end; discriminate.
Qed.

(* IsPeriodEnd: generated = model on all in-range inputs (both use the wrapping subtraction; both leave Period = 0, where Go panics,
   to the caller: a stored validation has Period > 0) *)
Theorem is_period_end_agrees v b : val_in_range v -> n32 b -> gen_is_period_end v b = is_period_end v b.
Proof.
  unfold val_in_range, n32. intros [HP [HC HS]] Hb.
  unfold gen_is_period_end. rewrite is_period_end_char. unfold is_period_end, sub32.
  assert (E : (Z.of_N b - Z.of_N (v_start v)) mod 4294967296 = Z.of_N ((b + 4294967296 - v_start v) mod 4294967296)%N).
  { rewrite N2Z.inj_mod, N2Z.inj_sub, N2Z.inj_add by lia. change (Z.of_N 4294967296) with 4294967296.
    replace (Z.of_N b + 4294967296 - Z.of_N (v_start v)) with (Z.of_N b - Z.of_N (v_start v) + 1 * 4294967296) by lia.
    rewrite Z.mod_add by lia. reflexivity. }
  rewrite E. rewrite <- N2Z.inj_mod.
  destruct (N.eqb_spec ((b + 4294967296 - v_start v) mod 4294967296 mod v_period v) 0) as [H|H].
  - rewrite H. reflexivity.
  - apply Z.eqb_neq. lia.
Qed.

(* CooldownEnded: generated = model whenever ExitBlock + CooldownPeriod fits 32 bits *)
Definition cooldown_fits (c : cfg) (v : validation) : Prop :=
  match v_exit v with Some e => (e + c_cooldown c < 4294967296)%N | None => True end.

Theorem cooldown_ended_agrees c v b : cooldown_fits c v -> gen_cooldown_ended c v b = cooldown_ended c v b.
Proof.
  unfold cooldown_fits, gen_cooldown_ended, cooldown_ended. rewrite cooldown_ended_char. destruct (v_exit v) as [e|]; [|reflexivity].
  intros H. cbn [zo]. rewrite Z.mod_small by lia.
  rewrite <- N2Z.inj_add. apply of_N_leb.
Qed.

(* the wrapping input: ExitBlock = 2^32 - 1, CooldownPeriod = 1: the code's deadline is block 0, the model's is block 2^32 *)
Example cooldown_ended_differs_when_deadline_wraps :
  let c := mkC 180 0 0 0 1 0 0 0 0 in
  let v := mkV 0 None 1 0 3 0 (Some 4294967295%N) None 0 0 0 0 0 0 None None in
  gen_cooldown_ended c v 5 = true /\ cooldown_ended c v 5 = false.
Proof. vm_compute. split; reflexivity. Qed.

(* CalculateWithdrawableVET: generated = model whenever the deadline fits 32 bits and the three amounts add up below 2^64
   (C16 proves that every amount is bounded by the VET supply along all histories) *)
Theorem calc_withdrawable_agrees c v b : cooldown_fits c v -> n64 (v_withdrawable v + v_cooldown v + v_queued v) ->
  gen_calc_withdrawable c v b = Z.of_N (calc_withdrawable c v b).
Proof.
  unfold n64. intros Hc Hfit. unfold gen_calc_withdrawable, calc_withdrawable.
  rewrite withdrawable_spec by lia.
  change (Validation_CooldownEnded (Z.of_N (c_cooldown c)) (zo (v_exit v)) (Z.of_N b)) with (gen_cooldown_ended c v b).
  rewrite cooldown_ended_agrees by exact Hc. destruct (cooldown_ended c v b); lia.
Qed.

Theorem multiplier_agrees v : gen_multiplier v = Z.of_N (v_multiplier v).
Proof.
  unfold gen_multiplier. rewrite multiplier_spec. unfold v_multiplier, Multiplier, MultiplierWithDelegations.
  rewrite of_N_eqb. destruct (v_weight v =? v_locked v)%N; reflexivity.
Qed.

Theorem next_period_tvl_agrees v : n64 (v_locked v + v_queued v) -> n64 (v_punlock v) ->
  gen_next_period_tvl v = res_Z (v_next_period_tvl v).
Proof.
  unfold n64. intros H1 H2. unfold gen_next_period_tvl, v_next_period_tvl. rewrite next_period_tvl_spec by lia. cbv zeta.
  rewrite <- N2Z.inj_add, of_N_ltb.
  destruct (N.ltb_spec (v_locked v + v_queued v) (v_punlock v)); cbn [res_Z]; [reflexivity|]. f_equal. lia.
Qed.

Theorem is_online_agrees v : gen_is_online v = negb (is_some (v_offline v)).
Proof. unfold gen_is_online. destruct (v_offline v); reflexivity. Qed.

(* Delegation.Started / Ended: generated = model *)
Theorem started_agrees d v b : val_in_range v -> (b < 4294967295)%N -> gen_started d v b = res_bool (d_started d v b).
Proof.
  intros Hv Hb. unfold gen_started, d_started. rewrite started_spec.
  fold (gen_current_iteration v b). rewrite (current_iteration_agrees v b Hv Hb).
  unfold StatusQueued, StatusUnknown.
  rewrite (of_N_eqb _ 1), (of_N_eqb _ 0).
  destruct ((v_status v =? 1) || (v_status v =? 0))%N; [reflexivity|].
  pose proof (current_iteration_never_reverts v b).
  destruct (current_iteration v b) as [it| |]; cbn; try reflexivity; try congruence.
  f_equal. apply of_N_leb.
Qed.

Theorem ended_agrees d v b : val_in_range v -> (b < 4294967295)%N -> gen_ended d v b = res_bool (d_ended d v b).
Proof.
  intros Hv Hb. unfold gen_ended. rewrite ended_spec.
  fold (gen_current_iteration v b). rewrite (current_iteration_agrees v b Hv Hb).
  unfold d_ended, d_started, StatusQueued, StatusUnknown, StatusExit.
  rewrite (of_N_eqb _ 1), (of_N_eqb _ 3).
  destruct (v_status v =? 1)%N; [reflexivity|]. cbn [orb].
  pose proof (current_iteration_never_reverts v b) as NR.
  destruct (current_iteration v b) as [it| |]; [|congruence|].
  - (* the stored status 0 is not 3, so on it both sides reduce to the LastIteration test *)
    cbn -[Z.of_N]. rewrite of_N_leb.
    assert (Hl : match zo (d_last d) with Some l => l <? Z.of_N it | None => false end
                 = match d_last d with Some l => (l <? it)%N | None => false end)
      by (destruct (d_last d); [apply of_N_ltb|reflexivity]).
    rewrite Hl.
    destruct (N.eqb_spec (v_status v) 0) as [E0|_]; [rewrite E0|]; cbn;
      destruct (v_status v =? 3)%N, (d_first d <=? it)%N, (d_last d); reflexivity.
  - destruct (v_status v =? 0)%N, (v_status v =? 3)%N; reflexivity.
Qed.

(* Delegation.IsLocked has no counterpart of its own in the model: where the model needs it (withdraw_delegation) it
   computes started && negb ended from d_started / d_ended; the generated IsLocked is that, plus the Stake = 0 shortcut *)
Theorem is_locked_agrees d v b : val_in_range v -> (b < 4294967295)%N ->
  gen_is_locked d v b =
  if (d_stake d =? 0)%N then Some false
  else res_bool (bind (d_started d v b) (fun s => bind (d_ended d v b) (fun e => Ok (s && negb e)))).
Proof.
  intros Hv Hb. unfold gen_is_locked. rewrite is_locked_spec.
  fold (gen_started d v b). fold (gen_ended d v b). rewrite started_agrees, ended_agrees by assumption.
  rewrite (of_N_eqb _ 0). destruct (d_stake d =? 0)%N; [reflexivity|].
  destruct (d_started d v b); cbn; try reflexivity. destruct (d_ended d v b); reflexivity.
Qed.

(* ---- the tie in one statement (cited by Properties/C16.v and C17.v) *)
Theorem staker_time_translation_tie c d v b :
  val_in_range v -> (b < 4294967295)%N ->
  gen_current_iteration v b = res_Z (current_iteration v b) /\
  gen_is_period_end v b = is_period_end v b /\
  gen_started d v b = res_bool (d_started d v b) /\
  gen_ended d v b = res_bool (d_ended d v b) /\
  gen_multiplier v = Z.of_N (v_multiplier v) /\
  (cooldown_fits c v -> gen_cooldown_ended c v b = cooldown_ended c v b) /\
  (cooldown_fits c v -> n64 (v_withdrawable v + v_cooldown v + v_queued v) ->
     gen_calc_withdrawable c v b = Z.of_N (calc_withdrawable c v b)) /\
  (n64 (v_locked v + v_queued v) -> n64 (v_punlock v) -> gen_next_period_tvl v = res_Z (v_next_period_tvl v)).
Proof.
  intros Hv Hb. assert (Hb' : n32 b) by (unfold n32; lia).
  repeat split.
  - exact (current_iteration_agrees v b Hv Hb).
  - exact (is_period_end_agrees v b Hv Hb').
  - exact (started_agrees d v b Hv Hb).
  - exact (ended_agrees d v b Hv Hb).
  - exact (multiplier_agrees v).
  - exact (cooldown_ended_agrees c v b).
  - exact (calc_withdrawable_agrees c v b).
  - exact (next_period_tvl_agrees v).
Qed.

(* non-vacuity of the hypotheses *)
Example tie_hyps_hold :
  let v := mkV 7 None 180 0 2 360 (Some 900%N) None 25000000 0 5 0 0 25000000 None None in
  val_in_range v /\ cooldown_fits (mkC 180 0 0 0 8640 0 0 0 0) v /\ n64 (v_withdrawable v + v_cooldown v + v_queued v) /\
  gen_current_iteration v 1000 = Some 4 /\ current_iteration v 1000 = Ok 4%N.
Proof. unfold val_in_range, cooldown_fits, n32, n64. cbn. repeat split; lia || reflexivity. Qed.
