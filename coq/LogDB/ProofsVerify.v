(* LogDB/ProofsVerify.v — verifyLogDB (cmd/thor/sync_logdb.go) raises no false alarm: on tables that are the canonical
   tables of a stored block x, the verification of the blocks 1 .. e of best's chain succeeds whenever best's block at
   height e is on x's chain (a common block).  Consequence: syncLogDB with verify = true behaves like syncLogDB with
   verify = false on such tables, so sync_reestablishes_canonical also speaks about the verifying start-up. *)
From Coq Require Import List NArith Bool Lia ZifyN ZifyNat ZifyBool.
From Verif Require Import Chain.Model Chain.Proofs Chain.ProofsWalk Chain.ProofsSys Chain.ProofsPath
  LogDB.Model LogDB.Proofs LogDB.ProofsCanon LogDB.ProofsRows LogDB.ProofsSync.
Import ListNotations.
Open Scope N_scope.

Lemma sync_logdb_v_some v r db db' : sync_logdb_v v r db = Some db' -> sync_logdb r db = Some db'.
Proof.
  unfold sync_logdb_v. destruct (seek_position r db) as [p| |]; try discriminate.
  destruct (v && (0 <? p) && negb (verify_logdb r db (p - 1))); [discriminate|]. exact (fun H => H).
Qed.
Lemma sync_logdb_v_off r db : sync_logdb_v false r db = sync_logdb r db.
Proof.
  unfold sync_logdb_v. destruct (seek_position r db) as [p| |] eqn:E; cbn [andb]; try reflexivity;
  unfold sync_logdb; rewrite E; reflexivity.
Qed.

Lemma list_eqb_refl {A} (eqb : A -> A -> bool) (l : list A) : (forall x, eqb x x = true) -> list_eqb eqb l l = true.
Proof. intros R. induction l as [|a l IH]; cbn [list_eqb]; [reflexivity|]. rewrite R, IH. reflexivity. Qed.
Lemma evrow_eqb_refl x : evrow_eqb x x = true.
Proof. unfold evrow_eqb. rewrite !N.eqb_refl, (list_eqb_refl N.eqb _ N.eqb_refl). reflexivity. Qed.
Lemma trrow_eqb_refl x : trrow_eqb x x = true.
Proof. unfold trrow_eqb. rewrite !N.eqb_refl. reflexivity. Qed.

Definition in_win (i lim id : N) : bool := (i <=? num_of id) && (num_of id <=? lim).

Lemma filter_win_none i lim st : (forall a, In a st -> num_of a < i) -> filter (in_win i lim) st = [].
Proof.
  intros H. apply filter_none. intros a Ha. specialize (H a Ha). unfold in_win.
  replace (i <=? num_of a) with false by (symmetry; apply N.leb_gt; lia). reflexivity.
Qed.

Lemma filter_win_split i lim st b : desc st -> In b st -> num_of b = i -> i <= lim ->
  filter (in_win i lim) st = filter (in_win (i + 1) lim) st ++ [b].
Proof.
  unfold desc. induction 1 as [|a st St IH Ft]; intros Hb Hn Hl; [destruct Hb|]. rewrite Forall_forall in Ft. cbn [filter].
  destruct Hb as [->|Hb].
  - assert (E1 : in_win i lim b = true).
    { unfold in_win. rewrite Hn. apply andb_true_iff. split; apply N.leb_le; lia. }
    assert (E2 : in_win (i + 1) lim b = false).
    { unfold in_win. rewrite Hn. apply andb_false_iff. left. apply N.leb_gt. lia. }
    rewrite E1, E2. rewrite !filter_win_none; [reflexivity | |]; intros c Hc; pose proof (Ft c Hc); lia.
  - pose proof (Ft b Hb) as Hlt.
    assert (E : in_win i lim a = in_win (i + 1) lim a).
    { unfold in_win. f_equal. replace (i <=? num_of a) with true by (symmetry; apply N.leb_le; lia).
      symmetry. apply N.leb_le. lia. }
    rewrite E. destruct (in_win (i + 1) lim a); [cbn [app]; f_equal|]; apply IH; auto.
Qed.

Section Bounds.
  Variable r : repo.
  Hypothesis WB : wf_body r.

  (* the rows of every block of a path whose tables exist lie inside the block's key range *)
  Lemma rows_bounds st : forall d, rows_of_path r st = Some d ->
    forall id, In id st ->
      (forall x, In x (blk_events r id) -> num_of id * two35 <= er_seq x < (num_of id + 1) * two35) /\
      (forall x, In x (blk_transfers r id) -> num_of id * two35 <= tr_seq x < (num_of id + 1) * two35).
  Proof.
    induction st as [|a st IH]; intros d H id Hid; [destruct Hid|]. cbn [rows_of_path] in H.
    destruct (rows_of_path r st) as [d0|] eqn:E0; [|discriminate].
    destruct (get_block r a) as [[s ba]|] eqn:Eb; [|discriminate].
    destruct Hid as [<-|Hid]; [|exact (IH d0 eq_refl id Hid)].
    destruct (write_block_some _ _ _ H) as [_ F]. rewrite (get_block_id_eq r WB _ _ _ Eb), !Forall_forall in F.
    unfold blk_events, blk_transfers. rewrite Eb. exact F.
  Qed.

End Bounds.

Lemma window_rows {A C} (key : A -> N) (f : N -> list A) (m : C -> A -> bool) st i lim :
  (forall id, In id st -> forall x, In x (f id) -> num_of id * two35 <= key x < (num_of id + 1) * two35) ->
  i <= max_block -> lim <= max_block ->
  run_filter key (any_crit m []) (window i lim) (chain_rows f st) = Some (chain_rows f (filter (in_win i lim) st)).
Proof.
  intros HB Hi Hl. unfold run_filter, window, any_crit. cbn [fo_range fo_page fo_desc].
  rewrite (seq_of_some i 0 0), (seq_of_some lim max_txi max_logi) by (unfold seq_ok, max_txi, max_logi; lia).
  rewrite (filter_id (fun _ => true)) by reflexivity. f_equal.
  induction st as [|a st IH]; cbn [chain_rows filter]; [reflexivity|].
  rewrite filter_app, IH by (intros id Hid; apply HB; right; exact Hid).
  (* per block: every row passes the key window if the block's height is in [i, lim], none does otherwise *)
  pose proof (HB a (or_introl eq_refl)) as Ha. unfold in_win at 2.
  destruct (N.leb_spec i (num_of a)) as [E1|E1]; [destruct (N.leb_spec (num_of a) lim) as [E2|E2]|]; cbn [andb chain_rows];
    [rewrite (filter_id _ (f a)) | rewrite (filter_none _ (f a)), app_nil_r | rewrite (filter_none _ (f a)), app_nil_r];
    try reflexivity; intros x Hx; specialize (Ha x Hx); unfold two35 in Ha; unfold two35, max_txi, max_logi;
    [apply andb_true_iff; split; apply N.leb_le; nia | apply andb_false_iff; right; apply N.leb_gt; nia
    | apply andb_false_iff; left; apply N.leb_gt; nia].
Qed.

Section Split.
  Context {A : Type} (f : N -> list A) (blockof : A -> N) (span : N -> list A -> list A * list A).
  Hypothesis f_block : forall id x, In x (f id) -> blockof x = id.
  Hypothesis span_eq : forall id l, span id l =
    match l with [] => ([], []) | x :: t => if blockof x =? id then let '(a, b) := span id t in (x :: a, b) else ([], l) end.

  Lemma span_app id a b : (forall x, In x a -> blockof x = id) -> (forall x, In x b -> blockof x <> id) -> span id (a ++ b) = (a, b).
  Proof.
    intros Ha Hb. induction a as [|x a IH]; cbn [app]; rewrite span_eq.
    - destruct b as [|y b]; [reflexivity|].
      destruct (N.eqb_spec (blockof y) id) as [E|_]; [exfalso; exact (Hb y (or_introl eq_refl) E) | reflexivity].
    - rewrite (Ha x (or_introl eq_refl)), N.eqb_refl, IH; [reflexivity|]. intros z Hz. apply Ha. right. exact Hz.
  Qed.

  (* splitting a window at its lowest block *)
  Lemma window_split st i lim b : desc st -> In b st -> num_of b = i -> i <= lim ->
    span b (chain_rows f (filter (in_win i lim) st)) = (f b, chain_rows f (filter (in_win (i + 1) lim) st)).
  Proof.
    intros D Hb Hn Hl. rewrite (filter_win_split i lim st b D Hb Hn Hl), chain_rows_app. cbn [chain_rows app]. apply span_app.
    - apply f_block.
    - intros y Hy E. apply (chain_rows_origin blockof f f_block) in Hy. rewrite E in Hy. apply filter_In in Hy. destruct Hy as [_ Hy].
      unfold in_win in Hy. apply andb_true_iff in Hy. destruct Hy as [Hy _]. apply N.leb_le in Hy. lia.
  Qed.
End Split.

Section Verify.
  Variables (g gp : N) (r : repo).
  Hypothesis W : wf g gp r.
  Hypothesis WB : wf_body r.
  Variables (x : N) (st_x : list N) (db : logdb).
  Hypothesis Px : is_path r x st_x.
  Hypothesis Hdb : rows_of_path r st_x = Some db.       (* the tables are canonical for x *)
  Variable h : N.                                        (* a block of x's chain that is also on best's chain *)
  Hypothesis Hin : In h st_x.
  Hypothesis Hanc : anc r (r_best r) h.
  Hypothesis Hmax : num_of h + log_step <= max_block.    (* the window's upper end must be a valid block number *)
  Let best := r_best r.

  Let WE (i lim : N) := chain_rows (blk_events r) (filter (in_win i lim) st_x).
  Let WT (i lim : N) := chain_rows (blk_transfers r) (filter (in_win i lim) st_x).

  Lemma Dx : desc st_x.
  Proof. exact (path_desc g gp r W _ _ Px). Qed.

  Lemma window_events i lim : i <= max_block -> lim <= max_block -> filter_events db [] (window i lim) = Some (WE i lim).
  Proof.
    unfold filter_events. rewrite (proj1 (flat_x g gp r W WB x st_x db Px Hdb)). apply window_rows.
    intros id Hid. apply (rows_bounds r WB st_x db Hdb id Hid).
  Qed.
  Lemma window_transfers i lim : i <= max_block -> lim <= max_block -> filter_transfers db [] (window i lim) = Some (WT i lim).
  Proof.
    unfold filter_transfers. rewrite (proj2 (flat_x g gp r W WB x st_x db Px Hdb)). apply window_rows.
    intros id Hid. apply (rows_bounds r WB st_x db Hdb id Hid).
  Qed.

  (* best's block at a height up to h's is the block of x's chain at that height *)
  Lemma common_at i : i <= num_of h -> exists b s blk,
    get_block_id r best i = Ok b /\ get_block r b = Some (s, blk) /\ In b st_x /\ num_of b = i.
  Proof.
    intros Hi. destruct (anc_stored _ _ _ Hanc) as [Sb Sh].
    destruct (anc_total g gp r W h Sh i Hi) as [b [Ab Nb]].
    assert (Abb : anc r best b) by (eapply anc_trans; eauto).
    destruct (anc_stored _ _ _ Ab) as [_ [s Hs]].
    destruct (WB b s Hs) as [blk [Eb _]].
    exists b, s, blk. repeat split.
    - apply (get_block_id_spec g gp r W best i b Sb). auto.
    - unfold get_block. rewrite Hs, Eb. reflexivity.
    - apply (path_members g gp r W _ _ Px). eapply anc_trans; [|exact Ab]. apply (path_members g gp r W _ _ Px). exact Hin.
    - exact Nb.
  Qed.

  Lemma span_ev_eq id l : span_ev id l =
    match l with [] => ([], []) | x :: t => if er_block x =? id then let '(a, b) := span_ev id t in (x :: a, b) else ([], l) end.
  Proof. destruct l; reflexivity. Qed.
  Lemma span_tr_eq id l : span_tr id l =
    match l with [] => ([], []) | x :: t => if tr_block x =? id then let '(a, b) := span_tr id t in (x :: a, b) else ([], l) end.
  Proof. destruct l; reflexivity. Qed.

  (* lim < i: the window is used up and is re-read from i; otherwise evs / trs are what is left of it *)
  Lemma verify_walk_ok : forall n i lim evs trs, N.of_nat n + i <= num_of h + 1 -> i <= lim + 1 ->
    (i <= lim -> lim <= max_block /\ evs = WE i lim /\ trs = WT i lim) ->
    verify_walk r db best n i lim evs trs = true.
  Proof.
    induction n as [|n IH]; intros i lim evs trs Hn Hc Inv; [reflexivity|]. cbn [verify_walk].
    destruct (common_at i ltac:(lia)) as [b [s [blk [E1 [E2 [Hb Nb]]]]]]. rewrite E1, E2.
    set (lim' := if lim <? i then lim + log_step else lim).
    assert (Hl' : i <= lim' /\ lim' <= max_block).
    { unfold lim'. destruct (N.ltb_spec lim i) as [L|L]; [unfold log_step in *; lia|]. destruct (Inv L) as [? _]. lia. }
    assert (Eev : (if lim <? i then filter_events db [] (window i lim') else Some evs) = Some (WE i lim')).
    { unfold lim'. destruct (N.ltb_spec lim i) as [L|L].
      - apply window_events; unfold log_step in *; lia.
      - destruct (Inv L) as [_ [-> _]]. reflexivity. }
    assert (Etr : (if lim <? i then filter_transfers db [] (window i lim') else Some trs) = Some (WT i lim')).
    { unfold lim'. destruct (N.ltb_spec lim i) as [L|L].
      - apply window_transfers; unfold log_step in *; lia.
      - destruct (Inv L) as [_ [_ ->]]. reflexivity. }
    rewrite Eev, Etr. unfold WE, WT.
    rewrite (window_split _ er_block span_ev (blk_events_block r WB) span_ev_eq st_x i lim' b Dx Hb Nb (proj1 Hl')),
      (window_split _ tr_block span_tr (blk_transfers_block r WB) span_tr_eq st_x i lim' b Dx Hb Nb (proj1 Hl')).
    unfold blk_events, blk_transfers. rewrite E2.
    rewrite (list_eqb_refl evrow_eqb _ evrow_eqb_refl), (list_eqb_refl trrow_eqb _ trrow_eqb_refl). cbn [andb].
    apply IH; [lia | lia |]. intros _. split; [exact (proj2 Hl') | split; reflexivity].
  Qed.

  (* verifyLogDB accepts the canonical tables of x up to any height at which best's chain still is x's chain *)
  Theorem verify_accepts_common_prefix e : e <= num_of h -> verify_logdb r db e = true.
  Proof.
    intros He. unfold verify_logdb. apply verify_walk_ok; [lia | lia | lia].
  Qed.
End Verify.

Section SyncVerify.
  Variables (g gp : N) (r : repo).
  Hypothesis W : wf g gp r.
  Hypothesis WB : wf_body r.
  Variables (x : N) (st_x : list N) (db : logdb).
  Hypothesis Px : is_path r x st_x.
  Hypothesis Hdb : rows_of_path r st_x = Some db.       (* the tables are canonical for x *)
  Let best := r_best r.

  (* on canonical tables the verification pass of syncLogDB never fails (chains shorter than 2^28 - 100 blocks) *)
  Theorem sync_verify_no_false_alarm v : num_of best + log_step <= max_block -> sync_logdb_v v r db = sync_logdb r db.
  Proof.
    intros Hmax. unfold sync_logdb_v. destruct (seek_position r db) as [p| |] eqn:E; try (unfold sync_logdb; rewrite E; reflexivity).
    destruct v; [|reflexivity]. cbn [andb]. destruct (N.ltb_spec 0 p) as [Hp|Hp]; [|reflexivity]. cbn [andb].
    destruct (seek_position_common g gp r W WB x st_x db Px Hdb p E) as [->|[h [Hin [Ha [-> _]]]]]; [lia|].
    pose proof (anc_height g gp r W _ _ Ha) as Hh. fold best in Hh.
    rewrite (verify_accepts_common_prefix g gp r W WB x st_x db Px Hdb h Hin Ha ltac:(lia) (num_of h + 1 - 1) ltac:(lia)). reflexivity.
  Qed.
End SyncVerify.
