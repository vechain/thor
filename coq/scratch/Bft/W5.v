(* Justified()'s one-entry cache along histories in which a node may also pack on a block it has not stored: the node events
   of Bft/ProofsJustified.v with an unguarded NPropose, over the same W / S tree.  The cache invariant `jc_ok`, its
   preservation by a query and by the storing of a fresh block, and the criterion for consistent trees are
   ProofsJustified's; only the step of such a history is proved here. *)
From Coq Require Import List NArith ZArith Bool Lia.
From Coq Require Import ZifyN ZifyNat ZifyBool.
From Verif Require Import Common.Util Bft.Tree Bft.Model Bft.Quorum Bft.ProofsTally Bft.ProofsChain Bft.ProofsSuffix
  Bft.ProofsNode Bft.ProofsFinal Bft.ProofsCommit Bft.ProofsOrder Bft.ProofsOrder2 Bft.ProofsOrder3 Bft.ProofsOrder4
  Bft.Safety Bft.ProofsSafety Bft.ProofsWitness Bft.ProofsTree2 Bft.ProofsFast Bft.ProofsJustified.
Import ListNotations.
Open Scope N_scope.

Section Cache.
Variable c : cfg.

Definition clear_jc (e : engine) : engine := mkE (e_master e) (e_fin e) (e_qs e) (e_casts e) None.

Inductive nev := NImport (b : blk) | NPropose (b : blk) | NRestart | NQuery.

Definition nstep (nd : node) (ev : nev) : node :=
  match ev with
  | NImport b => fst (import true c nd b)
  | NPropose b => if known (n_repo nd) (b_id b) then nd else fst (fst (propose true c nd b))
  | NRestart => restart nd
  | NQuery => mkN (n_repo nd) (n_best nd) (fst (justified c (n_repo nd) (n_eng nd) (best_blk nd)))
  end.
Definition run_nev (nd : node) (h : list nev) : node := fold_left nstep h nd.

Lemma nstep_jc nd ev : node_jc c nd -> node_jc c (nstep nd ev).
Proof.
  intros Hok. destruct ev as [b|b| |]; cbn [nstep].
  - destruct (import_cases true c nd b) as [[k [E _]]|[Ek [_ [_ E]]]]; rewrite E; [exact Hok|]. apply add_and_commit_jc; assumption.
  - destruct (known (n_repo nd) (b_id b)) eqn:Ek; [exact Hok|]. unfold propose.
    pose proof (should_vote_keeps c (n_repo nd) (n_eng nd) (b_parent b)) as Hk. cbv zeta in Hk.
    assert (Hjc : e_jc (fst (should_vote c (n_repo nd) (n_eng nd) (b_parent b))) = e_jc (n_eng nd))
      by (rewrite should_vote_fst; reflexivity).
    destruct (should_vote c (n_repo nd) (n_eng nd) (b_parent b)) as [e1 v]. cbn [fst] in *. destruct Hk as [Hq _].
    destruct v as [vb|code]; cbn [fst].
    + pose proof (add_and_commit_jc c (mkN (n_repo nd) (n_best nd) e1) b true) as H. cbn [n_repo n_eng] in H.
      rewrite Hq, Hjc in H. specialize (H Ek Hok). destruct (add_and_commit true c _ b true) as [nd' code]. exact H.
    + unfold node_jc. cbn [n_repo n_eng]. rewrite Hq, Hjc. exact Hok.
  - exact Logic.I.
  - unfold node_jc. cbn [n_repo n_eng]. exact (proj1 (justified_keeps_jc c (n_repo nd) (n_eng nd) (best_blk nd) Hok)).
Qed.

Lemma run_nev_jc h : forall nd, node_jc c nd -> node_jc c (run_nev nd h).
Proof. induction h as [|ev t IH]; intros nd H; [exact H|]. cbn [run_nev fold_left]. apply IH. apply nstep_jc. exact H. Qed.

(* after ANY history the answer of Justified() is the answer of a cold cache *)
Theorem justified_history_independent_of_cache g master h :
  let nd := run_nev (init_node g master) h in
  snd (justified c (n_repo nd) (n_eng nd) (best_blk nd)) = snd (justified c (n_repo nd) (clear_jc (n_eng nd)) (best_blk nd)).
Proof. cbv zeta. apply (justified_cache_transparent c). apply (run_nev_jc h). exact Logic.I. Qed.
End Cache.

(* ---------------------------------------------------------------- the entry keyed by the store point only *)
(* n = 4, L = 4.  Common prefix 1..3.  Branch W (tail 2, high scores): epochs 1 and 2 justified without COM, epochs 3, 4 by one
   signer, head 20W - the best block throughout.  Branch S (tail 3): epochs 1, 2 by one signer, epoch 3 justified, epoch 4
   all COM: importing 19S finalizes 12S while the best block stays 20W.  Node A asked Justified() before S arrived. *)
Definition jrot (num : N) : N := nth (N.to_nat (num mod 4)) [1;2;3;1] 1.
Definition jw (num : N) : blk :=
  bk num 2 (if num =? 4 then 1 else 2) (if (num / 4 =? 1) || (num / 4 =? 2) then jrot num else 1) false (12 + 4 * (num - 3)).
Definition js (num : N) : blk :=
  bk num 3 (if num =? 4 then 1 else 3) (if (num / 4 =? 1) || (num / 4 =? 2) then 2 else jrot num) (num / 4 =? 4) (12 + (num - 3)).
Definition jp1 := bk 1 1 1 1 false 4.  Definition jp2 := bk 2 1 1 2 false 8.  Definition jp3 := bk 3 1 1 3 false 12.
Definition j_common_w : list blk := [jp1; jp2; jp3] ++ map jw [4;5;6;7;8;9;10;11;12;13;14;15;16;17;18;19;20].
Definition j_s : list blk := map js [4;5;6;7;8;9;10;11;12;13;14;15;16;17;18;19].

Definition j_after_w : node := import_all cfg4 true (init_node gen 1) j_common_w.
Definition j_node_a (keyed : bool) : node :=
  import_all cfg4 true (mkN (n_repo j_after_w) (n_best j_after_w)
                            (fst (justified_gen keyed cfg4 (n_repo j_after_w) (n_eng j_after_w) (best_blk j_after_w)))) j_s.
Definition j_node_b : node := import_all cfg4 true (init_node gen 1) (j_common_w ++ j_s).

(* The tree and the nodes above are those of Bft/ProofsJustified.v under this file's names.  Each equation is proved with both
   sides unfolded, so that the two `import_all` meet head to head and only their arguments are compared: given the two
   constants themselves the kernel unfolds one, then `import_all` before the other, and evaluates the imports.  For the same
   reason the rewrites below name their instances: `rewrite !` would look for one more occurrence up to conversion. *)
Lemma jw_eq : jw = ProofsJustified.jw.  Proof. reflexivity. Qed.
Lemma js_eq : js = ProofsJustified.js.  Proof. reflexivity. Qed.
Lemma j_after_w_eq : j_after_w = ProofsJustified.j_after_w.
Proof. unfold j_after_w, ProofsJustified.j_after_w. reflexivity. Qed.
Lemma j_node_a_eq keyed : j_node_a keyed = ProofsJustified.j_node_a keyed.
Proof. unfold j_node_a, ProofsJustified.j_node_a. rewrite j_after_w_eq. reflexivity. Qed.
Lemma j_node_b_eq : j_node_b = ProofsJustified.j_node_b.
Proof. unfold j_node_b, ProofsJustified.j_node_b. reflexivity. Qed.

Lemma stale_cache_witness :
  n_repo (j_node_a false) = n_repo j_node_b /\ n_best (j_node_a false) = n_best j_node_b /\
  e_fin (n_eng (j_node_a false)) = e_fin (n_eng j_node_b) /\ e_fin (n_eng j_node_b) = b_id (js 12) /\
  snd (justified_gen false cfg4 (n_repo (j_node_a false)) (n_eng (j_node_a false)) (best_blk (j_node_a false))) = Ok (b_id (jw 8)) /\
  snd (justified_gen false cfg4 (n_repo j_node_b) (n_eng j_node_b) (best_blk j_node_b)) = Ok (b_id (jw 12)) /\
  snd (justified cfg4 (n_repo (j_node_a true)) (n_eng (j_node_a true)) (best_blk (j_node_a true))) = Ok (b_id (jw 12)).
Proof. rewrite (j_node_a_eq false), (j_node_a_eq true), j_node_b_eq, jw_eq, js_eq. exact ProofsJustified.stale_cache_witness. Qed.

Lemma tree_consistent_criterion c U : wf_repo U ->
  (forall B1 B2, finalizing c U B1 -> finalizing c U B2 ->
     has_block U (b_id B1) (b_id B2) = true \/ has_block U (b_id B2) (b_id B1) = true) ->
  tree_consistent c U.
Proof. exact (ProofsJustified.tree_consistent_criterion c U). Qed.

(* the W / S tree above: two branches of 17 and 16 blocks, one finalizing block (19S) *)
Definition j_tree : repo := n_repo j_node_b.

Lemma j_tree_eq : j_tree = ProofsJustified.j_tree.
Proof. unfold j_tree, ProofsJustified.j_tree. rewrite j_node_b_eq. reflexivity. Qed.

Lemma j_tree_wf : wf_repo j_tree.
Proof. rewrite j_tree_eq. exact ProofsJustified.j_tree_wf. Qed.

Lemma j_tree_consistent : tree_consistent cfg4 j_tree.
Proof. rewrite j_tree_eq. exact ProofsJustified.j_tree_consistent. Qed.

(* two different histories over the forked tree: node 1 takes W then S with a duplicate and a restart; node 2 interleaves the
   branches (19S last in both: a node that finalizes 12S first refuses the rest of W - the stored sets then differ, which is
   why the theorem compares nodes that STORE the same set) *)
Fixpoint interleave {A} (l1 l2 : list A) : list A :=
  match l1, l2 with
  | [], _ => l2
  | x :: t1, [] => l1
  | x :: t1, y :: t2 => x :: y :: interleave t1 t2
  end.
Definition j_h1 : list (option blk) := map Some j_common_w ++ [None; Some (jw 9)] ++ map Some j_s.
Definition j_h2 : list (option blk) := map Some [jp1; jp2; jp3] ++ None :: map Some (interleave (map jw [4;5;6;7;8;9;10;11;12;13;14;15;16;17;18;19;20]) j_s).

Eval vm_compute in (n_best (run_node cfg4 (init_node gen 1) j_h1), b_id (jw 20), e_fin (n_eng (run_node cfg4 (init_node gen 1) j_h1)), b_id (js 12), length (n_repo (run_node cfg4 (init_node gen 1) j_h1)), length (n_repo (run_node cfg4 (init_node gen 2) j_h2)), n_best (run_node cfg4 (init_node gen 2) j_h2), e_fin (n_eng (run_node cfg4 (init_node gen 2) j_h2))).
