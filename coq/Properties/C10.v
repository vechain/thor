(* Properties/C10.v — the statements of C10, each proved by the lemma of EVM/ it cites (a few follow here in a line
   or two).  "The EVM computes what the reference EVM semantics prescribe" (partial scope, see
   manifest.d/C10.json).  Independent references inside Coq: the mathematical ALU (Word.v, m_alu), the declarative gas pieces
   (GasSpec.v) and the Yellow-Paper semantics of a fragment (RefSpec.v: stack / flow / memory / storage / environment reads, no
   calls, copies, logs); the interpreter model EVM.Model (transcribed from /repo/vm and tied to it on every run by the
   correspondence harness) is proved to refine them for FRAGMENT-ONLY executions.  For everything else the model itself is the
   reference and the clause is correspondence-only.  failed_* theorems hold by construction of the model (see section 3). *)
From Coq Require Import ZArith List Bool Lia.
From Verif Require Import EVM.Word EVM.ProofsALU EVM.Model EVM.ProofsRun EVM.GasSpec EVM.ProofsGas
  EVM.RefSpec EVM.ProofsRef EVM.Journal EVM.ProofsJournal.
Import ListNotations.
Open Scope Z_scope.

(* 1. every arithmetic, comparison, bitwise and shift instruction = 256-bit modular integer arithmetic, for all operands *)
Theorem alu_matches_math (op : alu_op) (a b c : Z) :
  in_word a -> in_word b -> in_word c -> i_alu op a b c = m_alu op a b c.
Proof. exact (alu_matches_math_lemma op a b c). Qed.

(* ... and that is what a running frame pushes (stack entries are 256-bit words: invariant stack_ok) *)
Theorem alu_step_matches_math E cx op s : stack_ok (s_stack s) ->
  exec_plain E cx (I_ALU op) s =
  next s (pushw (m_alu op (nthz (s_stack s) 0) (nthz (s_stack s) 1) (nthz (s_stack s) 2)) (dropz (alu_arity op) (s_stack s))).
Proof. exact (alu_step_math E cx op s). Qed.

(* 2. termination made explicit: every non-halting iteration costs >= 1 gas and a callee never returns more gas than it
      was given, so fuel gas+1 suffices for every program, input, world and call nesting; gas left is within [0, gas] *)
Theorem run_terminates_within_gas fuel E static to v input gas w :
  0 <= gas < Z.of_nat fuel ->
  let r := call_top fuel E static to v input gas w in
  r_out r <> O_fuel /\ 0 <= r_gas r <= gas.
Proof. exact (call_top_terminates fuel E static to v input gas w). Qed.

Theorem frame_terminates_within_gas fuel E cx s : inv s -> s_gas s < Z.of_nat fuel ->
  r_out (run fuel E cx s) <> O_fuel /\ 0 <= r_gas (run fuel E cx s) <= s_gas s.
Proof. exact (run_gas fuel E cx s). Qed.

(* ... and any larger fuel gives the same answer (the oracle runs with one fixed large fuel) *)
Theorem fuel_irrelevant f f' E static to v input gas w :
  r_out (call_top f E static to v input gas w) <> O_fuel -> (f <= f')%nat ->
  call_top f' E static to v input gas w = call_top f E static to v input gas w.
Proof. exact (call_top_fuel_irrelevant f f' E static to v input gas w). Qed.

(* 3. a frame that does not end successfully (error, REVERT, or outside the model) leaves the world — balances, code, created
      accounts (master flag), storage, logs, transfer records, refund, self-destruct set — exactly as at its entry, whatever it
      and its nested calls / creations did: at the entry call, at every nested call and at every CREATE / CREATE2 *)
Theorem failed_frame_no_effect fuel E static to v input gas w :
  let r := call_top fuel E static to v input gas w in
  r_out r <> O_ok -> r_world r = w.
Proof. exact (call_top_failed fuel E static to v input gas w). Qed.

Theorem failed_nested_frame_no_effect fuel E self cs vs static d k to v args gas w cc :
  let r := do_call (run fuel E) E self cs vs static d k to v args gas w cc in
  r_out r <> O_ok -> r_world r = w.
Proof. exact (frame_failed fuel E self cs vs static d k to v args gas w cc). Qed.

Theorem failed_creation_no_effect fuel E self static d addr init v gas w cc :
  let r := do_create (run fuel E) E self static d addr init v gas w cc in
  r_out r <> O_ok -> r_world r = w.
Proof. exact (create_failed fuel E self static d addr init v gas w cc). Qed.

(* 4. under the static flag no program changes the world (balances, code, accounts, storage, logs, transfers, refund,
      self-destruct set), at any depth, whatever the outcome *)
Theorem static_no_write fuel E to input gas w :
  r_world (call_top fuel E true to 0 input gas w) = w.
Proof. exact (call_top_static fuel E to input gas w). Qed.

Theorem static_frame_no_write fuel E cx s : c_static cx = true -> r_world (run fuel E cx s) = s_world s.
Proof. exact (run_static fuel E cx s). Qed.

(* a STATICCALL from any frame; a CALL made under the static flag carries value 0 (the interpreter rejects it otherwise) *)
Theorem staticcall_no_write fuel E self cs vs static d k to v args gas w cc :
  static = true \/ k = K_STATIC -> (k = K_CALL -> v = 0) ->
  r_world (do_call (run fuel E) E self cs vs static d k to v args gas w cc) = w.
Proof. exact (frame_static fuel E self cs vs static d k to v args gas w cc). Qed.

(* 5. independent gas reference (GasSpec.v, from the Yellow Paper): the interpreter's memory charge is the difference of
      C_mem(a) = 3a + floor(a^2/512) between the word counts before and after; C_mem is monotone and expansion costs add up;
      the gas handed to a callee is min(requested, L(available - base)), L(n) = n - floor(n/64), and an unaffordable call
      never passes the gas check *)
Theorem mem_gas_matches_spec ow need :
  0 <= ow -> 0 <= need -> to_words need * 32 <= 1099511627744 ->
  mem_gas (32 * ow) (to_words need * 32) = Some (expansion_cost ow (Z.max ow (to_words need))).
Proof. exact (ProofsGas.mem_gas_matches_spec ow need). Qed.

Theorem mem_cost_monotone a b : 0 <= a <= b -> mem_cost a <= mem_cost b.
Proof. exact (ProofsGas.mem_cost_monotone a b). Qed.

Theorem expansion_cost_additive a b c : expansion_cost a b + expansion_cost b c = expansion_cost a c.
Proof. exact (ProofsGas.expansion_cost_additive a b c). Qed.

Theorem call_gas_matches_spec avail base req :
  0 <= base <= avail -> avail < W64 -> 0 <= req ->
  call_gas avail base req = callee_gas avail base req.
Proof. exact (ProofsGas.call_gas_matches_spec avail base req). Qed.

Theorem call_gas_unaffordable avail base req :
  0 <= avail < base -> base < W64 -> 0 <= req ->
  W64 <= base + call_gas avail base req \/ avail < base + call_gas avail base req.
Proof. exact (ProofsGas.call_gas_unaffordable avail base req). Qed.

Example gas_spec_nonvacuous :
  mem_gas (32 * 2) (to_words 100 * 32) = Some 6 /\ expansion_cost 2 4 = 6 /\
  call_gas 100000 700 50000 = 50000 /\ call_gas 100000 700 99999 = callee_gas 100000 700 99999 /\ callee_gas 100000 700 99999 = 97749.
Proof. vm_compute. repeat split; reflexivity. Qed.

(* a call instruction passes the gas check only if its own cost (everything except the gas handed to the callee) is affordable:
   cost - callee gas >= 700 (+ stipend margin), cost <= gas available, callee gas >= 0 — this ties call_gas_unaffordable to pre *)
Theorem call_step_affordable E cx s k s1 cg : inv s -> pre E cx s = P_ok (I_CALLI k) s1 cg ->
  exists cost, s_gas s1 = s_gas s - cost /\ 0 <= cost <= s_gas s /\ 0 <= cg /\
               700 + (if call_value k (s_stack s) =? 0 then 0 else 2300) <= cost - cg.
Proof.
  intros Hi Hp. destruct (pre_ok E cx s (I_CALLI k) s1 cg Hi Hp) as (_ & _ & cost & H1 & H2 & H3 & _ & H5).
  exists cost. repeat split; try assumption; try lia. apply H5. reflexivity.
Qed.

(* the state every frame starts in satisfies the invariants used by frame_terminates_within_gas / run_refines_reference *)
Theorem frame_entry_invariants gas w cc : 0 <= gas -> inv (mkSt 0 [] [] 0 gas [] w cc) /\ rinv (mkSt 0 [] [] 0 gas [] w cc).
Proof.
  intros H. split; [apply initial_inv|apply initial_rinv]; exact H.
Qed.

(* 6. an INDEPENDENT reference semantics (RefSpec.v, written from the Yellow Paper: delta/alpha, exceptional halting Z, jump
      destinations D(c) as inductively defined instruction positions, the fee schedule by W-classes + C_mem + the SSTORE
      schedule + EXP, the ALU by its mathematical definition, storage/refund effects extensionally) for the core fragment
      STOP / ALU / POP / PUSH / DUP / SWAP / JUMP / JUMPI / JUMPDEST / PC / GAS / MSIZE / MLOAD / MSTORE / MSTORE8 / SLOAD / SSTORE /
      RETURN / REVERT / invalid opcodes / the environment reads (ADDRESS ORIGIN CALLER CALLVALUE CALLDATASIZE CALLDATALOAD
      CODESIZE GASPRICE RETURNDATASIZE COINBASE TIMESTAMP NUMBER DIFFICULTY GASLIMIT CHAINID BASEFEE): a finished run of the
      interpreter model that stays inside the fragment is a run of the reference with the same result class, return data,
      gas left and world; at the first instruction outside the fragment the reference stops silent (RR_outside).  (Shared, not independent: opcode table, byte layout of memory words / PUSH operands, SWAP.) *)
Theorem run_refines_reference fuel E cx s : cwf cx -> rinv s -> r_out (run fuel E cx s) <> O_fuel ->
  exists rr, ref_run E cx s rr /\ res_matches (run fuel E cx s) rr /\
             (forall pc i, rr = RR_outside pc i -> leaves_fragment E cx).
Proof. exact (ProofsRef.run_refines_reference fuel E cx s). Qed.

(* what this does NOT say: the statement is about executions that stay inside the fragment.  From the first instruction
   outside it (RR_outside pc i names the pc and the instruction; by the definition of ref_step it decodes at that pc and is not
   in the fragment) res_matches is True, i.e. nothing is claimed about that run.  For RR_fail only the class is claimed at
   frame level (a failing frame's gas and world are discarded by its caller); the caller-level statement is the next theorem. *)
Theorem outside_names_the_instruction E cx s pc i : ref_step E cx s (RS_stop (RR_outside pc i)) ->
  pc = s_pc s /\ decode_at (e_fork E) (fetch cx s) = Some i /\ in_fragment i = false.
Proof. intros H. inversion H; subst. repeat split; assumption. Qed.

(* lifted to the entry call (runtime clause -> evm.Call): when the call reaches the interpreter, the result the caller sees is
   the reference's — success: the frame's data, gas and world; REVERT: data and gas, entry world; exceptional halt: no data, no
   gas, entry world.  Premise zlen code < 2^64 is not derived (deployed code is at most 24576 bytes, init code is bounded by
   memory gas). *)
Theorem call_top_refines_reference fuel E static to v input gas w :
  let w1 := transfer w (e_origin E) to v in
  let code := code_of w1 to in
  let cx0 := mkCtx to (e_origin E) v code (zlen code) input static 1 in
  let s0 := mkSt 0 [] [] 0 gas [] w1 0 in
  (negb (v =? 0) && (balance w (e_origin E) <? v)) = false ->
  precompile E to = false ->
  (negb (exists_acct w to) && (v =? 0)) = false ->
  code <> [] -> zlen code < W64 -> 0 <= gas ->
  r_out (call_top fuel E static to v input gas w) <> O_fuel ->
  exists rr, ref_run E cx0 s0 rr /\ call_matches w (call_top fuel E static to v input gas w) rr /\
             (forall pc i, rr = RR_outside pc i -> leaves_fragment E cx0).
Proof. exact (ProofsRef.call_top_refines_reference fuel E static to v input gas w). Qed.

(* the model's jump-destination analysis (a scan with a skip counter; the Go code uses a bit vector) decides exactly D(c) *)
Theorem jumpdest_analysis_matches_spec cx d : c_codelen cx = zlen (c_code cx) -> zlen (c_code cx) < W64 -> 0 <= d ->
  valid_jumpdest cx d = true <-> R_valid_dest (c_code cx) d.
Proof. exact (valid_jumpdest_ref cx d). Qed.

(* 7. the mechanism behind Snapshot / RevertToSnapshot as coded (Journal.v: stackedmap levels, statedb's stateRevKey entry,
      the state's own stacked map): a failed frame — whatever it and its nested frames, failed or not, wrote — leaves both
      stacked maps exactly as at its snapshot (plus the stateRevKey entry in the repo's old top level), hence every Get and
      the journal of logs / transfers answer as before; and no frame ever touches the levels below its snapshot *)
Theorem revert_to_snapshot_restores body s : d_state s <> [] -> d_repo s <> [] ->
  run_act (A_frame body true) s = mkSdb (d_state s) (put (d_repo s) SRK (Z.of_nat (depth (d_state s)))).
Proof. exact (proj2 (all_acts_good (A_frame body true)) body eq_refl s). Qed.

Theorem frame_keeps_lower_levels a s bst brepo : above s bst brepo -> above (run_act a s) bst brepo.
Proof. exact (proj1 (all_acts_good a) s bst brepo). Qed.

Theorem failed_frame_restores_reads body s src : d_state s <> [] -> d_repo s <> [] ->
  let s' := run_act (A_frame body true) s in
  d_state s' = d_state s /\
  (forall k, get src (d_state s') k = get src (d_state s) k) /\
  journal (d_state s') = journal (d_state s) /\
  (forall k, k <> SRK -> get src (d_repo s') k = get src (d_repo s) k) /\
  (forall k, k <> SRK -> filter (fun e => fst e =? k) (journal (d_repo s')) = filter (fun e => fst e =? k) (journal (d_repo s))).
Proof. exact (ProofsJournal.failed_frame_restores_reads body s src). Qed.

(* A (address 10): SSTORE(0,1); CALL B with all gas; INVALID.   B (address 11): SSTORE(1,7); STOP. *)
Definition exA : list Z := [96;1;95;85; 95;95;95;95;95;96;11;90;241; 254].
Definition exA_ok : list Z := [96;1;95;85; 95;95;95;95;95;96;11;90;241; 0].
Definition exB : list Z := [96;7;96;1;85;0].
Definition exE : env := mkEnv 99 1 0 0 1 0 1000000 0 0 [500; 501] [([], 77)] 42 3.
Definition exW (a : list Z) : world :=
  mkWorld [(10, mkAcc 5 a false); (11, mkAcc 0 exB false); (99, mkAcc 1000 [] false)] [(10, 5, 3)] [] 0 [] [].

Example words_exist : in_word 0 /\ in_word (W - 1) /\ i_alu A_SAR 4 (W - 16) 0 = W - 1 /\ i_alu A_SDIV HALF (W - 1) 0 = HALF.
Proof. vm_compute. repeat split; try reflexivity; try (intros; discriminate). Qed.

(* the hypotheses of 2 hold for a run with a nested call that returns data (A2 calls B2 with all gas; gas 1500 < fuel 1600) *)
Definition exA2 : list Z := [96;1;95;82; 96;32;95;95;95;95;96;11;90;241; 95;81;0].
Definition exB2 : list Z := [96;7;95;82;96;32;95;243].
Example terminates_nonvacuous :
  let w := mkWorld [(10, mkAcc 0 exA2 false); (11, mkAcc 0 exB2 false)] [] [] 0 [] [] in
  let r := call_top 1600 exE false 10 0 [] 1500 w in
  0 <= 1500 < Z.of_nat 1600 /\ r_out r = O_ok /\ 0 < r_gas r < 1500.
Proof. vm_compute. repeat split; try reflexivity; try (intros; discriminate). Qed.

(* nested calls, value transfer and writes really happen: the successful variant ends with three storage bindings and the
   3 wei sent along with the entry call have moved from the origin (99) to A (10) *)
Example writes_happen :
  let r := call_top 200 exE false 10 3 [] 100000 (exW exA_ok) in
  r_out r = O_ok /\ length (w_store (r_world r)) = 3%nat /\ balance (r_world r) 10 = 8 /\ balance (r_world r) 99 = 997.
Proof. vm_compute. repeat split; reflexivity. Qed.

(* a frame that fails AFTER receiving value, its own write and a successful nested writer: world is the entry world *)
Example failed_nonvacuous :
  let r := call_top 200 exE false 10 3 [] 100000 (exW exA) in
  r_out r = O_err E_invalid /\ r_world r = exW exA.
Proof. vm_compute. split; reflexivity. Qed.

(* a creation whose init code [PUSH1 1, PUSH0, SSTORE, INVALID] writes, then fails: do_create (called directly, from address 10
   at depth 1) reports the failure, and master flag / log / write are gone *)
Example failed_creation_nonvacuous :
  let init := [96;1;95;85;254] in
  let r := do_create (run 100 exE) exE 10 false 1 500 init 0 60000 (exW exA) 0 in
  r_out r = O_err E_invalid /\ r_world r = exW exA /\ r_cc r = 1.
Proof. vm_compute. repeat split; reflexivity. Qed.

(* the jump table depends on the fork: PUSH0 and SHL are invalid opcodes before GALACTICA / ETH_CONST *)
Example fork_tables_nonvacuous :
  let E2 := mkEnv 99 1 0 0 1 0 1000000 0 0 [] [] 42 2 in
  let E0 := mkEnv 99 1 0 0 1 0 1000000 0 0 [] [] 42 0 in
  let w c := mkWorld [(10, mkAcc 0 c false)] [] [] 0 [] [] in
  r_out (call_top 50 E2 false 10 0 [] 1000 (w [95; 0])) = O_err E_invalid /\
  r_out (call_top 50 exE false 10 0 [] 1000 (w [95; 0])) = O_ok /\
  r_out (call_top 50 E0 false 10 0 [] 1000 (w [96; 1; 96; 1; 27; 0])) = O_err E_invalid /\
  r_out (call_top 50 E2 false 10 0 [] 1000 (w [96; 1; 96; 1; 27; 0])) = O_ok.
Proof. vm_compute. repeat split; reflexivity. Qed.

(* a program entirely inside the fragment (SSTORE, ADD, MSTORE, a taken JUMPI over an INVALID, RETURN): the hypotheses of 6
   hold, no byte of it decodes outside the fragment, so the reference run ends in RR_done with the model's result *)
Definition exF : list Z := [96;7;96;1;85; 96;2;96;3;1; 95;82; 96;1;96;18;87; 254; 91; 96;31;96;1;243].
Example refinement_nonvacuous :
  let cx := mkCtx 10 99 0 exF (zlen exF) [] false 1 in
  let s0 := mkSt 0 [] [] 0 100000 [] (exW exF) 0 in
  cwf cx /\ rinv s0 /\ r_out (run 100 exE cx s0) = O_ok /\ r_data (run 100 exE cx s0) = dropz 1 (word_bytes 5) /\
  forallb (fun b => match decode_at 3 b with Some i => in_fragment i | None => true end) (0 :: exF) = true.
Proof.
  cbv zeta. split. { split; vm_compute; reflexivity. }
  split. { apply initial_rinv. vm_compute. discriminate. }
  vm_compute. repeat split; reflexivity.
Qed.

(* a Solidity-dispatcher-like prologue is inside the fragment: CALLVALUE ISZERO JUMPI(ok) REVERT | JUMPDEST CALLDATASIZE
   PUSH0 CALLDATALOAD CALLER ... : every byte decodes inside the fragment, the run ends ok, and the entry-call lift applies *)
Definition exD : list Z := [52;21;96;8;87; 95;95;253; 91; 54;95;53;51;1;1; 95;82; 96;31;96;1;243].
Example dispatcher_inside_fragment :
  let w := mkWorld [(10, mkAcc 0 exD false); (99, mkAcc 5 [] false)] [] [] 0 [] [] in
  forallb (fun b => match decode_at 3 b with Some i => in_fragment i | None => true end) (0 :: exD) = true /\
  r_out (call_top 100 exE false 10 0 [1;2;3] 50000 w) = O_ok /\
  precompile exE 10 = false /\ code_of (transfer w 99 10 0) 10 <> [] /\ zlen exD < W64.
Proof. vm_compute. repeat split; try reflexivity; discriminate. Qed.

(* alu_step_matches_math and frame_terminates_within_gas: their hypotheses hold in a concrete running frame *)
Example alu_step_nonvacuous :
  let s := mkSt 9 [W - 1; 2; 7] [] 0 50 [] (exW exF) 0 in
  stack_ok (s_stack s) /\ inv s /\ s_gas s < Z.of_nat 60 /\
  exec_plain exE (mkCtx 10 99 0 exF (zlen exF) [] false 1) (I_ALU A_ADD) s = next s [1; 7].
Proof.
  cbv zeta. cbn [s_stack s_gas s_msize].
  assert (Hst : stack_ok [W - 1; 2; 7]).
  { assert (iw : forall v, (0 <=? v) = true -> (v <? W) = true -> in_word v).
    { intros v A B. split; [apply Z.leb_le, A|apply Z.ltb_lt, B]. }
    constructor; [apply iw; reflexivity|]. constructor; [apply iw; reflexivity|]. constructor; [apply iw; reflexivity|constructor]. }
  split; [exact Hst|]. split; [unfold inv; cbn; repeat split; [exact Hst|lia|lia]|]. split; [reflexivity|]. vm_compute. reflexivity.
Qed.

(* the journal mechanism on a concrete history: an outer failed frame containing a successful inner frame and a failed one *)
Example journal_nonvacuous :
  let s := mkSdb [[(1, 10)]] [[(7, 70)]] in
  let body := [A_state 1 11; A_repo 8 80; A_frame [A_state 2 22; A_repo 7 71] false; A_frame [A_state 1 99] true; A_state 3 33] in
  d_state (run_act (A_frame body false) s) <> d_state s /\
  get (fun _ => None) (d_state (run_act (A_frame body false) s)) 1 = Some 11 /\
  d_state (run_act (A_frame body true) s) = d_state s /\
  get (fun _ => None) (d_repo (run_act (A_frame body true) s)) 7 = Some 70.
Proof. vm_compute. repeat split; try reflexivity. discriminate. Qed.

(* STATICCALL from a non-static parent: the callee (a writer) fails with the write-protection error, the parent continues *)
Example staticcall_nonvacuous :
  let callerc := [95;95;95;95;96;11;90;250; 80; 96;9;95;85; 0] in       (* STATICCALL B; POP; SSTORE(0, 9) *)
  let w := mkWorld [(10, mkAcc 0 callerc false); (11, mkAcc 0 exB false)] [] [] 0 [] [] in
  let r := call_top 300 exE false 10 0 [] 2000000 w in
  r_out r = O_ok /\ sload (r_world r) 11 1 = 0 /\ sload (r_world r) 10 0 = 9.
Proof. vm_compute. repeat split; reflexivity. Qed.

(* under static the same program stops at its first SSTORE with the write-protection error *)
Example static_nonvacuous :
  r_out (call_top 200 exE true 10 0 [] 100000 (exW exA_ok)) = O_err E_write.
Proof. vm_compute. reflexivity. Qed.

Print Assumptions alu_matches_math.
Print Assumptions alu_step_matches_math.
Print Assumptions run_terminates_within_gas.
Print Assumptions frame_terminates_within_gas.
Print Assumptions fuel_irrelevant.
Print Assumptions failed_frame_no_effect.
Print Assumptions failed_nested_frame_no_effect.
Print Assumptions failed_creation_no_effect.
Print Assumptions mem_gas_matches_spec.
Print Assumptions mem_cost_monotone.
Print Assumptions expansion_cost_additive.
Print Assumptions call_gas_matches_spec.
Print Assumptions call_gas_unaffordable.
Print Assumptions call_step_affordable.
Print Assumptions frame_entry_invariants.
Print Assumptions run_refines_reference.
Print Assumptions outside_names_the_instruction.
Print Assumptions call_top_refines_reference.
Print Assumptions jumpdest_analysis_matches_spec.
Print Assumptions revert_to_snapshot_restores.
Print Assumptions frame_keeps_lower_levels.
Print Assumptions failed_frame_restores_reads.
Print Assumptions static_no_write.
Print Assumptions static_frame_no_write.
Print Assumptions staticcall_no_write.

(* C10 <-> C07 (EVM/ProofsRefund.v, Compose/EvmOracle.v).  Property C07 models the transaction wrapper over an ABSTRACT clause
   oracle and assumes of it only TxExec.Proofs.oracle_ok: for gas >= 0 a clause hands back 0 <= left <= gas and a refund
   counter >= 0.  For this interpreter model, driven the way runtime.PrepareClause drives the EVM (fresh statedb per clause,
   call_top for a clause with a recipient, do_create at depth 0 / creation counter 0 for a creation, fuel gas+1), that premise is
   a theorem: the gas half is 2 above (run_terminates_within_gas; do_create_gas for a top-level creation); the refund half
   is that the refund counter never decreases along a run, at any depth, whatever the outcome: only
   gasSStore (+15000, clearing a slot) and gasSuicide (+24000) add to it, no instruction body touches it, and a frame that does
   not end successfully returns its entry world (3 above). *)
From Verif Require EVM.ProofsRefund TxExec.Model TxExec.Proofs Compose.EvmOracle.

Theorem refund_counter_monotone fuel E cx s : w_refund (s_world s) <= w_refund (r_world (run fuel E cx s)).
Proof. exact (ProofsRefund.run_refund fuel E cx s). Qed.

Theorem entry_call_refund_monotone fuel E static to v input gas w :
  w_refund w <= w_refund (r_world (call_top fuel E static to v input gas w)).
Proof. exact (ProofsRefund.call_top_refund fuel E static to v input gas w). Qed.

Theorem nested_frame_refund_monotone fuel E self cs vs static d k to v args gas w cc :
  w_refund w <= w_refund (r_world (do_call (run fuel E) E self cs vs static d k to v args gas w cc)).
Proof. exact (ProofsRefund.frame_refund fuel E self cs vs static d k to v args gas w cc). Qed.

Theorem creation_refund_monotone fuel E self static d addr init v gas w cc :
  w_refund w <= w_refund (r_world (do_create (run fuel E) E self static d addr init v gas w cc)).
Proof. exact (ProofsRefund.create_refund fuel E self static d addr init v gas w cc). Qed.

(* what C07 assumes about the EVM, for the clause oracle induced by this model (every way of reading the EVM environment /
   accounts view / input bytes off C07's state and of writing the result back) *)
Theorem c07_oracle_premise_holds (Wd Od : Type)
        (evm_env : TxExec.Model.env -> TxExec.Model.txn -> nat -> TxExec.Model.state Wd -> env)
        (world_of : TxExec.Model.state Wd -> world) (input_of : TxExec.Model.txn -> nat -> list Z)
        (world_back : TxExec.Model.state Wd -> world -> Wd) (ops_of : fres -> list Verif.Ledger.Model.op) (out_of : fres -> Od) :
  TxExec.Proofs.oracle_ok Wd Od (EvmOracle.evm_clause_result Wd Od evm_env world_of input_of world_back ops_of out_of).
Proof. exact (EvmOracle.evm_oracle_ok Wd Od evm_env world_of input_of world_back ops_of out_of). Qed.

(* non-vacuity: the counter really moves — contract 10 clears slot 5 (PUSH0; PUSH1 5; SSTORE; STOP): 0 -> 15000; the same call
   into the failing variant (… INVALID) hands the entry world back, counter 0 *)
Example refund_nonvacuous :
  let w c := mkWorld [(10, mkAcc 0 c false)] [(10, 5, 3)] [] 0 [] [] in
  w_refund (r_world (call_top 100 exE false 10 0 [] 10000 (w [95; 96; 5; 85; 0]))) = 15000 /\
  r_out (call_top 100 exE false 10 0 [] 10000 (w [95; 96; 5; 85; 254])) = O_err E_invalid /\
  w_refund (r_world (call_top 100 exE false 10 0 [] 10000 (w [95; 96; 5; 85; 254]))) = 0.
Proof. vm_compute. repeat split; reflexivity. Qed.

Print Assumptions refund_counter_monotone.
Print Assumptions entry_call_refund_monotone.
Print Assumptions nested_frame_refund_monotone.
Print Assumptions creation_refund_monotone.
Print Assumptions c07_oracle_premise_holds.
Print Assumptions refund_nonvacuous.
