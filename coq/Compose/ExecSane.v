(* Compose/ExecSane.v — C01 <-> C07: the premise `exec_sane` of C01's packed_block_accepted discharged by C07's model of
   the transaction wrapper.

     C01  Validation/ProofsPacker.v  exec_sane: for the ABSTRACT  exec : bctx -> State -> txn -> option (State * receipt)
                                     "a receipt uses at most the tx gas, execution needs a recoverable origin, a tx whose gas
                                     exceeds the block gas limit does not execute"
     C07  TxExec/Model.v exec_tx     runtime.ResolveTransaction / PrepareTransaction / ExecuteTransaction over a clause ORACLE;
          TxExec/Proofs.v            gas_bounds_lemma: intrinsic <= gasUsed <= gas <= block gas limit, for every oracle that hands
                                     back at most the gas it was given (oracle_ok)

   C01's transaction is a VIEW (what validation reads: id, origin recovered?, gas, ref, ...), C07's a record with the
   clauses and fee fields.  `full rest v` rebuilds C07's record from the view v and `rest v`, the fields the view does not
   carry; the fields both have (gas, origin recovered, delegator recovered, block ref, legacy / typed) are TAKEN FROM THE
   VIEW, so the two are coherent by construction and no coherence premise is needed.  Likewise the execution environment:
   block time, number, gas limit, base fee, beneficiary come from C01's block context, the rest (fork number, params read
   from the state) from an arbitrary function.  C01's State is C07's state (ledger x rest of the world); C01's receipt is
   the projection (gas used, reverted, a digest of the rest).

   Result: exec_of_c07 satisfies exec_sane whenever the clause oracle satisfies oracle_ok (exec_of_c07_sane), and
   packed_block_accepted holds for it with the premise exec_sane REMOVED (packed_block_accepted_c07); what is left
   assumed about execution is C07's only assumption about the EVM. *)
From Coq Require Import List NArith ZArith Bool Lia.
From Coq Require Import ZifyN ZifyNat ZifyBool.
From Verif Require Import Common.Util Sched.Model Header.Rules Validation.Body Validation.ProofsPacker.
From Verif Require Ledger.Model TxExec.Model TxExec.Proofs.
Import ListNotations.
Open Scope N_scope.

Module TM := Verif.TxExec.Model.
Module TP := Verif.TxExec.Proofs.

(* C07's transaction record from C01's view + the fields the view does not carry *)
Definition full (rest : txn -> TM.txn) (v : txn) : TM.txn :=
  let f := rest v in
  TM.mkTx (negb (t_type v =? 0))                 (* typed (dynamic fee) unless legacy *)
          (Z.of_N (t_gas v))
          (TM.t_clauses f) (TM.t_coef f) (TM.t_max_fee f) (TM.t_max_prio f)
          (TM.t_origin f) (t_origin_ok v)
          (TM.t_delegator f) (t_delegator_ok v)
          (Z.of_N (t_ref v))
          (TM.t_pw_ctx f) (TM.t_pw_fin f) (TM.t_ctx_err f).

(* C07's environment from C01's block context + the rest (GALACTICA number, energy stop time, params, interval) *)
Definition env_of (rest : TM.env) (ctx : bctx) : TM.env :=
  TM.mkEnv (Z.of_N (x_time ctx)) (TM.e_stop rest) (Z.of_N (x_number ctx)) (TM.e_galactica rest)
           (Z.of_N (x_gas_limit ctx))
           (match x_base_fee ctx with Some bf => Some (Z.of_N bf) | None => None end)
           (TM.e_bgp rest) (TM.e_reward_ratio rest) (Z.of_N (x_beneficiary ctx)) (TM.e_interval rest).

Section Compose.
  Variables W O : Type.
  Variable clause_result : TM.env -> TM.txn -> nat -> Z -> TM.state W -> TM.cres W O.
  Variable write_credit : Z -> Z -> Z -> W -> W.
  Variable tx_rest : txn -> TM.txn.                                   (* clauses, fee fields, origin address, proved work *)
  Variable env_rest : bctx -> TM.state W -> TM.env.                   (* fork number, params read from the state *)
  Variable credit_of : bctx -> TM.state W -> txn -> TM.credit_info.   (* prototype binding, read from the state *)
  Variable digest : TM.receipt O -> N.                                (* what else the receipt says (outputs, paid, reward) *)

  Definition receipt_of (rc : TM.receipt O) : receipt :=
    mkRc (Z.to_N (TM.r_gas_used O rc)) (TM.r_reverted O rc) (digest rc).

  (* C01's abstract exec, instantiated: None = ExecuteTransaction returns an error (the packer reverts to its checkpoint) *)
  Definition exec_of_c07 (ctx : bctx) (st : TM.state W) (v : txn) : option (TM.state W * receipt) :=
    match TM.exec_tx W O clause_result write_credit (env_of (env_rest ctx st) ctx) (full tx_rest v) (credit_of ctx st v) st with
    | TM.Failed _ _ _ _ => None
    | TM.Done _ _ st' rc => Some (st', receipt_of rc)
    end.

  (* ResolveTransaction needs the origin *)
  Lemma done_needs_origin e t ci st0 st rc :
    TM.exec_tx W O clause_result write_credit e t ci st0 = TM.Done W O st rc -> TM.t_sig_ok t = true.
  Proof.
    unfold TM.exec_tx, TM.resolve. destruct (TM.t_sig_ok t); [reflexivity|]. cbn [negb]. discriminate.
  Qed.

  (* exec_sane, from C07's gas_bounds and the PrepareTransaction guard *)
  Theorem exec_of_c07_sane : TP.oracle_ok W O clause_result -> exec_sane (TM.state W) exec_of_c07.
  Proof.
    intros OK ctx st v st' r. unfold exec_of_c07.
    destruct (TM.exec_tx W O clause_result write_credit (env_of (env_rest ctx st) ctx) (full tx_rest v) (credit_of ctx st v) st)
      as [err s|s rc] eqn:E; [discriminate|].
    intros H. injection H as <- <-.
    pose proof (done_needs_origin _ _ _ _ _ _ E) as Ho.
    destruct (TP.gas_bounds_lemma W O clause_result write_credit OK _ _ _ _ _ _ E) as (ig & _ & (_ & Hu) & Hl & _).
    cbn [full TM.t_sig_ok TM.t_gas env_of TM.e_gas_limit receipt_of r_gas] in *.
    repeat split; [lia | exact Ho | lia].
  Qed.

  (* C01's premises without exec_sane *)
  Record premises_rest (cfg : config) (pv : pview) (parent : header) (po : packer_opts) : Prop := {
    pq_interval : 0 < c_interval cfg;
    pq_number : h_number parent + 1 < 4294967296;
    pq_parent_gl : 1000000 <= h_gas_limit parent /\ h_gas_limit parent < two62;
    pq_target : po_target_gl po < two63;
    pq_unique : NoDup (map cand_addr (pv_cands pv)) }.

  Lemma premises_of_rest cfg pv parent po : TP.oracle_ok W O clause_result ->
    premises_rest cfg pv parent po -> premises (TM.state W) exec_of_c07 cfg pv parent po.
  Proof. intros OK [P1 P2 P3 P4 P5]. constructor; auto. exact (exec_of_c07_sane OK). Qed.

  Variable apply_updates : bool -> N -> TM.state W -> list (N * bool) -> TM.state W.
  Variable rewards : bctx -> TM.state W -> option (TM.state W).
  Variable sanity : TM.state W -> bool.
  Variable root_of_state : TM.state W -> N.
  Variable root_of_receipts : list receipt -> N.
  Variable root_of_txs : list txn -> N.
  Variable has_tx : N -> N -> bool.
  Variable find_meta : N -> option bool.

  (* C01's main theorem for the wrapper of C07 in the place of the abstract exec: the block Schedule + Adopt* + Pack produces
     passes Process, with exactly the packer's state and receipts — for every clause oracle that hands back at most the gas
     it was given *)
  Theorem packed_block_accepted_c07 cfg pv parent po now st0 txs vote sr b stp rcs vnow :
    TP.oracle_ok W O clause_result ->
    premises_rest cfg pv parent po -> crypto_roundtrip cfg parent po sr ->
    pack_block (TM.state W) exec_of_c07 apply_updates rewards root_of_state root_of_receipts root_of_txs has_tx find_meta
               cfg pv parent po now st0 txs vote sr = Some (b, stp, rcs) ->
    h_total_score parent < h_total_score (b_header b) ->
    (pv_pos pv = true -> forall ctx stf, rewards ctx stf = Some stp -> sanity stf = true) ->
    h_time (b_header b) <= vnow + c_interval cfg ->
    process (TM.state W) exec_of_c07 apply_updates rewards sanity root_of_state root_of_receipts root_of_txs has_tx find_meta
            cfg pv parent st0 b vnow = Accepted (TM.state W) stp rcs.
  Proof.
    intros OK P. exact (packed_block_accepted_lemma (TM.state W) exec_of_c07 apply_updates rewards sanity root_of_state
                          root_of_receipts root_of_txs has_tx find_meta cfg pv parent po now st0 txs vote sr b stp rcs vnow
                          (premises_of_rest cfg pv parent po OK P)).
  Qed.
End Compose.

(* C07's example oracle (every clause hands back a third of its gas, refund counter 9000, one transfer), C01's example
   parent / proposers; three candidate transactions of two clauses each (the second carries another chain tag, the third less gas than its
   intrinsic gas): the packed block holds the first alone (x_packed_and_accepted) *)
Definition x_oracle (_ : TM.env) (_ : TM.txn) (i : nat) (g : Z) (st : TM.state Z) : TM.cres Z Z :=
  TM.mkCres Z Z (g / 3)%Z 9000%Z false [Ledger.Model.OTransfer 1 2 5] (snd st + 1)%Z (Z.of_nat i).
Definition x_wc (_ _ c w : Z) : Z := (w + 1000 * c)%Z.
Definition x_led : Ledger.Model.ledger :=
  Ledger.Model.mkL (fun a => if (a =? 1)%Z then Ledger.Model.mkAcc 1000 90000000000000000000 50 else Ledger.Model.empty_acc) 0 0 0.
Definition x_rest (_ : txn) : TM.txn :=
  TM.mkTx false 0 [TM.mkClause (Some 2%Z) 3 4 5; TM.mkClause (Some 2%Z) 0 0 0] 0 0 0 1 true None true 0 0 0 false.
Definition x_env (_ : bctx) (_ : TM.state Z) : TM.env := TM.mkEnv 0 1000 0 1000 0 None 10000000000000 300000000000000000 0 10.
Definition x_ci (_ : bctx) (_ : TM.state Z) (_ : txn) : TM.credit_info := TM.mkCI 0 0 false false.
Definition x_exec := exec_of_c07 Z Z x_oracle x_wc x_rest x_env x_ci (fun rc => Z.to_N (TM.r_paid Z rc)).

Definition x_cfg := mkCfg 0 0 0 0 1000 10 39.
Definition x_parent := mkH 5 1000 10000000 0 0 50 0 1 777 0 (0, 0) false None 146 (Some 11) (Some (0, 0)).
Definition x_cands := [ mkC (mkP 11 true 0) 2 111 None; mkC (mkP 22 true 0) 1 222 None ].
Definition x_pv := mkPV false x_cands 0 (fun _ => 0).
Definition x_po := mkPO 11 None 20000000 0.
Definition x_sr := mkSR 146 (Some 11) (Some (32, 4242)) None.
Definition x_txs := [ mkTx 9001 true false true false 39 4 32 0 0 false 200000 true None;
                      mkTx 9002 true false true false 38 4 32 0 0 false 200000 true None;
                      mkTx 9003 true false true false 39 4 32 0 0 false 30000 true (Some 9001) ].
Definition x_root (st : TM.state Z) : N := Z.to_N (snd st).
Definition x_pack := pack_block (TM.state Z) x_exec (fun _ _ st _ => st) (fun _ st => Some st) x_root
          (fun rs => N.of_nat (length rs)) (fun ts => N.of_nat (length ts)) (fun _ _ => false) (fun _ => None)
          x_cfg x_pv x_parent x_po 1003 (x_led, 0%Z) x_txs true x_sr.
Definition x_process b now := process (TM.state Z) x_exec (fun _ _ st _ => st) (fun _ st => Some st) (fun _ => true) x_root
          (fun rs => N.of_nat (length rs)) (fun ts => N.of_nat (length ts)) (fun _ _ => false) (fun _ => None)
          x_cfg x_pv x_parent (x_led, 0%Z) b now.

Example x_oracle_ok : TP.oracle_ok Z Z x_oracle.
Proof.
  intros e t i g st Hg. cbn. pose proof (Z.div_mod g 3 ltac:(lia)). pose proof (Z.mod_pos_bound g 3 ltac:(lia)). lia.
Qed.

Example x_premises : premises_rest x_cfg x_pv x_parent x_po /\ crypto_roundtrip x_cfg x_parent x_po x_sr.
Proof.
  split.
  - constructor; [reflexivity | reflexivity | split; [discriminate | reflexivity] | reflexivity |].
    constructor; [cbn; intuition discriminate|]. constructor; [cbn; intuition | constructor].
  - split; [reflexivity|]. split; [reflexivity|]. intros _. discriminate.
Qed.

(* the wrapper really runs inside the packer: one transaction adopted (gas used 169921 of 200000, two
   clauses executed: the world counter is 2), and the composed theorem gives acceptance by the validator *)
Example x_packed_and_accepted :
  exists b stp rcs,
    x_pack = Some (b, stp, rcs) /\ map t_id (b_txs b) = [9001] /\ map r_gas rcs = [169921] /\ snd stp = 2%Z /\
    h_gas_used (b_header b) = 169921 /\
    x_process b 1020 = Accepted (TM.state Z) stp rcs.
Proof.
  destruct x_pack as [[[b stp] rcs]|] eqn:E; [|vm_compute in E; discriminate].
  exists b, stp, rcs. split; [reflexivity|].
  assert (F : map t_id (b_txs b) = [9001] /\ map r_gas rcs = [169921] /\ snd stp = 2%Z /\ h_gas_used (b_header b) = 169921 /\
              h_total_score x_parent < h_total_score (b_header b) /\ h_time (b_header b) <= 1020 + c_interval x_cfg).
  { vm_compute in E. injection E as <- <- <-. vm_compute. repeat split; reflexivity || discriminate. }
  destruct F as (F1 & F2 & F3 & F4 & F5 & F6). repeat split; auto.
  destruct x_premises as [P C].
  apply (packed_block_accepted_c07 Z Z x_oracle x_wc x_rest x_env x_ci (fun rc => Z.to_N (TM.r_paid Z rc))
           (fun _ _ st _ => st) (fun _ st => Some st) (fun _ => true) x_root (fun rs => N.of_nat (length rs))
           (fun ts => N.of_nat (length ts)) (fun _ _ => false) (fun _ => None) x_cfg x_pv x_parent x_po 1003
           (x_led, 0%Z) x_txs true x_sr b stp rcs 1020 x_oracle_ok P C E F5); [|exact F6].
  intros Hpos. discriminate Hpos.
Qed.
