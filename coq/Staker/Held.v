(* Staker/Held.v — held_by (what the validation under an address holds, `held` of ProofsHist.v) and stake_of (what a
   delegation still has at stake), with the frame lemmas for the primitive state updates. *)
From Coq Require Import List NArith Bool Lia.
From Coq Require Import ZifyBool.
From Verif Require Import Common.Util Staker.Model Staker.Base Staker.Lists Staker.Inv Staker.ProofsUser Staker.ProofsHist.
Import ListNotations.
Open Scope N_scope.

Opaque e18 two64.

Definition held_by (s : st) (a : N) : N := match getv s a with Some v => held v | None => 0 end.
Definition stake_of (s : st) (id : N) : N := match get (dels s) id with Some d => d_stake d | None => 0 end.

Lemma held_by_vals s s' : vals s' = vals s -> forall b, held_by s' b = held_by s b.
Proof. intros E b. unfold held_by, getv. rewrite E. reflexivity. Qed.

Lemma held_by_setv a v s b : held_by (setv a v s) b = if a =? b then held v else held_by s b.
Proof.
  unfold held_by. destruct (a =? b) eqn:E.
  - apply N.eqb_eq in E. subst. rewrite getv_setv_same. reflexivity.
  - apply N.eqb_neq in E. rewrite getv_setv_other; auto.
Qed.

Lemma held_set_prev x v : held (set_prev x v) = held v. Proof. reflexivity. Qed.
Lemma held_set_next x v : held (set_next x v) = held v. Proof. reflexivity. Qed.

Lemma core_held v v' : core v = core v' -> held v = held v'.
Proof. intros H. inversion H. unfold held. congruence. Qed.

Lemma held_by_setv_same_held a v v' s : getv s a = Some v -> held v' = held v -> forall b, held_by (setv a v' s) b = held_by s b.
Proof.
  intros Hv E b. rewrite held_by_setv. destruct (a =? b) eqn:Eb; auto. apply N.eqb_eq in Eb. subst. unfold held_by. rewrite Hv. auto.
Qed.

Lemma held_by_put_ls w l s b : held_by (put_ls w l s) b = held_by s b.
Proof. destruct w; reflexivity. Qed.

Lemma held_by_ren_only s s' : ren_only s s' -> forall b, held_by s' b = held_by s b.
Proof. intros E. apply held_by_vals. rewrite E. reflexivity. Qed.

(* the list operations: other records keep what they hold; the record itself is either left as stored (remove's early
   return) or replaced by the given entry *)
Lemma ll_remove_held w a e s s1 e1 :
  ll_remove w a e s = Ok (s1, e1) ->
  (forall b, b <> a -> held_by s1 b = held_by s b) /\ (held_by s1 a = held_by s a \/ held_by s1 a = held e).
Proof.
  unfold ll_remove. intros H.
  destruct (negb (is_linked e) && (negb (oeqb (l_head (get_ls w s)) (Some a)) || negb (oeqb (l_tail (get_ls w s)) (Some a)))).
  - inversion H; subst. auto.
  - bstep H sa Ha. bstep H sb Hb. bstep H u Hu. inversion H; subst s1 e1; clear H.
    assert (A : forall b, held_by sa b = held_by s b).
    { destruct (v_prev e) as [p|].
      - bstep Ha pe Hpe. apply of_opt_ok in Hpe. inversion Ha; subst. apply held_by_setv_same_held with (v := pe); auto.
      - inversion Ha; subst. intros b. apply held_by_put_ls. }
    assert (B : forall b, held_by sb b = held_by sa b).
    { destruct (v_next e) as [n|].
      - bstep Hb ne Hne. apply of_opt_ok in Hne. inversion Hb; subst. apply held_by_setv_same_held with (v := ne); auto.
      - inversion Hb; subst. intros b. apply held_by_put_ls. }
    split.
    + intros b Hne. rewrite held_by_setv. apply N.eqb_neq in Hne. rewrite N.eqb_sym in Hne. rewrite Hne.
      rewrite held_by_put_ls, B, A. reflexivity.
    + right. rewrite held_by_setv, N.eqb_refl. reflexivity.
Qed.

Lemma ll_add_held w a e s s1 :
  ll_add w a e s = Ok s1 -> (forall b, b <> a -> held_by s1 b = held_by s b) /\ held_by s1 a = held e.
Proof.
  unfold ll_add. intros H. bstep H sb Hb. inversion H; subst s1; clear H.
  assert (B : forall b, held_by sb b = held_by s b).
  { destruct (l_tail (get_ls w s)) as [t|].
    - bstep Hb te Hte. apply of_opt_ok in Hte. inversion Hb; subst. intros b.
      rewrite (held_by_setv_same_held t te _ _ Hte (held_set_next _ _)). apply held_by_put_ls.
    - inversion Hb; subst. intros b. rewrite !held_by_put_ls. reflexivity. }
  split.
  - intros b Hne. rewrite held_by_setv. apply N.eqb_neq in Hne. rewrite N.eqb_sym in Hne. rewrite Hne. rewrite held_by_put_ls. apply B.
  - rewrite held_by_setv, N.eqb_refl. reflexivity.
Qed.

