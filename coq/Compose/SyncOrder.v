(* Compose/SyncOrder.v — composition C19 <-> C04: the order hypotheses of `sync_converges` are discharged by the
   real fork choice of Bft/Model.v.

   C19's sync_converges (Sync/ProofsConverge.v: sync_converges_thm) assumes of the node's abstract `better`:
     (a) asymmetric, (b) negatively transitive, (c) `best` is maximal in the store (best_max), and that block ids
     identify blocks over the whole block type.
   Here:
     1. for ANY quality function q the relation  ord q x y := q y < q x \/ (q x = q y /\ better_than x y)  (the key
        (quality, total score, reversed id) compared lexicographically) is a strict weak order, with no distinct-id
        hypothesis; `beats c r` of Bft/ProofsNode.v IS `ord (qual c r)`, and bft.Select (`select`) IS `ord q` whenever q
        agrees with computeState's quality on the two blocks;
     2. Sync's node is instantiated with Blk := N (block ids, read in a universe tree U that holds every block either
        side knows): bid = identity (so injectivity is trivial), parent/better are read through U;
     3. C04's invariant `inv c nd` (best_is_max) gives (c) for the Sync view of a Bft node whose repository is a
        sub-repository of U — chains, hence qualities, of stored blocks are the same in the sub-repository and in U;
     4. sync_converges_bft_order: sync_converges with (a), (b), (c) and id-injectivity REMOVED, replaced by
        `inv c nd`, `wf_repo U`, inclusion;
     5. a concrete instance (a fork where the local branch has the higher total score and the peer's branch the higher
        QUALITY: the peer's head wins by quality) satisfying every hypothesis. *)
From Coq Require Import List NArith ZArith Bool Lia.
From Coq Require Import ZifyN ZifyNat ZifyBool.
From Verif Require Import Common.Util Bft.Tree Bft.Model Bft.Quorum Bft.ProofsTally Bft.ProofsChain Bft.ProofsNode.
From Verif Require Bft.ProofsTree2.
From Verif Require Sync.Model Sync.Proofs Sync.ProofsDownload Sync.ProofsConverge.
Import ListNotations.
Open Scope N_scope.

Definition ord (q : blk -> N) (x y : blk) : bool :=
  (q y <? q x) || ((q x =? q y) && better_than x y).

Lemma ord_asym q x y : ord q x y = true -> ord q y x = false.
Proof. unfold ord, better_than. lia. Qed.

Lemma ord_irrefl q x : ord q x x = false.
Proof. unfold ord, better_than. lia. Qed.

Lemma ord_cotrans q x y z : ord q x z = true -> ord q x y = true \/ ord q y z = true.
Proof. unfold ord, better_than. lia. Qed.

Lemma ord_trans q x y z : ord q x y = true -> ord q y z = true -> ord q x z = true.
Proof. unfold ord, better_than. lia. Qed.

(* the indifference classes of the strict weak order: same quality, same total score, same id *)
Lemma ord_incomparable q x y : ord q x y = false -> ord q y x = false ->
  q x = q y /\ b_score x = b_score y /\ b_id x = b_id y.
Proof. unfold ord, better_than. lia. Qed.

Lemma ord_total q x y : b_id x <> b_id y -> ord q x y = true \/ ord q y x = true.
Proof. unfold ord, better_than. lia. Qed.

(* ProofsNode's total order on stored blocks is this order at the quality from the definitions *)
Lemma beats_is_ord c r x y : beats c r x y = ord (qual c r) x y.
Proof. reflexivity. Qed.

(* bft.Select: `if negb (qn =? qb) then qb <? qn else better_than b best` is `ord q b best` *)
Lemma select_is_ord c r e best b q :
  q b = s_q (compute_state c r (e_qs e) b) -> q best = s_q (compute_state c r (e_qs e) best) ->
  select c r e best b = ord q b best.
Proof.
  intros Hb Hbest. unfold select, ord. rewrite Hb, Hbest.
  generalize (s_q (compute_state c r (e_qs e) b)) as qn. generalize (s_q (compute_state c r (e_qs e) best)) as qb.
  intros qb qn. destruct (qn =? qb) eqn:E; cbn [negb].
  - apply N.eqb_eq in E. subst qn. rewrite N.ltb_irrefl. reflexivity.
  - destruct (qb <? qn); reflexivity.
Qed.

Theorem beats_strict_weak_order c r :
  (forall x y, beats c r x y = true -> beats c r y x = false) /\
  (forall x y z, beats c r x z = true -> beats c r x y = true \/ beats c r y z = true) /\
  (forall x y, beats c r x y = false -> beats c r y x = false -> b_id x = b_id y).
Proof.
  split; [|split].
  - intros x y. apply ord_asym.
  - intros x y z. apply ord_cotrans.
  - intros x y H1 H2. exact (proj2 (proj2 (ord_incomparable _ x y H1 H2))).
Qed.

Lemma chain_of_sub_stored r1 r2 x : wf_repo r1 -> wf_repo r2 -> (forall y, In y r1 -> In y r2) -> In x r1 ->
  chain_of r2 (b_id x) = chain_of r1 (b_id x).
Proof. intros W1 W2 Hsub Hin. symmetry. exact (Bft.ProofsTree2.sub_chain r1 r2 x W1 W2 Hsub Hin). Qed.

(* qualities (from the definitions) of stored blocks do not change when the repository grows *)
Lemma qual_sub c r1 r2 x : wf_repo r1 -> wf_repo r2 -> (forall y, In y r1 -> In y r2) -> In x r1 ->
  qual c r2 x = qual c r1 x.
Proof. intros W1 W2 Hsub Hin. unfold qual. rewrite (chain_of_sub_stored r1 r2 x W1 W2 Hsub Hin). reflexivity. Qed.

Lemma beats_sub c r1 r2 x y : wf_repo r1 -> wf_repo r2 -> (forall z, In z r1 -> In z r2) -> In x r1 -> In y r1 ->
  beats c r2 x y = beats c r1 x y.
Proof.
  intros W1 W2 Hsub Hx Hy. unfold beats. rewrite (qual_sub c r1 r2 x W1 W2 Hsub Hx), (qual_sub c r1 r2 y W1 W2 Hsub Hy). reflexivity.
Qed.

Definition blk_of (U : repo) (i : N) : blk := match find_blk U i with Some b => b | None => dummy_blk end.
Definition sbid (i : N) : N := i.
Definition sparent (U : repo) (i : N) : N := b_parent (blk_of U i).
Definition sbetter (c : cfg) (U : repo) (i j : N) : bool := beats c U (blk_of U i) (blk_of U j).
(* the Sync view of a Bft node: the ids of its repository, its best id *)
Definition sync_node (nd : Bft.Model.node) : Sync.Model.node N := Sync.Model.mkNode N (map b_id (n_repo nd)) (n_best nd).

Lemma blk_of_stored U x : wf_repo U -> In x U -> blk_of U (b_id x) = x.
Proof. intros W Hin. unfold blk_of. rewrite (chain_of_stored U x W Hin). reflexivity. Qed.

Lemma sbid_inj : forall x y : N, sbid x = sbid y -> x = y.
Proof. intros x y H. exact H. Qed.

Lemma sbetter_asym c U : forall x y, sbetter c U x y = true -> sbetter c U y x = false.
Proof. intros x y. unfold sbetter. rewrite !beats_is_ord. apply ord_asym. Qed.

Lemma sbetter_cotrans c U : forall x y z, sbetter c U x z = true -> sbetter c U x y = true \/ sbetter c U y z = true.
Proof. intros x y z. unfold sbetter. rewrite !beats_is_ord. apply ord_cotrans. Qed.

(* the order Sync's import runs IS bft.Select of the node, on a block about to be imported: Select is evaluated on the
   repository BEFORE AddBlock with the engine's persisted quality records; under the node invariant it is the universe
   order on ids *)
Theorem select_is_sbetter c U nd b p : 0 < c_L c -> inv c nd -> wf_repo U ->
  (forall x, In x (b :: n_repo nd) -> In x U) ->
  known (n_repo nd) (b_id b) = false -> find_blk (n_repo nd) (b_parent b) = Some p -> b_num b = b_num p + 1 ->
  select c (n_repo nd) (n_eng nd) (best_blk nd) b = sbetter c U (b_id b) (n_best nd).
Proof.
  intros HL I WU Hsub Hfresh Hp Hn.
  pose proof (inv_wf c nd I) as Hwf. pose proof (inv_qs c nd I) as Hqs. destruct (inv_best c nd I) as [bb Hbest].
  set (r := n_repo nd) in *.
  assert (Hwf' : wf_repo (b :: r)).
  { cbn. split; [exact Hwf|]. split; [exact Hfresh|]. destruct r as [|r0 rr]; [discriminate|]. exists p. split; assumption. }
  destruct (find_blk_id _ _ _ Hbest) as [Hbid Hbin].
  assert (Hbb : best_blk nd = bb) by (unfold best_blk; fold r; rewrite Hbest; reflexivity).
  assert (Q1 : s_q (compute_state c r (e_qs (n_eng nd)) b) = qual c (b :: r) b).
  { rewrite (compute_state_pure_lemma c HL r _ b p Hwf Hqs Hp Hn). unfold qual. rewrite chain_of_head. reflexivity. }
  assert (Q2 : s_q (compute_state c r (e_qs (n_eng nd)) bb) = qual c (b :: r) bb).
  { rewrite (compute_state_stored c HL r _ bb Hwf Hqs Hbin). symmetry.
    apply (qual_sub c r (b :: r) bb Hwf Hwf'); [intros y Hy; right; exact Hy | exact Hbin]. }
  rewrite Hbb. rewrite (select_is_ord c r (n_eng nd) bb b (qual c (b :: r)) (eq_sym Q1) (eq_sym Q2)).
  rewrite <- beats_is_ord. unfold sbetter.
  rewrite (blk_of_stored U b WU (Hsub b (or_introl eq_refl))).
  rewrite <- Hbid, (blk_of_stored U bb WU (Hsub bb (or_intror Hbin))).
  symmetry. apply (beats_sub c (b :: r) U b bb Hwf' WU Hsub); [left; reflexivity | right; exact Hbin].
Qed.

Theorem inv_gives_best_max c U nd : inv c nd -> wf_repo U -> (forall x, In x (n_repo nd) -> In x U) ->
  Sync.ProofsDownload.best_max N (sbetter c U) (sync_node nd).
Proof.
  intros I WU Hsub i Hi. cbn [sync_node Sync.Model.store Sync.Model.best] in *.
  apply in_map_iff in Hi. destruct Hi as [x [<- Hx]].
  pose proof (inv_wf c nd I) as Hwf. destruct (inv_best c nd I) as [bb Hbest].
  destruct (find_blk_id _ _ _ Hbest) as [Hbid Hbin].
  assert (Hbb : best_blk nd = bb) by (unfold best_blk; rewrite Hbest; reflexivity).
  unfold sbetter. rewrite (blk_of_stored U x WU (Hsub x Hx)).
  rewrite <- Hbid, (blk_of_stored U bb WU (Hsub bb Hbin)).
  destruct (N.eq_dec (b_id x) (n_best nd)) as [E|E].
  - assert (x = bb).
    { pose proof (chain_of_stored _ x Hwf Hx) as F. rewrite E, Hbest in F. inversion F. reflexivity. }
    subst x. rewrite beats_is_ord. apply ord_irrefl.
  - pose proof (inv_max c nd I x Hx E) as Hm. rewrite Hbb in Hm.
    rewrite <- (beats_sub c (n_repo nd) U bb x Hwf WU Hsub Hbin Hx) in Hm.
    rewrite beats_is_ord in *. apply ord_asym. exact Hm.
Qed.

(* sync_converges_thm at Blk := N (ids in the universe tree U), better := Bft's fork choice, node := the Sync view of a
   Bft node: the three order hypotheses and id-injectivity are gone; the other premises are those of sync_converges *)
Theorem sync_converges_bft_order (c : cfg) (U : repo) (nd : Bft.Model.node) (num : N -> N) (valid : N -> bool)
        (lc rc : list N) (cut : N -> nat) (h : N) (fuel fuel2 : nat) :
  inv c nd -> wf_repo U -> (forall x, In x (n_repo nd) -> In x U) ->
  Sync.ProofsConverge.chain_linked N sbid (sparent U) lc -> Sync.ProofsConverge.chain_linked N sbid (sparent U) rc ->
  (forall b, In b lc -> In b (Sync.Model.store N (sync_node nd))) ->
  Sync.ProofsConverge.same_at N sbid lc rc 0 = true ->
  N.of_nat (length lc - 1) < 2147483648 ->
  (forall n b, nth_error rc n = Some b -> num b = N.of_nat n) ->
  N.of_nat (length rc) < 4294967296 ->
  (forall b, In b rc -> valid b = true) ->
  (forall n, (1 <= cut n <= Sync.Model.max_batch)%nat) ->
  nth_error rc (length rc - 1) = Some h ->
  sbetter c U h (Sync.Model.best N (sync_node nd)) = true ->
  (forall b, In b rc -> b <> h -> sbetter c U h b = true) ->
  (Sync.Model.ancestor_fuel (N.of_nat (length lc - 1)) <= fuel)%nat -> (length rc < fuel2)%nat ->
  exists a l st',
    Sync.Model.find_common_ancestor (fun n => Some (Sync.ProofsConverge.same_at N sbid lc rc n))
      (N.of_nat (length lc - 1)) fuel = Sync.Model.Anc a /\
    Sync.Proofs.is_last (Sync.ProofsConverge.same_at N sbid lc rc) (N.of_nat (length lc - 1)) a /\
    Sync.Model.download_stream N N (fun b => Some (num b)) (fun b => Some b)
      (Sync.ProofsDownload.honest_peer N rc cut) (a + 1) fuel2 = (l, Sync.Model.DlDone) /\
    Sync.Model.import_all N sbid (sparent U) valid (sbetter c U) (sync_node nd) l = (st', true) /\
    Sync.Model.best N st' = h.
Proof.
  intros I WU Hsub Hlc Hrc Hknown Hgen Hhead Hnum Hshort Hvalid Hcut Hlast Hpref Htop Hf Hf2.
  exact (Sync.ProofsConverge.sync_converges_thm N sbid (sparent U) num valid (sbetter c U)
           (sbetter_asym c U) (sbetter_cotrans c U) sbid_inj lc rc Hlc Hrc (sync_node nd)
           (inv_gives_best_max c U nd I WU Hsub) Hknown Hgen Hhead Hnum Hshort Hvalid cut Hcut h Hlast Hpref Htop
           fuel fuel2 Hf Hf2).
Qed.

(* PoA, epoch length 4, 4 proposers: an epoch is justified by more than 4*2/3 = 2 distinct signers.
   common prefix  g - m1 - m2 - m3            (signers 2,3,4: epoch 0 justified, quality 1)
   local branch   m3 - l4 - l5                (one signer, not COM: quality stays 1; total scores 100, 200)
   peer's branch  m3 - m4 - m5 - m6 - m7      (signers 1,2,3,4: justified at m6, quality 2; total scores 4..7) *)
Definition ex_cfg : cfg := mkCfg 4 4 false 0 [].
Definition ex_g : blk := mkB (mkid 0 1) 0 0 false 0.
Definition ex_m (k : N) : blk := mkB (mkid k 1) (mkid (k - 1) 1) (k mod 4 + 1) true k.
Definition ex_l4 : blk := mkB (mkid 4 2) (mkid 3 1) 1 false 100.
Definition ex_l5 : blk := mkB (mkid 5 2) (mkid 4 2) 1 false 200.
Definition ex_U : repo := [ex_m 7; ex_m 6; ex_m 5; ex_m 4; ex_l5; ex_l4; ex_m 3; ex_m 2; ex_m 1; ex_g].
Definition ex_nd : Bft.Model.node :=
  ProofsNode.import_all ex_cfg true (init_node ex_g 1) [ex_m 1; ex_m 2; ex_m 3; ex_l4; ex_l5].
Definition ex_lc : list N := map b_id [ex_g; ex_m 1; ex_m 2; ex_m 3; ex_l4; ex_l5].
Definition ex_rc : list N := map b_id [ex_g; ex_m 1; ex_m 2; ex_m 3; ex_m 4; ex_m 5; ex_m 6; ex_m 7].

Lemma valid_child_by_id r b : idnum (b_id b) = idnum (b_parent b) + 1 -> valid_child r b.
Proof. intros H p Hp. destruct (find_blk_id _ _ _ Hp) as [Hid _]. unfold b_num. rewrite Hid. exact H. Qed.

(* a history from genesis whose blocks all carry their parent's number plus one keeps the node invariant *)
Lemma import_all_inv_by_id c guard g master bs : 0 < c_L c -> b_num g = 0 ->
  forallb (fun b => idnum (b_id b) =? idnum (b_parent b) + 1) bs = true ->
  inv c (ProofsNode.import_all c guard (init_node g master) bs).
Proof.
  intros HL Hg H. apply import_all_inv; [exact HL | apply init_inv; exact Hg |].
  intros nd' b _ Hin. apply valid_child_by_id. apply N.eqb_eq. exact (proj1 (forallb_forall _ _) H b Hin).
Qed.

Fixpoint wf_repob (r : repo) : bool :=
  match r with
  | [] => true
  | b :: rest =>
      wf_repob rest && negb (known rest (b_id b)) &&
      match rest with
      | [] => b_num b =? 0
      | _ => match find_blk rest (b_parent b) with Some p => b_num b =? b_num p + 1 | None => false end
      end
  end.

Lemma wf_repob_sound r : wf_repob r = true -> wf_repo r.
Proof.
  induction r as [|b rest IH]; [exact (fun _ => Logic.I)|]. cbn [wf_repob wf_repo]. rewrite !andb_true_iff, negb_true_iff.
  intros [[Hr Hk] Hp]. split; [exact (IH Hr)|]. split; [exact Hk|]. destruct rest as [|x rest']; [apply N.eqb_eq; exact Hp|].
  destruct (find_blk (x :: rest') (b_parent b)) as [p|]; [|discriminate]. exists p. split; [reflexivity | apply N.eqb_eq; exact Hp].
Qed.

Example ex_inv : inv ex_cfg ex_nd.
Proof. apply import_all_inv_by_id; vm_compute; reflexivity. Qed.

Example ex_wf : wf_repo ex_U.
Proof. apply wf_repob_sound. vm_compute. reflexivity. Qed.

Example ex_incl : forall x, In x (n_repo ex_nd) -> In x ex_U.
Proof.
  assert (E : n_repo ex_nd = [ex_l5; ex_l4; ex_m 3; ex_m 2; ex_m 1; ex_g]) by (vm_compute; reflexivity).
  rewrite E. unfold ex_U. intros x Hx. cbn [In] in *. tauto.
Qed.

(* the node's best is the local head l5 (quality 1, total score 200); the peer's head m7 has quality 2, total score 7:
   it is preferred by QUALITY, against the total score *)
Example ex_wins_by_quality :
  n_best ex_nd = b_id ex_l5 /\
  qual ex_cfg ex_U ex_l5 = 1 /\ qual ex_cfg ex_U (ex_m 7) = 2 /\ b_score (ex_m 7) < b_score ex_l5 /\
  sbetter ex_cfg ex_U (b_id (ex_m 7)) (n_best ex_nd) = true.
Proof. vm_compute. repeat split; reflexivity. Qed.

(* inv_gives_best_max: its hypotheses hold on the instance *)
Example inv_gives_best_max_example :
  Sync.ProofsDownload.best_max N (sbetter ex_cfg ex_U) (sync_node ex_nd).
Proof. exact (inv_gives_best_max ex_cfg ex_U ex_nd ex_inv ex_wf ex_incl). Qed.

(* select_is_sbetter: the node of the example is about to import m4 (parent m3) *)
Example select_is_sbetter_example :
  select ex_cfg (n_repo ex_nd) (n_eng ex_nd) (best_blk ex_nd) (ex_m 4) = sbetter ex_cfg ex_U (b_id (ex_m 4)) (n_best ex_nd).
Proof.
  apply (select_is_sbetter ex_cfg ex_U ex_nd (ex_m 4) (ex_m 3)); try (vm_compute; reflexivity).
  - exact ex_inv.
  - exact ex_wf.
  - intros x [<-|Hx]; [unfold ex_U; cbn [In]; tauto | exact (ex_incl x Hx)].
Qed.

(* sync_converges_bft_order on the instance: every hypothesis is discharged; the search finds height 3, the download
   delivers m4..m7, the import (Bft's order) ends with the peer's head m7 as best *)
Example sync_converges_bft_order_example :
  exists a l st',
    Sync.Model.find_common_ancestor (fun n => Some (Sync.ProofsConverge.same_at N sbid ex_lc ex_rc n)) 5 20 = Sync.Model.Anc a /\
    a = 3 /\ l = map b_id [ex_m 4; ex_m 5; ex_m 6; ex_m 7] /\
    Sync.Model.import_all N sbid (sparent ex_U) (fun _ => true) (sbetter ex_cfg ex_U) (sync_node ex_nd) l = (st', true) /\
    Sync.Model.best N st' = b_id (ex_m 7).
Proof.
  destruct (sync_converges_bft_order ex_cfg ex_U ex_nd idnum (fun _ => true) ex_lc ex_rc (fun _ => 1%nat)
              (b_id (ex_m 7)) 20 20) as [a [l [st' [H1 [H2 [H3 [H4 H5]]]]]]].
  - exact ex_inv.
  - exact ex_wf.
  - exact ex_incl.
  - intros n x y Hy Hx.
    repeat (destruct n as [|n]; cbn in Hy, Hx; try discriminate;
            try (inversion Hy; inversion Hx; subst; vm_compute; reflexivity)).
  - intros n x y Hy Hx.
    repeat (destruct n as [|n]; cbn in Hy, Hx; try discriminate;
            try (inversion Hy; inversion Hx; subst; vm_compute; reflexivity)).
  - assert (E : Sync.Model.store N (sync_node ex_nd) = map b_id [ex_l5; ex_l4; ex_m 3; ex_m 2; ex_m 1; ex_g])
      by (vm_compute; reflexivity).
    rewrite E. intros b Hb. unfold ex_lc in Hb. cbn [map In] in *. tauto.
  - vm_compute. reflexivity.
  - vm_compute. reflexivity.
  - intros n b Hb.
    repeat (destruct n as [|n]; cbn in Hb; try discriminate; try (inversion Hb; subst; vm_compute; reflexivity)).
  - vm_compute. reflexivity.
  - reflexivity.
  - intros n. unfold Sync.Model.max_batch. lia.
  - reflexivity.
  - vm_compute. reflexivity.
  - intros b Hb Hne. unfold ex_rc in Hb. cbn [map In] in Hb.
    destruct Hb as [<-|[<-|[<-|[<-|[<-|[<-|[<-|[<-|[]]]]]]]]]; try (vm_compute; reflexivity).
    contradiction Hne. reflexivity.
  - vm_compute. lia.
  - vm_compute. lia.
  - exists a, l, st'.
    assert (Ea : a = 3).
    { vm_compute in H1. inversion H1. reflexivity. }
    subst a. vm_compute in H3. inversion H3. subst l. repeat split; assumption.
Qed.
