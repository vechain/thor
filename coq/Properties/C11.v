(* Properties/C11.v — the statements of C11, each proved by the lemma of Codec/ it cites (a few follow here in a line
   or two).  "Blocks, transactions and receipts have one canonical encoding bound to
   their id."  `go_decode_* b` is what the real decoders of /repo return on the byte string b (model: Codec/Model.v,
   tied to /repo by the correspondence run); its result is the *parse tree*: the Go object plus, at each rlp:"nil"
   pointer position, which of the two accepted empty forms was read.  `go_reencode_*` is Go's re-encoding.
   `wfp c x` is the well-formedness predicate of codec c.  For the primitive codecs it is a range predicate (c_uint_wf /
   c_uint_wf_inv: wfp (c_uint k) n <-> n < 256^k; arrays have their size; every length below 2^64); for a codec built with
   `cpmap f g` it is SEMANTIC: `wfp c (g y) /\ f (g y) = Some y` ("y is what the validating function f makes of its own
   wire form"), which for reserved / extension unfolds to "at most 2 unused values, tail-trimmed" and for the record
   codecs to "the fields unused by this tx type are 0".  Every object a decoder returns satisfies it (soundness). *)
From Coq Require Import List NArith Bool.
From Verif Require Import Codec.Model Codec.ProofsRLP Codec.ProofsComb Codec.ProofsObjects Codec.ProofsTop
  Codec.ProofsItem Codec.ProofsRaw Codec.ProofsSign Codec.ProofsNorm Codec.ProofsAcc Codec.ProofsBind Codec.ProofsRoot.
From Verif Require Chain.Model Compose.TxIdBind Compose.TxIdBindExamples.
Import ListNotations.
Open Scope N_scope.

(* 1. byte-level core: the stream header parser accepts exactly the canonical headers *)
Theorem rlp_head_canonical b k c r :
  shead b = Some (k, c, r) <-> b = enc_head k c ++ c ++ r /\ hok k c.
Proof. split; [apply shead_sound|]. intros [-> H]. apply shead_complete, H. Qed.

(* generic items (what decodeInterface / the encoder do with nested lists of strings), for all items and inputs *)
Theorem rlp_decode_encode i r : wf_item i -> decode (encode i ++ r) = Some (i, r).
Proof. exact (rlp_decode_encode_l i r). Qed.
Theorem rlp_canonical b i r : decode b = Some (i, r) -> b = encode i ++ r.
Proof. exact (rlp_canonical_l b i r). Qed.

(* 2. transactions (both types): round trip, and decode => re-encode identical, except exactly F2 *)
Theorem tx_roundtrip t : wfp c_tx t -> tx_has_nil_list t = false -> go_decode_tx (go_reencode_tx t) = Some t.
Proof. intros W E. unfold go_reencode_tx. rewrite (proj2 (norm_tx_iff t) E). exact (tx_roundtrip_l t W). Qed.
Theorem tx_decode_encode t : wfp c_tx t -> go_decode_tx (enc c_tx t) = Some t.
Proof. exact (tx_roundtrip_l t). Qed.
Theorem tx_decode_is_encoding b t : go_decode_tx b = Some t -> b = enc c_tx t /\ wfp c_tx t.
Proof. exact (tx_decode_sound_l b t). Qed.
(* the full statement, refuted on the tree as it is (F2: empty list in an rlp:"nil" position); one witness per nil position *)
Definition tx_decode_canonical_statement : Prop :=
  forall b t, go_decode_tx b = Some t -> go_reencode_tx t = b.
Theorem tx_decode_canonical_statement_refuted : ~ tx_decode_canonical_statement.
Proof. exact tx_decode_canonical_statement_refuted_l. Qed.
Theorem tx_nil_ptr_refuted : exists t, go_decode_tx f2_depends_witness = Some t /\ is_nil_list (t_depends t) = true /\
  existsb (fun c => is_nil_list (c_to c)) (t_clauses t) = false /\ go_reencode_tx t <> f2_depends_witness.
Proof. exact tx_depends_nil_refuted_l. Qed.
Theorem tx_clause_nil_ptr_refuted : exists t, go_decode_tx f2_clause_witness = Some t /\ is_nil_list (t_depends t) = false /\
  existsb (fun c => is_nil_list (c_to c)) (t_clauses t) = true /\ go_reencode_tx t <> f2_clause_witness.
Proof. exact tx_clause_nil_refuted_l. Qed.
Theorem tx_decode_canonical_except b t :
  go_decode_tx b = Some t -> tx_has_nil_list t = false ->
  go_reencode_tx t = b /\ lenN (tx_marshal t) = lenN (go_marshal_tx t).
Proof. exact (tx_decode_canonical_except_l b t). Qed.
(* exact characterisation: for every accepted input, Go's re-encoding is the input IFF no rlp:"nil" position held 0xc0;
   the length (hence every Size()) is the canonical one in all cases *)
Theorem tx_decode_canonical_iff b t : go_decode_tx b = Some t -> (go_reencode_tx t = b <-> tx_has_nil_list t = false).
Proof. exact (tx_decode_canonical_iff_l b t). Qed.
Theorem tx_unmarshal_canonical_iff b t : tx_unmarshal b = Some t -> (go_marshal_tx t = b <-> tx_has_nil_list t = false).
Proof. exact (tx_unmarshal_canonical_iff_l b t). Qed.
Theorem tx_reencode_length b t : go_decode_tx b = Some t ->
  lenN (go_reencode_tx t) = lenN b /\ lenN (go_marshal_tx t) = lenN (tx_marshal t).
Proof. exact (tx_reencode_length_l b t). Qed.
(* Transaction.Size(): the value cached by DecodeRLP (ListSize(size) / len(payload)) equals what an empty cache computes *)
Theorem tx_size_cached_is_canonical b t : go_decode_tx b = Some t -> go_tx_size_cached b = go_tx_size_fresh t.
Proof. exact (tx_size_cached_l b t). Qed.
Theorem tx_unmarshal_canonical b t : tx_unmarshal b = Some t ->
  b = tx_marshal t /\ (if t_dyn t then wfp c_dyn t else wfp c_legacy t).
Proof. exact (tx_unmarshal_sound_l b t). Qed.
Theorem tx_unmarshal_roundtrip t : (if t_dyn t then wfp c_dyn t else wfp c_legacy t) -> tx_unmarshal (tx_marshal t) = Some t.
Proof. exact (tx_unmarshal_complete_l t). Qed.

(* 3. headers (after the F3 fix: no exception), receipts, blocks *)
Theorem header_roundtrip h : wfp c_header h -> go_decode_header (go_reencode_header h) = Some h.
Proof. exact (header_roundtrip_l h). Qed.
Theorem header_decode_canonical b h : go_decode_header b = Some h -> go_reencode_header h = b /\ wfp c_header h.
Proof. exact (header_decode_canonical_l b h). Qed.
Theorem header_features_refuted_before_fix :
  exists h, dec_exact (c_header_gen (c_trf_gen false)) f3_witness = Some h /\ enc (c_header_gen (c_trf_gen false)) h <> f3_witness.
Proof. exact header_features_refuted_before_fix_l. Qed.
Theorem header_features_fixed : go_decode_header f3_witness = None.
Proof. exact header_features_fixed_l. Qed.
Theorem receipt_roundtrip r : wfp c_receipt r -> go_decode_receipt (go_reencode_receipt r) = Some r.
Proof. exact (receipt_roundtrip_l r). Qed.
Theorem receipt_decode_canonical b r : go_decode_receipt b = Some r -> go_reencode_receipt r = b /\ wfp c_receipt r.
Proof. exact (receipt_decode_canonical_l b r). Qed.
Theorem receipt_unmarshal_canonical b r : receipt_unmarshal b = Some r -> b = receipt_marshal r /\ wfp (c_receipt_body (rc_dyn r)) r.
Proof. exact (receipt_unmarshal_sound_l b r). Qed.
Theorem receipt_unmarshal_roundtrip r : wfp (c_receipt_body (rc_dyn r)) r -> receipt_unmarshal (receipt_marshal r) = Some r.
Proof. exact (receipt_unmarshal_complete_l r). Qed.
Theorem block_roundtrip b : wfp c_block b -> go_decode_block (enc c_block b) = Some b.
Proof. exact (block_roundtrip_l b). Qed.
Theorem block_decode_canonical_except bs b :
  go_decode_block bs = Some b -> block_has_nil_list b = false -> go_reencode_block b = bs /\ wfp c_block b.
Proof. exact (block_decode_canonical_except_l bs b). Qed.

(* the exception set of blocks is exactly the transaction-level F2 class lifted (block_has_nil_list = existsb tx_has_nil_list) *)
Theorem block_decode_canonical_iff bs b : go_decode_block bs = Some b -> (go_reencode_block b = bs <-> block_has_nil_list b = false).
Proof. exact (block_decode_canonical_iff_l bs b). Qed.
Theorem block_exception_is_lifted_tx_class b : block_has_nil_list b = existsb tx_has_nil_list (b_txs b).
Proof. reflexivity. Qed.
(* Block.Size(): the value cached by Block.DecodeRLP / RawBlock.DecodeRLP equals a fresh Size() and the input length, F2 or not *)
Theorem block_size_cached_is_canonical bs b : go_decode_block bs = Some b ->
  go_block_size_cached bs = go_block_size_fresh b /\ go_block_size_cached bs = lenN bs.
Proof. exact (block_size_cached_l bs b). Qed.

(* IntrinsicGas (uint64 arithmetic with SafeAdd/SafeMul): the exact unbounded sum or the overflow error, never a wrapped value;
   no error for any clause list within the 2500 bound whose data is below 2^56 bytes *)
Theorem intrinsic_gas_exact cl :
  intrinsic_gas cl = if intrinsic_gas_math cl <? u64max1 then Some (intrinsic_gas_math cl) else None.
Proof. exact (intrinsic_gas_exact_l cl). Qed.
Theorem intrinsic_gas_total cl : lenN cl <= max_clauses -> lenN (concat (map c_data cl)) < 2 ^ 56 ->
  exists g, intrinsic_gas cl = Some g /\ g = intrinsic_gas_math cl.
Proof. exact (intrinsic_gas_total_l cl). Qed.

(* trie.DeriveRoot hands the trie the pairs (rlp(i), MarshalBinary(item_i)): the keys are prefix-free, the SET of pairs
   determines the ordered list of values, and the values determine the transactions.  (The trie-side half — equal roots =>
   equal pair sets, C06 trie_canonical — is not part of this file.) *)
Theorem root_keys_prefix_free i j r : i < u64max1 -> j < u64max1 -> enc (c_uint 8) j = enc (c_uint 8) i ++ r -> i = j /\ r = [].
Proof. exact (root_key_prefix_free i j r). Qed.
Theorem root_pairs_determine_list l1 l2 : lenN l1 < u64max1 -> lenN l2 < u64max1 ->
  (forall k v, In (k, v) (root_pairs l1) <-> In (k, v) (root_pairs l2)) -> l1 = l2.
Proof. exact (root_pairs_determine_list_l l1 l2). Qed.
Theorem txs_values_determine l1 l2 : Forall wf_bin l1 -> Forall wf_bin l2 -> map tx_marshal l1 = map tx_marshal l2 -> l1 = l2.
Proof. exact (txs_values_determine_l l1 l2). Qed.

(* the two-phase decode used on the sync path returns exactly what the one-phase decode returns *)
Theorem rawblock_two_phase_agrees b : go_decode_block_raw b = go_decode_block b.
Proof. exact (two_phase_agrees_l b). Qed.
(* Clauses.DecodeRLP: the counting loop only enforces the bound; otherwise it is the plain list decoder *)
Theorem clauses_decoder_is_bounded_slice b l r :
  dec c_clauses b = Some (l, r) <-> dec (cslice c_clause) b = Some (l, r) /\ lenN l <= max_clauses.
Proof.
  split.
  - intros H. pose proof (proj1 c_clauses_ok b l r H) as [Hb [W Hl]]. split; [|exact Hl].
    subst b. exact (proj2 cslice_clause_ok l r W).
  - intros [H Hl]. pose proof (proj1 cslice_clause_ok b l r H) as [Hb W]. subst b.
    exact (proj2 c_clauses_ok l r (conj W Hl)).
Qed.

(* 4. id / hash / root binding, stated on the byte strings the Go code feeds to Blake2b:
        go_signing_tx t            = preimage of Transaction.SigningHash()      (type byte || rlp(signingFields()) of the Go object)
        go_marshal_tx t            = preimage of Transaction.Hash()             (MarshalBinary)
        header_signing_bytes_any h = preimage of Header.SigningHash()           (9 fields, 10 with a base fee)
      (the correspondence run hashes exactly these strings with the real Blake2b and compares with the real accessors).
      signed_part t = the Go object norm_tx t without its signature; header_signed_view h = all fields but the signature,
      the extension only when it carries a base fee. *)
Theorem go_signing_injective t1 t2 : wfp c_tx t1 -> wfp c_tx t2 -> go_signing_tx t1 = go_signing_tx t2 -> signed_part t1 = signed_part t2.
Proof. exact (go_signing_injective_l t1 t2). Qed.
Theorem go_marshal_injective t1 t2 : wfp c_tx t1 -> wfp c_tx t2 -> go_marshal_tx t1 = go_marshal_tx t2 -> norm_tx t1 = norm_tx t2.
Proof. exact (go_marshal_injective_l t1 t2). Qed.
(* both the 9-field and the 10-field form, and no 9-field preimage equals a 10-field one *)
Theorem header_signing_any_injective h1 h2 : wfp c_header h1 -> wfp c_header h2 ->
  header_signing_bytes_any h1 = header_signing_bytes_any h2 -> header_signed_view h1 = header_signed_view h2.
Proof. exact (header_signing_any_injective_l h1 h2). Qed.
Theorem header_view_with_base_fee h : wfp c_header h -> x_basefee (h_ext h) <> None -> header_signed_view h = header_sign_tuple h.
Proof. intros _. exact (view_basefee h). Qed.

(* same hash and id after re-encoding: decoding Go's re-encoding yields the same Go object (even inside the F2 class), and
   the hash / id preimages depend on the parse tree only through that object *)
Theorem tx_reencode_same_object b t : go_decode_tx b = Some t ->
  go_decode_tx (go_reencode_tx t) = Some (norm_tx t) /\
  go_signing_tx (norm_tx t) = go_signing_tx t /\ go_marshal_tx (norm_tx t) = go_marshal_tx t.
Proof. exact (tx_reencode_same_object_l b t). Qed.

(* id / hash corollaries, with Blake2b as an opaque function H.  Two forms:
   (a) Section IdExtract — UNCONDITIONAL: equal signing hash / id / hash => equal signed fields OR an explicit collision of H
       (two different byte strings with the same H value).  This is the form that is meaningful for a real hash.
   (b) Section IdBinding — under the named hypothesis H_inj (H injective on ALL byte strings).  No fixed-length hash satisfies
       H_inj (it is satisfiable only by identity-like functions, cf. ex_id_binding): these corollaries describe an IDEALISED
       collision-free H and are (a) with the collision disjunct assumed away.
   What is and is not bound.  Transaction.ID() = H(signingHash ++ origin) binds every signed field and the origin ADDRESS, not the
   signature bytes (two signatures recovering the same address give the same id; Hash() binds the signature bytes), and only when
   the signature recovers (origin = Some o; otherwise ID() is the zero id and nothing is claimed).  Header.ID() =
   number(4 bytes) ++ H(signingHash ++ signer)[4:] binds all fields but the signature, the extension only with a base fee, and the
   signer ADDRESS — not the signature bytes (an (r, n-s) twin recovering the same signer has the same id) — and the theorems are about
   the hash before the four-byte number overwrite (the real id needs collision-resistance of the remaining 28 bytes). *)
Section IdExtract.
  Variable H : bytes -> bytes.
  Theorem tx_equal_signing_hash_extracts t1 t2 : wfp c_tx t1 -> wfp c_tx t2 ->
    go_tx_signing_hash H t1 = go_tx_signing_hash H t2 -> signed_part t1 = signed_part t2 \/ collision H.
  Proof. exact (tx_signing_hash_extract_l H t1 t2). Qed.
  Theorem tx_equal_id_extracts t1 t2 o1 o2 : wfp c_tx t1 -> wfp c_tx t2 -> length o1 = length o2 ->
    go_tx_id H t1 (Some o1) = go_tx_id H t2 (Some o2) -> signed_part t1 = signed_part t2 \/ collision H.
  Proof. exact (tx_id_extract_l H t1 t2 o1 o2). Qed.
  Theorem tx_equal_hash_extracts t1 t2 : wfp c_tx t1 -> wfp c_tx t2 ->
    go_tx_hash H t1 = go_tx_hash H t2 -> norm_tx t1 = norm_tx t2 \/ collision H.
  Proof. exact (tx_hash_extract_l H t1 t2). Qed.
  Theorem header_equal_signing_hash_extracts h1 h2 : wfp c_header h1 -> wfp c_header h2 ->
    go_header_signing_hash H h1 = go_header_signing_hash H h2 -> header_signed_view h1 = header_signed_view h2 \/ collision H.
  Proof. exact (header_signing_hash_extract_l H h1 h2). Qed.
  Theorem header_equal_id_hash_extracts h1 h2 s1 s2 : wfp c_header h1 -> wfp c_header h2 -> length s1 = length s2 ->
    go_header_id_hash H h1 s1 = go_header_id_hash H h2 s2 -> header_signed_view h1 = header_signed_view h2 \/ collision H.
  Proof. exact (header_id_extract_l H h1 h2 s1 s2). Qed.
  (* the two F2 wire forms of one Go object share signing hash, id and hash for every H *)
  Theorem f2_pair_same_id b t o : go_decode_tx b = Some t ->
    exists t', go_decode_tx (go_reencode_tx t) = Some t' /\ go_tx_id H t' o = go_tx_id H t o /\ go_tx_hash H t' = go_tx_hash H t.
  Proof. exact (f2_pair_same_id_l H b t o). Qed.
End IdExtract.

Section IdBinding.
  Variable H : bytes -> bytes.
  Hypothesis H_inj : forall a b, H a = H b -> a = b.
  Theorem tx_signing_fields_bind_signing_hash t1 t2 : wfp c_tx t1 -> wfp c_tx t2 ->
    signed_part t1 <> signed_part t2 -> go_tx_signing_hash H t1 <> go_tx_signing_hash H t2.
  Proof. exact (tx_signing_hash_binds_l H H_inj t1 t2). Qed.
  Theorem tx_signed_field_change_changes_id t1 t2 o1 o2 : wfp c_tx t1 -> wfp c_tx t2 -> length o1 = length o2 ->
    signed_part t1 <> signed_part t2 -> go_tx_id H t1 (Some o1) <> go_tx_id H t2 (Some o2).
  Proof. exact (tx_id_binds_l H H_inj t1 t2 o1 o2). Qed.
  Theorem tx_hash_commits_to_signature_and_fields t1 t2 : wfp c_tx t1 -> wfp c_tx t2 ->
    norm_tx t1 <> norm_tx t2 -> go_tx_hash H t1 <> go_tx_hash H t2.
  Proof. exact (tx_hash_binds_l H H_inj t1 t2). Qed.
  Theorem header_field_change_changes_signing_hash h1 h2 : wfp c_header h1 -> wfp c_header h2 ->
    header_signed_view h1 <> header_signed_view h2 -> go_header_signing_hash H h1 <> go_header_signing_hash H h2.
  Proof. exact (header_signing_hash_binds_l H H_inj h1 h2). Qed.
  Theorem header_field_change_changes_id_hash h1 h2 s1 s2 : wfp c_header h1 -> wfp c_header h2 -> length s1 = length s2 ->
    header_signed_view h1 <> header_signed_view h2 -> go_header_id_hash H h1 s1 <> go_header_id_hash H h2 s2.
  Proof. exact (header_id_binds_l H H_inj h1 h2 s1 s2). Qed.
End IdBinding.

(* roots: the tree trie.DeriveRoot builds determines the ordered list (trie half: Trie/DeriveRoot.v derive_root_injective_bytes,
   i.e. C06's canonical-trie theorem; codec half: the keys rlp(i) are injective byte strings, the values determine the items).
   The root is the hash of that tree; "equal roots => equal trees" (collision-resistance of the node hash) is NOT part of these
   theorems: they are tree-level statements. *)
(* go_derive_tree inserts and never deletes, whereas Go's trie.Update(k, []) deletes: the model is DeriveRoot only for non-empty
   values, hence the premise (MarshalBinary forms are never empty, so the two corollaries below need no such premise) *)
Theorem derive_tree_injective vals1 vals2 : Forall (fun v => v <> []) vals1 -> Forall (fun v => v <> []) vals2 ->
  lenN vals1 < u64max1 -> lenN vals2 < u64max1 -> go_derive_tree vals1 = go_derive_tree vals2 -> vals1 = vals2.
Proof. intros _ _. exact (derive_tree_injective_l vals1 vals2). Qed.
Theorem txs_root_commits_to_ordered_txs l1 l2 : Forall (wfp c_tx) l1 -> Forall (wfp c_tx) l2 -> lenN l1 < u64max1 -> lenN l2 < u64max1 ->
  go_derive_tree (map go_marshal_tx l1) = go_derive_tree (map go_marshal_tx l2) -> map norm_tx l1 = map norm_tx l2.
Proof. exact (txs_root_tree_binds_l l1 l2). Qed.
Theorem receipts_root_commits_to_ordered_receipts l1 l2 : Forall wf_rbin l1 -> Forall wf_rbin l2 -> lenN l1 < u64max1 -> lenN l2 < u64max1 ->
  go_derive_tree (map go_marshal_receipt l1) = go_derive_tree (map go_marshal_receipt l2) -> l1 = l2.
Proof. exact (receipts_root_tree_binds_l l1 l2). Qed.

(* the same injectivity on the parse trees (wire forms) *)
Theorem tx_signing_fields_injective t1 t2 :
  (if t_dyn t1 then wfp (cwrap dyn_sign_fields) (dyn_sign_tuple t1) else wfp (cwrap legacy_sign_fields) (legacy_sign_tuple t1)) ->
  (if t_dyn t2 then wfp (cwrap dyn_sign_fields) (dyn_sign_tuple t2) else wfp (cwrap legacy_sign_fields) (legacy_sign_tuple t2)) ->
  tx_signing_bytes t1 = tx_signing_bytes t2 ->
  t_dyn t1 = t_dyn t2 /\
  (if t_dyn t1 then dyn_sign_tuple t1 = dyn_sign_tuple t2 else legacy_sign_tuple t1 = legacy_sign_tuple t2).
Proof. exact (tx_signing_injective_l t1 t2). Qed.
Theorem tx_hash_preimage_injective t1 t2 : wfp c_tx t1 -> wfp c_tx t2 -> enc c_tx t1 = enc c_tx t2 -> t1 = t2.
Proof. exact (codec_inj c_tx t1 t2 c_tx_ok). Qed.
Theorem header_fields_injective h1 h2 :
  wfp (cwrap header_sign_fields) (header_sign_tuple h1) -> wfp (cwrap header_sign_fields) (header_sign_tuple h2) ->
  header_signing_bytes h1 = header_signing_bytes h2 -> header_sign_tuple h1 = header_sign_tuple h2.
Proof. exact (header_signing_injective_l h1 h2). Qed.

(* every object a decoder can return satisfies the premises of the injectivity theorems *)
Theorem decoded_tx_signing_wf b t : go_decode_tx b = Some t ->
  if t_dyn t then wfp (cwrap dyn_sign_fields) (dyn_sign_tuple t) else wfp (cwrap legacy_sign_fields) (legacy_sign_tuple t).
Proof. intros H. apply tx_sign_wf. exact (proj2 (tx_decode_sound_l b t H)). Qed.
Theorem decoded_header_signing_wf b h : go_decode_header b = Some h -> wfp (cwrap header_sign_fields) (header_sign_tuple h).
Proof. intros H. apply header_sign_wf. exact (proj2 (header_decode_canonical_l b h H)). Qed.

Definition ex_clause := mkClause (Ptr (repeat 7 20)) 1000000000000000000 [1; 2; 3].
Definition ex_tx_legacy :=
  mkTx false 74 4294967296 720 [ex_clause; mkClause NilStr 0 [96; 128]] 128 0 0 21000 NilStr 12345678 (mkRes 1 []) (repeat 9 130).
Definition ex_tx_dyn :=
  mkTx true 39 4294967296 32 [ex_clause] 0 7 10000000000000 50000 (Ptr (repeat 3 32)) 255 (mkRes 0 [[129; 5]]) (repeat 9 65).
Definition ex_header :=
  mkHeader (repeat 1 32) 1700000000 40000000 (repeat 2 20) 21000 1000 (mkTrf (repeat 3 32) 1) (repeat 4 32) (repeat 5 32)
           (repeat 6 65) (mkExt [1; 2] true (Some 10000000000000)).
Example ex_tx_legacy_wf : wfp c_tx ex_tx_legacy /\ tx_has_nil_list ex_tx_legacy = false.
Proof.
  split; [|reflexivity]. apply (tx_decode_is_encoding (enc c_tx ex_tx_legacy)). vm_compute. reflexivity.
Qed.
Example ex_tx_dyn_wf : wfp c_tx ex_tx_dyn /\ tx_has_nil_list ex_tx_dyn = false.
Proof.
  split; [|reflexivity]. apply (tx_decode_is_encoding (enc c_tx ex_tx_dyn)). vm_compute. reflexivity.
Qed.
Example ex_header_wf : wfp c_header ex_header.
Proof. apply (header_decode_canonical (enc c_header ex_header)). vm_compute. reflexivity. Qed.
Example ex_block_wf : wfp c_block (mkBlock ex_header [ex_tx_legacy; ex_tx_dyn]).
Proof. apply (block_decode_canonical_except (enc c_block (mkBlock ex_header [ex_tx_legacy; ex_tx_dyn]))); vm_compute; reflexivity. Qed.
Example ex_sign_wf :
  wfp (cwrap dyn_sign_fields) (dyn_sign_tuple ex_tx_dyn) /\ wfp (cwrap legacy_sign_fields) (legacy_sign_tuple ex_tx_legacy) /\
  wfp (cwrap header_sign_fields) (header_sign_tuple ex_header).
Proof.
  split; [|split].
  - apply (dec_exact_sound _ (enc (cwrap dyn_sign_fields) (dyn_sign_tuple ex_tx_dyn)) _ (proj1 dyn_sign_ok)). vm_compute. reflexivity.
  - apply (dec_exact_sound _ (enc (cwrap legacy_sign_fields) (legacy_sign_tuple ex_tx_legacy)) _ (proj1 legacy_sign_ok)). vm_compute. reflexivity.
  - apply (dec_exact_sound _ (enc (cwrap header_sign_fields) (header_sign_tuple ex_header)) _ (proj1 header_sign_ok)). vm_compute. reflexivity.
Qed.

Example ex_item_wf : wf_item (Lst [Str [1]; Lst [Str (repeat 7 60); Lst []]; Str []]).
Proof. cbn. unfold two64. repeat split; exact eq_refl. Qed.

Example ex_intrinsic : intrinsic_gas (t_clauses ex_tx_legacy) = Some 69340 /\ lenN (t_clauses ex_tx_legacy) <= max_clauses /\
  lenN (concat (map c_data (t_clauses ex_tx_legacy))) < 2 ^ 56.
Proof. split; [|split]; vm_compute; [reflexivity|discriminate|reflexivity]. Qed.
Definition ex_receipt :=
  mkReceipt true 21000 (repeat 8 20) 210000000000000000 63000000000000000 false
            [mkOutput [mkEvent (repeat 1 20) [repeat 2 32; repeat 3 32] [9; 9]] [mkTransfer (repeat 4 20) (repeat 5 20) 1000]; mkOutput [] []].
Example ex_receipt_wf : wfp c_receipt ex_receipt /\ wf_rbin ex_receipt.
Proof.
  split.
  - apply (receipt_decode_canonical (enc c_receipt ex_receipt)). vm_compute. reflexivity.
  - exact (proj2 (receipt_unmarshal_canonical (receipt_marshal ex_receipt) ex_receipt ltac:(vm_compute; reflexivity))).
Qed.
(* a block-level F2 witness: [header, [tx with 0xc0 as DependsOn]] decodes and re-encodes differently *)
Example ex_block_f2 : exists bs b, go_decode_block bs = Some b /\ block_has_nil_list b = true /\ go_reencode_block b <> bs.
Proof.
  exists (enc c_block (mkBlock ex_header [mkTx false 0 0 0 [] 0 0 0 0 NilList 0 (mkRes 0 []) []])). eexists.
  split; [vm_compute; reflexivity|]. split; [reflexivity|]. vm_compute. discriminate.
Qed.
(* the concrete F2 pair (f2_depends_witness and its re-encoding) decodes to two trees with one id, for every H and origin *)
Example ex_f2_pair_same_id (H : bytes -> bytes) o : exists t t', go_decode_tx f2_depends_witness = Some t /\
  go_reencode_tx t <> f2_depends_witness /\ go_decode_tx (go_reencode_tx t) = Some t' /\ go_tx_id H t' o = go_tx_id H t o.
Proof.
  destruct tx_nil_ptr_refuted as [t [Hd [_ [_ Hn]]]]. destruct (f2_pair_same_id H _ t o Hd) as [t' [H1 [H2 _]]].
  exists t, t'. repeat split; assumption.
Qed.
(* the id-binding hypotheses are satisfiable: an injective toy hash and two transactions differing in one signed field *)
Example ex_id_binding :
  let H := fun b : bytes => b in
  (forall a b, H a = H b -> a = b) /\ wfp c_tx ex_tx_legacy /\ wfp c_tx ex_tx_dyn /\ signed_part ex_tx_legacy <> signed_part ex_tx_dyn /\
  go_tx_id H ex_tx_legacy (Some (repeat 1 20)) <> go_tx_id H ex_tx_dyn (Some (repeat 2 20)).
Proof.
  cbv zeta. assert (Hd : signed_part ex_tx_legacy <> signed_part ex_tx_dyn) by (vm_compute; discriminate).
  split; [auto|]. split; [exact (proj1 ex_tx_legacy_wf)|]. split; [exact (proj1 ex_tx_dyn_wf)|]. split; [exact Hd|].
  apply tx_signed_field_change_changes_id; [auto|exact (proj1 ex_tx_legacy_wf)|exact (proj1 ex_tx_dyn_wf)|reflexivity|exact Hd].
Qed.
Example ex_wf_bin : Forall wf_bin [ex_tx_legacy; ex_tx_dyn].
Proof.
  apply Forall_cons; [|apply Forall_cons; [|apply Forall_nil]].
  - exact (proj2 (tx_unmarshal_canonical (tx_marshal ex_tx_legacy) ex_tx_legacy ltac:(vm_compute; reflexivity))).
  - exact (proj2 (tx_unmarshal_canonical (tx_marshal ex_tx_dyn) ex_tx_dyn ltac:(vm_compute; reflexivity))).
Qed.

Print Assumptions rlp_head_canonical.
Print Assumptions block_exception_is_lifted_tx_class.
Print Assumptions tx_decode_canonical_statement_refuted.
Print Assumptions receipt_unmarshal_canonical.
Print Assumptions receipt_unmarshal_roundtrip.
Print Assumptions tx_reencode_same_object.
Print Assumptions tx_equal_signing_hash_extracts.
Print Assumptions tx_equal_id_extracts.
Print Assumptions tx_equal_hash_extracts.
Print Assumptions header_equal_signing_hash_extracts.
Print Assumptions header_equal_id_hash_extracts.
Print Assumptions f2_pair_same_id.
Print Assumptions go_signing_injective.
Print Assumptions go_marshal_injective.
Print Assumptions header_signing_any_injective.
Print Assumptions header_view_with_base_fee.
Print Assumptions tx_signing_fields_bind_signing_hash.
Print Assumptions tx_signed_field_change_changes_id.
Print Assumptions tx_hash_commits_to_signature_and_fields.
Print Assumptions header_field_change_changes_signing_hash.
Print Assumptions header_field_change_changes_id_hash.
Print Assumptions derive_tree_injective.
Print Assumptions txs_root_commits_to_ordered_txs.
Print Assumptions receipts_root_commits_to_ordered_receipts.
Print Assumptions tx_decode_canonical_iff.
Print Assumptions tx_unmarshal_canonical_iff.
Print Assumptions tx_reencode_length.
Print Assumptions tx_size_cached_is_canonical.
Print Assumptions block_decode_canonical_iff.
Print Assumptions block_size_cached_is_canonical.
Print Assumptions intrinsic_gas_exact.
Print Assumptions intrinsic_gas_total.
Print Assumptions root_keys_prefix_free.
Print Assumptions root_pairs_determine_list.
Print Assumptions txs_values_determine.
Print Assumptions rlp_decode_encode.
Print Assumptions rlp_canonical.
Print Assumptions rawblock_two_phase_agrees.
Print Assumptions clauses_decoder_is_bounded_slice.
Print Assumptions decoded_tx_signing_wf.
Print Assumptions decoded_header_signing_wf.
Print Assumptions tx_roundtrip.
Print Assumptions tx_decode_encode.
Print Assumptions tx_decode_is_encoding.
Print Assumptions tx_nil_ptr_refuted.
Print Assumptions tx_clause_nil_ptr_refuted.
Print Assumptions tx_decode_canonical_except.
Print Assumptions tx_unmarshal_canonical.
Print Assumptions tx_unmarshal_roundtrip.
Print Assumptions header_roundtrip.
Print Assumptions header_decode_canonical.
Print Assumptions header_features_refuted_before_fix.
Print Assumptions header_features_fixed.
Print Assumptions receipt_roundtrip.
Print Assumptions receipt_decode_canonical.
Print Assumptions block_roundtrip.
Print Assumptions block_decode_canonical_except.
Print Assumptions tx_signing_fields_injective.
Print Assumptions tx_hash_preimage_injective.
Print Assumptions header_fields_injective.

(* ================================================================ composition *)
(* C11 <-> C09 (Compose/TxIdBind.v).  C09's chain-level theorems (a transaction is on a chain at most once, inside its window;
   the lookup paths agree) are stated over an abstract universe of transaction records (id, chain tag, block-ref number,
   expiration, depends-on, origin) under the premise "an id determines the record".  For the records of the transactions the
   decoders above return (TxIdBind.view H t o, o the 20 recovered origin bytes) that premise is the id binding of section 4:
   under H_inj equal Transaction.ID()s give equal signed parts, equal origins, hence equal records — the positive form of
   tx_signed_field_change_changes_id, extended to the origin.  Properties/C09.v (13-17) restates C09's theorems with its
   premise replaced by H_inj. *)
Section CompositionC09.
  Variable H : bytes -> bytes.
  Hypothesis H_inj : forall a b, H a = H b -> a = b.
  Theorem tx_id_binds_chain_record t1 t2 o1 o2 : wfp c_tx t1 -> wfp c_tx t2 -> length o1 = length o2 ->
    go_tx_id H t1 (Some o1) = go_tx_id H t2 (Some o2) ->
    signed_part t1 = signed_part t2 /\ o1 = o2 /\ TxIdBind.view H t1 o1 = TxIdBind.view H t2 o2.
  Proof. exact (TxIdBind.id_binds_record H H_inj t1 t2 o1 o2). Qed.
  Theorem decoded_tx_records_determined_by_id : forall r1 r2, TxIdBind.c11_universe H r1 -> TxIdBind.c11_universe H r2 ->
    Chain.Model.tx_id r1 = Chain.Model.tx_id r2 -> r1 = r2.
  Proof. exact (TxIdBind.c11_universe_inj H H_inj). Qed.
End CompositionC09.
(* every decoded transaction has a record in that universe *)
Theorem decoded_tx_has_chain_record H b t o : go_decode_tx b = Some t -> length o = 20%nat ->
  TxIdBind.c11_universe H (TxIdBind.view H t o).
Proof. exact (TxIdBind.decoded_in_universe H b t o). Qed.
(* non-vacuity: the injective toy hash, two decodable transactions with different signed parts and hence different record ids *)
Example ex_chain_record :
  (forall a b, TxIdBindExamples.x_H a = TxIdBindExamples.x_H b -> a = b) /\
  wfp c_tx TxIdBindExamples.x_ta /\ wfp c_tx TxIdBindExamples.x_tb /\
  signed_part TxIdBindExamples.x_ta <> signed_part TxIdBindExamples.x_tb /\
  Chain.Model.tx_id TxIdBindExamples.x_va <> Chain.Model.tx_id TxIdBindExamples.x_vb.
Proof.
  split; [exact TxIdBindExamples.x_H_inj|]. split; [exact (proj1 TxIdBindExamples.x_wf)|].
  split; [exact (proj1 (proj2 TxIdBindExamples.x_wf))|]. exact TxIdBindExamples.x_binding.
Qed.

Print Assumptions tx_id_binds_chain_record.
Print Assumptions decoded_tx_records_determined_by_id.
Print Assumptions decoded_tx_has_chain_record.
Print Assumptions ex_chain_record.
