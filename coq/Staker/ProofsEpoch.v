(* Staker/ProofsEpoch.v — the epoch-boundary step (housekeeping: renewals, the scheduled exit, evictions, activations;
   the PoA->PoS transition) preserves all invariants. *)
From Coq Require Import List NArith Bool Lia.
From Coq Require Import ZifyBool.
From Verif Require Import Common.Util Staker.Model Staker.Base Staker.Lists Staker.Inv Staker.RList Staker.Inv2
  Staker.ProofsStep Staker.ProofsUser Staker.ProofsUser2 Staker.ProofsHist Staker.Held.
Import ListNotations.
Open Scope N_scope.

Opaque e18 two64.

(* the record and the aggregation of an ACTIVE validator are rewritten (renewal): status, exit block, cooldown kept;
   the new weight is consistent with the new locked stake and the new aggregation *)
Lemma Inv2w_active_upd s a v v' x :
  Inv2w s -> getv s a = Some v -> v_status v = StatusActive ->
  v_status v' = v_status v -> v_exit v' = v_exit v -> v_cooldown v' = v_cooldown v ->
  v_weight v' = calc_weight (v_locked v') (v_multiplier v') + a_lw x -> v_punlock v' + 1 <= v_locked v' ->
  Inv2w (set_agg a x (setv a v' s)).
Proof.
  intros H Hv Hact Es Ex Ec Ew Ep. set (s' := set_agg a x (setv a v' s)).
  assert (Oc : forall b, b <> a -> ocore s' b = ocore s b) by (intros b Hne; apply (ocore_setv_other s); auto).
  assert (Ga : getv s' a = Some v') by apply getv_setv_same.
  apply (Inv2w_frame s s' a); auto.
  - intros b Hne. apply lview_eq; auto. apply (get_agg_upd_other s s' a x); auto.
  - unfold addr_ok. rewrite Ga. unfold s'. rewrite get_agg_set_agg, N.eqb_refl.
    destruct (addr_ok_some s a v (proj1 H a) Hv) as [R1 [R2 _]].
    split; [rewrite Es; auto|]. split; [rewrite Es, Ec; auto|]. split; [auto|].
    split; intros E; rewrite Es, Hact in E; [contradiction|discriminate].
  - apply (ren_active_frame s s' a); auto; [apply H|]. intros y Hy Hs. exists v'. split; congruence.
  - apply (exit_ok_frame s s' a); auto; [apply H|apply N.le_refl|].
    intros y b Hy Hs Hb _. exists v'. assert (y = v) by congruence. subst y. repeat split; congruence.
  - apply (dv_ok_frame s); [apply H|auto|apply (ocore_dom _ _ a); auto; congruence].
Qed.

(* Full with the accumulated renewal acc not yet applied to the counters: Inv1 and the total-weight equation hold up to
   acc, and what acc adds to locked it takes from queued (li_iq) *)
Record LoopInv (acc : renewal) (s : st) (la lq : list N) : Prop := mkLoop {
  li_wf : WF s la lq; li_a : InvA s; li_2 : Inv2w s;
  li_lv : g_lv s + r_inc_v acc = sumf v_locked (vals s) + sumf a_lv (aggs s) + r_dec_v acc;
  li_q : g_q s = sumf v_queued (vals s) + sumf a_pv (aggs s) + r_qdec acc;
  li_cd : g_cd s = sumf v_cooldown (vals s);
  li_wd : g_wd s + sumf a_lv (aggs s) + sumf a_pv (aggs s) + r_dec_v acc = sumf v_withdrawable (vals s) + sumf d_stake (dels s);
  li_eff : eff s = (g_lv s + g_q s + g_wd s + g_cd s) * e18;
  li_bal : eff s <= bal s;
  li_ctr : forall id d, get (dels s) id = Some d -> id <= del_ctr s;
  li_lw : g_lw s + r_inc_w acc = sumf v_weight (vals s) + r_dec_w acc;
  li_iq : r_inc_v acc = r_qdec acc }.

Lemma renewal_add_ok r o r' : renewal_add r o = Ok r' ->
  r_inc_v r' = r_inc_v r + r_inc_v o /\ r_inc_w r' = r_inc_w r + r_inc_w o /\ r_dec_v r' = r_dec_v r + r_dec_v o /\
  r_dec_w r' = r_dec_w r + r_dec_w o /\ r_qdec r' = r_qdec r + r_qdec o.
Proof.
  unfold renewal_add. intros H. bstep H i Hi. destruct i as [iv iw]. bstep H d Hd. destruct d as [dv dw]. bstep H q Hq.
  inversion H; subst; cbn. apply ws_add_ok in Hi, Hd. cbn in Hi, Hd. gfacts. intuition.
Qed.

Lemma renew_step acc s la lq a v s1 ar dw acc1 s2 vr acc2 :
  LoopInv acc s la lq -> getv s a = Some v -> v_status v = StatusActive ->
  aggs_renew a s = Ok (s1, ar, dw) -> renewal_add acc ar = Ok acc1 ->
  svc_renew a dw s1 = Ok (s2, vr) -> renewal_add acc1 vr = Ok acc2 ->
  LoopInv acc2 (rl_remove a s2) la lq /\
  (forall b, b <> a -> getv (rl_remove a s2) b = getv s b) /\
  (exists v2, getv (rl_remove a s2) a = Some v2 /\ v_status v2 = StatusActive /\ v_exit v2 = v_exit v /\ held v2 = held v).
Proof.
  intros [Hwf HA H2 L1 L2 L3 L4 L5 L6 L7 L8 L9] Hv Hact Hag Hacc1 Hsv Hacc2.
  unfold aggs_renew, agg_renew in Hag. bstep Hag r0 Hr0. destruct r0 as [a' ar0].
  bstep Hr0 l1 Hl1. destruct l1 as [lv lw]. bstep Hr0 l2 Hl2. destruct l2 as [lv2 lw2].
  inversion Hr0; subst a' ar0; clear Hr0. inversion Hag; subst s1 ar dw; clear Hag.
  apply ws_add_ok in Hl1. apply ws_sub_ok in Hl2. cbn [fst snd] in Hl1, Hl2.
  destruct Hl1 as [Elv Elw]. destruct Hl2 as [Elv2 [Elw2 [Lev Lew]]].
  set (ag := get_agg s a) in *. set (a' := mkA lv2 lw2 0 0 0 0) in *.
  unfold svc_renew in Hsv. bstep Hsv v0 Hv0. unfold get_existing in Hv0. apply of_opt_ok in Hv0.
  change (getv (set_agg a a' s) a) with (getv s a) in Hv0. assert (v0 = v) by congruence. subst v0.
  bstep Hsv r1 Hr1. destruct r1 as [v1 vr1]. inversion Hsv; subst s2 vr; clear Hsv.
  unfold v_renew in Hr1. bstep Hr1 l1 Hl1. apply of_opt_ok, safe_sub_some in Hl1. destruct Hl1 as [El1 Lpu].
  inversion Hr1; subst v1 vr1; clear Hr1. cbn [a_lw a'] in *.
  set (prevw := calc_weight (v_locked v) (v_multiplier v)) in *.
  set (mult' := if 0 <? lw2 then MultiplierWithDelegations else Multiplier) in *.
  set (afterw := calc_weight l1 mult') in *.
  set (v1 := set_amounts l1 0 0 (v_cooldown v) (v_withdrawable v + v_punlock v) (afterw + lw2) v) in *.
  destruct (renewal_add_ok _ _ _ Hacc1) as [A1 [A2 [A3 [A4 A5]]]]. cbn [r_inc_v r_inc_w r_dec_v r_dec_w r_qdec] in A1, A2, A3, A4, A5.
  destruct (renewal_add_ok _ _ _ Hacc2) as [B1 [B2 [B3 [B4 B5]]]]. cbn [r_inc_v r_inc_w r_dec_v r_dec_w r_qdec] in B1, B2, B3, B4, B5.
  (* the old weight *)
  destruct (addr_ok_some s a v (proj1 H2 a) Hv) as [_ [_ [W1 _]]]. destruct (W1 Hact) as [Wold Pold]. fold ag prevw in Wold.
  set (s2 := setv a v1 (set_agg a a' s)) in *.
  assert (Es2 : s2 = set_agg a a' (setv a v1 s)) by reflexivity.
  assert (K : links_status_kept s s2).
  { apply (kept_trans _ (setv a v1 s)); [apply kept_setv with (v := v); auto|apply kept_same_vals; reflexivity]. }
  pose proof (sum_setv v_locked a v v1 s Hv) as S1. pose proof (sum_setv v_queued a v v1 s Hv) as S2.
  pose proof (sum_setv v_cooldown a v v1 s Hv) as S3. pose proof (sum_setv v_withdrawable a v v1 s Hv) as S4.
  pose proof (sum_setv v_weight a v v1 s Hv) as S5.
  pose proof (sum_set_agg a_lv a a' s eq_refl) as G1. pose proof (sum_set_agg a_pv a a' s eq_refl) as G2.
  fold ag in G1, G2. cbn [v1 a' v_locked v_queued v_cooldown v_withdrawable v_weight set_amounts a_lv a_pv vals aggs setv set_agg w_vals w_aggs] in S1, S2, S3, S4, S5, G1, G2.
  assert (Hmult : v_weight v1 = calc_weight (v_locked v1) (v_multiplier v1) + lw2 /\ v_punlock v1 + 1 <= v_locked v1).
  { split; [|cbn [v1 v_locked v_punlock set_amounts]; lia].
    apply (weight_multiplier l1 lw2 (0 <? lw2)); [intros E; apply N.ltb_lt in E|intros E; apply N.ltb_ge in E]; lia. }
  destruct Hmult as [Hm1 Hm2].
  assert (R : ren_only s2 (rl_remove a s2)) by apply rl_remove_only.
  destruct (ren_only_fields _ _ R) as [E1 [E2 [E3 [E4 [E5 E6]]]]].
  assert (Eglob : g_lv (rl_remove a s2) = g_lv s /\ g_q (rl_remove a s2) = g_q s /\ g_cd (rl_remove a s2) = g_cd s /\
                  g_wd (rl_remove a s2) = g_wd s /\ eff (rl_remove a s2) = eff s /\ bal (rl_remove a s2) = bal s /\
                  del_ctr (rl_remove a s2) = del_ctr s /\ act (rl_remove a s2) = act s /\ que (rl_remove a s2) = que s).
  { rewrite R. repeat split. }
  destruct Eglob as [F1 [F2 [F3 [F4 [F5 [F6 [F7 [F8 F9]]]]]]]].
  split; [|split].
  - constructor.
    + apply (WF_frame s2); auto; [|apply kept_same_vals; auto]. apply (WF_frame s); auto.
    + apply (InvA_frame2 s).
      * exact HA.
      * apply (kept_trans _ s2); auto. apply kept_same_vals; auto.
      * intros b Hb. unfold get_agg. rewrite E2. change (aggs s2) with (upd (aggs s) a a'). rewrite get_upd.
        destruct (a =? b) eqn:E; auto. apply N.eqb_eq in E. subst b. exfalso. apply (Hb v Hv). exact Hact.
    + apply Inv2w_rl_remove. rewrite Es2. apply (Inv2w_active_upd s a v v1 a'); auto.
    + rewrite F1, E1, E2. cbn [vals aggs s2 setv set_agg w_vals w_aggs]. lia.
    + rewrite F2, E1, E2. cbn [vals aggs s2 setv set_agg w_vals w_aggs]. lia.
    + rewrite F3, E1. cbn [vals s2 setv set_agg w_vals w_aggs]. lia.
    + rewrite F4, E1, E2, E3. cbn [vals aggs dels s2 setv set_agg w_vals w_aggs]. lia.
    + rewrite F5, F1, F2, F3, F4. exact L5.
    + rewrite F5, F6. exact L6.
    + intros id d. rewrite E3, F7. apply L7.
    + rewrite E6, E1. cbn [vals s2 setv set_agg w_vals w_aggs g_lw].
      pose proof (sumf_get_le v_weight (vals s) a v Hv) as Wle.
      unfold prevw in *. destruct (calc_weight (v_locked v) (v_multiplier v) <? afterw) eqn:Ecmp;
        [apply N.ltb_lt in Ecmp|apply N.ltb_ge in Ecmp]; lia.
    + lia.
  - intros b Hne. unfold getv. rewrite E1. change (get (vals s2) b) with (getv (setv a v1 (set_agg a a' s)) b).
    rewrite getv_setv_other by auto. reflexivity.
  - exists v1. unfold getv. rewrite E1. change (get (vals s2) a) with (getv (setv a v1 (set_agg a a' s)) a).
    rewrite getv_setv_same. split; auto. split; auto. split; auto. unfold held. cbn [v1 v_locked v_queued v_cooldown v_withdrawable set_amounts]. lia.
Qed.

Definition is_active (s : st) (a : N) : Prop := exists v, getv s a = Some v /\ v_status v = StatusActive.

Lemma apply_renewals_ok l : forall acc s la lq s' acc',
  LoopInv acc s la lq -> (forall a, In a l -> is_active s a) ->
  apply_renewals l acc s = Ok (s', acc') ->
  LoopInv acc' s' la lq /\
  (forall b, ~ In b l -> getv s' b = getv s b) /\
  (forall b v, getv s b = Some v -> exists v', getv s' b = Some v' /\ v_status v' = v_status v /\ v_exit v' = v_exit v /\ held v' = held v).
Proof.
  induction l as [|a t IH]; intros acc s la lq s' acc' HL Hact H.
  - cbn in H. inversion H; subst. split; auto. split; auto. intros b v Hv. eauto.
  - cbn [apply_renewals] in H. bstep H r1 Hr1. destruct r1 as [[s1 ar] dw]. bstep H acc1 Ha1.
    bstep H r2 Hr2. destruct r2 as [s2 vr]. bstep H acc2 Ha2.
    destruct (Hact a (or_introl eq_refl)) as [v [Hv Hs]].
    destruct (renew_step acc s la lq a v s1 ar dw acc1 s2 vr acc2 HL Hv Hs Hr1 Ha1 Hr2 Ha2) as [HL2 [Hoth [v2 [Hv2 [Hs2 [Hx2 Hh2]]]]]].
    destruct (IH acc2 (rl_remove a s2) la lq s' acc' HL2) as [HL3 [Hfr Hst]]; auto.
    + intros b Hb. destruct (N.eq_dec b a) as [->|Hne]; [exists v2; auto|].
      destruct (Hact b (or_intror Hb)) as [vb [Hvb Hsb]]. exists vb. rewrite Hoth; auto.
    + split; auto. split.
      * intros b Hb. rewrite Hfr by (intros Hx; apply Hb; right; auto). apply Hoth. intros ->. apply Hb. left; auto.
      * intros b vb Hvb. destruct (N.eq_dec b a) as [->|Hne].
        -- assert (vb = v) by congruence. subst vb. destruct (Hst a v2 Hv2) as [v3 [Hv3 [E1 [E2 E3]]]]. exists v3. repeat split; congruence.
        -- rewrite <- (Hoth b Hne) in Hvb. apply (Hst b vb Hvb).
Qed.

(* closing the loop: the accumulated renewal is applied to the global counters *)
Lemma apply_renewal_closes acc s la lq s' :
  LoopInv acc s la lq -> apply_renewal acc s = Ok s' ->
  WF s' la lq /\ Inv1 s' /\ InvA s' /\ Inv2 s' /\ (forall b, getv s' b = getv s b) /\ exits s' = exits s /\ blk s' = blk s.
Proof.
  intros [Hwf HA H2 L1 L2 L3 L4 L5 L6 L7 L8 L9] H. unfold apply_renewal in H.
  bstep H l1 Hl1. bstep H l2 Hl2. destruct l2 as [lv lw]. bstep H s1 Hs1.
  apply ws_add_ok in Hl1. apply ws_sub_ok in Hl2. cbn [fst snd] in Hl1, Hl2. destruct Hl1 as [P1 P2]. destruct Hl2 as [Q1 [Q2 [Q3 Q4]]].
  unfold remove_queued in Hs1. bstep Hs1 q Hq. inversion Hs1; subst s1; clear Hs1.
  unfold add_withdrawable in H. bstep H w Hw. inversion H; subst s'; clear H. gfacts. cbn in *.
  split; [apply (WF_same_vals s); auto|]. split; [|split; [|split; [|auto]]].
  - constructor; cbn; auto; try lia. rewrite L5. f_equal. lia.
  - apply (InvA_frame s); auto. apply kept_same_vals; reflexivity.
  - apply Inv2_iff. split; [|cbn; lia]. apply (Inv2w_change_ren s); auto; [apply N.le_refl|apply (ren_active_ext s); auto; apply H2].
Qed.

Record Full (s : st) (la lq : list N) : Prop := mkFull {
  f_wf : WF s la lq; f_1 : Inv1 s; f_a : InvA s; f_2 : Inv2 s }.

Lemma exit_step s la lq a v eb s2a ve s2b ae s' :
  Full s la lq -> getv s a = Some v -> v_status v = StatusActive -> v_exit v = Some eb -> eb <= blk s ->
  svc_exit_validator a s = Ok (s2a, ve) -> aggs_exit a s2a = (s2b, ae) -> apply_exit ve ae s2b = Ok s' ->
  exists l1 l2, la = l1 ++ a :: l2 /\ Full s' (l1 ++ l2) lq /\
    (forall b x, b <> a -> getv s b = Some x -> exists x', getv s' b = Some x' /\ core x' = core x) /\
    exits s' = exits s /\ blk s' = blk s /\ mbp s' = mbp s /\ (forall x, held_by s' x = held_by s x).
Proof.
  intros [Hwf Hi HA H2] Hv Hact Hex Heb Hr Hae H. pose proof Hi as [I1 I2 I3 I4 I5 I6 I7].
  unfold svc_exit_validator in Hr.
  bstep Hr v0 Hv0. unfold get_existing in Hv0. apply of_opt_ok in Hv0. assert (v0 = v) by congruence. subst v0.
  unfold v_exit_now in Hr. bstep Hr r1 Hrm. destruct r1 as [s1 e1]. inversion Hr; subst s2a ve; clear Hr.
  set (v1 := set_status StatusExit (set_amounts 0 0 0 (v_locked v) (v_withdrawable v + v_queued v) 0 v)) in *.
  assert (Hin : In a la) by (apply (wf_st _ _ _ Hwf a v Hv); auto).
  destruct (WF_remove true s la lq a v1 s1 e1 v Hwf Hrm Hv Hin eq_refl eq_refl eq_refl)
    as [l1 [l2 [El [Hwf1 [Hlo [Hga [Hce [Hco [Hsum Hno]]]]]]]]].
  exists l1, l2. split; auto.
  destruct (lists_only_ex _ _ Hlo) as [vs1 [a1 [q1 Es1]]]. subst s1. set (s1 := w_vals vs1 (w_act a1 (w_que q1 s))) in *.
  set (sr := rl_remove a s1) in *.
  assert (R : ren_only s1 sr) by apply rl_remove_only.
  destruct (ren_only_fields _ _ R) as [E1 [E2 [E3 [E4 [E5 E6]]]]].
  unfold aggs_exit in Hae. inversion Hae; subst s2b ae; clear Hae.
  assert (Eag : get_agg sr a = get_agg s a).
  { unfold get_agg. rewrite E2. reflexivity. }
  rewrite Eag in H. set (ag := get_agg s a) in *.
  set (sx := set_agg a agg0 sr) in *.
  destruct (j_w1 _ H2 a v Hv Hact) as [Wold Pold]. fold ag in Wold.
  assert (Cold : v_cooldown v = 0) by (apply (j_cd _ H2 a v Hv); rewrite Hact; discriminate).
  unfold apply_exit in H. cbn [e_v e_w e_qdec] in H.
  bstep H tot Htot. apply ws_add_ok in Htot. cbn [fst snd] in Htot. destruct tot as [tv tw]. cbn [fst snd] in *. destruct Htot as [Etv Etw].
  bstep H sa Ha. bstep H sb Hb. bstep H sc Hc.
  assert (Htv : (0 <? tv) = true) by (apply N.ltb_lt; lia). rewrite Htv in Ha.
  unfold remove_locked in Ha. bstep Ha lw Hlw. destruct lw as [nlv nlw]. inversion Ha; subst sa; clear Ha.
  apply ws_sub_ok in Hlw. cbn [fst snd] in Hlw. destruct Hlw as [Enlv [Enlw [Llv Llw]]].
  apply cond_remove_q in Hb as [-> Lq]. apply cond_add_cd in Hc as ->. apply cond_add_wd in H as ->.
  assert (Px : vals sr = vals s1 /\ aggs sr = aggs s /\ dels sr = dels s /\ exits sr = exits s /\ blk sr = blk s /\
               g_lv sr = g_lv s /\ g_lw sr = g_lw s /\ g_q sr = g_q s /\ g_wd sr = g_wd s /\ g_cd sr = g_cd s /\
               eff sr = eff s /\ bal sr = bal s /\ del_ctr sr = del_ctr s /\ act sr = act s1 /\ que sr = que s1 /\ mbp sr = mbp s).
  { rewrite R. repeat split. }
  destruct Px as [X1 [X2 [X3 [X4 [X5 [X6 [X7 [X8 [X9 [X10 [X11 [X12 [X13 [X14 [X15 X16]]]]]]]]]]]]]]].
  set (s' := w_glob _ _ _ _ _ (w_glob _ _ _ _ _ (w_glob _ _ _ _ _ (w_glob _ _ _ _ _ sx)))) in *.
  destruct (core_sums _ Hsum) as [S1 [S2 [S3 [S4 S5]]]]. cbn beta in S1, S2, S3, S4, S5.
  cbn [v1 v_locked v_queued v_cooldown v_withdrawable v_weight set_status set_amounts] in S1, S2, S3, S4, S5.
  assert (A1 : sumf a_lv (upd (aggs s) a agg0) + a_lv ag = sumf a_lv (aggs s)).
  { pose proof (sum_set_agg a_lv a agg0 s eq_refl) as A. cbn in A. fold ag in A. rewrite N.add_0_r in A. exact A. }
  assert (A2 : sumf a_pv (upd (aggs s) a agg0) + a_pv ag = sumf a_pv (aggs s)).
  { pose proof (sum_set_agg a_pv a agg0 s eq_refl) as A. cbn in A. fold ag in A. rewrite N.add_0_r in A. exact A. }
  assert (Gv : forall b, getv s' b = getv s1 b) by (intros; unfold getv, s'; cbn; rewrite ?X1, ?E1; reflexivity).
  assert (Crel : core_rel s s' a).
  { intros b Hne. rewrite Gv. split; [apply (Hno b Hne)|intros y Hy; apply (Hco b y Hne Hy)]. }
  destruct (core_eq _ _ Hce) as [Cs [Cc [Cw [Cl [Cp [Cq Cx]]]]]].
  split; [|split; [|split; [|split; [|split]]]].
  - constructor.
    + apply (WF_same_vals s1); auto; unfold s'; cbn; auto.
    + clear - I1 I2 I3 I4 I5 I6 I7 X1 X2 X3 X6 X7 X8 X9 X10 X11 X12 X13 S1 S2 S3 S4 A1 A2 Etv Enlv Llv Lq Cold.
      unfold s'. constructor; cbn; rewrite ?X1, ?X2, ?X3, ?X6, ?X7, ?X8, ?X9, ?X10, ?X11, ?X12, ?X13 in *; cbn in *; try lia; auto.
      rewrite I5. f_equal. lia.
    + intros b Hb. unfold get_agg, s'. cbn. rewrite X2, get_upd. destruct (a =? b) eqn:E; [reflexivity|].
      apply N.eqb_neq in E. apply HA. intros y Hy. destruct (Hco b y (fun e => E (eq_sym e)) Hy) as [y' [Hy' Ec]].
      rewrite <- (core_status _ _ Ec). apply (Hb y'). rewrite Gv. exact Hy'.
    + apply (Inv2_to_exit s s' a v e1); auto.
      * rewrite Gv. exact Hga.
      * unfold s'. cbn. rewrite X2. reflexivity.
      * unfold s'. cbn. rewrite ?X7 in *. cbn in *. lia.
      * unfold s'. cbn. rewrite X1. lia.
      * intros b Hb Hg. destruct (N.eq_dec a 0); auto. destruct (j_exit _ H2 b a Hg n Hb) as [y [Hy [_ Hey]]].
        assert (y = v) by congruence. subst y. rewrite Hex in Hey. inversion Hey. lia.
      * destruct (j_ren _ H2) as [lr [RW A]].
        assert (RW1 : RWF s1 lr).
        { apply (RWF_ext s _ lr); auto. }
        destruct (rl_remove_not_member s1 a lr RW1) as [lr' [RW' [Hn Hsub]]]. exists lr'. split.
        -- apply (RWF_ext sr _ lr'); auto; unfold s', sx; reflexivity.
        -- intros b Hb. split; [intros ->; contradiction|apply A; auto].
  - intros b x Hne Hx. rewrite Gv. apply (Hco b x Hne Hx).
  - unfold s'. cbn. rewrite X4. reflexivity.
  - unfold s'. cbn. rewrite X5. reflexivity.
  - unfold s'. cbn. rewrite X16. reflexivity.
  - intros x. destruct (N.eq_dec x a) as [->|Hne].
    + unfold held_by. rewrite Gv, Hga, Hv. rewrite (core_held _ _ Hce). unfold held. cbn. lia.
    + unfold held_by. destruct (getv s x) as [y|] eqn:Ey.
      * destruct (proj2 (Crel x Hne) y Ey) as [y' [Hy' Ec]]. rewrite Hy'. apply core_held; auto.
      * rewrite (proj1 (Crel x Hne) Ey). reflexivity.
Qed.

Definition evictable_now (s : st) (a : N) : Prop :=
  exists v, getv s a = Some v /\ v_status v = StatusActive /\ v_exit v = None.

Lemma apply_evictions_ok c b l : forall s la lq s',
  Full s la lq -> NoDup l -> (forall a, In a l -> evictable_now s a) ->
  apply_evictions c b l s = Ok s' ->
  (exists lq', Full s' la lq') /\ blk s' = blk s /\ mbp s' = mbp s /\
  (forall x y, getv s x = Some y -> exists y', getv s' x = Some y' /\ v_status y' = v_status y) /\
  (forall x, held_by s' x = held_by s x).
Proof.
  induction l as [|a t IH]; intros s la lq s' HF Hnd Hev H.
  - cbn in H. inversion H; subst. split; [exists lq; auto|]. split; auto. split; auto. split; auto. intros x y Hy. eauto.
  - cbn [apply_evictions] in H. bstep H s1 Hs1.
    destruct (Hev a (or_introl eq_refl)) as [v [Hv [Hact Hex]]].
    apply svc_signal_exit_shape in Hs1; [|discriminate]. destruct Hs1 as [v2 [eb [cur [Hv2 [Hfree E1]]]]].
    assert (v2 = v) by congruence. subst v2.
    destruct HF as [Hwf Hi HA H2].
    destruct (signal_exit_shape_ok s s1 a v eb cur la lq Hv E1 Hwf Hi HA) as [lq1 [W1 [I1 [_ A1]]]].
    assert (J1 : Inv2 s1) by (rewrite E1; apply Inv2_signal_exit; auto).
    apply NoDup_cons_iff in Hnd as [Hna Hnd'].
    assert (Gx : forall x, x <> a -> getv s1 x = getv s x).
    { intros x Hne. rewrite E1. rewrite getv_setv_other by auto. reflexivity. }
    destruct (IH s1 la lq1 s') as [F' [B' [M' [St' Hh']]]]; auto.
    + constructor; auto.
    + intros x Hx. destruct (Hev x (or_intror Hx)) as [y [Hy [Hs He]]]. exists y. rewrite Gx; auto. intros ->. contradiction.
    + split; auto. rewrite B', M', E1. cbn. split; auto. split; auto. split;
        [|intros x; rewrite Hh', E1; apply (held_by_setv_same_held a v _ (w_exits (upd (exits s) eb a) s)); auto].
      intros x y Hy. destruct (N.eq_dec x a) as [->|Hne].
      * assert (y = v) by congruence. subst y.
        destruct (St' a (set_completed cur (set_exit (Some eb) v))) as [y' [Hy' Es]]; [rewrite E1; apply getv_setv_same|].
        exists y'. split; auto.
      * rewrite <- (Gx x Hne) in Hy. apply (St' x y Hy).
Qed.

Lemma Inv2_activate s s' h v e' x :
  Inv2 s -> core_rel s s' h -> getv s h = Some v -> v_status v = StatusQueued -> getv s' h = Some e' ->
  v_status e' = StatusActive -> v_cooldown e' = v_cooldown v ->
  v_locked e' = v_queued v -> v_punlock e' = v_punlock v ->
  aggs s' = upd (aggs s) h x ->
  v_weight e' = calc_weight (v_locked e') (v_multiplier e') + a_lw x ->
  dels s' = dels s -> exits s' = exits s -> blk s' = blk s ->
  rh s' = rh s -> rt s' = rt s -> rprev s' = rprev s -> rnext s' = rnext s ->
  g_lw s' = g_lw s + v_weight e' -> sumf v_weight (vals s') = sumf v_weight (vals s) + v_weight e' ->
  Inv2 s'.
Proof.
  intros H C Hv Hq He' Est Ecd El Epu Eag Ew Ed Eexs Eb R1 R2 R3 R4 Eg Esum.
  pose proof (core_rel_ocore _ _ _ C) as OC.
  assert (Hna : forall y, getv s h = Some y -> v_status y = StatusActive -> False)
    by (intros y Hy; assert (y = v) by congruence; subst; rewrite Hq; discriminate).
  apply (Inv2_frame s s' h); auto.
  - intros a Hne. apply lview_eq; auto. apply (get_agg_upd_other s s' h x); auto.
  - unfold addr_ok. rewrite He', (get_agg_upd_same _ _ _ _ Eag).
    destruct (j_q _ H h v Hv Hq) as [Q1 [Q2 [_ [_ Q5]]]]. pose proof (j_cd _ H h v Hv ltac:(rewrite Hq; discriminate)).
    split; [auto|]. split; [intros _; congruence|]. split; [intros _; split; [exact Ew|lia]|].
    split; intros E; rewrite Est in E; [exfalso; auto|discriminate].
  - apply (ren_active_frame s s' h); auto; [apply (j_ren _ H)|]. intros y Hy Hs. destruct (Hna y Hy Hs).
  - apply (exit_ok_frame s s' h); auto; [exact (j_exit _ H)|lia|]. intros y b Hy Hs. destruct (Hna y Hy Hs).
  - rewrite Eg, Esum, (j_lw _ H). reflexivity.
  - apply (dv_ok_frame s); [exact (j_dv _ H)|rewrite Ed; auto|apply (ocore_dom _ _ h); auto; congruence].
Qed.

Lemma activate_step b mx s la lq s' :
  Full s la lq -> activate_next b mx s = Ok s' ->
  exists h lq', Full s' (la ++ [h]) lq' /\ In h lq /\ ~ In h la /\ blk s' = blk s /\ mbp s' = mbp s /\
    (forall x y, x <> h -> getv s x = Some y -> exists y', getv s' x = Some y' /\ core y' = core y) /\
    (forall x, held_by s' x = held_by s x).
Proof.
  intros [Hwf Hi HA H2] H. pose proof Hi as [I1 I2 I3 I4 I5 I6 I7]. unfold activate_next in H.
  bstep H r Hr. destruct r as [[s1 h] e1]. unfold next_to_activate in Hr.
  bstep Hr u1 G1. bstep Hr u2 G2. bstep Hr h0 Hh. bstep Hr e He. bstep Hr r1 Hrm. destruct r1 as [s1' e1'].
  inversion Hr; subst s1' h0 e1'; clear Hr. gfacts.
  bstep H r2 Hag. destruct r2 as [[s2 ar] dw0]. bstep H r3 Hact. destruct r3 as [s3 vr]. bstep H g Hg.
  (* h is the head of the queue, hence queued *)
  pose proof (wf_q _ _ _ Hwf) as [Qseg Qtail Qsize Qnd].
  assert (Hin : In h lq).
  { destruct lq as [|x t]; [cbn in Qseg; congruence|]. apply seg_head in Qseg. left. congruence. }
  destruct (wf_st _ _ _ Hwf h e He) as [Sa [Sq Su]]. pose proof (proj1 Sq Hin) as Hq.
  assert (Hnla : ~ In h la). { intros Hx. apply Sa in Hx. rewrite Hq in Hx. discriminate. }
  destruct (ll_remove_wf false h e s s1 e1 lq e Hrm (wf_q _ _ _ Hwf) Hin He eq_refl eq_refl)
    as [l1 [l2 [El [Hwq1 [Ee1 [Hg1 [Hot1 [Hlo1 [Hco1 Hsum1]]]]]]]]].
  destruct (lists_only_ex _ _ Hlo1) as [vs1 [a1 [q1 Es1]]]. subst s1. set (s1 := w_vals vs1 (w_act a1 (w_que q1 s))) in *.
  (* aggregation renew of a queued validator *)
  assert (Eag0 : get_agg s1 h = get_agg s h) by reflexivity.
  unfold aggs_renew, agg_renew in Hag. rewrite Eag0 in Hag. set (ag := get_agg s h) in *.
  bstep Hag r0 Hr0. destruct r0 as [a' ar0]. bstep Hr0 p1 Hp1. destruct p1 as [lv lw]. bstep Hr0 p2 Hp2. destruct p2 as [lv2 lw2].
  inversion Hr0; subst a' ar0; clear Hr0. inversion Hag; subst s2 ar dw0; clear Hag.
  apply ws_add_ok in Hp1. apply ws_sub_ok in Hp2. cbn [fst snd] in Hp1, Hp2.
  destruct Hp1 as [Elv Elw]. destruct Hp2 as [Elv2 [Elw2 [Lev Lew]]].
  assert (Hnact : forall y, getv s h = Some y -> v_status y <> StatusActive) by (intros y Hy; assert (y = e) by congruence; subst; rewrite Hq; discriminate).
  pose proof (HA h Hnact) as Z1. destruct (j_idle _ H2 h Hnact) as [Z2 [Z3 Z4]]. fold ag in Z1, Z2, Z3, Z4.
  destruct (j_q _ H2 h e He Hq) as [Q1 [Q2 [Q3 [Q4 Q5]]]]. fold ag in Q3, Q4.
  set (a' := mkA lv2 lw2 0 0 0 0) in *. set (s2 := set_agg h a' s1) in *.
  (* activation of the record *)
  unfold svc_activate in Hact. bstep Hact u3 G3. bstep Hact w Hw. bstep Hact s3' Hadd. inversion Hact; subst s3' vr; clear Hact.
  cbn [r_inc_v r_inc_w r_dec_v r_dec_w] in *. apply of_opt_ok, safe_sub_some in Hw as [Ew0 Lw0]. gfacts.
  assert (Ce1 : core e1 = core e) by (subst e1; reflexivity).
  destruct (core_eq _ _ Ce1) as [Cs [Cc [Cw [Cl [Cp [Cq Cx]]]]]].
  set (mul := if a_ev ag <? a_pv ag then MultiplierWithDelegations else Multiplier) in *.
  set (lwv := calc_weight (v_queued e1) mul) in *.
  set (v1 := set_start b (set_status StatusActive (set_amounts (v_queued e1) (v_punlock e1) 0 (v_cooldown e1) (v_withdrawable e1) w e1))) in *.
  (* the active list gets h appended *)
  pose proof (WF_disjoint _ _ _ Hwf) as Hdisj.
  assert (Hwa2 : wf_list s2 (get_ls true s2) la).
  { change (get_ls true s2) with (get_ls (negb false) s1). rewrite Hot1. apply (wf_list_same s); [exact (wf_a _ _ _ Hwf)|].
    intros x y Hx Hy. assert (Hne : x <> h) by (intros ->; contradiction).
    destruct (proj2 (Hco1 x Hne) y Hy) as [y' [Hy' [_ Hsame]]]. rewrite (Hsame (Hdisj x Hx)) in Hy'. exact Hy'. }
  assert (Hnx : v_next v1 = None) by (subst e1; reflexivity).
  destruct (ll_add_wf true h v1 s2 s3 la Hadd Hwa2 Hnla Hnx) as [Hwa3 [Hg3 [Hot3 [Hlo3 [Hco3 Hsum3]]]]].
  destruct (lists_only_ex _ _ Hlo3) as [vs3 [a3 [q3 Es3]]]. subst s3. set (s3 := w_vals vs3 (w_act a3 (w_que q3 s2))) in *.
  (* records: every x <> h keeps its core from s to s3, and is untouched when outside the list being edited *)
  assert (Hrec : forall x y, x <> h -> getv s x = Some y ->
            exists y3, getv s3 x = Some y3 /\ core y3 = core y /\ (~ In x la -> ~ In x lq -> y3 = y) /\
                       (In x la -> forall y1, getv s1 x = Some y1 -> y1 = y)).
  { intros x y Hne Hy. destruct (proj2 (Hco1 x Hne) y Hy) as [y1 [Hy1 [Ec1 Hs1]]].
    destruct (proj2 (Hco3 x Hne) y1 Hy1) as [y3 [Hy3 [Ec3 Hs3]]]. exists y3. split; auto. split; [congruence|]. split.
    - intros N1 N2. rewrite (Hs3 N1). apply Hs1; auto.
    - intros Hx z Hz. assert (z = y1) by congruence. subst z. exact (Hs1 (Hdisj x Hx)). }
  assert (Hnone : forall x, x <> h -> getv s x = None -> getv s3 x = None).
  { intros x Hne Hn. apply (proj1 (Hco3 x Hne)). apply (proj1 (Hco1 x Hne)). exact Hn. }
  destruct (renewal_add_ok _ _ _ Hg) as [B1 [B2 [B3 [B4 B5]]]]. cbn [r_inc_v r_inc_w r_dec_v r_dec_w r_qdec] in B1, B2, B3, B4, B5.
  unfold apply_renewal in H. bstep H p3 Hp3. bstep H p4 Hp4. destruct p4 as [nlv nlw]. bstep H sq Hsq.
  apply ws_add_ok in Hp3. apply ws_sub_ok in Hp4. cbn [fst snd] in Hp3, Hp4. destruct Hp3 as [P1 P2]. destruct Hp4 as [P3 [P4 [P5 P6]]].
  unfold remove_queued in Hsq. bstep Hsq q Hq'. inversion Hsq; subst sq; clear Hsq.
  unfold add_withdrawable in H. bstep H wdn Hwd. inversion H; subst s'; clear H.
  apply of_opt_ok, safe_sub_some in Hq' as [Eq' Lq']. apply of_opt_ok, safe_add_some in Hwd as [Ewd Lwd].
  cbn [g_lv g_lw g_q g_wd g_cd w_glob] in *.
  destruct (core_sums _ Hsum1) as [S1 [S2 [S3 [S4 S5]]]]. cbn beta in S1, S2, S3, S4, S5.
  assert (Hg1' : getv s2 h = Some e1) by exact Hg1.
  destruct (core_sums _ Hsum3) as [T1 [T2 [T3 [T4 T5]]]]. cbn beta in T1, T2, T3, T4, T5. rewrite Hg1' in T1, T2, T3, T4, T5.
  change (vals s2) with (vals s1) in T1, T2, T3, T4, T5.
  cbn [v1 v_locked v_queued v_cooldown v_withdrawable v_weight set_start set_status set_amounts] in T1, T2, T3, T4, T5.
  assert (Gl1 : sumf a_lv (upd (aggs s) h a') + a_lv ag = sumf a_lv (aggs s) + lv2).
  { pose proof (sum_set_agg a_lv h a' s eq_refl) as A. cbn in A. fold ag in A. exact A. }
  assert (Gl2 : sumf a_pv (upd (aggs s) h a') + a_pv ag = sumf a_pv (aggs s)).
  { pose proof (sum_set_agg a_pv h a' s eq_refl) as A. cbn in A. fold ag in A. rewrite N.add_0_r in A. exact A. }
  pose proof (j_w0 _ H2 h e He) as W0. rewrite Hq in W0. specialize (W0 ltac:(discriminate)).
  set (sf := w_glob _ _ _ _ _ (w_glob _ _ _ _ _ (w_glob _ _ _ _ _ s3))).
  assert (Gvf : forall x, getv sf x = getv s3 x) by reflexivity.
  exists h, (l1 ++ l2). split; [|split; [auto|split; [auto|split; [unfold sf; cbn; auto|split; [unfold sf; cbn; auto|split]]]]].
  - constructor.
    + apply (WF_same_vals s3); try reflexivity. constructor.
      * exact Hwa3.
      * change (que s3) with (get_ls (negb true) s3). rewrite Hot3. change (get_ls (negb true) s2) with (get_ls false s1).
        apply (wf_list_same s1); [exact Hwq1|]. intros x y1 Hx Hy1. change (getv s2 x = Some y1) in Hy1.
        assert (Hne : x <> h). { intros ->. rewrite El in Qnd. apply NoDup_remove_2 in Qnd. contradiction. }
        assert (Hxq : In x lq). { rewrite El. apply in_app_iff in Hx as [Hx|Hx]; apply in_or_app; [left|right; right]; auto. }
        destruct (proj2 (Hco3 x Hne) y1 Hy1) as [y3 [Hy3 [_ Hs3]]]. rewrite (Hs3 (fun Hxa => Hdisj x Hxa Hxq)) in Hy3. exact Hy3.
      * intros x y3 Hy3. destruct (N.eq_dec x h) as [->|Hne].
        -- rewrite Hg3 in Hy3. inversion Hy3; subst y3. cbn [v_status v_prev v_next set_prev v1 set_start set_status set_amounts].
           split; [split; auto; intros _; apply in_or_app; right; left; auto|].
           split; [split; [intros Hx; rewrite El in Qnd; apply NoDup_remove_2 in Qnd; contradiction|discriminate]|].
           intros Hx. exfalso. apply Hx, in_or_app. right; left; auto.
        -- destruct (getv s x) as [y|] eqn:Ey; [|rewrite (Hnone x Hne Ey) in Hy3; discriminate].
           destruct (Hrec x y Hne Ey) as [y3' [Hy3' [Ec [Hsame _]]]]. assert (y3' = y3) by congruence. subst y3'.
           destruct (wf_st _ _ _ Hwf x y Ey) as [T1' [T2' T3']]. rewrite (core_status _ _ Ec).
           pose proof (in_mid_ne x h la [] Hne) as Ia. rewrite app_nil_r in Ia.
           assert (Iq : In x (l1 ++ l2) <-> In x lq) by (rewrite El; symmetry; apply in_mid_ne, Hne).
           split; [rewrite Ia; auto|]. split; [rewrite Iq; auto|].
           intros N1 N2. rewrite Ia in N1. rewrite Iq in N2. rewrite (Hsame N1 N2). auto.
    + clear - I1 I2 I3 I4 I5 I6 I7 S1 S2 S3 S4 T1 T2 T3 T4 Gl1 Gl2 P1 P3 P5 Eq' Lq' Ewd B1 B3 B5
              Elv Elv2 Lev Z1 Z3 Q1 Cl Cq.
      unfold sf. constructor; cbn in *; try lia; auto.
      rewrite I5. f_equal. lia.
    + intros x Hx. unfold get_agg, sf. cbn. rewrite get_upd. destruct (h =? x) eqn:E.
      * apply N.eqb_eq in E. subst x. exfalso. apply (Hx (set_prev (last_or None la) v1)); [rewrite Gvf; exact Hg3|reflexivity].
      * apply N.eqb_neq in E. apply HA. intros y Hy. destruct (Hrec x y (fun e => E (eq_sym e)) Hy) as [y3 [Hy3 [Ec _]]].
        rewrite <- (core_status _ _ Ec). apply (Hx y3). rewrite Gvf. exact Hy3.
    + apply (Inv2_activate s sf h e (set_prev (last_or None la) v1) a'); auto; try (unfold sf; cbn; auto; fail).
      * intros x Hne. rewrite Gvf. split; [apply Hnone; auto|]. intros y Hy. destruct (Hrec x y Hne Hy) as [y3 [Hy3 [Ec _]]]. eauto.
      * cbn [v_weight v_locked set_prev v1 set_start set_status set_amounts a_lw a']. unfold v_multiplier.
        cbn [v_weight v_locked set_prev v1 set_start set_status set_amounts].
        assert (Ew : w = calc_weight (v_queued e1) mul + a_pw ag) by (rewrite Ew0, Z4; apply N.sub_0_r).
        assert (Elw2' : lw2 = a_pw ag) by (rewrite Elw2, Elw, Z2, Z4; apply N.sub_0_r). rewrite Ew, Elw2'. unfold mul. rewrite Z3.
        apply (weight_multiplier (v_queued e1) (a_pw ag) (0 <? a_pv ag)); [intros _; rewrite Cq; clear - Q2; lia|].
        intros Epv. apply N.ltb_ge, N.le_0_r in Epv.
        rewrite Q4. apply (sumf_zero (dp_v h) (dp_w h)); [apply dp_zero|]. rewrite <- Q3. exact Epv.
      * unfold sf. cbn. cbn [v_weight set_prev v1 set_start set_status set_amounts]. clear - P2 P4 B2 B4 Z4 Ew0. cbn in P2. lia.
      * unfold sf. cbn [vals w_glob]. cbn [v_weight set_prev v1 set_start set_status set_amounts]. clear - T5 S5 W0 Cw. lia.
  - intros x y Hne Hy. destruct (Hrec x y Hne Hy) as [y3 [Hy3 [Ec _]]]. exists y3. rewrite Gvf. auto.
  - intros x. unfold held_by. rewrite Gvf. destruct (N.eq_dec x h) as [->|Hne].
    + rewrite Hg3, He. pose proof (core_held _ _ Ce1) as Hhe. unfold held in *. cbn [v_locked v_queued v_cooldown v_withdrawable set_prev v1 set_start set_status set_amounts]. clear - Hhe Q1 Cl. lia.
    + destruct (getv s x) as [y|] eqn:Ey.
      * destruct (Hrec x y Hne Ey) as [y3 [Hy3 [Ec _]]]. rewrite Hy3. apply core_held; auto.
      * rewrite (Hnone x Hne Ey). reflexivity.
Qed.

Lemma activate_n_ok b mx n : forall s la lq s',
  Full s la lq -> activate_n n b mx s = Ok s' ->
  exists la' lq', Full s' la' lq' /\ blk s' = blk s /\ mbp s' = mbp s /\
    (forall x, In x la -> In x la') /\
    (forall x y, In x la -> getv s x = Some y -> exists y', getv s' x = Some y' /\ core y' = core y) /\
    (forall x, held_by s' x = held_by s x).
Proof.
  induction n as [|k IH]; intros s la lq s' HF H.
  - cbn in H. inversion H; subst. exists la, lq. split; auto. split; auto. split; auto. split; auto. split; auto. intros x y _ Hy. eauto.
  - cbn [activate_n] in H. bstep H s1 Hs1.
    destruct (activate_step b mx s la lq s1 HF Hs1) as [h [lq1 [F1 [Hin [Hnla [B1 [M1 [C1 Hh1]]]]]]]].
    destruct (IH s1 (la ++ [h]) lq1 s' F1 H) as [la' [lq' [F' [B' [M' [Sub' [C' Hh']]]]]]].
    exists la', lq'. split; auto. split; [congruence|]. split; [congruence|]. split; [|split; [|intros x; rewrite Hh', Hh1; reflexivity]].
    + intros x Hx. apply Sub', in_or_app. auto.
    + intros x y Hx Hy. assert (Hne : x <> h) by (intros ->; contradiction).
      destruct (C1 x y Hne Hy) as [y1 [Hy1 Ec1]]. destruct (C' x y1 (in_or_app _ _ _ (or_introl Hx)) Hy1) as [y2 [Hy2 Ec2]].
      exists y2. split; auto. congruence.
Qed.

Lemma Full_LoopInv s la lq : Full s la lq -> LoopInv renewal0 s la lq.
Proof.
  intros [Hwf [I1 I2 I3 I4 I5 I6 I7] HA H2]. destruct (proj1 (Inv2_iff s) H2) as [H2' Hlw].
  constructor; cbn; auto; lia.
Qed.

Lemma apply_epoch_transition_ok c b t s la lq s' :
  Full s la lq ->
  (forall a, In a (tr_renewals t) -> is_active s a) ->
  (tr_exit t <> 0 -> exists v eb, getv s (tr_exit t) = Some v /\ v_status v = StatusActive /\ v_exit v = Some eb /\ eb <= blk s) ->
  NoDup (tr_evictions t) -> (forall a, In a (tr_evictions t) -> evictable_now s a /\ (tr_exit t = 0 \/ a <> tr_exit t)) ->
  apply_epoch_transition c b t s = Ok s' ->
  exists la' lq', Full s' la' lq' /\ blk s' = blk s /\
    (forall x, In x la -> x <> tr_exit t -> In x la') /\ (forall x, held_by s' x = held_by s x).
Proof.
  intros HF Hren Hexit Hnd Hev H. unfold apply_epoch_transition in H.
  bstep H r1 Hr1. destruct r1 as [s1 acc]. bstep H s2 Hs2.
  destruct (apply_renewals_ok _ _ _ _ _ _ _ (Full_LoopInv _ _ _ HF) Hren Hr1) as [HL [Hfr Hst]].
  destruct (apply_renewal_closes _ _ _ _ _ HL Hs2) as [W2 [I2 [A2 [J2 [G2 [X2 B2]]]]]].
  assert (F2 : Full s2 la lq) by (constructor; auto).
  assert (St2 : forall x y, getv s x = Some y -> exists y', getv s2 x = Some y' /\ v_status y' = v_status y /\ v_exit y' = v_exit y /\ held y' = held y).
  { intros x y Hy. destruct (Hst x y Hy) as [y' [Hy' E]]. exists y'. rewrite G2. auto. }
  assert (Bs2 : blk s2 = blk s).
  { rewrite B2. clear - Hr1. revert Hr1. generalize renewal0. generalize s. induction (tr_renewals t) as [|a l IH]; intros s0 acc0 H.
    - cbn in H. inversion H; auto.
    - cbn [apply_renewals] in H. bstep H r1 Hr1. destruct r1 as [[sa ar] dw]. bstep H acc1 Ha1. bstep H r2 Hr2. destruct r2 as [sb vr]. bstep H acc2 Ha2.
      rewrite (IH _ _ H). pose proof (rl_remove_only a sb) as R. rewrite R. cbn.
      unfold svc_renew in Hr2. bstep Hr2 v Hv. bstep Hr2 r Hr. destruct r. inversion Hr2; subst. cbn.
      unfold aggs_renew in Hr1. bstep Hr1 r Hr'. destruct r. inversion Hr1; subst. reflexivity. }
  bstep H s3 Hs3. bstep H s4 Hs4.
  assert (Hh2 : forall x, held_by s2 x = held_by s x).
  { intros x. unfold held_by. destruct (getv s x) as [y|] eqn:Ey.
    - destruct (St2 x y Ey) as [y' [Hy' [_ [_ Eh]]]]. rewrite Hy'. exact Eh.
    - rewrite G2. rewrite Hfr; [rewrite Ey; reflexivity|]. intros Hx. destruct (Hren x Hx) as [y [Hy _]]. congruence. }
  assert (E3 : exists la3, Full s3 la3 lq /\ blk s3 = blk s2 /\ (forall x, In x la -> x <> tr_exit t -> In x la3) /\ (forall x, held_by s3 x = held_by s2 x) /\
             (forall x y, (tr_exit t = 0 \/ x <> tr_exit t) -> getv s2 x = Some y -> exists y', getv s3 x = Some y' /\ core y' = core y)).
  { destruct (tr_exit t =? 0) eqn:Ez.
    - inversion Hs3; subst s3. exists la. split; auto. split; auto. split; auto. split; auto. intros x y _ Hy. eauto.
    - apply N.eqb_neq in Ez. destruct (Hexit Ez) as [v [eb [Hv [Hact [Hex Heb]]]]].
      destruct (St2 _ _ Hv) as [v2 [Hv2 [Es2 [Ex2 _]]]].
      bstep Hs3 r Hr. destruct r as [s2a ve]. destruct (aggs_exit (tr_exit t) s2a) as [s2b ae] eqn:Hae.
      destruct (exit_step s2 la lq (tr_exit t) v2 eb s2a ve s2b ae s3 F2 Hv2) as [l1 [l2 [El [F3 [C3 [X3 [B3 [M3 H3]]]]]]]]; auto; try congruence; try lia.
      exists (l1 ++ l2). split; auto. split; auto. split; [|split; [exact H3|]].
      + intros x Hx Hne. rewrite El in Hx. apply in_app_iff in Hx as [Hx|[Hx|Hx]]; [apply in_or_app; auto|congruence|apply in_or_app; auto].
      + intros x y [Hz|Hne] Hy; [congruence|]. apply (C3 x y Hne Hy). }
  destruct E3 as [la3 [F3 [B3 [Sub3 [Hh3 C3]]]]].
  destruct (apply_evictions_ok c b (tr_evictions t) s3 la3 lq s4) as [[lq4 F4] [B4 [M4 [St4 H4]]]]; auto.
  { intros a Ha. destruct (Hev a Ha) as [[v [Hv [Hact Hex]]] Hne].
    destruct (St2 _ _ Hv) as [v2 [Hv2 [Es2 [Ex2 _]]]]. destruct (C3 a v2 Hne Hv2) as [v3 [Hv3 Ec]]. cf Ec.
    exists v3. split; auto. split; congruence. }
  destruct (activate_n_ok b (get_mbp s4) (N.to_nat (tr_count t)) s4 la3 lq4 s' F4 H) as [la' [lq' [F' [B' [M' [Sub' [_ Hh']]]]]]].
  exists la', lq'. split; auto. split; [congruence|]. split; [intros x Hx Hne; apply Sub', Sub3; auto|].
  intros x. rewrite Hh', H4, Hh3, Hh2. reflexivity.
Qed.

Lemma update_group_filter_sub s b l r : update_group_filter s b l = Ok r -> forall a, In a r -> In a l.
Proof.
  revert r. induction l as [|x t IH]; intros r H a Ha; cbn in H.
  - inversion H; subst. contradiction.
  - bstep H v Hv. bstep H r' Hr'. inversion H; subst. destruct (is_period_end v b && negb (is_some (v_exit v))).
    + destruct Ha as [<-|Ha]; [left; auto|right; eauto].
    + right; eauto.
Qed.

Lemma compute_facts c b s la lq t :
  Full s la lq -> compute_epoch_transition c b s = Ok t ->
  (forall a, In a (tr_renewals t) -> is_active s a) /\ tr_exit t = get_exit s b /\
  NoDup (tr_evictions t) /\
  (forall a, In a (tr_evictions t) -> evictable_now s a).
Proof.
  intros [Hwf Hi HA H2] H. unfold compute_epoch_transition in H.
  bstep H ev Hev. bstep H ren Hren. inversion H; subst t; clear H. cbn [tr_renewals tr_exit tr_evictions].
  split; [|split; [reflexivity|]].
  - intros a Ha. unfold update_group in Hren. bstep Hren l Hl. destruct (j_ren _ H2) as [lr [R A]].
    rewrite (rl_iterate_spec s lr l R Hl) in Hren. apply A. eapply update_group_filter_sub; eauto.
  - destruct (negb (b =? 0) && (b mod c_evict_int c =? 0)); [|inversion Hev; subst; split; [constructor|intros a []]].
    bstep Hev l Hl. inversion Hev; subst ev; clear Hev.
    destruct (leader_group_is_active_list s la lq Hwf) as [r [Hr [Hm Hin]]]. rewrite Hr in Hl. inversion Hl; subst l.
    split.
    + apply nodup_map_filter. rewrite Hm. apply (wl_nodup _ _ _ (wf_a _ _ _ Hwf)).
    + intros a Ha. apply in_map_iff in Ha as [[a' v] [Ea Hf]]. cbn in Ea. subst a'. apply filter_In in Hf as [Hf1 Hf2]. cbn in Hf2.
      exists v. split; [apply Hin; auto|]. split.
      * apply (wf_st _ _ _ Hwf a v (Hin a v Hf1)). rewrite <- Hm. apply in_map_iff. exists (a, v). auto.
      * unfold evictable in Hf2. destruct (v_offline v); [|discriminate]. apply andb_true_iff in Hf2 as [_ F2].
        destruct (v_exit v); [discriminate|reflexivity].
Qed.

Lemma sync_pos_cases c b s s1 ac up :
  sync_pos c b s = Ok (s1, ac, up) ->
  s1 = s \/ exists t, compute_epoch_transition c b s = Ok t /\ apply_epoch_transition c b t s = Ok s1.
Proof.
  unfold sync_pos. intros H. destruct (b <? c_hayabusa c + c_tp c); [inversion H; auto|].
  bstep H r Hr. destruct r as [sa activated].
  assert (T : forall sx ax, transition_pos c b s = Ok (sx, ax) ->
              (sx = s /\ ax = false) \/ exists t, compute_epoch_transition c b s = Ok t /\ apply_epoch_transition c b t s = Ok sx).
  { intros sx ax Ht. unfold transition_pos in Ht.
    destruct (negb (b mod c_epoch c =? 0)); [inversion Ht; auto|].
    destruct (0 <? l_size (act s)); [inversion Ht; auto|].
    destruct (l_size (que s) * 3 <? get_mbp s * 2); [inversion Ht; auto|].
    bstep Ht t Hc. bstep Ht sy Ha. inversion Ht; subst. right. eauto. }
  assert (Hk : forall sx ux, housekeep c b s = Ok (sx, ux) ->
              sx = s \/ exists t, compute_epoch_transition c b s = Ok t /\ apply_epoch_transition c b t s = Ok sx).
  { intros sx ux Hh. unfold housekeep in Hh. destruct (negb (b mod c_epoch c =? 0)); [inversion Hh; auto|].
    bstep Hh t Hc. destruct (negb (has_updates t)); [inversion Hh; auto|].
    bstep Hh sy Ha. bstep Hh u Hu. inversion Hh; subst. right. eauto. }
  destruct (negb (0 <? l_size (act s)) && ((c_tp c =? 0) || ((b - c_hayabusa c) mod c_tp c =? 0))) eqn:Ec.
  - apply andb_true_iff in Ec as [Ea _]. apply negb_true_iff in Ea. rewrite Ea in H. cbn [orb] in H.
    assert (E2 : activated && negb activated = false) by (destruct activated; reflexivity). rewrite E2 in H.
    inversion H; subst s1. destruct (T _ _ Hr) as [[-> _]|Hx]; auto.
  - inversion Hr; subst sa activated. destruct (((0 <? l_size (act s)) || false) && negb false).
    + bstep H r2 Hh. destruct r2. inversion H; subst. eapply Hk; eauto.
    + inversion H; auto.
Qed.

Lemma Full_w_blk b s la lq : blk s <= b -> Full s la lq -> Full (w_blk b s) la lq.
Proof.
  intros Hb [Hwf [I1 I2 I3 I4 I5 I6 I7] HA H2]. constructor.
  - apply (WF_same_vals s); auto.
  - constructor; cbn; auto.
  - apply (InvA_frame s); auto. apply kept_same_vals; reflexivity.
  - apply (Inv2_change_ren s); auto. apply (ren_active_ext s); auto. apply (j_ren _ H2).
Qed.

Theorem block_step_Full c s la lq : Full s la lq ->
  exists la' lq', Full (step c s OBlock) la' lq' /\ (forall x, In x la -> x <> get_exit s (blk s + 1) -> In x la') /\
    (forall x, held_by (step c s OBlock) x = held_by s x) /\ blk (step c s OBlock) = blk s + 1.
Proof.
  intros HF. unfold step. cbn [run_op].
  set (b := blk s + 1) in *. set (s0 := w_blk b s) in *.
  assert (F0 : Full s0 la lq) by (apply Full_w_blk; auto; unfold b; lia).
  destruct (sync_pos c b s0) as [[[s1 ac] up]| |] eqn:Hr;
    [|exists la, lq; split; [auto|split; [auto|split; [intros; reflexivity|reflexivity]]]
     |exists la, lq; split; [auto|split; [auto|split; [intros; reflexivity|reflexivity]]]].
  destruct (sync_pos_cases _ _ _ _ _ _ Hr) as [->|[t [Hc Ha]]];
    [exists la, lq; split; [auto|split; [auto|split; [intros; reflexivity|reflexivity]]]|].
  destruct (compute_facts c b s0 la lq t F0 Hc) as [Hren [Hex [Hnd Hev]]].
  change (get_exit s0 b) with (get_exit s b) in Hex.
  destruct (apply_epoch_transition_ok c b t s0 la lq s1 F0 Hren) as [la' [lq' [F' [Bk [Sub Hh]]]]]; auto.
  - intros Hz. rewrite Hex in *. destruct (j_exit _ (f_2 _ _ _ HF) b (get_exit s b) eq_refl Hz) as [v [Hv [Hs He]]]; [unfold b; lia|].
    exists v, b. repeat split; auto. cbn. lia.
  - intros a Ha'. split; [apply Hev; auto|]. destruct (N.eq_dec (tr_exit t) 0) as [Hz|Hz]; [left; auto|right].
    intros ->. destruct (Hev _ Ha') as [v [Hv [Hs He]]]. rewrite Hex in *.
    destruct (j_exit _ (f_2 _ _ _ HF) b (get_exit s b) eq_refl Hz) as [v' [Hv' [_ He']]]; [unfold b; lia|].
    change (getv s0 (get_exit s b)) with (getv s (get_exit s b)) in Hv. assert (v' = v) by congruence. subst v'. congruence.
  - exists la', lq'. split; auto. split; [intros x Hx Hne; apply Sub; auto; rewrite Hex; auto|].
    split; [intros x; rewrite Hh; reflexivity|rewrite Bk; reflexivity].
Qed.
