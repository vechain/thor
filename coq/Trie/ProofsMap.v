(* Trie/ProofsMap.v — insert and delete keep the shape invariant, and get after them is finite-map semantics
   (trie_refines_map): ins_spec, delete_spec.
   `lookup` is a fuel-free restatement of tryGet used as a proof device; get = lookup on well-formed tries. *)
From Coq Require Import List Arith Bool Lia.
From Verif Require Import Trie.Model Trie.Keys Trie.ProofsWf.
Import ListNotations.

Section MAP.
  Variable V : Type.
  Variable veqb : V -> V -> bool.

  Notation node := (node V).
  Notation insert := (insert V veqb).
  Notation delete := (delete V).
  Notation get := (get V).
  Notation child := (child V).
  Notation upd := (upd V).
  Notation empty_children := (empty_children V).
  Notation single_pos := (single_pos V).
  Notation wf := (wf V).
  Notation wfc := (wfc V).
  Notation wfv := (wfv V).
  Notation mk_leaf := (mk_leaf V).
  Notation split := (split V).
  Notation merge := (merge V).
  Notation collapse := (collapse V).

  Fixpoint lookup (n : node) (key : list nat) {struct n} : option V :=
    match n with
    | Nil => None
    | Value v => Some v
    | Short k c => if prefix_len k key =? length k then lookup c (skipn (length k) key) else None
    | Full cs =>
      match key with
      | [] => None
      | i :: r =>
        (fix nth_l (l : list node) (i : nat) {struct l} : option V :=
           match l, i with
           | [], _ => None
           | c :: _, O => lookup c r
           | _ :: t, S j => nth_l t j
           end) cs i
      end
    end.

  Lemma lookup_full cs : forall i r, lookup (Full cs) (i :: r) = lookup (child cs i) r.
  Proof.
    induction cs; intros i r.
    - destruct i; reflexivity.
    - destruct i; [reflexivity|]. cbn in *. apply (IHcs i r).
  Qed.

  Lemma lookup_full_nil cs : lookup (Full cs) [] = None.
  Proof. reflexivity. Qed.

  Lemma get_lookup : forall g n key, wfv n -> length key < g -> get g n key = lookup n key.
  Proof.
    induction g; intros n key Hn Hg; [lia|].
    destruct Hn as [->|[Hn|[v ->]]]; auto.
    destruct n as [| |k c|cs]; try solve [inversion Hn].
    - destruct (wf_short_inv _ _ _ Hn) as [Ne Wc]. cbn [Model.get lookup].
      destruct (_ =? length k) eqn:E; auto. apply Nat.eqb_eq in E.
      pose proof (skipn_short_lt k key Ne E). apply IHg; auto; lia.
    - destruct key as [|i r]; auto. rewrite lookup_full. cbn [Model.get]. apply IHg.
      + apply wf_child_wfv; auto.
      + cbn in Hg; lia.
  Qed.

  Lemma lookup_short_app k c r : lookup (Short k c) (k ++ r) = lookup c r.
  Proof.
    cbn. rewrite prefix_len_app, Nat.eqb_refl. rewrite skipn_app, skipn_all, Nat.sub_diag. reflexivity.
  Qed.

  Lemma lookup_short_nil c key : lookup (Short [] c) key = lookup c key.
  Proof. reflexivity. Qed.

  Lemma lookup_short_cons j kk c j' r :
    lookup (Short (j :: kk) c) (j' :: r) = if j =? j' then lookup (Short kk c) r else None.
  Proof.
    cbn [lookup prefix_len length]. destruct (j =? j') eqn:E; auto.
  Qed.

  Lemma lookup_short_cons_nil j kk c : lookup (Short (j :: kk) c) [] = None.
  Proof. reflexivity. Qed.

  Lemma lookup_short_merge p : forall q c key, lookup (Short (p ++ q) c) key = lookup (Short p (Short q c)) key.
  Proof.
    induction p; intros q c key; [reflexivity|].
    destruct key as [|j r]; [reflexivity|].
    cbn [app]. rewrite !lookup_short_cons. destruct (a =? j); auto.
  Qed.

  Lemma lookup_mk_leaf kk y r : lookup (mk_leaf kk y) r = lookup (Short kk y) r.
  Proof. destruct kk; reflexivity. Qed.

  Lemma lookup_short_not_prefix k c key : prefix_len k key <> length k -> lookup (Short k c) key = None.
  Proof. intros H. cbn. apply Nat.eqb_neq in H. rewrite H. reflexivity. Qed.

  (* same short key on both sides *)
  Lemma lookup_short_cong k c1 c2 key :
    (forall r, key = k ++ r -> lookup c1 r = lookup c2 r) ->
    lookup (Short k c1) key = lookup (Short k c2) key.
  Proof.
    intros H. cbn. destruct (_ =? length k) eqn:E; auto.
    apply Nat.eqb_eq in E. apply H. apply prefix_len_full; auto.
  Qed.

  Lemma lookup_leaf k v key : vkey k -> vkey key ->
    lookup (Short k (Value v)) key = if vkey_eq_dec k key then Some v else None.
  Proof.
    intros Hk Hkey. cbn. destruct (vkey_eq_dec k key) as [->|N].
    - rewrite prefix_len_refl, Nat.eqb_refl. reflexivity.
    - destruct (_ =? length k) eqn:E; auto. apply Nat.eqb_eq in E.
      exfalso; apply N; apply vkey_prefix_eq; auto.
  Qed.

  (* a value (or what stands in slot b) reached with the rest of a terminated key *)
  Lemma lookup_tail_leaf b kb v r' :
    vkey (b :: kb) -> vkey (b :: r') ->
    lookup (Short kb (Value v)) r' = if vkey_eq_dec (b :: kb) (b :: r') then Some v else None.
  Proof.
    intros H1 H2. apply vkey_cons_inv in H1. apply vkey_cons_inv in H2.
    destruct H1 as [[-> ->]|[L1 K1]], H2 as [[E ->]|[L2 K2]]; try lia.
    - cbn. destruct (vkey_eq_dec [16] [16]); congruence.
    - rewrite lookup_leaf by auto.
      destruct (vkey_eq_dec kb r'), (vkey_eq_dec (b :: kb) (b :: r')); congruence.
  Qed.

  Lemma lookup_branch a b x y j r : a <> b -> a < 17 -> b < 17 ->
    lookup (Full (upd (upd empty_children a x) b y)) (j :: r) =
    if j =? b then lookup y r else if j =? a then lookup x r else None.
  Proof.
    intros N La Lb. rewrite lookup_full.
    assert (Le : length empty_children = 17) by reflexivity.
    destruct (j =? b) eqn:Eb.
    - apply Nat.eqb_eq in Eb; subst. rewrite child_upd_same; auto; rewrite length_upd, Le; auto.
    - apply Nat.eqb_neq in Eb. rewrite child_upd_other by auto.
      destruct (j =? a) eqn:Ea.
      + apply Nat.eqb_eq in Ea; subst. rewrite child_upd_same; auto; rewrite Le; auto.
      + apply Nat.eqb_neq in Ea. rewrite child_upd_other by auto. rewrite child_empty. reflexivity.
  Qed.

  (* ---- a point update below a short key / in a slot is a point update of the whole ---- *)
  Lemma lookup_under_short k c c' key rest (o : option V) key' : nibs k -> key = k ++ rest -> vkey key' ->
    (forall r', vkey r' -> lookup c' r' = if vkey_eq_dec rest r' then o else lookup c r') ->
    lookup (Short k c') key' = if vkey_eq_dec key key' then o else lookup (Short k c) key'.
  Proof.
    intros Nk -> Hk' H.
    destruct (Nat.eq_dec (prefix_len k key') (length k)) as [Pp|Pp].
    2:{ rewrite !lookup_short_not_prefix by auto.
        destruct (vkey_eq_dec (k ++ rest) key') as [<-|]; auto.
        exfalso; apply Pp, prefix_len_app. }
    apply prefix_len_full in Pp. set (r' := skipn (length k) key') in *.
    rewrite Pp, !lookup_short_app.
    rewrite H by (apply (vkey_app_inv k); auto; rewrite <- Pp; auto).
    destruct (vkey_eq_dec rest r') as [Q|Q], (vkey_eq_dec (k ++ rest) (k ++ r')) as [Q'|Q']; auto.
    - exfalso; apply Q'. rewrite <- Q; auto.
    - exfalso; apply Q. apply app_inv_head in Q'; auto.
  Qed.

  (* old node Short k c (k = p ++ a :: ka), new key p ++ b :: kb *)
  Lemma lookup_split k key c v key' : let m := prefix_len key k in
    vkey key -> m < length k -> m < length key ->
    slot_ok V (nth m k 0) (mk_leaf (skipn (S m) k) c) -> vkey key' ->
    lookup (split m k c key (Value v)) key' =
    if vkey_eq_dec key key' then Some v else lookup (Short k c) key'.
  Proof.
    intros m Hk Lk Lkey Hc Hk'.
    set (p := firstn m key).
    set (a := nth m k 0) in *. set (b := nth m key 0) in *.
    set (ka := skipn (S m) k) in *. set (kb := skipn (S m) key) in *.
    apply eq_trans with (lookup (Short p (Full (upd (upd empty_children a (mk_leaf ka c)) b (mk_leaf kb (Value v))))) key').
    { unfold split, p. destruct (Nat.eqb_spec m 0) as [->|]; reflexivity. }
    assert (La : a < 17) by (destruct Hc as [[? _]|[? _]]; lia).
    assert (Ekey : key = p ++ b :: kb).
    { unfold p, b, kb. rewrite <- (skipn_nth_cons key 0 m Lkey). symmetry; apply firstn_skipn. }
    assert (Ek : k = p ++ a :: ka).
    { unfold p, a, ka, m. rewrite prefix_firstn. fold m.
      rewrite <- (skipn_nth_cons k 0 m Lk). symmetry; apply firstn_skipn. }
    assert (Nab : a <> b).
    { unfold a, b. intros Q. apply (prefix_len_nth_neq key k); auto. }
    destruct (vkey_at key m Hk Lkey) as [Np Db]. fold p in Np. fold b kb in Db.
    assert (Lb : b < 17) by (destruct Db as [[? _]|[? _]]; lia).
    rewrite Ek, (lookup_short_merge p (a :: ka) c key').
    apply (lookup_under_short p _ _ key (b :: kb)); auto.
    intros [|j r''] Kr; [inversion Kr|].
    rewrite lookup_branch, lookup_short_cons by auto.
    assert (Kb : vkey (b :: kb)) by (apply (vkey_app_inv p); auto; rewrite <- Ekey; auto).
    destruct (j =? b) eqn:Eb.
    - apply Nat.eqb_eq in Eb; subst j.
      rewrite lookup_mk_leaf, (lookup_tail_leaf b kb v r'') by auto.
      destruct (vkey_eq_dec (b :: kb) (b :: r'')); auto.
      replace (a =? b) with false by (symmetry; apply Nat.eqb_neq; auto). reflexivity.
    - apply Nat.eqb_neq in Eb.
      destruct (vkey_eq_dec (b :: kb) (j :: r'')) as [Q|Q]; [congruence|].
      rewrite (Nat.eqb_sym a j). destruct (j =? a); auto.
      apply lookup_mk_leaf.
  Qed.

  Lemma lookup_under_full cs i x r (o : option V) key' : i < length cs -> vkey key' ->
    (forall r', vkey (i :: r') -> lookup x r' = if vkey_eq_dec r r' then o else lookup (child cs i) r') ->
    lookup (Full (upd cs i x)) key' = if vkey_eq_dec (i :: r) key' then o else lookup (Full cs) key'.
  Proof.
    intros Li Hk' H. destruct key' as [|j r']; [inversion Hk'|]. rewrite !lookup_full.
    destruct (Nat.eq_dec i j) as [<-|N].
    2:{ rewrite child_upd_other by auto. destruct (vkey_eq_dec (i :: r) (j :: r')); congruence. }
    rewrite child_upd_same, H by auto.
    destruct (vkey_eq_dec r r'), (vkey_eq_dec (i :: r) (i :: r')); congruence.
  Qed.

  (* what may stand in slot i, and reads like a point update of the old slot, does so for keys that go through slot i *)
  Lemma slot_update cs i r x (o : option V) : vkey (i :: r) ->
    (i = 16 -> x = match o with Some v => Value v | None => Nil end) ->
    (i < 16 -> vkey r -> forall r', vkey r' -> lookup x r' = if vkey_eq_dec r r' then o else lookup (child cs i) r') ->
    forall r', vkey (i :: r') -> lookup x r' = if vkey_eq_dec r r' then o else lookup (child cs i) r'.
  Proof.
    intros Hk H16 Hlt r' Hk'.
    apply vkey_cons_inv in Hk. apply vkey_cons_inv in Hk'.
    destruct Hk as [[-> ->]|[L Hr]], Hk' as [[E ->]|[L' Hr']]; try lia; auto.
    rewrite H16 by auto. destruct (vkey_eq_dec [] []); [|congruence]. destruct o; reflexivity.
  Qed.

  (* shape and content at once; only the content needs veqb to be sound *)
  Lemma ins_spec : forall f n key v, wfc n -> vkey key -> length key < f ->
    wf (ins V veqb f n key (Value v)) /\
    ((forall a b, veqb a b = true -> a = b) -> forall key', vkey key' ->
     lookup (ins V veqb f n key (Value v)) key' = if vkey_eq_dec key key' then Some v else lookup n key').
  Proof.
    induction f; intros n key v Hn Hk Hf; [lia|].
    pose proof (vkey_nonempty _ Hk) as Nk. pose proof (vkey_length _ Hk) as Lk.
    destruct Hn as [->|Hn].
    { rewrite ins_nil. destruct key; [congruence|]. split; [constructor; auto|].
      intros _ key' Hk'. cbn [ProofsWf.mk_leaf]. rewrite lookup_leaf by auto. reflexivity. }
    inversion Hn as [k0 v0 Hvk | k0 cs0 Hne Hnb Hfull | cs0 Hlen Hch H16 Htwo]; subst.
    - (* leaf *)
      destruct (vkey_eq_dec key k0) as [<-|Nk0].
      + rewrite ins_short_desc by (auto; apply prefix_len_refl).
        rewrite skipn_all. destruct f; [lia|].
        destruct (ins_at_end V veqb f (Value v0) v) as (v' & -> & Ev); eauto.
        split; [constructor; auto|]. intros Hs key' Hk'. rewrite (Ev Hs), !lookup_leaf by auto.
        destruct (vkey_eq_dec key key'); auto.
      + destruct (vkey_neq_split _ _ Hk Hvk Nk0) as [M1 M2].
        destruct f; [lia|]. rewrite ins_short_split by (auto; lia).
        split; [apply split_wf|intros _ key' Hk'; apply lookup_split]; auto; apply leaf_slot; auto.
    - (* extension *)
      pose proof (vkey_vs_nibs _ _ Hk Hnb) as M1. pose proof (prefix_len_le_r key k0) as M2.
      destruct (Nat.eq_dec (prefix_len key k0) (length k0)) as [E|E].
      + rewrite ins_short_desc by auto.
        destruct (ext_descend _ _ Hne Hnb Hk E) as (Ekey & Ks & Lr).
        destruct (IHf (Full cs0) _ v (or_intror Hfull) Ks ltac:(lia)) as [W L].
        destruct (ins_full_is_full V veqb f cs0 _ (Value v) (vkey_nonempty _ Ks)) as [cs' Q].
        rewrite Q in *. split; [constructor; auto|].
        intros Hs key' Hk'. eapply lookup_under_short; eauto.
      + destruct f; [lia|]. rewrite ins_short_split by auto.
        split; [apply split_wf|intros _ key' Hk'; apply lookup_split]; auto; try lia; apply ext_slot; auto; lia.
    - (* full *)
      destruct key as [|i r]; [congruence|]. rewrite ins_full_desc.
      assert (Li : i < 17) by (inversion Hk; lia).
      set (c' := ins V veqb f (child cs0 i) r (Value v)).
      assert (S : slot_ok V i c' /\ ((forall a b, veqb a b = true -> a = b) ->
                  forall r', vkey (i :: r') -> lookup c' r' = if vkey_eq_dec r r' then Some v else lookup (child cs0 i) r')).
      { apply vkey_cons_inv in Hk as Hk2. destruct Hk2 as [[-> ->]|[L16 Hr]].
        - destruct f; [cbn in Hf; lia|]. subst c'.
          destruct (ins_at_end V veqb f (child cs0 16) v H16) as (v' & -> & Ev).
          split; [right; eauto|]. intros Hs. rewrite (Ev Hs). apply (slot_update cs0 16 [] _ (Some v)); auto; lia.
        - destruct (IHf (child cs0 i) r v (wf_full_child _ _ _ Hn L16) Hr ltac:(cbn in Hf; lia)) as [W L].
          split; [left; auto|]. intros Hs. apply (slot_update cs0 i r _ (Some v)); auto; lia. }
      destruct S as [S L]. split; [apply full_upd_wf; auto|].
      intros Hs key' Hk'. apply lookup_under_full; auto; lia.
  Qed.

  Lemma lookup_merge k ch key : lookup (merge k ch) key = lookup (Short k ch) key.
  Proof. destruct ch; auto. apply lookup_short_merge. Qed.

  (* the collapse of a full node with a single child left reads the same *)
  Lemma lookup_collapse cs key' : lookup (collapse cs) key' = lookup (Full cs) key'.
  Proof.
    unfold collapse, Model.single_pos. destruct (single_pos_from V cs 0) as [pos|] eqn:SP; auto.
    destruct (single_pos_from_some _ _ _ _ SP) as (q & Eq & _ & _ & O). cbn in Eq; subst q.
    apply eq_trans with (lookup (Short [pos] (child cs pos)) key').
    { destruct (negb _); auto. apply lookup_merge. }
    destruct key' as [|j r']; [reflexivity|].
    rewrite lookup_short_cons, lookup_full, lookup_short_nil.
    destruct (Nat.eqb_spec pos j) as [->|E]; auto. rewrite O by auto. reflexivity.
  Qed.

  (* below a Full node the result is never Nil: the extension case needs this to put `merge k0` above it *)
  Lemma delete_spec : forall f n key, wfc n -> vkey key -> length key < f ->
    let nn := snd (delete f n key) in
    match n with Full _ => wf nn | _ => wfc nn end /\
    forall key', vkey key' -> lookup nn key' = if vkey_eq_dec key key' then None else lookup n key'.
  Proof.
    induction f; intros n key Hn Hk Hf; [lia|].
    destruct Hn as [->|Hn].
    { split; [left; auto|]. intros key' _. destruct (vkey_eq_dec key key'); auto. }
    inversion Hn as [k0 v0 Hvk | k0 cs0 Hne Hnb Hfull | cs0 Hlen Hch H16 Htwo]; subst.
    - (* leaf *)
      rewrite delete_leaf by auto.
      destruct (vkey_eq_dec k0 key) as [->|N];
        (split; [|intros key' Hk'; rewrite ?lookup_leaf by auto; destruct (vkey_eq_dec key key') as [<-|]; auto]).
      + left; auto.
      + right; auto.
      + destruct (vkey_eq_dec k0 key); congruence.
    - (* extension *)
      pose proof (vkey_vs_nibs _ _ Hk Hnb) as M1. pose proof (prefix_len_le_r key k0) as M2.
      destruct (Nat.eq_dec (prefix_len key k0) (length k0)) as [E|E].
      + rewrite delete_short_desc by (auto; lia).
        destruct (ext_descend _ _ Hne Hnb Hk E) as (Ekey & Ks & Lr).
        destruct (IHf (Full cs0) _ (or_intror Hfull) Ks ltac:(lia)) as [W L].
        split; [right; apply merge_wf; auto|].
        intros key' Hk'. rewrite lookup_merge. eapply lookup_under_short; eauto.
      + rewrite delete_short_miss by lia. split; [right; auto|]. intros key' Hk'.
        destruct (vkey_eq_dec key key') as [<-|]; auto.
        apply lookup_short_not_prefix. rewrite prefix_len_comm. auto.
    - (* full *)
      destruct key as [|i r]; [inversion Hk|].
      rewrite delete_full_desc by (apply wf_full_single_none; auto).
      assert (Li : i < 17) by (inversion Hk; lia).
      set (c' := snd (delete f (child cs0 i) r)).
      assert (S : (c' = Nil \/ slot_ok V i c') /\
                  forall r', vkey (i :: r') -> lookup c' r' = if vkey_eq_dec r r' then None else lookup (child cs0 i) r').
      { apply vkey_cons_inv in Hk as Hk2. destruct Hk2 as [[-> ->]|[L16 Hr]].
        - assert (Q : c' = Nil).
          { subst c'. destruct f; [cbn in Hf; lia|]. destruct H16 as [->|[v1 ->]]; reflexivity. }
          split; auto. apply (slot_update cs0 16 [] _ None); auto; lia.
        - destruct (IHf (child cs0 i) r (wf_full_child _ _ _ Hn L16) Hr ltac:(cbn in Hf; lia)) as [W L].
          apply wf_match_wfc in W.
          split; [destruct W; auto; right; left; auto|]. apply (slot_update cs0 i r _ None); auto; lia. }
      destruct S as [S L]. split.
      + apply collapse_wf; [apply full_ok_upd; auto; apply wf_full_ok; auto|].
        destruct Htwo as (a & b & N & A & B).
        destruct (Nat.eq_dec a i) as [->|Na]; [exists b|exists a]; rewrite child_upd_other by auto; auto.
      + intros key' Hk'. rewrite lookup_collapse. apply lookup_under_full; auto; lia.
  Qed.
End MAP.
